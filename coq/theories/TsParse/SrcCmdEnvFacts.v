(* The env command of Gen/TsParseSrc.v (the method cmdEnv of TestScript, testscript/cmd.go)
   as translated by harness/go2coq equals the hand-written model: with arguments it is cmd_env
   (every K=V through the translated Setenv, a bare name only displays), without arguments it
   leaves the state alone and panics exactly where the model's env_listing is None (an entry
   of ts.env without "=": kv[:-1]), negated it ends in Fatalf.  What the command prints (Logf)
   is outside the denoted state. *)
From Coq Require Import List Bool Arith ZArith NArith Lia.
From Coq.Strings Require Import Byte.
From GI Require Import Lib.Bytes Lib.BytesFacts Lib.GoSem Lib.GoSemExt Lib.GoSemExtFacts Lib.GoSemState
  Gen.TsParseConsts Gen.TsParseSrc TsParse.TsParse TsParse.TsScript TsParse.SrcLib TsParse.SrcLibFacts TsParse.SrcFacts.
Import ListNotations.
Local Notation bytes := (list byte) (only parsing).

Definition has_kv (kv : bytes) : bool := match split_kv kv with Some _ => true | None => false end.

Lemma src_cmdEnv_args_loop (L : Type) : forall (l : list bytes) line st,
  @src_TestScript_cmdEnv_loop2 L l (recv_of line st) = Ok (Normal (recv_of line (cmd_env l st))).
Proof.
  induction l as [|a l IH]; intros line st; [reflexivity|].
  cbn [src_TestScript_cmdEnv_loop2 cmd_env fold_left]. fold (cmd_env l (cmd_env_arg st a)).
  unfold cmd_env_arg, split_kv. rewrite go_index_sep.
  destruct (TsParse.index_byte ts_env_sep a) as [i|] eqn:E; go_red_recv.
  - pose proof (index_sep_lt a i E) as Hi.
    destruct (Z.of_nat i <? 0)%Z eqn:El; [apply Z.ltb_lt in El; lia|].
    unfold go_slice. replace (Z.of_nat i + 1)%Z with (Z.of_nat (S i)) by lia.
    rewrite slice_z_from, slice_z_to by lia. go_red_recv. rewrite src_Setenv_eq. go_red_recv. apply IH.
  - cbn [Z.ltb Z.compare]. rewrite src_Getenv_eq. go_red_recv. apply IH.
Qed.

Lemma src_cmdEnv_list_loop (L : Type) ts : forall (l : list bytes) (p : list (bytes * bool)),
  if forallb has_kv l
  then exists p', @src_TestScript_cmdEnv_loop1 L ts l (Some p) = Ok (Normal (Some p'))
  else @src_TestScript_cmdEnv_loop1 L ts l (Some p) = Panic.
Proof.
  induction l as [|kv l IH]; intros p; [cbn; eauto|].
  cbn [forallb src_TestScript_cmdEnv_loop1]. unfold has_kv at 1, split_kv. rewrite go_index_sep.
  destruct (TsParse.index_byte ts_env_sep kv) as [i|] eqn:E; cbn [andb].
  - pose proof (index_sep_lt kv i E) as Hi.
    unfold go_slice. rewrite slice_z_to by lia. go_red_recv. rewrite src_envvarname_eq. go_red_recv.
    destruct (negb (go_mapref_get false (Some p) (firstn i kv))); cbn [go_mapref_set]; go_red_recv; apply IH.
  - reflexivity.
Qed.

Lemma env_listing_go_some m : forall l pr,
  forallb has_kv l = match env_listing_go m l pr with Some _ => true | None => false end.
Proof.
  induction l as [|kv l IH]; intros pr; [reflexivity|].
  cbn [forallb env_listing_go]. unfold has_kv at 1.
  destruct (split_kv kv) as [[k v]|]; [|reflexivity]. cbn [andb].
  destruct (mem_bytes k pr); [apply IH|].
  rewrite (IH (k :: pr)). now destruct (env_listing_go m l (k :: pr)).
Qed.

Theorem src_cmdEnv_eq line st neg args :
  src_TestScript_cmdEnv (recv_of line st) neg args =
  if neg then Ok Failed
  else match args with
       | [] => match env_listing st with
               | Some _ => Ok (Done (recv_of line st))
               | None => Panic
               end
       | _ :: _ => Ok (Done (recv_of line (cmd_env args st)))
       end.
Proof.
  unfold src_TestScript_cmdEnv. destruct neg; [reflexivity|].
  destruct args as [|a args].
  - cbn [len_of length Z.of_nat Z.eqb]. go_red_recv. unfold go_mapref_make.
    pose proof (src_cmdEnv_list_loop unit (recv_of line st) (env_list st) []) as H.
    unfold env_listing. rewrite (env_listing_go_some (env_map st) (env_list st) []) in H.
    cbn [recv_of r_env].
    destruct (env_listing_go (env_map st) (env_list st) []).
    + destruct H as [p' H]. unfold Lib.Bytes.bytes in *. rewrite H. reflexivity.
    + unfold Lib.Bytes.bytes in *. rewrite H. reflexivity.
  - replace (len_of (a :: args) =? 0)%Z with false by (unfold len_of; cbn [length]; lia).
    rewrite src_cmdEnv_args_loop. reflexivity.
Qed.

(* a listing of entries that all hold "=" leaves the state as it is and does not panic *)
Theorem src_cmdEnv_listing_identity line st :
  forallb has_kv (env_list st) = true ->
  src_TestScript_cmdEnv (recv_of line st) false [] = Ok (Done (recv_of line st)).
Proof.
  intros H. rewrite src_cmdEnv_eq. unfold env_listing.
  rewrite (env_listing_go_some (env_map st) (env_list st) []) in H.
  now destruct (env_listing_go (env_map st) (env_list st) []).
Qed.
