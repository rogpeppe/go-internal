(* C02 — cmpenv expands its second file exactly once (cmp expands nothing), expansion of a text,
   and env K=$OTHER chains (the value is taken at assignment time). *)
From Coq Require Import List Bool Arith NArith Lia.
From Coq.Strings Require Import Byte.
From GI Require Import Lib.Bytes Lib.BytesFacts Gen.TsParseConsts TsParse.TsParse TsParse.TsSpec
  TsParse.TsParseFacts TsParse.TsEnvFacts.
Import ListNotations.
Local Notation bytes := (list byte) (only parsing).

(* expansion of a text that is not tokenized: pre and post may hold blanks, quotes, comment
   characters, newlines *)

Theorem expand_text_var : forall st pre k post,
  no_dollar pre -> valid_name k -> no_alnum_head post ->
  expand st (pre ++ dollar :: k ++ post) = pre ++ getenv st k ++ expand st post.
Proof.
  intros st pre k post Hpre Hk Hpost.
  rewrite <- (expand_key_plain st k (alnum_no_suffix k (proj1 (proj2 Hk)))).
  apply expand_ref; [exact Hpre|apply refers_var; assumption].
Qed.

Theorem expand_text_brace : forall st pre k post,
  no_dollar pre -> brace_ok k -> strip_suffix ts_regex_suffix k = None ->
  expand st (pre ++ dollar :: lbrace :: k ++ rbrace :: post) = pre ++ getenv st k ++ expand st post.
Proof.
  intros st pre k post Hpre Hk Hns. rewrite <- (expand_key_plain st k Hns), <- braced_app.
  apply expand_ref; [exact Hpre|apply refers_brace, Hk].
Qed.

Theorem expand_text_regex : forall st pre k post,
  no_dollar pre -> brace_ok k ->
  expand st (pre ++ dollar :: lbrace :: (k ++ ts_regex_suffix) ++ rbrace :: post)
  = pre ++ quote_meta (getenv st k) ++ expand st post.
Proof.
  intros st pre k post Hpre Hk. rewrite <- expand_key_regex, <- braced_app.
  apply expand_ref; [exact Hpre|apply refers_brace, brace_ok_suffix, Hk].
Qed.

Theorem expand_text_plain : forall st t, no_dollar t -> expand st t = t.
Proof. exact expand_plain. Qed.

(* cmpenv file1 file2 succeeds exactly when file1 is the one-pass expansion of file2;
   file1 is taken as it is *)
Theorem cmpenv_expands_once : forall st name1 name2 text1 text2,
  name1 <> name2 ->
  (do_cmd_cmp st false true name1 name2 text1 text2 = true <-> text1 = expand st text2).
Proof.
  intros st n1 n2 t1 t2 Hn. unfold do_cmd_cmp. rewrite (bytes_eqb_neq n1 n2 Hn). apply bytes_eqb_eq.
Qed.

(* cmp expands neither file: the outcome does not depend on the environment *)
Theorem cmp_no_expand : forall st name1 name2 text1 text2,
  name1 <> name2 ->
  (do_cmd_cmp st false false name1 name2 text1 text2 = true <-> text1 = text2).
Proof.
  intros st n1 n2 t1 t2 Hn. unfold do_cmd_cmp. rewrite (bytes_eqb_neq n1 n2 Hn). apply bytes_eqb_eq.
Qed.

Theorem cmp_negated : forall st env name1 name2 text1 text2,
  name1 <> name2 ->
  do_cmd_cmp st true env name1 name2 text1 text2 = negb (do_cmd_cmp st false env name1 name2 text1 text2).
Proof. intros st env n1 n2 t1 t2 Hn. unfold do_cmd_cmp. rewrite (bytes_eqb_neq n1 n2 Hn). reflexivity. Qed.

Theorem cmp_same_name_fails : forall st neg env name text1 text2,
  do_cmd_cmp st neg env name name text1 text2 = false.
Proof. intros. unfold do_cmd_cmp. rewrite bytes_eqb_refl. reflexivity. Qed.

(* a value is not expanded again, whatever it holds: the text pre $k post matches pre v post *)
Theorem cmpenv_value_not_reexpanded : forall st name1 name2 pre k post v,
  name1 <> name2 -> no_dollar pre -> no_dollar post -> no_alnum_head post ->
  valid_name k -> getenv st k = v ->
  do_cmd_cmp st false true name1 name2 (pre ++ v ++ post) (pre ++ dollar :: k ++ post) = true.
Proof.
  intros st n1 n2 pre k post v Hn Hpre Hpost Hhead Hk Hv.
  apply (cmpenv_expands_once st n1 n2 _ _ Hn).
  rewrite (expand_text_var st pre k post Hpre Hk Hhead), Hv, (expand_plain st post Hpost). reflexivity.
Qed.

Lemma env_cmd_plain : plain_word ts_env_cmd /\ plain_byte ts_env_sep = true.
Proof. split; [split; [discriminate|reflexivity]|reflexivity]. Qed.

Lemma forallb_app_single : forall (p : byte -> bool) a c,
  forallb p a = true -> p c = true -> forallb p (a ++ [c]) = true.
Proof. intros p a c Ha Hc. rewrite forallb_app, Ha. simpl. rewrite Hc. reflexivity. Qed.

(* the line  env k=$o  leaves k bound to the value o has at that moment *)
Theorem env_copy_at_assignment : forall st k o,
  plain_chunk k -> no_sep k -> valid_name o ->
  getenv (fst (ts_step st (ts_env_cmd ++ SP :: k ++ ts_env_sep :: dollar :: o))) k = getenv st o.
Proof.
  intros st k o Hk Hns Ho. unfold ts_step.
  destruct env_cmd_plain as [Hcmd Hsep].
  replace (ts_env_cmd ++ SP :: k ++ ts_env_sep :: dollar :: o)
    with (ts_env_cmd ++ SP :: (k ++ [ts_env_sep]) ++ dollar :: o ++ []).
  2:{ rewrite app_nil_r, <- app_assoc. reflexivity. }
  rewrite (parse_expand_once st ts_env_cmd (k ++ [ts_env_sep]) o [] (getenv st o) Hcmd
             (forallb_app_single plain_byte k ts_env_sep Hk Hsep) eq_refl I Ho eq_refl).
  rewrite bytes_eqb_refl. simpl fst. rewrite app_nil_r, <- app_assoc. simpl app.
  exact (latest_wins st [] k (getenv st o) [] Hns (Forall_nil _)).
Qed.

(* ... and later assignments to o (or to anything but k) do not change it *)
Theorem env_chain_snapshot : forall st k o later,
  plain_chunk k -> no_sep k -> valid_name o -> Forall (not_assign k) later ->
  getenv (cmd_env later (fst (ts_step st (ts_env_cmd ++ SP :: k ++ ts_env_sep :: dollar :: o)))) k
  = getenv st o.
Proof.
  intros st k o later Hk Hns Ho Hl.
  rewrite (unassigned_keeps later _ k Hl). exact (env_copy_at_assignment st k o Hk Hns Ho).
Qed.

From Coq Require Import String.

Example cmpenv_ex :
  let st := cmd_env [bs "A=has $B and ${B} and ${B@R}"%string; bs "B=never"%string] (setup_env []) in
  let text2 := bs "first line 'quoted' # not a comment"%string ++ [NL] ++ bs "value: $A."%string ++ [NL] in
  let text1 := bs "first line 'quoted' # not a comment"%string ++ [NL] ++ bs "value: has $B and ${B} and ${B@R}."%string ++ [NL] in
  do_cmd_cmp st false true (bs "out"%string) (bs "want"%string) text1 text2 = true /\
  do_cmd_cmp st false false (bs "out"%string) (bs "want"%string) text1 text2 = false /\
  do_cmd_cmp st false false (bs "out"%string) (bs "want"%string) text2 text2 = true /\
  do_cmd_cmp st false true (bs "out"%string) (bs "want"%string) text2 text2 = false /\
  do_cmd_cmp st true true (bs "out"%string) (bs "want"%string) text2 text2 = true.
Proof. vm_compute. repeat split. Qed.

Example env_chain_ex :
  let st0 := cmd_env [bs "O=first $O"%string] (setup_env []) in
  let st1 := fst (ts_step st0 (bs "env K=$O"%string)) in
  let st2 := fst (ts_step st1 (bs "env O=second"%string)) in
  plain_chunk (bs "K"%string) /\ no_sep (bs "K"%string) /\ valid_name (bs "O"%string) /\
  getenv st2 (bs "K"%string) = bs "first $O"%string /\ getenv st2 (bs "O"%string) = bs "second"%string /\
  ts_parse st2 (bs "args $K"%string) = Some [bs "args"%string; bs "first $O"%string].
Proof. vm_compute. repeat split; discriminate. Qed.
