(* The laws of C02 stated on the functions of Gen/TsParseSrc.v, i.e. on testscript.go as
   translated by harness/go2coq: each follows from the equality of the translated function
   with the model (SrcFacts.v, SrcParseFacts.v) and the corresponding theorem about the model.

   [with_line r line] is the receiver after parse has recorded the line; [src_setenvs] is a
   sequence of calls of the translated Setenv.  Every statement holds for every iteration
   bound fuel greater than the length of the line (parse is the only function with a loop
   that needs a bound). *)
From Coq Require Import List Bool Arith ZArith NArith Lia.
From Coq.Strings Require Import Byte.
From GI Require Import Lib.Bytes Lib.GoSem Lib.GoSemState
  Gen.TsParseConsts Gen.TsParseSrc TsParse.TsParse TsParse.TsSpec TsParse.TsParseFacts TsParse.TsEnvFacts
  TsParse.TsRegexFacts TsParse.TsCmpFacts TsParse.TsScript TsParse.SrcLib TsParse.SrcFacts TsParse.SrcParseFacts
  TsParse.SrcCmdEnvFacts.
Import ListNotations.
Local Notation bytes := (list byte) (only parsing).

(* ts.line = line *)
Definition with_line (r : ts_recv) (line : bytes) : ts_recv :=
  {| r_line := line; r_env := r_env r; r_envMap := r_envMap r |}.

(* ts.Setenv(k1, v1); ts.Setenv(k2, v2); ... as translated *)
Fixpoint src_setenvs (r : ts_recv) (kvs : list (bytes * bytes)) : res ts_recv :=
  match kvs with
  | [] => Ok r
  | (k, v) :: rest => bind (src_TestScript_Setenv r k v) (fun r' => src_setenvs r' rest)
  end.

Theorem source_parse_total fuel r line : length line < fuel ->
  src_TestScript_parse fuel r line <> Panic /\ src_TestScript_parse fuel r line <> OutOfFuel.
Proof. intros H. rewrite src_parse_eq by assumption. split; discriminate. Qed.

(* what parse returns, read back as the model's option *)
Lemma src_parse_words fuel r line ws : length line < fuel ->
  ts_parse (env_of r) line = Some ws ->
  src_TestScript_parse fuel r line = Ok (Done (with_line r line, ws)).
Proof. intros Hf H. rewrite src_parse_eq by assumption. now rewrite H. Qed.

(* ... for a law of the model that speaks of the value of one variable *)
Lemma src_parse_law fuel r k v line ws :
  src_TestScript_Getenv r k = Ok v -> length line < fuel ->
  (getenv (env_of r) k = v -> ts_parse (env_of r) line = Some ws) ->
  src_TestScript_parse fuel r line = Ok (Done (with_line r line, ws)).
Proof. intros Hg Hf H. rewrite src_Getenv_eq in Hg. injection Hg as Hg. apply src_parse_words; auto. Qed.

Theorem source_parse_failed_iff fuel r line : length line < fuel ->
  (src_TestScript_parse fuel r line = Ok Failed <-> ts_parse (env_of r) line = None).
Proof.
  intros Hf. rewrite src_parse_eq by assumption.
  destruct (ts_parse (env_of r) line); split; intros H; try discriminate; reflexivity.
Qed.

Theorem source_parse_quote_words fuel r ws : length (join_sp (map sq ws)) < fuel ->
  src_TestScript_parse fuel r (join_sp (map sq ws)) = Ok (Done (with_line r (join_sp (map sq ws)), ws)).
Proof. intros Hf. apply src_parse_words; [assumption|apply parse_quote_words]. Qed.

(* an unterminated quote is refused by Fatalf, not by a run-time panic *)
Example source_parse_unterminated :
  src_TestScript_parse 10 (recv_of [] (setup_env [])) [x61; x20; x27; x62] = Ok Failed.
Proof. vm_compute. reflexivity. Qed.

Theorem source_parse_expand_once fuel r cmd pre k post v :
  plain_word cmd -> plain_chunk pre -> plain_chunk post -> no_alnum_head post ->
  valid_name k -> src_TestScript_Getenv r k = Ok v ->
  length (cmd ++ SP :: pre ++ dollar :: k ++ post) < fuel ->
  src_TestScript_parse fuel r (cmd ++ SP :: pre ++ dollar :: k ++ post)
  = Ok (Done (with_line r (cmd ++ SP :: pre ++ dollar :: k ++ post), [cmd; pre ++ v ++ post])).
Proof.
  intros H1 H2 H3 H4 H5 Hg Hf. apply (src_parse_law fuel r k v _ _ Hg Hf). now apply parse_expand_once.
Qed.

Theorem source_parse_expand_once_brace fuel r cmd pre k post v :
  plain_word cmd -> plain_chunk pre -> plain_chunk post ->
  brace_word k -> strip_suffix ts_regex_suffix k = None -> src_TestScript_Getenv r k = Ok v ->
  length (cmd ++ SP :: pre ++ dollar :: lbrace :: k ++ rbrace :: post) < fuel ->
  src_TestScript_parse fuel r (cmd ++ SP :: pre ++ dollar :: lbrace :: k ++ rbrace :: post)
  = Ok (Done (with_line r (cmd ++ SP :: pre ++ dollar :: lbrace :: k ++ rbrace :: post), [cmd; pre ++ v ++ post])).
Proof.
  intros H1 H2 H3 H4 H5 Hg Hf. apply (src_parse_law fuel r k v _ _ Hg Hf). now apply parse_expand_once_brace.
Qed.

Theorem source_parse_expand_regex fuel r cmd pre k post v :
  plain_word cmd -> plain_chunk pre -> plain_chunk post ->
  brace_word k -> src_TestScript_Getenv r k = Ok v ->
  length (cmd ++ SP :: pre ++ dollar :: lbrace :: (k ++ ts_regex_suffix) ++ rbrace :: post) < fuel ->
  src_TestScript_parse fuel r (cmd ++ SP :: pre ++ dollar :: lbrace :: (k ++ ts_regex_suffix) ++ rbrace :: post)
  = Ok (Done (with_line r (cmd ++ SP :: pre ++ dollar :: lbrace :: (k ++ ts_regex_suffix) ++ rbrace :: post),
              [cmd; pre ++ quote_meta v ++ post])).
Proof.
  intros H1 H2 H3 H4 Hg Hf. apply (src_parse_law fuel r k v _ _ Hg Hf). now apply parse_expand_regex.
Qed.

Theorem source_expand_regex_denotes fuel r cmd k v :
  plain_word cmd -> brace_word k -> src_TestScript_Getenv r k = Ok v -> utf8_ok v = true ->
  length (cmd ++ SP :: dollar :: lbrace :: (k ++ ts_regex_suffix) ++ [rbrace]) < fuel ->
  exists p,
    src_TestScript_parse fuel r (cmd ++ SP :: dollar :: lbrace :: (k ++ ts_regex_suffix) ++ [rbrace])
    = Ok (Done (with_line r (cmd ++ SP :: dollar :: lbrace :: (k ++ ts_regex_suffix) ++ [rbrace]), [cmd; p]))
    /\ re_literal p = Some v.
Proof.
  intros H1 H2 Hg Hu Hf. rewrite src_Getenv_eq in Hg. injection Hg as Hg.
  destruct (expand_regex_denotes (env_of r) cmd k v H1 H2 Hg Hu) as [p [Hp Hl]].
  exists p. split; [|assumption]. now apply src_parse_words.
Qed.

Theorem source_expand_total r s : exists t, src_TestScript_expand r s = Ok t.
Proof. eexists. apply src_expand_eq. Qed.

Theorem source_expand_text_var r pre k post v :
  no_dollar pre -> valid_name k -> no_alnum_head post -> src_TestScript_Getenv r k = Ok v ->
  exists rest, src_TestScript_expand r post = Ok rest /\
    src_TestScript_expand r (pre ++ dollar :: k ++ post) = Ok (pre ++ v ++ rest).
Proof.
  intros H1 H2 H3 Hg. rewrite src_Getenv_eq in Hg. injection Hg as <-.
  exists (expand (env_of r) post). rewrite !src_expand_eq. split; [reflexivity|].
  now rewrite expand_text_var.
Qed.

Theorem source_expand_text_regex r pre k post v :
  no_dollar pre -> brace_ok k -> src_TestScript_Getenv r k = Ok v ->
  exists rest, src_TestScript_expand r post = Ok rest /\
    src_TestScript_expand r (pre ++ dollar :: lbrace :: (k ++ ts_regex_suffix) ++ rbrace :: post)
    = Ok (pre ++ quote_meta v ++ rest).
Proof.
  intros H1 H2 Hg. rewrite src_Getenv_eq in Hg. injection Hg as <-.
  exists (expand (env_of r) post). rewrite !src_expand_eq. split; [reflexivity|].
  now rewrite expand_text_regex.
Qed.

Lemma src_setenvs_eq : forall kvs line st,
  src_setenvs (recv_of line st) kvs =
  Ok (recv_of line (fold_left (fun s kv => setenv (fst kv) (snd kv) s) kvs st)).
Proof.
  induction kvs as [|[k v] kvs IH]; intros line st; [reflexivity|].
  cbn [src_setenvs fold_left fst snd]. rewrite src_Setenv_eq. cbn [bind]. apply IH.
Qed.

Lemma getenv_fold_other : forall kvs st k,
  Forall (fun kv => fst kv <> k) kvs ->
  getenv (fold_left (fun s kv => setenv (fst kv) (snd kv) s) kvs st) k = getenv st k.
Proof.
  induction kvs as [|[k' v'] kvs IH]; intros st k H; [reflexivity|].
  inversion H as [|? ? Hh Ht]; subst. cbn [fold_left fst snd] in *.
  rewrite IH by assumption. now apply getenv_setenv_other.
Qed.

(* after setEnv(vars) and any sequence of Setenv calls, Getenv and expansion see the value of the
   last call for the name; the calls never panic (the map was made by setEnv) *)
Theorem source_latest_wins r0 vars pre k v post :
  Forall (fun kv => fst kv <> k) post ->
  exists r1 r2,
    src_TestScript_setEnv r0 vars = Ok r1 /\
    src_setenvs r1 (pre ++ (k, v) :: post) = Ok r2 /\
    src_TestScript_Getenv r2 k = Ok v.
Proof.
  intros Hpost. eexists. eexists. split; [apply src_setEnv_eq|].
  rewrite src_setenvs_eq. split; [reflexivity|].
  rewrite src_Getenv_eq, env_of_recv_of, fold_left_app. cbn [fold_left fst snd].
  rewrite getenv_fold_other by assumption. f_equal. apply getenv_setenv_same.
Qed.

Theorem source_unassigned_keeps line st kvs k :
  Forall (fun kv => fst kv <> k) kvs ->
  exists r2, src_setenvs (recv_of line st) kvs = Ok r2 /\
    src_TestScript_Getenv r2 k = src_TestScript_Getenv (recv_of line st) k.
Proof.
  intros H. eexists. split; [apply src_setenvs_eq|].
  rewrite !src_Getenv_eq, !env_of_recv_of. f_equal. now apply getenv_fold_other.
Qed.

(* the lookup map agrees with the list handed to children in every state reached by the
   translated setEnv and Setenv (names without the KEY=VALUE separator: what cmdEnv passes) *)
Theorem source_envmap_agrees_with_list r0 vars kvs :
  Forall (fun kv => no_sep (fst kv)) kvs ->
  exists r1 r2,
    src_TestScript_setEnv r0 vars = Ok r1 /\ src_setenvs r1 kvs = Ok r2 /\ consistent (env_of r2).
Proof.
  intros Hk. eexists. eexists. split; [apply src_setEnv_eq|]. rewrite src_setenvs_eq. split; [reflexivity|].
  rewrite env_of_recv_of. revert Hk. generalize (setup_consistent vars). generalize (setup_env vars).
  intros st Hst Hk. revert st Hst. induction kvs as [|[k v] kvs IH]; intros st Hst; [exact Hst|].
  inversion Hk as [|? ? Hh Ht]; subst. cbn [fold_left fst snd] in *. apply IH; [assumption|].
  now apply setenv_consistent.
Qed.

(* ... and a variable set by Setenv is expanded, once, by a later parse *)
Theorem source_setenv_then_parse fuel line0 st cmd pre k post v :
  plain_word cmd -> plain_chunk pre -> plain_chunk post -> no_alnum_head post -> valid_name k ->
  length (cmd ++ SP :: pre ++ dollar :: k ++ post) < fuel ->
  exists r1,
    src_TestScript_Setenv (recv_of line0 st) k v = Ok r1 /\
    src_TestScript_parse fuel r1 (cmd ++ SP :: pre ++ dollar :: k ++ post)
    = Ok (Done (with_line r1 (cmd ++ SP :: pre ++ dollar :: k ++ post), [cmd; pre ++ v ++ post])).
Proof.
  intros H1 H2 H3 H4 H5 Hf. eexists. split; [apply src_Setenv_eq|].
  apply source_parse_expand_once; try assumption.
  rewrite src_Getenv_eq, env_of_recv_of. f_equal. apply getenv_setenv_same.
Qed.

(* env ... K=V ...: after the translated command the translated Getenv returns the value of the last
   assignment to the name on the line *)
Theorem source_env_latest_wins line st pre k v post :
  no_sep k -> Forall (not_assign k) post ->
  exists r', src_TestScript_cmdEnv (recv_of line st) false (pre ++ (k ++ ts_env_sep :: v) :: post) = Ok (Done r') /\
    src_TestScript_Getenv r' k = Ok v.
Proof.
  intros Hk Hp. eexists. split.
  - rewrite src_cmdEnv_eq. destruct pre; reflexivity.
  - rewrite src_Getenv_eq, env_of_recv_of. f_equal. now apply latest_wins.
Qed.

(* ! env is refused by Fatalf *)
Theorem source_env_negated r args : src_TestScript_cmdEnv r true args = Ok Failed.
Proof. reflexivity. Qed.

(* the hypotheses are satisfiable, the bound is needed, and the failure values of the translation
   are real *)
Require Coq.Strings.String.
Import Coq.Strings.String.StringSyntax.
Delimit Scope string_scope with string.
Definition Bs (s : String.string) : bytes := String.list_byte_of_string s.
Arguments Bs s%string.

Definition ex_recv : ts_recv := recv_of [] (setup_env [Bs "WORK=/tmp/w"; Bs "X=a.b"; Bs "novalue"]).

Example ex_src_parse :
  src_TestScript_parse 40 ex_recv (Bs "exec 'a  b''c' $WORK/x ${X@R}$X # $WORK")
  = Ok (Done (with_line ex_recv (Bs "exec 'a  b''c' $WORK/x ${X@R}$X # $WORK"),
              [Bs "exec"; Bs "a  b'c"; Bs "/tmp/w/x"; Bs "a\.ba.b"])).
Proof. vm_compute. reflexivity. Qed.

Example ex_src_fuel_needed :
  src_TestScript_parse 3 ex_recv (Bs "a b") = OutOfFuel /\
  src_TestScript_parse 4 ex_recv (Bs "a b") = Ok (Done (with_line ex_recv (Bs "a b"), [Bs "a"; Bs "b"])).
Proof. vm_compute. split; reflexivity. Qed.

Example ex_src_failed_not_panic :
  src_TestScript_parse 9 ex_recv (Bs "a 'b") = Ok Failed /\
  src_TestScript_Setenv {| r_line := []; r_env := []; r_envMap := go_mapref_nil |} (Bs "K") (Bs "v") = Panic.
Proof. vm_compute. split; reflexivity. Qed.

Example ex_src_setenv_getenv :
  exists r1 r2, src_TestScript_setEnv {| r_line := []; r_env := []; r_envMap := go_mapref_nil |} [Bs "K=old"; Bs "L=1"] = Ok r1 /\
    src_setenvs r1 [(Bs "K", Bs "v1"); (Bs "M", Bs "m"); (Bs "K", Bs "v2"); (Bs "L", Bs "2")] = Ok r2 /\
    src_TestScript_Getenv r2 (Bs "K") = Ok (Bs "v2") /\ src_TestScript_expand r2 (Bs "$K-${L}-$M-$none.") = Ok (Bs "v2-2-m-.") /\
    r_env r2 = [Bs "K=old"; Bs "L=1"; Bs "K=v1"; Bs "M=m"; Bs "K=v2"; Bs "L=2"].
Proof.
  eexists. eexists. split; [apply src_setEnv_eq|]. split; [apply src_setenvs_eq|].
  rewrite src_Getenv_eq, src_expand_eq, env_of_recv_of. vm_compute. repeat split.
Qed.

Example ex_src_cmdenv :
  exists r1 r2, src_TestScript_setEnv {| r_line := []; r_env := []; r_envMap := go_mapref_nil |} [Bs "K=old"; Bs "junk"] = Ok r1 /\
    src_TestScript_cmdEnv r1 false [Bs "K=v1"; Bs "M"; Bs "K=v=2"] = Ok (Done r2) /\
    src_TestScript_Getenv r2 (Bs "K") = Ok (Bs "v=2") /\
    (* the listing panics on the entry without "=" (kv[:-1]), as the Go code does *)
    src_TestScript_cmdEnv r2 false [] = Panic /\
    src_TestScript_cmdEnv (recv_of [] (setup_env [Bs "K=old"; Bs "K=new"])) false [] = Ok (Done (recv_of [] (setup_env [Bs "K=old"; Bs "K=new"]))).
Proof.
  eexists. eexists. split; [apply src_setEnv_eq|]. rewrite !src_cmdEnv_eq. split; [reflexivity|].
  rewrite src_Getenv_eq, env_of_recv_of. vm_compute. repeat split.
Qed.

(* the hypotheses of source_parse_expand_once / _regex hold of ordinary words *)
Example ex_src_expand_hyps :
  plain_word (Bs "exec") /\ plain_chunk (Bs "a-") /\ plain_chunk (Bs "/x") /\ no_alnum_head (Bs "/x") /\
  valid_name (Bs "WORK") /\ brace_word (Bs "X") /\ src_TestScript_Getenv ex_recv (Bs "WORK") = Ok (Bs "/tmp/w").
Proof.
  unfold plain_word, plain_chunk, no_alnum_head, valid_name, brace_word, brace_ok.
  repeat split; try reflexivity; try discriminate.
Qed.
