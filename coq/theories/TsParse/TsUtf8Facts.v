(* C02 — the UTF-8 automaton of TsParse.v accepts exactly what Lib.Bytes.utf8_valid (the model of
   unicode/utf8.Valid shared with the txtar development) accepts. *)
From Coq Require Import List Bool Arith NArith Lia ZifyBool.
From Coq.Strings Require Import Byte.
From GI Require Import Lib.Bytes TsParse.TsParse.
Import ListNotations.
Local Notation bytes := (list byte) (only parsing).

Lemma cont_is_range : forall c, cont c = in_range 128 191 c.
Proof. reflexivity. Qed.

(* utf8_valid tests a range of first bytes and then its special members, the automaton tests the
   special members first and then the rest of the range *)
Lemma lead_tests : forall b,
  in_range 224 239 b = (N.eqb (bN b) 224 || N.eqb (bN b) 237 || in_range 225 239 b) /\
  in_range 240 244 b = (N.eqb (bN b) 240 || N.eqb (bN b) 244 || in_range 241 243 b).
Proof. intros b. unfold in_range. lia. Qed.

(* with continuation bytes expected, the automaton tests one byte and expects one less *)
Lemma utf8_dfa_need : forall d n lo hi,
  utf8_dfa d (S n) lo hi =
  match d with c :: r => in_range lo hi c && utf8_dfa r n 128 191 | [] => false end.
Proof. intros [|c r] n lo hi; [reflexivity|]. cbn [utf8_dfa]. destruct (in_range lo hi c); reflexivity. Qed.

Lemma utf8_fuel_dfa : forall f d,
  length d <= f -> utf8_valid_fuel f d = utf8_dfa d 0 128 191.
Proof.
  induction f as [|f IH]; intros d Hlen.
  - destruct d as [|b r]; [reflexivity|simpl in Hlen; lia].
  - destruct d as [|b r]; [reflexivity|]. simpl in Hlen.
    cbn [utf8_valid_fuel utf8_dfa]. unfold cont.
    destruct (N.ltb (bN b) 128); [apply IH; lia|].
    destruct (lead_tests b) as [-> ->].
    (* eight classes of first byte; in the last both definitions reject *)
    destruct (in_range 194 223 b).
    2: destruct (N.eqb (bN b) 224).
    3: destruct (N.eqb (bN b) 237).
    4: destruct (in_range 225 239 b).
    5: destruct (N.eqb (bN b) 240).
    6: destruct (N.eqb (bN b) 244).
    7: destruct (in_range 241 243 b).
    8: reflexivity.
    (* one, two or three continuation bytes: utf8_valid looks at them together, the automaton
       makes one transition for each *)
    all: cbn [orb]; rewrite utf8_dfa_need; destruct r as [|c1 r]; [reflexivity|].
    2-7: rewrite utf8_dfa_need; destruct r as [|c2 r]; [symmetry; apply andb_false_r|].
    5-7: rewrite utf8_dfa_need; destruct r as [|c3 r]; [rewrite !andb_false_r; reflexivity|].
    all: rewrite <- IH by (simpl in Hlen; lia); rewrite ?andb_assoc; reflexivity.
Qed.

Theorem utf8_ok_is_utf8_valid : forall d, utf8_ok d = utf8_valid d.
Proof. intros d. unfold utf8_ok, utf8_valid. symmetry. apply utf8_fuel_dfa. lia. Qed.
