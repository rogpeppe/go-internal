(* C02 — the control structure of parse, expand and doCmdCmp read from the current source
   (Gen/TsParseConsts.v, regenerated on every run) is the one the model was written against
   (TsShape.v).  Kept in a file of its own: when the build stops here (and so in Properties/C02.v,
   which imports this file) and not in a proof about the model, a modelled function was restructured
   and parse_go / expand_key / do_cmd_cmp must be re-read against it. *)
From Coq Require Import List.
From Coq.Strings Require Import Byte.
From GI Require Import Gen.TsParseConsts TsParse.TsShape.

Theorem source_shapes_current :
  ts_parse_shape = parse_go_shape /\ ts_expand_shape = expand_shape /\ ts_cmp_shape = cmp_shape.
Proof. vm_compute. repeat split. Qed.

(* the same for the script level: the line loop of run, cmdEnv, Setenv, Getenv, setEnv *)
Theorem script_shapes_current :
  ts_runloop_shape = runloop_shape /\ ts_cmdenv_shape = cmdenv_shape /\ ts_setenv_shape = setenv_shape /\
  ts_getenv_shape = getenv_shape /\ ts_setenvall_shape = setenvall_shape.
Proof. vm_compute. repeat split. Qed.
