(* C02 — the script level: no line is lost or altered by the line splitter of run() whatever its
   length and position, every line reaches the tokenizer exactly once and in order, read-only
   commands are the identity on (env list, env map, cwd), and after any history of env / ts.Setenv
   / cd / read-only commands the lookup map, the list and an executed program agree on the value of
   the latest assignment. *)
From Coq Require Import List Bool Arith NArith Lia.
From Coq.Strings Require Import Byte.
From GI Require Import Lib.Bytes Lib.BytesFacts Gen.TsParseConsts TsParse.TsParse TsParse.TsSpec TsParse.TsParseFacts
  TsParse.TsEnvFacts TsParse.TsHolds TsParse.TsRegexFacts TsParse.TsCmpFacts TsParse.TsHoldsFacts.
From GI Require Import TsParse.TsScript.
Import ListNotations.
Local Notation bytes := (list byte) (only parsing).

(* glue a prefix to the first line of a list of lines *)
Definition prepend (p : bytes) (ls : list bytes) : list bytes :=
  match ls with
  | [] => match p with [] => [] | _ => [p] end
  | l :: r => (p ++ l) :: r
  end.

Lemma prepend_nil : forall ls, prepend [] ls = ls.
Proof. intros [|l r]; reflexivity. Qed.

Lemma prepend_snoc : forall p c ls, prepend p (prepend [c] ls) = prepend (p ++ [c]) ls.
Proof.
  intros p c [|l r]; simpl.
  - destruct (p ++ [c]) eqn:E; [destruct p; discriminate|reflexivity].
  - rewrite <- app_assoc. reflexivity.
Qed.

Lemma script_lines_cons_other : forall c r,
  beq c NL = false -> script_lines (c :: r) = prepend [c] (script_lines r).
Proof. intros c r H. simpl. rewrite H. destruct (script_lines r); reflexivity. Qed.

Lemma script_lines_acc_spec : forall s cur_rev acc_rev,
  script_lines_acc s cur_rev acc_rev = rev acc_rev ++ prepend (rev cur_rev) (script_lines s).
Proof.
  induction s as [|c r IH]; intros cur_rev acc_rev.
  - simpl script_lines_acc. simpl script_lines. unfold prepend.
    destruct cur_rev as [|x cur].
    + rewrite rev_append_rev, app_nil_r. simpl. rewrite app_nil_r. reflexivity.
    + rewrite !rev_append_rev, !app_nil_r. simpl rev. destruct (rev cur); reflexivity.
  - simpl script_lines_acc. destruct (beq c NL) eqn:E.
    + rewrite IH. simpl script_lines. rewrite E. rewrite rev_append_rev, app_nil_r.
      rewrite prepend_nil. simpl rev. rewrite <- app_assoc. simpl. rewrite app_nil_r. reflexivity.
    + rewrite IH. rewrite (script_lines_cons_other c r E). simpl rev. rewrite prepend_snoc. reflexivity.
Qed.

(* the extracted, constant-stack splitter is the splitter of the statements *)
Theorem script_lines_tr_eq : forall s, script_lines_tr s = script_lines s.
Proof. intros s. unfold script_lines_tr. rewrite script_lines_acc_spec. simpl. apply prepend_nil. Qed.

Lemma script_lines_nil_inv : forall s, script_lines s = [] -> s = [].
Proof.
  intros [|c r] H; [reflexivity|]. simpl in H. destruct (beq c NL); [discriminate|].
  destruct (script_lines r); discriminate.
Qed.

Lemma open_ended_cons : forall c x r, open_ended (c :: x :: r) = open_ended (x :: r).
Proof. intros. unfold open_ended. rewrite last_byte_cons by discriminate. reflexivity. Qed.

Lemma unlines_cons : forall l ls, unlines (l :: ls) = l ++ NL :: unlines ls.
Proof. intros. unfold unlines. simpl. rewrite <- app_assoc. reflexivity. Qed.

(* every byte of the script belongs to exactly one line, in order: writing the lines back with
   their line feeds gives the script (plus the line feed its last line lacked); no line is
   dropped or cut, whatever its length *)
Theorem lines_total : forall s,
  unlines (script_lines s) = s ++ (if open_ended s then [NL] else []).
Proof.
  induction s as [|c r IH]; [reflexivity|].
  destruct (beq c NL) eqn:E.
  - simpl script_lines. rewrite E. rewrite unlines_cons, IH. apply beq_eq in E. subst c. simpl.
    destruct r as [|x r]; [reflexivity|]. rewrite open_ended_cons. reflexivity.
  - rewrite (script_lines_cons_other c r E).
    destruct (script_lines r) as [|l ls] eqn:El.
    + apply script_lines_nil_inv in El. subst r. simpl. unfold open_ended, last_byte. simpl. rewrite E. reflexivity.
    + simpl prepend. rewrite unlines_cons. rewrite unlines_cons in IH. simpl. f_equal.
      rewrite IH. destruct r as [|x r]; [discriminate El|]. rewrite open_ended_cons. reflexivity.
Qed.

Theorem lines_no_nl : forall s, Forall (fun l => ~ In NL l) (script_lines s).
Proof.
  induction s as [|c r IH]; [constructor|].
  destruct (beq c NL) eqn:E.
  - simpl. rewrite E. constructor; [intros []|exact IH].
  - rewrite (script_lines_cons_other c r E). destruct (script_lines r) as [|l ls].
    + constructor; [|constructor]. intros [H|[]]. subst c. rewrite beq_refl in E. discriminate.
    + inversion IH as [|x y Hl Hls]; subst. constructor; [|exact Hls].
      intros [H|H]; [subst c; rewrite beq_refl in E; discriminate|exact (Hl H)].
Qed.

Lemma script_lines_line : forall l rest,
  ~ In NL l -> script_lines (l ++ NL :: rest) = l :: script_lines rest.
Proof.
  induction l as [|c l IH]; intros rest H.
  - reflexivity.
  - assert (E : beq c NL = false) by (apply beq_false; intros X; apply H; left; exact X).
    change ((c :: l) ++ NL :: rest) with (c :: (l ++ NL :: rest)).
    rewrite (script_lines_cons_other c _ E), IH by (intros X; apply H; right; exact X). reflexivity.
Qed.

Lemma script_lines_last : forall l, l <> [] -> ~ In NL l -> script_lines l = [l].
Proof.
  induction l as [|c l IH]; intros Hne H; [contradiction|].
  assert (E : beq c NL = false) by (apply beq_false; intros X; apply H; left; exact X).
  rewrite (script_lines_cons_other c _ E). destruct l as [|x l]; [reflexivity|].
  rewrite IH; [reflexivity|discriminate|intros X; apply H; right; exact X].
Qed.

(* a script written line by line is read back as exactly these lines, whatever their lengths
   (the lines may hold any byte but LF: CR, NUL, quotes, ...) *)
Theorem lines_of_unlines : forall ls,
  Forall (fun l => ~ In NL l) ls -> script_lines (unlines ls) = ls.
Proof.
  induction ls as [|l ls IH]; intros H; [reflexivity|].
  inversion H as [|x y Hl Hls]; subst. rewrite unlines_cons, (script_lines_line l _ Hl), (IH Hls). reflexivity.
Qed.

(* ... also when the last line has no line feed *)
Theorem lines_of_unlines_open : forall ls l,
  Forall (fun l => ~ In NL l) ls -> l <> [] -> ~ In NL l ->
  script_lines (unlines ls ++ l) = ls ++ [l].
Proof.
  induction ls as [|x ls IH]; intros l H Hne Hl.
  - simpl. apply script_lines_last; assumption.
  - inversion H as [|a b Hx Hls]; subst. rewrite unlines_cons, <- app_assoc. simpl app.
    rewrite (script_lines_line x _ Hx), (IH l Hls Hne Hl). reflexivity.
Qed.

(* the line terminator of run() is the LF of the statements; a phase comment line, which run()
   does not hand to the tokenizer, is a line in which the tokenizer finds no word *)
Theorem line_sep_is_nl : ts_line_sep = [NL].
Proof. reflexivity. Qed.

Theorem phase_line_no_words : forall st r, ts_parse st (ts_phase_prefix ++ r) = Some [].
Proof.
  intros st r. change (ts_phase_prefix ++ r) with ([] ++ x23 :: r).
  rewrite (parse_comment st [] x23 r); reflexivity.
Qed.

Theorem phase_line_keeps_state : forall st r, fst (ts_step st (ts_phase_prefix ++ r)) = st.
Proof. intros st r. unfold ts_step. rewrite phase_line_no_words. reflexivity. Qed.

Lemma run_lines_cons : forall st l r,
  run_lines st (l :: r) =
  (fst (run_lines (fst (ts_step st l)) r), snd (ts_step st l) :: snd (run_lines (fst (ts_step st l)) r)).
Proof.
  intros st l r. simpl. destruct (ts_step st l) as [st1 res]. simpl.
  destruct (run_lines st1 r) as [st2 rs]. reflexivity.
Qed.

Lemma ts_step_snd : forall st l, snd (ts_step st l) = ts_parse st l.
Proof.
  intros st l. unfold ts_step. destruct (ts_parse st l) as [[|c args]|]; try reflexivity.
  destruct (bytes_eqb c ts_env_cmd); reflexivity.
Qed.

Theorem run_lines_length : forall ls st, length (snd (run_lines st ls)) = length ls.
Proof.
  induction ls as [|l r IH]; intros st; [reflexivity|]. rewrite run_lines_cons. simpl. rewrite IH. reflexivity.
Qed.

(* one tokenizer call per line, in order: result number i is the tokenizer's answer for line
   number i in the environment left by the lines before it *)
Theorem run_lines_each : forall ls st i l,
  nth_error ls i = Some l ->
  nth_error (snd (run_lines st ls)) i = Some (ts_parse (fst (run_lines st (firstn i ls))) l).
Proof.
  induction ls as [|x r IH]; intros st i l H; [destruct i; discriminate|].
  rewrite run_lines_cons. destruct i as [|i].
  - injection H as H. subst x. simpl. rewrite ts_step_snd. reflexivity.
  - simpl in H. simpl nth_error. rewrite (IH _ i l H). simpl firstn. rewrite run_lines_cons. reflexivity.
Qed.

Theorem run_script_length : forall st s,
  length (snd (run_script st s)) = length (script_lines s).
Proof. intros. unfold run_script. rewrite script_lines_tr_eq. apply run_lines_length. Qed.

Definition quoted_line (ws : list bytes) : bytes := join_sp (map sq ws).

Lemma run_quoted_lines : forall wss st, snd (run_lines st (map quoted_line wss)) = map Some wss.
Proof.
  induction wss as [|ws wss IH]; intros st; [reflexivity|].
  simpl map. rewrite run_lines_cons. simpl. rewrite ts_step_snd. unfold quoted_line at 1.
  rewrite parse_quote_words, IH. reflexivity.
Qed.

(* EVERY line's words reach its command: a script of any number of lines, each the quoting of any
   words (of any length, holding any bytes but LF), gives for every line exactly its words,
   whatever the environment and whatever the lines before it did to it *)
Theorem script_quoted_lines : forall st wss,
  Forall (Forall (fun w => ~ In NL w)) wss ->
  snd (run_script st (unlines (map quoted_line wss))) = map Some wss.
Proof.
  intros st wss H. unfold run_script. rewrite script_lines_tr_eq, lines_of_unlines.
  - apply run_quoted_lines.
  - induction H as [|ws wss Hws _ IH]; [constructor|]. constructor; [|exact IH].
    apply quoted_line_single. exact Hws.
Qed.

Lemma cmd_env_display : forall args st, forallb display_arg args = true -> cmd_env args st = st.
Proof.
  induction args as [|a args IH]; intros st H; [reflexivity|].
  simpl in H. apply andb_true_iff in H. destruct H as [Ha Hr].
  simpl. unfold cmd_env_arg. unfold display_arg in Ha. destruct (split_kv a); [discriminate|].
  apply IH. exact Hr.
Qed.

(* a command that only reads leaves the list handed to programs, the lookup map and the current
   directory as they are: the listing `env`, `env NAME`, exists, grep, cmp, ... *)
Theorem hstep_readonly : forall s c, readonly c = true -> hstep s c = s.
Proof.
  intros [e d] [args|k v|dir|] H; try discriminate H; simpl.
  - rewrite (cmd_env_display args e H). reflexivity.
  - reflexivity.
Qed.

(* ... wherever it stands in a history: dropping all of them changes nothing of what is seen afterwards *)
Theorem readonly_commands_frame : forall h s,
  hrun (filter (fun c => negb (readonly c)) h) s = hrun h s.
Proof.
  induction h as [|c h IH]; intros s; [reflexivity|].
  simpl filter. destruct (readonly c) eqn:E; simpl negb; cbv iota.
  - unfold hrun at 2. simpl fold_left. rewrite (hstep_readonly s c E). apply IH.
  - unfold hrun. simpl fold_left. apply IH.
Qed.

Theorem listing_is_identity : forall s, hstep s (HEnv []) = s.
Proof. intros s. apply hstep_readonly. reflexivity. Qed.

(* a script line is the command hcmd_of_line reads from it *)
Theorem ts_step_is_hstep : forall st cd line,
  fst (ts_step st line) = hs_env (hstep {| hs_env := st; hs_cd := cd |} (hcmd_of_line st line)).
Proof.
  intros st cd line. unfold ts_step, hcmd_of_line.
  destruct (ts_parse st line) as [[|c args]|]; try reflexivity.
  destruct (bytes_eqb c ts_env_cmd); reflexivity.
Qed.

Lemma last_assign_app : forall k a b,
  last_assign k (a ++ b) = match last_assign k b with Some v => Some v | None => last_assign k a end.
Proof.
  intros k a b. induction a as [|[k' v] a IH]; simpl.
  - destruct (last_assign k b); reflexivity.
  - rewrite IH. destruct (last_assign k b); reflexivity.
Qed.

Lemma cmd_env_getenv : forall args st k,
  getenv (cmd_env args st) k = pick (last_assign k (cmd_assigns (HEnv args))) (getenv st k).
Proof.
  induction args as [|a args IH]; intros st k; [reflexivity|].
  change (cmd_env (a :: args) st) with (cmd_env args (cmd_env_arg st a)). rewrite IH.
  simpl cmd_assigns. rewrite last_assign_app.
  fold (cmd_assigns (HEnv args)).
  destruct (last_assign k (cmd_assigns (HEnv args))); [reflexivity|].
  unfold cmd_env_arg. destruct (split_kv a) as [[k' v]|]; [|reflexivity].
  rewrite getenv_setenv. simpl. destruct (bytes_eqb k' k); reflexivity.
Qed.

Lemma hstep_getenv : forall s c k,
  getenv (hs_env (hstep s c)) k = pick (last_assign k (cmd_assigns c)) (getenv (hs_env s) k).
Proof.
  intros s [args|k' v|dir|] k; simpl hs_env; try reflexivity.
  - apply cmd_env_getenv.
  - rewrite getenv_setenv. simpl. destruct (bytes_eqb k' k); reflexivity.
Qed.

(* after any history, expansion and ts.Getenv see the value of the latest assignment (by env or by
   ts.Setenv), or the initial value when the history assigns nothing to the name *)
Theorem history_latest_wins : forall h s k,
  getenv (hs_env (hrun h s)) k = pick (last_assign k (hist_assigns h)) (getenv (hs_env s) k).
Proof.
  induction h as [|c h IH]; intros s k; [reflexivity|].
  change (hrun (c :: h) s) with (hrun h (hstep s c)). rewrite IH.
  change (hist_assigns (c :: h)) with (cmd_assigns c ++ hist_assigns h). rewrite last_assign_app.
  destruct (last_assign k (hist_assigns h)); [reflexivity|]. simpl pick. apply hstep_getenv.
Qed.

Lemma hstep_consistent : forall s c,
  api_ok c = true -> consistent (hs_env s) -> consistent (hs_env (hstep s c)).
Proof.
  intros s [args|k v|dir|] Hok Hc; simpl hs_env; try exact Hc.
  - apply cmd_env_consistent. exact Hc.
  - apply setenv_consistent; [apply no_sepb_ok; exact Hok|exact Hc].
Qed.

(* the lookup map keeps agreeing with the list through any history that uses ts.Setenv with a
   proper key *)
Theorem history_consistent : forall h s,
  forallb api_ok h = true -> consistent (hs_env s) -> consistent (hs_env (hrun h s)).
Proof.
  induction h as [|c h IH]; intros s Hok Hc; [exact Hc|].
  simpl in Hok. apply andb_true_iff in Hok. destruct Hok as [H1 H2].
  change (hrun (c :: h) s) with (hrun h (hstep s c)). apply IH; [exact H2|].
  apply hstep_consistent; assumption.
Qed.

(* ... and a program executed at that point finds, under every regular name but PWD, the value of
   the latest assignment: what $NAME expands to *)
Theorem history_child_agrees : forall h vars cd0 k l,
  forallb api_ok h = true -> regular k -> k <> pwd_key ->
  let s := hrun h {| hs_env := setup_env vars; hs_cd := cd0 |} in
  child_env (hs_env s) (hs_cd s) = Some l ->
  or_empty (child_lookup k l) = getenv (hs_env s) k /\
  getenv (hs_env s) k = pick (last_assign k (hist_assigns h)) (or_empty (list_get vars k)).
Proof.
  intros h vars cd0 k l Hok Hk Hpwd s H. split.
  - apply (child_env_agrees (hs_env s) (hs_cd s) k l); try assumption.
    apply history_consistent; [exact Hok|apply setup_consistent].
  - unfold s. rewrite history_latest_wins. simpl hs_env. rewrite (setup_consistent vars k). reflexivity.
Qed.

Lemma hrun_cd : forall h s, hs_cd (hrun h s) = pick (last_cd h) (hs_cd s).
Proof.
  induction h as [|c h IH]; intros s; [reflexivity|].
  change (hrun (c :: h) s) with (hrun h (hstep s c)). rewrite IH. simpl last_cd.
  destruct (last_cd h); [reflexivity|]. destruct c; reflexivity.
Qed.

(* the PWD of an executed program is the directory of the latest cd *)
Theorem history_child_pwd : forall h s l,
  child_env (hs_env (hrun h s)) (hs_cd (hrun h s)) = Some l ->
  child_lookup pwd_key l = Some (pick (last_cd h) (hs_cd s)).
Proof. intros h s l H. rewrite (child_pwd _ _ _ H). rewrite hrun_cd. reflexivity. Qed.

Lemma envmap_eqb_refl : forall a, envmap_eqb a a = true.
Proof. induction a as [|[k v] a IH]; [reflexivity|]. simpl. rewrite !bytes_eqb_refl, IH. reflexivity. Qed.

Lemma hstate_eqb_refl : forall a, hstate_eqb a a = true.
Proof.
  intros a. unfold hstate_eqb. rewrite words_eqb_refl, envmap_eqb_refl, bytes_eqb_refl. reflexivity.
Qed.

Theorem history_holds_true : forall h vars cd0 k, history_holds h vars cd0 k = true.
Proof.
  intros h vars cd0 k. unfold history_holds.
  set (s0 := {| hs_env := setup_env vars; hs_cd := cd0 |}).
  rewrite (readonly_commands_frame h s0), hstate_eqb_refl.
  assert (Hg : getenv (hs_env (hrun h s0)) k
               = pick (last_assign k (hist_assigns h)) (or_empty (list_get vars k))).
  { rewrite history_latest_wins. unfold s0. simpl hs_env. rewrite (setup_consistent vars k). reflexivity. }
  rewrite (proj2 (bytes_eqb_eq _ _) Hg).
  simpl andb.
  destruct (child_env (hs_env (hrun h s0)) (hs_cd (hrun h s0))) as [l|] eqn:E; [|reflexivity].
  assert (Hp : child_lookup pwd_key l = Some (pick (last_cd h) cd0)) by exact (history_child_pwd h s0 l E).
  rewrite Hp, opt_bytes_eqb_refl. simpl andb.
  destruct (forallb api_ok h) eqn:Eok; [|reflexivity].
  destruct (regularb k) eqn:Ek; [|reflexivity]. apply regularb_ok in Ek.
  destruct (bytes_eqb_spec k pwd_key) as [|Ep]; [reflexivity|].
  simpl. apply bytes_eqb_eq.
  exact (proj1 (history_child_agrees h vars cd0 k l Eok Ek Ep E)).
Qed.

Lemma env_listing_go_values : forall m l printed out,
  env_listing_go m l printed = Some out -> forall k v, In (k, v) out -> v = map_get m k.
Proof.
  induction l as [|kv r IH]; intros printed out H k v Hin.
  - injection H as <-. destruct Hin.
  - simpl in H. destruct (split_kv kv) as [[k' v']|]; [|discriminate].
    destruct (mem_bytes k' printed); [exact (IH _ _ H k v Hin)|].
    destruct (env_listing_go m r (k' :: printed)) as [o|] eqn:E; [|discriminate].
    injection H as <-. destruct Hin as [Hin|Hin]; [|exact (IH _ _ E k v Hin)].
    injection Hin as <- <-. reflexivity.
Qed.

Lemma env_listing_go_keys : forall m l printed out,
  env_listing_go m l printed = Some out ->
  NoDup (map fst out) /\ (forall k, In k (map fst out) -> ~ In k printed) /\
  (forall kv k v, In kv l -> split_kv kv = Some (k, v) -> In k printed \/ In k (map fst out)).
Proof.
  induction l as [|kv r IH]; intros printed out H.
  - injection H as <-. split; [constructor|]. split; [intros k []|intros kv k v []].
  - simpl in H. destruct (split_kv kv) as [[k' v']|] eqn:Ek; [|discriminate].
    destruct (mem_bytes k' printed) eqn:Em.
    + destruct (IH _ _ H) as [N [F C]]. split; [exact N|]. split; [exact F|].
      intros kv0 k v [<-|Hin] Hs; [|exact (C kv0 k v Hin Hs)].
      rewrite Ek in Hs. injection Hs as <- <-. left. apply mem_bytes_true, Em.
    + destruct (env_listing_go m r (k' :: printed)) as [o|] eqn:E; [|discriminate].
      injection H as <-. destruct (IH _ _ E) as [N [F C]]. cbn [map fst]. split; [|split].
      * constructor; [|exact N]. intros X. exact (F k' X (or_introl eq_refl)).
      * intros k [<-|Hk] Hp; [|exact (F k Hk (or_intror Hp))].
        apply mem_bytes_true in Hp. rewrite Em in Hp. discriminate Hp.
      * intros kv0 k v [<-|Hin] Hs.
        -- rewrite Ek in Hs. injection Hs as <- <-. right. left. reflexivity.
        -- destruct (C kv0 k v Hin Hs) as [[<-|X]|X];
             [right; left; reflexivity|left; exact X|right; right; exact X].
Qed.

(* what the argument-less env prints: every variable of the list exactly once, with the value
   expansion uses (the latest assignment) *)
Theorem env_listing_shows_current : forall st out,
  env_listing st = Some out ->
  (forall k v, In (k, v) out -> v = getenv st k) /\
  NoDup (map fst out) /\
  (forall kv k v, In kv (env_list st) -> split_kv kv = Some (k, v) -> In k (map fst out)).
Proof.
  intros st out H. unfold env_listing in H. split.
  - intros k v Hin. exact (env_listing_go_values _ _ _ _ H k v Hin).
  - destruct (env_listing_go_keys _ _ _ _ H) as [N [_ C]]. split; [exact N|].
    intros kv k v Hin Hs. destruct (C kv k v Hin Hs) as [[]|X]. exact X.
Qed.

From Coq Require Import String.

(* a three-line script: a long first line (a word of 70000 bytes: more than 64 KiB), CRLF, no
   final line feed *)
Definition ex_long : list byte := repeat x78 (N.to_nat 70000).
Definition ex_script : list byte :=
  (bs "rec "%string ++ ex_long) ++ NL :: bs "rec b"%string ++ [CR; NL] ++ bs "rec c"%string.
Definition lens (ls : list (list byte)) : list N := map (fun l => N.of_nat (List.length l)) ls.
Example lines_total_ex :
  open_ended (bs "rec b"%string ++ [CR; NL] ++ bs "rec c"%string) = true /\
  lens (script_lines_tr ex_script) = [70004; 6; 5]%N /\
  skipn 1 (script_lines_tr ex_script) = [bs "rec b"%string ++ [CR]; bs "rec c"%string] /\
  N.of_nat (List.length (unlines (script_lines_tr ex_script))) = 70018%N.
Proof.
  (* the long word stays folded: the splitter is run on the two short lines only *)
  assert (Hlong : ~ In NL (bs "rec "%string ++ ex_long)).
  { intros H. apply in_app_or in H. destruct H as [H|H].
    - repeat (destruct H as [H|H]; [discriminate H|]). exact H.
    - apply repeat_spec in H. discriminate H. }
  assert (Hlen : N.of_nat (List.length (bs "rec "%string ++ ex_long)) = 70004%N).
  { unfold ex_long. rewrite app_length, repeat_length, Nat2N.inj_add, N2Nat.id. reflexivity. }
  assert (E : script_lines_tr ex_script
              = (bs "rec "%string ++ ex_long) :: [bs "rec b"%string ++ [CR]; bs "rec c"%string]).
  { rewrite script_lines_tr_eq.
    exact (script_lines_line _ (bs "rec b"%string ++ [CR; NL] ++ bs "rec c"%string) Hlong). }
  rewrite E. split; [reflexivity|]. split; [|split; [reflexivity|]].
  - unfold lens. cbn [map]. rewrite Hlen. reflexivity.
  - rewrite unlines_cons, app_length, Nat2N.inj_add, Hlen. reflexivity.
Qed.

Example script_quoted_lines_ex :
  let wss := [[bs "rec"%string; bs "it's $A #"%string]; []; [bs "env"%string; bs "A=1"%string]; [bs "rec"%string; []; [CR]]] in
  Forall (Forall (fun w => ~ In NL w)) wss /\
  snd (run_script (setup_env []) (unlines (map quoted_line wss))) = map Some wss /\
  getenv (fst (run_script (setup_env []) (unlines (map quoted_line wss)))) (bs "A"%string) = bs "1"%string.
Proof.
  split; [|vm_compute; split; reflexivity].
  repeat constructor; intros H; vm_compute in H; repeat (destruct H as [H|H]; [discriminate H|]); exact H.
Qed.

(* X=b, X=a, the listing, exists: the program sees a (the latest), not b (the greatest) *)
Definition ex_hist : list hcmd :=
  [HEnv [bs "X=b"%string]; HRead; HEnv [bs "X=a"%string; bs "Y=1"%string]; HEnv []; HCd (bs "/w/sub"%string);
   HEnv [bs "X"%string]; HSetenv (bs "Z"%string) (bs "z z"%string); HRead].
Example history_ex :
  let s0 := {| hs_env := setup_env [bs "WORK=/w"%string; bs "X=zz"%string]; hs_cd := bs "/w"%string |} in
  forallb api_ok ex_hist = true /\ regular (bs "X"%string) /\ bs "X"%string <> pwd_key /\
  filter (fun c => negb (readonly c)) ex_hist
  = [HEnv [bs "X=b"%string]; HEnv [bs "X=a"%string; bs "Y=1"%string]; HCd (bs "/w/sub"%string); HSetenv (bs "Z"%string) (bs "z z"%string)] /\
  last_assign (bs "X"%string) (hist_assigns ex_hist) = Some (bs "a"%string) /\
  child_env (hs_env (hrun ex_hist s0)) (hs_cd (hrun ex_hist s0))
  = Some [bs "WORK=/w"%string; bs "X=a"%string; bs "Y=1"%string; bs "Z=z z"%string; bs "PWD=/w/sub"%string] /\
  env_listing (hs_env (hrun ex_hist s0))
  = Some [(bs "WORK"%string, bs "/w"%string); (bs "X"%string, bs "a"%string); (bs "Y"%string, bs "1"%string); (bs "Z"%string, bs "z z"%string)] /\
  history_holds ex_hist [bs "WORK=/w"%string; bs "X=zz"%string] (bs "/w"%string) (bs "X"%string) = true.
Proof.
  split; [reflexivity|]. split; [split; [discriminate|reflexivity]|]. split; [discriminate|].
  vm_compute. repeat split.
Qed.

(* an entry without separator (Setup may leave one): the listing is the Go panic *)
Example env_listing_panics_ex : env_listing (setup_env [bs "A=1"%string; bs "novalue"%string]) = None.
Proof. reflexivity. Qed.
