(* C02 — the executable form of the property statements is constantly true. *)
From Coq Require Import List Bool Arith NArith Lia.
From Coq.Strings Require Import Byte.
From GI Require Import Lib.Bytes Lib.BytesFacts Gen.TsParseConsts TsParse.TsParse TsParse.TsSpec TsParse.TsHolds
  TsParse.TsParseFacts TsParse.TsEnvFacts TsParse.TsRegexFacts TsParse.TsCmpFacts.
Import ListNotations.
Local Notation bytes := (list byte) (only parsing).

Lemma words_eqb_refl : forall a, words_eqb a a = true.
Proof. induction a as [|x a IH]; [reflexivity|]. simpl. rewrite bytes_eqb_refl, IH. reflexivity. Qed.

Lemma opt_words_eqb_refl : forall a, opt_words_eqb a a = true.
Proof. intros [x|]; [apply words_eqb_refl|reflexivity]. Qed.

Lemma opt_bytes_eqb_refl : forall a, opt_bytes_eqb a a = true.
Proof. intros [x|]; [apply bytes_eqb_refl|reflexivity]. Qed.

Lemma is_nil_false : forall (w : bytes), negb (is_nil w) = true -> w <> [].
Proof. intros [|c w] H; [discriminate|discriminate]. Qed.

Lemma is_nil_opt_none : forall (A : Type) (o : option A), is_nil_opt o = true -> o = None.
Proof. intros A [x|] H; [discriminate|reflexivity]. Qed.

Lemma valid_nameb_ok : forall k, valid_nameb k = true -> valid_name k.
Proof.
  intros [|c k] H; [discriminate|]. unfold valid_nameb in H. apply andb_true_iff in H.
  destruct H as [H1 H2]. apply negb_true_iff in H2.
  split; [discriminate|]. split; assumption.
Qed.

Lemma plain_wordb_ok : forall w, plain_wordb w = true -> plain_word w.
Proof.
  intros w H. unfold plain_wordb in H. apply andb_true_iff in H. destruct H as [H1 H2].
  split; [apply is_nil_false; exact H1|exact H2].
Qed.

Lemma brace_wordb_ok : forall k, brace_wordb k = true -> brace_word k.
Proof.
  intros k H. unfold brace_wordb in H. apply andb_true_iff in H. destruct H as [H H3].
  apply andb_true_iff in H. destruct H as [H1 H2].
  split; [split; [apply is_nil_false; exact H1|apply is_nil_opt_none; exact H2]|exact H3].
Qed.

Lemma no_sepb_ok : forall k, no_sepb k = true -> no_sep k.
Proof. intros k H. apply is_nil_opt_none. exact H. Qed.

Lemma regularb_ok : forall k, regularb k = true -> regular k.
Proof.
  intros k H. unfold regularb in H. apply andb_true_iff in H. destruct H as [H1 H2].
  split; [apply is_nil_false; exact H1|apply is_nil_opt_none; exact H2].
Qed.

Lemma no_alnum_headb_ok : forall p, no_alnum_headb p = true -> no_alnum_head p.
Proof. intros [|c p] H; [exact I|]. simpl in H. apply negb_true_iff in H. exact H. Qed.

Lemma filter_forallb : forall (p : byte -> bool) l, forallb p (filter p l) = true.
Proof.
  intros p l. induction l as [|c l IH]; [reflexivity|]. simpl. destruct (p c) eqn:E; [|exact IH].
  simpl. rewrite E. exact IH.
Qed.

Lemma h_syntax_true : h_syntax = true.
Proof. reflexivity. Qed.

Lemma h_quote_true : forall st line k v, h_quote st line k v = true.
Proof.
  intros st line k v. unfold h_quote. apply andb_true_iff. split.
  - destruct (ts_parse st line) as [ws|]; [|reflexivity].
    rewrite parse_quote_words. apply opt_words_eqb_refl.
  - rewrite parse_quote_words. apply opt_words_eqb_refl.
Qed.

Lemma sp_tab_blank_run : blank_run [SP; TAB] /\ blank_run [TAB] /\ blank_run [SP].
Proof. repeat split. Qed.

Lemma h_plain_true : forall st line, h_plain st line = true.
Proof.
  intros st line. unfold h_plain. destruct (ts_parse st line) as [ws|]; [|reflexivity].
  destruct (filter plain_wordb ws) as [|w0 rest] eqn:E; [reflexivity|].
  assert (Hall : forall w, In w (w0 :: rest) -> plain_word w).
  { intros w Hw. rewrite <- E in Hw. apply filter_In in Hw. apply plain_wordb_ok. tauto. }
  destruct sp_tab_blank_run as [H1 [H2 H3]].
  rewrite parse_plain_split; [apply opt_words_eqb_refl|exact H2|apply Hall; left; reflexivity| |exact H3].
  apply Forall_forall. intros p Hp. apply in_map_iff in Hp. destruct Hp as [w [Hw1 Hw2]].
  subst p. simpl. split; [discriminate|]. split; [exact H1|]. apply Hall. right. exact Hw2.
Qed.

Lemma in_quote_after_app : forall a b q,
  in_quote_after (a ++ b) q = in_quote_after b (in_quote_after a q).
Proof. induction a as [|c a IH]; intros b q; [reflexivity|]. simpl. apply IH. Qed.

Lemma h_comment_go_true : forall st rest pre,
  h_comment_go st (pre ++ rest) (rev pre) rest (in_quote_after pre false) = true.
Proof.
  intros st rest. induction rest as [|c r IH]; intros pre; [reflexivity|].
  simpl h_comment_go. apply andb_true_iff. split.
  - destruct (is_comment c) eqn:Ec; [|reflexivity].
    destruct (in_quote_after pre false) eqn:Eq; [reflexivity|].
    simpl. rewrite rev_involutive, parse_comment by assumption. apply opt_words_eqb_refl.
  - replace (pre ++ c :: r) with ((pre ++ [c]) ++ r) by (rewrite <- app_assoc; reflexivity).
    replace (c :: rev pre) with (rev (pre ++ [c])) by (rewrite rev_app_distr; reflexivity).
    replace (if beq c ts_quote then negb (in_quote_after pre false) else in_quote_after pre false)
      with (in_quote_after (pre ++ [c]) false).
    2:{ rewrite in_quote_after_app. reflexivity. }
    apply IH.
Qed.

Lemma h_comment_true : forall st line, h_comment st line = true.
Proof. intros st line. exact (h_comment_go_true st line []). Qed.

Lemma h_expand_true : forall st line k v, h_expand st line k v = true.
Proof.
  intros st line k v. unfold h_expand. cbv zeta.
  set (st' := setenv k v st). set (pre := filter plain_byte line).
  assert (Hv : getenv st' k = v) by apply getenv_setenv_same.
  assert (Hpre : plain_chunk pre) by apply filter_forallb.
  destruct (plain_wordb cword && forallb plain_byte (dot :: pre) && no_alnum_headb (dot :: pre)) eqn:Elit.
  2:{ rewrite !andb_false_r. reflexivity. }
  apply andb_true_iff in Elit. destruct Elit as [Elit Hhead]. apply andb_true_iff in Elit.
  destruct Elit as [Hc Hpost]. apply plain_wordb_ok in Hc. apply no_alnum_headb_ok in Hhead.
  rewrite !andb_true_r.
  apply andb_true_iff. split; [apply andb_true_iff; split|].
  - destruct (valid_nameb k) eqn:Ek; [|reflexivity]. apply valid_nameb_ok in Ek.
    rewrite (parse_expand_once st' cword pre k (dot :: pre) v Hc Hpre Hpost Hhead Ek Hv).
    assert (H : ts_parse st' (cword ++ SP :: dollar :: k) = Some [cword; v]).
    { pose proof (parse_expand_once st' cword [] k [] v Hc eq_refl eq_refl I Ek Hv) as H.
      simpl app in H. rewrite !app_nil_r in H. exact H. }
    rewrite H, !opt_words_eqb_refl. reflexivity.
  - destruct (brace_wordb k) eqn:Ek; [|reflexivity]. apply brace_wordb_ok in Ek.
    destruct (is_nil_opt (strip_suffix ts_regex_suffix k)) eqn:Es; [|reflexivity].
    apply is_nil_opt_none in Es. simpl andb. cbv iota.
    rewrite (parse_expand_once_brace st' cword pre k (dot :: pre) v Hc Hpre Hpost Ek Es Hv).
    apply opt_words_eqb_refl.
  - destruct (brace_wordb k) eqn:Ek; [|reflexivity]. apply brace_wordb_ok in Ek.
    rewrite (parse_expand_regex st' cword pre k (dot :: pre) v Hc Hpre Hpost Ek Hv).
    apply opt_words_eqb_refl.
Qed.

Lemma not_assign_other : forall k a, split_kv a = None -> not_assign k a.
Proof. intros k a H k' v' H2. rewrite H in H2. discriminate. Qed.

Lemma h_env_true : forall st line k v, h_env st line k v = true.
Proof.
  intros st line k v. unfold h_env. apply andb_true_iff. split.
  - destruct (no_sepb k) eqn:Ek; [|reflexivity]. apply no_sepb_ok in Ek.
    apply andb_true_iff. split; apply bytes_eqb_eq.
    + exact (latest_wins st [line] k v [] Ek (Forall_nil _)).
    + exact (latest_wins st [k ++ ts_env_sep :: line] k v [] Ek (Forall_nil _)).
  - destruct (valid_nameb k && forallb plain_byte k && no_sepb k) eqn:E; [|reflexivity].
    apply andb_true_iff in E. destruct E as [E E3]. apply andb_true_iff in E. destruct E as [E1 E2].
    apply bytes_eqb_eq.
    rewrite (env_copy_at_assignment (setenv k v st) k k E2 (no_sepb_ok k E3) (valid_nameb_ok k E1)).
    apply getenv_setenv_same.
Qed.

Lemma h_child_true : forall st cd k v, h_child st cd k v = true.
Proof.
  intros st cd k v. unfold h_child. cbv zeta.
  set (st' := cmd_env [k ++ ts_env_sep :: v] st).
  destruct (child_env st' cd) as [l|] eqn:E; [|reflexivity].
  apply andb_true_iff. split.
  - rewrite (child_pwd st' cd l E). apply opt_bytes_eqb_refl.
  - destruct (regularb k) eqn:Ek; [|reflexivity]. apply regularb_ok in Ek.
    destruct (bytes_eqb_spec k pwd_key) as [|Ep]; [reflexivity|].
    destruct (bytes_eqb (getenv st' k) (or_empty (list_get (env_list st') k))) eqn:Ec; [|reflexivity].
    apply bytes_eqb_eq in Ec. simpl andb. cbv iota. apply bytes_eqb_eq.
    rewrite (child_sees_list st' cd k l Ek Ep E). symmetry. exact Ec.
Qed.

Lemma h_regex_true : forall v, h_regex v = true.
Proof.
  intros v. unfold h_regex. destruct (utf8_ok v) eqn:E; [|reflexivity].
  rewrite (quote_meta_literal v E). apply opt_bytes_eqb_refl.
Qed.

Lemma names_ab : [x61] <> [x62].
Proof. discriminate. Qed.

Lemma h_cmp_true : forall st line k v, h_cmp st line k v = true.
Proof.
  intros st line k v. unfold h_cmp. cbv zeta.
  set (st' := setenv k v st). set (pre := filter (fun c => negb (beq c dollar)) line).
  assert (Hpre : no_dollar pre) by apply filter_forallb.
  apply andb_true_iff. split; [apply andb_true_iff; split|].
  - destruct (valid_nameb k && no_dollarb (dot :: pre) && no_alnum_headb (dot :: pre)) eqn:E; [|reflexivity].
    apply andb_true_iff in E. destruct E as [E E3]. apply andb_true_iff in E. destruct E as [E1 E2].
    apply (cmpenv_value_not_reexpanded st' [x61] [x62] pre k (dot :: pre) v names_ab Hpre E2
             (no_alnum_headb_ok _ E3) (valid_nameb_ok k E1)).
    apply getenv_setenv_same.
  - apply (cmp_no_expand st' [x61] [x62] line line names_ab). reflexivity.
  - rewrite (cmp_negated st' false [x61] [x62] line line names_ab). rewrite negb_involutive.
    apply (cmp_no_expand st' [x61] [x62] line line names_ab). reflexivity.
Qed.

(* the boolean form of the statements holds on every input *)
Theorem c02_holds_on_true : forall st cd line k v, c02_holds_on st cd line k v = true.
Proof.
  intros st cd line k v. unfold c02_holds_on.
  rewrite h_syntax_true, h_quote_true, h_plain_true, h_comment_true, h_expand_true, h_env_true,
    h_child_true, h_regex_true, h_cmp_true. reflexivity.
Qed.

(* it is not vacuous: every guarded instance is reached on this input *)
From Coq Require Import String.
Example holds_guards_reached :
  let k := bs "K"%string in
  let line := bs "args pre $K 'q' # tail"%string in
  valid_nameb k = true /\ brace_wordb k = true /\ regularb k = true /\ no_sepb k = true /\
  plain_wordb cword = true /\ no_alnum_headb (dot :: filter plain_byte line) = true /\
  forallb plain_byte (dot :: filter plain_byte line) = true /\
  c02_holds_on (setup_env [bs "WORK=/w"%string]) (bs "/w"%string) line k (bs "v $K 'x' #"%string) = true.
Proof. vm_compute. repeat split. Qed.
