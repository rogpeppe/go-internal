(* Gen/TsParseSrc.v is the tokenizer, the expansion and the environment of
   testscript/testscript.go (envvarname and the methods Getenv, Setenv, setEnv, expand, parse of TestScript)
   translated to Gallina by harness/go2coq on every run.  This file proves, for every input
   and every receiver state (and every sufficiently large iteration bound), that each
   generated function returns Ok of exactly what the hand-written model TsParse/TsParse.v
   computes -- never Panic, never OutOfFuel with enough fuel; Failed exactly where the model
   says Fatalf.  Every theorem about getenv / setenv / setup_env / expand / ts_parse thus holds
   of the code as translated, and a change of testscript.go that changes the generated text
   stops these proofs from compiling.

   The proofs do not mention generated hypothesis or bound-variable names: each function is
   unfolded, the primitive operations are case-split in evaluation order, loops go by
   induction on the iteration bound (for) or on the list (range). *)
From Coq Require Import List Bool Arith ZArith NArith Lia ZifyBool.
From Coq.Strings Require Import Byte.
From GI Require Import Lib.Bytes Lib.BytesFacts Lib.GoSem Lib.GoSemExt Lib.GoSemExtFacts Lib.GoSemState
  Gen.TsParseConsts Gen.TsParseSrc TsParse.TsParse TsParse.SrcLib TsParse.SrcLibFacts.
Import ListNotations.
Local Notation bytes := (list byte) (only parsing).

(* the *TestScript that holds the model state st (its map made by make) while [line] runs *)
Definition recv_of (line : bytes) (st : ts_env) : ts_recv :=
  {| r_line := line; r_env := env_list st; r_envMap := Some (env_map st) |}.

(* the model state a *TestScript holds (a nil map reads as the empty one) *)
Definition env_of (r : ts_recv) : ts_env :=
  {| env_list := r_env r; env_map := match r_envMap r with Some l => l | None => [] end |}.

Lemma env_of_recv_of line st : env_of (recv_of line st) = st.
Proof. now destruct st. Qed.

(* the fields of the receiver and of the model state, then Lib's go_red *)
Ltac go_red_recv := cbn [r_line r_env r_envMap env_list env_map]; go_red.

(* on the operating system the check runs on (the stub of runtime.GOOS), envvarname is the
   identity *)
Theorem src_envvarname_eq k : src_envvarname k = Ok k.
Proof. reflexivity. Qed.

Theorem src_Getenv_eq r k : src_TestScript_Getenv r k = Ok (getenv (env_of r) k).
Proof.
  unfold src_TestScript_Getenv. rewrite src_envvarname_eq. go_red_recv.
  unfold getenv, go_mapref_get, env_of. cbn [env_map].
  destruct (r_envMap r); [now rewrite assoc_get_map_get|reflexivity].
Qed.

Theorem src_Setenv_eq line st k v :
  src_TestScript_Setenv (recv_of line st) k v = Ok (recv_of line (setenv k v st)).
Proof.
  unfold src_TestScript_Setenv. rewrite src_envvarname_eq. go_red_recv.
  unfold recv_of, setenv, go_append, map_set. cbn [go_mapref_set bind r_line r_env r_envMap env_list env_map].
  now rewrite <- app_assoc.
Qed.

(* ts.envMap[k] = v on a TestScript whose map was never made: the run-time panic of Go *)
Theorem src_Setenv_nil_map r k v : r_envMap r = None -> src_TestScript_Setenv r k v = Panic.
Proof.
  intros H. unfold src_TestScript_Setenv. rewrite src_envvarname_eq. go_red_recv. now rewrite H.
Qed.

(* the index search of cmdEnv / setEnv in terms of the model's split_kv (the model's index_byte and
   GoSem's are the same function) *)
Lemma go_index_sep kv :
  go_bytes_Index kv [x3d] = match TsParse.index_byte ts_env_sep kv with Some i => Z.of_nat i | None => (-1)%Z end.
Proof.
  unfold go_bytes_Index. change [x3d] with [ts_env_sep]. rewrite index_sub_byte.
  change (GoSem.index_byte ts_env_sep kv) with (TsParse.index_byte ts_env_sep kv).
  now destruct (TsParse.index_byte ts_env_sep kv).
Qed.

Lemma index_sep_lt kv i : TsParse.index_byte ts_env_sep kv = Some i -> i < length kv.
Proof. intros E. exact (proj1 (index_byte_Some _ _ _ E)). Qed.

Lemma src_setEnv_loop_eq (L : Type) : forall (l : list bytes) line (env : list bytes) m,
  @src_TestScript_setEnv_loop1 L l {| r_line := line; r_env := env; r_envMap := Some m |} =
  Ok (Normal {| r_line := line; r_env := env;
                r_envMap := Some (fold_left (fun m kv => match split_kv kv with
                                                         | Some (k, v) => map_set k v m
                                                         | None => m
                                                         end) l m) |}).
Proof.
  induction l as [|kv l IH]; intros line env m; [reflexivity|].
  cbn [src_TestScript_setEnv_loop1 fold_left]. unfold split_kv. rewrite go_index_sep.
  destruct (TsParse.index_byte ts_env_sep kv) as [i|] eqn:E.
  - pose proof (index_sep_lt kv i E) as Hi.
    destruct (Z.of_nat i >=? 0)%Z eqn:Eg; [|lia].
    unfold go_slice. replace (Z.of_nat i + 1)%Z with (Z.of_nat (S i)) by lia.
    rewrite slice_z_from, slice_z_to by lia. go_red_recv. rewrite src_envvarname_eq. go_red_recv.
    cbn [go_mapref_set]. go_red_recv. apply IH.
  - go_red_recv. apply IH.
Qed.

Theorem src_setEnv_eq r vars :
  src_TestScript_setEnv r vars = Ok (recv_of (r_line r) (setup_env vars)).
Proof.
  unfold src_TestScript_setEnv. go_red_recv. unfold go_mapref_make.
  rewrite src_setEnv_loop_eq. reflexivity.
Qed.

Theorem src_expand_eq r s : src_TestScript_expand r s = Ok (expand (env_of r) s).
Proof.
  unfold src_TestScript_expand, expand.
  rewrite (go_os_Expand_pure (expand_key (env_of r))); [reflexivity|].
  intros key. go_red_recv. change [x40; x52] with ts_regex_suffix.
  rewrite trim_suffix_test. unfold expand_key, go_strings_TrimSuffix, go_regexp_QuoteMeta.
  destruct (strip_suffix ts_regex_suffix key) as [key1|]; rewrite src_Getenv_eq; reflexivity.
Qed.
