(* The line tokenizer of Gen/TsParseSrc.v (the method parse of TestScript) as
   translated by harness/go2coq is proved equal to the hand-written model parse_go / ts_parse
   of TsParse/TsParse.v, for every line, every receiver state and every iteration bound
   greater than the length of the line: Ok (Done (receiver with the line recorded, words))
   where the model yields the words, Ok Failed exactly where the model says Fatalf
   ("unterminated quoted argument"); never Panic, never OutOfFuel.

   The loop of parse runs over byte positions; the model recurses over the rest of the line.
   The invariant that ties them: at position k the rest is skipn k line, the model's chunk is
   line[start:k] (None when start = -1), and either start = -1 with arg empty and no open
   quote, or 0 <= start <= k (so that no slice expression can panic).

   The proofs do not mention generated hypothesis or bound-variable names. *)
From Coq Require Import List Bool Arith ZArith NArith Lia.
From Coq.Strings Require Import Byte.
From GI Require Import Lib.Bytes Lib.BytesFacts Lib.GoSem Lib.GoSemExt Lib.GoSemExtFacts Lib.GoSemState
  Gen.TsParseConsts Gen.TsParseSrc TsParse.TsParse TsParse.TsParseFacts TsParse.SrcLib TsParse.SrcLibFacts TsParse.SrcFacts.
Import ListNotations.
Local Notation bytes := (list byte) (only parsing).

(* the variable start of parse: -1, or a position *)
Definition start_z (o : option nat) : Z := match o with Some s => Z.of_nat s | None => (-1)%Z end.
(* line[start:i], None when start < 0 *)
Definition chunk_of (line : bytes) (o : option nat) (k : nat) : option bytes :=
  match o with Some s => Some (firstn (k - s) (skipn s line)) | None => None end.

(* how parse ends after its loop: with the words collected *)
Definition finish (ts : ts_recv) (st : list bytes * bytes * Z * bool * Z) : res (exit (ts_recv * list bytes)) :=
  let '(args, _, _, _, _) := st in Ok (Done (ts, args)).

Lemma start_z_ge o : (start_z o >=? 0)%Z = match o with Some _ => true | None => false end.
Proof. destruct o; [|reflexivity]. cbn [start_z]. rewrite Z.geb_leb. apply Z.leb_le. lia. Qed.
Lemma start_z_lt o : (start_z o <? 0)%Z = match o with Some _ => false | None => true end.
Proof. destruct o; [|reflexivity]. cbn [start_z]. apply Z.ltb_ge. lia. Qed.

Lemma skipn_nth {A} (l : list A) k c : nth_error l k = Some c -> skipn k l = c :: skipn (S k) l.
Proof.
  revert k. induction l as [|a l IH]; intros [|k] H; try discriminate.
  - injection H as <-. reflexivity.
  - cbn [nth_error] in H. cbn [skipn]. rewrite (IH k H). reflexivity.
Qed.

Lemma firstn_snoc {A} (l : list A) s k c : s <= k -> nth_error l k = Some c ->
  firstn (S k - s) (skipn s l) = firstn (k - s) (skipn s l) ++ [c].
Proof.
  intros Hs H. assert (E : nth_error (skipn s l) (k - s) = Some c).
  { rewrite nth_error_skipn_add. now replace (s + (k - s)) with k by lia. }
  replace (S k - s) with (S (k - s)) by lia.
  revert E. generalize (k - s) (skipn s l). intros n l'. revert n.
  induction l' as [|a l' IH]; intros [|n] E; try discriminate.
  - injection E as <-. reflexivity.
  - cbn [nth_error] in E. cbn [firstn app]. f_equal. now apply IH.
Qed.

(* the loop vocabulary of this file and the fields of the receiver, then Lib's go_red *)
Ltac go_red_loop := cbn [finish start_z chunk_of r_line r_env r_envMap env_list env_map]; go_red.

(* arithmetic side conditions: without the hypotheses that mention the generated loop (lia would
   search them, and the equations between booleans, for constraints) *)
Ltac nlia :=
  repeat match goal with H : context [src_TestScript_parse_loop1] |- _ => clear H end;
  repeat match goal with H : @eq bool _ _ |- _ => clear H end; lia.

Section Loop.
  Variable fuel : nat.
  Variable ts : ts_recv.
  Variable line : bytes.

  Definition start_inv (k : nat) (arg : bytes) (o : option nat) (quoted : bool) : Prop :=
    match o with Some s => s <= k | None => arg = [] /\ quoted = false end.

  Lemma src_parse_loop_eq : forall n k args arg o quoted,
    k <= length line -> length line - k < n -> start_inv k arg o quoted ->
    bindT (src_TestScript_parse_loop1 fuel n ts line args arg (start_z o) quoted (Z.of_nat k)) (finish ts)
    = Ok (match parse_go (env_of ts) (skipn k line) args arg (chunk_of line o k) quoted with
          | Some ws => Done (ts, ws)
          | None => Failed
          end).
  Proof.
    induction n as [|n IH]; intros k args arg o quoted Hk Hn Hinv; [nlia|].
    cbn [src_TestScript_parse_loop1].
    assert (Zk1 : (Z.of_nat k + 1)%Z = Z.of_nat (S k)) by nlia.
    destruct (Nat.eq_dec k (length line)) as [->|Hne].
    - (* the end of the line *)
      rewrite skipn_all. cbn [parse_go].
      assert (Hge : (Z.of_nat (length line) >=? len line)%Z = true) by (unfold len; rewrite Z.geb_leb; apply Z.leb_refl).
      rewrite !Hge. rewrite start_z_ge.
      destruct quoted; go_red_loop.
      + reflexivity.
      + destruct o as [s|]; go_red_loop.
        * cbn [start_inv] in Hinv. rewrite go_slice_nat by nlia. go_red_loop. rewrite src_expand_eq. go_red_loop.
          reflexivity.
        * reflexivity.
    - (* a character *)
      assert (Hlt : k < length line) by nlia.
      destruct (nth_error line k) as [c|] eqn:Hc; [|apply nth_error_None in Hc; nlia].
      rewrite (skipn_nth line k c Hc), parse_go_cons.
      assert (Hge : (Z.of_nat k >=? len line)%Z = false) by (unfold len; rewrite Z.geb_leb; apply Z.leb_gt; nlia).
      rewrite !Hge, !Zk1, !(go_index_nat line k c Hc), start_z_ge, start_z_lt.
      assert (Hsep : is_sep c = (beq c x20 || (beq c x09 || (beq c x0d || (beq c x23 || false))))) by reflexivity.
      assert (Hcom : is_comment c = (beq c x23 || false)) by reflexivity.
      change ts_quote with x27. change ts_quote_next with x27. rewrite Hsep, Hcom.
      assert (Hk' : S k <= length line) by nlia.
      assert (Hn' : length line - S k < n) by nlia.
      destruct quoted; go_red_loop.
      + (* inside quotes *)
        destruct o as [s|]; [cbn [start_inv] in Hinv|destruct Hinv; discriminate]. go_red_loop.
        destruct (beq c x27) eqn:Eq; go_red_loop.
        * (* a quote: doubled, or closing *)
          rewrite go_slice_nat by nlia. go_red_loop.
          cbn [chunk_bytes].
          destruct (nth_error line (S k)) as [c2|] eqn:Hc2.
          -- assert (Hlt2 : S k < length line) by (apply nth_error_Some; congruence).
             rewrite (skipn_nth line (S k) c2 Hc2).
             assert (Hl2 : (Z.of_nat (S k) <? len line)%Z = true) by (unfold len; apply Z.ltb_lt; nlia).
             rewrite Hl2, (go_index_nat line (S k) c2 Hc2). go_red_loop.
             assert (Zk2 : (Z.of_nat (S k) + 1)%Z = Z.of_nat (S (S k))) by nlia.
             destruct (beq c2 x27) eqn:Eq2; go_red_loop.
             ++ rewrite Zk2.
                pose proof (IH (S (S k)) args (arg ++ firstn (k - s) (skipn s line)) (Some (S k)) true
                              ltac:(nlia) ltac:(nlia) ltac:(cbn [start_inv]; nlia)) as H.
                cbn [chunk_of start_z] in H.
                rewrite (firstn_snoc line (S k) (S k) c2) in H by (assumption || nlia).
                rewrite Nat.sub_diag in H. exact H.
             ++ rewrite Zk1.
                pose proof (IH (S k) args (arg ++ firstn (k - s) (skipn s line)) (Some (S k)) false
                              Hk' Hn' ltac:(cbn [start_inv]; nlia)) as H.
                cbn [chunk_of start_z] in H. rewrite Nat.sub_diag in H.
                rewrite (skipn_nth line (S k) c2 Hc2) in H. exact H.
          -- assert (Hlen : length line = S k) by (apply nth_error_None in Hc2; nlia).
             assert (Hl2 : (Z.of_nat (S k) <? len line)%Z = false) by (unfold len; apply Z.ltb_ge; nlia).
             rewrite Hl2. go_red_loop. rewrite Zk1.
             pose proof (IH (S k) args (arg ++ firstn (k - s) (skipn s line)) (Some (S k)) false
                           Hk' Hn' ltac:(cbn [start_inv]; nlia)) as H.
             cbn [chunk_of start_z] in H. rewrite Nat.sub_diag in H.
             replace (skipn (S k) line) with (@nil byte) in * by (symmetry; apply skipn_all2; nlia).
             exact H.
        * (* any other character inside quotes is kept *)
          rewrite Zk1.
          pose proof (IH (S k) args arg (Some s) true Hk' Hn' ltac:(cbn [start_inv]; nlia)) as H.
          cbn [chunk_of start_z] in H. rewrite (firstn_snoc line s k c) in H by (assumption || nlia).
          exact H.
      + (* outside quotes *)
        destruct (beq c x20) eqn:E1;
          [|destruct (beq c x09) eqn:E2; [|destruct (beq c x0d) eqn:E3; [|destruct (beq c x23) eqn:E4]]].
        1-3: replace (beq c x23) with false
               by (match goal with H : beq ?x _ = true |- _ => apply beq_eq in H; subst x; reflexivity end).
        all: go_red_loop.
        1-3: (* a blank: the argument so far, if any, is complete *)
          destruct o as [s|]; [cbn [start_inv] in Hinv|destruct Hinv as [-> _]]; go_red_loop;
          [rewrite go_slice_nat by nlia; go_red_loop; rewrite src_expand_eq; go_red_loop|];
          rewrite Zk1;
          [exact (IH (S k) (flush_arg (env_of ts) args arg (Some (firstn (k - s) (skipn s line)))) [] None false
                     Hk' Hn' (conj eq_refl eq_refl))
          |exact (IH (S k) args [] None false Hk' Hn' (conj eq_refl eq_refl))].
        * (* the comment character: the line ends here *)
          destruct o as [s|]; [cbn [start_inv] in Hinv|]; go_red_loop.
          -- rewrite go_slice_nat by nlia. go_red_loop. rewrite src_expand_eq. go_red_loop.
             reflexivity.
          -- reflexivity.
        * destruct (beq c x27) eqn:Eq; go_red_loop.
          -- (* an opening quote *)
             destruct o as [s|]; [cbn [start_inv] in Hinv|]; go_red_loop;
             [rewrite go_slice_nat by nlia; go_red_loop; rewrite src_expand_eq; go_red_loop|];
             rewrite Zk1.
             ++ pose proof (IH (S k) args (arg ++ expand (env_of ts) (firstn (k - s) (skipn s line))) (Some (S k)) true
                              Hk' Hn' ltac:(cbn [start_inv]; nlia)) as H.
                cbn [chunk_of start_z] in H. rewrite Nat.sub_diag in H. exact H.
             ++ pose proof (IH (S k) args arg (Some (S k)) true Hk' Hn' ltac:(cbn [start_inv]; nlia)) as H.
                cbn [chunk_of start_z] in H. rewrite Nat.sub_diag in H. exact H.
          -- (* a character of a word *)
             destruct o as [s|]; [cbn [start_inv] in Hinv|]; go_red_loop; rewrite Zk1.
             ++ pose proof (IH (S k) args arg (Some s) false Hk' Hn' ltac:(cbn [start_inv]; nlia)) as H.
                cbn [chunk_of start_z] in H. rewrite (firstn_snoc line s k c) in H by (assumption || nlia).
                exact H.
             ++ pose proof (IH (S k) args arg (Some k) false Hk' Hn' ltac:(cbn [start_inv]; nlia)) as H.
                cbn [chunk_of start_z] in H. rewrite (firstn_snoc line k k c) in H by (assumption || nlia).
                rewrite Nat.sub_diag in H. exact H.
  Qed.
End Loop.

Theorem src_parse_eq fuel r line : length line < fuel ->
  src_TestScript_parse fuel r line =
  Ok (match ts_parse (env_of r) line with
      | Some ws => Done ({| r_line := line; r_env := r_env r; r_envMap := r_envMap r |}, ws)
      | None => Failed
      end).
Proof.
  intros Hf. unfold src_TestScript_parse, ts_parse. go_red_loop.
  exact (src_parse_loop_eq fuel {| r_line := line; r_env := r_env r; r_envMap := r_envMap r |} line
           fuel 0 [] [] None false ltac:(nlia) ltac:(nlia) (conj eq_refl eq_refl)).
Qed.
