(* C02 — ${k@R}: QuoteMeta of a valid UTF-8 value is, in the literal fragment of RE2, a
   regular expression that denotes exactly the value. *)
From Coq Require Import List Bool Arith NArith Lia.
From Coq.Strings Require Import Byte.
From GI Require Import Lib.Bytes Lib.BytesFacts Gen.TsParseConsts TsParse.TsParse TsParse.TsSpec TsParse.TsParseFacts.
Import ListNotations.
Local Notation bytes := (list byte) (only parsing).

(* every byte QuoteMeta escapes is ASCII punctuation, which RE2 accepts after a backslash *)
Lemma specials_are_punct : forallb esc_punct regexp_special_bytes = true.
Proof. reflexivity. Qed.

Lemma special_punct : forall b, re_special b = true -> esc_punct b = true.
Proof. intros b H. exact (mem_byte_forallb esc_punct b regexp_special_bytes specials_are_punct H). Qed.

Lemma special_ascii : forall b, re_special b = true -> N.ltb (bN b) 128 = true.
Proof.
  intros b H. apply special_punct in H. unfold esc_punct in H.
  apply andb_true_iff in H. tauto.
Qed.

Lemma backslash_special : re_special backslash = true.
Proof. reflexivity. Qed.

Lemma backslash_ascii : N.ltb (bN backslash) 128 = true.
Proof. reflexivity. Qed.

Lemma quote_meta_cons : forall b s,
  quote_meta (b :: s) = (if re_special b then [backslash; b] else [b]) ++ quote_meta s.
Proof. reflexivity. Qed.

Lemma not_ascii_not_special : forall b, N.ltb (bN b) 128 = false -> re_special b = false.
Proof.
  intros b H. destruct (re_special b) eqn:E; [|reflexivity].
  apply special_ascii in E. rewrite E in H. discriminate.
Qed.

Lemma in_range_high : forall lo hi b, (128 <= lo)%N -> in_range lo hi b = true -> N.ltb (bN b) 128 = false.
Proof.
  intros lo hi b Hlo H. unfold in_range in H. apply andb_true_iff in H. destruct H as [H _].
  apply N.leb_le in H. apply N.ltb_ge. lia.
Qed.

Lemma utf8_dfa_cons : forall b r need lo hi,
  utf8_dfa (b :: r) need lo hi =
      match need with
      | O =>
          if N.ltb (bN b) 128 then utf8_dfa r 0 128 191
          else if in_range 194 223 b then utf8_dfa r 1 128 191
          else if N.eqb (bN b) 224 then utf8_dfa r 2 160 191
          else if N.eqb (bN b) 237 then utf8_dfa r 2 128 159
          else if in_range 225 239 b then utf8_dfa r 2 128 191
          else if N.eqb (bN b) 240 then utf8_dfa r 3 144 191
          else if N.eqb (bN b) 244 then utf8_dfa r 3 128 143
          else if in_range 241 243 b then utf8_dfa r 3 128 191
          else false
      | S n => if in_range lo hi b then utf8_dfa r n 128 191 else false
      end.
Proof. reflexivity. Qed.

(* escaping ASCII bytes keeps a string valid UTF-8 *)
Lemma utf8_dfa_quote_meta : forall d need lo hi,
  (need <> 0 -> (128 <= lo)%N) ->
  utf8_dfa d need lo hi = true -> utf8_dfa (quote_meta d) need lo hi = true.
Proof.
  induction d as [|b r IH]; intros need lo hi Hlo H; [exact H|].
  rewrite quote_meta_cons. rewrite utf8_dfa_cons in H.
  destruct need as [|n].
  - destruct (N.ltb (bN b) 128) eqn:Ea.
    + assert (IHr : utf8_dfa (quote_meta r) 0 128 191 = true) by (apply IH; [intros X; contradiction X; reflexivity|exact H]).
      destruct (re_special b).
      * simpl app. rewrite utf8_dfa_cons, backslash_ascii, utf8_dfa_cons, Ea. exact IHr.
      * simpl app. rewrite utf8_dfa_cons, Ea. exact IHr.
    + rewrite (not_ascii_not_special b Ea). simpl app. rewrite utf8_dfa_cons, Ea.
      (* a lead byte: the same step on both sides, into a state that expects a byte above 127 *)
      repeat (match type of H with (if ?c then _ else _) = true => destruct c end;
              [apply IH; [intros _; lia|exact H]|]).
      discriminate.
  - destruct (in_range lo hi b) eqn:Er; [|discriminate].
    assert (Hb : N.ltb (bN b) 128 = false).
    { apply (in_range_high lo hi b); [apply Hlo; discriminate|exact Er]. }
    rewrite (not_ascii_not_special b Hb). simpl app. rewrite utf8_dfa_cons, Er.
    apply IH; [intros _; lia|exact H].
Qed.

Lemma lit_go_esc : forall c r,
  esc_punct c = true -> lit_go (backslash :: c :: r) = option_map (cons c) (lit_go r).
Proof. intros c r H. simpl. rewrite H. reflexivity. Qed.

Lemma lit_go_plain : forall b r,
  beq b backslash = false -> re_special b = false ->
  lit_go (b :: r) = option_map (cons b) (lit_go r).
Proof. intros b r H1 H2. simpl. rewrite H1, H2. reflexivity. Qed.

Lemma lit_go_quote_meta : forall v, lit_go (quote_meta v) = Some v.
Proof.
  induction v as [|b v IH]; [reflexivity|].
  rewrite quote_meta_cons. destruct (re_special b) eqn:E.
  - change ([backslash; b] ++ quote_meta v) with (backslash :: b :: quote_meta v).
    rewrite (lit_go_esc b _ (special_punct b E)), IH. reflexivity.
  - change ([b] ++ quote_meta v) with (b :: quote_meta v).
    assert (Hb : beq b backslash = false).
    { destruct (beq b backslash) eqn:Eb; [|reflexivity].
      apply beq_eq in Eb. subst b. rewrite backslash_special in E. discriminate. }
    rewrite (lit_go_plain b _ Hb E), IH. reflexivity.
Qed.

(* QuoteMeta v is a regular expression of the literal fragment, and it denotes exactly v *)
Theorem quote_meta_literal : forall v,
  utf8_ok v = true -> re_literal (quote_meta v) = Some v.
Proof.
  intros v H. unfold re_literal, utf8_ok.
  rewrite (utf8_dfa_quote_meta v 0 128 191); [apply lit_go_quote_meta| |exact H].
  intros X. contradiction X. reflexivity.
Qed.

(* the whole path: what ${k@R} puts on the line is a literal regular expression for the value *)
Theorem expand_regex_denotes : forall st cmd k v,
  plain_word cmd -> brace_word k -> getenv st k = v -> utf8_ok v = true ->
  exists p,
    ts_parse st (cmd ++ SP :: dollar :: lbrace :: (k ++ ts_regex_suffix) ++ [rbrace]) = Some [cmd; p]
    /\ re_literal p = Some v.
Proof.
  intros st cmd k v Hcmd Hk Hv Hu.
  exists (quote_meta v). split; [|apply quote_meta_literal; exact Hu].
  pose proof (parse_expand_regex st cmd [] k [] v Hcmd eq_refl eq_refl Hk Hv) as H.
  simpl app in H. rewrite app_nil_r in H. exact H.
Qed.

From Coq Require Import String.
Definition bs (s : String.string) : list byte := String.list_byte_of_string s.

Example quote_meta_literal_ex :
  let v := bs "a.b*c (x|y) [z]+ $^ \ é"%string in
  utf8_ok v = true /\ quote_meta v <> v /\ re_literal (quote_meta v) = Some v.
Proof. vm_compute. repeat split; [discriminate]. Qed.

(* outside the hypothesis: an invalid UTF-8 value is not a pattern of the fragment at all *)
Example quote_meta_invalid_ex : re_literal (quote_meta [xff]) = None.
Proof. reflexivity. Qed.

(* the fragment really rejects operators *)
Example re_literal_rejects_ex :
  re_literal (bs "a.b"%string) = None /\ re_literal (bs "a\w"%string) = None /\
  re_literal (bs "a\.b"%string) = Some (bs "a.b"%string).
Proof. vm_compute. repeat split. Qed.

Example expand_regex_ex :
  let st := cmd_env [bs "R=a.b*c"%string] (setup_env []) in
  ts_parse st (bs "grep ${R@R}"%string) = Some [bs "grep"%string; bs "a\.b\*c"%string]
  /\ re_literal (bs "a\.b\*c"%string) = Some (bs "a.b*c"%string).
Proof. vm_compute. split; reflexivity. Qed.
