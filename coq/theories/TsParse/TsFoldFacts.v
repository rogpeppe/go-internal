(* C02 — with envvarname as a parameter: the map agrees with the list up to folding, the latest
   assignment to any spelling of a name wins; the identity instance is the model of TsParse.v. *)
From Coq Require Import List Bool Arith NArith Lia.
From Coq.Strings Require Import Byte.
From GI Require Import Lib.Bytes Lib.BytesFacts Gen.TsParseConsts TsParse.TsParse TsParse.TsSpec TsParse.TsFold
  TsParse.TsParseFacts.
Import ListNotations.
Local Notation bytes := (list byte) (only parsing).

Section FoldFacts.
  Variable fold : bytes -> bytes.

  Definition consistent_f (st : ts_env) : Prop :=
    forall k, getenv_f fold st k = or_empty (list_get_f fold (env_list st) k).

  Lemma list_get_f_app : forall a b k,
    list_get_f fold (a ++ b) k
    = match list_get_f fold b k with Some v => Some v | None => list_get_f fold a k end.
  Proof.
    intros a b k. induction a as [|x a IH]; simpl.
    - destruct (list_get_f fold b k); reflexivity.
    - rewrite IH. destruct (list_get_f fold b k); reflexivity.
  Qed.

  Lemma setup_map_f_spec : forall vars m0 k,
    map_get (fold_left (fun m kv => match split_kv kv with
                                    | Some (k, v) => map_set (fold k) v m
                                    | None => m
                                    end) vars m0) (fold k)
    = match list_get_f fold vars k with Some v => v | None => map_get m0 (fold k) end.
  Proof.
    induction vars as [|kv vars IH]; intros m0 k; [reflexivity|].
    simpl fold_left. rewrite IH. simpl list_get_f.
    destruct (list_get_f fold vars k); [reflexivity|].
    destruct (split_kv kv) as [[k' v]|]; [|reflexivity].
    simpl. destruct (bytes_eqb (fold k') (fold k)); reflexivity.
  Qed.

  Theorem setup_consistent_f : forall vars, consistent_f (setup_env_f fold vars).
  Proof.
    intros vars k. unfold getenv_f, setup_env_f. simpl env_map. simpl env_list.
    rewrite setup_map_f_spec. destruct (list_get_f fold vars k); reflexivity.
  Qed.

  Theorem setenv_consistent_f : forall st k v,
    index_byte ts_env_sep k = None -> consistent_f st -> consistent_f (setenv_f fold k v st).
  Proof.
    intros st k v Hk Hc k0. unfold setenv_f at 2. simpl env_list.
    rewrite list_get_f_app. simpl list_get_f. rewrite (split_kv_build k v Hk).
    unfold getenv_f, setenv_f. simpl env_map. simpl map_get.
    destruct (bytes_eqb (fold k) (fold k0)); [reflexivity|]. apply Hc.
  Qed.

  Theorem cmd_env_consistent_f : forall args st, consistent_f st -> consistent_f (cmd_env_f fold args st).
  Proof.
    induction args as [|a args IH]; intros st Hc; [exact Hc|].
    simpl. apply IH. unfold cmd_env_arg_f. destruct (split_kv a) as [[k v]|] eqn:E; [|exact Hc].
    apply setenv_consistent_f; [exact (proj2 (split_kv_inv a k v E))|exact Hc].
  Qed.

  Theorem reachable_consistent_f : forall vars args,
    consistent_f (cmd_env_f fold args (setup_env_f fold vars)).
  Proof. intros vars args. exact (cmd_env_consistent_f args _ (setup_consistent_f vars)). Qed.

  (* the argument does not assign any spelling of k *)
  Definition not_assign_f (k a : bytes) : Prop :=
    forall k' v', split_kv a = Some (k', v') -> fold k' <> fold k.

  Theorem unassigned_keeps_f : forall args st k,
    Forall (not_assign_f k) args -> getenv_f fold (cmd_env_f fold args st) k = getenv_f fold st k.
  Proof.
    induction args as [|a args IH]; intros st k H; [reflexivity|].
    inversion H as [|x l Ha Hargs]; subst. simpl. rewrite (IH _ k Hargs).
    unfold cmd_env_arg_f. destruct (split_kv a) as [[k' v']|] eqn:E; [|reflexivity].
    unfold getenv_f, setenv_f. simpl env_map. simpl map_get.
    rewrite (bytes_eqb_neq (fold k') (fold k) (Ha k' v' E)). reflexivity.
  Qed.

  Lemma cmd_env_f_app : forall a b st, cmd_env_f fold (a ++ b) st = cmd_env_f fold b (cmd_env_f fold a st).
  Proof. intros. unfold cmd_env_f. apply fold_left_app. Qed.

  Lemma cmd_env_f_cons : forall a b st, cmd_env_f fold (a :: b) st = cmd_env_f fold b (cmd_env_arg_f fold st a).
  Proof. reflexivity. Qed.

  (* the latest assignment to any spelling of the name wins *)
  Theorem latest_wins_f : forall st pre k k0 v post,
    index_byte ts_env_sep k = None -> fold k = fold k0 -> Forall (not_assign_f k0) post ->
    getenv_f fold (cmd_env_f fold (pre ++ (k ++ ts_env_sep :: v) :: post) st) k0 = v.
  Proof.
    intros st pre k k0 v post Hk Hf Hpost. rewrite cmd_env_f_app, cmd_env_f_cons.
    rewrite (unassigned_keeps_f post _ k0 Hpost).
    unfold cmd_env_arg_f. rewrite (split_kv_build k v Hk).
    unfold getenv_f, setenv_f. simpl env_map. simpl map_get. rewrite Hf, bytes_eqb_refl. reflexivity.
  Qed.
End FoldFacts.

Definition id_fold (k : bytes) : bytes := k.

Theorem fold_id_is_model : forall st k v vars args,
  getenv_f id_fold st k = getenv st k /\
  setenv_f id_fold k v st = setenv k v st /\
  setup_env_f id_fold vars = setup_env vars /\
  cmd_env_f id_fold args st = cmd_env args st.
Proof.
  intros st k v vars args. repeat split.
Qed.

From Coq Require Import String.
(* Windows: Path and PATH are one variable *)
Example windows_fold_ex :
  let st := cmd_env_f lower [bs "Path=C:\a"%string; bs "X=1"%string; bs "PATH=C:\b"%string] (setup_env_f lower []) in
  lower (bs "SystemRoot"%string) = bs "systemroot"%string /\
  getenv_f lower st (bs "path"%string) = bs "C:\b"%string /\
  getenv_f lower st (bs "Path"%string) = bs "C:\b"%string /\
  getenv_f id_fold (cmd_env_f id_fold [bs "Path=C:\a"%string; bs "PATH=C:\b"%string] (setup_env_f id_fold []))
           (bs "Path"%string) = bs "C:\a"%string.
Proof. vm_compute. repeat split. Qed.
