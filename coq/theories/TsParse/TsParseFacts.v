(* C02 — facts about the tokenizer and expansion model of TsParse.v. *)
From Coq Require Import List Bool Arith NArith Lia.
From Coq.Strings Require Import Byte.
From GI Require Import Lib.Bytes Lib.BytesFacts Lib.GoSem Lib.GoSemExtFacts Gen.TsParseConsts TsParse.TsParse TsParse.TsSpec.
Import ListNotations.

(* [bytes] is used as a plain abbreviation here, so that every implicit type argument is
   literally [list byte] (the constant Lib.Bytes.bytes is convertible to it, but rewriting
   is syntactic) *)
Local Notation bytes := (list byte) (only parsing).

(* strings.IndexByte is modelled here and in Lib/GoSem.v by the same function: its laws are those
   of Lib/GoSemExtFacts.v (index_byte_first, index_byte_Some, index_byte_None, index_byte_notin) *)
Lemma index_byte_go : forall b s, index_byte b s = GoSem.index_byte b s.
Proof. reflexivity. Qed.

Lemma index_byte_app_found : forall b p i rest,
  index_byte b p = Some i -> index_byte b (p ++ rest) = Some i.
Proof.
  intros b p. induction p as [|c p IH]; simpl; intros i rest H; [discriminate|].
  destruct (beq c b); [exact H|].
  destruct (index_byte b p) as [j|] eqn:E; [|discriminate].
  rewrite (IH j rest eq_refl). exact H.
Qed.

Lemma index_byte_app_none : forall b a c,
  index_byte b a = None -> index_byte b c = None -> index_byte b (a ++ c) = None.
Proof.
  intros b a c Ha Hc. rewrite index_byte_go. apply index_byte_notin. intros H. apply in_app_or in H.
  destruct H as [H|H]; [exact (index_byte_None b a Ha H)|exact (index_byte_None b c Hc H)].
Qed.

Lemma skipn_S_length_app : forall (k : bytes) c v, skipn (S (length k)) (k ++ c :: v) = v.
Proof. intros k c v. induction k as [|x k IH]; [reflexivity|exact IH]. Qed.

Lemma split_kv_build : forall k v,
  index_byte ts_env_sep k = None -> split_kv (k ++ ts_env_sep :: v) = Some (k, v).
Proof.
  intros k v H. unfold split_kv. rewrite index_byte_go, (index_byte_first _ k v (index_byte_None _ k H)).
  rewrite firstn_length_app, skipn_S_length_app. reflexivity.
Qed.

Lemma split_kv_inv : forall a k v,
  split_kv a = Some (k, v) -> a = k ++ ts_env_sep :: v /\ index_byte ts_env_sep k = None.
Proof.
  intros a k v H. unfold split_kv in H.
  destruct (index_byte ts_env_sep a) as [i|] eqn:E; [|discriminate].
  injection H as H1 H2. destruct (index_byte_Some _ _ _ E) as [_ [H3 H4]].
  subst k v. split; [exact H4|]. rewrite index_byte_go. exact (index_byte_notin _ _ H3).
Qed.

(* facts about the regenerated constants: each is a closed computation on Gen/TsParseConsts.v, so an
   edit of the tokenizer's literals in the repository re-opens exactly these *)

Lemma quote_next_is_quote : ts_quote_next = ts_quote.
Proof. reflexivity. Qed.

Lemma comment_bytes_are_seps : forallb is_sep ts_comment_bytes = true.
Proof. reflexivity. Qed.

Lemma comment_is_sep : forall c, is_comment c = true -> is_sep c = true.
Proof. intros c H. exact (mem_byte_forallb is_sep c ts_comment_bytes comment_bytes_are_seps H). Qed.

Lemma quote_not_sep : is_sep ts_quote = false.
Proof. reflexivity. Qed.

Lemma sp_is_blank : is_sep SP = true /\ is_comment SP = false.
Proof. split; reflexivity. Qed.

Lemma dollar_word_byte : is_sep dollar = false /\ beq dollar ts_quote = false.
Proof. split; reflexivity. Qed.

Lemma braces_word_bytes :
  is_sep lbrace = false /\ beq lbrace ts_quote = false /\ is_sep rbrace = false /\ beq rbrace ts_quote = false.
Proof. repeat split; reflexivity. Qed.

Lemma suffix_word_bytes :
  forallb (fun c => negb (is_sep c) && negb (beq c ts_quote) && negb (beq c rbrace)) ts_regex_suffix = true.
Proof. reflexivity. Qed.

Lemma suffix_not_alnum : forallb is_alnum ts_regex_suffix = false.
Proof. reflexivity. Qed.

Lemma suffix_nonempty : is_nil ts_regex_suffix = false.
Proof. reflexivity. Qed.

Lemma sep_is_not_quote : forall c, is_sep c = true -> beq c ts_quote = false.
Proof.
  intros c H. destruct (beq c ts_quote) eqn:E; [|reflexivity].
  apply beq_eq in E. subst. rewrite quote_not_sep in H. discriminate.
Qed.

Lemma special_not_alnum :
  forallb (fun c => negb (is_alnum c)) (ts_quote :: dollar :: lbrace :: rbrace :: ts_sep_bytes) = true.
Proof. reflexivity. Qed.

Lemma alnum_ordinary : forall c, is_alnum c = true ->
  is_sep c = false /\ beq c ts_quote = false /\ beq c dollar = false /\
  beq c lbrace = false /\ beq c rbrace = false.
Proof.
  intros c H.
  assert (N : mem_byte c (ts_quote :: dollar :: lbrace :: rbrace :: ts_sep_bytes) = false).
  { destruct (mem_byte c _) eqn:E; [|reflexivity].
    apply (mem_byte_forallb _ _ _ special_not_alnum) in E. rewrite H in E. discriminate E. }
  unfold mem_byte in N. cbn [existsb] in N.
  do 4 (apply orb_false_iff in N; destruct N as [? N]). repeat split; assumption.
Qed.

Lemma expand_go_nil : forall f w, expand_go f [] w = [].
Proof. intros f [|w]; reflexivity. Qed.

Lemma expand_go_skip : forall f s w, expand_go f s w = expand_go f (skipn w s) 0.
Proof.
  intros f s. induction s as [|c r IH]; intros w.
  - rewrite skipn_nil. rewrite !expand_go_nil. reflexivity.
  - destruct w as [|k]; [reflexivity|]. simpl skipn. rewrite <- IH. reflexivity.
Qed.

Definition no_dollar (s : bytes) : Prop := forallb (fun c => negb (beq c dollar)) s = true.

Lemma expand_go_cons_plain : forall f c r,
  beq c dollar = false -> expand_go f (c :: r) 0 = c :: expand_go f r 0.
Proof. intros f c r H. destruct r as [|c' r']; [reflexivity|]. cbn [expand_go]. rewrite H. reflexivity. Qed.

Lemma expand_go_plain_prefix : forall f pre rest,
  no_dollar pre -> expand_go f (pre ++ rest) 0 = pre ++ expand_go f rest 0.
Proof.
  intros f pre rest. induction pre as [|c pre IH]; intros H; [reflexivity|].
  apply andb_true_iff in H. destruct H as [Hc Hp]. apply negb_true_iff in Hc.
  cbn [app]. rewrite (expand_go_cons_plain f c _ Hc), (IH Hp). reflexivity.
Qed.

Lemma expand_go_plain : forall f s, no_dollar s -> expand_go f s 0 = s.
Proof.
  intros f s H. rewrite <- (app_nil_r s) at 1. rewrite expand_go_plain_prefix by exact H.
  rewrite expand_go_nil. apply app_nil_r.
Qed.

Lemma os_expand_nil : forall f, os_expand f [] = [].
Proof. reflexivity. Qed.

Lemma expand_go_dollar : forall f c r name w,
  get_shell_name c r = (name, w) -> name <> [] ->
  expand_go f (dollar :: c :: r) 0 = f name ++ expand_go f (skipn w (c :: r)) 0.
Proof.
  intros f c r name w H Hn. rewrite <- expand_go_skip. cbn [expand_go]. rewrite beq_refl, H.
  destruct name; [contradiction Hn|]; reflexivity.
Qed.

(* a valid $NAME: non-empty, alphanumeric, not starting with a one-character special name *)
Definition valid_name (k : bytes) : Prop :=
  k <> [] /\ forallb is_alnum k = true /\
  match k with c :: _ => is_shell_special c = false | [] => True end.

Definition no_alnum_head (post : bytes) : Prop :=
  match post with [] => True | c :: _ => is_alnum c = false end.

Lemma take_alnum_app : forall k rest,
  forallb is_alnum k = true -> no_alnum_head rest -> take_alnum (k ++ rest) = k.
Proof.
  intros k rest. induction k as [|c k IH]; intros Hk Hr.
  - destruct rest as [|c r]; [reflexivity|]. simpl in *. rewrite Hr. reflexivity.
  - simpl in Hk. apply andb_true_iff in Hk. destruct Hk as [Hc Hk].
    simpl. rewrite Hc. f_equal. apply IH; assumption.
Qed.

(* the name inside ${...}: non-empty and free of the closing brace *)
Definition brace_ok (k : bytes) : Prop := k <> [] /\ index_byte rbrace k = None.

Lemma brace_name_found : forall k rest,
  brace_ok k -> brace_name (k ++ rbrace :: rest) = (k, length k + 2).
Proof.
  intros k rest [Hne Hnb]. unfold brace_name.
  rewrite index_byte_go, (index_byte_first _ k rest (index_byte_None _ k Hnb)).
  destruct k as [|c k]; [contradiction Hne; reflexivity|].
  cbn [length]. rewrite <- (firstn_length_app (c :: k) (rbrace :: rest)) at 2.
  reflexivity.
Qed.

(* behind an opening brace the shortcut of getShellName for ${*}, ${1}, ... changes nothing: no
   one-character special name is the closing brace, so the scan finds the same name *)
Lemma get_shell_name_lbrace : forall r, get_shell_name lbrace r = brace_name r.
Proof.
  intros r. unfold get_shell_name. rewrite beq_refl. destruct r as [|c1 [|c2 r]]; try reflexivity.
  destruct (is_shell_special c1) eqn:E1; [|reflexivity]. destruct (beq c2 rbrace) eqn:E2; [|reflexivity].
  assert (H : beq c1 rbrace = false).
  { destruct (beq c1 rbrace) eqn:E; [|reflexivity]. apply beq_eq in E. subst c1. discriminate E1. }
  unfold brace_name. cbn [index_byte andb]. rewrite H, E2. reflexivity.
Qed.

(* [dollar :: r] in front of [post] is a reference to the variable [n]: os.Expand puts the value the
   mapping gives for n in its place and goes on with post.  The three forms $k, ${k} and ${k@R}
   differ only in r and n *)
Definition refers (r n post : bytes) : Prop :=
  forall f, expand_go f (dollar :: r ++ post) 0 = f n ++ expand_go f post 0.

Lemma refers_var : forall k post, valid_name k -> no_alnum_head post -> refers k k post.
Proof.
  intros k post [Hne [Hal Hsp]] Hr f.
  destruct k as [|c k]; [contradiction Hne; reflexivity|].
  assert (Hc : is_alnum c = true) by (simpl in Hal; apply andb_true_iff in Hal; tauto).
  destruct (alnum_ordinary c Hc) as [_ [_ [_ [Hlb _]]]].
  cbn [app]. rewrite (expand_go_dollar f c (k ++ post) (c :: k) (length (c :: k))); [| |discriminate].
  - change (c :: k ++ post) with ((c :: k) ++ post). rewrite skipn_length_app. reflexivity.
  - unfold get_shell_name. rewrite Hlb, Hsp. change (c :: k ++ post) with ((c :: k) ++ post).
    rewrite (take_alnum_app (c :: k) post Hal Hr). reflexivity.
Qed.

Definition braced (k : bytes) : bytes := lbrace :: k ++ [rbrace].

Lemma braced_app : forall k post, braced k ++ post = lbrace :: k ++ rbrace :: post.
Proof. intros k post. unfold braced. cbn [app]. rewrite <- app_assoc. reflexivity. Qed.

Lemma braced_length : forall k, length (braced k) = length k + 2.
Proof. intros k. unfold braced. cbn [length]. rewrite app_length. cbn [length]. lia. Qed.

Lemma refers_brace : forall k post, brace_ok k -> refers (braced k) k post.
Proof.
  intros k post Hk f.
  rewrite braced_app, (expand_go_dollar f _ _ k (length k + 2)); [| |exact (proj1 Hk)].
  - rewrite <- braced_length, <- braced_app, skipn_length_app. reflexivity.
  - rewrite get_shell_name_lbrace. exact (brace_name_found k post Hk).
Qed.

Lemma parse_go_cons : forall st c r args arg chunk quoted,
  parse_go st (c :: r) args arg chunk quoted =
    if negb quoted && is_sep c then
      if is_comment c then Some (flush_arg st args arg chunk)
      else parse_go st r (flush_arg st args arg chunk) [] None false
    else if beq c ts_quote then
      if negb quoted then parse_go st r args (add_chunk st arg chunk) (Some []) true
      else
        match r with
        | c2 :: r2 =>
            if beq c2 ts_quote_next
            then parse_go st r2 args (arg ++ chunk_bytes chunk) (Some [c2]) true
            else parse_go st r args (arg ++ chunk_bytes chunk) (Some []) false
        | [] => parse_go st r args (arg ++ chunk_bytes chunk) (Some []) false
        end
    else parse_go st r args arg (Some (chunk_bytes chunk ++ [c])) quoted.
Proof. reflexivity. Qed.

Lemma plain_word_bytes : forall w, forallb plain_byte w = true -> forallb word_byte w = true /\ no_dollar w.
Proof.
  induction w as [|c w IH]; intros H; [split; reflexivity|].
  simpl in H. apply andb_true_iff in H. destruct H as [Hc Hw].
  apply andb_true_iff in Hc. destruct Hc as [H1 H2]. destruct (IH Hw) as [H3 H4].
  split; [simpl; rewrite H1, H3; reflexivity|].
  unfold no_dollar in *. simpl. rewrite H2, H4. reflexivity.
Qed.

Lemma expand_plain : forall st w, no_dollar w -> expand st w = w.
Proof. intros st w H. unfold expand, os_expand. apply expand_go_plain. exact H. Qed.

Definition plain_word (w : bytes) : Prop := w <> [] /\ forallb plain_byte w = true.
Definition blank_run (s : bytes) : Prop := forallb blank_byte s = true.

Lemma sp_blank_byte : blank_byte SP = true.
Proof. reflexivity. Qed.

(* parse looks one byte ahead when it meets a quote inside quotes.  The machine below reads one byte
   at a time: after such a quote it is [Closing] (with the pending chunk already appended to arg) and
   decides at the next byte: a second quote is a literal quote and it is back inside, anything else
   is read outside quotes.  A comment character outside quotes halts it.  [parse_go_tok] shows that
   it computes parse_go; the laws are proved on the machine, which reads a concatenation piece by
   piece (tok_run_app). *)

Inductive tmode : Set := Plain | Quoted | Closing.

Inductive tok : Type :=
| Run (args : list bytes) (arg : bytes) (chunk : option bytes) (m : tmode)
| Halt (ws : list bytes).

(* a byte read outside quotes *)
Definition tok_plain (st : ts_env) (args : list bytes) (arg : bytes) (chunk : option bytes) (c : byte) : tok :=
  if is_sep c then
    if is_comment c then Halt (flush_arg st args arg chunk)
    else Run (flush_arg st args arg chunk) [] None Plain
  else if beq c ts_quote then Run args (add_chunk st arg chunk) (Some []) Quoted
  else Run args arg (Some (chunk_bytes chunk ++ [c])) Plain.

Definition tok_step (st : ts_env) (t : tok) (c : byte) : tok :=
  match t with
  | Halt ws => Halt ws
  | Run args arg chunk Plain => tok_plain st args arg chunk c
  | Run args arg chunk Quoted =>
      if beq c ts_quote then Run args (arg ++ chunk_bytes chunk) (Some []) Closing
      else Run args arg (Some (chunk_bytes chunk ++ [c])) Quoted
  | Run args arg chunk Closing =>
      if beq c ts_quote_next then Run args arg (Some [c]) Quoted else tok_plain st args arg chunk c
  end.

Fixpoint tok_run (st : ts_env) (l : bytes) (t : tok) : tok :=
  match l with [] => t | c :: r => tok_run st r (tok_step st t c) end.

Definition tok_end (st : ts_env) (t : tok) : option (list bytes) :=
  match t with
  | Halt ws => Some ws
  | Run _ _ _ Quoted => None
  | Run args arg chunk _ => Some (flush_arg st args arg chunk)
  end.

Lemma tok_run_app : forall st a b t, tok_run st (a ++ b) t = tok_run st b (tok_run st a t).
Proof. intros st a b. induction a as [|c a IH]; intros t; [reflexivity|apply IH]. Qed.

Lemma tok_run_halt : forall st l ws, tok_run st l (Halt ws) = Halt ws.
Proof. intros st l ws. induction l as [|c l IH]; [reflexivity|exact IH]. Qed.

Lemma parse_go_tok : forall st l,
  (forall args arg chunk q,
     parse_go st l args arg chunk q
     = tok_end st (tok_run st l (Run args arg chunk (if q then Quoted else Plain)))) /\
  (forall args arg chunk,
     parse_go st (ts_quote :: l) args arg chunk true
     = tok_end st (tok_run st l (Run args (arg ++ chunk_bytes chunk) (Some []) Closing))).
Proof.
  intros st l. induction l as [|c l [IH1 IH2]].
  - split; [intros args arg chunk [|]; reflexivity|].
    intros. rewrite parse_go_cons, beq_refl. reflexivity.
  - assert (H1 : forall args arg chunk q,
               parse_go st (c :: l) args arg chunk q
               = tok_end st (tok_run st (c :: l) (Run args arg chunk (if q then Quoted else Plain)))).
    { intros args arg chunk [|]; cbn [tok_run tok_step].
      - destruct (beq c ts_quote) eqn:E.
        + apply beq_eq in E. subst c. apply IH2.
        + rewrite parse_go_cons, E. apply (IH1 _ _ _ true).
      - rewrite parse_go_cons. unfold tok_plain. cbn [negb andb].
        destruct (is_sep c); [destruct (is_comment c)|destruct (beq c ts_quote)].
        + rewrite tok_run_halt. reflexivity.
        + apply (IH1 _ _ _ false).
        + apply (IH1 _ _ _ true).
        + apply (IH1 _ _ _ false). }
    split; [exact H1|]. intros args arg chunk. rewrite parse_go_cons, beq_refl.
    cbn [negb andb tok_run tok_step].
    destruct (beq c ts_quote_next); [apply (IH1 _ _ _ true)|apply (H1 _ _ _ false)].
Qed.

Lemma ts_parse_tok : forall st line,
  ts_parse st line = tok_end st (tok_run st line (Run [] [] None Plain)).
Proof. intros st line. exact (proj1 (parse_go_tok st line) [] [] None false). Qed.

Lemma tok_word : forall st c args arg chunk,
  word_byte c = true ->
  tok_plain st args arg chunk c = Run args arg (Some (chunk_bytes chunk ++ [c])) Plain.
Proof.
  intros st c args arg chunk H. apply andb_true_iff in H. destruct H as [H1 H2].
  apply negb_true_iff in H1. apply negb_true_iff in H2. unfold tok_plain. rewrite H1, H2. reflexivity.
Qed.

Lemma tok_blank : forall st c args arg chunk,
  blank_byte c = true ->
  tok_plain st args arg chunk c = Run (flush_arg st args arg chunk) [] None Plain.
Proof.
  intros st c args arg chunk H. apply andb_true_iff in H. destruct H as [H1 H2].
  apply negb_true_iff in H2. unfold tok_plain. rewrite H1, H2. reflexivity.
Qed.

Lemma tok_words : forall st w args arg ch,
  forallb word_byte w = true ->
  tok_run st w (Run args arg (Some ch) Plain) = Run args arg (Some (ch ++ w)) Plain.
Proof.
  intros st w args arg. induction w as [|c w IH]; intros ch H; [rewrite app_nil_r; reflexivity|].
  apply andb_true_iff in H. destruct H as [Hc Hw]. cbn [tok_run tok_step].
  rewrite (tok_word st c _ _ _ Hc), (IH _ Hw), <- app_assoc. reflexivity.
Qed.

Lemma tok_word_start : forall st w args arg,
  w <> [] -> forallb word_byte w = true ->
  tok_run st w (Run args arg None Plain) = Run args arg (Some w) Plain.
Proof.
  intros st [|c w] args arg Hne H; [contradiction Hne; reflexivity|].
  apply andb_true_iff in H. destruct H as [Hc Hw]. cbn [tok_run tok_step].
  rewrite (tok_word st c _ _ _ Hc). exact (tok_words st w args arg [c] Hw).
Qed.

Lemma tok_blanks : forall st s args,
  blank_run s -> tok_run st s (Run args [] None Plain) = Run args [] None Plain.
Proof.
  intros st s args. induction s as [|b s IH]; intros H; [reflexivity|].
  apply andb_true_iff in H. destruct H as [Hb Hs]. cbn [tok_run tok_step].
  rewrite (tok_blank st b _ _ _ Hb). exact (IH Hs).
Qed.

Lemma tok_blanks_flush : forall st s args arg ch,
  s <> [] -> blank_run s ->
  tok_run st s (Run args arg (Some ch) Plain) = Run (args ++ [arg ++ expand st ch]) [] None Plain.
Proof.
  intros st [|b s] args arg ch Hne H; [contradiction Hne; reflexivity|].
  apply andb_true_iff in H. destruct H as [Hb Hs]. cbn [tok_run tok_step].
  rewrite (tok_blank st b _ _ _ Hb). exact (tok_blanks st s _ Hs).
Qed.

Lemma dbl_quotes_cons : forall c w,
  dbl_quotes (c :: w) = (if beq c ts_quote then [ts_quote; ts_quote] else [c]) ++ dbl_quotes w.
Proof. reflexivity. Qed.

Lemma tok_quoted : forall st w args arg ch,
  tok_run st (dbl_quotes w ++ [ts_quote]) (Run args arg (Some ch) Quoted)
  = Run args (arg ++ ch ++ w) (Some []) Closing.
Proof.
  intros st w args. induction w as [|c w IH]; intros arg ch.
  - cbn [dbl_quotes flat_map app tok_run tok_step]. rewrite beq_refl, app_nil_r. reflexivity.
  - rewrite dbl_quotes_cons. destruct (beq c ts_quote) eqn:E.
    + apply beq_eq in E. subst c. cbn [app tok_run tok_step]. rewrite beq_refl. cbn [tok_step].
      rewrite quote_next_is_quote, beq_refl, IH, <- app_assoc. reflexivity.
    + cbn [app tok_run tok_step]. rewrite E, IH, <- app_assoc. reflexivity.
Qed.

Lemma tok_sq : forall st w args,
  tok_run st (sq w) (Run args [] None Plain) = Run args w (Some []) Closing.
Proof.
  intros st w args. unfold sq. cbn [tok_run tok_step]. unfold tok_plain.
  rewrite quote_not_sep, beq_refl. exact (tok_quoted st w args [] []).
Qed.

Lemma tok_quote_words : forall st ws args,
  tok_end st (tok_run st (join_sp (map sq ws)) (Run args [] None Plain)) = Some (args ++ ws).
Proof.
  intros st ws. induction ws as [|w ws IH]; intros args.
  - simpl. rewrite app_nil_r. reflexivity.
  - destruct ws as [|w2 ws].
    + cbn [map join_sp]. rewrite tok_sq. cbn [tok_end flush_arg]. rewrite app_nil_r. reflexivity.
    + change (join_sp (map sq (w :: w2 :: ws))) with (sq w ++ SP :: join_sp (map sq (w2 :: ws))).
      rewrite tok_run_app, tok_sq. cbn [tok_run tok_step].
      change (beq SP ts_quote_next) with false. cbv iota.
      rewrite (tok_blank st SP _ _ _ sp_blank_byte). cbn [flush_arg].
      rewrite app_nil_r, IH, <- app_assoc. reflexivity.
Qed.

(* any word survives quoting; nothing inside quotes is expanded, split or taken as a comment *)
Theorem parse_quote_words : forall st ws,
  ts_parse st (join_sp (map sq ws)) = Some ws.
Proof. intros st ws. rewrite ts_parse_tok. exact (tok_quote_words st ws []). Qed.

(* words without a newline give a line without a newline: the quoted list is one script line *)
Lemma quote_nl_facts : beq ts_quote NL = false /\ beq SP NL = false.
Proof. split; reflexivity. Qed.

Lemma dbl_quotes_in : forall b w, In b (dbl_quotes w) -> In b w.
Proof.
  intros b w. induction w as [|c w IH]; simpl; [auto|].
  destruct (beq c ts_quote) eqn:E.
  - apply beq_eq in E. subst c. simpl. intros [H|[H|H]]; auto.
  - simpl. intros [H|H]; auto.
Qed.

Theorem quoted_line_single : forall ws,
  Forall (fun w => ~ In NL w) ws -> ~ In NL (join_sp (map sq ws)).
Proof.
  destruct quote_nl_facts as [Hq Hs]. apply beq_neq in Hq. apply beq_neq in Hs.
  intros ws H. induction H as [|w ws Hw Hws IH]; [intros []|].
  assert (Hsq : ~ In NL (sq w)).
  { unfold sq. intros [H1|H1]; [exact (Hq H1)|].
    apply in_app_or in H1. destruct H1 as [H1|[H1|[]]]; [|exact (Hq H1)].
    apply Hw. apply dbl_quotes_in. exact H1. }
  destruct ws as [|w2 ws]; [simpl; exact Hsq|].
  change (join_sp (map sq (w :: w2 :: ws))) with (sq w ++ SP :: join_sp (map sq (w2 :: ws))).
  intros H1. apply in_app_or in H1. destruct H1 as [H1|[H1|H1]]; auto.
Qed.

Lemma tok_split : forall st rest trail args w,
  Forall (fun p => fst p <> [] /\ blank_run (fst p) /\ plain_word (snd p)) rest ->
  blank_run trail ->
  forallb plain_byte w = true ->
  tok_end st (tok_run st (join_runs rest ++ trail) (Run args [] (Some w) Plain))
  = Some (args ++ w :: map snd rest).
Proof.
  intros st rest trail. induction rest as [|[s w'] rest IH]; intros args w Hall Ht Hw;
    pose proof (expand_plain st w (proj2 (plain_word_bytes w Hw))) as Hx.
  - cbn [join_runs app map]. destruct trail as [|b t]; [|rewrite tok_blanks_flush by (discriminate || exact Ht)];
      cbn [tok_run tok_end flush_arg app]; rewrite Hx; reflexivity.
  - inversion Hall as [|p l [Hsne [Hs [Hwne Hw']]] Hrest]; subst. cbn [join_runs fst snd map] in *.
    rewrite <- !app_assoc, tok_run_app, (tok_blanks_flush st s args [] w Hsne Hs), Hx, tok_run_app.
    rewrite (tok_word_start st w' _ [] Hwne (proj1 (plain_word_bytes w' Hw'))).
    rewrite (IH _ w' Hrest Ht Hw'), <- app_assoc. reflexivity.
Qed.

(* words of ordinary bytes separated by arbitrary non-empty runs of blanks (every separator
   of the tokenizer that is not a comment character: space, tab, CR), with optional blanks at both
   ends, parse to themselves *)
Theorem parse_plain_split : forall st lead w0 rest trail,
  blank_run lead -> plain_word w0 ->
  Forall (fun p => fst p <> [] /\ blank_run (fst p) /\ plain_word (snd p)) rest ->
  blank_run trail ->
  ts_parse st (lead ++ w0 ++ join_runs rest ++ trail) = Some (w0 :: map snd rest).
Proof.
  intros st lead w0 rest trail Hl [Hne Hw0] Hrest Ht.
  rewrite ts_parse_tok, tok_run_app, (tok_blanks st lead [] Hl), tok_run_app.
  rewrite (tok_word_start st w0 [] [] Hne (proj1 (plain_word_bytes w0 Hw0))).
  exact (tok_split st rest trail [] w0 Hrest Ht Hw0).
Qed.

Theorem parse_blank_line : forall st s, blank_run s -> ts_parse st s = Some [].
Proof. intros st s H. rewrite ts_parse_tok, (tok_blanks st s [] H). reflexivity. Qed.

Definition open_quote (t : tok) : bool := match t with Run _ _ _ Quoted => true | _ => false end.

(* unless it halts, the machine is inside quotes exactly after an odd number of quote characters *)
Lemma tok_step_open : forall st t c,
  match tok_step st t c with
  | Halt _ => True
  | t' => open_quote t' = if beq c ts_quote then negb (open_quote t) else open_quote t
  end.
Proof.
  intros st [args arg chunk [| |]|ws] c; cbn [tok_step open_quote]; [| |rewrite quote_next_is_quote|exact I];
    unfold tok_plain; destruct (beq c ts_quote) eqn:E; try reflexivity;
    destruct (is_sep c) eqn:Es; try (destruct (is_comment c)); try reflexivity; try exact I.
  rewrite (sep_is_not_quote c Es) in E. discriminate E.
Qed.

Lemma tok_run_open : forall st l t,
  match tok_run st l t with
  | Halt _ => True
  | t' => open_quote t' = in_quote_after l (open_quote t)
  end.
Proof.
  intros st l. induction l as [|c l IH]; intros t; [destruct t as [? ? ? [| |]|]; try reflexivity; exact I|].
  cbn [tok_run in_quote_after]. specialize (IH (tok_step st t c)). pose proof (tok_step_open st t c) as H.
  destruct (tok_step st t c) as [args arg chunk m|ws]; [rewrite <- H; exact IH|].
  rewrite tok_run_halt. exact I.
Qed.

Lemma tok_comment : forall st t h r,
  is_comment h = true -> open_quote t = false ->
  tok_end st (tok_run st (h :: r) t) = tok_end st t.
Proof.
  intros st t h r Hh Ho. pose proof (comment_is_sep h Hh) as Hs.
  destruct t as [args arg chunk [| |]|ws]; [| discriminate Ho | |apply f_equal, tok_run_halt];
    cbn [tok_run tok_step]; rewrite ?quote_next_is_quote, ?(sep_is_not_quote h Hs);
    unfold tok_plain; rewrite Hs, Hh, tok_run_halt; reflexivity.
Qed.

(* an unquoted comment character — one that follows an even number of quote characters — ends the
   line wherever it stands (also glued to a word); everything after it is ignored *)
Theorem parse_comment : forall st l h r,
  is_comment h = true -> in_quote_after l false = false ->
  ts_parse st (l ++ h :: r) = ts_parse st l.
Proof.
  intros st l h r Hh Hq. rewrite !ts_parse_tok, tok_run_app. apply tok_comment; [exact Hh|].
  pose proof (tok_run_open st l (Run [] [] None Plain)) as H.
  destruct (tok_run st l _) as [args arg chunk m|ws]; [rewrite H; exact Hq|reflexivity].
Qed.

Definition plain_chunk (w : bytes) : Prop := forallb plain_byte w = true.

Lemma alnum_word_bytes : forall k, forallb is_alnum k = true -> forallb word_byte k = true.
Proof.
  induction k as [|c k IH]; intros H; [reflexivity|].
  simpl in H. apply andb_true_iff in H. destruct H as [Hc Hk].
  destruct (alnum_ordinary c Hc) as [H1 [H2 _]].
  simpl. unfold word_byte at 1. rewrite H1, H2. exact (IH Hk).
Qed.

Lemma one_chunk_line : forall st cmd chunk,
  plain_word cmd -> chunk <> [] -> forallb word_byte chunk = true ->
  ts_parse st (cmd ++ SP :: chunk) = Some [cmd; expand st chunk].
Proof.
  intros st cmd chunk [Hne Hcmd] Hcne Hch. destruct (plain_word_bytes cmd Hcmd) as [Hw Hd].
  rewrite ts_parse_tok, tok_run_app, (tok_word_start st cmd [] [] Hne Hw). cbn [tok_run tok_step].
  rewrite (tok_blank st SP _ _ _ sp_blank_byte). cbn [flush_arg app].
  rewrite (expand_plain st cmd Hd), (tok_word_start st chunk _ [] Hcne Hch). reflexivity.
Qed.

Lemma alnum_no_suffix : forall k, forallb is_alnum k = true -> strip_suffix ts_regex_suffix k = None.
Proof.
  intros k Hk. unfold strip_suffix.
  destruct (has_suffix ts_regex_suffix k) eqn:E; [|reflexivity].
  apply has_suffix_iff in E. destruct E as [x E]. subst k.
  rewrite forallb_app, suffix_not_alnum, andb_false_r in Hk. discriminate Hk.
Qed.

Lemma strip_suffix_app : forall k, strip_suffix ts_regex_suffix (k ++ ts_regex_suffix) = Some k.
Proof.
  intros k. unfold strip_suffix. rewrite has_suffix_app, suffix_nonempty.
  simpl andb. cbv iota. rewrite app_length, Nat.add_sub, firstn_length_app. reflexivity.
Qed.

Lemma expand_key_plain : forall st k,
  strip_suffix ts_regex_suffix k = None -> expand_key st k = getenv st k.
Proof. intros st k H. unfold expand_key. rewrite H. reflexivity. Qed.

Lemma expand_key_regex : forall st k,
  expand_key st (k ++ ts_regex_suffix) = quote_meta (getenv st k).
Proof. intros st k. unfold expand_key. rewrite strip_suffix_app. reflexivity. Qed.

Lemma plain_no_alnum_head_nil : no_alnum_head [].
Proof. exact I. Qed.

(* a reference in a text that is not tokenized: the value the script has for n is inserted as it
   is and scanning resumes behind the reference *)
Lemma expand_ref : forall st pre r n post,
  no_dollar pre -> refers r n post ->
  expand st (pre ++ dollar :: r ++ post) = pre ++ expand_key st n ++ expand st post.
Proof.
  intros st pre r n post Hpre Hr. unfold expand, os_expand.
  rewrite (expand_go_plain_prefix _ pre _ Hpre), Hr. reflexivity.
Qed.

(* ... and on a script line, glued to literal text on both sides: substituted once, whatever
   bytes the value holds *)
Lemma parse_ref_once : forall st cmd pre r n post,
  plain_word cmd -> plain_chunk pre -> plain_chunk post ->
  forallb word_byte r = true -> refers r n post ->
  ts_parse st (cmd ++ SP :: pre ++ dollar :: r ++ post) = Some [cmd; pre ++ expand_key st n ++ post].
Proof.
  intros st cmd pre r n post Hcmd Hpre Hpost Hr Href.
  destruct (plain_word_bytes pre Hpre) as [Hpw Hpd].
  destruct (plain_word_bytes post Hpost) as [Hqw Hqd].
  rewrite (one_chunk_line st cmd (pre ++ dollar :: r ++ post) Hcmd).
  - rewrite (expand_ref st pre r n post Hpd Href), (expand_plain st post Hqd). reflexivity.
  - destruct pre; discriminate.
  - rewrite forallb_app. cbn [forallb]. rewrite forallb_app, Hpw, Hr, Hqw. reflexivity.
Qed.

(* $k: the value is substituted once, whatever bytes it holds *)
Theorem parse_expand_once : forall st cmd pre k post v,
  plain_word cmd -> plain_chunk pre -> plain_chunk post -> no_alnum_head post ->
  valid_name k -> getenv st k = v ->
  ts_parse st (cmd ++ SP :: pre ++ dollar :: k ++ post) = Some [cmd; pre ++ v ++ post].
Proof.
  intros st cmd pre k post v Hcmd Hpre Hpost Hhead Hk Hv.
  assert (Hal : forallb is_alnum k = true) by apply Hk.
  rewrite <- Hv, <- (expand_key_plain st k (alnum_no_suffix k Hal)).
  apply parse_ref_once; try assumption; [apply alnum_word_bytes, Hal|apply refers_var; assumption].
Qed.

(* the name between braces: non-empty, made of word bytes, without a closing brace *)
Definition brace_word (k : bytes) : Prop := brace_ok k /\ forallb word_byte k = true.

Lemma braced_word : forall k, forallb word_byte k = true -> forallb word_byte (braced k) = true.
Proof. intros k H. unfold braced. cbn [forallb]. rewrite forallb_app, H. reflexivity. Qed.

(* ${k}: the same, also glued to literal text on both sides *)
Theorem parse_expand_once_brace : forall st cmd pre k post v,
  plain_word cmd -> plain_chunk pre -> plain_chunk post ->
  brace_word k -> strip_suffix ts_regex_suffix k = None -> getenv st k = v ->
  ts_parse st (cmd ++ SP :: pre ++ dollar :: lbrace :: k ++ rbrace :: post)
  = Some [cmd; pre ++ v ++ post].
Proof.
  intros st cmd pre k post v Hcmd Hpre Hpost [Hbk Hkw] Hns Hv.
  rewrite <- Hv, <- (expand_key_plain st k Hns), <- braced_app.
  apply parse_ref_once; try assumption; [apply braced_word, Hkw|apply refers_brace, Hbk].
Qed.

Lemma brace_ok_suffix : forall k, brace_ok k -> brace_ok (k ++ ts_regex_suffix).
Proof.
  intros k [Hne Hb]. split.
  - destruct k; [contradiction Hne; reflexivity|discriminate].
  - apply index_byte_app_none; [exact Hb|reflexivity].
Qed.

(* ${k@R}: the value goes through QuoteMeta and is substituted once *)
Theorem parse_expand_regex : forall st cmd pre k post v,
  plain_word cmd -> plain_chunk pre -> plain_chunk post ->
  brace_word k -> getenv st k = v ->
  ts_parse st (cmd ++ SP :: pre ++ dollar :: lbrace :: (k ++ ts_regex_suffix) ++ rbrace :: post)
  = Some [cmd; pre ++ quote_meta v ++ post].
Proof.
  intros st cmd pre k post v Hcmd Hpre Hpost [Hbk Hkw] Hv.
  rewrite <- Hv, <- expand_key_regex, <- braced_app.
  apply parse_ref_once; try assumption; [|apply refers_brace, brace_ok_suffix, Hbk].
  apply braced_word. rewrite forallb_app, Hkw. reflexivity.
Qed.

From Coq Require Import String.
Definition bs (s : String.string) : list byte := String.list_byte_of_string s.

(* a state with hostile values *)
Definition ex_state : ts_env :=
  cmd_env [bs "A=x 'y' $B #z"%string ++ [CR]; bs "B=again"%string; bs "a-b=dash dash"%string; bs "R=a.b*c"%string]
          (setup_env [bs "WORK=/w"%string; bs "$=$"%string]).

Example parse_quote_words_ex :
  let ws := [bs "it's"%string; []; bs "#x $A ${B}"%string; bs "a  b"%string ++ [TAB; CR]; bs "''"%string] in
  join_sp (map sq ws) = bs "'it''s' '' '#x $A ${B}' 'a  b"%string ++ [TAB; CR] ++ bs "' ''''''"%string
  /\ ts_parse ex_state (join_sp (map sq ws)) = Some ws.
Proof. vm_compute. split; reflexivity. Qed.

Example parse_plain_split_ex :
  let lead := [SP] in
  let w0 := bs "args"%string in
  let rest := [([TAB; SP], bs "a=b"%string); ([TAB], bs "x.y"%string); ([SP; SP; SP], bs "{z}"%string)] in
  let trail := [SP; TAB] in
  blank_run lead /\ plain_word w0 /\
  Forall (fun p => fst p <> [] /\ blank_run (fst p) /\ plain_word (snd p)) rest /\ blank_run trail /\
  ts_parse ex_state (lead ++ w0 ++ join_runs rest ++ trail) = Some (w0 :: map snd rest).
Proof.
  cbv zeta. split; [reflexivity|]. split; [split; [discriminate|reflexivity]|].
  split; [|split; [reflexivity|vm_compute; reflexivity]].
  repeat constructor; try discriminate; reflexivity.
Qed.

(* the characters the property names: words are split at spaces and tabs, # starts a comment,
   the quote is the single quote, expansion starts at $, the regexp suffix is @R *)
Theorem syntax_characters :
  blank_byte SP = true /\ blank_byte TAB = true /\
  is_comment x23 = true /\ ts_quote = x27 /\ dollar = x24 /\ lbrace = x7b /\ rbrace = x7d /\
  ts_regex_suffix = [x40; x52] /\ ts_env_sep = x3d /\ pwd_key = [x50; x57; x44].
Proof. repeat split. Qed.

Example parse_comment_ex :
  let l := bs "args a 'b#c' d"%string in
  let h := x23 in
  is_comment h = true /\ in_quote_after l false = false /\
  ts_parse ex_state (l ++ h :: bs " rest 'unbalanced"%string) = Some [bs "args"%string; bs "a"%string; bs "b#c"%string; bs "d"%string]
  /\ ts_parse ex_state (bs "args a#glued"%string) = Some [bs "args"%string; bs "a"%string].
Proof. vm_compute. repeat split. Qed.

(* inside quotes (odd number of quotes before it) the same character is ordinary *)
Example quoted_hash_ex :
  in_quote_after (bs "args 'a"%string) false = true /\
  ts_parse ex_state (bs "args 'a#b'"%string) = Some [bs "args"%string; bs "a#b"%string].
Proof. vm_compute. split; reflexivity. Qed.

Example parse_expand_once_ex :
  let v := bs "x 'y' $B #z"%string ++ [CR] in
  valid_name (bs "A"%string) /\ getenv ex_state (bs "A"%string) = v /\
  plain_word (bs "c"%string) /\ plain_chunk (bs "pre-"%string) /\ plain_chunk (bs ".post"%string) /\
  no_alnum_head (bs ".post"%string) /\
  ts_parse ex_state (bs "c $A"%string) = Some [bs "c"%string; v] /\
  ts_parse ex_state (bs "c pre-$A.post"%string) = Some [bs "c"%string; bs "pre-"%string ++ v ++ bs ".post"%string].
Proof.
  cbv zeta. split; [split; [discriminate|split; reflexivity]|].
  split; [reflexivity|]. split; [split; [discriminate|reflexivity]|].
  repeat split.
Qed.

Example parse_expand_once_brace_ex :
  let k := bs "a-b"%string in
  brace_word k /\ strip_suffix ts_regex_suffix k = None /\
  ts_parse ex_state (bs "c x${a-b}y"%string) = Some [bs "c"%string; bs "xdash dashy"%string] /\
  ts_parse ex_state (bs "c ${A}"%string) = Some [bs "c"%string; bs "x 'y' $B #z"%string ++ [CR]].
Proof.
  cbv zeta. split; [split; [split; [discriminate|reflexivity]|reflexivity]|].
  repeat split.
Qed.

Example parse_expand_regex_ex :
  ts_parse ex_state (bs "c ^${R@R}$"%string) = Some [bs "c"%string; bs "^a\.b\*c$"%string].
Proof. reflexivity. Qed.

(* names the $NAME form does not cover: a leading digit is a one-character special name *)
Example digit_name_ex :
  ts_parse (cmd_env [bs "1a=v"%string; bs "1=one"%string] (setup_env [])) (bs "c $1a ${1a}"%string)
  = Some [bs "c"%string; bs "onea"%string; bs "v"%string].
Proof. reflexivity. Qed.

Example unterminated_ex : ts_parse ex_state (bs "args 'abc"%string) = None.
Proof. reflexivity. Qed.
