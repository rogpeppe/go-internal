(* C02 — the environment: the lookup map agrees with the KEY=VALUE list, the latest assignment
   wins, and a child process sees the same values as the script. *)
From Coq Require Import List Bool Arith NArith Lia.
From Coq.Strings Require Import Byte.
From GI Require Import Lib.Bytes Lib.BytesFacts Gen.TsParseConsts TsParse.TsParse TsParse.TsSpec TsParse.TsFold
  TsParse.TsParseFacts TsParse.TsFoldFacts.
Import ListNotations.
Local Notation bytes := (list byte) (only parsing).

(* ts.envMap agrees with ts.env *)
Definition consistent (st : ts_env) : Prop :=
  forall k, getenv st k = or_empty (list_get (env_list st) k).

Definition no_sep (k : bytes) : Prop := index_byte ts_env_sep k = None.

Lemma getenv_setenv : forall st k k' v,
  getenv (setenv k' v st) k = if bytes_eqb k' k then v else getenv st k.
Proof. reflexivity. Qed.

Lemma getenv_setenv_same : forall st k v, getenv (setenv k v st) k = v.
Proof. intros. rewrite getenv_setenv, bytes_eqb_refl. reflexivity. Qed.

Lemma getenv_setenv_other : forall st k k' v, k' <> k -> getenv (setenv k' v st) k = getenv st k.
Proof. intros. rewrite getenv_setenv, bytes_eqb_neq by assumption. reflexivity. Qed.

(* getenv, setenv, setup_env and cmd_env are the definitions of TsFold.v at the identity
   (TsFoldFacts.fold_id_is_model), and so are, by the same computation, list_get, consistent and
   not_assign those of list_get_f, consistent_f and not_assign_f: their laws are the ones proved in
   TsFoldFacts.v for every envvarname *)

Lemma list_get_app : forall a b k,
  list_get (a ++ b) k = match list_get b k with Some v => Some v | None => list_get a k end.
Proof. exact (list_get_f_app id_fold). Qed.

Lemma list_get_single : forall kv k,
  list_get [kv] k = match split_kv kv with
                    | Some (k', v) => if bytes_eqb k' k then Some v else None
                    | None => None
                    end.
Proof. reflexivity. Qed.

Theorem setup_consistent : forall vars, consistent (setup_env vars).
Proof. exact (setup_consistent_f id_fold). Qed.

Theorem setenv_consistent : forall st k v,
  no_sep k -> consistent st -> consistent (setenv k v st).
Proof. exact (setenv_consistent_f id_fold). Qed.

Theorem cmd_env_consistent : forall args st, consistent st -> consistent (cmd_env args st).
Proof. exact (cmd_env_consistent_f id_fold). Qed.

(* a sequence of env commands is one env command with all the arguments *)
Theorem cmd_env_app : forall a b st, cmd_env (a ++ b) st = cmd_env b (cmd_env a st).
Proof. exact (cmd_env_f_app id_fold). Qed.

Theorem cmd_env_seq : forall cmds st,
  fold_left (fun s args => cmd_env args s) cmds st = cmd_env (concat cmds) st.
Proof.
  induction cmds as [|c cmds IH]; intros st; [reflexivity|].
  simpl. rewrite IH, cmd_env_app. reflexivity.
Qed.

(* every state a script can reach with env commands agrees with its list *)
Theorem reachable_consistent : forall vars cmds,
  consistent (fold_left (fun s args => cmd_env args s) cmds (setup_env vars)).
Proof. intros. rewrite cmd_env_seq. apply cmd_env_consistent. apply setup_consistent. Qed.

(* the argument does not assign k *)
Definition not_assign (k a : bytes) : Prop :=
  forall k' v', split_kv a = Some (k', v') -> k' <> k.

Theorem unassigned_keeps : forall args st k,
  Forall (not_assign k) args -> getenv (cmd_env args st) k = getenv st k.
Proof. exact (unassigned_keeps_f id_fold). Qed.

Theorem latest_wins : forall st pre k v post,
  no_sep k -> Forall (not_assign k) post ->
  getenv (cmd_env (pre ++ (k ++ ts_env_sep :: v) :: post) st) k = v.
Proof. intros st pre k v post Hk. exact (latest_wins_f id_fold st pre k k v post Hk eq_refl). Qed.

Lemma env_sep_is_eq : ts_env_sep = eq_byte.
Proof. reflexivity. Qed.

Lemma pwd_entry : split_kv ts_pwd_prefix = Some (pwd_key, []).
Proof. reflexivity. Qed.

Lemma pwd_prefix_nul : mem_byte nul_byte ts_pwd_prefix = false.
Proof. reflexivity. Qed.

(* entries seen through the first "=" *)
Definition has_key1 (k kv : bytes) : bool :=
  match index_byte eq_byte kv with
  | Some i => bytes_eqb (firstn i kv) k
  | None => false
  end.
Definition val1 (kv : bytes) : bytes :=
  match index_byte eq_byte kv with
  | Some i => skipn (S i) kv
  | None => []
  end.

Lemma child_lookup_filter : forall k l,
  child_lookup k l = match filter (has_key1 k) l with kv :: _ => Some (val1 kv) | [] => None end.
Proof.
  intros k l. induction l as [|kv l IH]; [reflexivity|].
  cbn [filter child_lookup]. unfold has_key1 at 1.
  destruct (index_byte eq_byte kv) as [i|] eqn:E; [|exact IH].
  destruct (bytes_eqb (firstn i kv) k); [|exact IH].
  unfold val1. rewrite E. reflexivity.
Qed.

(* a regular name: non-empty, without "=" *)
Definition regular (k : bytes) : Prop := k <> [] /\ index_byte eq_byte k = None.

Lemma firstn_S_head : forall (kv : bytes) j c, hd_error kv = Some c -> In c (firstn (S j) kv).
Proof. intros [|x kv] j c H; simpl in H; [discriminate|]. injection H as H. subst. left. reflexivity. Qed.

(* for a regular name the key os/exec uses for de-duplication is the key getenv uses *)
Lemma has_key1_dedup : forall k kv,
  regular k ->
  has_key1 k kv = match dedup_key kv with Some k0 => bytes_eqb k0 k | None => false end.
Proof.
  intros k kv [Hne Hnoeq]. unfold dedup_key, has_key1.
  destruct (index_byte eq_byte kv) as [[|i]|] eqn:E; try reflexivity.
  (* a leading "=": no regular name is the key, whichever way the entry is cut *)
  assert (Hnil : bytes_eqb [] k = false) by (destruct k; [contradiction Hne|]; reflexivity).
  change (firstn 0 kv) with (@nil byte). rewrite Hnil. destruct (index_byte eq_byte (tl kv)) as [j|]; [|symmetry; exact Hnil].
  destruct (bytes_eqb_spec (firstn (S j) kv) k) as [Hk|]; [exfalso|reflexivity].
  destruct kv as [|c kv]; [discriminate E|]. cbn [index_byte] in E.
  destruct (beq c eq_byte) eqn:Ec; [|destruct (index_byte eq_byte kv); discriminate E].
  rewrite <- Hk in Hnoeq. cbn [firstn index_byte] in Hnoeq. rewrite Ec in Hnoeq. discriminate Hnoeq.
Qed.

Lemma mem_bytes_true : forall k l, mem_bytes k l = true <-> In k l.
Proof.
  intros k l. induction l as [|x l IH]; simpl; [split; [discriminate|intros []]|].
  rewrite orb_true_iff, IH, bytes_eqb_eq. reflexivity.
Qed.

(* de-duplication keeps, for a regular name, exactly the first entry in processing order *)
Lemma dedup_rev_filter : forall k r saw,
  regular k ->
  filter (has_key1 k) (dedup_rev r saw)
  = if mem_bytes k saw then [] else firstn 1 (filter (has_key1 k) r).
Proof.
  intros k r. induction r as [|kv r IH]; intros saw Hk.
  - simpl. destruct (mem_bytes k saw); reflexivity.
  - cbn [dedup_rev]. pose proof (has_key1_dedup k kv Hk) as Hh.
    destruct (dedup_key kv) as [k0|]; [destruct (bytes_eqb_spec k0 k) as [E0|Hne]|].
    + (* an entry for k: kept unless one was seen *)
      subst k0. destruct (mem_bytes k saw) eqn:Es.
      * rewrite IH, Es by exact Hk. reflexivity.
      * cbn [filter]. rewrite Hh, IH by exact Hk. cbn [mem_bytes]. rewrite bytes_eqb_refl. reflexivity.
    + cbn [filter]. rewrite Hh. destruct (mem_bytes k0 saw); [apply IH, Hk|].
      cbn [filter]. rewrite Hh, IH by exact Hk. cbn [mem_bytes]. rewrite (bytes_eqb_neq k0 k Hne). reflexivity.
    + cbn [filter]. rewrite Hh. destruct (is_nil kv); [|cbn [filter]; rewrite Hh]; apply IH, Hk.
Qed.

Lemma child_lookup_dedup : forall k env,
  regular k ->
  child_lookup k (rev (dedup_rev (rev env) [])) = child_lookup k (rev env).
Proof.
  intros k env Hk. rewrite !child_lookup_filter, filter_rev, (dedup_rev_filter k (rev env) [] Hk).
  cbn [mem_bytes]. destruct (filter (has_key1 k) (rev env)); reflexivity.
Qed.

Lemma child_lookup_app : forall k a b,
  child_lookup k (a ++ b) = match child_lookup k a with Some v => Some v | None => child_lookup k b end.
Proof.
  intros k a b. induction a as [|x a IH]; [reflexivity|].
  simpl. destruct (index_byte eq_byte x) as [i|]; [|exact IH].
  destruct (bytes_eqb (firstn i x) k); [reflexivity|exact IH].
Qed.

Lemma list_get_rev : forall env k, list_get env k = child_lookup k (rev env).
Proof.
  intros env k. induction env as [|kv env IH]; [reflexivity|].
  simpl rev. rewrite child_lookup_app, <- IH. simpl list_get.
  destruct (list_get env k); [reflexivity|].
  unfold split_kv. rewrite env_sep_is_eq. simpl child_lookup.
  destruct (index_byte eq_byte kv) as [i|]; [|reflexivity].
  destruct (bytes_eqb (firstn i kv) k); reflexivity.
Qed.

Lemma child_env_lookup : forall st cd k l,
  regular k -> child_env st cd = Some l ->
  child_lookup k l = list_get (env_list st ++ [ts_pwd_prefix ++ cd]) k.
Proof.
  intros st cd k l Hk H. unfold child_env, dedup_env in H.
  destruct (existsb (mem_byte nul_byte) (env_list st ++ [ts_pwd_prefix ++ cd])); [discriminate|].
  injection H as H. subst l. rewrite (child_lookup_dedup k _ Hk). symmetry. apply list_get_rev.
Qed.

Lemma pwd_entry_split : forall cd, split_kv (ts_pwd_prefix ++ cd) = Some (pwd_key, cd).
Proof.
  intros cd. destruct (split_kv_inv _ _ _ pwd_entry) as [P1 P2].
  rewrite P1, <- app_assoc. exact (split_kv_build pwd_key cd P2).
Qed.

Lemma regular_env_sep : forall k, regular k -> no_sep k.
Proof. intros k [_ H]. unfold no_sep. rewrite env_sep_is_eq. exact H. Qed.

(* what the child finds under a regular name other than PWD is the last binding of the list *)
Theorem child_sees_list : forall st cd k l,
  regular k -> k <> pwd_key ->
  child_env st cd = Some l ->
  child_lookup k l = list_get (env_list st) k.
Proof.
  intros st cd k l Hk Hpwd H.
  rewrite (child_env_lookup st cd k l Hk H), list_get_app, list_get_single, pwd_entry_split.
  rewrite (bytes_eqb_neq pwd_key k) by congruence. reflexivity.
Qed.

(* scripts and children see the same value *)
Theorem child_env_agrees : forall st cd k l,
  consistent st -> regular k -> k <> pwd_key ->
  child_env st cd = Some l ->
  or_empty (child_lookup k l) = getenv st k.
Proof.
  intros st cd k l Hc Hk Hpwd H. rewrite (child_sees_list st cd k l Hk Hpwd H). symmetry. apply Hc.
Qed.

(* ... in every state a script reaches from its initial variables through env commands *)
Theorem child_env_agrees_reachable : forall vars cmds cd k l,
  regular k -> k <> pwd_key ->
  child_env (fold_left (fun s args => cmd_env args s) cmds (setup_env vars)) cd = Some l ->
  or_empty (child_lookup k l) = getenv (fold_left (fun s args => cmd_env args s) cmds (setup_env vars)) k.
Proof.
  intros vars cmds cd k l Hk Hpwd H.
  exact (child_env_agrees _ cd k l (reachable_consistent vars cmds) Hk Hpwd H).
Qed.

Lemma pwd_key_regular : regular pwd_key.
Proof. split; [discriminate|reflexivity]. Qed.

(* PWD is the script's current directory *)
Theorem child_pwd : forall st cd l,
  child_env st cd = Some l -> child_lookup pwd_key l = Some cd.
Proof.
  intros st cd l H.
  rewrite (child_env_lookup st cd pwd_key l pwd_key_regular H), list_get_app, list_get_single.
  rewrite pwd_entry_split, bytes_eqb_refl. reflexivity.
Qed.

(* the child is started exactly when no entry holds a NUL byte *)
Theorem child_env_defined : forall st cd,
  (exists l, child_env st cd = Some l) <->
  (forall e, In e (env_list st) -> ~ In nul_byte e) /\ ~ In nul_byte cd.
Proof.
  intros st cd. unfold child_env, dedup_env.
  destruct (existsb (mem_byte nul_byte) (env_list st ++ [ts_pwd_prefix ++ cd])) eqn:E.
  - split; [intros [l H]; discriminate|]. intros [H1 H2]. exfalso.
    apply existsb_exists in E. destruct E as [e [He Hn]]. apply mem_byte_In in Hn.
    apply in_app_or in He. destruct He as [He|[He|[]]].
    + exact (H1 e He Hn).
    + subst e. apply in_app_or in Hn. destruct Hn as [Hn|Hn]; [|exact (H2 Hn)].
      apply mem_byte_In in Hn. rewrite pwd_prefix_nul in Hn. discriminate.
  - split; [|intros _; eexists; reflexivity]. intros _.
    assert (Hall : forall e, In e (env_list st ++ [ts_pwd_prefix ++ cd]) -> ~ In nul_byte e).
    { intros e He Hn. assert (X : existsb (mem_byte nul_byte) (env_list st ++ [ts_pwd_prefix ++ cd]) = true).
      { apply existsb_exists. exists e. split; [exact He|apply mem_byte_In; exact Hn]. }
      rewrite E in X. discriminate. }
    split.
    + intros e He. apply Hall. apply in_or_app. left. exact He.
    + intros Hn. apply (Hall (ts_pwd_prefix ++ cd)).
      * apply in_or_app. right. left. reflexivity.
      * apply in_or_app. right. exact Hn.
Qed.

From Coq Require Import String.

Definition ex_vars : list (list byte) :=
  [bs "WORK=/w"%string; bs "PATH=/bin"%string; bs "novalue"%string; bs "A=first"%string; bs "PATH=/helper:/bin"%string].
Definition ex_st : ts_env :=
  fold_left (fun s args => cmd_env args s)
    [[bs "A=x y"%string; bs "B=1"%string]; [bs "A"%string]; [bs "A=two=2 #"%string; bs "PWD=/elsewhere"%string]; [bs "=odd"%string]]
    (setup_env ex_vars).

Example latest_wins_ex :
  no_sep (bs "A"%string) /\
  Forall (not_assign (bs "A"%string)) [bs "PWD=/elsewhere"%string; bs "=odd"%string; bs "A"%string] /\
  getenv ex_st (bs "A"%string) = bs "two=2 #"%string /\
  getenv ex_st (bs "PATH"%string) = bs "/helper:/bin"%string /\
  getenv ex_st (bs "novalue"%string) = [].
Proof.
  split; [reflexivity|]. split; [|vm_compute; repeat split].
  repeat constructor; intros k' v' H; vm_compute in H; try discriminate H;
    injection H as H1 H2; subst; discriminate.
Qed.

Example child_env_agrees_ex :
  consistent ex_st /\ regular (bs "A"%string) /\ bs "A"%string <> pwd_key /\
  child_env ex_st (bs "/w"%string)
  = Some [bs "WORK=/w"%string; bs "novalue"%string; bs "PATH=/helper:/bin"%string; bs "B=1"%string;
          bs "A=two=2 #"%string; bs "=odd"%string; bs "PWD=/w"%string] /\
  getenv ex_st (bs "PWD"%string) = bs "/elsewhere"%string.
Proof.
  split; [apply reachable_consistent|]. split; [split; [discriminate|reflexivity]|].
  split; [discriminate|]. vm_compute. split; reflexivity.
Qed.

(* a NUL byte anywhere in the list: the child is not started *)
Example child_env_nul_ex : child_env (cmd_env [[x41; x3d; x00]] (setup_env [])) (bs "/w"%string) = None.
Proof. reflexivity. Qed.

(* ts.Setenv with "=" in the key (not reachable through the env command) breaks the agreement:
   the hypothesis [consistent] of child_env_agrees is not vacuous *)
Example inconsistent_ex :
  let st := setenv (bs "a=b"%string) (bs "c"%string) (cmd_env [bs "a=old"%string] (setup_env [])) in
  getenv st (bs "a"%string) = bs "old"%string /\
  list_get (env_list st) (bs "a"%string) = Some (bs "b=c"%string).
Proof. vm_compute. split; reflexivity. Qed.
