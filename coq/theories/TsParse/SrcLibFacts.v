(* Facts about the denotations of TsParse/SrcLib.v: the monadic os.Expand is the model's
   os_expand whenever the mapping returns; the association-list map of Lib/GoSemState.v is
   the model's envmap. *)
From Coq Require Import List Bool Arith NArith ZArith Lia.
From Coq.Strings Require Import Byte.
From GI Require Import Lib.Bytes Lib.BytesFacts Lib.GoSem Lib.GoSemState Gen.TsParseConsts TsParse.TsParse TsParse.SrcLib.
Import ListNotations.
Local Notation bytes := (list byte) (only parsing).

Lemma expand_go_m_pure (f : bytes -> bytes) (m : bytes -> res bytes) :
  (forall k, m k = Ok (f k)) ->
  forall s skip, expand_go_m m s skip = Ok (expand_go f s skip).
Proof.
  intros Hm. induction s as [|c r IH]; intros skip; [reflexivity|].
  cbn [expand_go_m expand_go]. destruct skip as [|k]; [|apply IH].
  destruct r as [|c' r']; [reflexivity|].
  destruct (beq c dollar).
  - destruct (get_shell_name c' r') as [name w].
    rewrite (IH w).
    destruct name as [|n0 n1]; [destruct w|]; cbn [bind]; try reflexivity.
    rewrite Hm. reflexivity.
  - rewrite (IH 0). reflexivity.
Qed.

Theorem go_os_Expand_pure (f : bytes -> bytes) (m : bytes -> res bytes) s :
  (forall k, m k = Ok (f k)) -> go_os_Expand s m = Ok (os_expand f s).
Proof. intros Hm. unfold go_os_Expand, os_expand. now apply expand_go_m_pure. Qed.

(* a failing mapping is not hidden: the failure of the first failing call is the result *)
Example go_os_Expand_fails :
  go_os_Expand [x61; x24; x62] (fun _ => Panic) = Panic /\
  go_os_Expand [x61; x24] (fun _ => Panic) = Ok [x61; x24].
Proof. split; reflexivity. Qed.

(* m[k] on the association list is the model's map_get *)
Lemma assoc_get_map_get (l : list (bytes * bytes)) k : assoc_get [] l k = map_get l k.
Proof. induction l as [|[k' v] l IH]; [reflexivity|]. cbn [assoc_get map_get]. now rewrite IH. Qed.

(* strings.TrimSuffix and the test len(key1) != len(key) of expand are the model's strip_suffix *)
Lemma trim_suffix_test suf key :
  negb (Z.eqb (len (go_strings_TrimSuffix key suf)) (len key)) =
  match strip_suffix suf key with Some _ => true | None => false end.
Proof.
  unfold go_strings_TrimSuffix, strip_suffix, len.
  destruct (has_suffix suf key) eqn:E; cbn [andb].
  - destruct suf as [|b suf]; cbn [is_nil negb].
    + now rewrite Z.eqb_refl.
    + apply has_suffix_length in E. cbn [length] in E. rewrite firstn_length.
      destruct (Z.eqb_spec (Z.of_nat (Nat.min (length key - length (b :: suf)) (length key))) (Z.of_nat (length key))) as [H|H];
        [cbn [length] in H; lia|reflexivity].
  - now rewrite Z.eqb_refl.
Qed.
