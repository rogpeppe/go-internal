(* Proofs about UpdateScripts (C16): the recording in cmp and the rewriting of the archive.
   Property theorems are re-exported, unchanged, by Properties/C16.v. *)
From Coq Require Import List Bool Arith NArith Lia.
From Coq.Strings Require Import Byte.
From GI Require Import Lib.Bytes Lib.BytesFacts Txtar.Txtar Txtar.TxtarFacts Txtar.QuoteFacts
  TsRun.TsFs TsRun.TsState TsRun.TsCmds TsRun.TsRun TsRun.TsSpec TsRun.TsRunFacts TsRun.TsUpdate.
Import ListNotations.

(* what is stored for an entry: its old data, or the update recorded under its name (None: Quote
   refused) *)
Definition stored (U : list (bytes * bytes)) (e : bytes * bytes) : option bytes :=
  match assoc_get U (fst e) with
  | Some c => update_data c
  | None => Some (snd e)
  end.

Lemma stored_updated U e c : assoc_get U (fst e) = Some c -> stored U e = update_data c.
Proof. intros H. unfold stored. rewrite H. reflexivity. Qed.
Lemma stored_kept U e : assoc_get U (fst e) = None -> stored U e = Some (snd e).
Proof. intros H. unfold stored. rewrite H. reflexivity. Qed.

Lemma update_files_spec U fs fs' :
  update_files U fs = Some fs' -> Forall2 (fun e e' => fst e' = fst e /\ stored U e = Some (snd e')) fs fs'.
Proof.
  revert fs'. induction fs as [|[n d] r IH]; intros fs' H; simpl in H.
  - inversion H. constructor.
  - destruct (update_files U r) as [r'|]; [|discriminate]. specialize (IH r' eq_refl).
    destruct (assoc_get U n) as [c|] eqn:Ec; [destruct (update_data c) eqn:Ed; [|discriminate]|];
      inversion H; subst; (constructor; [|exact IH]);
      rewrite ?(stored_updated U (n, d) c Ec), ?(stored_kept U (n, d) Ec); auto.
Qed.

Lemma apply_updates_spec a U a' :
  apply_updates a U = Some a' ->
  comment a' = comment a /\ Forall2 (fun e e' => fst e' = fst e /\ stored U e = Some (snd e')) (files a) (files a').
Proof.
  unfold apply_updates. destruct (update_files U (files a)) as [fs|] eqn:E; [|discriminate].
  intros H. inversion H. split; [reflexivity|]. apply update_files_spec. exact E.
Qed.

(* names and order of the entries are unchanged *)
Theorem update_names a U a' :
  apply_updates a U = Some a' -> map fst (files a') = map fst (files a).
Proof.
  intros H. apply apply_updates_spec in H. destruct H as [_ H].
  induction H as [|e e' l l' [Hn _] _ IH]; simpl; [reflexivity|]. rewrite Hn, IH. reflexivity.
Qed.

(* the script text and every entry whose name is not updated are unchanged *)
Theorem update_frame a U a' :
  apply_updates a U = Some a' ->
  comment a' = comment a
  /\ Forall2 (fun e e' => fst e' = fst e /\ (assoc_get U (fst e) = None -> snd e' = snd e)) (files a) (files a').
Proof.
  intros H. apply apply_updates_spec in H. destruct H as [Hc H]. split; [exact Hc|].
  induction H as [|e e' l l' [Hn Hd] _ IH]; constructor; [|exact IH].
  split; [exact Hn|]. intros Hnone. rewrite (stored_kept U e Hnone) in Hd. congruence.
Qed.

Lemma update_data_cases c d :
  update_data c = Some d -> (needs_quote c = false /\ d = c) \/ (needs_quote c = true /\ quote c = Some d).
Proof. unfold update_data. destruct (needs_quote c); [auto|]. intros H. inversion H. auto. Qed.

(* an updated entry holds the actual content, or its quotation exactly when needs_quote says so *)
Theorem update_entry a U a' :
  apply_updates a U = Some a' ->
  Forall2 (fun e e' => forall c, assoc_get U (fst e) = Some c ->
             (needs_quote c = false /\ snd e' = c) \/ (needs_quote c = true /\ quote c = Some (snd e')))
          (files a) (files a').
Proof.
  intros H. apply apply_updates_spec in H. destruct H as [_ H].
  induction H as [|e e' l l' [_ Hd] _ IH]; constructor; [|exact IH].
  intros c Hc. rewrite (stored_updated U e c Hc) in Hd. apply update_data_cases. exact Hd.
Qed.

(* a quoted entry unquotes to the actual content *)
Theorem update_entry_unquotes c q : needs_quote c = true -> quote c = Some q -> unquote q = Some c.
Proof. intros _. apply unquote_quote. Qed.

(* the rewriting fails exactly when some updated entry needs quoting and cannot be quoted *)
Theorem apply_updates_none a U :
  apply_updates a U = None <->
  exists n d c, In (n, d) (files a) /\ assoc_get U n = Some c /\ needs_quote c = true /\ quote c = None.
Proof.
  unfold apply_updates. generalize (files a) as fs. intros fs.
  assert (update_files U fs = None <->
          exists n d c, In (n, d) fs /\ assoc_get U n = Some c /\ needs_quote c = true /\ quote c = None) as <-.
  { induction fs as [|[n d] r IH]; simpl.
    - split; [discriminate|]. intros [n [d [c [[] _]]]].
    - destruct (update_files U r) as [r'|].
      + split.
        * destruct (assoc_get U n) as [c|] eqn:Ec; [|discriminate]. unfold update_data.
          destruct (needs_quote c) eqn:Eq; [|discriminate]. destruct (quote c) eqn:Eqq; [discriminate|].
          intros _. exists n, d, c. auto.
        * intros [n' [d' [c [[Hin|Hin] [Hc [Hq Hqq]]]]]].
          -- inversion Hin; subst. rewrite Hc. unfold update_data. rewrite Hq, Hqq. reflexivity.
          -- assert (@Some (list (bytes * bytes)) r' = None) as X by (apply IH; eauto 8). discriminate X.
      + split; [|reflexivity]. intros _.
        destruct (proj1 IH eq_refl) as [n' [d' [c [Hin H]]]]. exists n', d', c. auto. }
  destruct (update_files U fs); split; congruence.
Qed.

(* Go iterates a map: only the mapping matters, not the order of the recorded updates *)
Lemma update_files_ext U U' :
  (forall n, assoc_get U n = assoc_get U' n) -> forall fs, update_files U fs = update_files U' fs.
Proof.
  intros H. induction fs as [|[n d] fs IH]; [reflexivity|]. cbn [update_files]. rewrite IH, H. reflexivity.
Qed.

Theorem update_order_irrelevant a U U' :
  (forall n, assoc_get U n = assoc_get U' n) -> apply_updates a U = apply_updates a U'.
Proof. intros H. unfold apply_updates. rewrite (update_files_ext U U' H). reflexivity. Qed.

Lemma update_files_nil fs : update_files [] fs = Some fs.
Proof.
  induction fs as [|[n d] fs IH]; [reflexivity|]. cbn [update_files assoc_get]. rewrite IH. reflexivity.
Qed.

Theorem update_nothing a : apply_updates a [] = Some a.
Proof. unfold apply_updates. rewrite update_files_nil. destruct a; reflexivity. Qed.

(* the bytes that are written: the formatted script text, then for each entry its marker
   line and what is stored for it *)
Theorem update_format a U a' :
  apply_updates a U = Some a' ->
  exists ds, Forall2 (fun e d => stored U e = Some d) (files a) ds
    /\ format a' = fix_nl (comment a)
         ++ concat (map (fun nd => format_marker (fst nd) ++ fix_nl (snd nd)) (combine (map fst (files a)) ds)).
Proof.
  intros H. apply apply_updates_spec in H. destruct H as [Hc H]. unfold format. rewrite Hc.
  exists (map snd (files a')). split.
  - induction H as [|e e' l l' [_ Hd] _ IH]; constructor; assumption.
  - do 2 f_equal. induction H as [|e [n' d'] l l' [Hn _] _ IH]; [reflexivity|].
    simpl in *. rewrite <- Hn, <- IH. reflexivity.
Qed.

(* the written file is the archive it claims to be, when the archive came from Parse and every
   updated content is representable (empty or newline-terminated) *)
Theorem update_reparses a U a' :
  wf_archive a = true ->
  (forall n d c, In (n, d) (files a) -> assoc_get U n = Some c -> c = [] \/ last_byte c = Some NL) ->
  apply_updates a U = Some a' ->
  wf_archive a' = true /\ parse (format a') = a'.
Proof.
  intros Hwf Hrep Ha.
  assert (wf_archive a' = true) as Hwf'; [|split; [exact Hwf'|apply parse_format_wf; exact Hwf']].
  apply apply_updates_spec in Ha. destruct Ha as [Hc H].
  apply wf_archive_iff in Hwf. destruct Hwf as [Hcom Hfs]. apply wf_archive_iff. rewrite Hc. split; [exact Hcom|].
  induction H as [|[n d] e' l l' [Hn Hd] _ IH]; [constructor|].
  inversion Hfs as [|? ? Hnd Hl]; subst. destruct Hnd as [Hname Htext].
  constructor; [|apply IH; [exact Hl|intros; eapply Hrep; [right|]; eauto]].
  rewrite Hn. split; [exact Hname|].
  destruct (assoc_get U n) as [c|] eqn:Ec;
    [rewrite (stored_updated U (n, d) c Ec) in Hd|rewrite (stored_kept U (n, d) Ec) in Hd; inversion Hd; subst; exact Htext].
  destruct (update_data_cases _ _ Hd) as [[Hq ->]|[_ Hq]].
  - apply wf_text_iff. split; [|exact Hq]. apply fix_nl_fixed. eapply Hrep; [left; reflexivity|exact Ec].
  - eapply quote_wf_text. exact Hq.
Qed.

(* in particular for the archive of a script file *)
Theorem update_reparses_file file U a' :
  (forall n d c, In (n, d) (files (parse file)) -> assoc_get U n = Some c -> c = [] \/ last_byte c = Some NL) ->
  apply_updates (parse file) U = Some a' ->
  parse (format a') = a'.
Proof. intros Hrep Ha. eapply update_reparses; eauto. apply parse_wf_archive. Qed.

Lemma set_updates_updates st U : s_updates (set_updates st U) = U.
Proof. reflexivity. Qed.

(* a negated cmp, cmpenv, a run without UpdateScripts, and a cmp against a path that is not an
   archive entry leave the recorded updates untouched *)
Theorem cmp_records_only_when upd envsubst neg args st :
  neg = true \/ envsubst = true \/ upd = false
  \/ (forall n1 n2, args = [n1; n2] -> assoc_get (s_files st) (clean (mkabs st n2)) = None) ->
  s_updates (outcome_state (cmd_cmp upd envsubst neg args st)) = s_updates st.
Proof.
  intros H. unfold cmd_cmp.
  destruct args as [|n1 [|n2 [|x r]]]; try reflexivity.
  destruct (bytes_eqb n1 n2); [reflexivity|].
  destruct (ts_read st n1) as [t1|]; [|reflexivity].
  destruct (read_file (s_fs st) (mkabs st n2)) as [data|]; [|reflexivity].
  destruct neg.
  - destruct (bytes_eqb t1 _); reflexivity.
  - destruct (bytes_eqb t1 _); [reflexivity|].
    destruct H as [H|[H|[H|H]]]; [discriminate|subst envsubst|subst upd|].
    + rewrite andb_false_r. reflexivity.
    + reflexivity.
    + destruct (upd && negb envsubst); [|reflexivity]. rewrite (H n1 n2 eq_refl). reflexivity.
Qed.

(* ... and they never make a differing comparison pass *)
Theorem cmp_differs_fails (upd envsubst : bool) args st n1 n2 t1 data :
  args = [n1; n2] -> bytes_eqb n1 n2 = false ->
  ts_read st n1 = Some t1 -> read_file (s_fs st) (mkabs st n2) = Some data ->
  bytes_eqb t1 (if envsubst then expand (s_env st) data else data) = false ->
  envsubst = true \/ upd = false \/ assoc_get (s_files st) (clean (mkabs st n2)) = None ->
  cmd_cmp upd envsubst false args st = Failed st.
Proof.
  intros -> Hn H1 H2 Hd H. unfold cmd_cmp. rewrite Hn, H1, H2, Hd.
  destruct H as [->|[->|H]].
  - rewrite andb_false_r. reflexivity.
  - reflexivity.
  - destruct (upd && negb envsubst); [|reflexivity]. rewrite H. reflexivity.
Qed.

(* with UpdateScripts a plain cmp against an archive entry passes, and records
   (entry name -> actual text) exactly when the texts differ *)
Theorem update_mode_passes st n1 n2 t1 t2 entry :
  bytes_eqb n1 n2 = false ->
  ts_read st n1 = Some t1 -> read_file (s_fs st) (mkabs st n2) = Some t2 ->
  assoc_get (s_files st) (clean (mkabs st n2)) = Some entry ->
  cmd_cmp true false false [n1; n2] st
  = Done (if bytes_eqb t1 t2 then st else set_updates st (assoc_set (s_updates st) entry t1)).
Proof.
  intros Hn H1 H2 He. unfold cmd_cmp. rewrite Hn, H1, H2. destruct (bytes_eqb t1 t2); [reflexivity|].
  simpl. rewrite He. reflexivity.
Qed.

(* the recorded text is what a later rewriting stores *)
Theorem recorded_is_stored st entry t1 :
  assoc_get (s_updates (set_updates st (assoc_set (s_updates st) entry t1))) entry = Some t1.
Proof. simpl. rewrite assoc_get_set, bytes_eqb_refl. reflexivity. Qed.

(* scriptFiles and scriptUpdates.  Only setup writes the first and only a recording cmp the
   second: every other command leaves both tables as they are. *)
Definition tables (st : state) := (s_files st, s_updates st).

Lemma tables_eq st st' :
  tables st' = tables st <-> s_files st' = s_files st /\ s_updates st' = s_updates st.
Proof. unfold tables. split; [intros H; injection H; auto|intros [-> ->]; reflexivity]. Qed.

(* [crush]: the commands are straight-line code over the setters; take the branches of every
   match one by one, each closes by computation *)
Ltac dm := match goal with |- context [match ?x with _ => _ end] => destruct x end.
Ltac crush := repeat (simpl; try reflexivity; dm); simpl; try reflexivity.

Lemma tab_mark_racy st b : tables (mark_racy st b) = tables st.
Proof. destruct b; reflexivity. Qed.

Lemma tab_cd args st : tables (outcome_state (cmd_cd args st)) = tables st.
Proof. unfold cmd_cd. crush. Qed.
Lemma tab_chmod args st : tables (outcome_state (cmd_chmod args st)) = tables st.
Proof. unfold cmd_chmod. crush. Qed.
Lemma tab_cp_loop dst dd srcs st : tables (outcome_state (cp_loop dst dd srcs st)) = tables st.
Proof.
  revert st. induction srcs as [|a r IH]; intros st; simpl; [reflexivity|].
  destruct (cp_source st a) as [[[src data] mode]|]; [|reflexivity].
  destruct (write_file _ _ _ _); [|reflexivity]. rewrite IH. reflexivity.
Qed.
Lemma tab_cp args st : tables (outcome_state (cmd_cp args st)) = tables st.
Proof.
  unfold cmd_cp. destruct args as [|a [|b r]]; try reflexivity.
  destruct (_ && _); [reflexivity|]. apply tab_cp_loop.
Qed.
Lemma tab_env args st : tables (outcome_state (cmd_env args st)) = tables st.
Proof. reflexivity. Qed.
Lemma tab_exists neg args st : tables (outcome_state (cmd_exists neg args st)) = tables st.
Proof. unfold cmd_exists. crush. Qed.
Lemma tab_mkdir args st : tables (outcome_state (cmd_mkdir args st)) = tables st.
Proof.
  unfold cmd_mkdir. destruct args as [|a0 r0]; [reflexivity|]. generalize (a0 :: r0). clear. intros args.
  revert st. induction args as [|a r IH]; intros st; simpl; [reflexivity|].
  destruct (mkdir_all _ _ _) as [t [|]]; [|reflexivity]. rewrite IH. reflexivity.
Qed.
Lemma tab_rm args st : tables (outcome_state (cmd_rm args st)) = tables st.
Proof.
  unfold cmd_rm. destruct args as [|a0 r0]; [reflexivity|]. generalize (a0 :: r0). clear. intros args.
  revert st. induction args as [|a r IH]; intros st; simpl; [reflexivity|].
  destruct (remove_all _ _); [|reflexivity]. rewrite IH. reflexivity.
Qed.
Lemma tab_unquote args st : tables (outcome_state (unquote_loop args st)) = tables st.
Proof.
  revert st. induction args as [|a r IH]; intros st; simpl; [reflexivity|].
  destruct (read_file _ _); [|reflexivity]. destruct (unquote _); [|reflexivity].
  destruct (write_file _ _ _ _); [|reflexivity]. rewrite IH. reflexivity.
Qed.
Lemma tab_unix2dos args st : tables (outcome_state (cmd_unix2dos args st)) = tables st.
Proof.
  unfold cmd_unix2dos. destruct args as [|a0 r0]; [reflexivity|]. generalize (a0 :: r0). clear. intros args.
  revert st. induction args as [|a r IH]; intros st; simpl; [reflexivity|].
  destruct (read_file _ _); [|reflexivity].
  destruct (write_file _ _ _ _); [|reflexivity]. rewrite IH. reflexivity.
Qed.
Lemma tab_mv args st : tables (outcome_state (cmd_mv args st)) = tables st.
Proof. unfold cmd_mv. crush. Qed.
Lemma tab_stdin args st : tables (outcome_state (cmd_stdin args st)) = tables st.
Proof. unfold cmd_stdin. crush. Qed.
Lemma tab_stop args st : tables (outcome_state (cmd_stop args st)) = tables st.
Proof. unfold cmd_stop. crush. Qed.
Lemma tab_symlink args st : tables (outcome_state (cmd_symlink args st)) = tables st.
Proof. unfold cmd_symlink. crush. Qed.
Lemma tab_match neg args text g st : tables (outcome_state (script_match neg args text g st)) = tables st.
Proof. unfold script_match. crush. Qed.
Lemma tab_wait_all chk st : tables (outcome_state (wait_all chk st)) = tables st.
Proof.
  unfold wait_all. destruct (wait_loop chk (s_bg st)) as [[[[bgs o] e] bad] racy].
  destruct bad; cbn [outcome_state]; rewrite tab_mark_racy; reflexivity.
Qed.
Lemma tab_wait_one n st : tables (outcome_state (wait_one n st)) = tables st.
Proof.
  unfold wait_one. destruct (find_bg _ _); [|reflexivity].
  destruct (reap _) as [p racy]. destruct (status_wrong _), racy; reflexivity.
Qed.
Lemma tab_wait cfg args st : tables (outcome_state (cmd_wait cfg args st)) = tables st.
Proof.
  unfold cmd_wait, timed_out_state. destruct args as [|a [|b r]]; [| |reflexivity].
  - destruct (wait_times_out _ _); [apply tab_mark_racy|apply tab_wait_all].
  - destruct (find_bg _ _); [|apply tab_wait_one].
    destruct (wait_times_out _ _); [apply tab_mark_racy|apply tab_wait_one].
Qed.
Lemma tab_skip args st : tables (outcome_state (cmd_skip args st)) = tables st.
Proof.
  unfold cmd_skip. destruct args as [|a [|b r]]; try reflexivity;
    (pose proof (tab_wait_all true (interrupt_all st)) as H;
     destruct (wait_all true (interrupt_all st)); exact H).
Qed.
Lemma tab_kill args st : tables (outcome_state (cmd_kill args st)) = tables st.
Proof.
  unfold cmd_kill. destruct (kill_args args) as [[|b r]|]; [| |reflexivity].
  - destruct (kill_loop _) as [[bgs err] racy]. destruct err; cbn [outcome_state]; rewrite tab_mark_racy; reflexivity.
  - destruct (find_bg _ _); [|reflexivity]. destruct (signal _) as [[p err] racy].
    destruct err; cbn [outcome_state]; rewrite tab_mark_racy; reflexivity.
Qed.
Lemma tab_exec cfg neg args st : tables (outcome_state (cmd_exec cfg neg args st)) = tables st.
Proof.
  unfold cmd_exec. destruct args as [|prog rest]; [reflexivity|].
  assert (forall b : bool, tables (outcome_state (if b then Done (start_failed_state cfg st prog)
                                           else Failed (start_failed_state cfg st prog))) = tables st) as Hsf
    by (intros b; unfold start_failed_state; destruct (is_bare prog && negb (prog_found cfg st prog)), b; reflexivity).
  destruct (bg_spec _) as [name|].
  - destruct rest; [reflexivity|]. destruct (find_bg _ _); [reflexivity|].
    destruct (can_start _ _ _); [cbn [outcome_state]; rewrite tab_mark_racy; reflexivity|apply Hsf].
  - destruct (can_start _ _ _); [|apply Hsf].
    destruct (meets _ _); cbn [outcome_state]; rewrite tab_mark_racy; reflexivity.
Qed.
Lemma tab_custom cfg k neg args st : tables (outcome_state (cmd_custom cfg k neg args st)) = tables st.
Proof. unfold cmd_custom. crush. Qed.

(* what one line can do to the tables: nothing, or -- a cmp in update mode -- record a text under
   the name of a registered entry *)
Definition records (upd : bool) (st st' : state) : Prop :=
  tables st' = tables st
  \/ upd = true /\ exists p e t, assoc_get (s_files st) p = Some e
                                 /\ tables st' = (s_files st, assoc_set (s_updates st) e t).

Lemma records_files upd st st' : records upd st st' -> s_files st' = s_files st.
Proof. intros [Hsame|[_ [p [e [t [_ Hrec]]]]]]; [apply tables_eq in Hsame; tauto|injection Hrec; auto]. Qed.

Lemma records_cmp upd envs neg args st : records upd st (outcome_state (cmd_cmp upd envs neg args st)).
Proof.
  unfold cmd_cmp. destruct args as [|n1 [|n2 [|x r]]]; try (left; reflexivity).
  destruct (bytes_eqb n1 n2); [left; reflexivity|].
  destruct (ts_read st n1) as [t1|]; [|left; reflexivity].
  destruct (read_file _ _) as [data|]; [|left; reflexivity].
  destruct neg; [destruct (bytes_eqb _ _); left; reflexivity|].
  destruct (bytes_eqb _ _); [left; reflexivity|].
  destruct upd; [|left; reflexivity]. destruct (negb envs); [|left; reflexivity]. simpl.
  destruct (assoc_get (s_files st) (clean (mkabs st n2))) as [entry|] eqn:E; [|left; reflexivity].
  right. split; [reflexivity|]. exists (clean (mkabs st n2)), entry, t1. auto.
Qed.

Lemma records_builtin cfg name neg args st :
  records (c_update cfg) st (outcome_state (builtin_sem cfg name neg args st)).
Proof.
  unfold builtin_sem. destruct (neg && _); [left; reflexivity|].
  repeat (match goal with |- context [if bytes_eqb name ?l then _ else _] => destruct (bytes_eqb name l) end;
          [first [apply records_cmp | left;
             first [apply tab_cd|apply tab_chmod|apply tab_cp|apply tab_env|apply tab_exec
                   |apply tab_exists|apply tab_match|apply tab_kill|apply tab_mkdir|apply tab_mv|apply tab_rm
                   |apply tab_skip|apply tab_stdin|apply tab_stop|apply tab_symlink|apply tab_unix2dos
                   |apply tab_unquote|apply tab_wait]]|]).
  left. reflexivity.
Qed.

Lemma records_cmd_sem cfg c neg args st :
  records (c_update cfg) st (outcome_state (cmd_sem cfg c neg args st)).
Proof.
  destruct c as [name|name|k]; cbn [cmd_sem].
  - apply records_builtin.
  - left. destruct (c_explicit_exec cfg); [reflexivity|apply tab_exec].
  - left. apply tab_custom.
Qed.

Lemma records_run_line cfg st line : records (c_update cfg) st (outcome_state (run_line cfg st line)).
Proof.
  apply (run_line_outcome cfg st line (fun o => records (c_update cfg) st (outcome_state o)));
    [left; reflexivity|left; reflexivity|intros; apply records_cmd_sem].
Qed.

Lemma tab_end_bg st : tables (end_bg st) = tables st.
Proof. unfold end_bg. exact (tab_wait_all false (interrupt_all st)). Qed.

(* so over a whole run scriptFiles is fixed, and what holds of scriptUpdates at the start still
   holds at the end if recording under a registered name keeps it *)
Lemma run_lines_tables cfg (P : list (bytes * bytes) -> Prop) ls n f st :
  (c_update cfg = true -> forall U p e t, assoc_get (s_files st) p = Some e -> P U -> P (assoc_set U e t)) ->
  P (s_updates st) ->
  s_files (snd (fst (run_lines cfg ls n f st))) = s_files st /\ P (s_updates (snd (fst (run_lines cfg ls n f st)))).
Proof.
  intros Hrec H0.
  apply (run_lines_keeps cfg (fun s => s_files s = s_files st /\ P (s_updates s))); auto.
  - intros s l [HF HP]. pose proof (records_run_line cfg s l) as Hline.
    split; [rewrite (records_files _ _ _ Hline); exact HF|].
    destruct Hline as [Hsame|[Hu [p [e [t [Hp Hnew]]]]]].
    + apply tables_eq in Hsame. destruct Hsame as [_ ->]. exact HP.
    + injection Hnew as _ ->. rewrite HF in Hp. eauto.
  - intros s Hs. destruct (proj1 (tables_eq _ _) (tab_end_bg s)) as [-> ->]. exact Hs.
Qed.

(* unpacking touches the tree and scriptFiles, nothing else *)
Lemma unpack_frame u work : forall fs st,
  exists F t, fst (unpack u work fs st) = set_fs (set_files st F) t.
Proof.
  assert (forall st, exists F t, st = set_fs (set_files st F) t) as Hid
    by (intros st; exists (s_files st), (s_fs st); destruct st; reflexivity).
  induction fs as [|[n d] r IH]; intros st; cbn [unpack]; [apply Hid|].
  destruct (negb (beneath work _)); [apply Hid|].
  destruct (mkdir_all _ _ _) as [t1 [|]]; [|do 2 eexists; reflexivity].
  destruct (if u then _ else _) as [t2|]; [|do 2 eexists; reflexivity].
  destruct (IH (set_fs (set_files st (assoc_set (s_files st) (clean (mkabs st (expand (s_env st) n))) n)) t2)) as (F & t & ->).
  do 2 eexists; reflexivity.
Qed.

Lemma upd_unpack u work fs st : s_updates (fst (unpack u work fs st)) = s_updates st.
Proof. destruct (unpack_frame u work fs st) as (F & t & ->). reflexivity. Qed.

Lemma upd_setup cfg work env a : s_updates (fst (setup cfg work env a)) = [].
Proof. unfold setup. destruct (mkdir_all _ _ _) as [t [|]]; [|reflexivity]. rewrite upd_unpack. reflexivity. Qed.

Lemma upd_run_archive cfg work env a :
  c_update cfg = false -> s_updates (r_final (run_archive cfg work env a)) = [].
Proof.
  intros Hu. unfold run_archive. pose proof (upd_setup cfg work env a) as Hs.
  destruct (setup cfg work env a) as [st [|]]; [|exact Hs]. simpl in Hs.
  unfold run_script.
  destruct (run_lines_tables cfg (fun U => U = []) (script_lines (comment a)) 0 false st) as [_ H]; [congruence|exact Hs|].
  destruct (run_lines cfg (script_lines (comment a)) 0 false st) as [[k s] fl]. exact H.
Qed.

(* without UpdateScripts the script file is never written *)
Theorem no_flag_no_write cfg work env file :
  c_update cfg = false -> f_change (run_file_full cfg work env file) = Untouched.
Proof.
  intros Hu. unfold run_file_full. simpl. rewrite (upd_run_archive cfg work env (parse file) Hu). reflexivity.
Qed.

(* an update that cannot be stored ends the run as failed (never as passed or skipped), with
   one more FAIL line, and nothing is written *)
Theorem update_error_fails cfg work env file :
  f_change (run_file_full cfg work env file) = UpdateError ->
  (exists n, r_verdict (f_run (run_file_full cfg work env file)) = Fail n)
  /\ r_fail_lines (f_run (run_file_full cfg work env file))
     = r_fail_lines (run_file cfg work env file) ++ [s_lineno (r_final (run_file cfg work env file))].
Proof.
  unfold run_file_full, run_file. simpl.
  destruct (change_of _ _); try discriminate. intros _. simpl. split; [|reflexivity].
  destruct (r_verdict _); eauto.
Qed.

(* ... and in every other case the verdict is that of the script *)
Theorem update_ok_verdict cfg work env file :
  f_change (run_file_full cfg work env file) <> UpdateError ->
  f_run (run_file_full cfg work env file) = run_file cfg work env file.
Proof.
  unfold run_file_full, run_file. simpl. destruct (change_of _ _); try reflexivity. congruence.
Qed.

Definition with_update (cfg : config) (u : bool) : config :=
  {| c_continue := c_continue cfg; c_explicit_exec := c_explicit_exec cfg; c_unique := c_unique cfg;
     c_update := u; c_host_conds := c_host_conds cfg; c_goos := c_goos cfg; c_goarch := c_goarch cfg; c_go_minor := c_go_minor cfg; c_custom_cond := c_custom_cond cfg;
     c_cmds := c_cmds cfg; c_main_cmds := c_main_cmds cfg; c_helper := c_helper cfg;
     c_helper_dir := c_helper_dir cfg; c_watch := c_watch cfg; c_deadline := c_deadline cfg; c_cancelled := c_cancelled cfg |}.

Definition representable (c : bytes) : Prop := (c = [] \/ last_byte c = Some NL) /\ needs_quote c = false.

(* The unrestricted reading of "re-running the updated script without UpdateScripts passes
   whenever the content is representable": for every script, if the update run passes, rewrites
   the file, and every recorded content is empty or newline-terminated and needs no quoting,
   then the second run of the rewritten file (flag off) passes and leaves the file alone. *)
Definition rerun_fixpoint_unrestricted_statement : Prop :=
  forall cfg work env file file',
    let r := run_file_full (with_update cfg true) work env file in
    r_verdict (f_run r) = Pass ->
    f_change r = Rewritten file' ->
    (forall n c, assoc_get (s_updates (r_final (f_run r))) n = Some c -> representable c) ->
    let r2 := run_file_full (with_update cfg false) work env file' in
    r_verdict (f_run r2) = Pass /\ f_change r2 = Untouched.

Module Examples.
Import String.
Local Open Scope string_scope.
Local Open Scope list_scope.
Definition b (s : string) : bytes := list_byte_of_string s.
Definition nl : string := String (Ascii.ascii_of_nat 10) EmptyString.
Definition text (ls : list string) : bytes := List.concat (List.map (fun l => b (String.append l nl)) ls).

Definition cfg0 : config :=
  {| c_continue := false; c_explicit_exec := false; c_unique := false; c_update := true;
     c_host_conds := []; c_goos := b "linux"; c_goarch := b "amd64"; c_go_minor := 23; c_custom_cond := None; c_cmds := []; c_main_cmds := [];
     c_helper := b "tshelper"; c_helper_dir := b "/h"; c_watch := []; c_deadline := false; c_cancelled := false |}.
Definition env0 : list (bytes * bytes) := [(b "WORK", b "/w"); (b "PATH", b "/h")].
Definition work : bytes := b "/w".
Definition gname : bytes := b "g.txt".

(* one golden entry updated, one untouched, one needing quotation *)
Definition f1 := text ["exec tshelper echo new"; "cmp stdout g.txt"; "exec tshelper lines '-- x --'"; "cmp stdout q.txt";
                       "-- g.txt --"; "old"; "-- keep.txt --"; "kept"; "-- q.txt --"; "plain"].
Example ex_update :
  let r := run_file_full cfg0 (b "/w") env0 f1 in
  r_verdict (f_run r) = Pass
  /\ f_change r = Rewritten (text ["exec tshelper echo new"; "cmp stdout g.txt"; "exec tshelper lines '-- x --'"; "cmp stdout q.txt";
                                   "-- g.txt --"; "new"; "-- keep.txt --"; "kept"; "-- q.txt --"; ">-- x --"]).
Proof. vm_compute. split; reflexivity. Qed.

(* the hypotheses of update_reparses are satisfiable *)
Example ex_reparses_hyp :
  wf_archive (parse f1) = true
  /\ exists a', apply_updates (parse f1) [(b "g.txt", text ["new"])] = Some a' /\ parse (format a') = a'.
Proof.
  split; [vm_compute; reflexivity|].
  eexists. split; [vm_compute; reflexivity|]. vm_compute. reflexivity.
Qed.

(* negated cmp, cmpenv and a cmp against a file outside the archive never write *)
Definition f2 := text ["exec tshelper echo new"; "! cmp stdout g.txt"; "-- g.txt --"; "old"].
Definition f3 := text ["exec tshelper echo new"; "cmpenv stdout g.txt"; "-- g.txt --"; "old"].
Definition f4 := text ["exec tshelper echo new"; "cp g.txt out.txt"; "cmp stdout out.txt"; "-- g.txt --"; "old"].
Example ex_no_update :
  f_change (run_file_full cfg0 (b "/w") env0 f2) = Untouched
  /\ r_verdict (f_run (run_file_full cfg0 (b "/w") env0 f2)) = Pass
  /\ f_change (run_file_full cfg0 (b "/w") env0 f3) = Untouched
  /\ r_verdict (f_run (run_file_full cfg0 (b "/w") env0 f3)) = Fail 2
  /\ f_change (run_file_full cfg0 (b "/w") env0 f4) = Untouched
  /\ r_verdict (f_run (run_file_full cfg0 (b "/w") env0 f4)) = Fail 3.
Proof. vm_compute. repeat split; reflexivity. Qed.

(* a content that needs quoting but has no final newline cannot be stored: nothing is written *)
Definition f5 := text ["exec tshelper print '-- x --'"; "cmp stdout g.txt"; "-- g.txt --"; "old"].
Example ex_unquotable :
  f_change (run_file_full cfg0 (b "/w") env0 f5) = UpdateError
  /\ r_verdict (f_run (run_file_full cfg0 (b "/w") env0 f5)) = Fail 2
  /\ r_fail_lines (f_run (run_file_full cfg0 (b "/w") env0 f5)) = [2].
Proof. vm_compute. repeat split; reflexivity. Qed.

(* the witness against the unrestricted fix-point: one entry compared with two outputs *)
Definition f6 := text ["exec tshelper echo one"; "cmp stdout g.txt"; "exec tshelper echo two"; "cmp stdout g.txt";
                       "-- g.txt --"; "zero"].
Definition f6' := text ["exec tshelper echo one"; "cmp stdout g.txt"; "exec tshelper echo two"; "cmp stdout g.txt";
                        "-- g.txt --"; "two"].
Example ex_f6_first :
  let r := run_file_full cfg0 work env0 f6 in
  r_verdict (f_run r) = Pass /\ f_change r = Rewritten f6'
  /\ s_updates (r_final (f_run r)) = [(gname, text ["two"])].
Proof. vm_compute. repeat split; reflexivity. Qed.
Example ex_f6_second :
  r_verdict (f_run (run_file_full (with_update cfg0 false) work env0 f6')) = Fail 2.
Proof. vm_compute. reflexivity. Qed.
End Examples.

Theorem rerun_fixpoint_unrestricted_refuted : ~ rerun_fixpoint_unrestricted_statement.
Proof.
  intros H.
  specialize (H Examples.cfg0 Examples.work Examples.env0 Examples.f6 Examples.f6').
  assert (with_update Examples.cfg0 true = Examples.cfg0) as E by reflexivity. rewrite E in H.
  destruct Examples.ex_f6_first as [Hv [Hc Hu]].
  specialize (H Hv Hc).
  assert (forall n c, assoc_get (s_updates (r_final (f_run (run_file_full Examples.cfg0 Examples.work Examples.env0 Examples.f6)))) n = Some c -> representable c) as Hr.
  { rewrite Hu. intros n c. simpl.
    destruct (bytes_eqb n Examples.gname); [|discriminate].
    intros Hc'. inversion Hc'; subst. vm_compute. repeat split; auto. }
  destruct (H Hr) as [Hp _]. rewrite Examples.ex_f6_second in Hp. discriminate.
Qed.

(* no update recorded: the file is not written, whatever its text (canonical or not) *)

Theorem no_update_no_write cfg work env file :
  s_updates (r_final (run_file cfg work env file)) = [] ->
  f_change (run_file_full cfg work env file) = Untouched
  /\ f_run (run_file_full cfg work env file) = run_file cfg work env file.
Proof.
  intros Hu. unfold run_file_full, run_file in *. simpl. rewrite Hu. simpl. split; reflexivity.
Qed.

(* ... and conversely a file is only ever written when some cmp recorded an update *)
Theorem write_only_on_update cfg work env file d :
  f_change (run_file_full cfg work env file) = Rewritten d ->
  s_updates (r_final (run_file cfg work env file)) <> [].
Proof.
  unfold run_file_full, run_file. simpl. intros H Hu. rewrite Hu in H. discriminate.
Qed.

(* what IS written is always the canonical text of the updated archive: re-parsing and
   re-formatting it changes nothing, whatever the spelling of the file was before *)
Theorem update_written_canonical file U d :
  (forall n d0 c, In (n, d0) (files (parse file)) -> assoc_get U n = Some c -> c = [] \/ last_byte c = Some NL) ->
  change_of (parse file) U = Rewritten d -> format (parse d) = d.
Proof.
  intros Hrep. unfold change_of. destruct U as [|u0 U']; [discriminate|].
  destruct (apply_updates (parse file) (u0 :: U')) as [a'|] eqn:Ha; [|discriminate].
  intros H. inversion H; subst. rewrite (update_reparses_file file (u0 :: U') a' Hrep Ha). reflexivity.
Qed.

Module NonCanonical.
Import String.
Local Open Scope string_scope.
Local Open Scope list_scope.
Import Examples.
(* a script file that is not in Format's canonical form: a marker line with extra blanks, a
   marker line ending in CR LF, no final newline *)
Definition nc := b ("exec tshelper echo new" ++ nl ++ "cmp stdout a" ++ nl
                     ++ "-- a --" ++ nl ++ "new" ++ nl ++ "--  c  --" ++ String (Ascii.ascii_of_nat 13) nl ++ "keep").
Example ex_nc_not_canonical : bytes_eqb (format (parse nc)) nc = false.
Proof. vm_compute. reflexivity. Qed.
(* nothing mismatches: it is left alone, byte for byte (the file is not written) *)
Example ex_nc_untouched :
  f_change (run_file_full cfg0 work env0 nc) = Untouched
  /\ r_verdict (f_run (run_file_full cfg0 work env0 nc)) = Pass.
Proof. vm_compute. split; reflexivity. Qed.
(* one entry mismatches: the whole archive is written in canonical form, so the spelling of
   the marker line of the untouched entry c and its missing final newline do not survive *)
Definition nc1 := b ("exec tshelper echo newer" ++ nl ++ "cmp stdout a" ++ nl
                     ++ "-- a --" ++ nl ++ "new" ++ nl ++ "--  c  --" ++ String (Ascii.ascii_of_nat 13) nl ++ "keep").
Definition nc1_tail := b ("--  c  --" ++ String (Ascii.ascii_of_nat 13) nl ++ "keep").
Definition nc1_written := b ("exec tshelper echo newer" ++ nl ++ "cmp stdout a" ++ nl
                     ++ "-- a --" ++ nl ++ "newer" ++ nl ++ "-- c --" ++ nl ++ "keep" ++ nl).
Example ex_nc1 :
  f_change (run_file_full cfg0 work env0 nc1) = Rewritten nc1_written
  /\ s_updates (r_final (f_run (run_file_full cfg0 work env0 nc1))) = [(b "a", b ("newer" ++ nl))]
  /\ files (parse nc1_written) = [(b "a", b ("newer" ++ nl)); (b "c", b ("keep" ++ nl))]
  /\ files (parse nc1) = [(b "a", b ("new" ++ nl)); (b "c", b ("keep" ++ nl))].
Proof. vm_compute. repeat split; reflexivity. Qed.
Definition upd1 : list (bytes * bytes) := [(b "a", b ("newer" ++ nl))].
Definition fs1 : list (bytes * bytes) := [(b "a", b ("new" ++ nl))].
End NonCanonical.

(* byte-for-byte survival of the untouched entries' text does NOT hold of applyScriptUpdates:
   the parsed entries are unchanged (update_frame), their spelling in the file is normalised *)
Theorem update_keeps_untouched_bytes_refuted : ~ update_keeps_untouched_bytes_statement.
Proof.
  intros H.
  specialize (H NonCanonical.nc1 NonCanonical.upd1
                NonCanonical.nc1_written NonCanonical.nc1_tail).
  assert (has_suffix NonCanonical.nc1_tail NonCanonical.nc1_written = false) as E by (vm_compute; reflexivity).
  rewrite H in E; [discriminate| |].
  - vm_compute. reflexivity.
  - exists (firstn (length NonCanonical.nc1 - length NonCanonical.nc1_tail) NonCanonical.nc1),
           NonCanonical.fs1.
    split; [vm_compute; reflexivity|]. split; [vm_compute; reflexivity|].
    split; [vm_compute; reflexivity|]. split; [vm_compute; discriminate|].
    intros n d Hin. vm_compute in Hin. destruct Hin as [Hin|[]]. inversion Hin; subst. vm_compute. reflexivity.
Qed.
