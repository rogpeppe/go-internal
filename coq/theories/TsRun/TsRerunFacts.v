(* The restricted re-run fix-point of UpdateScripts (C16): proofs.  Vocabulary in TsRerun.v. *)
From Coq Require Import List Bool Arith NArith Lia.
From Coq.Strings Require Import Byte.
From GI Require Import Lib.Bytes Lib.BytesFacts Gen.TsRunConsts Txtar.Txtar Txtar.TxtarFacts
  TsRun.TsFs TsRun.TsRegex TsRun.TsState TsRun.TsCmds TsRun.TsRun TsRun.TsSpec TsRun.TsRunFacts
  TsRun.TsUpdate TsRun.TsUpdateFacts TsRun.TsRerun.
Import ListNotations.

(* a helper subcommand that does not write leaves the tree alone and does not look at it *)
Lemma helper_run_free args i e c :
  helper_writes args = false ->
  exists code out err sl, forall t,
    helper_run args i e c t = {| h_code := code; h_out := out; h_err := err; h_fs := t; h_sleeper := sl |}.
Proof.
  intros H. unfold helper_run. destruct args as [|sub a]; [repeat eexists|].
  simpl in H. rewrite H. destruct (helper_pure sub a i e c) as [[[code out] err] sl]. repeat eexists.
Qed.

(* a command that neither reads nor writes the file tree does the same in another tree, and
   whatever updates are recorded *)
Section Commute.
Variables (t : tree) (u : list (bytes * bytes)).
Notation sw := (fun s => swapfu s t u).

Lemma mark_racy_sw st b : mark_racy (swapfu st t u) b = swapfu (mark_racy st b) t u.
Proof. destruct b; reflexivity. Qed.

Lemma sw_env args st : cmd_env args (swapfu st t u) = omap sw (cmd_env args st).
Proof. reflexivity. Qed.
Lemma sw_stop args st : cmd_stop args (swapfu st t u) = omap sw (cmd_stop args st).
Proof. unfold cmd_stop. crush. Qed.
Lemma sw_match neg args text st : script_match neg args text false (swapfu st t u) = omap sw (script_match neg args text false st).
Proof. unfold script_match. crush. Qed.
Lemma sw_stdin args st :
  match args with [f] => is_std f | _ => true end = true ->
  cmd_stdin args (swapfu st t u) = omap sw (cmd_stdin args st).
Proof.
  destruct args as [|f [|g r]]; try reflexivity. intros H. unfold cmd_stdin, ts_read, is_std in *. simpl.
  repeat (destruct (bytes_eqb f _); [reflexivity|]). discriminate.
Qed.
Lemma sw_wait_all chk st : wait_all chk (swapfu st t u) = omap sw (wait_all chk st).
Proof.
  unfold wait_all. simpl. destruct (wait_loop chk (s_bg st)) as [[[[bgs o] e] bad] racy].
  destruct bad, racy; reflexivity.
Qed.
Lemma sw_wait_one n st : wait_one n (swapfu st t u) = omap sw (wait_one n st).
Proof.
  unfold wait_one. simpl. destruct (find_bg (s_bg st) n); [|reflexivity].
  destruct (reap (bg_proc b)) as [p racy]. destruct (status_wrong _), racy; reflexivity.
Qed.
Lemma sw_wait cfg args st : cmd_wait cfg args (swapfu st t u) = omap sw (cmd_wait cfg args st).
Proof.
  unfold cmd_wait, timed_out_state. change (s_bg (swapfu st t u)) with (s_bg st).
  destruct args as [|a [|b r]]; [| |reflexivity].
  - destruct (wait_times_out _ _); [destruct (c_continue cfg); reflexivity|apply sw_wait_all].
  - destruct (find_bg _ _); [|apply sw_wait_one].
    destruct (wait_times_out _ _); [destruct (c_continue cfg); reflexivity|apply sw_wait_one].
Qed.
Lemma sw_skip args st : cmd_skip args (swapfu st t u) = omap sw (cmd_skip args st).
Proof.
  unfold cmd_skip. change (interrupt_all (swapfu st t u)) with (swapfu (interrupt_all st) t u).
  rewrite sw_wait_all. destruct args as [|a [|b r]]; try reflexivity;
    destruct (wait_all true (interrupt_all st)); reflexivity.
Qed.
Lemma sw_kill args st : cmd_kill args (swapfu st t u) = omap sw (cmd_kill args st).
Proof.
  unfold cmd_kill. destruct (kill_args args) as [[|b r]|]; [| |reflexivity]; simpl.
  - destruct (kill_loop (s_bg st)) as [[bgs err] racy]. destruct err, racy; reflexivity.
  - destruct (find_bg (s_bg st) (b :: r)); [|reflexivity]. destruct (signal _) as [[p err] racy].
    destruct err, racy; reflexivity.
Qed.
Lemma sw_custom cfg k neg args st : cmd_custom cfg k neg args (swapfu st t u) = omap sw (cmd_custom cfg k neg args st).
Proof. destruct k; simpl; try reflexivity. destruct neg; reflexivity. Qed.

Lemma helper_tree_free_fs args i e c : helper_writes args = false -> h_fs (helper_run args i e c t) = t.
Proof. intros H. destruct (helper_run_free args i e c H) as (code & out & err & sl & Hh). rewrite Hh. reflexivity. Qed.

Lemma hw_removelast rest : helper_writes rest = false -> helper_writes (removelast rest) = false.
Proof. destruct rest as [|sub [|x r]]; simpl; auto. Qed.

Lemma exec_tree_free_hw prog rest : exec_tree_free (prog :: rest) = true -> helper_writes rest = false.
Proof.
  unfold exec_tree_free. destruct rest as [|sub r]; [reflexivity|]. simpl. rewrite negb_true_iff. auto.
Qed.

Lemma start_failed_sw cfg st prog :
  start_failed_state cfg (swapfu st t u) prog = swapfu (start_failed_state cfg st prog) t u.
Proof.
  unfold start_failed_state. change (prog_found cfg (swapfu st t u) prog) with (prog_found cfg st prog).
  destruct (is_bare prog && negb (prog_found cfg st prog)); reflexivity.
Qed.

(* exec looks at the tree only to see whether the current directory exists *)
Lemma sw_exec cfg neg args st :
  exec_tree_free args = true ->
  (forall d, is_dir_node (stat t d) = is_dir_node (stat (s_fs st) d)) ->
  cmd_exec cfg neg args (swapfu st t u) = omap sw (cmd_exec cfg neg args st).
Proof.
  intros Hf Hd. unfold cmd_exec. destruct args as [|prog rest]; [reflexivity|].
  apply exec_tree_free_hw in Hf. rewrite start_failed_sw.
  assert (can_start cfg (swapfu st t u) prog = can_start cfg st prog) as ->
    by (unfold can_start, prog_found; simpl; rewrite Hd; reflexivity).
  change (s_bg (swapfu st t u)) with (s_bg st). change (s_in (swapfu st t u)) with (s_in st).
  change (s_env (swapfu st t u)) with (s_env st). change (s_cd (swapfu st t u)) with (s_cd st).
  change (s_fs (swapfu st t u)) with t.
  destruct (bg_spec (last (prog :: rest) [])) as [name|].
  - destruct rest as [|r0 rest']; [reflexivity|].
    destruct (find_bg (s_bg st) name); [reflexivity|].
    destruct (can_start cfg st prog); [|destruct neg; reflexivity].
    pose proof (hw_removelast _ Hf) as Hf'. rewrite Hf'.
    destruct (helper_run_free _ (s_in st) (s_env st) (s_cd st) Hf') as (code & out & err & sl & Hh). rewrite !Hh.
    destruct (c_cancelled cfg); reflexivity.
  - destruct (can_start cfg st prog); [|destruct neg; reflexivity].
    destruct (helper_run_free _ (s_in st) (s_env st) (s_cd st) Hf) as (code & out & err & sl & Hh). rewrite !Hh.
    unfold fg_end, fg_racy. cbn [h_fs h_code h_out h_err h_sleeper].
    set (e := if c_cancelled cfg then EndTimedOut else _).
    destruct (meets neg e), (match e with EndTimedOut => _ | _ => sl end); reflexivity.
Qed.

Lemma sw_builtin cfg name neg args st :
  tree_free_builtin name args = true ->
  (forall d, is_dir_node (stat t d) = is_dir_node (stat (s_fs st) d)) ->
  builtin_sem cfg name neg args (swapfu st t u) = omap sw (builtin_sem cfg name neg args st).
Proof.
  intros Hf Hd. unfold builtin_sem.
  destruct (neg && mem_bytes name neg_rejecting_cmds); [reflexivity|].
  unfold tree_free_builtin in Hf.
  repeat match type of Hf with
  | (if bytes_eqb name ?l then _ else _) = true =>
      let E := fresh "E" in
      destruct (bytes_eqb name l) eqn:E;
      [apply bytes_eqb_eq in E; subst name;
       first [apply sw_env | apply sw_stop | apply sw_skip | apply sw_wait | apply sw_kill
             | apply sw_match | apply sw_stdin; exact Hf | apply sw_exec; assumption]|]
  end.
  discriminate Hf.
Qed.

Lemma sw_cmd_sem cfg c neg args st :
  tree_free c args = true ->
  (forall d, is_dir_node (stat t d) = is_dir_node (stat (s_fs st) d)) ->
  cmd_sem cfg c neg args (swapfu st t u) = omap sw (cmd_sem cfg c neg args st).
Proof.
  intros Hf Hd. destruct c as [name|name|k]; cbn [cmd_sem tree_free] in *.
  - apply sw_builtin; assumption.
  - destruct (c_explicit_exec cfg); [reflexivity|]. apply sw_exec; assumption.
  - apply sw_custom.
Qed.
End Commute.

Lemma swapfu_self st : swapfu st (s_fs st) (s_updates st) = st.
Proof. destruct st; reflexivity. Qed.

Lemma guards_pass_sw cfg b st t u words cw :
  guards_pass cfg st words cw -> guards_pass (cfg_update cfg b) (swapfu st t u) words cw.
Proof.
  induction 1 as [w rest Hg | w want c rest out Hg Hne Hc Hp IH].
  - apply GP_done. exact Hg.
  - eapply GP_step; eauto.
Qed.

Lemma guards_block_sw cfg b st t u words :
  guards_block cfg st words -> guards_block (cfg_update cfg b) (swapfu st t u) words.
Proof.
  induction 1 as [w want c rest Hg Hne Hc | w want c rest Hg Hne Hc Hb IH].
  - eapply GB_here; eauto.
  - eapply GB_later; eauto.
Qed.

Lemma reaches_sw cfg b st t u l neg c args :
  reaches cfg st l neg c args -> reaches (cfg_update cfg b) (swapfu st t u) l neg c args.
Proof.
  intros [words cw neg' name args' c' Ht Hp Hs Hl].
  econstructor; [exact Ht|apply guards_pass_sw; exact Hp|exact Hs|exact Hl].
Qed.

(* only cmp and cmpenv look at the UpdateScripts flag, and they are not tree-free *)
Lemma cmd_sem_cfg_update cfg b c neg args st :
  tree_free c args = true -> cmd_sem (cfg_update cfg b) c neg args st = cmd_sem cfg c neg args st.
Proof.
  intros Hf. destruct c as [name|name|k]; cbn [cmd_sem tree_free] in *; try reflexivity.
  unfold builtin_sem.
  destruct (bytes_eqb name [x63; x6d; x70]) eqn:E1; [apply bytes_eqb_eq in E1; subst name; discriminate Hf|].
  destruct (bytes_eqb name [x63; x6d; x70; x65; x6e; x76]) eqn:E2; [apply bytes_eqb_eq in E2; subst name; discriminate Hf|].
  reflexivity.
Qed.

(* a line of the class that is not a golden cmp *)
Inductive free_line (cfg : config) (st : state) (l : bytes) : Prop :=
| FL_blank : tokenise (s_env st) l = Some [] -> free_line cfg st l
| FL_guard words : tokenise (s_env st) l = Some words -> guards_block cfg st words -> free_line cfg st l
| FL_free neg c args : reaches cfg st l neg c args -> tree_free c args = true -> free_line cfg st l.

Lemma line_class_cases cfg st l seen seen' :
  line_class cfg st l seen seen' ->
  (seen' = seen /\ free_line cfg st l)
  \/ exists entry src g, seen' = entry :: seen /\ ~ In entry seen
       /\ reaches cfg st l false (CBuiltin cmp_name) [src; g] /\ is_std src = true
       /\ clean (mkabs st g) = mkabs st g /\ assoc_get (s_files st) (mkabs st g) = Some entry.
Proof.
  intros [Ht | words Ht Hb | neg c args Hr Hf | neg c args entry Hr Hg Hnin].
  - left. split; [reflexivity|apply FL_blank; exact Ht].
  - left. split; [reflexivity|eapply FL_guard; eauto].
  - left. split; [reflexivity|eapply FL_free; eauto].
  - right. destruct Hg as [-> [-> [src [g [-> [Hstd [Hcl Hfile]]]]]]]. exists entry, src, g. auto 10.
Qed.

(* such a line behaves the same in the other tree, whatever the flag *)
Lemma lock_line_free cfg b st t u l st' :
  (forall d, is_dir_node (stat t d) = is_dir_node (stat (s_fs st) d)) ->
  free_line cfg st l -> run_line cfg st l = Done st' ->
  run_line (cfg_update cfg b) (swapfu st t u) l = Done (swapfu st' t u).
Proof.
  intros Hd [Ht|words Ht Hb|neg c args Hr Hf] Hrun.
  - unfold run_line in *. change (s_env (swapfu st t u)) with (s_env st). rewrite Ht in *. congruence.
  - rewrite (guard_false_noop cfg st l words Ht Hb) in Hrun. inversion Hrun; subst st'.
    apply (guard_false_noop _ _ l words); [exact Ht|apply guards_block_sw; exact Hb].
  - rewrite (run_line_reaches _ _ _ _ _ _ Hr) in Hrun.
    rewrite (run_line_reaches _ _ _ _ _ _ (reaches_sw cfg b st t u l neg c args Hr)).
    rewrite (cmd_sem_cfg_update cfg b c neg args _ Hf), (sw_cmd_sem t u cfg c neg args st Hf Hd), Hrun. reflexivity.
Qed.

(* ... and leaves the tree and the recorded updates of its own run alone: the line run on the
   state seen as its own swap *)
Lemma free_line_frame cfg st l st' :
  free_line cfg st l -> run_line cfg st l = Done st' -> s_fs st' = s_fs st /\ s_updates st' = s_updates st.
Proof.
  intros Hfree Hrun.
  pose proof (lock_line_free cfg (c_update cfg) st (s_fs st) (s_updates st) l st' (fun d => eq_refl) Hfree Hrun) as H.
  assert (cfg_update cfg (c_update cfg) = cfg) as E by (destruct cfg; reflexivity).
  rewrite E, swapfu_self, Hrun in H. inversion H as [Heq].
  split; [rewrite Heq at 1|rewrite Heq at 1]; reflexivity.
Qed.

Lemma ts_read_std st src :
  is_std src = true ->
  exists x, ts_read st src = Some x /\ forall t u, ts_read (swapfu st t u) src = Some x.
Proof.
  unfold is_std, ts_read. intros H.
  repeat (destruct (bytes_eqb src _); [eexists; split; [reflexivity|intros; reflexivity]|]). discriminate.
Qed.

Lemma cmp_run1 upd st src g entry st' :
  clean (mkabs st g) = mkabs st g ->
  assoc_get (s_files st) (mkabs st g) = Some entry ->
  cmd_cmp upd false false [src; g] st = Done st' ->
  s_fs st' = s_fs st
  /\ forall e, bytes_eqb e entry = false -> assoc_get (s_updates st') e = assoc_get (s_updates st) e.
Proof.
  intros Hcl Hfile H. unfold cmd_cmp in H. rewrite Hcl in H.
  destruct (bytes_eqb src g); [discriminate|].
  destruct (ts_read st src) as [text|]; [|discriminate].
  destruct (read_file (s_fs st) (mkabs st g)) as [data|]; [|discriminate].
  destruct (bytes_eqb text data).
  - inversion H; subst. auto.
  - destruct (upd && negb false); [|discriminate]. rewrite Hfile in H. inversion H; subst.
    split; [reflexivity|]. intros e He. simpl. rewrite assoc_get_set, He. reflexivity.
Qed.

(* the second run sees in the golden file what the first finally records for it (or what it held
   all along): the comparison that recorded, or passed, in run 1 passes in run 2 *)
Lemma lock_line_cmp cfg st fs2 Ufinal l entry src g st' :
  c_update cfg = true ->
  reaches cfg st l false (CBuiltin cmp_name) [src; g] -> is_std src = true ->
  clean (mkabs st g) = mkabs st g ->
  assoc_get (s_files st) (mkabs st g) = Some entry ->
  golden_tables st fs2 Ufinal -> assoc_get (s_updates st) entry = None ->
  run_line cfg st l = Done st' ->
  assoc_get Ufinal entry = assoc_get (s_updates st') entry ->
  run_line (cfg_update cfg false) (swapfu st fs2 []) l = Done (swapfu st' fs2 []).
Proof.
  intros Hu Hr Hstd Hcl Hfile Htab Hnone Hrun Hfin.
  rewrite (run_line_reaches _ _ _ _ _ _ Hr) in Hrun.
  rewrite (run_line_reaches _ _ _ _ _ _ (reaches_sw cfg false st fs2 [] l _ _ _ Hr)).
  change (cmd_sem cfg (CBuiltin cmp_name) false [src; g] st) with (cmd_cmp (c_update cfg) false false [src; g] st) in Hrun.
  change (cmd_sem (cfg_update cfg false) (CBuiltin cmp_name) false [src; g] (swapfu st fs2 []))
    with (cmd_cmp false false false [src; g] (swapfu st fs2 [])).
  rewrite Hu in Hrun.
  destruct (ts_read_std st src Hstd) as [text [Hread Hread2]].
  destruct (Htab _ _ Hfile) as [g1 [Hg1 Hg2]].
  unfold cmd_cmp in *. rewrite Hread in Hrun. rewrite (Hread2 fs2 []).
  change (mkabs (swapfu st fs2 []) g) with (mkabs st g). rewrite Hcl in *.
  change (s_fs (swapfu st fs2 [])) with fs2.
  destruct (bytes_eqb src g); [discriminate|].
  rewrite Hg1 in Hrun. rewrite Hg2.
  destruct (bytes_eqb text g1) eqn:Eq.
  - (* equal: nothing recorded, the entry keeps its content in the second tree *)
    inversion Hrun; subst st'. rewrite Hnone in Hfin. rewrite Hfin, Eq. reflexivity.
  - (* different: the actual text is recorded, and it is what the second tree holds *)
    simpl in Hrun. rewrite Hfile in Hrun. inversion Hrun; subst st'.
    simpl in Hfin. rewrite assoc_get_set, bytes_eqb_refl in Hfin. rewrite Hfin, bytes_eqb_refl. reflexivity.
Qed.

(* one line of the class in both runs: run 2 does in its tree what run 1 did, provided run 1 does
   not touch the entries compared so far any more *)
Lemma lock_line cfg st fs2 Ufinal l seen seen' s :
  c_update cfg = true ->
  (forall d, is_dir_node (stat fs2 d) = is_dir_node (stat (s_fs st) d)) ->
  golden_tables st fs2 Ufinal ->
  (forall e, ~ In e seen -> assoc_get (s_updates st) e = None) ->
  line_class cfg st l seen seen' -> run_line cfg st l = Done s ->
  (forall e, In e seen' -> assoc_get Ufinal e = assoc_get (s_updates s) e) ->
  run_line (cfg_update cfg false) (swapfu st fs2 []) l = Done (swapfu s fs2 []).
Proof.
  intros Hu Hd Htab Hnone Hc Hl Hlater.
  destruct (line_class_cases _ _ _ _ _ Hc) as [[-> Hfree]|[entry [src [g [-> [Hnin [Hr [Hstd [Hcl Hfile]]]]]]]]].
  - exact (lock_line_free cfg false st fs2 [] l s Hd Hfree Hl).
  - apply (lock_line_cmp cfg st fs2 Ufinal l entry src g s Hu Hr Hstd Hcl Hfile Htab (Hnone entry Hnin) Hl).
    apply Hlater. left. reflexivity.
Qed.

Lemma class_line_run1 cfg st l seen seen' st' :
  line_class cfg st l seen seen' -> run_line cfg st l = Done st' ->
  s_fs st' = s_fs st /\ s_files st' = s_files st
  /\ (forall e, In e seen -> assoc_get (s_updates st') e = assoc_get (s_updates st) e)
  /\ (forall e, ~ In e seen' -> assoc_get (s_updates st') e = assoc_get (s_updates st) e)
  /\ (forall e, In e seen -> In e seen').
Proof.
  intros Hc Hrun.
  assert (s_files st' = s_files st) as Hfiles.
  { pose proof (records_files _ _ _ (records_run_line cfg st l)) as H. rewrite Hrun in H. exact H. }
  destruct (line_class_cases _ _ _ _ _ Hc) as [[-> Hfree]|[entry [src [g [-> [Hnin [Hr [Hstd [Hcl Hfile]]]]]]]]].
  - destruct (free_line_frame cfg st l st' Hfree Hrun) as [H1 H2]. rewrite H2. auto.
  - rewrite (run_line_reaches _ _ _ _ _ _ Hr) in Hrun.
    destruct (cmp_run1 _ _ _ _ _ _ Hcl Hfile Hrun) as [H1 H2].
    split; [exact H1|]. split; [exact Hfiles|]. split; [|split].
    + intros e He. apply H2. apply bytes_eqb_neq. intros ->. contradiction.
    + intros e He. apply H2. apply bytes_eqb_neq. intros ->. apply He. left. reflexivity.
    + intros e He. right. exact He.
Qed.

Lemma upd_end_bg' st : s_updates (end_bg st) = s_updates st.
Proof. apply (tables_eq st (end_bg st)), tab_end_bg. Qed.

(* one executed line of a passing run of the class: it is of the class and returns normally; it
   stops the script, or the rest is again a passing run of the class *)
Lemma safe_pass_step cfg l ls n st seen stF :
  is_comment l = false -> safe_run cfg (l :: ls) n st seen ->
  run_lines cfg (l :: ls) n false st = (EPass, stF, []) ->
  exists seen' s, line_class cfg (at_line (S n) false st) l seen seen'
    /\ run_line cfg (at_line (S n) false st) l = Done s
    /\ (s_stopped s = true /\ stF = end_bg s
        \/ s_stopped s = false /\ safe_run cfg ls (S n) s seen' /\ run_lines cfg ls (S n) false s = (EPass, stF, [])).
Proof.
  simpl. intros -> [seen' [Hc Hrest]] Hrun. exists seen'.
  destruct (run_line cfg (at_line (S n) false st) l) as [s|s|s].
  - exists s. split; [exact Hc|]. split; [reflexivity|].
    destruct (s_stopped s); [left; inversion Hrun; auto|right; auto].
  - destruct (c_continue cfg); [|discriminate]. destruct (s_stopped s); [discriminate|].
    pose proof (run_lines_failed_flag cfg ls (S n) s) as Hf.
    destruct (run_lines cfg ls (S n) true s) as [[k s'] f]. simpl in Hf. subst k. discriminate.
  - discriminate.
Qed.

(* what has been compared is not touched again *)
Lemma seen_entries_final cfg ls : forall n st seen stF,
  safe_run cfg ls n st seen ->
  run_lines cfg ls n false st = (EPass, stF, []) ->
  forall e, In e seen -> assoc_get (s_updates stF) e = assoc_get (s_updates st) e.
Proof.
  induction ls as [|l ls IH]; intros n st seen stF Hs Hrun e He.
  - inversion Hrun; subst. rewrite upd_end_bg'. reflexivity.
  - destruct (is_comment l) eqn:Hcom; [simpl in Hs, Hrun; rewrite Hcom in Hs, Hrun; eapply IH; eauto|].
    destruct (safe_pass_step _ _ _ _ _ _ _ Hcom Hs Hrun) as [seen' [s [Hc [Hl [[_ ->]|[_ [Hrest Hrun']]]]]]];
      destruct (class_line_run1 _ _ _ _ _ _ Hc Hl) as [_ [_ [Hseen [_ Hincl]]]].
    + rewrite upd_end_bg'. exact (Hseen e He).
    + rewrite (IH _ _ _ _ Hrest Hrun' e (Hincl e He)). exact (Hseen e He).
Qed.

Lemma end_bg_sw st t u : end_bg (swapfu st t u) = swapfu (end_bg st) t u.
Proof.
  unfold end_bg. change (interrupt_all (swapfu st t u)) with (swapfu (interrupt_all st) t u).
  rewrite sw_wait_all. destruct (wait_all false (interrupt_all st)); reflexivity.
Qed.

Lemma end_bg_fs st : s_fs (end_bg st) = s_fs st.
Proof.
  pose proof (end_bg_sw st (s_fs st) (s_updates st)) as H. rewrite swapfu_self in H.
  rewrite H at 1. reflexivity.
Qed.

(* the lockstep: run 2 (flag off, second tree) passes wherever run 1 (flag on) passes *)
Theorem rerun_lockstep cfg fs2 Ufinal :
  c_update cfg = true ->
  forall ls n st1 seen stF,
  (forall d, is_dir_node (stat fs2 d) = is_dir_node (stat (s_fs st1) d)) ->
  golden_tables st1 fs2 Ufinal ->
  (forall e, ~ In e seen -> assoc_get (s_updates st1) e = None) ->
  safe_run cfg ls n st1 seen ->
  run_lines cfg ls n false st1 = (EPass, stF, []) ->
  (forall e, assoc_get Ufinal e = assoc_get (s_updates stF) e) ->
  run_lines (cfg_update cfg false) ls n false (swapfu st1 fs2 []) = (EPass, swapfu stF fs2 [], []).
Proof.
  intros Hu. induction ls as [|l ls IH]; intros n st1 seen stF Hd Htab Hnone Hs Hrun Hfin.
  - inversion Hrun; subst. simpl.
    change (set_lineno (swapfu st1 fs2 []) n) with (swapfu (set_lineno st1 n) fs2 []).
    rewrite end_bg_sw. reflexivity.
  - destruct (is_comment l) eqn:Hcom;
      [simpl in Hs, Hrun |- *; rewrite Hcom in Hs, Hrun |- *; exact (IH _ _ _ _ Hd Htab Hnone Hs Hrun Hfin)|].
    destruct (safe_pass_step _ _ _ _ _ _ _ Hcom Hs Hrun) as [seen' [s [Hc [Hl Hnext]]]].
    simpl. rewrite Hcom.
    change (at_line (S n) false (swapfu st1 fs2 [])) with (swapfu (at_line (S n) false st1) fs2 []).
    set (st := at_line (S n) false st1) in *.
    destruct (class_line_run1 _ _ _ _ _ _ Hc Hl) as [Hfs [Hfiles [Hseen [Hnotseen Hincl]]]].
    (* what the rest of run 1 does not touch any more *)
    assert (forall e, In e seen' -> assoc_get Ufinal e = assoc_get (s_updates s) e) as Hlater.
    { intros e He. rewrite Hfin. destruct Hnext as [[_ ->]|[_ [Hrest Hrun']]].
      - rewrite upd_end_bg'. reflexivity.
      - exact (seen_entries_final cfg ls _ _ _ _ Hrest Hrun' e He). }
    rewrite (lock_line cfg st fs2 Ufinal l seen seen' s Hu Hd Htab Hnone Hc Hl Hlater).
    change (s_stopped (swapfu s fs2 [])) with (s_stopped s).
    destruct Hnext as [[-> ->]|[-> [Hrest Hrun']]]; [rewrite end_bg_sw; reflexivity|].
    apply (IH (S n) s seen' stF); auto.
    + intros d. rewrite Hfs. apply Hd.
    + intros p e Hp. rewrite Hfiles in Hp. rewrite Hfs. apply Htab. exact Hp.
    + intros e He. rewrite (Hnotseen e He). apply Hnone. intros Hin. apply He. apply Hincl. exact Hin.
Qed.

(* trees of the same shape (same paths, kinds, modes, link targets; file contents may
   differ) resolve every path alike *)
Definition shape_eq (t1 t2 : tree) : Prop := tshape t1 = tshape t2.

Lemma lookup_tshape t p : lookup (tshape t) p = option_map nshape (lookup t p).
Proof.
  induction t as [|[q n] r IH]; simpl; [reflexivity|]. destruct (path_eqb q p); [reflexivity|exact IH].
Qed.

Lemma lookup_shape t1 t2 p : shape_eq t1 t2 -> option_map nshape (lookup t1 p) = option_map nshape (lookup t2 p).
Proof. intros H. rewrite <- !lookup_tshape. unfold shape_eq in H. rewrite H. reflexivity. Qed.

Lemma node_at_shape t1 t2 p : shape_eq t1 t2 -> option_map nshape (node_at t1 p) = option_map nshape (node_at t2 p).
Proof. intros H. destruct p; [reflexivity|]. simpl. apply lookup_shape. exact H. Qed.

Lemma is_dir_nshape o : is_dir_node (option_map nshape o) = is_dir_node o.
Proof. destruct o as [[| |]|]; reflexivity. Qed.

Lemma walk_shape t1 t2 : shape_eq t1 t2 ->
  forall b f cur rest, walk b t1 f cur rest = walk b t2 f cur rest.
Proof.
  intros H. induction b as [|b IHb]; intros f cur rest; revert cur;
    (induction rest as [|c rest' IHr]; intros cur; simpl; [reflexivity|]).
  all: rewrite <- (is_dir_nshape (node_at t1 cur)), (node_at_shape t1 t2 cur H), is_dir_nshape.
  all: destruct (negb (is_dir_node (node_at t2 cur))); [reflexivity|].
  all: destruct (is_empty c || is_dot c); [apply IHr|].
  all: destruct (is_dotdot c); [apply IHr|].
  all: pose proof (lookup_shape t1 t2 (cur ++ [c]) H) as Hl.
  all: destruct (lookup t1 (cur ++ [c])) as [[d m|m|tg]|], (lookup t2 (cur ++ [c])) as [[d' m'|m'|tg']|];
    simpl in Hl; try discriminate; try apply IHr; try reflexivity.
  (* a link, with budget left: the same target in both trees *)
  inversion Hl; subst. destruct (_ && _); [reflexivity|]. destruct tg'; [reflexivity|]. apply IHb.
Qed.

Lemma stat_dir_shape t1 t2 d : shape_eq t1 t2 -> is_dir_node (stat t1 d) = is_dir_node (stat t2 d).
Proof.
  intros H. unfold stat, resolve, resolve3. destruct (is_abs d); [|reflexivity].
  rewrite (walk_shape t1 t2 H). destruct (walk max_links t2 true [] (split_slash d)) as [p| |]; try reflexivity.
  rewrite <- (is_dir_nshape (node_at t1 p)), (node_at_shape t1 t2 p H), is_dir_nshape. reflexivity.
Qed.

(* the restricted fix-point, script level.  What is assumed about the two set-ups (the
   unpacked trees have the same shape, the second holds the updated contents) is stated as
   hypotheses; the Example below discharges them for a concrete file by computation. *)
Theorem rerun_fixpoint_restricted_partial cfg work env a a' st1 st2 stF :
  c_update cfg = true ->
  setup cfg work env a = (st1, true) ->
  setup (cfg_update cfg false) work env a' = (st2, true) ->
  comment a' = comment a ->
  st2 = swapfu st1 (s_fs st2) [] ->
  shape_eq (s_fs st2) (s_fs st1) ->
  s_updates st1 = [] ->
  run_script cfg (comment a) st1 = {| r_verdict := Pass; r_final := stF; r_fail_lines := [] |} ->
  golden_tables st1 (s_fs st2) (s_updates stF) ->
  safe_run cfg (script_lines (comment a)) 0 st1 [] ->
  run_archive (cfg_update cfg false) work env a'
  = {| r_verdict := Pass; r_final := swapfu stF (s_fs st2) []; r_fail_lines := [] |}.
Proof.
  intros Hu Hs1 Hs2 Hc Hst2 Hshape Hu0 Hrun Htab Hsafe.
  unfold run_archive. rewrite Hs2, Hc. unfold run_script in *.
  destruct (run_lines cfg (script_lines (comment a)) 0 false st1) as [[k s] f] eqn:E.
  inversion Hrun as [[Hv Hs Hf]]. subst s f. apply mk_verdict_pass in Hv. subst k.
  rewrite Hst2.
  rewrite (rerun_lockstep cfg (s_fs st2) (s_updates stF) Hu _ 0 st1 [] stF); try assumption; try reflexivity.
  - intros d. apply stat_dir_shape. exact Hshape.
  - intros e _. rewrite Hu0. reflexivity.
Qed.

(* ... and the file is not written (no_flag_no_write), so the second run is a fix-point *)
Theorem rerun_writes_nothing cfg work env file' :
  f_change (run_file_full (cfg_update cfg false) work env file') = Untouched.
Proof. apply no_flag_no_write. reflexivity. Qed.

(* the statement without the hypotheses about the set-ups: for a script of the class whose
   update run passes and whose recorded contents are representable, the second run of the
   rewritten file passes and writes nothing.  Not proved here (it needs read-after-write
   facts about the file-tree model for the unpacking of the archive); covered by the runner. *)
Definition rerun_fixpoint_restricted_full_statement : Prop :=
  forall cfg work env file file' st1,
    c_update cfg = true ->
    let r := run_file_full cfg work env file in
    setup cfg work env (parse file) = (st1, true) ->
    safe_run cfg (script_lines (comment (parse file))) 0 st1 [] ->
    r_verdict (f_run r) = Pass ->
    f_change r = Rewritten file' ->
    (forall n c, assoc_get (s_updates (r_final (f_run r))) n = Some c -> representable c) ->
    let r2 := run_file_full (cfg_update cfg false) work env file' in
    r_verdict (f_run r2) = Pass /\ f_change r2 = Untouched.

Lemma path_eqb_eq p q : path_eqb p q = true -> p = q.
Proof.
  revert q. induction p as [|x p IH]; destruct q as [|y q]; simpl; try discriminate; [reflexivity|].
  intros H. apply andb_true_iff in H. destruct H as [H1 H2]. apply bytes_eqb_eq in H1. rewrite H1, (IH _ H2). reflexivity.
Qed.
Lemma node_eqb_eq a b : node_eqb a b = true -> a = b.
Proof.
  destruct a, b; simpl; try discriminate; intros H.
  - apply andb_true_iff in H. destruct H as [H1 H2]. apply bytes_eqb_eq in H1. apply N.eqb_eq in H2. congruence.
  - apply N.eqb_eq in H. congruence.
  - apply bytes_eqb_eq in H. congruence.
Qed.
Lemma tree_eqb_eq a b : tree_eqb a b = true -> a = b.
Proof.
  revert b. induction a as [|[p n] a IH]; destruct b as [|[q m] b]; simpl; try discriminate; [reflexivity|].
  intros H. apply andb_true_iff in H. destruct H as [H H3]. apply andb_true_iff in H. destruct H as [H1 H2].
  rewrite (path_eqb_eq _ _ H1), (node_eqb_eq _ _ H2), (IH _ H3). reflexivity.
Qed.
Lemma shape_ok_eq t1 t2 : shape_ok t1 t2 = true -> shape_eq t1 t2.
Proof. apply tree_eqb_eq. Qed.

Lemma assoc_get_In m k v : assoc_get m k = Some v -> In (k, v) m.
Proof.
  induction m as [|[k' v'] r IH]; simpl; [discriminate|].
  destruct (bytes_eqb k k') eqn:E.
  - intros H. inversion H; subst. apply bytes_eqb_eq in E. subst. left. reflexivity.
  - intros H. right. apply IH. exact H.
Qed.

Lemma tables_ok_tables st1 t2 U : tables_ok st1 t2 U = true -> golden_tables st1 t2 U.
Proof.
  intros H p e Hp. unfold tables_ok in H. rewrite forallb_forall in H.
  specialize (H (p, e) (assoc_get_In _ _ _ Hp)). simpl in H.
  destruct (read_file (s_fs st1) p) as [g1|]; [|discriminate].
  destruct (read_file t2 p) as [g2|]; [|discriminate].
  apply bytes_eqb_eq in H. subst g2. eauto.
Qed.

(* scriptFiles after a successful unpacking: one registration per entry name, in order *)
Lemma unpack_table u work : forall fs st st',
  unpack u work fs st = (st', true) ->
  s_files st' = fold_left (fun F n => assoc_set F (clean (mkabs st (expand (s_env st) n))) n) (map fst fs) (s_files st).
Proof.
  induction fs as [|[n d] r IH]; intros st st' H; cbn [unpack] in H; [inversion H; reflexivity|].
  destruct (negb (beneath work _)); [discriminate|].
  destruct (mkdir_all _ _ _) as [t1 [|]]; [|discriminate].
  destruct (if u then _ else _) as [t2|]; [|discriminate].
  exact (IH _ _ H).
Qed.

(* so two archives with the same entry names are set up to states that differ in the tree only *)
Lemma setup_same_names cfg b work env a a' st1 st2 :
  map fst (files a) = map fst (files a') ->
  setup cfg work env a = (st1, true) -> setup (cfg_update cfg b) work env a' = (st2, true) ->
  st2 = swapfu st1 (s_fs st2) [] /\ s_updates st1 = [].
Proof.
  intros Hn H1 H2. unfold setup in *. change (c_unique (cfg_update cfg b)) with (c_unique cfg) in H2.
  destruct (mkdir_all [] _ 511) as [t [|]]; [|inversion H1].
  pose proof (unpack_table _ _ _ _ _ H1) as T1. pose proof (unpack_table _ _ _ _ _ H2) as T2.
  rewrite <- Hn, <- T1 in T2.
  destruct (unpack_frame (c_unique cfg) work (files a) (empty_state env work t)) as (F1 & t1 & E1).
  destruct (unpack_frame (c_unique cfg) work (files a') (empty_state env work t)) as (F2 & t2 & E2).
  rewrite H1 in E1. rewrite H2 in E2. cbn [fst] in E1, E2. subst st1 st2. cbn in T2. subst F2. split; reflexivity.
Qed.

(* the restricted fix-point, file level: when the update run of a script of the class passes
   and rewrites the file, and the executable link check holds of the two files, the second
   run (flag off) passes and writes nothing *)
Theorem rerun_fixpoint_restricted_checked cfg work env file file' st1 :
  c_update cfg = true ->
  setup cfg work env (parse file) = (st1, true) ->
  safe_run cfg (script_lines (comment (parse file))) 0 st1 [] ->
  r_verdict (f_run (run_file_full cfg work env file)) = Pass ->
  rerun_link_ok cfg work env file file' (s_updates (r_final (run_file cfg work env file))) = true ->
  r_verdict (f_run (run_file_full (cfg_update cfg false) work env file')) = Pass
  /\ f_change (run_file_full (cfg_update cfg false) work env file') = Untouched.
Proof.
  intros Hu Hs1 Hsafe Hv Hlink.
  split; [|apply rerun_writes_nothing].
  (* run 1 as a plain run *)
  assert (f_change (run_file_full cfg work env file) <> UpdateError) as Hne.
  { intros Hc. destruct (update_error_fails cfg work env file Hc) as [[n Hn] _]. congruence. }
  rewrite (update_ok_verdict cfg work env file Hne) in Hv.
  unfold rerun_link_ok in Hlink. rewrite Hs1 in Hlink.
  destruct (setup (cfg_update cfg false) work env (parse file')) as [st2 [|]] eqn:Hs2; [|discriminate].
  apply andb_true_iff in Hlink. destruct Hlink as [Hlink Htab].
  apply andb_true_iff in Hlink. destruct Hlink as [Hlink Hshape].
  apply andb_true_iff in Hlink. destruct Hlink as [Hnames Hcomment].
  apply path_eqb_eq in Hnames. apply bytes_eqb_eq in Hcomment.
  destruct (setup_same_names cfg false work env _ _ st1 st2 Hnames Hs1 Hs2) as [Hrel Hu0].
  rewrite (update_ok_verdict (cfg_update cfg false) work env file').
  2: { rewrite rerun_writes_nothing. discriminate. }
  unfold run_file in *. unfold run_archive in Hv, Htab. rewrite Hs1 in Hv, Htab.
  apply verdict_pass_iff in Hv. destruct Hv as [stF Hrun]. apply run_pass_iff in Hrun.
  rewrite Hrun in Htab. cbn [r_final] in Htab.
  rewrite (rerun_fixpoint_restricted_partial cfg work env (parse file) (parse file') st1 st2 stF); auto.
  - apply shape_ok_eq. exact Hshape.
  - apply tables_ok_tables. exact Htab.
Qed.

Lemma guards_dec_sound cfg st words :
  match guards_dec cfg st words with
  | GBlock => guards_block cfg st words
  | GPass cw => guards_pass cfg st words cw
  | GBad => True
  end.
Proof.
  induction words as [|w rest IH]; simpl; [exact I|].
  destruct (guard_of w) as [[want c]|] eqn:Hg; [|apply GP_done; exact Hg].
  destruct rest as [|r0 rest']; [exact I|]. assert (r0 :: rest' <> []) as Hne by discriminate.
  destruct (cond_eval cfg st c) as [b0|] eqn:Hc; [|exact I].
  destruct (Bool.eqb b0 want) eqn:Eb.
  - apply Bool.eqb_prop in Eb. subst b0.
    destruct (guards_dec cfg st (r0 :: rest')); [eapply GB_later|eapply GP_step|]; eauto.
  - apply eqb_false_negb in Eb. subst b0. eapply GB_here; eauto.
Qed.

(* [mem_b] is [mem_bytes] under another name *)
Lemma mem_b_In x l : mem_b x l = false -> ~ In x l.
Proof. intros H Hin. apply mem_bytes_In in Hin. change (mem_b x l = true) in Hin. congruence. Qed.

Lemma line_class_b_sound cfg st l seen seen' :
  line_class_b cfg st l seen = Some seen' -> line_class cfg st l seen seen'.
Proof.
  unfold line_class_b. destruct (tokenise (s_env st) l) as [[|w ws]|] eqn:Ht; try discriminate.
  - intros H. inversion H; subst. apply LC_blank. exact Ht.
  - pose proof (guards_dec_sound cfg st (w :: ws)) as Hg.
    destruct (guards_dec cfg st (w :: ws)) as [|cw|]; try discriminate.
    + intros H. inversion H; subst. eapply LC_guard; eauto.
    + destruct (split_neg cw) as [[[neg name] args]|] eqn:Hs; [|discriminate].
      destruct (lookup_cmd cfg name) as [c|] eqn:Hl; [|discriminate].
      assert (reaches cfg st l neg c args) as Hr by (econstructor; eauto).
      destruct (tree_free c args) eqn:Hf.
      * intros H. inversion H; subst. eapply LC_free; eauto.
      * destruct (is_cmp_ref c && negb neg) eqn:Hc; [|discriminate].
        apply andb_true_iff in Hc. destruct Hc as [Hc Hn]. apply negb_true_iff in Hn. subst neg.
        destruct c as [name'| |]; try discriminate. simpl in Hc. apply bytes_eqb_eq in Hc. subst name'.
        destruct args as [|src [|g [|x r]]]; try discriminate.
        destruct (is_std src) eqn:Hstd; [|discriminate].
        destruct (bytes_eqb (clean (mkabs st g)) (mkabs st g)) eqn:Hcl; [|discriminate]. cbn [andb].
        apply bytes_eqb_eq in Hcl.
        destruct (assoc_get (s_files st) (mkabs st g)) as [entry|] eqn:Hfile; [|discriminate].
        destruct (mem_b entry seen) eqn:Hm; [discriminate|].
        intros H. inversion H; subst. eapply LC_cmp; [exact Hr| |apply mem_b_In; exact Hm].
        split; [reflexivity|]. split; [reflexivity|]. exists src, g. auto.
Qed.

Lemma safe_run_b_sound cfg ls : forall n st seen, safe_run_b cfg ls n st seen = true -> safe_run cfg ls n st seen.
Proof.
  induction ls as [|l ls IH]; intros n st seen H; simpl in *; [exact I|].
  destruct (is_comment l); [apply IH; exact H|].
  destruct (line_class_b cfg (at_line (S n) false st) l seen) as [seen'|] eqn:Hc; [|discriminate].
  exists seen'. split; [apply line_class_b_sound; exact Hc|].
  destruct (run_line cfg (at_line (S n) false st) l) as [s|s|s]; try exact I.
  destruct (s_stopped s); [exact I|apply IH; exact H].
Qed.

(* the restricted fix-point with every side condition executable: [rerun_covered] is a
   boolean function of the two files (evaluated by the runner on each generated case) *)
Theorem rerun_fixpoint_covered cfg work env file file' :
  c_update cfg = true ->
  r_verdict (f_run (run_file_full cfg work env file)) = Pass ->
  rerun_covered cfg work env file file' = true ->
  r_verdict (f_run (run_file_full (cfg_update cfg false) work env file')) = Pass
  /\ f_change (run_file_full (cfg_update cfg false) work env file') = Untouched.
Proof.
  intros Hu Hv Hc. unfold rerun_covered in Hc.
  destruct (setup cfg work env (parse file)) as [st1 [|]] eqn:Hs; [|discriminate].
  apply andb_true_iff in Hc. destruct Hc as [Hsafe Hlink].
  eapply rerun_fixpoint_restricted_checked; eauto. apply safe_run_b_sound. exact Hsafe.
Qed.

(* non-vacuity: a concrete script of the class, all hypotheses by computation *)
Module RerunExample.
Import String.
Local Open Scope string_scope.
Local Open Scope list_scope.
Import TsUpdateFacts.Examples.

Definition f7 := text ["exec tshelper echo new"; "cmp stdout g.txt"; "stdout new"; "-- g.txt --"; "old"].
Definition f7' := text ["exec tshelper echo new"; "cmp stdout g.txt"; "stdout new"; "-- g.txt --"; "new"].
Definition st1 : state := fst (setup cfg0 work env0 (parse f7)).
Definition st2 : state := fst (setup (cfg_update cfg0 false) work env0 (parse f7')).
Definition stF : state := r_final (run_script cfg0 (comment (parse f7)) st1).

Example ex_first_run : f_change (run_file_full cfg0 work env0 f7) = Rewritten f7'.
Proof. vm_compute. reflexivity. Qed.

Example ex_safe_run : safe_run cfg0 (script_lines (comment (parse f7))) 0 st1 [].
Proof. apply safe_run_b_sound. vm_compute. reflexivity. Qed.

Example ex_golden_tables : golden_tables st1 (s_fs st2) (s_updates stF).
Proof. apply tables_ok_tables. vm_compute. reflexivity. Qed.

(* every hypothesis of the restricted fix-point holds of this file: its second run passes *)
Example ex_rerun :
  r_verdict (run_archive (cfg_update cfg0 false) work env0 (parse f7')) = Pass.
Proof.
  rewrite (rerun_fixpoint_restricted_partial cfg0 work env0 (parse f7) (parse f7') st1 st2 stF).
  - reflexivity.
  - reflexivity.                  (* the flag is on *)
  - vm_compute. reflexivity.      (* first set-up *)
  - vm_compute. reflexivity.      (* second set-up *)
  - vm_compute. reflexivity.      (* same script text *)
  - vm_compute. reflexivity.      (* the states differ in the tree only *)
  - vm_compute. reflexivity.      (* trees of the same shape *)
  - vm_compute. reflexivity.      (* nothing recorded at the start *)
  - vm_compute. reflexivity.      (* run 1 passes *)
  - exact ex_golden_tables.
  - exact ex_safe_run.
Qed.

(* the executable check accepts this file, so the theorem applies to it *)
Example ex_covered : rerun_covered cfg0 work env0 f7 f7' = true.
Proof. vm_compute. reflexivity. Qed.
Example ex_rerun_by_theorem :
  r_verdict (f_run (run_file_full (cfg_update cfg0 false) work env0 f7')) = Pass
  /\ f_change (run_file_full (cfg_update cfg0 false) work env0 f7') = Untouched.
Proof. apply (rerun_fixpoint_covered cfg0 work env0 f7 f7'); [reflexivity|vm_compute; reflexivity|exact ex_covered]. Qed.
(* ... and rejects the witness of the unrestricted statement (one entry compared twice) *)
Example ex_not_covered : rerun_covered cfg0 work env0 f6 f6' = false.
Proof. vm_compute. reflexivity. Qed.
End RerunExample.
