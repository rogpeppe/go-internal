(* Proofs about the testscript interpreter model: the interpreter (TsRun.v) against the
   declarative reading of the property (TsSpec.v).  Property theorems are re-exported,
   unchanged, by Properties/C01.v. *)
From Coq Require Import List Bool Arith NArith Lia Permutation.
From Coq.Strings Require Import Byte.
From GI Require Import Lib.Bytes Lib.BytesFacts Gen.TsRunConsts Txtar.Txtar
  TsRun.TsFs TsRun.TsState TsRun.TsCmds TsRun.TsRun TsRun.TsSpec.
Import ListNotations.

Lemma mem_bytes_In x l : mem_bytes x l = true <-> In x l.
Proof.
  induction l as [|y l IH]; simpl.
  - split; [discriminate|tauto].
  - rewrite orb_true_iff, IH, bytes_eqb_eq. split; intros [H|H]; auto.
Qed.

Lemma eqb_false_negb (a b : bool) : Bool.eqb a b = false -> a = negb b.
Proof. destruct a, b; simpl; congruence. Qed.

Lemma assoc_get_set m k v k' :
  assoc_get (assoc_set m k v) k' = if bytes_eqb k' k then Some v else assoc_get m k'.
Proof.
  induction m as [|[k0 v0] m IH]; cbn [assoc_set assoc_get]; [reflexivity|].
  destruct (bytes_eqb k k0) eqn:E0; cbn [assoc_get].
  - apply bytes_eqb_eq in E0. subst k0. destruct (bytes_eqb k' k); reflexivity.
  - rewrite IH. destruct (bytes_eqb k' k0) eqn:E1; [|reflexivity].
    destruct (bytes_eqb k' k) eqn:E; [|reflexivity].
    apply bytes_eqb_eq in E1, E. subst. rewrite bytes_eqb_refl in E0. discriminate E0.
Qed.

Lemma run_neg_split cfg st cw :
  run_neg cfg st cw =
  match split_neg cw with
  | Some (neg, name, args) =>
      match lookup_cmd cfg name with
      | Some c => cmd_sem cfg c neg args st
      | None => Failed st
      end
  | None => Failed st
  end.
Proof.
  destruct cw as [|w rest]; [reflexivity|].
  unfold run_neg, split_neg. destruct (bytes_eqb w bang).
  - destruct rest as [|n a]; reflexivity.
  - reflexivity.
Qed.

Lemma guards_pass_run cfg st words cw :
  guards_pass cfg st words cw -> run_guards cfg st words = run_neg cfg st cw.
Proof.
  induction 1 as [w rest Hg | w want c rest out Hg Hne Hc Hp IH].
  - simpl. rewrite Hg. reflexivity.
  - simpl. rewrite Hg. destruct rest as [|r0 rest']; [congruence|].
    rewrite Hc. rewrite eqb_reflx. exact IH.
Qed.

Lemma guards_block_run cfg st words :
  guards_block cfg st words -> run_guards cfg st words = Done st.
Proof.
  induction 1 as [w want c rest Hg Hne Hc | w want c rest Hg Hne Hc Hb IH].
  - simpl. rewrite Hg. destruct rest as [|r0 rest']; [congruence|].
    rewrite Hc. destruct want; reflexivity.
  - simpl. rewrite Hg. destruct rest as [|r0 rest']; [congruence|].
    rewrite Hc. rewrite eqb_reflx. exact IH.
Qed.

(* what run_guards does, read backwards: a false guard, the command part, or a failure on the spot *)
Lemma run_guards_cases cfg st words :
  guards_block cfg st words /\ run_guards cfg st words = Done st
  \/ (exists cw, guards_pass cfg st words cw /\ run_guards cfg st words = run_neg cfg st cw)
  \/ run_guards cfg st words = Failed st.
Proof.
  induction words as [|w rest IH]; [auto|].
  simpl. destruct (guard_of w) as [[want c]|] eqn:Hg.
  - destruct rest as [|r0 rest']; [auto|]. assert (r0 :: rest' <> []) as Hne by discriminate.
    destruct (cond_eval cfg st c) as [b|] eqn:Hc; [|auto].
    destruct (Bool.eqb b want) eqn:Eb.
    + apply Bool.eqb_prop in Eb. subst b.
      destruct IH as [[Hb Hr]|[[cw [Hp Hr]]|Hr]]; [left|right; left; exists cw|auto];
        (split; [|exact Hr]); [eapply GB_later|eapply GP_step]; eauto.
    + apply eqb_false_negb in Eb. subst b. left. split; [eapply GB_here; eauto|reflexivity].
  - right. left. exists (w :: rest). split; [apply GP_done; exact Hg|reflexivity].
Qed.

Lemma guards_pass_fun cfg st words cw1 cw2 :
  guards_pass cfg st words cw1 -> guards_pass cfg st words cw2 -> cw1 = cw2.
Proof.
  intros H1. revert cw2. induction H1 as [w rest Hg | w want c rest out Hg Hne Hc Hp IH];
    intros cw2 H2; inversion H2; subst; try congruence. auto.
Qed.

Lemma guards_pass_nonempty cfg st words cw : guards_pass cfg st words cw -> words <> [].
Proof. destruct 1; discriminate. Qed.
Lemma guards_block_nonempty cfg st words : guards_block cfg st words -> words <> [].
Proof. destruct 1; discriminate. Qed.

Lemma run_line_words cfg st line words :
  tokenise (s_env st) line = Some words -> words <> [] -> run_line cfg st line = run_guards cfg st words.
Proof. intros Ht Hne. unfold run_line. rewrite Ht. destruct words; [contradiction|reflexivity]. Qed.

Theorem guard_false_noop cfg st line words :
  tokenise (s_env st) line = Some words -> guards_block cfg st words ->
  run_line cfg st line = Done st.
Proof.
  intros Ht Hb. rewrite (run_line_words _ _ _ _ Ht (guards_block_nonempty _ _ _ Hb)).
  apply guards_block_run. exact Hb.
Qed.

Lemma run_line_guards_pass cfg st line words cw :
  tokenise (s_env st) line = Some words -> guards_pass cfg st words cw ->
  run_line cfg st line = run_neg cfg st cw.
Proof.
  intros Ht Hp. rewrite (run_line_words _ _ _ _ Ht (guards_pass_nonempty _ _ _ _ Hp)).
  apply guards_pass_run. exact Hp.
Qed.

Lemma run_line_reaches cfg st line neg c args :
  reaches cfg st line neg c args -> run_line cfg st line = cmd_sem cfg c neg args st.
Proof.
  intros [words cw neg' name args' c' Ht Hp Hs Hl].
  rewrite (run_line_guards_pass _ _ _ _ _ Ht Hp), run_neg_split, Hs, Hl. reflexivity.
Qed.

Theorem unknown_cmd_fails cfg st line words cw neg name args :
  tokenise (s_env st) line = Some words -> guards_pass cfg st words cw ->
  split_neg cw = Some (neg, name, args) -> lookup_cmd cfg name = None ->
  run_line cfg st line = Failed st.
Proof.
  intros Ht Hp Hs Hl. rewrite (run_line_guards_pass _ _ _ _ _ Ht Hp), run_neg_split, Hs, Hl. reflexivity.
Qed.

Lemma reaches_fun cfg st line n1 c1 a1 n2 c2 a2 :
  reaches cfg st line n1 c1 a1 -> reaches cfg st line n2 c2 a2 -> n1 = n2 /\ c1 = c2 /\ a1 = a2.
Proof.
  intros [w1 cw1 ? ? ? ? Ht1 Hp1 Hs1 Hl1] [w2 cw2 ? ? ? ? Ht2 Hp2 Hs2 Hl2].
  rewrite Ht1 in Ht2. inversion Ht2; subst w2.
  pose proof (guards_pass_fun _ _ _ _ _ Hp1 Hp2) as E. subst cw2.
  rewrite Hs1 in Hs2. inversion Hs2; subst. rewrite Hl1 in Hl2. inversion Hl2. auto.
Qed.

Lemma run_line_cases cfg st line :
  (tokenise (s_env st) line = Some [] /\ run_line cfg st line = Done st)
  \/ (exists words, tokenise (s_env st) line = Some words /\ guards_block cfg st words
                    /\ run_line cfg st line = Done st)
  \/ (exists neg c args, reaches cfg st line neg c args
                         /\ run_line cfg st line = cmd_sem cfg c neg args st)
  \/ run_line cfg st line = Failed st.
Proof.
  destruct (tokenise (s_env st) line) as [[|w ws]|] eqn:Ht;
    [left; unfold run_line; rewrite Ht; auto| |unfold run_line; rewrite Ht; auto].
  right. rewrite (run_line_words _ _ _ _ Ht) by discriminate.
  destruct (run_guards_cases cfg st (w :: ws)) as [[Hb Hr]|[[cw [Hp Hr]]|Hr]]; rewrite Hr; [eauto| |auto].
  rewrite run_neg_split. destruct (split_neg cw) as [[[neg name] args]|] eqn:Hs; [|auto].
  destruct (lookup_cmd cfg name) as [c|] eqn:Hl; [|auto].
  right. left. exists neg, c, args. split; [econstructor; eauto|reflexivity].
Qed.

(* what holds of doing nothing, of failing on the spot and of every command the line can
   reach, holds of the line *)
Lemma run_line_outcome cfg st line (P : outcome -> Prop) :
  P (Done st) -> P (Failed st) ->
  (forall neg c args, reaches cfg st line neg c args -> P (cmd_sem cfg c neg args st)) ->
  P (run_line cfg st line).
Proof.
  intros Hd Hf Hc.
  destruct (run_line_cases cfg st line) as [[_ ->]|[[words [_ [_ ->]]]|[[neg [c [args [Hr ->]]]]| ->]]]; auto.
Qed.

(* a command that the generated table says rejects "!" never returns normally under "!" *)
Lemma builtin_rejects_neg cfg name args st :
  In name neg_rejecting_cmds -> builtin_sem cfg name true args st = Failed st.
Proof.
  intros H. unfold builtin_sem. apply mem_bytes_In in H. rewrite H. reflexivity.
Qed.

Lemma not_failed_accepts cfg c args st :
  cmd_sem cfg c true args st <> Failed st -> accepts_neg c.
Proof.
  destruct c as [name|name|k]; simpl; auto. intros H Hin. apply H, builtin_rejects_neg, Hin.
Qed.

Lemma demand_met_run cfg st line st' :
  demand_met cfg st line st' -> run_line cfg st line = Done st'.
Proof.
  intros [Ht | words Ht Hb | neg c args st'' Hr Hacc Hc].
  - unfold run_line. rewrite Ht. reflexivity.
  - exact (guard_false_noop _ _ _ _ Ht Hb).
  - rewrite (run_line_reaches _ _ _ _ _ _ Hr). exact Hc.
Qed.

Lemma skip_met_run cfg st line st' :
  skip_met cfg st line st' -> run_line cfg st line = SkipNow st'.
Proof.
  intros [neg c args st'' Hr Hacc Hc]. rewrite (run_line_reaches _ _ _ _ _ _ Hr). exact Hc.
Qed.

Theorem line_done_iff cfg st line st' :
  run_line cfg st line = Done st' <-> demand_met cfg st line st'.
Proof.
  split; [|apply demand_met_run]. intros H.
  destruct (run_line_cases cfg st line) as [[Ht Hr]|[[words [Ht [Hb Hr]]]|[[neg [c [args [Hreach Hr]]]]|Hr]]];
    rewrite Hr in H; try discriminate.
  - inversion H; subst. apply DM_blank. exact Ht.
  - inversion H; subst. eapply DM_guard; eauto.
  - eapply DM_cmd; eauto. intros ->. apply (not_failed_accepts cfg c args st). rewrite H. discriminate.
Qed.

Theorem line_skip_iff cfg st line st' :
  run_line cfg st line = SkipNow st' <-> skip_met cfg st line st'.
Proof.
  split; [|apply skip_met_run]. intros H.
  destruct (run_line_cases cfg st line) as [[Ht Hr]|[[words [Ht [Hb Hr]]]|[[neg [c [args [Hreach Hr]]]]|Hr]]];
    rewrite Hr in H; try discriminate.
  eapply SM_cmd; eauto. intros ->. apply (not_failed_accepts cfg c args st). rewrite H. discriminate.
Qed.

Theorem line_failed_iff cfg st line :
  (exists st', run_line cfg st line = Failed st') <-> unmet cfg st line.
Proof.
  split.
  - intros [st' H]. split; intros [s Hs].
    + apply demand_met_run in Hs. congruence.
    + apply skip_met_run in Hs. congruence.
  - intros [Hd Hs]. destruct (run_line cfg st line) as [s|s|s] eqn:E.
    + exfalso. apply Hd. exists s. apply line_done_iff. exact E.
    + exists s. reflexivity.
    + exfalso. apply Hs. exists s. apply line_skip_iff. exact E.
Qed.

Lemma unmet_run cfg st line :
  unmet cfg st line -> run_line cfg st line = Failed (line_effects cfg st line).
Proof.
  intros H. apply line_failed_iff in H. destruct H as [s H]. unfold line_effects. rewrite H. reflexivity.
Qed.

Lemma demand_met_fun cfg st line s1 s2 : demand_met cfg st line s1 -> demand_met cfg st line s2 -> s1 = s2.
Proof. intros H1 H2. apply demand_met_run in H1. apply demand_met_run in H2. congruence. Qed.

Lemma run_lines_failed_flag cfg ls n st :
  fst (fst (run_lines cfg ls n true st)) = EFail.
Proof.
  revert n st. induction ls as [|l ls IH]; intros n st; simpl; [reflexivity|].
  destruct (is_comment l); [apply IH|].
  destruct (run_line cfg (at_line (S n) true st) l) as [s|s|s].
  - destruct (s_stopped s); [reflexivity|apply IH].
  - destruct (c_continue cfg); [|reflexivity].
    destruct (s_stopped s); [reflexivity|].
    specialize (IH (S n) s). destruct (run_lines cfg ls (S n) true s) as [[k s'] f]. exact IH.
  - reflexivity.
Qed.

Lemma run_lines_pass cfg ls n st stF fl :
  run_lines cfg ls n false st = (EPass, stF, fl) -> all_met cfg ls n false st stF /\ fl = [].
Proof.
  revert n st. induction ls as [|l ls IH]; intros n st; simpl.
  - intros H. inversion H; subst. split; [constructor|reflexivity].
  - destruct (is_comment l) eqn:Hc.
    + intros H. apply IH in H. destruct H as [H ->]. split; [|reflexivity]. apply AM_comment; assumption.
    + destruct (run_line cfg (at_line (S n) false st) l) as [s|s|s] eqn:Hr.
      * apply line_done_iff in Hr.
        destruct (s_stopped s) eqn:Hs.
        -- intros H. inversion H; subst. split; [|reflexivity]. eapply AM_stop; eauto.
        -- intros H. apply IH in H. destruct H as [H ->]. split; [|reflexivity]. eapply AM_line; eauto.
      * destruct (c_continue cfg); [|discriminate].
        destruct (s_stopped s); [discriminate|].
        pose proof (run_lines_failed_flag cfg ls (S n) s) as Hf.
        destruct (run_lines cfg ls (S n) true s) as [[k s'] f]. simpl in Hf. subst k. discriminate.
      * discriminate.
Qed.

Lemma all_met_run cfg ls n f st stF :
  all_met cfg ls n f st stF -> run_lines cfg ls n f st = (end_of f, stF, []).
Proof.
  induction 1 as [n f st | l ls n f st stF Hc Ha IH | l ls n f st st1 stF Hc Hd Hs Ha IH | l ls n f st st1 Hc Hd Hs]; simpl.
  - reflexivity.
  - rewrite Hc. exact IH.
  - rewrite Hc. rewrite (demand_met_run _ _ _ _ Hd), Hs. exact IH.
  - rewrite Hc. rewrite (demand_met_run _ _ _ _ Hd), Hs. reflexivity.
Qed.

Theorem run_lines_pass_iff cfg ls n st stF fl :
  run_lines cfg ls n false st = (EPass, stF, fl) <-> all_met cfg ls n false st stF /\ fl = [].
Proof.
  split; [apply run_lines_pass|]. intros [H ->]. apply all_met_run in H. exact H.
Qed.

Lemma mk_verdict_pass k f : mk_verdict k f = Pass <-> k = EPass.
Proof. destruct k; simpl; split; congruence. Qed.
Lemma mk_verdict_skip k f : mk_verdict k f = Skip <-> k = ESkip.
Proof. destruct k; simpl; split; congruence. Qed.
Lemma mk_verdict_fail k f n : mk_verdict k f = Fail n <-> k = EFail /\ hd 0 f = n.
Proof.
  destruct k; simpl; split; intros H; try discriminate; try (destruct H; discriminate).
  - inversion H. auto.
  - destruct H as [_ H]. congruence.
Qed.

(* PASS, with the final state and no failing line: exactly when every executed line up to the
   first stop meets its demand *)
Theorem run_pass_iff cfg text st0 stF :
  run_script cfg text st0 = {| r_verdict := Pass; r_final := stF; r_fail_lines := [] |}
  <-> all_met cfg (script_lines text) 0 false st0 stF.
Proof.
  unfold run_script.
  destruct (run_lines cfg (script_lines text) 0 false st0) as [[k s] f] eqn:E. split.
  - intros H. inversion H as [[Hv Hs Hf]]. subst. apply mk_verdict_pass in Hv. subst k.
    apply run_lines_pass in E. tauto.
  - intros H. apply all_met_run in H. rewrite H in E. inversion E; subst. reflexivity.
Qed.

Theorem verdict_pass_iff cfg text st0 :
  r_verdict (run_script cfg text st0) = Pass
  <-> exists stF, all_met cfg (script_lines text) 0 false st0 stF.
Proof.
  split.
  - unfold run_script. destruct (run_lines cfg (script_lines text) 0 false st0) as [[k s] f] eqn:E. simpl.
    rewrite mk_verdict_pass. intros ->. apply run_lines_pass in E. exists s. tauto.
  - intros [stF H]. apply run_pass_iff in H. rewrite H. reflexivity.
Qed.

(* the lines that meet their demand are consumed: the run goes on behind them *)
Lemma lines_met_run cfg pre n f st st1 :
  lines_met cfg pre n f st st1 ->
  forall rest, run_lines cfg (pre ++ rest) n f st = run_lines cfg rest (n + length pre) f st1.
Proof.
  induction 1 as [n f st | l ls n f st st' Hc Hm IH | l ls n f st st2 st' Hc Hd Hs Hm IH]; intros rest; simpl.
  - rewrite Nat.add_0_r. reflexivity.
  - rewrite Hc, <- plus_n_Sm. apply IH.
  - rewrite Hc, (demand_met_run _ _ _ _ Hd), Hs, <- plus_n_Sm. apply IH.
Qed.

(* FAIL at the first unmet line: the lines before it meet their demand, its effects are the final
   state, its number is the one FAIL line *)
Inductive fails_first cfg ls n st stF fl : Prop :=
| FailsFirst pre l post st1 :
    ls = pre ++ l :: post -> lines_met cfg pre n false st st1 -> is_comment l = false ->
    unmet cfg (at_line (S (n + length pre)) false st1) l ->
    stF = line_effects cfg (at_line (S (n + length pre)) false st1) l ->
    fl = [S (n + length pre)] -> fails_first cfg ls n st stF fl.

(* a line that is consumed, leaving [s], goes in front of the prefix found behind it *)
Lemma fails_first_cons cfg l ls n st s stF fl :
  (forall pre st1, lines_met cfg pre (S n) false s st1 -> lines_met cfg (l :: pre) n false st st1) ->
  fails_first cfg ls (S n) s stF fl -> fails_first cfg (l :: ls) n st stF fl.
Proof.
  intros Hcons [pre l0 post st1 -> Hmet Hcom Hunmet -> ->].
  apply (FailsFirst _ _ _ _ _ _ (l :: pre) l0 post st1); simpl; rewrite <- ?plus_n_Sm; auto.
Qed.

Lemma run_lines_fail_first cfg ls n st stF fl :
  c_continue cfg = false ->
  run_lines cfg ls n false st = (EFail, stF, fl) -> fails_first cfg ls n st stF fl.
Proof.
  intros Hcont. revert n st. induction ls as [|l ls IH]; intros n st; simpl; [discriminate|].
  destruct (is_comment l) eqn:Hc.
  - intros H. apply (fails_first_cons _ _ _ _ _ st); [intros pre st1; apply LM_comment; exact Hc|exact (IH _ _ H)].
  - destruct (run_line cfg (at_line (S n) false st) l) as [s|s|s] eqn:Hr; [| |discriminate].
    + destruct (s_stopped s) eqn:Hs; [discriminate|]. intros H.
      apply (fails_first_cons _ _ _ _ _ s); [|exact (IH _ _ H)].
      intros pre st1. apply LM_line with (st1 := s); [exact Hc|apply line_done_iff; exact Hr|exact Hs].
    + rewrite Hcont. intros H. inversion H; subst.
      apply (FailsFirst _ _ _ _ _ _ [] l ls st); simpl; rewrite ?Nat.add_0_r; auto.
      * constructor.
      * apply line_failed_iff. eauto.
      * unfold line_effects. rewrite Hr. reflexivity.
Qed.

Lemma lines_met_fail_run cfg pre l post n f st st1 :
  c_continue cfg = false ->
  lines_met cfg pre n f st st1 -> is_comment l = false ->
  unmet cfg (at_line (S (n + length pre)) f st1) l ->
  run_lines cfg (pre ++ l :: post) n f st
  = (EFail, line_effects cfg (at_line (S (n + length pre)) f st1) l, [S (n + length pre)]).
Proof.
  intros Hcont Hm Hc Hu. rewrite (lines_met_run _ _ _ _ _ _ Hm). simpl.
  rewrite Hc, (unmet_run _ _ _ Hu), Hcont. reflexivity.
Qed.

Theorem verdict_fail_first cfg text st0 n stF :
  c_continue cfg = false ->
  (run_script cfg text st0 = {| r_verdict := Fail n; r_final := stF; r_fail_lines := [n] |}
   <-> exists pre l post st1,
         script_lines text = pre ++ l :: post /\ n = S (length pre)
         /\ lines_met cfg pre 0 false st0 st1 /\ is_comment l = false
         /\ unmet cfg (at_line n false st1) l
         /\ stF = line_effects cfg (at_line n false st1) l).
Proof.
  intros Hcont. unfold run_script.
  destruct (run_lines cfg (script_lines text) 0 false st0) as [[k s] f] eqn:E. split.
  - intros H. inversion H as [[Hv Hs Hf]]. subst. apply mk_verdict_fail in Hv. destruct Hv as [-> _].
    apply run_lines_fail_first in E; [|exact Hcont].
    destruct E as [pre l post st1 Hl Hm Hc Hu -> Hfl]. simpl in *.
    inversion Hfl; subst. exists pre, l, post, st1. auto 10.
  - intros [pre [l [post [st1 [Hl [-> [Hm [Hc [Hu ->]]]]]]]]].
    rewrite Hl in E. rewrite (lines_met_fail_run cfg pre l post 0 false st0 st1 Hcont Hm Hc Hu) in E.
    simpl in E. inversion E; subst. reflexivity.
Qed.

(* without ContinueOnError a failing run reports exactly one FAIL line: the verdict's *)
Theorem fail_line_logged cfg text st0 n :
  c_continue cfg = false ->
  r_verdict (run_script cfg text st0) = Fail n -> r_fail_lines (run_script cfg text st0) = [n].
Proof.
  intros Hcont. unfold run_script.
  destruct (run_lines cfg (script_lines text) 0 false st0) as [[k s] f] eqn:E. simpl.
  intros Hv. apply mk_verdict_fail in Hv. destruct Hv as [-> Hh].
  apply run_lines_fail_first in E; [|exact Hcont].
  destruct E as [pre l post st1 _ _ _ _ _ ->]. simpl in Hh. subst. reflexivity.
Qed.

(* no later line has any effect: the lines behind the failing one are irrelevant *)
Theorem later_lines_irrelevant cfg pre l post post' n st st1 :
  c_continue cfg = false ->
  lines_met cfg pre n false st st1 -> is_comment l = false ->
  unmet cfg (at_line (S (n + length pre)) false st1) l ->
  run_lines cfg (pre ++ l :: post) n false st = run_lines cfg (pre ++ l :: post') n false st.
Proof.
  intros Hcont Hm Hc Hu. rewrite !(lines_met_fail_run cfg pre l _ n false st st1 Hcont Hm Hc Hu). reflexivity.
Qed.

(* what every line keeps, and the end of the script, the run keeps ([I] does not look at the
   line counter or the failed flag) *)
Lemma run_lines_keeps cfg (I : state -> Prop) :
  (forall st n, I st -> I (set_lineno st n)) -> (forall st b, I st -> I (set_failed st b)) ->
  (forall st l, I st -> I (outcome_state (run_line cfg st l))) ->
  (forall st, I st -> I (end_bg st)) ->
  forall ls n f st, I st -> I (snd (fst (run_lines cfg ls n f st))).
Proof.
  intros Hno Hfl Hline Hend. induction ls as [|l ls IH]; intros n f st Hst; simpl; [auto|].
  destruct (is_comment l); [apply IH; exact Hst|].
  pose proof (Hline _ l (Hfl _ f (Hno st (S n) Hst))) as Hl. fold (at_line (S n) f st) in Hl.
  destruct (run_line cfg (at_line (S n) f st) l) as [s|s|s]; simpl in Hl.
  - destruct (s_stopped s); simpl; auto.
  - destruct (c_continue cfg); [|exact Hl].
    destruct (s_stopped s); simpl; [auto|].
    specialize (IH (S n) true s Hl). destruct (run_lines cfg ls (S n) true s) as [[k s'] fl]. exact IH.
  - exact Hl.
Qed.

Lemma exec_all_run cfg ls n f st k stF U :
  c_continue cfg = true -> exec_all cfg ls n f st k stF U -> run_lines cfg ls n f st = (k, stF, U).
Proof.
  intros Hcont.
  induction 1 as [n f st | l ls n f st k stF U Hc He IH | l ls n f st st1 k stF U Hc Hd Hs He IH
                 | l ls n f st st1 Hc Hd Hs | l ls n f st st1 k stF U Hc Hu -> Hs He IH
                 | l ls n f st st1 Hc Hu -> Hs | l ls n f st st1 Hc Hk]; simpl.
  - reflexivity.
  - rewrite Hc. exact IH.
  - rewrite Hc, (demand_met_run _ _ _ _ Hd), Hs. exact IH.
  - rewrite Hc, (demand_met_run _ _ _ _ Hd), Hs. reflexivity.
  - rewrite Hc, (unmet_run _ _ _ Hu), Hcont, Hs, IH. reflexivity.
  - rewrite Hc, (unmet_run _ _ _ Hu), Hcont, Hs. reflexivity.
  - rewrite Hc, (skip_met_run _ _ _ _ Hk). reflexivity.
Qed.

Lemma run_exec_all cfg ls n f st :
  c_continue cfg = true ->
  exec_all cfg ls n f st (fst (fst (run_lines cfg ls n f st))) (snd (fst (run_lines cfg ls n f st)))
           (snd (run_lines cfg ls n f st)).
Proof.
  intros Hcont. revert n f st. induction ls as [|l ls IH]; intros n f st; simpl.
  - constructor.
  - destruct (is_comment l) eqn:Hc.
    + apply EA_comment; [exact Hc|apply IH].
    + destruct (run_line cfg (at_line (S n) f st) l) as [s|s|s] eqn:Hr.
      * apply line_done_iff in Hr. destruct (s_stopped s) eqn:Hs; simpl.
        -- eapply EA_met_stop; eauto.
        -- eapply EA_met; eauto.
      * assert (unmet cfg (at_line (S n) f st) l) as Hu by (apply line_failed_iff; eauto).
        assert (s = line_effects cfg (at_line (S n) f st) l) as Es by (unfold line_effects; rewrite Hr; reflexivity).
        rewrite Hcont. destruct (s_stopped s) eqn:Hs; simpl.
        -- eapply EA_unmet_stop; eauto.
        -- specialize (IH (S n) true s).
           destruct (run_lines cfg ls (S n) true s) as [[k s'] U]. simpl in *.
           eapply EA_unmet; eauto.
      * apply line_skip_iff in Hr. simpl. eapply EA_skip; eauto.
Qed.

Theorem continue_iff cfg ls n f st k stF U :
  c_continue cfg = true ->
  (run_lines cfg ls n f st = (k, stF, U) <-> exec_all cfg ls n f st k stF U).
Proof.
  intros Hcont. split.
  - intros H. pose proof (run_exec_all cfg ls n f st Hcont) as He. rewrite H in He. exact He.
  - apply exec_all_run. exact Hcont.
Qed.

Lemma exec_all_kind cfg ls n f st k stF U :
  exec_all cfg ls n f st k stF U -> (k = EFail <-> f = true \/ U <> []).
Proof.
  assert (forall f, end_of f = EFail <-> f = true \/ @nil nat <> []) as Hend
    by (intros []; simpl; split; try tauto; try discriminate; intros [H|H]; congruence).
  induction 1 as [n f st | l ls n f st k stF U Hc He IH | l ls n f st st1 k stF U Hc Hd Hs He IH
                 | l ls n f st st1 Hc Hd Hs | l ls n f st st1 k stF U Hc Hu E Hs He IH
                 | l ls n f st st1 Hc Hu E Hs | l ls n f st st1 Hc Hk]; try exact IH; try apply Hend.
  - split; [intros _; right; discriminate|]. intros _. apply IH. left. reflexivity.
  - split; [intros _; right; discriminate|reflexivity].
  - destruct f; simpl; split; try tauto; try discriminate. intros [H|H]; congruence.
Qed.

(* under ContinueOnError the run is the execution of every line (until stop, skip or the end),
   and it fails exactly when some demand was unmet *)
Theorem continue_runs_all cfg text st0 :
  c_continue cfg = true ->
  exists k stF U,
    exec_all cfg (script_lines text) 0 false st0 k stF U
    /\ run_script cfg text st0 = {| r_verdict := mk_verdict k U; r_final := stF; r_fail_lines := U |}
    /\ ((exists n, r_verdict (run_script cfg text st0) = Fail n) <-> U <> [])
    /\ (U <> [] -> r_verdict (run_script cfg text st0) = Fail (hd 0 U)).
Proof.
  intros Hcont. unfold run_script.
  pose proof (run_exec_all cfg (script_lines text) 0 false st0 Hcont) as He.
  destruct (run_lines cfg (script_lines text) 0 false st0) as [[k s] U]. simpl in *.
  exists k, s, U. split; [exact He|]. split; [reflexivity|].
  pose proof (exec_all_kind _ _ _ _ _ _ _ _ He) as Hk.
  assert (U <> [] -> mk_verdict k U = Fail (hd 0 U)) as HU
    by (intros HU; apply mk_verdict_fail; split; [apply Hk; right; exact HU|reflexivity]).
  split; [split|exact HU].
  - intros [n Hn]. apply mk_verdict_fail in Hn. destruct Hn as [Hn _]. apply Hk in Hn.
    destruct Hn as [Hn|Hn]; [discriminate|exact Hn].
  - eauto.
Qed.

(* when the lines before it meet their demand, a line that stops the script (and meets its own
   demand) ends the run as passed, whatever follows *)
Theorem stop_passes cfg pre l post st0 st1 st2 :
  lines_met cfg pre 0 false st0 st1 -> is_comment l = false ->
  demand_met cfg (at_line (S (length pre)) false st1) l st2 -> s_stopped st2 = true ->
  run_lines cfg (pre ++ l :: post) 0 false st0 = (EPass, end_bg st2, []).
Proof.
  intros Hm Hc Hd Hs. rewrite (lines_met_run _ _ _ _ _ _ Hm). simpl.
  rewrite Hc, (demand_met_run _ _ _ _ Hd), Hs. reflexivity.
Qed.

Lemma lines_met_skip_run cfg pre n f st st1 l post st2 :
  lines_met cfg pre n f st st1 -> is_comment l = false ->
  skip_met cfg (at_line (S (n + length pre)) f st1) l st2 ->
  run_lines cfg (pre ++ l :: post) n f st = (if f then EFail else ESkip, st2, []).
Proof.
  intros Hm Hc Hk. rewrite (lines_met_run _ _ _ _ _ _ Hm). simpl.
  rewrite Hc, (skip_met_run _ _ _ _ Hk). reflexivity.
Qed.

(* when the lines before it meet their demand, a line that leaves through T.Skip ends the run as
   skipped, whatever follows *)
Theorem skip_skips cfg pre l post st0 st1 st2 :
  lines_met cfg pre 0 false st0 st1 -> is_comment l = false ->
  skip_met cfg (at_line (S (length pre)) false st1) l st2 ->
  run_lines cfg (pre ++ l :: post) 0 false st0 = (ESkip, st2, []).
Proof. exact (lines_met_skip_run cfg pre 0 false st0 st1 l post st2). Qed.

(* ... and, with ContinueOnError, as FAILED once a line has failed (testscript reported such a
   run as skipped: the defect the model describes as corrected, see TsRun.v) *)
Theorem skip_after_failure_fails cfg pre l post n st st1 st2 :
  lines_met cfg pre n true st st1 -> is_comment l = false ->
  skip_met cfg (at_line (S (n + length pre)) true st1) l st2 ->
  run_lines cfg (pre ++ l :: post) n true st = (EFail, st2, []).
Proof. exact (lines_met_skip_run cfg pre n true st st1 l post st2). Qed.

Lemma stop_cmd_stops cfg args st :
  length args <= 1 ->
  cmd_sem cfg (CBuiltin [x73; x74; x6f; x70]) false args st = Done (set_stopped st true).
Proof.
  intros H. destruct args as [|a [|b r]]; try reflexivity. simpl in H. lia.
Qed.

Lemma skip_cmd_skips cfg args st :
  length args <= 1 -> s_bg st = [] ->
  cmd_sem cfg (CBuiltin [x73; x6b; x69; x70]) false args st
  = SkipNow (set_bg (set_outerr (set_bg st []) [] []) []).
Proof.
  intros H Hb.
  assert (cmd_sem cfg (CBuiltin [x73; x6b; x69; x70]) false args st = cmd_skip args st) as -> by reflexivity.
  unfold cmd_skip, interrupt_all, wait_all. rewrite Hb. simpl.
  destruct args as [|a [|b r]]; try reflexivity. simpl in H. lia.
Qed.

(* for a foreground exec that testscript does not stop itself, "!" turns success into failure
   and failure into success, with the same effects on the state *)
Theorem neg_flips_exec cfg args st s :
  fg_args args -> exec_times_out cfg args st = false ->
  (cmd_exec cfg true args st = Done s <-> cmd_exec cfg false args st = Failed s)
  /\ (cmd_exec cfg true args st = Failed s <-> cmd_exec cfg false args st = Done s).
Proof.
  intros [Hne Hbg] Hto. unfold cmd_exec. destruct args as [|prog rest]; [congruence|].
  rewrite Hbg. unfold exec_times_out in Hto. destruct (can_start cfg st prog).
  - simpl in Hto.
    destruct (fg_end cfg (helper_run rest (s_in st) (s_env st) (s_cd st) (s_fs st))); [| |discriminate];
      simpl; split; split; intros H; inversion H; reflexivity.
  - split; split; intros H; inversion H; reflexivity.
Qed.

(* a foreground command that testscript stops because the context of the run is done fails the
   line under BOTH polarities, with the same state *)
Theorem neg_does_not_excuse_timeout cfg args st :
  fg_args args -> exec_times_out cfg args st = true ->
  exists s, forall neg, cmd_exec cfg neg args st = Failed s.
Proof.
  intros [Hne Hbg] Hto. unfold cmd_exec. destruct args as [|prog rest]; [congruence|].
  rewrite Hbg. unfold exec_times_out in Hto. apply andb_true_iff in Hto. destruct Hto as [Hc He].
  rewrite Hc.
  destruct (fg_end cfg (helper_run rest (s_in st) (s_env st) (s_cd st) (s_fs st))) eqn:E; try discriminate.
  eexists. intros neg. simpl. reflexivity.
Qed.

(* the deadline reached while a sleeping helper runs in the foreground *)
Lemma sleeper_times_out cfg prog rest st :
  c_deadline cfg = true -> can_start cfg st prog = true ->
  h_sleeper (helper_run rest (s_in st) (s_env st) (s_cd st) (s_fs st)) = true ->
  exec_times_out cfg (prog :: rest) st = true.
Proof.
  intros Hd Hc Hs. unfold exec_times_out, fg_end. rewrite Hc, Hd, Hs. destruct (c_cancelled cfg); reflexivity.
Qed.

(* without a deadline and with a live context nothing is ever stopped by testscript *)
Lemma no_deadline_no_timeout cfg args st :
  c_deadline cfg = false -> c_cancelled cfg = false -> exec_times_out cfg args st = false.
Proof.
  intros Hd Hc. unfold exec_times_out, fg_end. destruct args as [|prog rest]; [reflexivity|].
  rewrite Hd, Hc. simpl. destruct (can_start cfg st prog); [|reflexivity]. simpl.
  destruct (N.eqb _ 0); reflexivity.
Qed.

Lemma exec_is_cmd_exec cfg neg args st :
  ~ (neg = true /\ In [x65; x78; x65; x63] neg_rejecting_cmds) ->
  cmd_sem cfg (CBuiltin [x65; x78; x65; x63]) neg args st = cmd_exec cfg neg args st.
Proof.
  intros H. simpl. unfold builtin_sem.
  destruct (neg && mem_bytes [x65; x78; x65; x63] neg_rejecting_cmds) eqn:E.
  - exfalso. apply H. apply andb_true_iff in E. destruct E as [-> E]. apply mem_bytes_In in E. auto.
  - reflexivity.
Qed.

Lemma lookup_main cfg name : In name (c_main_cmds cfg) -> lookup_cmd cfg name = Some (CMain name).
Proof. intros H. unfold lookup_cmd. apply mem_bytes_In in H. rewrite H. reflexivity. Qed.

Lemma lookup_builtin cfg name :
  In name script_cmd_names -> ~ In name (c_main_cmds cfg) -> lookup_cmd cfg name = Some (CBuiltin name).
Proof.
  intros Hin Hm. unfold lookup_cmd.
  destruct (mem_bytes name (c_main_cmds cfg)) eqn:E; [apply mem_bytes_In in E; tauto|].
  apply mem_bytes_In in Hin. rewrite Hin. reflexivity.
Qed.

(* for exactly the commands the generated table lists, a line `! cmd ...` whose guards hold
   fails and changes nothing *)
Theorem neg_unsupported_fails cfg st line name args :
  In name neg_rejecting_cmds ->
  reaches cfg st line true (CBuiltin name) args ->
  run_line cfg st line = Failed st.
Proof.
  intros Hin Hr. rewrite (run_line_reaches _ _ _ _ _ _ Hr). simpl. apply builtin_rejects_neg. exact Hin.
Qed.

(* every key of the table that rejects "!" is a key of scriptCmds *)
Lemma neg_rejecting_are_cmds : forall name, In name neg_rejecting_cmds -> In name script_cmd_names.
Proof.
  assert (forallb (fun n => mem_bytes n script_cmd_names) neg_rejecting_cmds = true) as H by reflexivity.
  intros name Hin. rewrite forallb_forall in H. apply mem_bytes_In. apply H. exact Hin.
Qed.

Theorem cli_exit_iff cfg batch :
  cli_exit cfg batch = 0%N <->
  forall j, In j batch -> forall n, r_verdict (run_file cfg (j_work j) (j_env j) (j_file j)) <> Fail n.
Proof.
  unfold cli_exit, batch_verdicts.
  destruct (existsb is_fail _) eqn:E.
  - split; [discriminate|]. intros H. exfalso.
    apply existsb_exists in E. destruct E as [v [Hin Hv]].
    apply in_map_iff in Hin. destruct Hin as [j [Hj Hin]].
    destruct v; try discriminate. apply (H j Hin line). exact Hj.
  - split; [|reflexivity]. intros _ j Hin n Hv.
    assert (existsb is_fail (map (fun j => r_verdict (run_file cfg (j_work j) (j_env j) (j_file j))) batch) = true) as C.
    { apply existsb_exists. exists (Fail n). split; [|reflexivity].
      apply in_map_iff. exists j. split; [exact Hv|exact Hin]. }
    rewrite C in E. discriminate.
Qed.

Theorem cli_exit_01 cfg batch : cli_exit cfg batch = 0%N \/ cli_exit cfg batch = 1%N.
Proof. unfold cli_exit. destruct (existsb _ _); auto. Qed.

(* the hypotheses of the theorems above are satisfiable, on concrete scripts *)
Module Examples.
Import String.
Local Open Scope string_scope.
Local Open Scope list_scope.
Definition b (s : string) : bytes := list_byte_of_string s.
Definition nl : string := String (Ascii.ascii_of_nat 10) EmptyString.
Definition script (ls : list string) : bytes := List.concat (List.map (fun l => b (String.append l nl)) ls).

Definition cfg0 (coe : bool) : config :=
  {| c_continue := coe; c_explicit_exec := false; c_unique := false; c_update := false;
     c_host_conds := []; c_goos := b "linux"; c_goarch := b "amd64"; c_go_minor := 23;
     c_custom_cond := None; c_cmds := [(b "probe", CProbe)]; c_main_cmds := [b "tshelper"];
     c_helper := b "tshelper"; c_helper_dir := b "/h"; c_watch := [b "X"]; c_deadline := false; c_cancelled := false |}.
Definition env0 : list (bytes * bytes) := [(b "WORK", b "/w"); (b "PATH", b "/h")].
Definition run (coe : bool) (ls : list string) : run_result :=
  run_file (cfg0 coe) (b "/w") env0 (script ls).

(* a passing script: guards, negation, the helper, stop in front of a line that would fail *)
Definition s_pass := ["mkdir d"; "[windows] exists nope"; "! exists nope"; "exec tshelper echo hi";
                      "stdout ^hi$"; "! exec tshelper exit 3"; "stop"; "exists nope"].
Example ex_pass : r_verdict (run false s_pass) = Pass.
Proof. vm_compute. reflexivity. Qed.

(* by verdict_pass_iff the declarative predicate holds of it: all_met is inhabited *)
Definition st_pass : state := fst (setup (cfg0 false) (b "/w") env0 (parse (script s_pass))).
Example ex_all_met : exists stF, all_met (cfg0 false) (script_lines (script s_pass)) 0 false st_pass stF.
Proof. apply verdict_pass_iff. vm_compute. reflexivity. Qed.

(* a failing script: line 2 is the first unmet demand; line 3 leaves no trace *)
Definition s_fail := ["mkdir d"; "exists nope"; "mkdir e"].
Example ex_fail : r_verdict (run false s_fail) = Fail 2 /\ r_fail_lines (run false s_fail) = [2]
  /\ stat (s_fs (r_final (run false s_fail))) (b "/w/d") <> None
  /\ stat (s_fs (r_final (run false s_fail))) (b "/w/e") = None.
Proof. vm_compute. repeat split; discriminate. Qed.

(* with ContinueOnError line 3 runs and the run still fails at line 2 *)
Example ex_continue : r_verdict (run true s_fail) = Fail 2
  /\ stat (s_fs (r_final (run true s_fail))) (b "/w/e") <> None.
Proof. vm_compute. split; [reflexivity|discriminate]. Qed.

(* a failed line followed by skip is a failure, not a skip (the corrected behaviour of TsRun.v) *)
Example ex_continue_skip : r_verdict (run true ["exists nope"; "skip"]) = Fail 1.
Proof. vm_compute. reflexivity. Qed.
Example ex_skip : r_verdict (run false ["skip"; "exists nope"]) = Skip.
Proof. vm_compute. reflexivity. Qed.

(* background commands: skip checks the status of what it interrupts *)
Example ex_bg_skip_fails : r_verdict (run false ["exec tshelper sleep &"; "skip"]) = Fail 2.
Proof. vm_compute. reflexivity. Qed.
Example ex_bg_neg_skip : r_verdict (run false ["! exec tshelper sleep &"; "skip"]) = Skip.
Proof. vm_compute. reflexivity. Qed.

(* unknown command, unknown condition, unsupported negation *)
Example ex_unknown : r_verdict (run false ["frobnicate"]) = Fail 1
  /\ r_verdict (run false ["[nosuchcond] mkdir d"]) = Fail 1
  /\ r_verdict (run false ["! mkdir d"]) = Fail 1.
Proof. vm_compute. auto. Qed.

(* exit status of cmd/testscript over a batch *)
Example ex_cli :
  cli_exit (cfg0 false) [{| j_work := b "/w"; j_env := env0; j_file := script s_pass |};
                         {| j_work := b "/w"; j_env := env0; j_file := script ["skip"] |}] = 0%N
  /\ cli_exit (cfg0 false) [{| j_work := b "/w"; j_env := env0; j_file := script s_pass |};
                            {| j_work := b "/w"; j_env := env0; j_file := script s_fail |}] = 1%N.
Proof. vm_compute. auto. Qed.

(* fg_args is satisfiable and neg_flips_exec is not vacuous *)
Example ex_fg_args : fg_args [b "tshelper"; b "exit"; b "3"].
Proof. split; [discriminate|reflexivity]. Qed.
End Examples.

(* a command registered through testscript.Main and used without `exec` fails, changing
   nothing, when RequireExplicitExec is set -- with or without "!" ... *)
Theorem explicit_exec_required cfg st line neg name args :
  c_explicit_exec cfg = true -> In name (c_main_cmds cfg) ->
  reaches cfg st line neg (CMain name) args ->
  run_line cfg st line = Failed st.
Proof.
  intros He Hin Hr. rewrite (run_line_reaches _ _ _ _ _ _ Hr). simpl. rewrite He. reflexivity.
Qed.

(* ... and behaves exactly like `exec name args` when it is not *)
Theorem explicit_exec_not_required cfg name neg args st :
  c_explicit_exec cfg = false ->
  cmd_sem cfg (CMain name) neg args st = cmd_exec cfg neg (name :: args) st.
Proof. intros He. simpl. rewrite He. reflexivity. Qed.

(* `exec name` itself is never affected by the flag *)
Theorem explicit_exec_irrelevant_for_exec cfg cfg' neg args st :
  (forall prog, can_start cfg st prog = can_start cfg' st prog) ->
  (forall prog, prog_found cfg st prog = prog_found cfg' st prog) ->
  c_deadline cfg = c_deadline cfg' -> c_cancelled cfg = c_cancelled cfg' -> c_continue cfg = c_continue cfg' ->
  cmd_exec cfg neg args st = cmd_exec cfg' neg args st.
Proof.
  intros H Hp Hd Hc Hk. unfold cmd_exec, fg_end, fg_racy, start_failed_state. rewrite Hd, Hc, Hk. destruct args as [|prog rest]; [reflexivity|].
  destruct (bg_spec _); [destruct rest; [reflexivity|]; destruct (find_bg _ _); [reflexivity|]|]; rewrite H, Hp; reflexivity.
Qed.

(* O_EXCL: what lstat finds cannot be created *)
Lemma write_file_excl_taken t p data perm : lstat t p <> None -> write_file_excl t p data perm = None.
Proof.
  unfold write_file_excl, lstat. intros Hl.
  destruct (ends_in_slash p || ends_in_dots p); [reflexivity|].
  destruct (resolve t false p) as [[|c q]|]; try reflexivity.
  destruct (node_at t (c :: q)); [reflexivity|]. contradiction.
Qed.

(* with the flag an entry whose path is already taken (by an earlier entry of the same name,
   by a file, a directory or a link) makes setup fail: FAIL file:0 whatever ContinueOnError says *)
Theorem unique_names_step st work name data r t1 :
  let p := mkabs st (expand (s_env st) name) in
  mkdir_all (s_fs st) (dir p) 511 = (t1, true) ->
  lstat t1 p <> None ->
  snd (unpack true work ((name, data) :: r) st) = false.
Proof.
  intros p Hm Hl. cbn [unpack]. fold p. destruct (beneath work p); [|reflexivity]. cbn [negb].
  change (s_fs (set_files st (assoc_set (s_files st) (clean p) name))) with (s_fs st).
  rewrite Hm, (write_file_excl_taken _ _ _ _ Hl). reflexivity.
Qed.

Theorem setup_failure_is_fail_0 cfg work env a st :
  setup cfg work env a = (st, false) ->
  r_verdict (run_archive cfg work env a) = Fail 0 /\ r_fail_lines (run_archive cfg work env a) = [0].
Proof. intros H. unfold run_archive. rewrite H. auto. Qed.

(* one unpacking step that succeeds: the entry is written at the EXPANDED location [p] and
   registered there under the name it has in the archive *)
Theorem unpack_step st work (u : bool) name data r t1 t2 :
  let p := mkabs st (expand (s_env st) name) in
  beneath work p = true ->
  mkdir_all (s_fs st) (dir p) 511 = (t1, true) ->
  (if u then write_file_excl t1 p data 438 else write_file t1 p data 438) = Some t2 ->
  unpack u work ((name, data) :: r) st
  = unpack u work r (set_fs (set_files st (assoc_set (s_files st) (clean p) name)) t2).
Proof.
  intros p Hb Hm Hw. cbn [unpack]. fold p. rewrite Hb. cbn [negb].
  change (s_fs (set_files st (assoc_set (s_files st) (clean p) name))) with (s_fs st). rewrite Hm, Hw. reflexivity.
Qed.

(* without the flag a later entry of the same name silently replaces the earlier one *)
Theorem non_unique_overwrites st work name data r t1 t2 :
  let p := mkabs st (expand (s_env st) name) in
  beneath work p = true ->
  mkdir_all (s_fs st) (dir p) 511 = (t1, true) ->
  write_file t1 p data 438 = Some t2 ->
  unpack false work ((name, data) :: r) st
  = unpack false work r (set_fs (set_files st (assoc_set (s_files st) (clean p) name)) t2).
Proof. intros p Hb Hm Hw. exact (unpack_step st work false name data r t1 t2 Hb Hm Hw). Qed.

(* an entry whose expanded name is not the work directory or below it: setup stops there, the
   state (tree, scriptFiles) is the one the earlier entries left *)
Theorem escaping_name_stops_unpack st work u name data r :
  beneath work (mkabs st (expand (s_env st) name)) = false ->
  unpack u work ((name, data) :: r) st = (st, false).
Proof. intros Hb. cbn [unpack]. rewrite Hb. reflexivity. Qed.

Fixpoint no_dollar (d : bytes) : bool :=
  match d with [] => true | c :: r => negb (beq c x24) && no_dollar r end.

Lemma expand_fuel_no_dollar env d : forall fuel, length d < fuel -> no_dollar d = true -> expand_fuel fuel env d = d.
Proof.
  induction d as [|c r IH]; intros fuel Hf Hn.
  - destruct fuel; reflexivity.
  - destruct fuel as [|f]; [inversion Hf|]. cbn [no_dollar] in Hn. apply andb_true_iff in Hn. destruct Hn as [Hc Hr].
    cbn [expand_fuel]. apply negb_true_iff in Hc. rewrite Hc. f_equal. apply IH; [simpl in Hf; apply Nat.succ_lt_mono; exact Hf|exact Hr].
Qed.

(* os.Expand on a text without '$' is the identity *)
Lemma expand_no_dollar env d : no_dollar d = true -> expand env d = d.
Proof. intros H. unfold expand. apply expand_fuel_no_dollar; [apply Nat.lt_succ_diag_r|exact H]. Qed.

Definition work_ref : bytes := (* "$WORK" *) [x24; x57; x4f; x52; x4b].
Definition work_key : bytes := (* "WORK" *) [x57; x4f; x52; x4b].

Lemma expand_fuel_dollar env f c r :
  expand_fuel (S f) env (x24 :: c :: r)
  = (match fst (shell_name (c :: r)) with
     | [] => if Nat.eqb (snd (shell_name (c :: r))) 0 then [x24] else []
     | _ => expand_var env (fst (shell_name (c :: r)))
     end) ++ expand_fuel f env (skipn (snd (shell_name (c :: r))) (c :: r)).
Proof. cbn [expand_fuel]. change (beq x24 x24) with true. cbv iota. destruct (shell_name (c :: r)) as [nm w]. reflexivity. Qed.

Lemma shell_name_work q : shell_name (x57 :: x4f :: x52 :: x4b :: SLASH :: q) = (work_key, 4).
Proof. reflexivity. Qed.

(* "$WORK/q" (q without '$') expands to the value of WORK followed by "/q" *)
Theorem expand_work_named env q :
  no_dollar q = true ->
  expand env (work_ref ++ [SLASH] ++ q) = getenv env work_key ++ [SLASH] ++ q.
Proof.
  intros Hq. unfold expand.
  change (work_ref ++ [SLASH] ++ q) with (x24 :: x57 :: x4f :: x52 :: x4b :: SLASH :: q).
  rewrite expand_fuel_dollar, shell_name_work. cbn [fst snd skipn work_key].
  unfold expand_var. change (strip_at_r [x57; x4f; x52; x4b]) with (@None bytes). cbv iota.
  f_equal. apply expand_fuel_no_dollar; [cbn [app length]; lia|exact Hq].
Qed.

(* ... so an entry named $WORK/q is unpacked at <work>/q and registered under that path, cleaned -- with the
   name "$WORK/q" it has in the archive as the value update mode writes back *)
Theorem work_named_entry st work (u : bool) q data r t1 t2 :
  let name := work_ref ++ [SLASH] ++ q in
  let p := getenv (s_env st) work_key ++ [SLASH] ++ q in
  no_dollar q = true ->
  is_abs (getenv (s_env st) work_key) = true ->
  beneath work p = true ->
  mkdir_all (s_fs st) (dir p) 511 = (t1, true) ->
  (if u then write_file_excl t1 p data 438 else write_file t1 p data 438) = Some t2 ->
  exists st', unpack u work ((name, data) :: r) st = unpack u work r st'
    /\ s_fs st' = t2 /\ assoc_get (s_files st') (clean p) = Some name.
Proof.
  intros name p Hq Ha Hb Hm Hw.
  assert (mkabs st (expand (s_env st) name) = p) as Hp.
  { unfold name. rewrite (expand_work_named _ q Hq). fold p. unfold mkabs.
    assert (is_abs p = true) as ->; [|reflexivity].
    unfold p. destruct (getenv (s_env st) work_key) as [|c w]; [discriminate|]. exact Ha. }
  exists (set_fs (set_files st (assoc_set (s_files st) (clean p) name)) t2). split; [|split].
  - rewrite <- Hp in Hb, Hm, Hw |- *. exact (unpack_step st work u name data r t1 t2 Hb Hm Hw).
  - reflexivity.
  - cbn [s_files set_fs set_files]. rewrite assoc_get_set, bytes_eqb_refl. reflexivity.
Qed.

Module ParamsExamples.
Import String.
Local Open Scope string_scope.
Local Open Scope list_scope.
Import Examples.
Definition cfgp (ree uniq : bool) : config :=
  {| c_continue := true; c_explicit_exec := ree; c_unique := uniq; c_update := false;
     c_host_conds := []; c_goos := b "linux"; c_goarch := b "amd64"; c_go_minor := 23; c_custom_cond := None; c_cmds := []; c_main_cmds := [b "tshelper"];
     c_helper := b "tshelper"; c_helper_dir := b "/h"; c_watch := []; c_deadline := false; c_cancelled := false |}.
Definition dup := script ["exists a.txt"; "-- a.txt --"; "one"; "-- a.txt --"; "two"].
(* a duplicate entry name: setup fails (line 0) with the flag, even under ContinueOnError;
   without it the later entry wins *)
Example ex_unique :
  r_verdict (run_file (cfgp false true) (b "/w") env0 dup) = Fail 0
  /\ r_verdict (run_file (cfgp false false) (b "/w") env0 dup) = Pass
  /\ read_file (s_fs (r_final (run_file (cfgp false false) (b "/w") env0 dup))) (b "/w/a.txt") = Some (b ("two" ++ nl)).
Proof. vm_compute. repeat split; reflexivity. Qed.
(* a registered command without exec *)
Example ex_explicit_exec :
  r_verdict (run_file (cfgp true false) (b "/w") env0 (script ["tshelper echo hi"])) = Fail 1
  /\ r_verdict (run_file (cfgp true false) (b "/w") env0 (script ["exec tshelper echo hi"; "stdout hi"])) = Pass
  /\ r_verdict (run_file (cfgp false false) (b "/w") env0 (script ["tshelper echo hi"; "stdout hi"])) = Pass.
Proof. vm_compute. repeat split; reflexivity. Qed.
End ParamsExamples.

(* a key of scriptCmds is the built-in whatever Params.Cmds holds under that name ... *)
Theorem builtin_shadows_custom cfg name k :
  In name script_cmd_names -> ~ In name (c_main_cmds cfg) ->
  assoc_kind (c_cmds cfg) name = Some k ->
  lookup_cmd cfg name = Some (CBuiltin name).
Proof. intros Hin Hm _. apply lookup_builtin; assumption. Qed.

(* ... and so is a command registered through testscript.Main *)
Theorem main_shadows_custom cfg name k :
  In name (c_main_cmds cfg) -> assoc_kind (c_cmds cfg) name = Some k ->
  lookup_cmd cfg name = Some (CMain name).
Proof. intros Hin _. apply lookup_main. exact Hin. Qed.

(* a custom command is reached exactly for the other names *)
Theorem custom_reached_iff cfg name k :
  lookup_cmd cfg name = Some (CCustom k) <->
  ~ In name (c_main_cmds cfg) /\ ~ In name script_cmd_names /\ assoc_kind (c_cmds cfg) name = Some k.
Proof.
  unfold lookup_cmd. split.
  - destruct (mem_bytes name (c_main_cmds cfg)) eqn:E1; [discriminate|].
    destruct (mem_bytes name script_cmd_names) eqn:E2; [discriminate|].
    destruct (assoc_kind (c_cmds cfg) name) eqn:E3; [|discriminate]. intros H. inversion H; subst.
    repeat split; auto; intros Hin; apply mem_bytes_In in Hin; congruence.
  - intros [H1 [H2 H3]].
    destruct (mem_bytes name (c_main_cmds cfg)) eqn:E1; [apply mem_bytes_In in E1; tauto|].
    destruct (mem_bytes name script_cmd_names) eqn:E2; [apply mem_bytes_In in E2; tauto|].
    rewrite H3. reflexivity.
Qed.

(* a line whose command is a foreground exec that times out does not meet its demand, "!" or not *)
Theorem timeout_line_unmet cfg st line neg args :
  reaches cfg st line neg (CBuiltin exec_name) args -> fg_args args ->
  exec_times_out cfg args st = true -> unmet cfg st line.
Proof.
  intros Hr Hfg Hto. apply line_failed_iff. rewrite (run_line_reaches _ _ _ _ _ _ Hr).
  change (cmd_sem cfg (CBuiltin exec_name) neg args st) with (builtin_sem cfg exec_name neg args st).
  unfold builtin_sem. destruct (neg && mem_bytes exec_name neg_rejecting_cmds); [eexists; reflexivity|].
  change (exists st', cmd_exec cfg neg args st = Failed st').
  destruct (neg_does_not_excuse_timeout cfg args st Hfg Hto) as [s Hs]. exists s. apply Hs.
Qed.

(* the same for a command registered through testscript.Main and used without `exec` *)
Theorem timeout_main_line_unmet cfg st line neg name args :
  reaches cfg st line neg (CMain name) args -> fg_args (name :: args) ->
  exec_times_out cfg (name :: args) st = true -> unmet cfg st line.
Proof.
  intros Hr Hfg Hto. apply line_failed_iff. rewrite (run_line_reaches _ _ _ _ _ _ Hr). simpl.
  destruct (c_explicit_exec cfg); [eexists; reflexivity|].
  destruct (neg_does_not_excuse_timeout cfg (name :: args) st Hfg Hto) as [s Hs]. exists s. apply Hs.
Qed.

(* hence the run is reported as failed at that very line, and nothing behind it runs *)
Theorem timeout_fails_run cfg text st0 pre l post st1 neg args :
  c_continue cfg = false ->
  script_lines text = pre ++ l :: post -> lines_met cfg pre 0 false st0 st1 -> is_comment l = false ->
  reaches cfg (at_line (S (length pre)) false st1) l neg (CBuiltin exec_name) args -> fg_args args ->
  exec_times_out cfg args (at_line (S (length pre)) false st1) = true ->
  r_verdict (run_script cfg text st0) = Fail (S (length pre))
  /\ r_fail_lines (run_script cfg text st0) = [S (length pre)].
Proof.
  intros Hc Hsplit Hmet Hcom Hr Hfg Hto.
  pose proof (timeout_line_unmet _ _ _ _ _ Hr Hfg Hto) as Hun.
  assert (run_script cfg text st0
          = {| r_verdict := Fail (S (length pre));
               r_final := line_effects cfg (at_line (S (length pre)) false st1) l;
               r_fail_lines := [S (length pre)] |}) as ->.
  { apply verdict_fail_first; [exact Hc|]. exists pre, l, post, st1.
    split; [exact Hsplit|]. split; [reflexivity|]. split; [exact Hmet|]. split; [exact Hcom|].
    split; [exact Hun|reflexivity]. }
  split; reflexivity.
Qed.

(* `wait` blocked on a command that only the deadline ends fails, whatever polarity that
   command (or any other) was started with *)
Theorem wait_timeout_fails cfg st :
  wait_times_out cfg (s_bg st) = true -> cmd_wait cfg [] st = Failed (timed_out_state cfg st).
Proof. intros H. unfold cmd_wait. rewrite H. reflexivity. Qed.

Theorem wait_named_timeout_fails cfg st n bg :
  find_bg (s_bg st) n = Some bg -> c_deadline cfg = true -> running_sleeper bg = true ->
  cmd_wait cfg [n] st = Failed (timed_out_state cfg st).
Proof.
  intros Hf Hd Hs. unfold cmd_wait, wait_times_out. rewrite Hf, Hd. simpl. rewrite Hs. reflexivity.
Qed.

Lemma wait_no_deadline cfg args st :
  c_deadline cfg = false ->
  cmd_wait cfg args st = match args with [] => wait_all true st | [n] => wait_one n st | _ => Failed st end.
Proof.
  intros Hd. unfold cmd_wait, wait_times_out. rewrite Hd. simpl.
  destruct args as [|a [|b r]]; try reflexivity. destruct (find_bg _ _); reflexivity.
Qed.

(* several scripts in one RunT call, subtests run one after the other: the context is
   cancelled by the last subtest only, so every verdict is the verdict of that script alone *)

Lemma cfg_ctx_same cfg : c_cancelled cfg = false -> cfg_ctx cfg false = cfg.
Proof. intros H. destruct cfg. simpl in *. subst. reflexivity. Qed.

Lemma seq_verdicts_live cfg : c_cancelled cfg = false ->
  forall jobs refc, length jobs <= refc -> seq_verdicts cfg refc false jobs = batch_verdicts cfg jobs.
Proof.
  intros Hc. induction jobs as [|j r IH]; intros refc Hl; [reflexivity|].
  simpl in *. rewrite (cfg_ctx_same cfg Hc). f_equal.
  destruct (Nat.eqb (pred refc) 0) eqn:E.
  - apply Nat.eqb_eq in E. destruct r as [|j2 r2]; [reflexivity|]. simpl in Hl. lia.
  - apply IH. lia.
Qed.

Theorem verdict_independent_of_batch cfg jobs :
  c_cancelled cfg = false -> runT_seq cfg jobs = batch_verdicts cfg jobs.
Proof. intros Hc. apply seq_verdicts_live; [exact Hc|]. unfold runT_seq. lia. Qed.

(* position by position: what stands before or behind a script in the batch is irrelevant *)
Theorem verdict_independent_of_batch_nth cfg pre j post :
  c_cancelled cfg = false ->
  nth_error (runT_seq cfg (pre ++ j :: post)) (length pre)
  = Some (r_verdict (run_file cfg (j_work j) (j_env j) (j_file j))).
Proof.
  intros Hc. rewrite verdict_independent_of_batch by exact Hc. unfold batch_verdicts.
  rewrite map_app. rewrite nth_error_app2; rewrite map_length; [|lia].
  rewrite Nat.sub_diag. reflexivity.
Qed.

(* a T that runs the subtests in another order (in parallel: in any order of completion) *)
Theorem verdict_independent_of_order cfg jobs jobs' :
  c_cancelled cfg = false -> Permutation jobs jobs' ->
  Permutation (runT_seq cfg jobs) (runT_seq cfg jobs').
Proof.
  intros Hc Hp. rewrite !verdict_independent_of_batch by exact Hc. unfold batch_verdicts.
  apply Permutation_map. exact Hp.
Qed.

Module DeadlineExamples.
Import String.
Local Open Scope string_scope.
Local Open Scope list_scope.
Import Examples.
Definition cfgd (coe dl : bool) : config :=
  {| c_continue := coe; c_explicit_exec := false; c_unique := false; c_update := false;
     c_host_conds := []; c_goos := b "linux"; c_goarch := b "amd64"; c_go_minor := 23; c_custom_cond := None; c_cmds := []; c_main_cmds := [b "tshelper"];
     c_helper := b "tshelper"; c_helper_dir := b "/h"; c_watch := []; c_deadline := dl; c_cancelled := false |}.
Definition rund (dl : bool) (ls : list string) : run_result := run_file (cfgd false dl) (b "/w") env0 (script ls).

(* a hung command under "!": stopped by the deadline, the run fails at that line and the
   marker behind it is never made; the same command failing by itself satisfies "!" *)
Definition s_neg_sleep := ["mkdir before"; "! exec tshelper sleep"; "mkdir after"].
Example ex_neg_timeout :
  r_verdict (rund true s_neg_sleep) = Fail 2 /\ r_fail_lines (rund true s_neg_sleep) = [2]
  /\ stat (s_fs (r_final (rund true s_neg_sleep))) (b "/w/after") = None
  /\ r_verdict (rund true ["! exec tshelper exit 3"; "mkdir after"]) = Pass.
Proof. vm_compute. repeat split; reflexivity. Qed.
Example ex_plain_timeout : r_verdict (rund true ["exec tshelper sleep"]) = Fail 1.
Proof. vm_compute. reflexivity. Qed.
(* the hypotheses of neg_does_not_excuse_timeout are satisfiable *)
Definition st_sleep : state := fst (setup (cfgd false true) (b "/w") env0 (parse (script s_neg_sleep))).
Example ex_times_out :
  fg_args [b "tshelper"; b "sleep"] /\ exec_times_out (cfgd false true) [b "tshelper"; b "sleep"] st_sleep = true
  /\ exec_times_out (cfgd false false) [b "tshelper"; b "sleep"] st_sleep = false
  /\ exec_times_out (cfgd false true) [b "tshelper"; b "exit"; b "3"] st_sleep = false.
Proof. vm_compute. repeat split; congruence. Qed.
(* background commands: `wait` fails at its own line for both polarities, named or not *)
Example ex_wait_timeout :
  r_verdict (rund true ["exec tshelper sleep &"; "mkdir m"; "wait"; "mkdir after"]) = Fail 3
  /\ r_verdict (rund true ["! exec tshelper sleep &"; "wait"]) = Fail 2
  /\ r_verdict (rund true ["! exec tshelper sleep &a&"; "exec tshelper echo x &b&"; "wait b"; "wait a"]) = Fail 4
  /\ r_verdict (rund true ["! exec tshelper sleep &"; "kill"; "wait"]) = Pass
  /\ r_verdict (rund true ["exec tshelper sleep &"]) = Pass.
Proof. vm_compute. repeat split; reflexivity. Qed.

(* batches: the count starts at the number of scripts ... *)
Definition job_of (ls : list string) : job := {| j_work := b "/w"; j_env := env0; j_file := script ls |}.
Definition two := [job_of ["exec tshelper echo one"]; job_of ["exec tshelper echo two"; "stdout two"]].
Example ex_batch : runT_seq (cfgd false false) two = [Pass; Pass].
Proof. vm_compute. reflexivity. Qed.
(* ... started any lower, the first script to end cancels the context under the second one,
   whose exec then fails although every line of it meets its demand when it runs alone *)
Example ex_batch_low_count :
  seq_verdicts (cfgd false false) 1 false two = [Pass; Fail 1]
  /\ batch_verdicts (cfgd false false) two = [Pass; Pass].
Proof. vm_compute. split; reflexivity. Qed.
End DeadlineExamples.
