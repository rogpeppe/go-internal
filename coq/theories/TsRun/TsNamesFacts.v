(* Archive entry names (C01 setup, C16 scriptFiles): setup() expands every name with the initial
   variables, refuses a name that leaves the work directory, unpacks the file at the expanded
   location and registers it there under the name AS WRITTEN in the archive; no script line ever
   changes that table; update mode records under registered names only, so the only entries it
   ever rewrites are entries of the archive, addressed by location and written back under their
   original names.  Proofs; the definitions are in TsRun.v (unpack, beneath, setup). *)
From Coq Require Import List Bool Arith NArith Lia.
From Coq.Strings Require Import Byte.
From GI Require Import Lib.Bytes Lib.BytesFacts Gen.TsRunConsts Txtar.Txtar Txtar.TxtarFacts
  TsRun.TsFs TsRun.TsRegex TsRun.TsState TsRun.TsCmds TsRun.TsRun TsRun.TsSpec TsRun.TsRunFacts
  TsRun.TsUpdate TsRun.TsUpdateFacts TsRun.TsRerun TsRun.TsRerunFacts.
Import ListNotations.

Lemma unpack_env_cd u work fs st :
  s_env (fst (unpack u work fs st)) = s_env st /\ s_cd (fst (unpack u work fs st)) = s_cd st.
Proof. destruct (unpack_frame u work fs st) as (F & t & ->). split; reflexivity. Qed.

Lemma unpack_app u work : forall pre rest st,
  unpack u work (pre ++ rest) st
  = (let '(st', ok) := unpack u work pre st in if ok then unpack u work rest st' else (st', false)).
Proof.
  induction pre as [|[n d] r IH]; intros rest st; cbn [app unpack].
  - destruct (unpack u work rest st). reflexivity.
  - destruct (negb (beneath work _)); [reflexivity|].
    destruct (mkdir_all _ _ _) as [t1 [|]]; [|reflexivity].
    destruct (if u then _ else _) as [t2|]; [|reflexivity].
    apply IH.
Qed.

(* where an entry goes: its name expanded with the initial variables, made absolute below
   the work directory *)
Definition location (work : bytes) (env : list (bytes * bytes)) (name : bytes) : bytes :=
  let x := expand env name in if is_abs x then x else join2 work x.

Lemma mkabs_location st name : mkabs st (expand (s_env st) name) = location (s_cd st) (s_env st) name.
Proof. reflexivity. Qed.

(* an entry whose location is outside the work directory: setup fails at that entry (FAIL file:0
   whatever ContinueOnError says); the state is the one the entries in front of it left, so neither
   this entry nor any behind it is written or registered *)
Theorem escaping_name_fails_setup cfg work env a pre name data post t st :
  files a = pre ++ (name, data) :: post ->
  mkdir_all [] (work ++ [x2f; x2e; x74; x6d; x70]) 511 = (t, true) ->
  unpack (c_unique cfg) work pre (empty_state env work t) = (st, true) ->
  beneath work (location work env name) = false ->
  setup cfg work env a = (st, false)
  /\ r_verdict (run_archive cfg work env a) = Fail 0
  /\ r_fail_lines (run_archive cfg work env a) = [0].
Proof.
  intros Hf Hm Hp Hb.
  assert (setup cfg work env a = (st, false)) as Hs.
  { unfold setup. rewrite Hm, Hf, unpack_app, Hp.
    apply escaping_name_stops_unpack.
    destruct (unpack_env_cd (c_unique cfg) work pre (empty_state env work t)) as [He Hc].
    rewrite Hp in He, Hc. cbn [fst] in He, Hc. rewrite mkabs_location, He, Hc. exact Hb. }
  split; [exact Hs|]. apply (setup_failure_is_fail_0 _ _ _ _ _ Hs).
Qed.

(* scriptFiles after setup: every key is the location of its entry, cleaned (filepath.Clean),
   that location is inside the work directory, and every value is the name of an entry exactly as
   the archive spells it *)
Definition files_ok (work : bytes) (env : list (bytes * bytes)) (names : list bytes) (F : list (bytes * bytes)) : Prop :=
  forall p e, assoc_get F p = Some e ->
    In e names /\ p = clean (location work env e) /\ beneath work (location work env e) = true.

Lemma unpack_files_ok u work names : forall fs st,
  s_cd st = work -> incl (map fst fs) names ->
  files_ok work (s_env st) names (s_files st) ->
  files_ok work (s_env st) names (s_files (fst (unpack u work fs st))).
Proof.
  induction fs as [|[n d] r IH]; intros st Hcd Hin Hok; cbn [unpack]; [exact Hok|].
  destruct (beneath work (mkabs st (expand (s_env st) n))) eqn:Hb; cbn [negb]; [|exact Hok].
  set (p := mkabs st (expand (s_env st) n)) in *.
  assert (files_ok work (s_env st) names (assoc_set (s_files st) (clean p) n)) as Hok'.
  { intros q e Hq. rewrite assoc_get_set in Hq. destruct (bytes_eqb q (clean p)) eqn:E.
    - apply bytes_eqb_eq in E. subst q. inversion Hq; subst e.
      split; [apply Hin; left; reflexivity|].
      unfold p in Hb |- *. rewrite mkabs_location, Hcd in Hb |- *. split; [reflexivity|exact Hb].
    - exact (Hok q e Hq). }
  destruct (mkdir_all _ _ _) as [t1 [|]]; [|exact Hok'].
  destruct (if u then _ else _) as [t2|]; [|exact Hok'].
  apply (IH (set_fs (set_files st (assoc_set (s_files st) (clean p) n)) t2)).
  - exact Hcd.
  - intros x Hx. apply Hin. right. exact Hx.
  - exact Hok'.
Qed.

Theorem setup_files_ok cfg work env a :
  files_ok work env (map fst (files a)) (s_files (fst (setup cfg work env a))).
Proof.
  unfold setup. destruct (mkdir_all [] _ 511) as [t [|]].
  - apply (unpack_files_ok (c_unique cfg) work (map fst (files a)) (files a) (empty_state env work t)).
    + reflexivity.
    + apply incl_refl.
    + intros p e H. discriminate H.
  - intros p e H. discriminate H.
Qed.

(* no script line changes the table ... *)
Theorem fil_run_line cfg st line : s_files (outcome_state (run_line cfg st line)) = s_files st.
Proof. exact (records_files _ _ _ (records_run_line cfg st line)). Qed.

Theorem fil_run_lines cfg : forall ls n f st, s_files (snd (fst (run_lines cfg ls n f st))) = s_files st.
Proof. intros ls n f st. apply (run_lines_tables cfg (fun _ => True)); auto. Qed.

(* ... in particular not mv, cp, rm or symlink: a file moved away from the location of an entry
   does not take the registration with it, and a file moved or linked there does not lose it *)
Theorem fil_tree_commands args st :
  s_files (outcome_state (cmd_mv args st)) = s_files st
  /\ s_files (outcome_state (cmd_cp args st)) = s_files st
  /\ s_files (outcome_state (cmd_rm args st)) = s_files st
  /\ s_files (outcome_state (cmd_symlink args st)) = s_files st.
Proof.
  repeat split; apply tables_eq; [apply tab_mv|apply tab_cp|apply tab_rm|apply tab_symlink].
Qed.

(* ... and update mode records under registered names only.
   The entries an update run may rewrite: whatever the script does (mv, cp, rm, symlink, cd ...),
   every name under which an update is recorded is the name of an entry exactly as the archive
   spells it ("$WORK/golden/out.txt", "./x", "a//b" stay what they are), and it was recorded by
   a cmp against the expanded location of such an entry *)
Theorem only_entries_updated cfg work env a e c :
  assoc_get (s_updates (r_final (run_archive cfg work env a))) e = Some c ->
  In e (map fst (files a))
  /\ exists p, assoc_get (s_files (fst (setup cfg work env a))) p = Some e
               /\ p = clean (location work env e) /\ beneath work (location work env e) = true.
Proof.
  unfold run_archive. intros H.
  pose proof (setup_files_ok cfg work env a) as Hok. pose proof (upd_setup cfg work env a) as Hu0.
  destruct (setup cfg work env a) as [st [|]]; cbn [fst] in *.
  - unfold run_script in H.
    destruct (run_lines_tables cfg
                (fun U => forall e c, assoc_get U e = Some c -> exists p, assoc_get (s_files st) p = Some e)
                (script_lines (comment a)) 0 false st) as [_ Hs].
    + intros _ U p e0 t Hp HU e1 c1. rewrite assoc_get_set. destruct (bytes_eqb e1 e0) eqn:E; [|apply HU].
      apply bytes_eqb_eq in E. subst e1. eauto.
    + intros e0 c0 Hq. rewrite Hu0 in Hq. discriminate Hq.
    + destruct (run_lines cfg (script_lines (comment a)) 0 false st) as [[k s] fl]. cbn [fst snd r_final] in *.
      destruct (Hs e c H) as [p Hp]. destruct (Hok p e Hp) as (Hin & Hloc & Hb). eauto.
  - cbn [r_final s_updates set_failed] in H. rewrite Hu0 in H. discriminate H.
Qed.

(* what a run writes: the archive with the recorded updates applied -- the same entry names in the
   same order (update_names) and the same script text *)
Theorem run_rewrites_named_entries_only cfg work env file d :
  f_change (run_file_full cfg work env file) = Rewritten d ->
  exists a', apply_updates (parse file) (s_updates (r_final (run_file cfg work env file))) = Some a'
    /\ d = format a'
    /\ map fst (files a') = map fst (files (parse file))
    /\ comment a' = comment (parse file).
Proof.
  unfold run_file_full, change_of, run_file. cbn [f_change].
  destruct (s_updates (r_final (run_archive cfg work env (parse file)))) as [|u us] eqn:EU; [discriminate|].
  destruct (apply_updates (parse file) (u :: us)) as [a'|] eqn:EA; [|discriminate].
  intros H. inversion H. exists a'. split; [reflexivity|]. split; [reflexivity|].
  split; [exact (update_names _ _ _ EA)|].
  unfold apply_updates in EA. destruct (update_files _ _); [|discriminate]. inversion EA. reflexivity.
Qed.

(* non-vacuity: the script of testscript/doc.go, whose golden entry is named $WORK/golden/out.txt *)
Module NamesExamples.
Import String.
Local Open Scope string_scope.
Local Open Scope list_scope.
Import TsRunFacts.Examples.

Definition cfgu : config :=
  {| c_continue := false; c_explicit_exec := false; c_unique := false; c_update := true;
     c_host_conds := []; c_goos := b "linux"; c_goarch := b "amd64"; c_go_minor := 23; c_custom_cond := None; c_cmds := []; c_main_cmds := [b "tshelper"];
     c_helper := b "tshelper"; c_helper_dir := b "/h"; c_watch := []; c_deadline := false; c_cancelled := false |}.
Definition env1 : list (bytes * bytes) := [(b "WORK", b "/w"); (b "PATH", b "/h"); (b "exe", b ""); (b "/", b "/")].

Definition f_doc := script ["exec tshelper echo new"; "cmp stdout golden/out.txt";
                            "-- $WORK/golden/out.txt --"; "old";
                            "-- ./sub//keep --"; "kept"].
Definition r_doc := run_file_full cfgu (b "/w") env1 f_doc.

(* the entry is unpacked at /w/golden/out.txt and registered there under "$WORK/golden/out.txt";
   the mismatching cmp addresses it by location, the run passes, and the file is rewritten with the
   new content under the names "$WORK/golden/out.txt" and "./sub//keep" exactly as they were *)
Example ex_doc_update :
  r_verdict (f_run r_doc) = Pass
  /\ assoc_get (s_files (r_final (f_run r_doc))) (b "/w/golden/out.txt") = Some (b "$WORK/golden/out.txt")
  /\ s_updates (r_final (f_run r_doc)) = [(b "$WORK/golden/out.txt", b ("new" ++ nl))]
  /\ f_change r_doc = Rewritten (script ["exec tshelper echo new"; "cmp stdout golden/out.txt";
                                         "-- $WORK/golden/out.txt --"; "new";
                                         "-- ./sub//keep --"; "kept"]).
Proof. vm_compute. repeat split; reflexivity. Qed.

(* names built from other initial variables: tool$exe.err, golden${/}x *)
Example ex_var_names :
  let r := run_file_full cfgu (b "/w") env1
             (script ["exists tool.err golden/x"; "-- tool$exe.err --"; "e"; "-- golden${/}x --"; "x"]) in
  r_verdict (f_run r) = Pass
  /\ assoc_get (s_files (r_final (f_run r))) (b "/w/golden/x") = Some (b "golden${/}x").
Proof. vm_compute. split; reflexivity. Qed.

(* names that leave the work directory: setup fails, FAIL file:0, nothing of the entry is written *)
Example ex_escaping :
  r_verdict (run_file cfgu (b "/w") env1 (script ["exists ok"; "-- ok --"; "1"; "-- ../x --"; "2"; "-- later --"; "3"])) = Fail 0
  /\ r_verdict (run_file cfgu (b "/w") env1 (script ["exists ok"; "-- /abs/x --"; "2"])) = Fail 0
  /\ r_verdict (run_file cfgu (b "/w") env1 (script ["exists ok"; "-- $HOME/x --"; "2"])) = Fail 0
  /\ r_verdict (run_file cfgu (b "/w") env1 (script ["exists ok"; "-- a/../../w2/x --"; "2"])) = Fail 0
  /\ r_verdict (run_file cfgu (b "/w") env1 (script ["exists a/x"; "-- a/../a/x --"; "2"])) = Pass
  /\ stat (s_fs (r_final (run_file cfgu (b "/w") env1 (script ["exists ok"; "-- ok --"; "1"; "-- ../x --"; "2"; "-- later --"; "3"])))) (b "/w/later") = None
  /\ stat (s_fs (r_final (run_file cfgu (b "/w") env1 (script ["exists ok"; "-- ok --"; "1"; "-- ../x --"; "2"; "-- later --"; "3"])))) (b "/x") = None.
Proof. vm_compute. repeat split; reflexivity. Qed.

(* the hypotheses of escaping_name_fails_setup and of work_named_entry are satisfiable *)
Example ex_escaping_hyps :
  beneath (b "/w") (location (b "/w") env1 (b "../x")) = false
  /\ beneath (b "/w") (location (b "/w") env1 (b "$WORK/golden/out.txt")) = true
  /\ beneath (b "/w") (location (b "/w") env1 (b "$WORK")) = true
  /\ beneath (b "/w") (location (b "/w") env1 (b "$WORK/../w2")) = false
  /\ beneath (b "/w") (b "/w2/x") = false.
Proof. vm_compute. repeat split; reflexivity. Qed.

(* mv does not carry the registration along: after `mv g.txt e.txt` a mismatching cmp against
   e.txt fails (e.txt is not an archive entry) and nothing is recorded *)
Example ex_mv_keeps_table :
  let r := run_file_full cfgu (b "/w") env1
             (script ["mv g.txt e.txt"; "exec tshelper echo new"; "cmp stdout e.txt"; "-- g.txt --"; "old"]) in
  r_verdict (f_run r) = Fail 3 /\ f_change r = Untouched.
Proof. vm_compute. split; reflexivity. Qed.

(* the table is keyed by the CLEANED path (a repaired defect: it used to be keyed by the path as
   written): an entry addressed as $WORK/./g.txt or $WORK/sub/../g.txt is the entry, and so is an
   entry NAMED $WORK/./g.txt when it is addressed as g.txt; it is rewritten under its own name *)
Example ex_cleaned_key :
  let r := run_file_full cfgu (b "/w") env1
             (script ["mkdir sub"; "exec tshelper echo new"; "cmp stdout $WORK/./g.txt"; "cmp stdout $WORK/sub/../g.txt"; "-- g.txt --"; "old"]) in
  let r2 := run_file_full cfgu (b "/w") env1
             (script ["exec tshelper echo new"; "cmp stdout g.txt"; "-- $WORK/./g.txt --"; "old"]) in
  r_verdict (f_run r) = Pass
  /\ f_change r = Rewritten (script ["mkdir sub"; "exec tshelper echo new"; "cmp stdout $WORK/./g.txt"; "cmp stdout $WORK/sub/../g.txt"; "-- g.txt --"; "new"])
  /\ r_verdict (f_run r2) = Pass
  /\ f_change r2 = Rewritten (script ["exec tshelper echo new"; "cmp stdout g.txt"; "-- $WORK/./g.txt --"; "new"]).
Proof. vm_compute. repeat split; reflexivity. Qed.
End NamesExamples.
