(* The backtracking matcher of TsRegex.v against the declarative reading [ms]: what it
   returns is a match, and it finds a match whenever one exists. *)
From Coq Require Import List Bool Arith NArith Lia.
From Coq.Strings Require Import Byte.
From GI Require Import Lib.Bytes Lib.BytesFacts TsRun.TsRegex.
Import ListNotations.

Definition rel := option byte -> bytes -> bytes -> Prop.

Definition k_sound (k : cont) (R : rel) : Prop :=
  forall prev rest n, k prev rest = Some n ->
    n <= length rest /\ R prev (firstn n rest) (skipn n rest).
Definition k_complete (k : cont) (R : rel) : Prop :=
  forall prev w after, R prev w after -> exists n, k prev (w ++ after) = Some n.

Lemma last_of_cons prev b ws : last_of prev (b :: ws) = last_of (Some b) ws.
Proof.
  unfold last_of. simpl. destruct (rev ws) as [|x r] eqn:E; simpl; [reflexivity|reflexivity].
Qed.
Lemma last_of_nil prev : last_of prev [] = prev.
Proof. reflexivity. Qed.

(* the relations the combinators implement *)
Definition R_one (a : atom) (R : rel) : rel := fun prev w after =>
  exists b w', w = b :: w' /\ atom_match a b = true /\ R (Some b) w' after.
Definition R_star (a : atom) (R : rel) : rel := fun prev w after =>
  exists ws w', w = ws ++ w' /\ Forall (fun b => atom_match a b = true) ws /\ R (last_of prev ws) w' after.
Definition R_opt (a : atom) (R : rel) : rel := fun prev w after =>
  R prev w after \/ R_one a R prev w after.

Lemma one_k_sound a k R : k_sound k R -> k_sound (one_k a k) (R_one a R).
Proof.
  intros Hk prev rest n H. unfold one_k in H. destruct rest as [|b r]; [discriminate|].
  destruct (atom_match a b) eqn:Ea; [|discriminate].
  destruct (k (Some b) r) as [m|] eqn:Ek; [|discriminate]. inversion H; subst n.
  destruct (Hk _ _ _ Ek) as [Hle HR]. split; [simpl; lia|].
  exists b, (firstn m r). simpl. auto.
Qed.

Lemma one_k_complete a k R : k_complete k R -> k_complete (one_k a k) (R_one a R).
Proof.
  intros Hk prev w after [b [w' [-> [Ea HR]]]]. unfold one_k. simpl. rewrite Ea.
  destruct (Hk _ _ _ HR) as [n Hn]. rewrite Hn. simpl. eauto.
Qed.

Lemma star_k_sound a k R : k_sound k R -> k_sound (star_k a k) (R_star a R).
Proof.
  intros Hk prev rest. revert prev. induction rest as [|b r IH]; intros prev n H; simpl in H.
  - destruct (Hk _ _ _ H) as [Hle HR]. split; [exact Hle|]. exists [], (firstn n []). simpl. auto.
  - destruct (atom_match a b) eqn:Ea.
    + destruct (star_k a k (Some b) r) as [m|] eqn:Es.
      * inversion H; subst n. destruct (IH _ _ Es) as [Hle [ws [w' [Hw [Hf HR]]]]].
        split; [simpl; lia|]. exists (b :: ws), w'. simpl. rewrite Hw.
        split; [reflexivity|]. split; [constructor; assumption|]. rewrite last_of_cons. exact HR.
      * destruct (Hk _ _ _ H) as [Hle HR]. split; [exact Hle|]. exists [], (firstn n (b :: r)). simpl. auto.
    + destruct (Hk _ _ _ H) as [Hle HR]. split; [exact Hle|]. exists [], (firstn n (b :: r)). simpl. auto.
Qed.

(* star never loses what the continuation alone can do *)
Lemma star_k_fallback a k prev rest n : k prev rest = Some n -> exists m, star_k a k prev rest = Some m.
Proof.
  intros H. destruct rest as [|b r]; simpl; [eauto|].
  destruct (atom_match a b); [|eauto]. destruct (star_k a k (Some b) r); eauto.
Qed.

Lemma star_k_complete a k R : k_complete k R -> k_complete (star_k a k) (R_star a R).
Proof.
  intros Hk prev w after [ws [w' [-> [Hf HR]]]]. revert prev HR.
  induction Hf as [|b ws Hb Hf IH]; intros prev HR.
  - simpl in *. destruct (Hk _ _ _ HR) as [n Hn]. eapply star_k_fallback; eauto.
  - rewrite last_of_cons in HR. destruct (IH _ HR) as [n Hn].
    simpl. rewrite Hb. simpl in Hn. rewrite Hn. eauto.
Qed.

Lemma opt_k_sound a k R : k_sound k R -> k_sound (opt_k a k) (R_opt a R).
Proof.
  intros Hk prev rest n H. unfold opt_k in H.
  destruct (one_k a k prev rest) as [m|] eqn:E.
  - inversion H; subst m. destruct (one_k_sound a k R Hk _ _ _ E) as [Hle HR]. split; [exact Hle|right; exact HR].
  - destruct (Hk _ _ _ H) as [Hle HR]. split; [exact Hle|left; exact HR].
Qed.

Lemma opt_k_complete a k R : k_complete k R -> k_complete (opt_k a k) (R_opt a R).
Proof.
  intros Hk prev w after [HR|HR]; unfold opt_k.
  - destruct (one_k a k prev (w ++ after)); [eauto|]. exact (Hk _ _ _ HR).
  - destruct (one_k_complete a k R Hk _ _ _ HR) as [n Hn]. rewrite Hn. eauto.
Qed.

Lemma firstn_skipn_app {A} n (l : list A) : firstn n l ++ skipn n l = l.
Proof. apply firstn_skipn. Qed.

Theorem m_seq_sound ps : k_sound (m_seq ps) (ms ps).
Proof.
  induction ps as [|p ps IH]; intros prev rest n H.
  - simpl in H. inversion H; subst. simpl. split; [lia|reflexivity].
  - destruct p as [a q| |]; simpl in H.
    + destruct q; simpl.
      * destruct (one_k_sound a _ _ IH _ _ _ H) as [Hle [b [w' [-> [Ea HR]]]]].
        split; [exact Hle|]. exists [b], w'. simpl. auto.
      * destruct (star_k_sound a _ _ IH _ _ _ H) as [Hle [ws [w' [Hw [Hf HR]]]]].
        split; [exact Hle|]. exists ws, w'. auto.
      * destruct (one_k_sound a _ _ (star_k_sound a _ _ IH) _ _ _ H) as [Hle [b [w1 [-> [Ea [ws [w' [-> [Hf HR]]]]]]]]].
        split; [exact Hle|]. exists (b :: ws), w'. rewrite last_of_cons. simpl. auto with arith.
      * destruct (opt_k_sound a _ _ IH _ _ _ H) as [Hle [HR|[b [w' [-> [Ea HR]]]]]]; (split; [exact Hle|]).
        -- exists [], (firstn n rest). simpl. auto.
        -- exists [b], w'. simpl. auto.
    + destruct (at_bol prev) eqn:Eb; [|discriminate]. destruct (IH _ _ _ H) as [Hle HR]. simpl. auto.
    + destruct (at_eol rest) eqn:Ee; [|discriminate]. destruct (IH _ _ _ H) as [Hle HR].
      simpl. rewrite firstn_skipn. auto.
Qed.

Theorem m_seq_complete ps : k_complete (m_seq ps) (ms ps).
Proof.
  induction ps as [|p ps IH]; intros prev w after H.
  - simpl in *. eauto.
  - destruct p as [a q| |]; simpl in H.
    + destruct H as [ws [w' [-> [Hf [Hq HR]]]]]. simpl. destruct q; simpl in Hq.
      * destruct ws as [|b [|c ws]]; try discriminate. inversion Hf; subst.
        apply (one_k_complete a _ _ IH). exists b, w'. auto.
      * apply (star_k_complete a _ _ IH). exists ws, w'. auto.
      * destruct ws as [|b ws]; [simpl in Hq; lia|]. inversion Hf; subst. rewrite last_of_cons in HR.
        apply (one_k_complete a _ _ (star_k_complete a _ _ IH)). exists b, (ws ++ w'). simpl.
        split; [reflexivity|]. split; [assumption|]. exists ws, w'. auto.
      * apply (opt_k_complete a _ _ IH). destruct ws as [|b [|c ws]]; [| |simpl in Hq; lia].
        -- left. exact HR.
        -- right. inversion Hf; subst. exists b, w'. auto.
    + destruct H as [Hb HR]. simpl. rewrite Hb. apply IH. exact HR.
    + destruct H as [He HR]. simpl. rewrite He. apply IH. exact HR.
Qed.

Lemma m_re_sound re prev rest n :
  m_re re prev rest = Some n ->
  n <= length rest /\ exists alt, In alt re /\ ms alt prev (firstn n rest) (skipn n rest).
Proof.
  induction re as [|alt r IH]; simpl; [discriminate|].
  destruct (m_seq alt prev rest) as [m|] eqn:E.
  - intros H. inversion H; subst m. destruct (m_seq_sound alt _ _ _ E) as [Hle HR]. eauto.
  - intros H. destruct (IH H) as [Hle [alt' [Hin HR]]]. eauto.
Qed.

Lemma m_re_complete re prev w after alt :
  In alt re -> ms alt prev w after -> exists n, m_re re prev (w ++ after) = Some n.
Proof.
  induction re as [|alt0 r IH]; intros Hin HR; [destruct Hin|]. simpl.
  destruct (m_seq alt0 prev (w ++ after)) eqn:E; [eauto|].
  destruct Hin as [->|Hin]; [|apply IH; assumption].
  destruct (m_seq_complete alt _ _ _ HR) as [n Hn]. congruence.
Qed.

Lemma last_of_snoc prev pre b : last_of prev (pre ++ [b]) = Some b.
Proof. unfold last_of. rewrite rev_app_distr. reflexivity. Qed.

Lemma find_from_sound re rest : forall prev k off len,
  find_from re prev rest k = Some (off, len) ->
  exists pre w after alt, rest = pre ++ w ++ after /\ off = k + length pre /\ len = length w
    /\ In alt re /\ ms alt (last_of prev pre) w after.
Proof.
  induction rest as [|b r IH]; intros prev k off len H; simpl in H.
  - destruct (m_re re prev []) as [n|] eqn:E; [|discriminate]. inversion H; subst.
    destruct (m_re_sound _ _ _ _ E) as [Hle [alt [Hin HR]]].
    exists [], (firstn len []), (skipn len []), alt. simpl. rewrite firstn_skipn.
    repeat split; auto. destruct len; simpl in *; [reflexivity|lia].
  - destruct (m_re re prev (b :: r)) as [n|] eqn:E.
    + inversion H; subst. destruct (m_re_sound _ _ _ _ E) as [Hle [alt [Hin HR]]].
      exists [], (firstn len (b :: r)), (skipn len (b :: r)), alt. rewrite firstn_skipn.
      repeat split; auto. rewrite firstn_length. lia.
    + destruct (IH _ _ _ _ H) as [pre [w [after [alt [Hr [Ho [Hl [Hin HR]]]]]]]].
      exists (b :: pre), w, after, alt. simpl. rewrite Hr. rewrite last_of_cons.
      repeat split; auto. lia.
Qed.

Lemma find_from_complete re pre : forall prev k w after alt,
  In alt re -> ms alt (last_of prev pre) w after ->
  exists r, find_from re prev (pre ++ w ++ after) k = Some r.
Proof.
  induction pre as [|b pre IH]; intros prev k w after alt Hin HR.
  - simpl in *. destruct (m_re_complete re prev w after alt Hin HR) as [n Hn].
    destruct (w ++ after); simpl; rewrite Hn; eauto.
  - simpl. destruct (m_re re prev (b :: pre ++ w ++ after)); [eauto|].
    rewrite last_of_cons in HR. eapply IH; eauto.
Qed.

Theorem re_has_match_iff re text : re_has_match re text = true <-> re_matches_in re text.
Proof.
  unfold re_has_match, re_matches_in. split.
  - destruct (find_from re None text 0) as [[off len]|] eqn:E; [|discriminate]. intros _.
    destruct (find_from_sound _ _ _ _ _ _ E) as [pre [w [after [alt [Hr [_ [_ [Hin HR]]]]]]]]. eauto 10.
  - intros [pre [w [after [alt [-> [Hin HR]]]]]].
    destruct (find_from_complete re pre None 0 w after alt Hin HR) as [r Hr]. rewrite Hr. reflexivity.
Qed.

Theorem re_count_zero_iff re text : re_count re text = 0%N <-> re_has_match re text = false.
Proof.
  unfold re_count, re_has_match. cbn [count_loop].
  destruct (find_from re None text 0) as [[off len]|]; [|tauto].
  split; [|discriminate]. intros H. exfalso. revert H.
  destruct (Nat.eqb (0 + off + len) 0).
  - cbn [opt_nat_eqb]. destruct text as [|b r]; [discriminate|]. rewrite N.add_1_l; apply N.neq_succ_0.
  - rewrite N.add_1_l; apply N.neq_succ_0.
Qed.

Example ex_ms : ms [PBol; PAtom (AChar x61) QPlus; PAtom AAny QOpt; PEol] None [x61; x61; x62] [NL; x63].
Proof.
  exact (proj2 (m_seq_sound [PBol; PAtom (AChar x61) QPlus; PAtom AAny QOpt; PEol] None
                            [x61; x61; x62; NL; x63] 3 eq_refl)).
Qed.
Example ex_parse_count :
  option_map (fun re => (re_has_match re [x61; x61; x62; NL; x61; x62], re_count re [x61; x61; x62; NL; x61; x62]))
             (parse_re [x5e; x61; x2b; x62]) = Some (true, 2%N).
Proof. vm_compute. reflexivity. Qed.
