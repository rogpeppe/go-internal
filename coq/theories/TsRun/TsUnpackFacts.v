(* Read-after-write facts about the file-tree model for the unpacking of an archive, and with them
   Params.RequireUniqueNames for the WHOLE archive: two entries -- anywhere in the archive, spelled
   alike or not -- that are unpacked at the same location make setup fail (FAIL file:0).

   While setup runs the tree only grows, by directories and regular files (no symbolic link exists
   yet), so a path that resolves to an existing node keeps resolving to it. *)
From Coq Require Import List Bool Arith NArith Lia.
From Coq.Strings Require Import Byte.
From GI Require Import Lib.Bytes Lib.BytesFacts Gen.TsRunConsts Txtar.Txtar
  TsRun.TsFs TsRun.TsState TsRun.TsCmds TsRun.TsRun TsRun.TsSpec TsRun.TsRunFacts
  TsRun.TsUpdate TsRun.TsUpdateFacts TsRun.TsRerun TsRun.TsRerunFacts TsRun.TsNamesFacts.
Import ListNotations.

Definition nolinks (t : tree) : Prop := forall q tg, lookup t q <> Some (NLink tg).
Definition extends (t t' : tree) : Prop := forall q n, lookup t q = Some n -> lookup t' q = Some n.

Lemma extends_refl t : extends t t.
Proof. intros q n H. exact H. Qed.
Lemma extends_trans a b c : extends a b -> extends b c -> extends a c.
Proof. intros H1 H2 q n H. apply H2, H1, H. Qed.

Lemma path_eqb_refl p : path_eqb p p = true.
Proof. induction p as [|x p IH]; [reflexivity|]. cbn. rewrite bytes_eqb_refl, IH. reflexivity. Qed.

Lemma path_eqb_sym p q : path_eqb p q = path_eqb q p.
Proof.
  destruct (path_eqb p q) eqn:E.
  - apply path_eqb_eq in E. subst q. symmetry. apply path_eqb_refl.
  - destruct (path_eqb q p) eqn:E2; [|reflexivity]. apply path_eqb_eq in E2. subst q. rewrite path_eqb_refl in E. discriminate.
Qed.

Lemma lookup_app t1 t2 q : lookup (t1 ++ t2) q = match lookup t1 q with Some n => Some n | None => lookup t2 q end.
Proof.
  induction t1 as [|[p n] r IH]; [reflexivity|]. cbn [app lookup]. destruct (path_eqb p q); [reflexivity|exact IH].
Qed.

Lemma lookup_remove_exact t p q : lookup (remove_exact t p) q = if path_eqb p q then None else lookup t q.
Proof.
  unfold remove_exact. induction t as [|[p0 n] r IH]; cbn [filter lookup fst].
  - destruct (path_eqb p q); reflexivity.
  - destruct (path_eqb p0 p) eqn:E0; cbn [negb].
    + apply path_eqb_eq in E0. subst p0. rewrite IH. destruct (path_eqb p q); reflexivity.
    + cbn [lookup]. destruct (path_eqb p0 q) eqn:E1.
      * apply path_eqb_eq in E1. subst p0. rewrite path_eqb_sym, E0. reflexivity.
      * exact IH.
Qed.

Lemma lookup_set_node t p n q : lookup (set_node t p n) q = if path_eqb p q then Some n else lookup t q.
Proof.
  unfold set_node. rewrite lookup_app, lookup_remove_exact. destruct (path_eqb p q) eqn:E.
  - cbn [lookup]. rewrite E. reflexivity.
  - destruct (lookup t q); [reflexivity|]. cbn [lookup]. rewrite E. reflexivity.
Qed.

Lemma set_node_extends t p n : lookup t p = None -> extends t (set_node t p n).
Proof.
  intros Hp q m Hq. rewrite lookup_set_node. destruct (path_eqb p q) eqn:E; [|exact Hq].
  apply path_eqb_eq in E. subst q. congruence.
Qed.

Lemma set_node_nolinks t p n : nolinks t -> (forall tg, n <> NLink tg) -> nolinks (set_node t p n).
Proof.
  intros Hn Hl q tg. rewrite lookup_set_node. destruct (path_eqb p q); [|apply Hn].
  intros H. inversion H. apply (Hl tg). assumption.
Qed.

Lemma node_at_lookup_none t p : node_at t p = None -> lookup t p = None.
Proof. destruct p; [discriminate|]. intros H; exact H. Qed.

Lemma extends_node_at t t' p : extends t t' -> forall n, node_at t p = Some n -> node_at t' p = Some n.
Proof. intros H n. destruct p; [intros E; exact E|]. cbn [node_at]. apply H. Qed.

Lemma extends_is_dir t t' p : extends t t' -> is_dir_node (node_at t p) = true -> is_dir_node (node_at t' p) = true.
Proof.
  intros H. destruct (node_at t p) as [n|] eqn:E; [|discriminate]. rewrite (extends_node_at _ _ _ H _ E). intros X; exact X.
Qed.

Lemma walk_unfold b t fl cur rest :
  walk b t fl cur rest =
  match rest with
  | [] => WPath cur
  | c :: rest' =>
      if negb (is_dir_node (node_at t cur)) then WErr
      else if is_empty c || is_dot c then walk b t fl cur rest'
      else if is_dotdot c then walk b t fl (parent cur) rest'
      else
        let p := cur ++ [c] in
        match lookup t p with
        | Some (NLink target) =>
            let last := match rest' with [] => true | _ => false end in
            if last && negb fl then WPath p
            else match b with
                 | 0 => WErr
                 | S b' =>
                     match target with
                     | [] => WNoEnt
                     | _ => walk b' t fl (if is_abs target then [] else cur) (split_slash target ++ rest')
                     end
                 end
        | Some _ => walk b t fl p rest'
        | None => match rest' with [] => WPath p | _ => WNoEnt end
        end
  end.
Proof. destruct b; destruct rest; reflexivity. Qed.

(* a path that resolves in a tree resolves to the same place in every link-free tree that extends it *)
Lemma walk_extends b t t' fl : extends t t' -> nolinks t' ->
  forall rest cur q, walk b t fl cur rest = WPath q -> walk b t' fl cur rest = WPath q.
Proof.
  intros He Hn. induction rest as [|c rest' IH]; intros cur q Hw.
  - rewrite walk_unfold in Hw |- *. exact Hw.
  - rewrite walk_unfold in Hw. rewrite walk_unfold.
    destruct (is_dir_node (node_at t cur)) eqn:Ed; cbn [negb] in Hw; [|discriminate].
    rewrite (extends_is_dir _ _ _ He Ed). cbn [negb].
    destruct (is_empty c || is_dot c); [exact (IH _ _ Hw)|].
    destruct (is_dotdot c); [exact (IH _ _ Hw)|].
    cbv zeta in Hw |- *.
    destruct (lookup t (cur ++ [c])) as [n|] eqn:El.
    + rewrite (He _ _ El). destruct n as [d m|m|tg]; [exact (IH _ _ Hw)..|].
      exfalso. apply (Hn (cur ++ [c]) tg). apply He. exact El.
    + (* the last component, new in [t]: in [t'] it may be there, but not as a link *)
      destruct rest' as [|c2 r2]; [|discriminate].
      destruct (lookup t' (cur ++ [c])) as [[d m|m|tg]|] eqn:El'; rewrite ?walk_unfold; try exact Hw.
      exfalso. exact (Hn _ _ El').
Qed.

Lemma lstat_extends t t' d : extends t t' -> nolinks t' -> lstat t d <> None -> lstat t' d <> None.
Proof.
  intros He Hn. unfold lstat, resolve, resolve3. destruct (is_abs d); [|intros H; exact H].
  destruct (walk max_links t false [] (split_slash d)) as [q| |] eqn:Ew; try (intros H; exfalso; apply H; reflexivity).
  destruct (node_at t q) as [n|] eqn:En; [|intros H; exfalso; apply H; reflexivity].
  rewrite (walk_extends _ _ _ _ He Hn _ _ _ Ew), (extends_node_at _ _ _ He _ En).
  destruct (ends_in_slash d && negb (is_dir_node (Some n))); intros H; exact H.
Qed.

Lemma mkdir1_grows t d perm t' : nolinks t -> mkdir1 t d perm = Some t' -> extends t t' /\ nolinks t'.
Proof.
  intros Hn. unfold mkdir1. destruct (resolve t false d) as [p|]; [|discriminate].
  destruct (node_at t p) eqn:En; [discriminate|]. destruct (is_dir_node _); [|discriminate].
  intros H. inversion H. split.
  - apply set_node_extends. apply node_at_lookup_none. exact En.
  - apply set_node_nolinks; [exact Hn|discriminate].
Qed.

Lemma mkdir_chain_grows perm : forall ps t, nolinks t -> extends t (fst (mkdir_chain t ps perm)) /\ nolinks (fst (mkdir_chain t ps perm)).
Proof.
  induction ps as [|p r IH]; intros t Hn; cbn [mkdir_chain]; [split; [apply extends_refl|exact Hn]|].
  destruct (stat t p) as [[d m|m|tg]|].
  - split; [apply extends_refl|exact Hn].
  - apply IH. exact Hn.
  - split; [apply extends_refl|exact Hn].
  - destruct (mkdir1 t p perm) as [t1|] eqn:E; [|split; [apply extends_refl|exact Hn]].
    destruct (mkdir1_grows _ _ _ _ Hn E) as [He1 Hn1]. destruct (IH t1 Hn1) as [He2 Hn2].
    split; [exact (extends_trans _ _ _ He1 He2)|exact Hn2].
Qed.

Lemma mkdir_all_grows t d perm : nolinks t -> extends t (fst (mkdir_all t d perm)) /\ nolinks (fst (mkdir_all t d perm)).
Proof.
  intros Hn. unfold mkdir_all. destruct (stat t d) as [[x m|m|tg]|]; try (split; [apply extends_refl|exact Hn]).
  destruct (is_abs d); [apply mkdir_chain_grows; exact Hn|split; [apply extends_refl|exact Hn]].
Qed.

Lemma write_file_excl_grows t d data perm t' : nolinks t -> write_file_excl t d data perm = Some t' -> extends t t' /\ nolinks t'.
Proof.
  intros Hn. unfold write_file_excl. destruct (ends_in_slash d || ends_in_dots d); [discriminate|].
  destruct (resolve t false d) as [p|]; [|discriminate]. destruct p as [|c p']; [discriminate|].
  destruct (node_at t (c :: p')) eqn:En; [discriminate|]. destruct (is_dir_node _); [|discriminate].
  intros H. inversion H. split.
  - apply set_node_extends. exact En.
  - apply set_node_nolinks; [exact Hn|discriminate].
Qed.

(* the file just created is there *)
Lemma write_file_excl_lstat t d data perm t' : nolinks t -> write_file_excl t d data perm = Some t' -> lstat t' d <> None.
Proof.
  intros Hn Hw. destruct (write_file_excl_grows _ _ _ _ _ Hn Hw) as [He Hn'].
  revert Hw. unfold write_file_excl. destruct (ends_in_slash d || ends_in_dots d) eqn:Es; [discriminate|].
  apply orb_false_iff in Es. destruct Es as [Es _].
  unfold lstat, resolve, resolve3. destruct (is_abs d); [|discriminate].
  destruct (walk max_links t false [] (split_slash d)) as [p| |] eqn:Ew; try discriminate.
  destruct p as [|c p']; [discriminate|].
  destruct (node_at t (c :: p')) eqn:En; [discriminate|]. destruct (is_dir_node _); [|discriminate].
  intros H. inversion H as [Ht]. rewrite Ht, (walk_extends _ _ _ _ He Hn' _ _ _ Ew).
  cbn [node_at]. subst t'. rewrite lookup_set_node, path_eqb_refl, Es. discriminate.
Qed.

(* one entry: setup fails at it, or its place was free and is now taken, and the tree has grown *)
Lemma unpack_excl_step work n d r st :
  nolinks (s_fs st) ->
  let p := mkabs st (expand (s_env st) n) in
  snd (unpack true work ((n, d) :: r) st) = false
  \/ exists st', unpack true work ((n, d) :: r) st = unpack true work r st'
       /\ nolinks (s_fs st') /\ extends (s_fs st) (s_fs st')
       /\ (forall m, mkabs st' (expand (s_env st') m) = mkabs st (expand (s_env st) m))
       /\ lstat (s_fs st) p = None /\ lstat (s_fs st') p <> None.
Proof.
  intros Hn p. cbn [unpack]. fold p.
  destruct (beneath work p); cbn [negb]; [|auto].
  change (s_fs (set_files st (assoc_set (s_files st) (clean p) n))) with (s_fs st).
  pose proof (mkdir_all_grows (s_fs st) (dir p) 511 Hn) as Hg.
  destruct (mkdir_all (s_fs st) (dir p) 511) as [t1 [|]]; [|auto]. cbn [fst] in Hg. destruct Hg as [He1 Hn1].
  destruct (write_file_excl t1 p d 438) as [t2|] eqn:Ew; [|auto].
  destruct (write_file_excl_grows _ _ _ _ _ Hn1 Ew) as [He2 Hn2].
  right. eexists. split; [reflexivity|]. cbn [s_fs set_fs].
  split; [exact Hn2|]. split; [exact (extends_trans _ _ _ He1 He2)|]. split; [reflexivity|].
  split; [|exact (write_file_excl_lstat _ _ _ _ _ Hn1 Ew)].
  destruct (lstat (s_fs st) p) eqn:El; [|reflexivity].
  rewrite write_file_excl_taken in Ew; [discriminate|]. apply (lstat_extends _ _ _ He1 Hn1). congruence.
Qed.

Lemma unpack_unique_taken work : forall fs st n d,
  nolinks (s_fs st) -> In (n, d) fs ->
  lstat (s_fs st) (mkabs st (expand (s_env st) n)) <> None ->
  snd (unpack true work fs st) = false.
Proof.
  induction fs as [|[n0 d0] r IH]; intros st n d Hn Hin Hl; [destruct Hin|].
  destruct (unpack_excl_step work n0 d0 r st Hn) as [F|(st' & -> & Hn' & He & Hloc & Hfree & _)]; [exact F|].
  destruct Hin as [Heq|Hin]; [inversion Heq; subst; contradiction|].
  apply (IH _ n d Hn' Hin). rewrite Hloc. exact (lstat_extends _ _ _ He Hn' Hl).
Qed.

Lemma unpack_unique_dup work : forall fs st pre n1 d1 mid n2 d2 post,
  nolinks (s_fs st) ->
  fs = pre ++ (n1, d1) :: mid ++ (n2, d2) :: post ->
  mkabs st (expand (s_env st) n1) = mkabs st (expand (s_env st) n2) ->
  snd (unpack true work fs st) = false.
Proof.
  intros fs st pre. revert fs st. induction pre as [|[n0 d0] pre IH]; intros fs st n1 d1 mid n2 d2 post Hn -> Hloc; cbn [app].
  - destruct (unpack_excl_step work n1 d1 (mid ++ (n2, d2) :: post) st Hn) as [F|(st' & -> & Hn' & _ & Hloc' & _ & Htaken)]; [exact F|].
    apply (unpack_unique_taken work _ _ n2 d2 Hn'); [apply in_or_app; right; left; reflexivity|].
    rewrite Hloc', <- Hloc. exact Htaken.
  - destruct (unpack_excl_step work n0 d0 (pre ++ (n1, d1) :: mid ++ (n2, d2) :: post) st Hn)
      as [F|(st' & -> & Hn' & _ & Hloc' & _)]; [exact F|].
    apply (IH _ _ n1 d1 mid n2 d2 post Hn' eq_refl). rewrite !Hloc'. exact Hloc.
Qed.

Lemma nolinks_nil : nolinks [].
Proof. intros q tg H. discriminate H. Qed.

(* Params.RequireUniqueNames, the whole archive: two entries with the same location -- spelled alike
   or not ("a.txt" and "./a.txt", "$WORK/a.txt") -- fail setup: FAIL file:0 *)
Theorem unique_names_whole_archive cfg work env a pre n1 d1 mid n2 d2 post :
  c_unique cfg = true ->
  files a = pre ++ (n1, d1) :: mid ++ (n2, d2) :: post ->
  location work env n1 = location work env n2 ->
  snd (setup cfg work env a) = false
  /\ r_verdict (run_archive cfg work env a) = Fail 0 /\ r_fail_lines (run_archive cfg work env a) = [0].
Proof.
  intros Hu Hf Hloc.
  assert (snd (setup cfg work env a) = false) as Hs.
  { unfold setup. rewrite Hu.
    pose proof (mkdir_all_grows [] (work ++ [x2f; x2e; x74; x6d; x70]) 511 nolinks_nil) as Hg.
    destruct (mkdir_all [] (work ++ [x2f; x2e; x74; x6d; x70]) 511) as [t ok]. cbn [fst] in Hg. destruct Hg as [_ Hn].
    destruct ok; [|reflexivity].
    apply (unpack_unique_dup work _ _ pre n1 d1 mid n2 d2 post); [exact Hn|exact Hf|].
    rewrite !mkabs_location. exact Hloc. }
  split; [exact Hs|].
  destruct (setup cfg work env a) as [st ok] eqn:E. cbn [snd] in Hs. subst ok.
  apply (setup_failure_is_fail_0 _ _ _ _ _ E).
Qed.

Module UniqueExamples.
Import String.
Local Open Scope string_scope.
Local Open Scope list_scope.
Import TsRunFacts.Examples.
Import TsRunFacts.ParamsExamples.
Definition env1 : list (bytes * bytes) := [(b "WORK", b "/w"); (b "PATH", b "/h"); (b "exe", b ""); (b "/", b "/")].
(* the hypothesis about the locations holds of differently spelled names, and the conclusion is
   what the interpreter computes *)
Example ex_same_location :
  location (b "/w") env1 (b "a.txt") = location (b "/w") env1 (b "./a.txt")
  /\ location (b "/w") env1 (b "a.txt") = location (b "/w") env1 (b "$WORK/a.txt")
  /\ location (b "/w") env1 (b "sub/a.txt") = location (b "/w") env1 (b "sub//a$exe.txt").
Proof. vm_compute. repeat split; reflexivity. Qed.
Example ex_unique_respelled :
  r_verdict (run_file (cfgp false true) (b "/w") env1 (script ["exists a.txt"; "-- a.txt --"; "one"; "-- other --"; "o"; "-- $WORK/a.txt --"; "two"])) = Fail 0
  /\ r_verdict (run_file (cfgp false false) (b "/w") env1 (script ["exists a.txt"; "-- a.txt --"; "one"; "-- other --"; "o"; "-- $WORK/a.txt --"; "two"])) = Pass.
Proof. vm_compute. split; reflexivity. Qed.
End UniqueExamples.
