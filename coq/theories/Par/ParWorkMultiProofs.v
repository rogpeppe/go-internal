(* Proofs about several par.Work objects in one program (ParWorkMulti.v).

   1. A world of Work objects: a step of one object leaves every other object untouched; the reachable worlds are
      EXACTLY the tuples of individually reachable states (so every theorem about one Work holds for each object
      whatever the others do and whenever they are used, and co-existence adds no constraint); no deadlock; the sum of
      the potentials decreases on every step, every schedule is finite and can be completed.
   2. Nesting (f of the outer Work runs a fresh inner Work): every level is a reachable state of its own single-Work
      system; f(i) returns only after the Do of its inner Work returned; when the outer Do returns every inner Work
      of every reachable outer item has processed all its items; no deadlock; a potential decreases on every step, so
      every schedule is finite and can be completed to the state in which every runner of every level has returned. *)
From Coq Require Import List Arith Bool Lia.
From GI Require Import Gen.ParConsts Par.ParWork Par.ParLib Par.ParWorkProofs.
From GI Require Import Par.ParWorkMulti.
From GI Require Lib.BytesFacts.
Import ListNotations.

(* what the single-Work theorems need of a configuration *)
Definition good (cf : wcfg) : Prop :=
  work_do_min_n <= wn cf /\ NoDup (wU cf) /\
  (forall i, In i (winits cf) -> In i (wU cf)) /\
  (forall i c, In i (wU cf) -> In c (wchildren cf i) -> In c (wU cf)).

Definition cfg_reachable (cf : wcfg) (s : state) : Prop := reachable (wn cf) (wchildren cf) (winits cf) s.
Definition cfg_reach (cf : wcfg) (i : item) : Prop := reach (wchildren cf) (winits cf) i.

Lemma cfg_reachable_init cf : cfg_reachable cf (cfg_init cf).
Proof. apply reach_init. Qed.

Lemma cfg_reachable_step cf s tc s' : cfg_reachable cf s -> cfg_step cf s tc = Some s' -> cfg_reachable cf s'.
Proof. destruct tc as [t c]. intros Hr Hs. eapply reach_step; eauto. Qed.

Lemma cfg_phi_decreases cf s tc s' : good cf -> cfg_reachable cf s -> cfg_step cf s tc = Some s' ->
  cfg_phi cf s' < cfg_phi cf s.
Proof.
  intros (Hn & Hnd & Hi & Hc) Hr Hs. destruct tc as [t c].
  eapply (phi_decreases (wn cf) (wchildren cf) (winits cf) Hn (wU cf) Hnd Hi Hc); eauto.
Qed.

Lemma cfg_no_deadlock cf s : good cf -> cfg_reachable cf s ->
  all_done s = true \/ exists tc s', cfg_step cf s tc = Some s'.
Proof.
  intros (Hn & _) Hr. destruct (no_deadlock _ _ _ Hn s Hr) as [H|(t & c & s' & H)]; auto.
  right. exists (t, c), s'. exact H.
Qed.

(* a runner that has returned stays returned, whatever the other runners do *)
Lemma done_stable n children s t c s' k :
  step n children s (t, c) = Some s' -> nth_error (pcs s) k = Some Done -> nth_error (pcs s') k = Some Done.
Proof.
  intros Hs Hd. apply step_R in Hs as (p0 & p' & w & Hs).
  assert (Hne : forall p, nth_error (pcs s) t = Some p -> p <> Done -> t <> k).
  { intros p Hp Hnd ->. rewrite Hp in Hd. inversion Hd; subst. apply Hnd; reflexivity. }
  assert (Hent : forall p w0, entry s t p w0 -> t <> k).
  { intros p w0 [Hp He]. apply (Hne p Hp). destruct He as [[-> _]|[-> _]]; discriminate. }
  destruct Hs; cbn [pcs]; try (rewrite nth_error_set_nth_neq; eauto; eapply Hne; eauto; discriminate).
  - (* Broadcast leaves Done alone *)
    rewrite nth_error_set_nth_neq by eauto. rewrite (nth_wake _ _ _ Hd). reflexivity.
  - (* Signal wakes a parked runner, not this one *)
    assert (t <> k) by (eapply Hne; eauto; discriminate).
    assert (k0 <> k) by (intros ->; rewrite nth_error_set_nth_neq, Hd in Hk by auto; discriminate).
    rewrite !nth_error_set_nth_neq; auto.
Qed.

(* what a step does to the ghost lists: f-begins only grow; f-returns grow exactly by the `f(i) returns' step *)
Lemma step_ghosts n children s t c s' : step n children s (t, c) = Some s' ->
  incl (started s) (started s') /\
  (finished s' = finished s \/
   exists i j, nth_error (pcs s) t = Some (Run i j) /\ nth_error (children i) j = None /\ finished s' = i :: finished s).
Proof.
  intros Hs. apply step_R in Hs as (p & p' & w & Hs).
  destruct Hs; cbn [started finished]; split; auto using incl_refl, incl_tl.
  right. exists i, j. auto.
Qed.

(* a thread inside f(i) has begun f(i) *)
Lemma run_started n children inits s t i j : work_do_min_n <= n -> reachable n children inits s ->
  nth_error (pcs s) t = Some (Run i j) -> In i (started s).
Proof.
  intros Hn Hr Hp. destruct (reachable_Inv _ _ _ Hn s Hr) as [HC _].
  apply occn_In. rewrite (inv_started _ _ HC i).
  assert (H : is_run_of i (Run i j) = true) by (simpl; apply Nat.eqb_refl).
  pose proof (cnt_ge1 (is_run_of i) _ _ _ Hp H). lia.
Qed.

Lemma started_reach n children inits s i : work_do_min_n <= n -> reachable n children inits s ->
  In i (started s) -> reach children inits i.
Proof. intros Hn Hr Hi. apply (exactly_once_safety _ _ _ Hn s Hr). auto. Qed.

Lemma all_done_thread0 n children inits s : work_do_min_n <= n -> reachable n children inits s ->
  all_done s = true -> nth_error (pcs s) 0 = Some Done.
Proof.
  intros Hn Hr Hd. destruct (at_most_n_running _ _ _ Hn s Hr) as [Hlen _].
  unfold work_do_min_n in Hn. destruct (pcs s) as [|p l] eqn:E; [simpl in Hlen; lia|].
  unfold all_done in Hd. rewrite E in Hd. simpl in Hd. apply andb_true_iff in Hd as [Hp _].
  destruct p; try discriminate. reflexivity.
Qed.

Lemma list_sum_map_ext_in {A} (g g' : A -> nat) l : (forall x, In x l -> g' x = g x) -> list_sum (map g' l) = list_sum (map g l).
Proof. intros H. f_equal. apply map_ext_in. exact H. Qed.

Section World.
Variable cfgs : list wcfg.

Inductive wreachable : world -> Prop :=
| wreach_init : wreachable (winit cfgs)
| wreach_step ws l ws' : wreachable ws -> wstep cfgs ws l = Some ws' -> wreachable ws'.

Lemma wstep_inv ws k tc ws' : wstep cfgs ws (k, tc) = Some ws' ->
  exists cf s s', nth_error cfgs k = Some cf /\ nth_error ws k = Some s /\ cfg_step cf s tc = Some s' /\
                  ws' = set_nth k s' ws.
Proof.
  unfold wstep. destruct (nth_error cfgs k) as [cf|]; [|discriminate].
  destruct (nth_error ws k) as [s|]; [|discriminate].
  destruct (cfg_step cf s tc) as [s'|] eqn:E; [|discriminate].
  intros H; inversion H; subst. exists cf, s, s'. auto.
Qed.

(* INDEPENDENCE (frame): a step of object k changes object k only, by a step of its own single-Work system *)
Theorem works_independent ws k tc ws' : wstep cfgs ws (k, tc) = Some ws' ->
  length ws' = length ws /\
  (forall k', k' <> k -> nth_error ws' k' = nth_error ws k') /\
  (exists cf s s', nth_error cfgs k = Some cf /\ nth_error ws k = Some s /\ cfg_step cf s tc = Some s' /\
                   nth_error ws' k = Some s').
Proof.
  intros H. destruct (wstep_inv _ _ _ _ H) as (cf & s & s' & Hc & Hs & Hst & ->).
  split; [apply set_nth_length|]. split.
  - intros k' Hk. apply nth_error_set_nth_neq. auto.
  - exists cf, s, s'. repeat split; auto. apply nth_error_set_nth_eq. eapply nth_error_lt; eauto.
Qed.

Lemma winit_components : Forall2 cfg_reachable cfgs (winit cfgs).
Proof. unfold winit. induction cfgs as [|cf l IH]; simpl; constructor; auto using cfg_reachable_init. Qed.

(* every object of a reachable world is in a reachable state of ITS OWN single-Work system ... *)
Theorem world_components ws : wreachable ws -> Forall2 cfg_reachable cfgs ws.
Proof.
  induction 1 as [|ws [k tc] ws' Hr IH Hs]; [apply winit_components|].
  destruct (wstep_inv _ _ _ _ Hs) as (cf & s & s' & Hc & Hk & Hst & ->).
  eapply Forall2_set_nth; eauto. eapply cfg_reachable_step; eauto.
  eapply BytesFacts.Forall2_nth_error; eauto.
Qed.
End World.

(* ... and conversely every tuple of individually reachable states is a reachable world: being used next to
   other Work values, in whatever order, constrains a Work in no way *)
Lemma world_free_aux cfgs : forall ws, Forall2 cfg_reachable cfgs ws ->
  forall pre_c pre_w, length pre_c = length pre_w ->
  wreachable (pre_c ++ cfgs) (pre_w ++ winit cfgs) -> wreachable (pre_c ++ cfgs) (pre_w ++ ws).
Proof.
  intros ws H. induction H as [|cf s cr sr Hcs H IH]; intros pre_c pre_w Hlen Hw; [exact Hw|].
  cbn [winit map] in Hw. fold (winit cr) in Hw.
  (* move object |pre| from its initial state to s *)
  assert (Hmove : wreachable (pre_c ++ cf :: cr) (pre_w ++ s :: winit cr)).
  { unfold cfg_reachable in Hcs. induction Hcs as [|s0 t c s1 Hr0 IH0 Hs0]; [exact Hw|].
    eapply wreach_step; [exact IH0|]. instantiate (1 := (length pre_w, (t, c))).
    unfold wstep. rewrite <- Hlen at 1. rewrite !nth_error_app_mid. unfold cfg_step. rewrite Hs0.
    rewrite set_nth_app_mid. reflexivity. }
  specialize (IH (pre_c ++ [cf]) (pre_w ++ [s])).
  rewrite <- !app_assoc in IH. cbn [app] in IH. apply IH; auto.
  rewrite !app_length. simpl. lia.
Qed.

Theorem world_free cfgs ws : Forall2 cfg_reachable cfgs ws -> wreachable cfgs ws.
Proof.
  intros H. apply (world_free_aux cfgs ws H [] []); auto. apply wreach_init.
Qed.

Theorem world_reachable_iff cfgs ws : wreachable cfgs ws <-> Forall2 cfg_reachable cfgs ws.
Proof. split; [apply world_components|apply world_free]. Qed.

Section WorldProps.
Variable cfgs : list wcfg.
Hypothesis cfgs_good : Forall good cfgs.

Lemma good_nth k cf : nth_error cfgs k = Some cf -> good cf.
Proof. intros H. eapply Forall_nth_error; eauto. Qed.

(* the property of ONE Work, for every object of every reachable world: f begins at most once per item and only for
   items reachable from that object's own initial items; at most n calls in progress; when that object's Do has
   returned, its queue is empty, none of its calls is in progress and exactly its reachable items have finished *)
Theorem world_objects_correct ws : wreachable cfgs ws ->
  forall k cf s, nth_error cfgs k = Some cf -> nth_error ws k = Some s ->
  NoDup (started s) /\ NoDup (finished s) /\
  (forall i, In i (started s) \/ In i (finished s) -> cfg_reach cf i) /\
  cnt is_run (pcs s) <= wn cf /\
  (nth_error (pcs s) 0 = Some Done ->
     todo s = [] /\ cnt is_run (pcs s) = 0 /\ forall i, cfg_reach cf i <-> In i (finished s)).
Proof.
  intros Hw k cf s Hc Hs.
  pose proof (BytesFacts.Forall2_nth_error _ _ _ _ _ _ (world_components cfgs ws Hw) Hc Hs) as Hr.
  destruct (good_nth _ _ Hc) as (Hn & _). unfold cfg_reachable in Hr.
  destruct (exactly_once_safety _ _ _ Hn s Hr) as (_ & Hst & Hfi & _ & Hre).
  repeat split; auto; try apply (do_returns _ _ _ Hn s Hr H).
  - intros i Hi. apply Hre. tauto.
  - apply (at_most_n_running _ _ _ Hn s Hr).
Qed.

Lemma world_scan : forall (cs : list wcfg) (ws : world), Forall2 cfg_reachable cs ws ->
  wall_done ws = true \/ exists k cf s, nth_error cs k = Some cf /\ nth_error ws k = Some s /\ all_done s = false.
Proof.
  intros cs ws H. induction H as [|cf s cr sr Hcs H IH]; [left; reflexivity|].
  destruct (all_done s) eqn:E.
  - destruct IH as [IH|(k & cf' & s' & H1 & H2 & H3)].
    + left. unfold wall_done in *. simpl. rewrite E. exact IH.
    + right. exists (S k), cf', s'. auto.
  - right. exists 0, cf, s. auto.
Qed.

(* no deadlock: unless every runner of every object has returned, some object has a step *)
Theorem world_no_deadlock ws : wreachable cfgs ws ->
  wall_done ws = true \/ exists l ws', wstep cfgs ws l = Some ws'.
Proof.
  intros Hw. destruct (world_scan _ _ (world_components cfgs ws Hw)) as [H|(k & cf & s & Hc & Hs & Hnd)]; auto.
  right. pose proof (BytesFacts.Forall2_nth_error _ _ _ _ _ _ (world_components cfgs ws Hw) Hc Hs) as Hr.
  destruct (cfg_no_deadlock cf s (good_nth _ _ Hc) Hr) as [Hd|(tc & s' & Hst)]; [congruence|].
  exists (k, tc), (set_nth k s' ws). unfold wstep. rewrite Hc, Hs, Hst. reflexivity.
Qed.

Lemma wphi_set_nth : forall (cs : list wcfg) (ws : world) k cf s s',
  nth_error cs k = Some cf -> nth_error ws k = Some s -> cfg_phi cf s' < cfg_phi cf s ->
  wphi cs (set_nth k s' ws) < wphi cs ws.
Proof.
  induction cs as [|c0 cs IH]; intros [|s0 ws] [|k] cf s s' Hc Hs Hlt; simpl in *; try discriminate.
  - inversion Hc; inversion Hs; subst. lia.
  - specialize (IH ws k cf s s' Hc Hs Hlt). lia.
Qed.

(* termination: the sum of the potentials strictly decreases on every step of the world *)
Theorem world_phi_decreases ws l ws' : wreachable cfgs ws -> wstep cfgs ws l = Some ws' ->
  wphi cfgs ws' < wphi cfgs ws.
Proof.
  intros Hw Hs. destruct l as [k tc]. destruct (wstep_inv _ _ _ _ _ Hs) as (cf & s & s' & Hc & Hk & Hst & ->).
  eapply wphi_set_nth; eauto. eapply cfg_phi_decreases; eauto using good_nth.
  exact (BytesFacts.Forall2_nth_error _ _ _ _ _ _ (world_components cfgs ws Hw) Hc Hk).
Qed.

(* [wrun] takes the configurations as an argument of its recursion, so it is [srun] only up to an induction *)
Lemma wrun_srun sch : forall ws, wrun cfgs sch ws = srun (wstep cfgs) sch ws.
Proof. induction sch as [|l sch IH]; intros ws; simpl; [reflexivity|]. destruct (wstep cfgs ws l); auto. Qed.

Lemma wrun_reachable sch : forall ws ws', wreachable cfgs ws -> wrun cfgs sch ws = Some ws' -> wreachable cfgs ws'.
Proof. intros ws ws'. rewrite wrun_srun. apply (srun_R (wstep cfgs) (wreachable cfgs) (wreach_step cfgs)). Qed.

Theorem world_schedules_finite sch : forall ws ws', wreachable cfgs ws -> wrun cfgs sch ws = Some ws' ->
  length sch + wphi cfgs ws' <= wphi cfgs ws.
Proof.
  intros ws ws'. rewrite wrun_srun.
  apply (srun_finite (wstep cfgs) (wreachable cfgs) (wphi cfgs) (wreach_step cfgs) world_phi_decreases).
Qed.

Theorem world_can_finish ws : wreachable cfgs ws ->
  exists sch ws', wrun cfgs sch ws = Some ws' /\ wall_done ws' = true /\ length sch <= wphi cfgs ws.
Proof.
  intros Hw.
  destruct (srun_can_finish (wstep cfgs) (wreachable cfgs) (wphi cfgs) wall_done (wreach_step cfgs) world_phi_decreases
              world_no_deadlock ws Hw) as (sch & ws' & H). rewrite <- wrun_srun in H. eauto.
Qed.
End WorldProps.

Section NestedProofs.
Variable n : nat.
Variable children : item -> list item.
Variable inits : list item.
Variable inner : item -> wcfg.
Variable U : list item.
Hypothesis n_ok : work_do_min_n <= n.
Hypothesis U_nodup : NoDup U.
Hypothesis U_inits : forall i, In i inits -> In i U.
Hypothesis U_closed : forall i c, In i U -> In c (children i) -> In c U.
Hypothesis inner_good : forall i, good (inner i).

Notation nstep := (nstep n children inner).
Notation nrun := (nrun n children inner).
Notation ninit := (ninit n inits).
Notation nphi := (nphi n children inner U).
Notation ipot := (ipot inner).
Notation at_inner_call := (at_inner_call children).
Notation oreach := (reachable n children inits).

Inductive nreachable : nstate -> Prop :=
| nreach_init : nreachable ninit
| nreach_step ns l ns' : nreachable ns -> nstep ns l = Some ns' -> nreachable ns'.

Record NInv (ns : nstate) : Prop := {
  ni_outer : oreach (outer ns);
  ni_inner : forall i si, inn ns i = Some si -> cfg_reachable (inner i) si /\ In i (started (outer ns));
  ni_fin : forall i, In i (finished (outer ns)) -> exists si, inn ns i = Some si /\ nth_error (pcs si) 0 = Some Done
}.

Lemma inner_n_ok i : work_do_min_n <= wn (inner i).
Proof. apply (inner_good i). Qed.

Lemma at_inner_call_spec s t i : at_inner_call s t = Some i ->
  exists j, nth_error (pcs s) t = Some (Run i j) /\ nth_error (children i) j = None.
Proof.
  unfold ParWorkMulti.at_inner_call. destruct (nth_error (pcs s) t) as [[]|]; try discriminate.
  destruct (nth_error (children i0) j) eqn:E; [discriminate|]. intros H; inversion H; subst. eauto.
Qed.

Lemma upd_same f i s : upd f i s i = Some s.
Proof. unfold upd. rewrite Nat.eqb_refl. reflexivity. Qed.
Lemma upd_other f i s x : x <> i -> upd f i s x = f x.
Proof. unfold upd. intros H. destruct (Nat.eqb_spec x i); [contradiction|reflexivity]. Qed.

(* the step function, case by case: an outer step (if it is `f(i) returns', the inner Do has returned); f(i)
   calls the Do of its fresh inner Work; a step of an inner Work *)
Inductive nstepR (ns : nstate) : nlabel -> nstate -> Prop :=
| N_outer t c s' (Hs : step n children (outer ns) (t, c) = Some s')
    (Hret : forall i, at_inner_call (outer ns) t = Some i ->
              exists si, inn ns i = Some si /\ nth_error (pcs si) 0 = Some Done) :
    nstepR ns (LOuter t c) (mkN s' (inn ns))
| N_call t c i (Ea : at_inner_call (outer ns) t = Some i) (Ei : inn ns i = None) :
    nstepR ns (LOuter t c) (mkN (outer ns) (upd (inn ns) i (cfg_init (inner i))))
| N_inner i t c si si' (Ei : inn ns i = Some si) (Hs : cfg_step (inner i) si (t, c) = Some si') :
    nstepR ns (LInner i t c) (mkN (outer ns) (upd (inn ns) i si')).

Lemma nstep_R ns l ns' : nstep ns l = Some ns' -> nstepR ns l ns'.
Proof.
  destruct l as [t c|i t c]; cbn [ParWorkMulti.nstep]; intros Hs.
  - destruct (at_inner_call (outer ns) t) as [i|] eqn:Ea; [destruct (inn ns i) as [si|] eqn:Ei|].
    + destruct (nth_error (pcs si) 0) as [[]|] eqn:E0; try discriminate.
      destruct (step n children (outer ns) (t, c)) as [s'|] eqn:Est; [|discriminate]. inversion Hs; subst.
      apply N_outer; auto. intros i' Hi'. rewrite Ea in Hi'. inversion Hi'; subst. eauto.
    + inversion Hs; subst. eapply N_call; eauto.
    + destruct (step n children (outer ns) (t, c)) as [s'|] eqn:Est; [|discriminate]. inversion Hs; subst.
      apply N_outer; auto. intros i Hi. rewrite Ea in Hi. discriminate.
  - destruct (inn ns i) as [si|] eqn:Ei; [|discriminate].
    destruct (cfg_step (inner i) si (t, c)) as [si'|] eqn:Est; [|discriminate]. inversion Hs; subst.
    eapply N_inner; eauto.
Qed.

(* an outer step that is not `f(i) returns' (or is one whose inner Do has returned) keeps the invariant *)
Lemma NInv_outer_step ns t c s' : NInv ns -> step n children (outer ns) (t, c) = Some s' ->
  (forall i, at_inner_call (outer ns) t = Some i -> exists si, inn ns i = Some si /\ nth_error (pcs si) 0 = Some Done) ->
  NInv (mkN s' (inn ns)).
Proof.
  intros [Ho Hi Hf] Hs Hret. destruct (step_ghosts _ _ _ _ _ _ Hs) as [Hst Hfin].
  constructor; cbn [outer inn].
  - eapply reach_step; eauto.
  - intros i si H. destruct (Hi i si H) as [H1 H2]. split; auto.
  - intros i Hin. destruct Hfin as [E|(i0 & j & Hp & Hch & E)]; rewrite E in Hin.
    + apply Hf; auto.
    + destruct Hin as [<-|Hin]; [|apply Hf; auto].
      apply Hret. unfold ParWorkMulti.at_inner_call. rewrite Hp, Hch. reflexivity.
Qed.

Lemma nstep_NInv ns l ns' : NInv ns -> nstep ns l = Some ns' -> NInv ns'.
Proof.
  intros HI Hs. apply nstep_R in Hs. destruct Hs; [eapply NInv_outer_step; eauto| |]; destruct HI as [Ho Hi Hf];
    constructor; cbn [outer inn]; auto.
  - (* f(i) calls the Do of its fresh inner Work *)
    destruct (at_inner_call_spec _ _ _ Ea) as (j & Hp & Hch).
    intros x sx Hx. destruct (Nat.eq_dec x i) as [->|Hne].
    + rewrite upd_same in Hx. inversion Hx; subst. split; [apply cfg_reachable_init|].
      eapply run_started; eauto.
    + rewrite upd_other in Hx by auto. apply Hi; auto.
  - intros x Hx. destruct (Hf x Hx) as (sx & H1 & H2). exists sx. split; auto.
    rewrite upd_other; auto. intros ->. congruence.
  - intros x sx Hx. destruct (Nat.eq_dec x i) as [->|Hne].
    + rewrite upd_same in Hx. inversion Hx; subst. destruct (Hi i si Ei) as [H1 H2]. split; auto.
      eapply cfg_reachable_step; eauto.
    + rewrite upd_other in Hx by auto. apply Hi; auto.
  - intros x Hx. destruct (Hf x Hx) as (sx & H1 & H2). destruct (Nat.eq_dec x i) as [->|Hne].
    + rewrite Ei in H1. inversion H1; subst. exists si'. rewrite upd_same. split; auto.
      exact (done_stable _ _ _ _ _ _ 0 Hs H2).
    + exists sx. rewrite upd_other by auto. auto.
Qed.

Lemma ninit_NInv : NInv ninit.
Proof.
  constructor; cbn [ParWorkMulti.ninit outer inn].
  - apply reach_init.
  - intros i si H; discriminate.
  - intros i Hi. unfold init_state in Hi. destruct (add_all inits [] []); simpl in Hi. destruct Hi.
Qed.

Lemma nreachable_NInv ns : nreachable ns -> NInv ns.
Proof. induction 1; [apply ninit_NInv|eapply nstep_NInv; eauto]. Qed.

(* PROJECTION: every level of a nested run is a reachable state of its own single-Work system (so the theorems about
   one Work hold for the outer Work and for every inner Work); an inner Work exists only for an outer item whose f has
   begun; f(i) has returned only if the Do of its inner Work has *)
Theorem nested_projection ns : nreachable ns ->
  reachable n children inits (outer ns) /\
  (forall i si, inn ns i = Some si -> cfg_reachable (inner i) si /\ In i (started (outer ns))) /\
  (forall i, In i (finished (outer ns)) -> exists si, inn ns i = Some si /\ nth_error (pcs si) 0 = Some Done).
Proof. intros H. destruct (nreachable_NInv ns H); auto. Qed.

(* FRAME: a step of one inner Work changes neither the outer Work nor any other inner Work; an outer step changes no
   existing inner Work *)
Theorem nested_frame ns l ns' : nstep ns l = Some ns' ->
  match l with
  | LInner i _ _ => outer ns' = outer ns /\ forall x, x <> i -> inn ns' x = inn ns x
  | LOuter _ _ => forall x sx, inn ns x = Some sx -> inn ns' x = Some sx
  end.
Proof.
  intros Hs. apply nstep_R in Hs. destruct Hs; cbn [outer inn]; auto.
  - intros x sx Hx. rewrite upd_other; auto. intros ->. congruence.
  - split; auto. intros x Hx. apply upd_other; auto.
Qed.

(* when the OUTER Do has returned, every outer item reachable from the initial ones has run its inner Work to the end:
   the inner Do returned, nothing is queued or in progress there, exactly the inner Work's reachable items finished *)
Theorem nested_do_returns ns : nreachable ns -> nth_error (pcs (outer ns)) 0 = Some Done ->
  forall i, reach children inits i ->
  exists si, inn ns i = Some si /\ nth_error (pcs si) 0 = Some Done /\ todo si = [] /\ cnt is_run (pcs si) = 0 /\
             (forall x, cfg_reach (inner i) x <-> In x (finished si)) /\ NoDup (finished si).
Proof.
  intros Hr H0 i Hi. destruct (nreachable_NInv ns Hr) as [Ho Hin Hf].
  destruct (do_returns _ _ _ n_ok _ Ho H0) as (_ & _ & Hre & _).
  destruct (Hf i (proj1 (Hre i) Hi)) as (si & Hsi & Hd). exists si. split; auto. split; auto.
  destruct (Hin i si Hsi) as [Hri _].
  destruct (do_returns _ _ _ (inner_n_ok i) _ Hri Hd) as (H1 & H2 & H3 & H4 & _). auto.
Qed.

Lemma inner_scan ns : forall L,
  forallb (inner_done ns) L = true \/ exists i si, In i L /\ inn ns i = Some si /\ all_done si = false.
Proof.
  induction L as [|i L IH]; [left; reflexivity|].
  destruct IH as [IH|(x & sx & H1 & H2 & H3)]; [|right; exists x, sx; simpl; auto].
  destruct (inner_done ns i) eqn:Ed.
  - left. cbn [forallb]. rewrite Ed, IH. reflexivity.
  - right. unfold inner_done in Ed. destruct (inn ns i) as [si|] eqn:Ei; [|discriminate]. exists i, si. simpl; auto.
Qed.

(* NO DEADLOCK: unless every runner of every level has returned, some step exists *)
Theorem nested_no_deadlock ns : nreachable ns -> nfinal ns = true \/ exists l ns', nstep ns l = Some ns'.
Proof.
  intros Hr. destruct (nreachable_NInv ns Hr) as [Ho Hin Hf].
  destruct (inner_scan ns (started (outer ns))) as [Hall|(i & si & Hi & Hsi & Hnd)].
  - destruct (no_deadlock _ _ _ n_ok _ Ho) as [Hd|(t & c & s' & Hs)].
    + left. unfold nfinal. rewrite Hd, Hall. reflexivity.
    + right. exists (LOuter t c). cbn [ParWorkMulti.nstep].
      destruct (at_inner_call (outer ns) t) as [i|] eqn:Ea; [|rewrite Hs; simpl; eauto].
      destruct (inn ns i) as [si|] eqn:Ei; [|eauto].
      destruct (Hin i si Ei) as [Hri Hst].
      rewrite forallb_forall in Hall. specialize (Hall i Hst). unfold inner_done in Hall. rewrite Ei in Hall.
      rewrite (all_done_thread0 _ _ _ _ (inner_n_ok i) Hri Hall). rewrite Hs. simpl. eauto.
  - right. destruct (Hin i si Hsi) as [Hri _].
    destruct (cfg_no_deadlock _ _ (inner_good i) Hri) as [Hd|([t c] & si' & Hs)]; [congruence|].
    exists (LInner i t c). cbn [ParWorkMulti.nstep]. rewrite Hsi, Hs. eauto.
Qed.

(* the final state, spelled out *)
Theorem nested_final_spec ns : nreachable ns -> nfinal ns = true ->
  all_done (outer ns) = true /\
  (forall i si, inn ns i = Some si -> all_done si = true) /\
  (forall i, reach children inits i -> exists si, inn ns i = Some si /\ all_done si = true /\
     (forall x, cfg_reach (inner i) x <-> In x (finished si))).
Proof.
  intros Hr Hfin. unfold nfinal in Hfin. apply andb_true_iff in Hfin as [Hd Hall].
  destruct (nreachable_NInv ns Hr) as [Ho Hin Hf]. rewrite forallb_forall in Hall.
  assert (Hi : forall i si, inn ns i = Some si -> all_done si = true).
  { intros i si H. destruct (Hin i si H) as [_ Hst]. specialize (Hall i Hst). unfold inner_done in Hall.
    rewrite H in Hall. exact Hall. }
  repeat split; auto. intros i Hre.
  destruct (nested_do_returns ns Hr (all_done_thread0 _ _ _ _ n_ok Ho Hd) i Hre) as (si & H1 & _ & _ & _ & H5 & _).
  exists si. repeat split; eauto; apply H5.
Qed.

(* the inner Work of i moves (or comes into being) and its potential is now below what ipot gave it *)
Lemma ipot_upd ns o i si' : In i U -> cfg_phi (inner i) si' < ipot ns i ->
  list_sum (map (ipot (mkN o (upd (inn ns) i si'))) U) < list_sum (map (ipot ns) U).
Proof.
  intros HiU Hlt. apply list_sum_map_lt with (i := i); auto; unfold ParWorkMulti.ipot in *; cbn [inn].
  - intros x _. destruct (Nat.eq_dec x i) as [->|Hne]; [rewrite upd_same; lia|rewrite upd_other by auto; lia].
  - rewrite upd_same. exact Hlt.
Qed.

(* TERMINATION: the potential strictly decreases on every step of every level *)
Theorem nested_phi_decreases ns l ns' : nreachable ns -> nstep ns l = Some ns' -> nphi ns' < nphi ns.
Proof.
  intros Hr Hs. destruct (nreachable_NInv ns Hr) as [Ho Hin Hf]. unfold ParWorkMulti.nphi.
  assert (HinU : forall i, In i (started (outer ns)) -> In i U).
  { intros i Hi. eapply reach_in_U; eauto. eapply started_reach; eauto. }
  apply nstep_R in Hs. destruct Hs; cbn [outer].
  - pose proof (phi_decreases _ _ _ n_ok U U_nodup U_inits U_closed _ _ _ _ Ho Hs).
    change (list_sum (map (ipot (mkN s' (inn ns))) U)) with (list_sum (map (ipot ns) U)). lia.
  - destruct (at_inner_call_spec _ _ _ Ea) as (j & Hp & Hch).
    apply Nat.add_lt_mono_l, ipot_upd; [apply HinU; eapply run_started; eauto|].
    unfold ParWorkMulti.ipot. rewrite Ei. lia.
  - destruct (Hin i si Ei) as [Hri Hst].
    apply Nat.add_lt_mono_l, ipot_upd; auto. unfold ParWorkMulti.ipot. rewrite Ei.
    exact (cfg_phi_decreases _ _ _ _ (inner_good i) Hri Hs).
Qed.

Lemma nrun_reachable sch : forall ns ns', nreachable ns -> nrun sch ns = Some ns' -> nreachable ns'.
Proof. exact (srun_R nstep nreachable nreach_step sch). Qed.

(* every schedule of the nested program is finite: at most nphi(start) steps, all levels together *)
Theorem nested_schedules_finite sch : forall ns ns', nreachable ns -> nrun sch ns = Some ns' ->
  length sch + nphi ns' <= nphi ns.
Proof. exact (srun_finite nstep nreachable nphi nreach_step nested_phi_decreases sch). Qed.

(* ... and can always be completed to the state in which every runner of every level has returned *)
Theorem nested_can_finish ns : nreachable ns ->
  exists sch ns', nrun sch ns = Some ns' /\ nfinal ns' = true /\ length sch <= nphi ns.
Proof.
  exact (srun_can_finish nstep nreachable nphi nfinal nreach_step nested_phi_decreases nested_no_deadlock ns).
Qed.
End NestedProofs.

(* two Work objects: A = Do(2) over 0 -> 1, B = Do(1) over a single item 0 (the SAME item value as A's) *)
Definition ex_children_chain (i : item) : list item := match i with 0 => [1] | _ => [] end.
Definition ex_cfgA : wcfg := mkCfg 2 ex_children_chain [0] [0; 1].
Definition ex_cfgB : wcfg := mkCfg 1 (fun _ => []) [0] [0].
Definition ex_cfgs : list wcfg := [ex_cfgA; ex_cfgB].

Lemma ex_cfgA_good : good ex_cfgA.
Proof.
  unfold good, ex_cfgA; cbn [wn wU winits wchildren]. split; [unfold work_do_min_n; lia|]. split.
  - constructor; [simpl; intuition discriminate|]. constructor; [simpl; tauto|constructor].
  - split; [intros i [<-|[]]; simpl; auto|].
    intros i c [<-|[<-|[]]]; simpl; intuition.
Qed.
Lemma ex_cfgB_good : good ex_cfgB.
Proof.
  unfold good, ex_cfgB; cbn [wn wU winits wchildren]. split; [unfold work_do_min_n; lia|]. split.
  - constructor; [simpl; tauto|constructor].
  - split; [intros i [<-|[]]; simpl; auto|]. intros i c _ [].
Qed.
Example world_example_good : Forall good ex_cfgs.
Proof. constructor; [apply ex_cfgA_good|constructor; [apply ex_cfgB_good|constructor]]. Qed.

(* an interleaving of the two: A's runner 1 parks and is woken by the Add of item 1 while B runs in between *)
Definition ex_wsched : list (nat * (thread * nat)) :=
  [(0, (0, 0)); (1, (0, 0)); (0, (1, 0)); (0, (0, 1)); (1, (0, 0)); (0, (0, 0)); (0, (1, 0)); (1, (0, 0));
   (0, (0, 0)); (0, (1, 0)); (0, (1, 0)); (0, (0, 0))].
Example world_example_run :
  match wrun ex_cfgs ex_wsched (winit ex_cfgs) with
  | Some ws => wall_done ws && Nat.eqb (wphi ex_cfgs ws) 0 && Nat.ltb 0 (wphi ex_cfgs (winit ex_cfgs))
  | None => false
  end = true.
Proof. vm_compute. reflexivity. Qed.

Example world_example_reachable : exists ws, wreachable ex_cfgs ws /\ wall_done ws = true /\ ws <> winit ex_cfgs.
Proof.
  destruct (wrun ex_cfgs ex_wsched (winit ex_cfgs)) as [ws|] eqn:E; [|vm_compute in E; discriminate].
  exists ws. split; [eapply wrun_reachable; [apply wreach_init|exact E]|].
  vm_compute in E. inversion E; subst. split; [reflexivity|discriminate].
Qed.

(* nesting: outer Do(2) over 0 -> 1; f(i) runs a fresh inner Work Do(2) over 0 -> 1 *)
Definition ex_inner (_ : item) : wcfg := ex_cfgA.
Lemma ex_inner_good : forall i, good (ex_inner i).
Proof. intros i; apply ex_cfgA_good. Qed.

Definition ex_nested_run := auto_run 2 ex_children_chain ex_inner 200 2 (ninit 2 [0]).
Definition is_inner_label (l : nlabel) : bool := match l with LInner _ _ _ => true | _ => false end.

(* the deterministic scheduler completes the nested program: the final state is reached, by a schedule that has steps
   of both levels, within the bound nphi(init) *)
Example nested_example_run :
  let (sch, ns') := ex_nested_run in
  nfinal ns' && existsb is_inner_label sch && negb (forallb is_inner_label sch)
  && Nat.leb (length sch) (nphi 2 ex_children_chain ex_inner [0; 1] (ninit 2 [0]))
  && match nrun 2 ex_children_chain ex_inner sch (ninit 2 [0]) with Some ns'' => nfinal ns'' | None => false end = true.
Proof. vm_compute. reflexivity. Qed.

Example nested_example_reachable :
  exists ns, nreachable 2 ex_children_chain [0] ex_inner ns /\ nfinal ns = true /\
             exists si, inn ns 1 = Some si /\ all_done si = true.
Proof.
  destruct (nrun 2 ex_children_chain ex_inner (fst ex_nested_run) (ninit 2 [0])) as [ns|] eqn:E;
    [|vm_compute in E; discriminate].
  exists ns. split; [eapply nrun_reachable; [apply nreach_init|exact E]|].
  assert (Hf : match nrun 2 ex_children_chain ex_inner (fst ex_nested_run) (ninit 2 [0]) with
               | Some ns' => nfinal ns' && match inn ns' 1 with Some si => all_done si | None => false end
               | None => false end = true) by (vm_compute; reflexivity).
  rewrite E in Hf. apply andb_true_iff in Hf as [H1 H2]. split; auto.
  destruct (inn ns 1) as [si|]; [|discriminate]. eauto.
Qed.
