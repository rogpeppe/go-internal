(* Non-vacuity: concrete schedules of the par.Work and par.Cache models, and a concrete value
   for every hypothesis the C09/C10 theorems carry. *)
From Coq Require Import List Arith Bool Lia.
From GI Require Import Gen.ParConsts Par.ParWork Par.ParLib Par.ParWorkProofs Par.ParCache Par.ParCacheBase Par.ParCacheProofs.
Import ListNotations.

(* item graph: 0 -> 1,2   1 -> 2,3   2 -> 3   3 -> (nothing); initial Adds: 0, 0 (a duplicate) *)
Definition ex_children (i : nat) : list nat :=
  match i with 0 => [1; 2] | 1 => [2; 3] | 2 => [3] | _ => [] end.
Definition ex_inits : list nat := [0; 0].
Definition ex_U : list nat := [0; 1; 2; 3].

(* three runners; the schedule contains parking (thread 2 at step 2), Signal wake-ups with an
   explicit choice of the waiter (step 4: thread 1 wakes thread 2), duplicate Adds, the final
   Broadcast, and ends with every runner returned *)
Definition ex_sched3 : list (nat * nat) :=
  [(1, 0); (2, 3); (0, 3); (1, 2); (2, 0); (1, 0); (1, 3); (2, 3); (0, 0); (1, 3); (2, 1);
   (0, 3); (1, 0); (2, 3); (0, 3); (1, 3); (2, 3); (0, 3); (1, 3); (2, 3); (0, 3)].

Example ex_work_run3 :
  run 3 ex_children ex_sched3 (init_state 3 ex_inits) =
  Some (mkState [Done; Done; Done] [] [3; 2; 1; 0] 3 [3; 2; 1; 0] [3; 2; 1; 0]).
Proof. vm_compute. reflexivity. Qed.

Example ex_work_parks :
  option_map pcs (run 3 ex_children [(1, 0); (2, 3); (0, 3)] (init_state 3 ex_inits)) =
  Some [Parked; Run 0 0; Parked].
Proof. vm_compute. reflexivity. Qed.

(* the duplicate initial Add is ignored *)
Example ex_work_init : init_state 3 ex_inits = mkState [Top; Top; Top] [0] [0] 0 [] [].
Proof. reflexivity. Qed.

(* a parked thread has no step; a wake choice that is not a waiter is not a step *)
Example ex_work_blocked :
  forall s, run 3 ex_children [(1, 0); (2, 3); (0, 3)] (init_state 3 ex_inits) = Some s ->
  (forall c, step 3 ex_children s (0, c) = None) /\ step 3 ex_children s (1, 1) = None /\
  step 3 ex_children s (1, 2) <> None.
Proof.
  vm_compute. intros s H; inversion H; subst; clear H. repeat split; try discriminate.
Qed.

(* non-vacuity of C09_wakeup_per_item: two runners asleep, then f(0) adds items 1 and 2; each Add signals one of
   them: two items queued, two runners (both Woken) on their way, nobody left asleep; after the first Add alone:
   one item queued, one runner on its way, one still asleep -- the premise 0 < parked holds there *)
Example ex_wakeup_one :
  option_map (fun s => (pcs s, todo s, wakeup_ok s))
    (run 3 ex_children [(1, 0); (2, 3); (0, 3); (1, 2)] (init_state 3 ex_inits)) =
  Some ([Parked; Run 0 1; Woken], [1], true).
Proof. vm_compute. reflexivity. Qed.
Example ex_wakeup_two :
  option_map (fun s => (pcs s, todo s, wakeup_ok s))
    (run 3 ex_children [(1, 0); (2, 3); (0, 3); (1, 2); (1, 0)] (init_state 3 ex_inits)) =
  Some ([Woken; Run 0 2; Woken], [1; 2], true).
Proof. vm_compute. reflexivity. Qed.
(* ... and both woken runners take an item while f(0) is still running (C09_queued_items_get_runners): three calls in
   progress together with n = 3, nothing added or finished meanwhile *)
Example ex_get_runners :
  option_map (fun s => (pcs s, todo s, finished s))
    (run 3 ex_children ([(1, 0); (2, 3); (0, 3); (1, 2); (1, 0)] ++ [(0, 0); (2, 0)]) (init_state 3 ex_inits)) =
  Some ([Run 1 0; Run 0 2; Run 2 0], [], []).
Proof. vm_compute. reflexivity. Qed.
(* a state that VIOLATES the predicate (not reachable): an item queued, a runner asleep, nobody coming *)
Example ex_wakeup_violated : wakeup_ok (mkState [Parked; Run 0 2; Parked] [1] [1; 0] 2 [0] []) = false.
Proof. reflexivity. Qed.

Example ex_n_ok : work_do_min_n <= 3. Proof. unfold work_do_min_n; lia. Qed.
Example ex_U_nodup : NoDup ex_U. Proof. repeat constructor; simpl; intuition discriminate. Qed.
Example ex_U_inits : forall i, In i ex_inits -> In i ex_U. Proof. simpl; intuition. Qed.
Example ex_U_closed : forall i c, In i ex_U -> In c (ex_children i) -> In c ex_U.
Proof. simpl; intros i c [<-|[<-|[<-|[<-|[]]]]]; simpl; intuition. Qed.

(* the potential on that run: 75 at the start, 0 at the end, 21 steps in between *)
Example ex_phi_init : phi 3 ex_children ex_U (init_state 3 ex_inits) = 75.
Proof. vm_compute. reflexivity. Qed.
Example ex_phi_final :
  option_map (phi 3 ex_children ex_U) (run 3 ex_children ex_sched3 (init_state 3 ex_inits)) = Some 0.
Proof. vm_compute. reflexivity. Qed.

Example ex_reachable3 : forall s, run 3 ex_children ex_sched3 (init_state 3 ex_inits) = Some s ->
  reachable 3 ex_children ex_inits s.
Proof. intros s H. eapply run_reachable; [apply reach_init|exact H]. Qed.

(* every item of the example graph is reachable from the initial items *)
Example ex_reach_all : forall i, In i ex_U -> reach ex_children ex_inits i.
Proof.
  assert (H0 : reach ex_children ex_inits 0) by (apply reach_base; simpl; auto).
  assert (H1 : reach ex_children ex_inits 1) by (eapply reach_child; [exact H0|simpl; auto]).
  assert (H2 : reach ex_children ex_inits 2) by (eapply reach_child; [exact H0|simpl; auto]).
  assert (H3 : reach ex_children ex_inits 3) by (eapply reach_child; [exact H2|simpl; auto]).
  simpl; intros i [<-|[<-|[<-|[<-|[]]]]]; auto.
Qed.

(* Do on an EMPTY work set (no Add before Do) is an instance of every theorem (inits = []): all
   runners start at the loop head with nothing queued, each parks except the last one in, which
   broadcasts; Do returns, f is never called *)
Example ex_work_empty_init : init_state 2 [] = mkState [Top; Top] [] [] 0 [] [].
Proof. reflexivity. Qed.
Example ex_work_empty_run :
  run 2 ex_children [(1, 0); (0, 0); (1, 0)] (init_state 2 []) = Some (mkState [Done; Done] [] [] 2 [] []).
Proof. vm_compute. reflexivity. Qed.
Example ex_work_empty_n1 :
  run 1 ex_children [(0, 0)] (init_state 1 []) = Some (mkState [Done] [] [] 1 [] []).
Proof. vm_compute. reflexivity. Qed.
Example ex_work_empty_nothing_to_do : forall i, ~ reach ex_children [] i.
Proof. intros i H; induction H as [i []|]; auto. Qed.
Example ex_work_empty_returns : forall s, reachable 2 ex_children [] s -> nth_error (pcs s) 0 = Some Done ->
  todo s = [] /\ started s = [] /\ finished s = [].
Proof.
  intros s Hr H0. assert (Hn : work_do_min_n <= 2) by (unfold work_do_min_n; lia).
  destruct (do_returns 2 ex_children [] Hn s Hr H0) as (Htd & _ & Hre & _).
  destruct (exactly_once_safety 2 ex_children [] Hn s Hr) as (_ & _ & _ & _ & Hall).
  repeat split; auto.
  - destruct (started s) as [|i l] eqn:E; auto. exfalso. apply (ex_work_empty_nothing_to_do i).
    apply (Hall i). do 2 right; left; simpl; auto.
  - destruct (finished s) as [|i l] eqn:E; auto. exfalso. apply (ex_work_empty_nothing_to_do i).
    apply Hre. left; auto.
Qed.

Definition ex_fval (k : nat) : option nat := match k with 2 => None | _ => Some (100 + k) end.
Definition ex_nodeps (k : nat) : list nat := [].
Definition ex_nocrash (k : nat) : bool := false.
Definition ex_progs : list (list call) := [[CDo 0; CGet 1]; [CGet 0; CDo 0]; [CDo 1]].

(* thread 0 computes key 0 while thread 1's Get(0) returns nil in the middle of f; thread 1's
   Do(0) then blocks on the mutex (its Lock step is refused while f runs), later sees done under
   the lock and returns f's value without calling f again *)
Definition ex_csched : list nat :=
  [0; 0; 0; 0; 0; 0;          (* t0: Load miss, LoadOrStore, Load1, Lock, Load2, call f *)
   1; 1;                      (* t1: Get(0): Load hit, done = 0 -> nil *)
   1; 1;                      (* t1: Do(0): Load hit, Load1 sees 0 *)
   0; 0; 0;                   (* t0: f returns, plain write, store done *)
   2; 2; 2; 2; 2; 2; 2; 2; 2; 2; 2;   (* t2: Do(1) start to finish *)
   0;                         (* t0: Unlock *)
   1; 1; 1; 1;                (* t1: Lock, Load2 sees done, Unlock, plain read *)
   0; 0; 0; 0].               (* t0: plain read (Do returns), Get(1): Load, Load1, plain read *)

Example ex_cache_run :
  option_map (fun s => (map rets (thrs s), map tpc (thrs s), plain s,
                        fbegins (ents s 0), fbegins (ents s 1)))
             (crun ex_fval ex_nodeps ex_nocrash ex_csched (cinit ex_progs)) =
  Some ([[(CGet 1, Some 101); (CDo 0, Some 100)];
         [(CDo 0, Some 100); (CGet 0, None)];
         [(CDo 1, Some 101)]],
        [Idle; Idle; Idle],
        [(0, 1, false); (0, 0, false); (1, 0, false); (2, 1, false); (2, 1, true); (0, 0, true)],
        1, 1).
Proof. vm_compute. reflexivity. Qed.

(* while f_0 is running under the mutex, thread 1's Lock is not a step, but its Get was *)
Example ex_cache_lock_blocks :
  option_map (fun s => (cenabled ex_fval ex_nodeps ex_nocrash s 0, cenabled ex_fval ex_nodeps ex_nocrash s 1, cenabled ex_fval ex_nodeps ex_nocrash s 2))
             (crun ex_fval ex_nodeps ex_nocrash [0; 0; 0; 0; 0; 0; 1; 1; 1; 1] (cinit ex_progs)) = Some (true, false, true).
Proof. vm_compute. reflexivity. Qed.

(* nested Do: f_0 calls Do(1) and Do(2), f_1 calls Do(2) (as goproxytest's zip cache calls the archive
   cache); f_2 returns nil.  Levels 2 > 1 > 0 witness acyclicity. *)
Definition ex_deps (k : nat) : list nat := match k with 0 => [1; 2] | 1 => [2] | _ => [] end.
Definition ex_level (k : nat) : nat := match k with 0 => 2 | 1 => 1 | _ => 0 end.
Example ex_level_ok : forall k d, In d (ex_deps k) -> ex_level d < ex_level k.
Proof. intros [|[|k]] d; simpl; intuition; subst; simpl; lia. Qed.

Definition ex_nprogs : list (list call) := [[CDo 0]; [CDo 2; CGet 0]].
(* thread 0 alone up to the nested Do(2) inside f_1 inside f_0, where thread 1 has taken e.mu of 2 first *)
Definition ex_nsched : list nat :=
  [1; 1; 1; 1; 1; 1;                   (* t1: Do(2) up to "call f" *)
   0; 0; 0; 0; 0; 0; 0;                (* t0: Do(0) ... f_0 running, starts nested Do(1) *)
   0; 0; 0; 0; 0; 0; 0;                (* t0: Do(1) ... f_1 running, starts nested Do(2) *)
   0; 0].                              (* t0: Do(2): Load hit, Load1 = 0, now at Lock(2): blocked *)
Example ex_nested_blocked :
  option_map (fun s => (map tpc (thrs s), map stack (thrs s), cenabled ex_fval ex_deps ex_nocrash s 0, cenabled ex_fval ex_deps ex_nocrash s 1))
             (crun ex_fval ex_deps ex_nocrash ex_nsched (cinit ex_nprogs)) =
  Some ([DLock 2; DInF 2 0], [[(1, 1); (0, 1)]; []], false, true).
Proof. vm_compute. reflexivity. Qed.

(* ... and on to the end: every f ran once, the nested results were returned into the callers, Get(0)
   finds the value, f_2's nil is a result like any other *)
Definition ex_nsched_rest : list nat :=
  [1; 1; 1; 1; 1;                       (* t1: f_2 returns nil, write, store, unlock, read: Do(2) = nil *)
   0; 0; 0; 0;                          (* t0: Lock(2), Load2 = done, Unlock, read: back in f_1 *)
   0; 0; 0; 0; 0;                       (* t0: f_1 returns, write, store, unlock, read: back in f_0 (j = 1) *)
   0; 0; 0; 0;                          (* t0: nested Do(2) from f_0: Load hit, Load1 done, read *)
   0; 0; 0; 0; 0;                       (* t0: f_0 returns, write, store, unlock, read: Do(0) returns *)
   1; 1; 1].                            (* t1: Get(0) = 100 *)
Example ex_nested_run :
  option_map (fun s => (map rets (thrs s), map nrets (thrs s), map (fun k => fbegins (ents s k)) [0; 1; 2], all_idle s))
             (crun ex_fval ex_deps ex_nocrash (ex_nsched ++ ex_nsched_rest) (cinit ex_nprogs)) =
  Some ([[(CDo 0, Some 100)]; [(CGet 0, Some 100); (CDo 2, None)]],
        [[(2, None); (1, Some 101); (2, None)]; []], [1; 1; 1], true).
Proof. vm_compute. reflexivity. Qed.

Example ex_psi : psi ex_deps (kcL ex_deps ex_level) (cinit ex_nprogs) = 71.
Proof. vm_compute. reflexivity. Qed.

(* without acyclicity Do can deadlock: f_0 calling Do(0) blocks on its own entry mutex.  This refutes
   "no deadlock for every dependency relation" in the model (and sync.Mutex is not re-entrant) *)
Definition ex_selfdeps (k : nat) : list nat := [k].
Theorem self_dependency_deadlocks_refuted :
  exists (deps : nat -> list nat) (progs : list (list call)) (s : cstate),
    creachable ex_fval deps ex_nocrash progs s /\ all_idle s = false /\ forall t, cstep ex_fval deps ex_nocrash s t = None.
Proof.
  exists ex_selfdeps, [[CDo 0]]. eexists. split; [|split].
  - eapply (crun_reachable _ _ _ _ [0; 0; 0; 0; 0; 0; 0; 0; 0]); [apply creach_init|vm_compute; reflexivity].
  - reflexivity.
  - intros [|[|t]]; reflexivity.
Qed.

(* an invocation of f that does not return (non-vacuity of C10_f_crash_never_reinvoked and of
   C10_crashed_do_blocks_get_nil): f_0 panics / calls runtime.Goexit.  Thread 0's goroutine is gone with e.mu of key 0
   held and done = 0; thread 1's Do(0) reaches the mutex and has no step; thread 2's Get(0) returns nil; f_0 began
   once, never ended, and nobody can call it again *)
Definition ex_crash0 (k : nat) : bool := Nat.eqb k 0.
Definition ex_xprogs : list (list call) := [[CDo 0]; [CDo 0; CGet 1]; [CGet 0]].
Definition ex_xsched : list nat := [0; 0; 0; 0; 0; 0; 0;  1; 1;  2; 2].
Example ex_crash_run :
  option_map (fun s => (map tpc (thrs s), map rets (thrs s),
                        (fbegins (ents s 0), fends (ents s 0), orph (ents s 0), locked (ents s 0), isd (ents s 0)),
                        map (cenabled ex_fval ex_nodeps ex_crash0 s) [0; 1; 2], all_idle s))
             (crun ex_fval ex_nodeps ex_crash0 ex_xsched (cinit ex_xprogs)) =
  Some ([Idle; DLock 0; Idle], [[]; []; [(CGet 0, None)]], (1, 0, 1, true, false), [false; false; false], false).
Proof. vm_compute. reflexivity. Qed.

Example ex_crash_reachable : forall s, crun ex_fval ex_nodeps ex_crash0 ex_xsched (cinit ex_xprogs) = Some s ->
  creachable ex_fval ex_nodeps ex_crash0 ex_xprogs s /\ 0 < orph (ents s 0).
Proof.
  intros s H. split; [eapply crun_reachable; [apply creach_init|exact H]|].
  vm_compute in H. inversion H; subst. simpl. lia.
Qed.

(* f_1 fails inside f_0's nested Do(1): the panic unwinds through both Do calls, both entries stay locked *)
Definition ex_crash1 (k : nat) : bool := Nat.eqb k 1.
Definition ex_xdeps (k : nat) : list nat := match k with 0 => [1] | _ => [] end.
Example ex_crash_nested :
  option_map (fun s => (map tpc (thrs s), map stack (thrs s), map (fun k => (fbegins (ents s k), orph (ents s k), locked (ents s k))) [0; 1]))
             (crun ex_fval ex_xdeps ex_crash1 [0; 0; 0; 0; 0; 0; 0;  0; 0; 0; 0; 0; 0; 0] (cinit [[CDo 0; CGet 0]])) =
  Some ([Idle], [[]], [(1, 1, true); (1, 1, true)]).
Proof. vm_compute. reflexivity. Qed.

(* keys are independent: a whole Do(1) by thread 2 leaves the entry of key 0 exactly as it was *)
Example ex_keys_independent :
  option_map (fun s => ents s 0) (crun ex_fval ex_nodeps ex_nocrash [0; 0; 0; 0; 0; 0] (cinit ex_progs)) =
  option_map (fun s => ents s 0) (crun ex_fval ex_nodeps ex_nocrash ([0; 0; 0; 0; 0; 0] ++ [2; 2; 2; 2; 2; 2; 2; 2; 2; 2; 2]) (cinit ex_progs)).
Proof. vm_compute. reflexivity. Qed.
