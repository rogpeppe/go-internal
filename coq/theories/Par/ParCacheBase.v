(* par.Cache model: counting lemmas, the step function case by case
   (stepC) and the counting invariant around the entry mutex and the done flag (InvA). *)
From Coq Require Import List Arith Bool Lia.
From GI Require Import Gen.ParConsts Par.ParWork Par.ParLib Par.ParCache.
Import ListNotations.

(* the two facts about the regenerated constants everything below rests on *)
Lemma done_zero_is_not_done : Nat.eqb 0 cache_done_test = true.
Proof. reflexivity. Qed.
Lemma done_value_is_done : Nat.eqb cache_done_value cache_done_test = false.
Proof. reflexivity. Qed.

(* Cache.Do has no defer statement (regenerated from the source): when f does not return, nothing releases e.mu and
   nothing sets e.done -- the model's crash transition *)
Lemma do_unlock_not_deferred : cache_do_deferred = 0.
Proof. reflexivity. Qed.

Definition is_call (k : nat) (p : cpc) : bool := match p with DCall k' => Nat.eqb k' k | _ => false end.
Definition is_inf (k : nat) (p : cpc) : bool := match p with DInF k' _ => Nat.eqb k' k | _ => false end.
Definition is_st (k : nat) (p : cpc) : bool := match p with DStore k' => Nat.eqb k' k | _ => false end.

Definition C (g : cpc -> bool) (l : list thr) : nat := cntg (fun th => g (tpc th)) l.

Lemma C_set_nth g t th th' l : nth_error l t = Some th ->
  C g (set_nth t th' l) + b2n (g (tpc th)) = C g l + b2n (g (tpc th')).
Proof. intros H; unfold C; apply (cntg_set_nth (fun th => g (tpc th)) t th' th l H). Qed.

Lemma C_cons g th l : C g (th :: l) = b2n (g (tpc th)) + C g l.
Proof. exact (cntg_cons (fun th => g (tpc th)) th l). Qed.

Lemma C_ge1 g l t th : nth_error l t = Some th -> g (tpc th) = true -> 1 <= C g l.
Proof. intros H Hg; unfold C; eapply (cntg_ge1 (fun th => g (tpc th))); eauto. Qed.

(* suspended frames of f_k in a thread / in all threads *)
Definition fr (k : nat) (th : thr) : nat := cntg (fun f : nat * nat => Nat.eqb (fst f) k) (stack th).
Definition F (k : nat) (l : list thr) : nat := list_sum (map (fr k) l).

Lemma F_set_nth k t th th' l : nth_error l t = Some th ->
  F k (set_nth t th' l) + fr k th = F k l + fr k th'.
Proof. intros H; unfold F; apply (sum_set_nth (fr k) t th' th l H). Qed.

Lemma F_exists k l : 0 < F k l -> exists t th, nth_error l t = Some th /\ 0 < fr k th.
Proof.
  unfold F. induction l as [|a l IH]; simpl; [lia|]. intros H.
  destruct (fr k a) eqn:E.
  - destruct IH as (t & th & Ht & Hf); [lia|]. exists (S t), th; auto.
  - exists 0, a; simpl; split; auto; lia.
Qed.

Lemma fr_goto k th p : fr k (goto th p) = fr k th. Proof. reflexivity. Qed.
Lemma fr_ret k th c v : fr k (ret th c v) = fr k th. Proof. reflexivity. Qed.
Lemma fr_push k th k0 j d : fr k (push th k0 j d) = b2n (Nat.eqb k0 k) + fr k th.
Proof. unfold fr, push; simpl stack. rewrite cntg_cons. reflexivity. Qed.
Lemma fr_stack k th k' j' st : stack th = (k', j') :: st ->
  fr k th = b2n (Nat.eqb k' k) + cntg (fun f : nat * nat => Nat.eqb (fst f) k) st.
Proof. intros H; unfold fr; rewrite H, cntg_cons; reflexivity. Qed.
Lemma fr_nil k th : stack th = [] -> fr k th = 0.
Proof. intros H; unfold fr; rewrite H; reflexivity. Qed.
Lemma fr_dead k th : fr k (dead th) = 0. Proof. reflexivity. Qed.
Lemma orphans_fr k0 th k : orphans k0 (stack th) k = b2n (Nat.eqb k0 k) + fr k th.
Proof. unfold orphans, fr, cntg. destruct (Nat.eqb k0 k); reflexivity. Qed.
Lemma fr_mk k p st r rs ns : fr k (mkThr p st r rs ns) = cntg (fun f : nat * nat => Nat.eqb (fst f) k) st.
Proof. reflexivity. Qed.
Lemma fr_frame k th : 0 < fr k th -> exists j, In (k, j) (stack th).
Proof.
  intros H. unfold fr in H. apply cntg_exists in H as (i & [k' j] & Hi & Hk). simpl in Hk.
  apply Nat.eqb_eq in Hk; subst. exists j. eapply nth_error_In; eauto.
Qed.

Lemma upd_proj {A} (f : entry -> A) k0 x (e : nat -> entry) k : f x = f (e k0) -> f (upd k0 x e k) = f (e k).
Proof. intros H. unfold upd. destruct (Nat.eqb_spec k0 k) as [->|]; auto. Qed.

Lemma C_sum_le k l : C (is_call k) l + C (is_inf k) l + C (plain_write k) l + C (is_st k) l <= C (holds k) l.
Proof.
  induction l as [|th l IH]; [reflexivity|]. rewrite !C_cons.
  destruct (tpc th); simpl; try lia; destruct (Nat.eqb _ k); simpl; lia.
Qed.

Lemma C_ge2 g l : forall a b tha thb, a <> b -> nth_error l a = Some tha -> nth_error l b = Some thb ->
  g (tpc tha) = true -> g (tpc thb) = true -> 2 <= C g l.
Proof.
  induction l as [|x l IH]; intros [|a] [|b] tha thb Hab Ha Hb Hga Hgb; simpl in *; try congruence; rewrite !C_cons.
  - inversion Ha; subst. pose proof (C_ge1 g l b thb Hb Hgb). rewrite Hga. simpl. lia.
  - inversion Hb; subst. pose proof (C_ge1 g l a tha Ha Hga). rewrite Hgb. simpl. lia.
  - assert (a <> b) by congruence. specialize (IH a b tha thb H Ha Hb Hga Hgb). lia.
Qed.

Lemma start_cur_neutral l :
  forall k, holds k (fst (start l)) = false /\ is_call k (fst (start l)) = false /\ is_inf k (fst (start l)) = false
    /\ plain_write k (fst (start l)) = false /\ is_st k (fst (start l)) = false.
Proof. intros k; destruct l as [|[] r]; simpl; auto. Qed.

Lemma start_st l k : is_st k (fst (start l)) = false.
Proof. apply start_cur_neutral. Qed.

Lemma isd_done0 e : done e = 0 -> isd e = false.
Proof. intros H; unfold isd; rewrite H, done_zero_is_not_done; reflexivity. Qed.
Lemma isd_donev e : done e = cache_done_value -> isd e = true.
Proof. intros H; unfold isd; rewrite H, done_value_is_done; reflexivity. Qed.

Lemma isd_set_present e : isd (set_present e) = isd e. Proof. reflexivity. Qed.
Lemma isd_set_locked b e : isd (set_locked b e) = isd e. Proof. reflexivity. Qed.
Lemma isd_set_result v e : isd (set_result v e) = isd e. Proof. reflexivity. Qed.
Lemma isd_inc_fbegins e : isd (inc_fbegins e) = isd e. Proof. reflexivity. Qed.
Lemma isd_inc_fends e : isd (inc_fends e) = isd e. Proof. reflexivity. Qed.
Lemma isd_set_done e : isd (set_done cache_done_value e) = true. Proof. apply isd_donev; reflexivity. Qed.
Lemma isd_add_orph n e : isd (add_orph n e) = isd e. Proof. reflexivity. Qed.

Section Base.
Variable fval : nat -> option nat.
Variable deps : nat -> list nat.
Variable crash : nat -> bool.
Variable progs : list (list call).

Notation cstep := (cstep fval deps crash).
Notation crun := (crun fval deps crash).
Notation init := (cinit progs).

Inductive creachable : cstate -> Prop :=
| creach_init : creachable init
| creach_step s t s' : creachable s -> cstep s t = Some s' -> creachable s'.

(* the step function, case by case *)
Inductive stepC (s : cstate) (t : nat) (th : thr) : cstate -> Prop :=
(* loads and tests: the pc moves on inside the call *)
| S_load_hit k0 (Hp : tpc th = DLoad k0) (E : present (ents s k0) = true) :
    stepC s t th (mkC (set_nth t (goto th (DLoad1 k0)) (thrs s)) (ents s) (plain s))
| S_load_miss k0 (Hp : tpc th = DLoad k0) (E : present (ents s k0) = false) :
    stepC s t th (mkC (set_nth t (goto th (DLoadOrStore k0)) (thrs s)) (ents s) (plain s))
| S_los k0 (Hp : tpc th = DLoadOrStore k0) :
    stepC s t th (mkC (set_nth t (goto th (DLoad1 k0)) (thrs s)) (upd k0 (set_present (ents s k0)) (ents s)) (plain s))
| S_l1_done k0 (Hp : tpc th = DLoad1 k0) (E : isd (ents s k0) = true) :
    stepC s t th (mkC (set_nth t (goto th (DRead k0)) (thrs s)) (ents s) (plain s))
| S_l1_not k0 (Hp : tpc th = DLoad1 k0) (E : isd (ents s k0) = false) :
    stepC s t th (mkC (set_nth t (goto th (DLock k0)) (thrs s)) (ents s) (plain s))
| S_l2_done k0 (Hp : tpc th = DLoad2 k0) (E : isd (ents s k0) = true) :
    stepC s t th (mkC (set_nth t (goto th (DUnlock k0)) (thrs s)) (ents s) (plain s))
| S_gload_hit k0 (Hp : tpc th = GLoad k0) (E : present (ents s k0) = true) :
    stepC s t th (mkC (set_nth t (goto th (GLoad1 k0)) (thrs s)) (ents s) (plain s))
| S_gl1_done k0 (Hp : tpc th = GLoad1 k0) (E : isd (ents s k0) = true) :
    stepC s t th (mkC (set_nth t (goto th (GRead k0)) (thrs s)) (ents s) (plain s))
(* the call returns to the program *)
| S_dread k0 (Hp : tpc th = DRead k0) (E : stack th = []) :
    stepC s t th (mkC (set_nth t (ret th (CDo k0) (result (ents s k0))) (thrs s)) (ents s) ((t, k0, false) :: plain s))
| S_gload_miss k0 (Hp : tpc th = GLoad k0) (E : present (ents s k0) = false) :
    stepC s t th (mkC (set_nth t (ret th (CGet k0) None) (thrs s)) (ents s) (plain s))
| S_gl1_not k0 (Hp : tpc th = GLoad1 k0) (E : isd (ents s k0) = false) :
    stepC s t th (mkC (set_nth t (ret th (CGet k0) None) (thrs s)) (ents s) (plain s))
| S_gread k0 (Hp : tpc th = GRead k0) :
    stepC s t th (mkC (set_nth t (ret th (CGet k0) (result (ents s k0))) (thrs s)) (ents s) ((t, k0, false) :: plain s))
(* Do(k0) from taking e.mu to releasing it *)
| S_lock k0 (Hp : tpc th = DLock k0) (E : locked (ents s k0) = false) :
    stepC s t th (mkC (set_nth t (goto th (DLoad2 k0)) (thrs s)) (upd k0 (set_locked true (ents s k0)) (ents s)) (plain s))
| S_l2_not k0 (Hp : tpc th = DLoad2 k0) (E : isd (ents s k0) = false) :
    stepC s t th (mkC (set_nth t (goto th (DCall k0)) (thrs s)) (ents s) (plain s))
| S_call k0 (Hp : tpc th = DCall k0) :
    stepC s t th (mkC (set_nth t (goto th (DInF k0 0)) (thrs s)) (upd k0 (inc_fbegins (ents s k0)) (ents s)) (plain s))
| S_fret k0 j0 (Hp : tpc th = DInF k0 j0) (E : nth_error (deps k0) j0 = None) (Ec : crash k0 = false) :
    stepC s t th (mkC (set_nth t (goto th (DWrite k0 (fval k0))) (thrs s)) (upd k0 (inc_fends (ents s k0)) (ents s)) (plain s))
| S_write k0 v (Hp : tpc th = DWrite k0 v) :
    stepC s t th (mkC (set_nth t (goto th (DStore k0)) (thrs s)) (upd k0 (set_result v (ents s k0)) (ents s))
                      ((t, k0, true) :: plain s))
| S_store k0 (Hp : tpc th = DStore k0) :
    stepC s t th (mkC (set_nth t (goto th (DUnlock k0)) (thrs s)) (upd k0 (set_done cache_done_value (ents s k0)) (ents s)) (plain s))
| S_unlock k0 (Hp : tpc th = DUnlock k0) :
    stepC s t th (mkC (set_nth t (goto th (DRead k0)) (thrs s)) (upd k0 (set_locked false (ents s k0)) (ents s)) (plain s))
(* f_k0 calls Do(d0); a nested Do returns into f_k1; f_k0 fails *)
| S_nest k0 j0 d0 (Hp : tpc th = DInF k0 j0) (E : nth_error (deps k0) j0 = Some d0) :
    stepC s t th (mkC (set_nth t (push th k0 (S j0) d0) (thrs s)) (ents s) (plain s))
| S_nret k0 k1 j1 st1 (Hp : tpc th = DRead k0) (E : stack th = (k1, j1) :: st1) :
    stepC s t th (mkC (set_nth t (mkThr (DInF k1 j1) st1 (rest th) (rets th) ((k0, result (ents s k0)) :: nrets th)) (thrs s))
                      (ents s) ((t, k0, false) :: plain s))
| S_crash k0 j0 (Hp : tpc th = DInF k0 j0) (E : nth_error (deps k0) j0 = None) (Ec : crash k0 = true) :
    stepC s t th (mkC (set_nth t (dead th) (thrs s)) (fun k' => add_orph (orphans k0 (stack th) k') (ents s k')) (plain s)).

Lemma cstep_inv s t s' : cstep s t = Some s' -> exists th, nth_error (thrs s) t = Some th /\ stepC s t th s'.
Proof.
  unfold ParCache.cstep. destruct (nth_error (thrs s) t) as [th|] eqn:Hn; [|discriminate].
  intros H. exists th. split; auto.
  destruct (tpc th) eqn:Hp; try discriminate.
  - destruct (present (ents s k)) eqn:E; injection H as <-; [eapply S_load_hit|eapply S_load_miss]; eauto.
  - injection H as <-. eapply S_los; eauto.
  - destruct (isd (ents s k)) eqn:E; injection H as <-; [eapply S_l1_done|eapply S_l1_not]; eauto.
  - destruct (locked (ents s k)) eqn:E; [discriminate|]. injection H as <-. eapply S_lock; eauto.
  - destruct (isd (ents s k)) eqn:E; injection H as <-; [eapply S_l2_done|eapply S_l2_not]; eauto.
  - injection H as <-. eapply S_call; eauto.
  - destruct (nth_error (deps k) j) as [d|] eqn:E; [injection H as <-; eapply S_nest; eauto|].
    destruct (crash k) eqn:Ec; injection H as <-; [eapply S_crash|eapply S_fret]; eauto.
  - injection H as <-. eapply S_write; eauto.
  - injection H as <-. eapply S_store; eauto.
  - injection H as <-. eapply S_unlock; eauto.
  - unfold do_return in H. destruct (stack th) as [|[k' j'] st] eqn:E; injection H as <-; [eapply S_dread|eapply S_nret]; eauto.
  - destruct (present (ents s k)) eqn:E; injection H as <-; [eapply S_gload_hit|eapply S_gload_miss]; eauto.
  - destruct (isd (ents s k)) eqn:E; injection H as <-; [eapply S_gl1_done|eapply S_gl1_not]; eauto.
  - injection H as <-. eapply S_gread; eauto.
Qed.

(* the counting invariant around the mutex and the done flag, key by key *)
Record InvK (k : nat) (l : list thr) (e : entry) : Prop := {
  a_lock : C (holds k) l + F k l + orph e = b2n (locked e);
  a_nof : isd e = true ->
            C (is_call k) l + C (is_inf k) l + F k l + C (plain_write k) l + C (is_st k) l + orph e = 0;
  a_fb : fbegins e = C (is_inf k) l + F k l + C (plain_write k) l + C (is_st k) l + b2n (isd e) + orph e;
  a_fe : fends e = C (plain_write k) l + C (is_st k) l + b2n (isd e)
}.
Definition InvA (s : cstate) : Prop := forall k, InvK k (thrs s) (ents s k).

Lemma C_init g : (forall l, g (fst (start l)) = false) -> C g (thrs init) = 0.
Proof.
  intros H. unfold cinit; simpl. induction progs as [|p l IH]; [reflexivity|].
  simpl map. rewrite C_cons. simpl. rewrite H. simpl. exact IH.
Qed.

Lemma F_init k : F k (thrs init) = 0.
Proof. unfold cinit, F; cbn [thrs]. induction progs as [|p l IH]; [reflexivity|]. simpl. exact IH. Qed.

Lemma init_InvA : InvA init.
Proof.
  intros k. constructor; rewrite ?F_init; simpl; rewrite ?C_init; auto; try (intros l; apply (start_cur_neutral l k)).
Qed.

(* InvK sees a thread only through what it counts for at key k, where a suspended frame of f_k counts like a
   thread inside f_k (it holds e.mu of k, and its invocation of f_k is in progress) ... *)
Definition share (k : nat) (th : thr) : nat * nat * bool * bool * bool :=
  (b2n (holds k (tpc th)) + fr k th, b2n (is_inf k (tpc th)) + fr k th,
   is_call k (tpc th), plain_write k (tpc th), is_st k (tpc th)).
(* ... and an entry only through these fields *)
Definition core (e : entry) : nat * bool * nat * nat * nat := (done e, locked e, fbegins e, fends e, orph e).

Lemma share_ret k th c v : share k (ret th c v) = (fr k th, fr k th, false, false, false).
Proof.
  unfold share; cbn [ret tpc]. destruct (start_cur_neutral (rest th) k) as (-> & -> & -> & -> & ->). reflexivity.
Qed.

Lemma counters_set_nth k l t th th' : nth_error l t = Some th ->
  C (holds k) (set_nth t th' l) + b2n (holds k (tpc th)) = C (holds k) l + b2n (holds k (tpc th')) /\
  C (is_call k) (set_nth t th' l) + b2n (is_call k (tpc th)) = C (is_call k) l + b2n (is_call k (tpc th')) /\
  C (is_inf k) (set_nth t th' l) + b2n (is_inf k (tpc th)) = C (is_inf k) l + b2n (is_inf k (tpc th')) /\
  C (plain_write k) (set_nth t th' l) + b2n (plain_write k (tpc th)) = C (plain_write k) l + b2n (plain_write k (tpc th')) /\
  C (is_st k) (set_nth t th' l) + b2n (is_st k (tpc th)) = C (is_st k) l + b2n (is_st k (tpc th')) /\
  F k (set_nth t th' l) + fr k th = F k l + fr k th'.
Proof. intros Hn. repeat split; (apply C_set_nth || apply F_set_nth); exact Hn. Qed.

(* a step that changes neither: loads, tests, returns; f starting or resuming from a nested Do *)
Lemma InvK_neutral k l t th th' e e' : nth_error l t = Some th -> share k th' = share k th -> core e' = core e ->
  InvK k l e -> InvK k (set_nth t th' l) e'.
Proof.
  intros Hn Hs He [Hlock Hnof Hfb Hfe]. destruct (counters_set_nth k l t th th' Hn) as (Hh & Hc & Hi & Hw & Hst & Hf).
  injection Hs as S1 S2 S3 S4 S5. rewrite S3 in Hc. rewrite S4 in Hw. rewrite S5 in Hst.
  injection He as E1 E2 E3 E4 E5.
  constructor; unfold isd in *; rewrite ?E1, ?E2, ?E3, ?E4, ?E5; [lia|intros X; specialize (Hnof X); lia|lia|lia].
Qed.

(* f fails: what the thread held is orphaned *)
Lemma InvK_crash k l t th e k0 j : nth_error l t = Some th -> tpc th = DInF k0 j ->
  InvK k l e -> InvK k (set_nth t (dead th) l) (add_orph (orphans k0 (stack th) k) e).
Proof.
  intros Hn Hp [Hlock Hnof Hfb Hfe]. destruct (counters_set_nth k l t th (dead th) Hn) as (Hh & Hc & Hi & Hw & Hst & Hf).
  rewrite Hp, fr_dead in *. rewrite orphans_fr. cbn [dead tpc holds is_call is_inf plain_write is_st b2n] in *.
  constructor; cbn [add_orph orph locked fbegins fends]; rewrite ?isd_add_orph;
    [lia|intros X; specialize (Hnof X); lia|lia|lia].
Qed.

(* the steps of Do(k) from taking e.mu of k to releasing it, with what each does to the entry *)
Inductive kstep (k : nat) (e : entry) : cpc -> cpc -> entry -> Prop :=
| K_lock : locked e = false -> kstep k e (DLock k) (DLoad2 k) (set_locked true e)
| K_enter : isd e = false -> kstep k e (DLoad2 k) (DCall k) e
| K_call : kstep k e (DCall k) (DInF k 0) (inc_fbegins e)
| K_fret j v : kstep k e (DInF k j) (DWrite k v) (inc_fends e)
| K_write v : kstep k e (DWrite k v) (DStore k) (set_result v e)
| K_store : kstep k e (DStore k) (DUnlock k) (set_done cache_done_value e)
| K_unlock : kstep k e (DUnlock k) (DRead k) (set_locked false e).

Lemma InvK_kstep k l t th p' e e' : nth_error l t = Some th -> kstep k e (tpc th) p' e' ->
  InvK k l e -> InvK k (set_nth t (goto th p') l) e'.
Proof.
  intros Hn Hk [Hlock Hnof Hfb Hfe].
  destruct (counters_set_nth k l t th (goto th p') Hn) as (Hh & Hc & Hi & Hw & Hst & Hf).
  pose proof (C_sum_le k l) as Hle. pose proof (b2n_le1 (locked e)) as Hb.
  rewrite fr_goto in Hf. cbn [goto tpc] in *. set (l' := set_nth t _ l) in *. remember (tpc th) as p eqn:Hp.
  destruct Hk as [Hl|Hd| | | | |]; cbn [holds is_call is_inf plain_write is_st] in *; rewrite Nat.eqb_refl in *;
    try rewrite Hl in Hlock; unfold isd in *; cbn [b2n] in *.
  (* all but K_store *)
  1-5, 7: (constructor; unfold isd; cbn [b2n locked done fbegins fends orph set_locked inc_fbegins inc_fends set_result];
           [lia|intros X; try (rewrite Hd in X; discriminate X); specialize (Hnof X); lia|lia|lia]).
  (* store: the thread at DStore holds e.mu, so no other thread is past the test under the lock and nothing is orphaned *)
  destruct (negb _); [specialize (Hnof eq_refl); lia|].
  constructor; unfold isd; cbn [locked done fbegins fends orph set_done]; rewrite ?done_value_is_done;
    cbn [b2n negb] in *; [lia|intros _; lia|lia|lia].
Qed.

Lemma step_InvA s t th s' : InvA s -> nth_error (thrs s) t = Some th -> stepC s t th s' -> InvA s'.
Proof.
  intros HA Hn HS k. specialize (HA k).
  destruct HS; cbn [thrs ents].
  (* loads and tests *)
  1-8: (eapply InvK_neutral; [exact Hn | unfold share; rewrite Hp; reflexivity | | exact HA]);
    (reflexivity || apply (upd_proj core); reflexivity).
  (* returns to the program *)
  1-4: (eapply InvK_neutral; [exact Hn | rewrite share_ret; unfold share; rewrite Hp; reflexivity | reflexivity | exact HA]).
  (* Lock to Unlock: at key k0 the step is a kstep; at another key the thread counts for nothing, before and after *)
  1-7: unfold upd; destruct (Nat.eqb_spec k0 k) as [->|Hne];
    [eapply InvK_kstep; [exact Hn | rewrite Hp; constructor; assumption | exact HA]
    |eapply InvK_neutral; [exact Hn | unfold share; rewrite Hp | reflexivity | exact HA];
     cbn [goto tpc holds is_call is_inf plain_write is_st]; rewrite (proj2 (Nat.eqb_neq k0 k) Hne); reflexivity].
  - (* S_nest *) eapply InvK_neutral; [exact Hn | unfold share; rewrite Hp, fr_push; reflexivity | reflexivity | exact HA].
  - (* S_nret *) eapply InvK_neutral; [exact Hn | unfold share; rewrite Hp, (fr_stack k th _ _ _ E); reflexivity | reflexivity | exact HA].
  - (* S_crash *) eapply InvK_crash; eassumption.
Qed.

End Base.
