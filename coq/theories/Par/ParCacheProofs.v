(* Proofs about the par.Cache model (ParCache.v): f runs at most once per key (exactly once
   when somebody asked), Do returns f's value and only after f completed, also for Do calls nested
   in f; Get never blocks and returns nil or that value (nil only before the computation finished);
   the two plain accesses to e.result never race; no deadlock and termination when the
   dependency relation between keys is acyclic.  For every set of programs and every schedule. *)
From Coq Require Import List Arith Bool Lia.
From GI Require Import Gen.ParConsts Par.ParWork Par.ParLib Par.ParCache Par.ParCacheBase.
Import ListNotations.

Section Proofs.
Variable fval : nat -> option nat.
Variable deps : nat -> list nat.
Variable crash : nat -> bool.
Variable progs : list (list call).

Notation cstep := (cstep fval deps crash).
Notation crun := (crun fval deps crash).
Notation init := (cinit progs).
Notation creachable := (creachable fval deps crash progs).
Notation stepC := (stepC fval deps crash).

Definition deps_done (e : nat -> entry) (k : nat) : Prop := forall d, In d (deps k) -> isd (e d) = true.

Definition pc_ok (e : nat -> entry) (p : cpc) : Prop :=
  match p with
  | DInF k j => forall m d, m < j -> nth_error (deps k) m = Some d -> isd (e d) = true
  | DWrite k v => v = fval k /\ deps_done e k
  | DStore k => deps_done e k
  | DUnlock k | DRead k | GRead k => isd (e k) = true
  | _ => True
  end.
Definition ret_ok (e : nat -> entry) (cv : call * option nat) : Prop :=
  match cv with
  | (CDo k, v) => v = fval k /\ isd (e k) = true
  | (CGet k, v) => v = None \/ (v = fval k /\ isd (e k) = true)
  end.
Definition nret_ok (e : nat -> entry) (kv : nat * option nat) : Prop :=
  snd kv = fval (fst kv) /\ isd (e (fst kv)) = true.
(* a suspended frame (k, j): the nested calls before the current one (index j-1) have completed *)
Definition frame_ok (e : nat -> entry) (f : nat * nat) : Prop :=
  forall m d, S m < snd f -> nth_error (deps (fst f)) m = Some d -> isd (e d) = true.
(* the call chain: the running Do(c) is the nested call the top frame is waiting for, and so on down *)
Fixpoint chain_ok (c : nat) (st : list (nat * nat)) : Prop :=
  match st with
  | [] => True
  | (k, j) :: r => (exists j0, j = S j0 /\ nth_error (deps k) j0 = Some c) /\ chain_ok k r
  end.
Definition dokey (p : cpc) : option nat :=
  match p with
  | DLoad k | DLoadOrStore k | DLoad1 k | DLock k | DLoad2 k | DCall k | DInF k _ | DWrite k _ | DStore k
  | DUnlock k | DRead k => Some k
  | _ => None
  end.
Definition thr_chain (th : thr) : Prop :=
  match dokey (tpc th) with Some c => chain_ok c (stack th) | None => stack th = [] end.

Record thr_ok (e : nat -> entry) (th : thr) : Prop := {
  t_pc : pc_ok e (tpc th);
  t_rets : Forall (ret_ok e) (rets th);
  t_nrets : Forall (nret_ok e) (nrets th);
  t_frames : Forall (frame_ok e) (stack th);
  t_chain : thr_chain th
}.

(* the plain write to e.result of k has happened: its writer is about to set done, or done is set *)
Definition written (k : nat) (s : cstate) : Prop := 0 < C (is_st k) (thrs s) \/ isd (ents s k) = true.

Record InvB (s : cstate) : Prop := {
  b_res : forall k, written k s -> result (ents s k) = fval k;
  b_deps : forall k, isd (ents s k) = true -> deps_done (ents s) k;
  b_thr : Forall (thr_ok (ents s)) (thrs s)
}.

Definition mono (e e' : nat -> entry) : Prop := forall k, isd (e k) = true -> isd (e' k) = true.

Lemma deps_done_mono e e' k : mono e e' -> deps_done e k -> deps_done e' k.
Proof. intros H Hd d Hin; auto. Qed.
Lemma pc_ok_mono e e' p : mono e e' -> pc_ok e p -> pc_ok e' p.
Proof.
  intros H; destruct p; simpl; auto.
  - intros Hp m d Hm Hd; eauto.
  - intros [? ?]; split; auto; eapply deps_done_mono; eauto.
  - apply deps_done_mono; auto.
Qed.

Lemma thr_ok_mono e e' th : mono e e' -> thr_ok e th -> thr_ok e' th.
Proof.
  intros H [H1 H2 H3 H4 H5]; constructor; auto.
  - eapply pc_ok_mono; eauto.
  - eapply Forall_impl; [|exact H2]. intros [[k|k] v]; simpl; intuition.
  - eapply Forall_impl; [|exact H3]. intros kv [? ?]; split; auto.
  - eapply Forall_impl; [|exact H4]. intros f Hf m d Hm Hd; eauto.
Qed.

Lemma init_InvB : InvB init.
Proof.
  constructor.
  - intros k [H|H]; [|discriminate]. rewrite C_init in H; [lia|]. intros l; apply (start_cur_neutral l k).
  - intros k H; discriminate.
  - unfold cinit; cbn [thrs ents]. apply Forall_forall. intros th Hth. apply in_map_iff in Hth as (p & <- & _).
    constructor; simpl; auto; destruct p as [|[] r]; simpl; auto; try exact I; reflexivity.
Qed.

Lemma mono_upd e k0 x : (isd (e k0) = true -> isd x = true) -> mono e (upd k0 x e).
Proof. intros H k Hk. unfold upd. destruct (Nat.eqb_spec k0 k) as [->|]; auto. Qed.

Lemma thr_ok_goto e e' th p : mono e e' -> thr_ok e th -> pc_ok e' p -> dokey p = dokey (tpc th) ->
  thr_ok e' (goto th p).
Proof.
  intros Hm Hok Hp Hk. destruct (thr_ok_mono _ _ _ Hm Hok) as [H1 H2 H3 H4 H5].
  constructor; auto. unfold thr_chain in *. cbn [goto tpc stack]. rewrite Hk. exact H5.
Qed.

Lemma thr_ok_ret e th c v : thr_ok e th -> stack th = [] -> ret_ok e (c, v) -> thr_ok e (ret th c v).
Proof.
  intros [H1 H2 H3 H4 H5] Hs Hr. constructor; cbn [ret tpc rets nrets stack]; auto.
  - destruct (rest th) as [|[] r]; exact I.
  - unfold thr_chain. cbn [ret tpc stack]. rewrite Hs. destruct (dokey (fst (start (rest th)))); simpl; auto.
Qed.

(* a thread inside Get has no suspended f *)
Lemma thr_chain_get th : thr_chain th -> in_get (tpc th) = true -> stack th = [].
Proof. unfold thr_chain. destruct (tpc th); simpl; auto; discriminate. Qed.

Lemma step_mono s t th s' : stepC s t th s' -> mono (ents s) (ents s').
Proof.
  intros HS; destruct HS; cbn [ents]; try (apply mono_upd; auto; fail); intros k' Hk'; exact Hk'.
Qed.

(* done is set by the store of Do only *)
Lemma step_isd s t th s' k : stepC s t th s' -> isd (ents s' k) = true -> isd (ents s k) = true \/ tpc th = DStore k.
Proof.
  intros HS; destruct HS; cbn [ents]; auto; unfold upd; destruct (Nat.eqb_spec k0 k) as [<-|]; auto.
Qed.

(* what a step publishes.  Only the plain write makes a key written or changes a result; the plain reads append to
   the history of plain accesses; every other step leaves all three alone *)
Lemma step_pub s t th s' : nth_error (thrs s) t = Some th -> stepC s t th s' ->
  (exists k0 v, tpc th = DWrite k0 v /\ plain s' = (t, k0, true) :: plain s /\
     (forall k, written k s' <-> written k s \/ k0 = k) /\
     (forall k, result (ents s' k) = if Nat.eqb k0 k then v else result (ents s k))) \/
  ((forall k, written k s' <-> written k s) /\ (forall k, result (ents s' k) = result (ents s k)) /\
   (plain s' = plain s \/
    exists k0, (tpc th = DRead k0 \/ tpc th = GRead k0) /\ plain s' = (t, k0, false) :: plain s)).
Proof.
  intros Hn HS.
  assert (Hst : forall k th', C (is_st k) (set_nth t th' (thrs s)) + b2n (is_st k (tpc th)) = C (is_st k) (thrs s) + b2n (is_st k (tpc th')))
    by (intros; apply C_set_nth, Hn).
  assert (Hq : forall th' e' pl k, is_st k (tpc th') = is_st k (tpc th) -> isd (e' k) = isd (ents s k) ->
            (written k (mkC (set_nth t th' (thrs s)) e' pl) <-> written k s)).
  { intros th' e' pl k Hc Hi. unfold written; cbn [thrs ents]. specialize (Hst k th'). rewrite Hc in Hst. rewrite Hi.
    replace (C (is_st k) (set_nth t th' (thrs s))) with (C (is_st k) (thrs s)) by lia. tauto. }
  destruct HS.
  (* every step but S_write (17) and S_store (18) *)
  1-16, 19-22: right; split; [intros k; apply Hq; [rewrite Hp; first [reflexivity|apply start_st]|]|split; [intros k; cbn [ents]|cbn [plain]]];
    first [reflexivity | apply upd_proj; reflexivity | left; reflexivity | right; exists k0; auto].
  - left. exists k0, v. split; [exact Hp|]. split; [reflexivity|]. split; intros k; cbn [ents].
    + unfold written; cbn [thrs ents]. rewrite (upd_proj isd) by reflexivity.
      specialize (Hst k (goto th (DStore k0))). rewrite Hp in Hst. cbn [goto tpc is_st] in Hst.
      destruct (Nat.eqb_spec k0 k) as [e|ne]; cbn [b2n] in Hst; [split; [auto|left; lia]|].
      replace (C (is_st k) (set_nth t (goto th (DStore k0)) (thrs s))) with (C (is_st k) (thrs s)) by lia. tauto.
    + unfold upd. destruct (Nat.eqb k0 k); reflexivity.
  - (* the store: the thread that had written sets done *)
    right. split; [|split; [intros k; apply upd_proj; reflexivity|left; reflexivity]].
    intros k. destruct (Nat.eq_dec k0 k) as [<-|Hne].
    + unfold written; cbn [thrs ents]. unfold upd. rewrite Nat.eqb_refl, isd_set_done.
      pose proof (C_ge1 (is_st k0) _ _ _ Hn) as Hge. rewrite Hp in Hge. cbn [is_st] in Hge. rewrite Nat.eqb_refl in Hge.
      specialize (Hge eq_refl). split; [left; lia|right; reflexivity].
    + apply Nat.eqb_neq in Hne. apply Hq; [rewrite Hp; cbn [goto tpc is_st]|unfold upd]; rewrite Hne; reflexivity.
Qed.

Lemma step_InvB s t th s' : InvB s -> nth_error (thrs s) t = Some th -> stepC s t th s' -> InvB s'.
Proof.
  intros [Hres Hdeps Hthr] Hn HS.
  pose proof (step_mono _ _ _ _ HS) as Hm.
  pose proof (Forall_nth_error _ _ _ _ Hthr Hn) as Hok. pose proof Hok as [Hpc Hrets Hnrets Hframes Hchain].
  constructor.
  - intros k Hw. destruct (step_pub _ _ _ _ Hn HS) as [(k0 & v & Hp & _ & Hwr & Hr)|(Hwr & Hr & _)]; rewrite Hr.
    + rewrite Hp in Hpc. destruct (Nat.eqb_spec k0 k) as [<-|Hne]; [apply Hpc|].
      apply Hres. apply Hwr in Hw as [Hw|Hw]; [exact Hw|contradiction].
    + apply Hres, Hwr, Hw.
  - intros k Hk. eapply deps_done_mono; [exact Hm|].
    destruct (step_isd _ _ _ _ k HS Hk) as [H|Hp]; [auto|]. rewrite Hp in Hpc. exact Hpc.
  - assert (Hothers : forall th', thr_ok (ents s') th' -> Forall (thr_ok (ents s')) (set_nth t th' (thrs s))).
    { intros th' H'. apply Forall_set_nth; auto. eapply Forall_impl; [|exact Hthr]. intros; eapply thr_ok_mono; eauto. }
    destruct HS; cbn [ents thrs] in *; apply Hothers; rewrite Hp in Hpc; cbn [pc_ok] in Hpc.
    (* the pc moves inside the call: what the new pc promises holds *)
    (* loads and tests (1-8), Lock to Unlock (13-19); left over: S_call, S_fret, S_write, S_store; then the four
       returns, S_nest, S_nret, S_crash *)
    1-8, 13-19: apply (thr_ok_goto (ents s)); auto; try (rewrite Hp; reflexivity); cbn [pc_ok]; auto.
    + intros m d Hlt; lia.
    + (* f returns: every nested call has completed *)
      split; auto. intros d Hd. apply In_nth_error in Hd as [m Hmd]. apply Hm, (Hpc m); auto.
      apply nth_error_None in E. apply nth_error_lt in Hmd. lia.
    + eapply deps_done_mono; [exact Hm|apply Hpc].
    + unfold upd. rewrite Nat.eqb_refl. reflexivity.
    (* the call returns to the program: with f's value if it is a Do, nil or f's value if a Get *)
    + apply thr_ok_ret; auto. split; [apply Hres; right; exact Hpc|exact Hpc].
    + apply thr_ok_ret; cbn [ret_ok]; auto. apply thr_chain_get; [auto|rewrite Hp; reflexivity].
    + apply thr_ok_ret; cbn [ret_ok]; auto. apply thr_chain_get; [auto|rewrite Hp; reflexivity].
    + apply thr_ok_ret; cbn [ret_ok]; [auto|apply thr_chain_get; [auto|rewrite Hp; reflexivity]|].
      right; split; [apply Hres; right; exact Hpc|exact Hpc].
    + (* f starts a nested Do *)
      constructor; cbn [push tpc rets nrets stack]; auto; [exact I| |].
      * constructor; auto. intros m d Hlt Hd. simpl in *. apply (Hpc m); auto. lia.
      * unfold thr_chain in *. rewrite Hp in Hchain. simpl in *. split; eauto.
    + (* a nested Do returns into f *)
      unfold thr_chain in Hchain. rewrite Hp, E in Hchain. simpl in Hchain. destruct Hchain as [(j2 & -> & Hj2) Hch].
      rewrite E in Hframes. inversion Hframes as [|f fs Hf Hfs]; subst.
      constructor; cbn [tpc rets nrets stack]; auto.
      * simpl. intros m d Hlt Hd. destruct (Nat.eq_dec m j2) as [->|Hne].
        -- rewrite Hj2 in Hd. inversion Hd; subst. exact Hpc.
        -- apply (Hf m d); simpl; auto; lia.
      * constructor; auto. split; simpl; auto. apply Hres; right; exact Hpc.
    + (* f fails: the goroutine is gone *)
      destruct (thr_ok_mono _ _ _ Hm Hok) as [H1 H2 H3 H4 H5].
      constructor; cbn [dead tpc rets nrets stack]; auto; try exact I. reflexivity.
Qed.

Record InvP (s : cstate) : Prop := {
  p_acc : forall k t w, In (t, k, w) (plain s) -> written k s;
  p_wr : forall k, written k s -> exists t', In (t', k, true) (plain s);
  p_wf : wf_plain (plain s)
}.

Lemma init_InvP : InvP init.
Proof.
  constructor.
  - intros k t w H. exact (match H with end).
  - intros k [H|H]; [|discriminate]. rewrite C_init in H; [lia|]. intros l; apply (start_cur_neutral l k).
  - exact I.
Qed.

(* a thread at the plain write to k has e.mu of k and k is not written yet: it is the only one there *)
Lemma writer_alone s t th k : InvA s -> nth_error (thrs s) t = Some th -> plain_write k (tpc th) = true ->
  C (plain_write k) (thrs s) = 1 /\ ~ written k s.
Proof.
  intros HA Hn Hw. pose proof (a_lock _ _ _ (HA k)) as Hl. pose proof (C_sum_le k (thrs s)) as Hsum.
  pose proof (C_ge1 (plain_write k) _ _ _ Hn Hw) as Hge. pose proof (b2n_le1 (locked (ents s k))) as Hb.
  split; [lia|]. intros [H|H]; [lia|]. pose proof (a_nof _ _ _ (HA k) H). lia.
Qed.

Lemma step_InvP s t th s' : InvA s -> InvB s -> InvP s -> nth_error (thrs s) t = Some th -> stepC s t th s' -> InvP s'.
Proof.
  intros HA HB [Hacc Hwr Hwf] Hn HS.
  pose proof (t_pc _ _ (Forall_nth_error _ _ _ _ (b_thr _ HB) Hn)) as Hpc.
  destruct (step_pub _ _ _ _ Hn HS) as [(k0 & v & Hp & Hpl & Hw & _)|(Hw & _ & [Hpl|(k0 & Hp & Hpl)])].
  - (* the plain write is the first access to its key *)
    constructor; rewrite Hpl.
    + intros k t' w [Heq|Hin]; apply Hw; [inversion Heq; auto|eauto].
    + intros k Hk. apply Hw in Hk as [Hk|<-]; [|exists t; left; auto].
      destruct (Hwr k Hk) as (t' & Ht'). exists t'. right; auto.
    + split; [|exact Hwf]. intros t' w' Hin.
      apply (writer_alone s t th k0 HA Hn); [rewrite Hp; apply Nat.eqb_refl|eauto].
  - constructor; rewrite Hpl; [intros k t' w Hin; apply Hw; eauto|intros k Hk; apply Hwr, Hw, Hk|exact Hwf].
  - (* a plain read comes after done was seen set, hence after the write *)
    assert (Hd : written k0 s) by (right; destruct Hp as [Hp|Hp]; rewrite Hp in Hpc; exact Hpc).
    constructor; rewrite Hpl.
    + intros k t' w [Heq|Hin]; apply Hw; [inversion Heq; subst; exact Hd|eauto].
    + intros k Hk. destruct (Hwr k (proj1 (Hw k) Hk)) as (t' & Ht'). exists t'. right; auto.
    + split; [apply Hwr, Hd|exact Hwf].
Qed.

(* each thread executes its program, call by call: [calls_of] is the program again *)
Definition cur (p : cpc) : list call :=
  match p with
  | Idle => []
  | DLoad k | DLoadOrStore k | DLoad1 k | DLock k | DLoad2 k | DCall k | DInF k _ | DWrite k _ | DStore k
  | DUnlock k | DRead k => [CDo k]
  | GLoad k | GLoad1 k | GRead k => [CGet k]
  end.
(* the top-level call in progress: that of the bottom frame when f has nested calls running *)
Fixpoint bottom (st : list (nat * nat)) : option nat :=
  match st with
  | [] => None
  | (k, _) :: r => match bottom r with Some k' => Some k' | None => Some k end
  end.
Definition curtop (th : thr) : list call :=
  match bottom (stack th) with Some k => [CDo k] | None => cur (tpc th) end.
Definition calls_of (th : thr) : list call := rev (map fst (rets th)) ++ curtop th ++ rest th.

Lemma start_cur l : cur (fst (start l)) ++ snd (start l) = l.
Proof. destruct l as [|[] r]; reflexivity. Qed.

Lemma bottom_nil st : bottom st = None -> st = [].
Proof. destruct st as [|[k j] r]; auto. simpl. destruct (bottom r); discriminate. Qed.

Lemma step_calls s t th s' : (forall k, crash k = false) -> thr_chain th -> nth_error (thrs s) t = Some th -> stepC s t th s' ->
  map calls_of (thrs s') = map calls_of (thrs s).
Proof.
  intros Hnc Hch Hnth HS.
  assert (Hsame : forall th', calls_of th' = calls_of th -> map calls_of (set_nth t th' (thrs s)) = map calls_of (thrs s)).
  { intros th' He. rewrite map_set_nth, He. apply set_nth_same. rewrite nth_error_map, Hnth. reflexivity. }
  assert (Hgoto : forall p, cur p = cur (tpc th) -> calls_of (goto th p) = calls_of th).
  { intros p Hc. unfold calls_of, curtop; cbn [goto tpc stack rest rets]. rewrite Hc. reflexivity. }
  assert (Hret : forall c v, stack th = [] -> cur (tpc th) = [c] -> calls_of (ret th c v) = calls_of th).
  { intros c v Hs Hc. unfold calls_of, curtop; cbn [ret tpc stack rest rets map rev fst]. rewrite Hs, Hc. simpl.
    rewrite <- !app_assoc. cbn [app]. rewrite start_cur. reflexivity. }
  destruct HS; cbn [thrs]; apply Hsame;
    try (apply Hgoto; rewrite Hp; reflexivity);
    try (apply Hret; [first [exact E|apply thr_chain_get; [auto|rewrite Hp; reflexivity]]|rewrite Hp; reflexivity]).
  - unfold calls_of, curtop; cbn [push tpc stack rest rets bottom]. rewrite Hp. cbn [cur].
    destruct (bottom (stack th)); reflexivity.
  - unfold calls_of, curtop; cbn [tpc stack rest rets]. rewrite E. cbn [bottom cur].
    destruct (bottom st1); reflexivity.
  - (* no f fails here *) rewrite Hnc in Ec; discriminate.
Qed.

Lemma init_calls : map calls_of (thrs init) = progs.
Proof.
  unfold cinit; cbn [thrs]. rewrite map_map. rewrite <- (map_id progs) at 2. apply map_ext.
  intros p. unfold calls_of; simpl. apply start_cur.
Qed.

(* entries that are in use have been stored in the map *)
Definition past_store (k : nat) (p : cpc) : bool :=
  match p with
  | DLoad1 k' | DLock k' | DLoad2 k' | DCall k' | DInF k' _ | DWrite k' _ | DStore k' | DUnlock k' | DRead k'
  | GLoad1 k' | GRead k' => Nat.eqb k' k
  | _ => false
  end.
Definition thr_present (e : nat -> entry) (th : thr) : Prop :=
  (forall k, past_store k (tpc th) = true -> present (e k) = true) /\
  Forall (fun f : nat * nat => present (e (fst f)) = true) (stack th).
Record InvQ (s : cstate) : Prop := {
  q_thr : Forall (thr_present (ents s)) (thrs s);
  q_done : forall k, isd (ents s k) = true -> present (ents s k) = true
}.

Lemma init_InvQ : InvQ init.
Proof.
  constructor.
  - unfold cinit; cbn [thrs ents]. apply Forall_forall. intros th Hth. apply in_map_iff in Hth as (p & <- & _).
    split; simpl; auto. intros k. destruct p as [|[] r]; simpl; discriminate.
  - intros k H; discriminate.
Qed.

Lemma past_store_start l k : past_store k (fst (start l)) = false.
Proof. destruct l as [|[] r]; reflexivity. Qed.

Lemma step_present s t th s' k : stepC s t th s' -> present (ents s k) = true -> present (ents s' k) = true.
Proof.
  intros HS; destruct HS; cbn [ents]; auto; intros Hk; unfold upd; destruct (Nat.eqb_spec k0 k) as [->|]; simpl; auto.
Qed.

Lemma step_InvQ s t th s' : InvQ s -> nth_error (thrs s) t = Some th -> stepC s t th s' -> InvQ s'.
Proof.
  intros [Hthr Hdone] Hn HS.
  pose proof (fun k => step_present _ _ _ _ k HS) as Hmono.
  pose proof (Forall_nth_error _ _ _ _ Hthr Hn) as [Hpc Hfr].
  constructor.
  - assert (Hold : forall th', thr_present (ents s') th' -> Forall (thr_present (ents s')) (set_nth t th' (thrs s))).
    { intros th' H'. apply Forall_set_nth; auto. eapply Forall_impl; [|exact Hthr].
      intros x [H1 H2]; split; [intros k Hk; auto|]. eapply Forall_impl; [|exact H2]. simpl; auto. }
    assert (Hfr' : Forall (fun f : nat * nat => present (ents s' (fst f)) = true) (stack th)).
    { eapply Forall_impl; [|exact Hfr]. simpl; auto. }
    (* the key of the new pc is that of the old one, or the step has just seen or made its entry present *)
    destruct HS; cbn [ents thrs] in *; rewrite Hp in Hpc; apply Hold; split; cbn [goto ret push dead tpc stack]; auto;
      try (intros k Hk; simpl in Hk; rewrite ?past_store_start in Hk; try discriminate;
           apply Nat.eqb_eq in Hk; subst k; try (unfold upd; rewrite Nat.eqb_refl; simpl); auto;
           try (apply Hmono); try (apply Hpc; simpl; apply Nat.eqb_refl); fail).
    + constructor; auto. simpl. apply Hpc. simpl. apply Nat.eqb_refl.
    + rewrite E in Hfr'. inversion Hfr'; subst. intros k Hk; simpl in Hk. apply Nat.eqb_eq in Hk; subst k. assumption.
    + rewrite E in Hfr'. inversion Hfr'; assumption.
  - intros k Hk. destruct (step_isd _ _ _ _ k HS Hk) as [H|Hp]; [auto|].
    apply Hmono, Hpc. rewrite Hp. apply Nat.eqb_refl.
Qed.

Lemma creachable_InvQ s : creachable s -> InvQ s.
Proof.
  induction 1 as [|s t s' Hr IH Hs]; [apply init_InvQ|].
  apply cstep_inv in Hs as (th & Hnth & HS). eapply step_InvQ; eauto.
Qed.

Lemma creachable_inv s : creachable s ->
  InvA s /\ InvB s /\ InvP s /\ ((forall k, crash k = false) -> map calls_of (thrs s) = progs).
Proof.
  induction 1 as [|s t s' Hr (HA & HB & HP & HD) Hs].
  - split; [|split; [|split]]; [apply init_InvA|apply init_InvB|apply init_InvP|intros _; apply init_calls].
  - apply cstep_inv in Hs as (th & Hnth & HS).
    split; [|split; [|split]]; [eapply step_InvA|eapply step_InvB|eapply step_InvP|]; eauto.
    intros Hnc.
    rewrite (step_calls _ _ _ _ Hnc (t_chain _ _ (Forall_nth_error _ _ _ _ (b_thr _ HB) Hnth)) Hnth HS); auto.
Qed.

(* when no f fails, no entry is orphaned *)
Lemma creachable_orph0 s : (forall k, crash k = false) -> creachable s -> forall k, orph (ents s k) = 0.
Proof.
  intros Hnc. induction 1 as [|s t s' Hr IH Hs]; [reflexivity|].
  apply cstep_inv in Hs as (th & Hnth & HS). intros k'. specialize (IH k').
  destruct HS; cbn [ents]; auto; try (unfold upd; destruct (Nat.eqb_spec k0 k') as [->|]; cbn; auto; fail).
  rewrite Hnc in Ec; discriminate.
Qed.

(* a finished thread has no calls left *)
Definition idle_ok (th : thr) : Prop := tpc th = Idle -> rest th = [].

Lemma start_idle l : fst (start l) = Idle -> snd (start l) = [].
Proof. destruct l as [|[] r]; simpl; auto; discriminate. Qed.

Lemma creachable_idle s : creachable s -> Forall idle_ok (thrs s).
Proof.
  induction 1 as [|s t s' Hr IH Hs].
  - unfold cinit; cbn [thrs]. apply Forall_forall. intros th Hth. apply in_map_iff in Hth as (p & <- & _).
    unfold idle_ok; simpl. apply start_idle.
  - apply cstep_inv in Hs as (th & Hnth & HS).
    destruct HS; cbn [thrs]; apply Forall_set_nth; auto; unfold idle_ok; cbn [goto ret dead tpc rest];
      try discriminate; try (intros _; reflexivity); apply start_idle.
Qed.

(* f_k is called at most once, and returns at most as often as it was called *)
Theorem f_once_per_key s k : creachable s ->
  fbegins (ents s k) <= 1 /\ fends (ents s k) <= fbegins (ents s k).
Proof.
  intros Hr. destruct (creachable_inv s Hr) as (HA & _). destruct (HA k) as [Hl Hn Hfb Hfe].
  pose proof (C_sum_le k (thrs s)) as Hsum.
  destruct (isd (ents s k)); [specialize (Hn eq_refl)|]; destruct (locked (ents s k)); simpl in *; lia.
Qed.

Lemma done_f_complete s k : InvA s -> isd (ents s k) = true -> fbegins (ents s k) = 1 /\ fends (ents s k) = 1.
Proof.
  intros HA Hd. destruct (HA k) as [_ Hn Hfb Hfe]. specialize (Hn Hd). rewrite Hd in *. simpl in *. lia.
Qed.

(* what done = 1 stands for: the one call of f_k has completed and e.result is its value.  Each of the theorems
   below finds done set -- in the record of a returned call, at the pc of a call about to return -- and says this *)
Lemma done_published s k : creachable s -> isd (ents s k) = true ->
  fbegins (ents s k) = 1 /\ fends (ents s k) = 1 /\ result (ents s k) = fval k.
Proof.
  intros Hr Hd. destruct (creachable_inv s Hr) as (HA & HB & _).
  destruct (done_f_complete s k HA Hd). repeat split; auto. apply (b_res _ HB). right; exact Hd.
Qed.

Lemma creachable_thr_ok s t th : creachable s -> nth_error (thrs s) t = Some th -> thr_ok (ents s) th.
Proof. intros Hr Hn. destruct (creachable_inv s Hr) as (_ & HB & _). exact (Forall_nth_error _ _ _ _ (b_thr _ HB) Hn). Qed.

(* every finished Do(k) returned the value of the one call of f_k, and that call had completed *)
Theorem do_returns_f_value s t th k v : creachable s -> nth_error (thrs s) t = Some th ->
  In (CDo k, v) (rets th) ->
  v = fval k /\ fbegins (ents s k) = 1 /\ fends (ents s k) = 1 /\ result (ents s k) = fval k.
Proof.
  intros Hr Hn Hin. pose proof (t_rets _ _ (creachable_thr_ok s t th Hr Hn)) as Hrets.
  rewrite Forall_forall in Hrets. destruct (Hrets _ Hin) as [Hv Hd]. split; [exact Hv|exact (done_published s k Hr Hd)].
Qed.

(* the same for the Do calls made from inside f (nested on other keys) *)
Theorem nested_do_returns_f_value s t th k v : creachable s -> nth_error (thrs s) t = Some th ->
  In (k, v) (nrets th) ->
  v = fval k /\ fbegins (ents s k) = 1 /\ fends (ents s k) = 1 /\ result (ents s k) = fval k.
Proof.
  intros Hr Hn Hin. pose proof (t_nrets _ _ (creachable_thr_ok s t th Hr Hn)) as Hrets.
  rewrite Forall_forall in Hrets. destruct (Hrets _ Hin) as [Hv Hd]. split; [exact Hv|exact (done_published s k Hr Hd)].
Qed.

(* a published result was computed after all the nested computations it depends on were published *)
Theorem done_implies_deps_done s k d : creachable s -> isd (ents s k) = true -> In d (deps k) ->
  isd (ents s d) = true /\ fends (ents s d) = 1 /\ result (ents s d) = fval d.
Proof.
  intros Hr Hk Hd. destruct (creachable_inv s Hr) as (_ & HB & _).
  pose proof (b_deps _ HB k Hk d Hd) as Hdd. destruct (done_published s d Hr Hdd) as (_ & ? & ?). auto.
Qed.

(* a Do(k) that is about to return (only the plain read of e.result is left) returns after f_k completed *)
Theorem do_after_f s t th k : creachable s -> nth_error (thrs s) t = Some th -> tpc th = DRead k ->
  fends (ents s k) = 1 /\ result (ents s k) = fval k /\ C (is_inf k) (thrs s) = 0.
Proof.
  intros Hr Hn Hp. pose proof (t_pc _ _ (creachable_thr_ok s t th Hr Hn)) as Hpc. rewrite Hp in Hpc. simpl in Hpc.
  destruct (done_published s k Hr Hpc) as (_ & ? & ?). destruct (creachable_inv s Hr) as (HA & _).
  pose proof (a_nof _ _ _ (HA k) Hpc). repeat split; auto; lia.
Qed.

(* every finished Get(k) returned nil or the value of the completed call of f_k *)
Theorem get_nil_or_value s t th k v : creachable s -> nth_error (thrs s) t = Some th ->
  In (CGet k, v) (rets th) ->
  v = None \/ (v = fval k /\ fends (ents s k) = 1).
Proof.
  intros Hr Hn Hin. pose proof (t_rets _ _ (creachable_thr_ok s t th Hr Hn)) as Hrets.
  rewrite Forall_forall in Hrets. destruct (Hrets _ Hin) as [Hv|[Hv Hd]]; auto.
  right. split; auto. apply (done_published s k Hr Hd).
Qed.

Lemma step_some s t th : nth_error (thrs s) t = Some th -> tpc th <> Idle ->
  (forall k, tpc th = DLock k -> locked (ents s k) = false) -> exists s', cstep s t = Some s'.
Proof.
  intros Hn Hi Hl. unfold ParCache.cstep. rewrite Hn.
  destruct (tpc th) eqn:Ep; try congruence; eauto;
    try (rewrite (Hl k eq_refl); eauto; fail);
    try (destruct (nth_error (deps k) j); [|destruct (crash k)]; eauto; fail);
    try (destruct (present (ents s k)); eauto; fail);
    try (destruct (isd (ents s k)); eauto; fail).
Qed.

(* Get has no blocking step: in ANY state a thread inside Get can take its next step *)
Theorem get_nonblocking s t th : nth_error (thrs s) t = Some th -> in_get (tpc th) = true ->
  exists s', cstep s t = Some s'.
Proof. intros Hn Hg. apply (step_some s t th Hn); intros; destruct (tpc th); discriminate. Qed.

(* once computed, always computed *)
Theorem done_stable s t s' k : creachable s -> cstep s t = Some s' -> isd (ents s k) = true -> isd (ents s' k) = true.
Proof.
  intros Hr Hs Hk. destruct (creachable_inv s Hr) as (HA & _).
  apply cstep_inv in Hs as (th & Hnth & HS). exact (step_mono _ _ _ _ HS k Hk).
Qed.

(* nil from Get means "not computed yet": once e.done is set for k (in particular after any Do(k) has
   returned), every step of a Get(k) goes straight on -- Load hits, the done test succeeds, the plain
   read returns f's value -- whatever the other threads do in between (done_stable) *)
Theorem get_after_done s t th k : creachable s -> isd (ents s k) = true -> nth_error (thrs s) t = Some th ->
  (tpc th = GLoad k -> cstep s t = Some (mkC (set_nth t (goto th (GLoad1 k)) (thrs s)) (ents s) (plain s))) /\
  (tpc th = GLoad1 k -> cstep s t = Some (mkC (set_nth t (goto th (GRead k)) (thrs s)) (ents s) (plain s))) /\
  (tpc th = GRead k ->
     cstep s t = Some (mkC (set_nth t (ret th (CGet k) (fval k)) (thrs s)) (ents s) ((t, k, false) :: plain s))).
Proof.
  intros Hr Hk Hn. destruct (done_published s k Hr Hk) as (_ & _ & Hres).
  unfold ParCache.cstep. rewrite Hn. repeat split; intros Hp; rewrite Hp.
  - rewrite (q_done _ (creachable_InvQ s Hr) k Hk). reflexivity.
  - rewrite Hk. reflexivity.
  - rewrite Hres. reflexivity.
Qed.

(* no data race on e.result: a pending plain write is never concurrent with another thread's
   pending plain access to the same entry; and the history of plain accesses is well-formed
   (per key: one write, before all reads) *)
Theorem race_free s : creachable s ->
  (forall a b tha thb k, a <> b -> nth_error (thrs s) a = Some tha -> nth_error (thrs s) b = Some thb ->
     plain_write k (tpc tha) = true -> plain_write k (tpc thb) = false /\ plain_read k (tpc thb) = false) /\
  wf_plain (plain s).
Proof.
  intros Hr. destruct (creachable_inv s Hr) as (HA & _ & HP & _). split; [|apply HP].
  intros a b tha thb k Hab Ha Hb Hw. destruct (writer_alone s a tha k HA Ha Hw) as [H1 Hnw]. split.
  - destruct (plain_write k (tpc thb)) eqn:Ewb; auto.
    pose proof (C_ge2 (plain_write k) _ _ _ _ _ Hab Ha Hb Hw Ewb). lia.
  - destruct (plain_read k (tpc thb)) eqn:Erb; auto. exfalso. apply Hnw. right.
    pose proof (t_pc _ _ (creachable_thr_ok s b thb Hr Hb)) as Hpc.
    destruct (tpc thb); simpl in *; try discriminate; apply Nat.eqb_eq in Erb; subst; exact Hpc.
Qed.

(* when every thread has finished its program: f_k ran exactly once for every key some Do asked for *)
Theorem f_exactly_once_at_end s : (forall k, crash k = false) -> creachable s -> all_idle s = true ->
  forall p k, In p progs -> In (CDo k) p ->
  fbegins (ents s k) = 1 /\ fends (ents s k) = 1 /\ result (ents s k) = fval k.
Proof.
  intros Hnc Hr Hidle p k Hp Hk.
  destruct (creachable_inv s Hr) as (HA & HB & _ & HD). specialize (HD Hnc).
  pose proof (creachable_idle s Hr) as HE.
  rewrite <- HD in Hp. apply in_map_iff in Hp as (th & <- & Hth).
  unfold all_idle in Hidle. rewrite forallb_forall in Hidle. specialize (Hidle _ Hth).
  unfold is_idle in Hidle. destruct (tpc th) eqn:Ep; try discriminate.
  rewrite Forall_forall in HE. pose proof (HE _ Hth Ep) as Hrest.
  apply In_nth_error in Hth as [t Ht].
  assert (Hst : stack th = []).
  { pose proof (t_chain _ _ (creachable_thr_ok s t th Hr Ht)) as Hc. unfold thr_chain in Hc. rewrite Ep in Hc. exact Hc. }
  unfold calls_of, curtop in Hk. rewrite Hst, Ep, Hrest in Hk. simpl in Hk. rewrite app_nil_r in Hk.
  apply in_rev in Hk. apply in_map_iff in Hk as ([c v] & Hc & Hin). simpl in Hc; subst c.
  destruct (do_returns_f_value s t th k v Hr Ht Hin) as (_ & ? & ? & ?). auto.
Qed.

Lemma crun_reachable sch : forall s s', creachable s -> crun sch s = Some s' -> creachable s'.
Proof. exact (srun_R cstep creachable (creach_step fval deps crash progs) sch). Qed.

(* the key an operation in progress works on *)
Definition pckey (p : cpc) : option nat :=
  match p with
  | GLoad k | GLoad1 k | GRead k => Some k
  | _ => dokey p
  end.

Lemma add_orph_0 e : add_orph 0 e = e.
Proof. destruct e; reflexivity. Qed.

(* a step of a thread touches only the entry of the key its current operation is about (and, when f fails, the
   entries whose mutex the dying thread holds: those of its suspended frames): the entry of EVERY OTHER key --
   there is no bound on their number -- is left exactly as it was *)
Theorem distinct_keys_independent s t th s' k : nth_error (thrs s) t = Some th -> cstep s t = Some s' ->
  pckey (tpc th) <> Some k -> (forall j, ~ In (k, j) (stack th)) -> ents s' k = ents s k.
Proof.
  intros Hn Hs Hk Hst. apply cstep_inv in Hs as (th' & Hn' & HS). rewrite Hn in Hn'. inversion Hn'; subst th'; clear Hn'.
  destruct HS;
    cbn [ents]; try reflexivity; rewrite Hp in Hk; simpl in Hk;
    try (unfold upd; destruct (Nat.eqb_spec k0 k) as [->|]; [exfalso; apply Hk; reflexivity|reflexivity]).
  rewrite orphans_fr. destruct (Nat.eqb_spec k0 k) as [->|Hne]; [exfalso; apply Hk; reflexivity|].
  destruct (fr k th) eqn:Ef; [apply add_orph_0|]. destruct (fr_frame k th) as [j Hj]; [lia|]. destruct (Hst j Hj).
Qed.

(* once a key has an entry it keeps it, and once its result is published both the flag and the result stay as
   they are, whatever happens to any number of other keys afterwards: nothing is ever evicted or recomputed *)
Theorem entries_never_removed s t s' k : creachable s -> cstep s t = Some s' ->
  (present (ents s k) = true -> present (ents s' k) = true) /\
  (isd (ents s k) = true -> isd (ents s' k) = true /\ result (ents s' k) = result (ents s k) /\
                           fbegins (ents s' k) = 1 /\ fends (ents s' k) = 1).
Proof.
  intros Hr Hs.
  assert (Hr' : creachable s') by (eapply creach_step; eauto).
  apply cstep_inv in Hs as (th & Hnth & HS). split; [exact (step_present _ _ _ _ k HS)|].
  intros Hd. pose proof (step_mono _ _ _ _ HS k Hd) as Hd'.
  destruct (done_published s k Hr Hd) as (_ & _ & Hres). destruct (done_published s' k Hr' Hd') as (? & ? & Hres').
  repeat split; auto. congruence.
Qed.

(* the entry of a key whose f failed: f_k began once and never ended, the mutex is held by nobody who is still
   running, the result is not published, and no thread is inside or about to call f_k *)
Theorem crashed_entry s k : creachable s -> 0 < orph (ents s k) ->
  orph (ents s k) = 1 /\ fbegins (ents s k) = 1 /\ fends (ents s k) = 0 /\ locked (ents s k) = true /\
  isd (ents s k) = false /\ C (holds k) (thrs s) = 0 /\ F k (thrs s) = 0 /\ C (is_call k) (thrs s) = 0.
Proof.
  intros Hr Ho. destruct (creachable_inv s Hr) as (HA & _). destruct (HA k) as [Hl Hn Hfb Hfe].
  pose proof (C_sum_le k (thrs s)) as Hsum.
  destruct (isd (ents s k)); [specialize (Hn eq_refl); lia|].
  destruct (locked (ents s k)); simpl in *; repeat split; lia.
Qed.

Lemma orph_monotone s t s' k : cstep s t = Some s' -> orph (ents s k) <= orph (ents s' k).
Proof.
  intros Hs. apply cstep_inv in Hs as (th & Hnth & HS).
  destruct HS; cbn [ents]; auto; try (unfold upd; destruct (Nat.eqb_spec k0 k) as [->|]; simpl; auto; fail).
  cbn [orph add_orph]. lia.
Qed.

Lemma crun_orph sch : forall s s' k, crun sch s = Some s' -> orph (ents s k) <= orph (ents s' k).
Proof.
  induction sch as [|t sch IH]; intros s s' k H; simpl in H; [inversion H; subst; auto|].
  destruct (cstep s t) as [s1|] eqn:E; [|discriminate].
  pose proof (orph_monotone _ _ _ k E). specialize (IH _ _ k H). lia.
Qed.

(* f is invoked AT MOST ONCE per key also when that invocation does not return: from a state in which f_k has
   failed, whatever any threads do for however long, f_k is never invoked again (fbegins stays 1), never completes
   and the key is never published *)
Theorem f_crash_never_reinvoked s k : creachable s -> 0 < orph (ents s k) ->
  forall sch s', crun sch s = Some s' ->
  fbegins (ents s' k) = 1 /\ fends (ents s' k) = 0 /\ isd (ents s' k) = false /\ locked (ents s' k) = true /\
  C (is_call k) (thrs s') = 0.
Proof.
  intros Hr Ho sch s' Hrun.
  pose proof (crun_reachable _ _ _ Hr Hrun) as Hr'. pose proof (crun_orph _ _ _ k Hrun) as Hle.
  destruct (crashed_entry s' k Hr') as (_ & H1 & H2 & H3 & H4 & _ & _ & H5); [lia|]. auto.
Qed.

(* what the callers see: a Do for that key that reaches the entry mutex blocks (for ever, by the theorem above),
   a Get goes through and returns nil *)
Theorem crashed_do_blocks_get_nil s t th k : creachable s -> 0 < orph (ents s k) -> nth_error (thrs s) t = Some th ->
  (tpc th = DLock k -> cstep s t = None) /\
  (tpc th = GLoad1 k -> cstep s t = Some (mkC (set_nth t (ret th (CGet k) None) (thrs s)) (ents s) (plain s))).
Proof.
  intros Hr Ho Hn. destruct (crashed_entry s k Hr Ho) as (_ & _ & _ & Hl & Hd & _).
  unfold ParCache.cstep. rewrite Hn. split; intros Hp; rewrite Hp; [rewrite Hl|rewrite Hd]; reflexivity.
Qed.

(* progress and termination need the dependency relation between keys to be acyclic: a level function that
   strictly decreases along [deps] *)
Section Acyclic.
Variable L : nat -> nat.
Hypothesis L_dec : forall k d, In d (deps k) -> L d < L k.

Lemma chain_levels c st : chain_ok c st -> Forall (fun f : nat * nat => L c < L (fst f)) st.
Proof.
  revert c; induction st as [|[k j] r IH]; intros c H; [constructor|].
  destruct H as [(j0 & -> & Hn) Hr]. apply nth_error_In in Hn. pose proof (L_dec _ _ Hn) as Hlt.
  constructor; [exact Hlt|]. eapply Forall_impl; [|apply (IH k Hr)]. simpl; intros; lia.
Qed.

(* a thread waiting for e.mu of k: the holder is running, or itself waits for a key of lower level *)
Lemma blocked_progress s : InvA s -> InvB s -> (forall k, orph (ents s k) = 0) -> forall t th k, nth_error (thrs s) t = Some th ->
  tpc th = DLock k -> exists t' s', cstep s t' = Some s'.
Proof.
  intros HA HB Ho t th k. remember (L k) as m eqn:Em. revert t th k Em.
  induction m as [m IH] using lt_wf_ind. intros t th k -> Ht Hp.
  destruct (locked (ents s k)) eqn:El.
  2: { exists t. apply (step_some s t th Ht); rewrite Hp; [congruence|]. intros k' Hk'; inversion Hk'; subst; auto. }
  pose proof (a_lock _ _ _ (HA k)) as Hlk. rewrite El, Ho in Hlk. simpl in Hlk.
  destruct (C (holds k) (thrs s)) eqn:Eh.
  2: { (* the holder is between Lock and Unlock *)
       destruct (cntg_exists (fun th => holds k (tpc th)) (thrs s)) as (t2 & th2 & Ht2 & Hh); [unfold C in Eh; lia|].
       exists t2. apply (step_some s t2 th2 Ht2); destruct (tpc th2); simpl in Hh; congruence. }
  (* the holder is a suspended f_k: the Do its thread is running is for a key of lower level *)
  destruct (F_exists k (thrs s)) as (t2 & th2 & Ht2 & Hf); [lia|]. apply fr_frame in Hf as (j & Hj).
  pose proof (t_chain _ _ (Forall_nth_error _ _ _ _ (b_thr _ HB) Ht2)) as Hc. unfold thr_chain in Hc.
  destruct (dokey (tpc th2)) as [c|] eqn:Ek; [|rewrite Hc in Hj; destruct Hj].
  pose proof (chain_levels _ _ Hc) as Hlv. rewrite Forall_forall in Hlv. specialize (Hlv _ Hj). simpl in Hlv.
  destruct (tpc th2) eqn:Ep2; simpl in Ek; try discriminate; inversion Ek; subst;
    try (exists t2; apply (step_some s t2 th2 Ht2); rewrite Ep2; congruence).
  apply (IH (L c) Hlv t2 th2 c); auto.
Qed.

(* no deadlock (when every f returns): unless every thread has finished its program, some thread has a step *)
Theorem cache_no_deadlock : (forall k, crash k = false) -> forall s, creachable s ->
  all_idle s = true \/ exists t s', cstep s t = Some s'.
Proof.
  intros Hnc s Hr. destruct (creachable_inv s Hr) as (HA & HB & _).
  pose proof (creachable_orph0 s Hnc Hr) as Ho.
  destruct (all_idle s) eqn:Ei; auto. right.
  apply forallb_false in Ei as (th & Hth & Hni). apply In_nth_error in Hth as [t Ht].
  assert (Hnot : tpc th <> Idle) by (unfold is_idle in Hni; destruct (tpc th); congruence).
  destruct (tpc th) eqn:Ep; try (exists t; apply (step_some s t th Ht); rewrite Ep; congruence).
  eapply blocked_progress; eauto.
Qed.

(* the cost of one Do(k), nested calls included: defined by recursion on the level *)
Fixpoint cost (fuel : nat) (k : nat) : nat :=
  match fuel with
  | 0 => 13
  | S f => 13 + list_sum (map (fun d => S (cost f d)) (deps k))
  end.
Definition kcL (k : nat) : nat := cost (L k) k.

Lemma level0 k : L k = 0 -> deps k = [].
Proof. intros H. destruct (deps k) as [|d r] eqn:E; auto. pose proof (L_dec k d). rewrite E in *. simpl in *. lia. Qed.

Lemma cost_stable f : forall f' k, L k <= f -> L k <= f' -> cost f k = cost f' k.
Proof.
  induction f as [|f IH]; intros [|f'] k H1 H2; cbn [cost]; rewrite ?(level0 k) by lia; try reflexivity.
  do 2 f_equal. apply map_ext_in. intros d Hd. f_equal. pose proof (L_dec _ _ Hd). apply IH; lia.
Qed.

Lemma kcL_ok k : 13 + nested deps kcL k 0 <= kcL k.
Proof.
  unfold nested, kcL. simpl skipn. destruct (L k) as [|f] eqn:E; cbn [cost].
  - rewrite (level0 k E). simpl. lia.
  - apply Nat.add_le_mono_l, Nat.eq_le_incl. f_equal. apply map_ext_in. intros d Hd. f_equal.
    pose proof (L_dec _ _ Hd). apply cost_stable; lia.
Qed.
End Acyclic.

(* the measure decreases, for any cost function that dominates its own recursive equation *)
Section Measure.
Variable kc : nat -> nat.
Hypothesis kc_ok : forall k, 13 + nested deps kc k 0 <= kc k.

Notation psi := (psi deps kc).
Notation tweight := (tweight deps kc).
Notation rank := (rank deps kc).
Notation nested := (nested deps kc).

Lemma nested_step k j d : nth_error (deps k) j = Some d -> nested k j = S (kc d) + nested k (S j).
Proof.
  unfold ParCache.nested. intros H.
  assert (Hs : skipn j (deps k) = d :: skipn (S j) (deps k)).
  { revert j H. generalize (deps k). induction l as [|a l IH]; intros [|j] H; simpl in *; try discriminate.
    - inversion H; reflexivity.
    - apply IH; auto. }
  rewrite Hs. reflexivity.
Qed.

Lemma rank_start_lt l : forall c r, l = c :: r -> rank (fst (start l)) < call_cost kc c.
Proof.
  intros c r ->. destruct c as [k|k]; simpl; [pose proof (kc_ok k); lia|lia].
Qed.

Lemma tweight_ret th c v : 2 <= rank (tpc th) -> tweight (ret th c v) < tweight th.
Proof.
  unfold ParCache.tweight, ret; cbn [tpc stack rest]. intros H.
  destruct (rest th) as [|c0 r] eqn:E.
  - simpl. lia.
  - pose proof (rank_start_lt (c0 :: r) c0 r eq_refl) as Hlt.
    assert (Hsnd : snd (start (c0 :: r)) = r) by (destruct c0; reflexivity).
    rewrite Hsnd. cbn [map]. rewrite !list_sum_cons.
    generalize dependent (rank (fst (start (c0 :: r)))). intros a Hlt. lia.
Qed.

(* every step consumes the measure, so no schedule is infinite.  Once its nested calls have returned f_k has a step:
   it returns, or fails and takes its goroutine with it; an f that runs for ever is not modelled *)
Theorem psi_decreases s t s' : cstep s t = Some s' -> psi s' < psi s.
Proof.
  intros Hs. apply cstep_inv in Hs as (th & Hn & HS). unfold ParCache.psi.
  assert (Hgen : forall th', tweight th' < tweight th ->
            list_sum (map tweight (set_nth t th' (thrs s))) < list_sum (map tweight (thrs s))).
  { intros th' Hlt. pose proof (sum_set_nth tweight t th' th _ Hn). lia. }
  destruct HS;
    cbn [thrs]; apply Hgen;
    try (apply tweight_ret; rewrite Hp; simpl; lia);
    unfold ParCache.tweight; cbn [goto push dead tpc stack rest]; rewrite Hp; cbn [ParCache.rank].
  all: try lia.
  - rewrite (nested_step _ _ _ E). cbn [map]. rewrite list_sum_cons. change (frame_cost deps kc (k0, S j0)) with (6 + nested k0 (S j0)). pose proof (kc_ok d0). lia.
  - rewrite E. cbn [map]. rewrite list_sum_cons. change (frame_cost deps kc (k1, j1)) with (6 + nested k1 j1). lia.
  - (* f fails: nothing is left of the thread *)
    cbn [map list_sum fold_right]. lia.
Qed.

Theorem cache_terminates sch : forall s s', crun sch s = Some s' -> length sch + psi s' <= psi s.
Proof.
  intros s s'. apply (srun_finite cstep (fun _ => True) psi); auto. intros; eapply psi_decreases; eauto.
Qed.
End Measure.

Corollary cache_terminates_acyclic L : (forall k d, In d (deps k) -> L d < L k) ->
  forall sch s s', crun sch s = Some s' -> length sch + psi deps (kcL L) s' <= psi deps (kcL L) s.
Proof. intros HL. apply cache_terminates. apply kcL_ok; auto. Qed.

(* every Do terminates when the dependencies are acyclic: from any reachable state some continuation
   of at most psi(s) steps ends with all programs finished *)
Theorem cache_can_finish L : (forall k d, In d (deps k) -> L d < L k) -> (forall k, crash k = false) ->
  forall s, creachable s ->
  exists sch s', crun sch s = Some s' /\ all_idle s' = true /\ length sch <= psi deps (kcL L) s.
Proof.
  intros HL Hnc. apply (srun_can_finish cstep creachable (psi deps (kcL L)) all_idle (creach_step fval deps crash progs)).
  - intros s t s' _. apply psi_decreases, kcL_ok, HL.
  - apply (cache_no_deadlock L HL Hnc).
Qed.

End Proofs.
