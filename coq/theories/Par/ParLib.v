(* Shared by the par.Work and par.Cache proofs: lists with one position updated, counting, sums, swap-remove;
   schedules of a transition system with a decreasing measure. *)
From Coq Require Import List Arith Bool Lia Permutation.
From GI Require Import Par.ParWork.
Import ListNotations.

Definition b2n (b : bool) : nat := if b then 1 else 0.

Lemma set_nth_length {A} k (x : A) l : length (set_nth k x l) = length l.
Proof. revert k; induction l as [|a l IH]; intros [|k]; simpl; auto. Qed.

Lemma nth_error_set_nth_eq {A} k (x : A) l : k < length l -> nth_error (set_nth k x l) k = Some x.
Proof.
  revert k; induction l as [|a l IH]; intros [|k] H; simpl in *; try lia; auto.
  apply IH; lia.
Qed.

Lemma nth_error_set_nth_neq {A} k k' (x : A) l : k <> k' -> nth_error (set_nth k x l) k' = nth_error l k'.
Proof.
  revert k k'; induction l as [|a l IH]; intros [|k] [|k'] H; simpl; auto; try congruence.
Qed.

Lemma nth_error_lt {A} (l : list A) k a : nth_error l k = Some a -> k < length l.
Proof. intros H; apply nth_error_Some; congruence. Qed.

Lemma set_nth_same {A} k (a : A) l : nth_error l k = Some a -> set_nth k a l = l.
Proof.
  revert k; induction l as [|b l IH]; intros [|k] H; simpl in *; try congruence.
  f_equal; auto.
Qed.

Lemma map_set_nth {A B} (f : A -> B) k x l : map f (set_nth k x l) = set_nth k (f x) (map f l).
Proof. revert k; induction l as [|a l IH]; intros [|k]; simpl; auto. f_equal; auto. Qed.

Lemma Forall_set_nth {A} (P : A -> Prop) k x l : Forall P l -> P x -> Forall P (set_nth k x l).
Proof.
  intros H Hx; revert k; induction H as [|a l Ha Hl IH]; intros [|k]; simpl; auto.
Qed.

Lemma Forall_nth_error {A} (P : A -> Prop) l k a : Forall P l -> nth_error l k = Some a -> P a.
Proof. intros H Hn; rewrite Forall_forall in H; apply H; eapply nth_error_In; eauto. Qed.

Definition cntg {A} (f : A -> bool) (l : list A) : nat := length (filter f l).

Lemma cntg_cons {A} (f : A -> bool) a l : cntg f (a :: l) = b2n (f a) + cntg f l.
Proof. unfold cntg; simpl; destruct (f a); reflexivity. Qed.

Lemma cntg_set_nth {A} (f : A -> bool) k x a l :
  nth_error l k = Some a -> cntg f (set_nth k x l) + b2n (f a) = cntg f l + b2n (f x).
Proof.
  revert k; induction l as [|b l IH]; intros [|k] H; simpl in *; try congruence.
  - inversion H; subst; rewrite !cntg_cons; lia.
  - rewrite !cntg_cons; specialize (IH _ H); lia.
Qed.

Lemma cntg_le_length {A} (f : A -> bool) l : cntg f l <= length l.
Proof. induction l as [|a l IH]; [auto|rewrite cntg_cons; simpl; destruct (f a); simpl; lia]. Qed.

Lemma cntg_exists {A} (f : A -> bool) l : 0 < cntg f l -> exists t a, nth_error l t = Some a /\ f a = true.
Proof.
  induction l as [|b l IH]; [unfold cntg; simpl; lia|].
  rewrite cntg_cons; destruct (f b) eqn:E; simpl; intros H.
  - exists 0, b; auto.
  - destruct (IH H) as (t & a & Ht & Ha); exists (S t), a; auto.
Qed.

Lemma cntg_lt_exists {A} (f : A -> bool) l : cntg f l < length l -> exists t a, nth_error l t = Some a /\ f a = false.
Proof.
  induction l as [|b l IH]; [simpl; lia|].
  rewrite cntg_cons; destruct (f b) eqn:E; simpl; intros H.
  - destruct IH as (t & a & Ht & Ha); [lia|]; exists (S t), a; auto.
  - exists 0, b; auto.
Qed.

Lemma cntg_zero {A} (f : A -> bool) l t a : cntg f l = 0 -> nth_error l t = Some a -> f a = false.
Proof.
  revert t; induction l as [|b l IH]; intros [|t]; simpl; try congruence; rewrite cntg_cons; intros H Hn.
  - inversion Hn; subst; destruct (f a); simpl in *; auto; lia.
  - apply (IH t); auto; lia.
Qed.

Lemma cntg_ge1 {A} (f : A -> bool) l t a : nth_error l t = Some a -> f a = true -> 1 <= cntg f l.
Proof.
  intros Hn Ha; destruct (cntg f l) eqn:E; [|lia].
  rewrite (cntg_zero f l t a E Hn) in Ha; discriminate.
Qed.

Lemma cntg_lt_length {A} (f : A -> bool) l t a : nth_error l t = Some a -> f a = false -> cntg f l < length l.
Proof.
  revert t; induction l as [|b l IH]; intros [|t]; simpl; try congruence; rewrite cntg_cons; intros Hn Ha.
  - inversion Hn; subst; rewrite Ha; simpl; pose proof (cntg_le_length f l); lia.
  - specialize (IH _ Hn Ha); destruct (f b); simpl; lia.
Qed.

Lemma cntg_ext {A} (f g : A -> bool) l : (forall a, f a = g a) -> cntg f l = cntg g l.
Proof. intros H; induction l as [|a l IH]; auto; rewrite !cntg_cons, H, IH; auto. Qed.

Lemma cntg_le {A} (f g : A -> bool) l : (forall a, f a = true -> g a = true) -> cntg f l <= cntg g l.
Proof.
  intros H; induction l as [|a l IH]; auto; rewrite !cntg_cons.
  specialize (H a); destruct (f a) eqn:Ef, (g a) eqn:Eg; simpl; try lia.
Qed.

Lemma cntg_repeat {A} (f : A -> bool) a k : cntg f (repeat a k) = k * b2n (f a).
Proof. induction k; simpl; auto. rewrite cntg_cons, IHk; lia. Qed.

Lemma sum_set_nth {A} (g : A -> nat) k x a l :
  nth_error l k = Some a -> list_sum (map g (set_nth k x l)) + g a = list_sum (map g l) + g x.
Proof.
  revert k; induction l as [|b l IH]; intros [|k] H; simpl in *; try congruence.
  - inversion H; subst; lia.
  - specialize (IH _ H); lia.
Qed.

Lemma list_sum_cons a l : list_sum (a :: l) = a + list_sum l.
Proof. reflexivity. Qed.

Definition occn (i : nat) (l : list nat) : nat := count_occ Nat.eq_dec l i.

Lemma occn_cons i x l : occn i (x :: l) = b2n (Nat.eqb x i) + occn i l.
Proof.
  unfold occn; simpl; destruct (Nat.eq_dec x i) as [e|e], (Nat.eqb_spec x i); simpl; try congruence; lia.
Qed.
Lemma occn_nil i : occn i [] = 0. Proof. reflexivity. Qed.
Lemma occn_app i l l' : occn i (l ++ l') = occn i l + occn i l'.
Proof. apply count_occ_app. Qed.
Lemma occn_In i l : In i l <-> 0 < occn i l.
Proof. unfold occn; rewrite (count_occ_In Nat.eq_dec); lia. Qed.
Lemma occn_perm i l l' : Permutation l l' -> occn i l = occn i l'.
Proof. induction 1; rewrite ?occn_cons; lia. Qed.
Lemma occn_NoDup l : (forall i, occn i l <= 1) -> NoDup l.
Proof. intros H; apply (NoDup_count_occ Nat.eq_dec); exact H. Qed.

Lemma mem_In x l : mem x l = true <-> In x l.
Proof.
  unfold mem; rewrite existsb_exists; split.
  - intros (y & Hy & E); apply Nat.eqb_eq in E; subst; auto.
  - intros H; exists x; split; auto; apply Nat.eqb_refl.
Qed.
Lemma mem_false x l : mem x l = false <-> ~ In x l.
Proof. rewrite <- mem_In; destruct (mem x l); split; congruence. Qed.

Lemma perm_set_nth {A} k (x d : A) l : k < length l -> Permutation (x :: l) (nth k l d :: set_nth k x l).
Proof.
  revert k; induction l as [|a l IH]; intros [|k] H; simpl in *; try lia.
  - apply perm_swap.
  - eapply perm_trans; [apply perm_swap|].
    eapply perm_trans; [apply perm_skip, (IH k); lia|apply perm_swap].
Qed.

Lemma last_set_nth_last {A} k (d : A) l : last (set_nth k (last l d) l) d = last l d.
Proof.
  revert k; induction l as [|a l IH]; intros k; [reflexivity|].
  destruct l as [|b r].
  - destruct k; reflexivity.
  - destruct k as [|k].
    + reflexivity.
    + change (last (a :: b :: r) d) with (last (b :: r) d).
      change (set_nth (S k) (last (b :: r) d) (a :: b :: r)) with (a :: set_nth k (last (b :: r) d) (b :: r)).
      specialize (IH k).
      destruct (set_nth k (last (b :: r) d) (b :: r)) eqn:E.
      * apply (f_equal (@length A)) in E; rewrite set_nth_length in E; simpl in E; lia.
      * exact IH.
Qed.

Lemma swap_remove_perm k l : k < length l -> Permutation l (nth k l 0 :: swap_remove k l).
Proof.
  intros H; unfold swap_remove.
  set (x := last l 0); set (l' := set_nth k x l).
  assert (Hne : l' <> []).
  { intros E; apply (f_equal (@length nat)) in E; unfold l' in E; rewrite set_nth_length in E; simpl in E; lia. }
  pose proof (app_removelast_last 0 Hne) as E.
  assert (Hl : last l' 0 = x) by apply last_set_nth_last.
  rewrite Hl in E.
  apply (Permutation_cons_inv (a := x)).
  eapply perm_trans; [apply (perm_set_nth k x 0 l H)|].
  fold l'. rewrite E at 1.
  eapply perm_trans; [apply perm_skip; symmetry; apply Permutation_cons_append|apply perm_swap].
Qed.

Lemma swap_remove_length k l : l <> [] -> S (length (swap_remove k l)) = length l.
Proof.
  intros H; unfold swap_remove.
  assert (Hne : set_nth k (last l 0) l <> []).
  { intros E; apply (f_equal (@length nat)) in E; rewrite set_nth_length in E; destruct l; simpl in *; congruence. }
  pose proof (app_removelast_last 0 Hne) as E.
  apply (f_equal (@length nat)) in E; rewrite app_length in E; simpl in E.
  rewrite set_nth_length in E at 1. lia.
Qed.


Lemma b2n_le1 b : b2n b <= 1.
Proof. destruct b; simpl; lia. Qed.

Lemma forallb_false {A} (f : A -> bool) l : forallb f l = false -> exists x, In x l /\ f x = false.
Proof.
  induction l as [|a l IH]; simpl; [discriminate|].
  destruct (f a) eqn:E; simpl; intros H.
  - destruct (IH H) as (x & Hx & Hf). exists x; auto.
  - exists a; auto.
Qed.

Lemma Forall2_set_nth {A B} (P : A -> B -> Prop) l1 l2 k a y :
  Forall2 P l1 l2 -> nth_error l1 k = Some a -> P a y -> Forall2 P l1 (set_nth k y l2).
Proof.
  intros H; revert k; induction H as [|x y0 l1 l2 Hxy H IH]; intros [|k] Ha Hy; simpl in *; try discriminate.
  - inversion Ha; subst. constructor; auto.
  - constructor; eauto.
Qed.

Lemma set_nth_app_mid {A} (pre : list A) x y post : set_nth (length pre) y (pre ++ x :: post) = pre ++ y :: post.
Proof. induction pre as [|a pre IH]; simpl; [reflexivity|]. rewrite IH; reflexivity. Qed.

Lemma nth_error_app_mid {A} (pre : list A) x post : nth_error (pre ++ x :: post) (length pre) = Some x.
Proof. induction pre as [|a pre IH]; simpl; auto. Qed.

Lemma list_sum_map_le {A} (g g' : A -> nat) l : (forall x, In x l -> g' x <= g x) -> list_sum (map g' l) <= list_sum (map g l).
Proof.
  induction l as [|a l IH]; intros H; simpl; [lia|].
  pose proof (H a (or_introl eq_refl)). specialize (IH (fun x Hx => H x (or_intror Hx))). lia.
Qed.

Lemma list_sum_map_lt {A} (g g' : A -> nat) l i :
  (forall x, In x l -> g' x <= g x) -> In i l -> g' i < g i -> list_sum (map g' l) < list_sum (map g l).
Proof.
  induction l as [|a l IH]; intros Hle Hin Hlt; [destruct Hin|].
  pose proof (Hle a (or_introl eq_refl)). simpl. destruct Hin as [->|Hin].
  - pose proof (list_sum_map_le g g' l (fun x Hx => Hle x (or_intror Hx))). lia.
  - specialize (IH (fun x Hx => Hle x (or_intror Hx)) Hin Hlt). lia.
Qed.

(* Schedules of a transition system whose steps keep a set of states R and decrease a measure on it:
   every schedule from a state of R stays in R and is no longer than the measure; if a state of R that is not
   final always has a step, every schedule can be continued to a final state.  The [run] functions of the models
   are [srun] of their step functions, by conversion. *)
Section Schedules.
Context {S L : Type} (step : S -> L -> option S) (R : S -> Prop) (phi : S -> nat) (final : S -> bool).

Fixpoint srun (sch : list L) (s : S) : option S :=
  match sch with
  | [] => Some s
  | l :: r => match step s l with Some s' => srun r s' | None => None end
  end.

Hypothesis R_step : forall s l s', R s -> step s l = Some s' -> R s'.

Lemma srun_R sch : forall s s', R s -> srun sch s = Some s' -> R s'.
Proof.
  induction sch as [|l sch IH]; intros s s' Hr H; simpl in H.
  - inversion H; subst; auto.
  - destruct (step s l) as [s1|] eqn:E; [|discriminate]. exact (IH s1 s' (R_step _ _ _ Hr E) H).
Qed.

Hypothesis phi_dec : forall s l s', R s -> step s l = Some s' -> phi s' < phi s.

Lemma srun_finite sch : forall s s', R s -> srun sch s = Some s' -> length sch + phi s' <= phi s.
Proof.
  induction sch as [|l sch IH]; intros s s' Hr H; simpl in H.
  - inversion H; subst; simpl; lia.
  - destruct (step s l) as [s1|] eqn:E; [|discriminate].
    pose proof (phi_dec _ _ _ Hr E). specialize (IH s1 s' (R_step _ _ _ Hr E) H). simpl. lia.
Qed.

Hypothesis live : forall s, R s -> final s = true \/ exists l s', step s l = Some s'.

Lemma srun_can_finish s : R s -> exists sch s', srun sch s = Some s' /\ final s' = true /\ length sch <= phi s.
Proof.
  remember (phi s) as m eqn:Em. revert s Em.
  induction m as [m IH] using lt_wf_ind. intros s Em Hr.
  destruct (live s Hr) as [Hd|(l & s1 & Hs)].
  - exists [], s; simpl; repeat split; auto; lia.
  - pose proof (phi_dec _ _ _ Hr Hs) as Hlt.
    destruct (IH (phi s1)) with (s := s1) as (sch & s' & Hrun & Hd & Hlen); eauto; [lia|].
    exists (l :: sch), s'. simpl. rewrite Hs. repeat split; auto. simpl; lia.
Qed.
End Schedules.
