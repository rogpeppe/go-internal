(* Proofs about the par.Work model (ParWork.v): safety invariants over all reachable states,
   deadlock-freedom, and termination by an explicit potential.  All statements are for every
   n >= work_do_min_n, every children function, every list of initial items and every schedule. *)
From Coq Require Import List Arith Bool Lia Permutation.
From GI Require Import Gen.ParConsts Par.ParWork Par.ParLib.
Import ListNotations.

(* [cnt] of the model is [cntg] at type pc; the lemmas are restated with [cnt] so that lia sees one atom per count *)
Definition cnt_set_nth : forall f k x a l, nth_error l k = Some a ->
  cnt f (set_nth k x l) + b2n (f a) = cnt f l + b2n (f x) := @cntg_set_nth pc.
Definition cnt_exists : forall f l, 0 < cnt f l -> exists t a, nth_error l t = Some a /\ f a = true := @cntg_exists pc.
Definition cnt_lt_exists : forall f l, cnt f l < length l -> exists t a, nth_error l t = Some a /\ f a = false := @cntg_lt_exists pc.
Definition cnt_zero : forall f l t a, cnt f l = 0 -> nth_error l t = Some a -> f a = false := @cntg_zero pc.
Definition cnt_ge1 : forall f l t a, nth_error l t = Some a -> f a = true -> 1 <= cnt f l := @cntg_ge1 pc.
Definition cnt_repeat : forall f a k, cnt f (repeat a k) = k * b2n (f a) := @cntg_repeat pc.
Definition cnt_cons : forall f a l, cnt f (a :: l) = b2n (f a) + cnt f l := @cntg_cons pc.

Lemma cnt_partition l :
  cnt is_top l + cnt is_parked l + cnt is_woken l + cnt is_run l + cnt is_done l = length l.
Proof. induction l as [|p l IH]; [reflexivity|]; rewrite !cnt_cons; destruct p; simpl; lia. Qed.

Lemma cnt_sum f l : cnt f l = list_sum (map (fun p => b2n (f p)) l).
Proof. induction l as [|p l IH]; [reflexivity|]. rewrite cnt_cons, IH. reflexivity. Qed.

(* Broadcast moves the parked runners to Woken and nobody else: what it does to any sum over the runners *)
Lemma sum_wake (g : pc -> nat) l :
  list_sum (map g (map wake l)) + cnt is_parked l * g Parked = list_sum (map g l) + cnt is_parked l * g Woken.
Proof.
  induction l as [|p l IH]; [reflexivity|]. cbn [map]. rewrite !list_sum_cons, cnt_cons.
  destruct p; cbn [wake is_parked b2n]; lia.
Qed.

Lemma cnt_run_of_le i l : cnt (is_run_of i) l <= cnt is_run l.
Proof. apply cntg_le; intros [] H; simpl in *; auto; discriminate. Qed.

Lemma occ_occn i l : occ i l = occn i l. Proof. reflexivity. Qed.

Lemma add_all_occ l : forall td ad td' ad', add_all l td ad = (td', ad') ->
  forall i, occn i ad' + occn i td = occn i td' + occn i ad.
Proof.
  induction l as [|x l IH]; intros td ad td' ad' H i; simpl in H.
  - inversion H; subst; lia.
  - destruct (mem x ad) eqn:E.
    + eapply IH; eauto.
    + specialize (IH _ _ _ _ H i). rewrite occn_app, occn_cons, occn_cons, occn_nil in IH. lia.
Qed.

Lemma add_all_nodup l : forall td ad td' ad', add_all l td ad = (td', ad') ->
  (forall i, occn i ad <= 1) -> forall i, occn i ad' <= 1.
Proof.
  induction l as [|x l IH]; intros td ad td' ad' H Hnd i; simpl in H.
  - inversion H; subst; auto.
  - destruct (mem x ad) eqn:E.
    + eapply IH; eauto.
    + eapply IH; eauto. intros i'; rewrite occn_cons.
      apply mem_false in E. destruct (Nat.eqb_spec x i'); simpl; [subst|apply Hnd].
      rewrite occn_In in E. lia.
Qed.

Lemma add_all_in l : forall td ad td' ad', add_all l td ad = (td', ad') ->
  forall i, In i ad' <-> In i l \/ In i ad.
Proof.
  induction l as [|x l IH]; intros td ad td' ad' H i; simpl in H.
  - inversion H; subst; simpl; tauto.
  - destruct (mem x ad) eqn:E.
    + rewrite (IH _ _ _ _ H i). apply mem_In in E. simpl. split; [tauto|]. intros [[->|?]|?]; auto.
    + rewrite (IH _ _ _ _ H i). simpl. tauto.
Qed.

(* Do(n, f) with n >= work_do_min_n starts work_do_spawned n goroutines running runner() and runs
   runner() itself: n runner threads in all, which is what the model's [n] stands for *)
Lemma runner_count n : work_do_min_n <= n -> work_do_spawned n + work_do_inline_runners = n /\ work_running_is_n = true.
Proof. unfold work_do_min_n, work_do_spawned, work_do_inline_runners, work_running_is_n. lia. Qed.

(* Add signals one waiting runner for every item it queues (regenerated from the source: the only Signal in Add
   is `if w.waiting > 0 { w.wait.Signal() }`, executed for each new item): the model's add_step does exactly this *)
Lemma add_signal_guard : work_add_signals_when_waiting = true.
Proof. reflexivity. Qed.

Section Proofs.
Variable n : nat.
Variable children : item -> list item.
Variable inits : list item.
Hypothesis n_ok : work_do_min_n <= n.

Notation step := (step n children).
Notation run := (run n children).
Notation init := (init_state n inits).

Inductive reachable : state -> Prop :=
| reach_init : reachable init
| reach_step s t c s' : reachable s -> step s (t, c) = Some s' -> reachable s'.

(* items that must be processed: the closure of the initial items under [children] *)
Inductive reach : item -> Prop :=
| reach_base i : In i inits -> reach i
| reach_child i c : reach i -> In c (children i) -> reach c.

Definition entry (s : state) (t : thread) (p : pc) (w0 : nat) : Prop :=
  nth_error (pcs s) t = Some p /\ ((p = Top /\ w0 = waiting s) \/ (p = Woken /\ waiting s = S w0)).

(* [stepR s t p p' w s']: runner t goes from p to p' and w parked runners are woken *)
Inductive stepR (s : state) (t : thread) : pc -> pc -> nat -> state -> Prop :=
| SPick p w0 ci (He : entry s t p w0) (Htd : todo s <> []) (Hci : ci < length (todo s)) :
    stepR s t p (Run (nth ci (todo s) 0) 0) 0
      (mkState (set_nth t (Run (nth ci (todo s) 0) 0) (pcs s)) (swap_remove ci (todo s)) (added s) w0
               (nth ci (todo s) 0 :: started s) (finished s))
| SPark p w0 (He : entry s t p w0) (Htd : todo s = []) (Hne : S w0 <> n) :
    stepR s t p Parked 0 (mkState (set_nth t Parked (pcs s)) [] (added s) (S w0) (started s) (finished s))
| SFinish p w0 (He : entry s t p w0) (Htd : todo s = []) (Heq : S w0 = n) :
    stepR s t p Done (cnt is_parked (pcs s))
      (mkState (set_nth t Done (map wake (pcs s))) [] (added s) (S w0) (started s) (finished s))
| SAddDup i j ch (Hn : nth_error (pcs s) t = Some (Run i j)) (Hch : nth_error (children i) j = Some ch) (Hin : In ch (added s)) :
    stepR s t (Run i j) (Run i (S j)) 0
      (mkState (set_nth t (Run i (S j)) (pcs s)) (todo s) (added s) (waiting s) (started s) (finished s))
| SAddNew i j ch (Hn : nth_error (pcs s) t = Some (Run i j)) (Hch : nth_error (children i) j = Some ch) (Hin : ~ In ch (added s))
    (Hnp : waiting s = 0 \/ cnt is_parked (pcs s) = 0) :
    stepR s t (Run i j) (Run i (S j)) 0
      (mkState (set_nth t (Run i (S j)) (pcs s)) (todo s ++ [ch]) (ch :: added s) (waiting s) (started s) (finished s))
| SAddWake i j ch k (Hn : nth_error (pcs s) t = Some (Run i j)) (Hch : nth_error (children i) j = Some ch) (Hin : ~ In ch (added s))
    (Hwpos : 0 < waiting s) (Hk : nth_error (set_nth t (Run i (S j)) (pcs s)) k = Some Parked) :
    stepR s t (Run i j) (Run i (S j)) 1
      (mkState (set_nth k Woken (set_nth t (Run i (S j)) (pcs s))) (todo s ++ [ch]) (ch :: added s) (waiting s)
               (started s) (finished s))
| SRet i j (Hn : nth_error (pcs s) t = Some (Run i j)) (Hch : nth_error (children i) j = None) :
    stepR s t (Run i j) Top 0
      (mkState (set_nth t Top (pcs s)) (todo s) (added s) (waiting s) (started s) (i :: finished s)).

(* how a runner that enters the critical section is counted: as Top or as Woken, and w0 is w.waiting after the
   decrement that the return of Wait performs *)
Lemma entry_counts s t p w0 : entry s t p w0 ->
  nth_error (pcs s) t = Some p /\ b2n (is_top p) + b2n (is_woken p) = 1 /\ waiting s = w0 + b2n (is_woken p) /\
  b2n (is_parked p) = 0 /\ b2n (is_done p) = 0 /\ b2n (is_run p) = 0 /\ forall i, b2n (is_run_of i p) = 0.
Proof. clear n_ok. intros [Hn [[-> ->]|[-> E]]]; simpl; repeat split; auto; lia. Qed.

Lemma existsb_false_cnt (f : pc -> bool) l : existsb f l = false -> cnt f l = 0.
Proof. clear n_ok.
  induction l as [|a l IH]; [reflexivity|]. simpl. rewrite cnt_cons.
  destruct (f a); simpl; [discriminate|auto].
Qed.

Lemma wait_or_pick_R s t c p w0 s' : entry s t p w0 -> wait_or_pick n t c s w0 = Some s' ->
  exists p' w, stepR s t p p' w s'.
Proof. clear n_ok.
  intros He H; unfold wait_or_pick in H.
  destruct (todo s) as [|x r] eqn:Et.
  - destruct (Nat.eqb_spec (S w0) n) as [e|e]; inversion H; subst; clear H; do 2 eexists.
    + eapply SFinish; eauto.
    + eapply SPark; eauto.
  - rewrite <- Et in H. destruct (Nat.ltb_spec c (length (todo s))) as [e|e]; [|discriminate].
    injection H as <-. do 2 eexists. eapply SPick; eauto. rewrite Et; discriminate.
Qed.

Lemma step_R s t c s' : step s (t, c) = Some s' -> exists p p' w, stepR s t p p' w s'.
Proof. clear n_ok.
  unfold ParWork.step. destruct (nth_error (pcs s) t) as [p|] eqn:Ep; [|discriminate].
  destruct p; try discriminate.
  - intros H. exists Top. apply wait_or_pick_R with (c := c) (w0 := waiting s); [split|]; auto.
  - destruct (waiting s) as [|w0] eqn:Ew; [discriminate|].
    intros H. exists Woken. apply wait_or_pick_R with (c := c) (w0 := w0); [split|]; auto.
  - exists (Run i j). destruct (nth_error (children i) j) as [ch|] eqn:Ec.
    + unfold add_step in H. destruct (mem ch (added s)) eqn:Em.
      * inversion H; subst; clear H. apply mem_In in Em. do 2 eexists. eapply SAddDup; eauto.
      * apply mem_false in Em.
        destruct (Nat.ltb_spec 0 (waiting s)) as [ew|ew].
        -- unfold signal in H. destruct (existsb is_parked (set_nth t (Run i (S j)) (pcs s))) eqn:Ex.
           ++ destruct (nth_error (set_nth t (Run i (S j)) (pcs s)) c) as [[]|] eqn:Ek; try discriminate.
              inversion H; subst; clear H. do 2 eexists. eapply SAddWake; eauto.
           ++ inversion H; subst; clear H. do 2 eexists. eapply SAddNew; eauto. right.
              apply existsb_false_cnt in Ex. pose proof (cnt_set_nth is_parked _ (Run i (S j)) _ _ Ep) as Hc.
              simpl in Hc. lia.
        -- inversion H; subst; clear H. do 2 eexists. eapply SAddNew; eauto. left; lia.
    + inversion H; subst; clear H. do 2 eexists. eapply SRet; eauto.
Qed.

(* what a step does to any sum over the runners, in particular to the number of runners with a property *)
Lemma nth_wake l t p : nth_error l t = Some p -> nth_error (map wake l) t = Some (wake p).
Proof. clear n_ok. intros H; rewrite nth_error_map, H; reflexivity. Qed.

Lemma stepR_sum s t p p' w s' : stepR s t p p' w s' ->
  nth_error (pcs s) t = Some p /\ length (pcs s') = length (pcs s) /\
  forall g : pc -> nat, list_sum (map g (pcs s')) + g p + w * g Parked = list_sum (map g (pcs s)) + g p' + w * g Woken.
Proof. clear n_ok.
  intros HR; destruct HR; try destruct He as [Hn He]; cbn [pcs]; rewrite ?set_nth_length, ?map_length;
    (split; [exact Hn|split; [reflexivity|intros g]]).
  (* all but SFinish and SAddWake replace one pc *)
  1, 2, 4, 5, 7: cbn [Nat.mul]; rewrite !Nat.add_0_r; apply sum_set_nth, Hn.
  - pose proof (sum_set_nth g t Done _ _ (nth_wake _ _ _ Hn)). pose proof (sum_wake g (pcs s)).
    assert (Hwk : wake p = p) by (destruct He as [[-> _]|[-> _]]; reflexivity). rewrite Hwk in *. lia.
  - pose proof (sum_set_nth g t (Run i (S j)) _ _ Hn). pose proof (sum_set_nth g k Woken _ _ Hk). lia.
Qed.

Lemma stepR_cnt s t p p' w s' : stepR s t p p' w s' -> forall f,
  cnt f (pcs s') + b2n (f p) + w * b2n (f Parked) = cnt f (pcs s) + b2n (f p') + w * b2n (f Woken).
Proof. clear n_ok. intros HR f. rewrite !cnt_sum. apply (stepR_sum _ _ _ _ _ _ HR). Qed.

Record InvC (s : state) : Prop := {
  inv_len : length (pcs s) = n;
  inv_wait : waiting s = cnt is_parked (pcs s) + cnt is_woken (pcs s) + cnt is_done (pcs s);
  inv_place : forall i, occn i (added s) = occn i (todo s) + cnt (is_run_of i) (pcs s) + occn i (finished s);
  inv_nodup : forall i, occn i (added s) <= 1;
  inv_started : forall i, occn i (started s) = cnt (is_run_of i) (pcs s) + occn i (finished s);
  inv_phase1 : cnt is_done (pcs s) = 0 -> waiting s < n;
  inv_phase2 : 0 < cnt is_done (pcs s) ->
     todo s = [] /\ cnt is_top (pcs s) = 0 /\ cnt is_parked (pcs s) = 0 /\ cnt is_run (pcs s) = 0
}.

Ltac bsimp := cbn [b2n is_top is_parked is_woken is_done is_run is_run_of wake pcs todo added waiting started finished] in *.

Lemma init_InvC : InvC init.
Proof.
  unfold init_state. destruct (add_all inits [] []) as [td ad] eqn:E.
  pose proof (add_all_occ _ _ _ _ _ E) as Hocc.
  pose proof (add_all_nodup _ _ _ _ _ E) as Hnd.
  assert (Hn : 1 <= n) by exact n_ok.
  constructor; cbn [pcs todo added waiting started finished]; rewrite ?cnt_repeat;
    cbn [b2n is_top is_parked is_woken is_done is_run is_run_of]; rewrite ?Nat.mul_0_r, ?Nat.mul_1_r.
  - apply repeat_length.
  - reflexivity.
  - intros i; specialize (Hocc i); rewrite cnt_repeat, !occn_nil in *; simpl; lia.
  - intros i; apply Hnd; intros; rewrite occn_nil; lia.
  - intros i; rewrite cnt_repeat, occn_nil; simpl; lia.
  - lia.
  - lia.
Qed.

(* item by item a step moves the item from one place to the next -- nowhere to added and queued, queued to running
   and begun, running to finished -- or leaves it alone: the two balances of the invariant are conserved *)
Lemma step_items s t p p' w s' i : stepR s t p p' w s' -> occn i (added s) <= 1 ->
  occn i (added s') + (occn i (todo s) + cnt (is_run_of i) (pcs s) + occn i (finished s)) =
  occn i (added s) + (occn i (todo s') + cnt (is_run_of i) (pcs s') + occn i (finished s')) /\
  occn i (started s') + (cnt (is_run_of i) (pcs s) + occn i (finished s)) =
  occn i (started s) + (cnt (is_run_of i) (pcs s') + occn i (finished s')) /\
  occn i (added s') <= 1.
Proof. clear n_ok.
  intros HR Hnd. pose proof (stepR_cnt _ _ _ _ _ _ HR (is_run_of i)) as Co.
  destruct HR; try destruct (entry_counts _ _ _ _ He) as (_ & _ & _ & _ & _ & _ & Hro); try specialize (Hro i);
    try rewrite occn_In in Hin; try rewrite Htd; bsimp; rewrite ?occn_app, ?occn_cons, ?occn_nil; bsimp; try lia.
  - rewrite (occn_perm i _ _ (swap_remove_perm ci (todo s) Hci)), occn_cons. lia.
  - destruct (Nat.eqb_spec ch i); subst; simpl in *; lia.
  - destruct (Nat.eqb_spec ch i); subst; simpl in *; lia.
Qed.

Lemma step_InvC s t p p' w s' : InvC s -> stepR s t p p' w s' -> InvC s'.
Proof. clear n_ok.
  intros [Hlen Hw Hpl Hnd Hst Hp1 Hp2] HR.
  pose proof (cnt_partition (pcs s)) as Hpart.
  assert (Hpl' : forall i, occn i (added s') = occn i (todo s') + cnt (is_run_of i) (pcs s') + occn i (finished s'))
    by (intros i; destruct (step_items s t p p' w s' i HR (Hnd i)) as (? & _ & _); specialize (Hpl i); lia).
  assert (Hst' : forall i, occn i (started s') = cnt (is_run_of i) (pcs s') + occn i (finished s'))
    by (intros i; destruct (step_items s t p p' w s' i HR (Hnd i)) as (_ & ? & _); specialize (Hst i); lia).
  assert (Hnd' : forall i, occn i (added s') <= 1) by (intros i; apply (step_items s t p p' w s' i HR (Hnd i))).
  destruct (stepR_sum _ _ _ _ _ _ HR) as (Hn & Hl & _).
  pose proof (stepR_cnt _ _ _ _ _ _ HR) as Hcnt.
  pose proof (Hcnt is_top) as Ct; pose proof (Hcnt is_parked) as Cp; pose proof (Hcnt is_woken) as Cw;
    pose proof (Hcnt is_done) as Cd; pose proof (Hcnt is_run) as Cr. clear Hcnt.
  (* while a runner is inside f nobody has returned *)
  assert (Hrun0 : is_run p = true -> cnt is_done (pcs s) = 0).
  { intros H. destruct (cnt is_done (pcs s)) eqn:Ed; auto. destruct Hp2 as (_ & _ & _ & Hrn); [lia|].
    pose proof (cnt_ge1 is_run _ _ _ Hn H). lia. }
  destruct HR; try destruct (entry_counts _ _ _ _ He) as (_ & Htw & Hw0 & Hpk & Hdn & Hrn & _);
    try pose proof (Hrun0 eq_refl) as Hd0; bsimp.
  (* SAddDup, SAddNew, SAddWake, SRet: the steps of a runner inside f *)
  4-7: (constructor; bsimp; auto; lia).
  - (* SPick *)
    assert (Hd0 : cnt is_done (pcs s) = 0).
    { destruct (cnt is_done (pcs s)) eqn:Ed; auto. destruct Hp2 as (Ht & _); [lia|]. congruence. }
    constructor; bsimp; auto; lia.
  - (* SPark *)
    assert (Hd0 : cnt is_done (pcs s) = 0).
    { destruct (cnt is_done (pcs s)) eqn:Ed; auto. destruct Hp2 as (Ht & Htop & Hpk' & Hrn'); lia. }
    constructor; bsimp; auto; lia.
  - (* last one in: broadcast and return *)
    constructor; bsimp; auto; try lia.
    intros _. split; auto.
    destruct (cnt is_done (pcs s)) eqn:Ed; [specialize (Hp1 eq_refl)|destruct Hp2 as (_ & Htop & Hpk' & Hrn'); [lia|]]; lia.
Qed.

(* closure invariant: what has been added is reachable, and nothing reachable is forgotten *)
Definition run_closed (ad : list item) (p : pc) : Prop :=
  match p with
  | Run i j => j <= length (children i) /\ forall m c, m < j -> nth_error (children i) m = Some c -> In c ad
  | _ => True
  end.

Record InvR (s : state) : Prop := {
  inv_inits : forall i, In i inits -> In i (added s);
  inv_fin_closed : forall i c, In i (finished s) -> In c (children i) -> In c (added s);
  inv_run_closed : Forall (run_closed (added s)) (pcs s);
  inv_reach : forall i, In i (added s) -> reach i
}.

Lemma run_closed_mono ad ad' p : incl ad ad' -> run_closed ad p -> run_closed ad' p.
Proof. clear n_ok. intros Hi; destruct p; simpl; auto. intros [H1 H2]; split; auto. intros; apply Hi; eauto. Qed.

Lemma init_InvR : InvR init.
Proof.
  unfold init_state. destruct (add_all inits [] []) as [td ad] eqn:E.
  pose proof (add_all_in _ _ _ _ _ E) as Hin.
  constructor; simpl.
  - intros i Hi; apply Hin; auto.
  - intros i c [].
  - apply Forall_forall; intros p Hp; apply repeat_spec in Hp; subst; exact I.
  - intros i Hi; apply Hin in Hi; destruct Hi as [Hi|[]]; apply reach_base; auto.
Qed.

Lemma run_item_added s t i j : InvC s -> nth_error (pcs s) t = Some (Run i j) -> In i (added s).
Proof. clear n_ok.
  intros HC Hn. apply occn_In. rewrite (inv_place _ HC i).
  assert (is_run_of i (Run i j) = true) by (simpl; apply Nat.eqb_refl).
  pose proof (cnt_ge1 (is_run_of i) _ _ _ Hn H). lia.
Qed.

(* the runner inside f(i) performs its next Add: the set of added items may grow, which keeps what the others promise *)
Lemma run_closed_add ad ad' l t i j ch : incl ad ad' -> In ch ad' -> Forall (run_closed ad) l ->
  nth_error l t = Some (Run i j) -> nth_error (children i) j = Some ch ->
  Forall (run_closed ad') (set_nth t (Run i (S j)) l).
Proof. clear n_ok.
  intros Hi Hch Hr Hn Hc. pose proof (Forall_nth_error _ _ _ _ Hr Hn) as [Hj Hall].
  apply Forall_set_nth; [eapply Forall_impl; [|exact Hr]; intros p; apply run_closed_mono, Hi|].
  split; [apply nth_error_lt in Hc; lia|].
  intros m c Hm Hmc. destruct (Nat.eq_dec m j) as [->|]; [congruence|]. apply Hi, (Hall m); auto; lia.
Qed.

(* what a running f adds is reachable from the initial items *)
Lemma child_reach s t i j ch : InvC s -> InvR s -> nth_error (pcs s) t = Some (Run i j) ->
  nth_error (children i) j = Some ch -> reach ch.
Proof. clear n_ok.
  intros HC HR Hn Hch. eapply reach_child; [apply (inv_reach _ HR); eapply run_item_added; eauto|].
  eapply nth_error_In; eauto.
Qed.

Lemma step_InvR s t p p' w s' : InvC s -> InvR s -> stepR s t p p' w s' -> InvR s'.
Proof. clear n_ok.
  intros HC HR0 HR.
  assert (Hnew : forall i j ch, nth_error (pcs s) t = Some (Run i j) -> nth_error (children i) j = Some ch ->
            forall x, In x (ch :: added s) -> reach x).
  { intros i j ch Hn Hch x [<-|Hx]; [eapply child_reach; eauto|apply (inv_reach _ HR0 x Hx)]. }
  destruct HR0 as [Hi Hf Hr Hre].
  destruct HR; try destruct He as [Hn He]; constructor; cbn [pcs todo added waiting started finished];
    eauto using in_cons.
  - apply Forall_set_nth; auto. simpl; split; [lia|]. intros; lia.
  - apply Forall_set_nth; simpl; auto.
  - apply Forall_set_nth; simpl; auto. apply Forall_forall; intros p' Hp'.
    apply in_map_iff in Hp' as (q & <- & Hq). rewrite Forall_forall in Hr. specialize (Hr _ Hq).
    destruct q; simpl in *; auto.
  - apply (run_closed_add (added s) _ _ t i j ch); auto using incl_refl.
  - apply (run_closed_add (added s) _ _ t i j ch); auto using incl_tl, incl_refl, in_eq.
  - apply Forall_set_nth; [|exact I]. apply (run_closed_add (added s) _ _ t i j ch); auto using incl_tl, incl_refl, in_eq.
  - (* f returns: all its children have been added *)
    pose proof (Forall_nth_error _ _ _ _ Hr Hn) as [Hj Hall].
    intros i' c [<-|Hi'] Hc; eauto.
    apply In_nth_error in Hc as [m Hm]. apply (Hall m); auto.
    apply nth_error_None in Hch. apply nth_error_lt in Hm. lia.
  - apply Forall_set_nth; simpl; auto.
Qed.

Lemma reachable_Inv s : reachable s -> InvC s /\ InvR s.
Proof.
  induction 1 as [|s t c s' Hr [IHC IHR] Hs]; [split; [apply init_InvC|apply init_InvR]|].
  apply step_R in Hs as (p & p' & w & Hs). split; [eapply step_InvC|eapply step_InvR]; eauto.
Qed.

(* no lost wake-up, per queued item: while a runner sleeps un-signalled, the queue is no longer than the
   number of runners on their way to it *)
Definition InvW (s : state) : Prop :=
  0 < cnt is_parked (pcs s) -> length (todo s) <= cnt is_top (pcs s) + cnt is_woken (pcs s).

Lemma init_InvW : InvW init.
Proof.
  unfold InvW, init_state. destruct (add_all inits [] []) as [td ad]. cbn [pcs todo].
  rewrite cnt_repeat. simpl. lia.
Qed.

Lemma step_InvW s t p p' w s' : InvC s -> InvW s -> stepR s t p p' w s' -> InvW s'.
Proof. clear n_ok.
  intros HC HW HR. unfold InvW in *.
  pose proof (inv_wait _ HC) as Hw.
  pose proof (stepR_cnt _ _ _ _ _ _ HR) as Hcnt.
  pose proof (Hcnt is_top) as Ct; pose proof (Hcnt is_parked) as Cp; pose proof (Hcnt is_woken) as Cw. clear Hcnt.
  destruct HR; try destruct (entry_counts _ _ _ _ He) as (_ & Htw & Hw0 & Hpk & _); bsimp;
    rewrite ?app_length; cbn [length]; try lia.
  (* pick: one item and one runner on its way fewer *)
  pose proof (swap_remove_length ci (todo s) Htd). lia.
Qed.

Lemma reachable_InvW s : reachable s -> InvW s.
Proof.
  induction 1 as [|s t c s' Hr IH Hs]; [apply init_InvW|].
  destruct (step_R _ _ _ _ Hs) as (p & p' & w & HR). eapply step_InvW; eauto. apply reachable_Inv; auto.
Qed.

(* every added item is in exactly one of todo / running / finished; f begins at most once
   per item; only items reachable from the initial ones are ever added *)
Theorem exactly_once_safety s : reachable s ->
  NoDup (added s) /\ NoDup (started s) /\ NoDup (finished s) /\
  (forall i, In i (added s) ->
     occ i (todo s) + cnt (is_run_of i) (pcs s) + occ i (finished s) = 1) /\
  (forall i, In i (todo s) \/ 0 < cnt (is_run_of i) (pcs s) \/ In i (started s) \/ In i (finished s) ->
     In i (added s) /\ reach i).
Proof.
  intros Hr. destruct (reachable_Inv s Hr) as [HC HR].
  destruct HC as [Hlen Hw Hpl Hnd Hst Hp1 Hp2].
  assert (Hs1 : forall i, occn i (started s) <= 1) by (intros i; specialize (Hpl i); specialize (Hnd i); specialize (Hst i); lia).
  assert (Hf1 : forall i, occn i (finished s) <= 1) by (intros i; specialize (Hpl i); specialize (Hnd i); lia).
  repeat split; try (apply occn_NoDup; assumption).
  - intros i Hi. apply occn_In in Hi. specialize (Hpl i); specialize (Hnd i). unfold occ, occn in *. lia.
  - rewrite !occn_In in *. specialize (Hpl i); specialize (Hst i). lia.
  - apply (inv_reach _ HR). rewrite !occn_In in *. specialize (Hpl i); specialize (Hst i). lia.
Qed.

Theorem at_most_n_running s : reachable s -> length (pcs s) = n /\ cnt is_run (pcs s) <= n.
Proof.
  intros Hr. destruct (reachable_Inv s Hr) as [HC _]. split; [apply HC|].
  rewrite <- (inv_len _ HC). apply cntg_le_length.
Qed.

Lemma reach_finished_when_quiet s : InvC s -> InvR s -> todo s = [] -> cnt is_run (pcs s) = 0 ->
  forall i, reach i -> In i (finished s).
Proof.
  intros HC HR Htd Hrun.
  assert (Haf : forall i, In i (added s) -> In i (finished s)).
  { intros i Hi. rewrite occn_In in *. pose proof (inv_place _ HC i) as Hp. rewrite Htd, occn_nil in Hp.
    pose proof (cnt_run_of_le i (pcs s)). lia. }
  induction 1 as [i Hi|i c Hi IH Hc]; apply Haf.
  - apply (inv_inits _ HR); auto.
  - eapply (inv_fin_closed _ HR); eauto.
Qed.

(* when the runner of Do's own goroutine (thread 0) -- or any runner -- has returned, nothing is
   queued, no call of f is in progress, every item reachable from the initial items has been
   processed exactly once, and no thread is parked or will park again *)
Theorem do_returns_when_done s t : reachable s -> nth_error (pcs s) t = Some Done ->
  todo s = [] /\ cnt is_run (pcs s) = 0 /\ cnt is_parked (pcs s) = 0 /\ cnt is_top (pcs s) = 0 /\
  (forall i, reach i <-> In i (finished s)) /\ NoDup (finished s).
Proof.
  intros Hr Hn. destruct (reachable_Inv s Hr) as [HC HR].
  pose proof (cnt_ge1 is_done _ _ _ Hn eq_refl) as Hd.
  destruct (inv_phase2 _ HC) as (Htd & Htop & Hpk & Hrun); [lia|].
  repeat split; auto.
  - apply reach_finished_when_quiet; auto.
  - intros Hi. apply (exactly_once_safety s Hr). auto.
  - apply (exactly_once_safety s Hr).
Qed.

Lemma wait_or_pick_some s t w0 : exists c s', wait_or_pick n t c s w0 = Some s'.
Proof. clear n_ok.
  unfold wait_or_pick. destruct (todo s) as [|x r] eqn:Et.
  - exists 0. destruct (Nat.eqb (S w0) n); eauto.
  - exists 0. simpl. eauto.
Qed.

Lemma top_enabled s t : nth_error (pcs s) t = Some Top -> exists c s', step s (t, c) = Some s'.
Proof. clear n_ok. intros Hn. unfold ParWork.step. rewrite Hn. apply wait_or_pick_some. Qed.

Lemma woken_enabled s t : nth_error (pcs s) t = Some Woken -> 0 < waiting s -> exists c s', step s (t, c) = Some s'.
Proof. clear n_ok.
  intros Hn Hw. unfold ParWork.step. rewrite Hn. destruct (waiting s); [lia|]. apply wait_or_pick_some.
Qed.

Lemma run_enabled s t i j : nth_error (pcs s) t = Some (Run i j) -> exists c s', step s (t, c) = Some s'.
Proof. clear n_ok.
  intros Hn. unfold ParWork.step. rewrite Hn.
  destruct (nth_error (children i) j) as [ch|] eqn:Ec; [|eauto].
  unfold add_step. destruct (mem ch (added s)); [eauto|].
  destruct (Nat.ltb 0 (waiting s)); [|eauto]. unfold signal.
  destruct (existsb is_parked (set_nth t (Run i (S j)) (pcs s))) eqn:Ex; [|exists 0; eauto].
  apply existsb_exists in Ex as (q & Hq & Hqp). apply In_nth_error in Hq as [k Hk].
  destruct q; try discriminate. exists k. rewrite Hk. eauto.
Qed.

(* Do itself is thread 0 *)
Corollary do_returns s : reachable s -> nth_error (pcs s) 0 = Some Done ->
  todo s = [] /\ cnt is_run (pcs s) = 0 /\ (forall i, reach i <-> In i (finished s)) /\ NoDup (finished s) /\
  (forall t p, nth_error (pcs s) t = Some p -> p = Woken \/ p = Done).
Proof.
  intros Hr H0. destruct (do_returns_when_done s 0 Hr H0) as (Htd & Hrun & Hpk & Htop & Hre & Hnd).
  repeat split; auto; try apply Hre.
  intros t p Hn. pose proof (cnt_zero _ _ _ _ Hrun Hn). pose proof (cnt_zero _ _ _ _ Hpk Hn).
  pose proof (cnt_zero _ _ _ _ Htop Hn). destruct p; simpl in *; auto; discriminate.
Qed.

(* no deadlock, no lost wake-up: unless every runner has returned, some thread has a step *)
Theorem no_deadlock s : reachable s ->
  all_done s = true \/ exists t c s', step s (t, c) = Some s'.
Proof.
  intros Hr. destruct (reachable_Inv s Hr) as [HC HR].
  destruct HC as [Hlen Hw Hpl Hnd Hst Hp1 Hp2].
  pose proof (cnt_partition (pcs s)) as Hpart.
  destruct (cnt is_done (pcs s)) eqn:Ed.
  - (* nobody has returned: somebody is not parked *)
    right. specialize (Hp1 eq_refl).
    destruct (cnt_lt_exists is_parked (pcs s)) as (t & p & Hn & Hp); [lia|].
    pose proof (cnt_zero is_done _ _ _ Ed Hn) as Hnd'.
    exists t. destruct p; try discriminate.
    + apply top_enabled; auto.
    + pose proof (cnt_ge1 is_woken _ _ _ Hn eq_refl) as Hge. apply woken_enabled; auto; lia.
    + eapply run_enabled; eauto.
  - (* somebody has returned: everybody else is Woken and can re-acquire the mutex and return *)
    destruct Hp2 as (Htd & Htop & Hpk & Hrun); [lia|].
    destruct (cnt is_woken (pcs s)) eqn:Ewk.
    + left. unfold all_done. apply forallb_forall. intros p Hp. apply In_nth_error in Hp as [t Hn].
      pose proof (cnt_zero _ _ _ _ Htop Hn). pose proof (cnt_zero _ _ _ _ Hpk Hn).
      pose proof (cnt_zero _ _ _ _ Hrun Hn). pose proof (cnt_zero _ _ _ _ Ewk Hn).
      destruct p; simpl in *; auto; discriminate.
    + right. destruct (cnt_exists is_woken (pcs s)) as (t & p & Hn & Hp); [lia|].
      destruct p; try discriminate.
      exists t. apply woken_enabled; auto. lia.
Qed.

(* a state without any step is the final state: every runner has returned *)
Corollary stuck_is_final s : reachable s -> (forall t c, step s (t, c) = None) -> all_done s = true.
Proof.
  intros Hr Hs. destruct (no_deadlock s Hr) as [H|(t & c & s' & H)]; auto. rewrite Hs in H; discriminate.
Qed.

(* no lost wake-up, stated on its own: while work is queued, some runner that is not blocked
   in Wait will look at it (it is at the loop head, or woken, or inside f) *)
Theorem no_lost_wakeup s : reachable s -> todo s <> [] ->
  cnt is_parked (pcs s) < n /\ exists t p, nth_error (pcs s) t = Some p /\ (is_top p || is_woken p || is_run p) = true.
Proof.
  intros Hr Htd. destruct (reachable_Inv s Hr) as [HC HR].
  destruct HC as [Hlen Hw Hpl Hnd Hst Hp1 Hp2].
  destruct (cnt is_done (pcs s)) eqn:Ed; [|destruct Hp2 as (? & _); [lia|contradiction]].
  specialize (Hp1 eq_refl). split; [lia|].
  destruct (cnt_lt_exists is_parked (pcs s)) as (t & p & Hn & Hp); [lia|].
  pose proof (cnt_zero is_done _ _ _ Ed Hn) as Hnd'.
  exists t, p. split; auto. destruct p; simpl in *; auto; discriminate.
Qed.

(* no lost wake-up, item by item: in every reachable state in which some runner sleeps in Wait without having
   been signalled, each queued item has a runner of its own on its way to the queue -- at the loop head, or signalled
   and about to re-acquire the mutex (runners inside f do not count: f may never return unless the queued items
   run, as with items that wait for each other).  In particular an Add of k new items while k runners sleep wakes k. *)
Theorem wakeup_per_item s : reachable s -> 0 < cnt is_parked (pcs s) ->
  length (todo s) <= cnt is_top (pcs s) + cnt is_woken (pcs s).
Proof. intros Hr. exact (reachable_InvW s Hr). Qed.

(* the executable form evaluated on the states of the real code *)
Theorem wakeup_ok_reachable s : reachable s -> wakeup_ok s = true.
Proof.
  intros Hr. pose proof (wakeup_per_item s Hr) as H. unfold wakeup_ok.
  destruct (Nat.eqb_spec (cnt is_parked (pcs s)) 0) as [e|e]; [reflexivity|].
  simpl. apply Nat.leb_le. apply H. lia.
Qed.

(* a runner at the loop head or woken takes an item when there is one *)
Lemma entry_pick s t p w0 : entry s t p w0 -> todo s <> [] ->
  step s (t, 0) = Some (mkState (set_nth t (Run (nth 0 (todo s) 0) 0) (pcs s)) (swap_remove 0 (todo s)) (added s) w0
                                (nth 0 (todo s) 0 :: started s) (finished s)).
Proof. clear n_ok.
  intros [Hn He] Htd. unfold ParWork.step. rewrite Hn.
  destruct He as [[-> ->]|[-> ->]]; unfold wait_or_pick; destruct (todo s); try contradiction; reflexivity.
Qed.

Lemma entry_exists s : InvC s -> 0 < cnt is_top (pcs s) + cnt is_woken (pcs s) -> exists t p w0, entry s t p w0.
Proof. clear n_ok.
  intros HC H. destruct (cnt is_top (pcs s)) eqn:Etop.
  - destruct (cnt_exists is_woken (pcs s)) as (t & p & Hn & Hp); [lia|]. destruct p; try discriminate.
    pose proof (cnt_ge1 is_woken _ _ _ Hn eq_refl). pose proof (inv_wait _ HC).
    destruct (waiting s) as [|w0] eqn:Ew; [lia|]. exists t, Woken, w0. split; auto.
  - destruct (cnt_exists is_top (pcs s)) as (t & p & Hn & Hp); [lia|]. destruct p; try discriminate.
    exists t, Top, (waiting s). split; auto.
Qed.

(* what "no lost wake-up, item by item" buys: WITHOUT any call of f returning or adding anything, the runners that
   are not inside f can take up queued items until the queue is empty or all n runners are inside f -- up to n items
   are in progress together, so calls of f that wait for their siblings to be running (with no more such items than
   runners) cannot hang Do.  The schedule consists of pick steps only: nothing is added, nothing finishes. *)
Theorem queued_items_get_runners s : reachable s ->
  exists sch s', run sch s = Some s' /\ (todo s' = [] \/ cnt is_run (pcs s') = n) /\
    added s' = added s /\ finished s' = finished s /\ length sch + length (todo s') = length (todo s) /\
    cnt is_run (pcs s') = cnt is_run (pcs s) + length sch.
Proof.
  remember (length (todo s)) as m eqn:Em. revert s Em.
  induction m as [|m IH]; intros s Em Hr.
  - exists [], s. simpl. repeat split; auto. left. destruct (todo s); [reflexivity|discriminate].
  - destruct (reachable_Inv s Hr) as [HC HR]. pose proof (reachable_InvW s Hr) as HW. unfold InvW in HW.
    pose proof (cnt_partition (pcs s)) as Hpart. pose proof (inv_len _ HC) as Hlen. pose proof (inv_wait _ HC) as Hw.
    assert (Htd : todo s <> []) by (intros E; rewrite E in Em; discriminate).
    assert (Hd0 : cnt is_done (pcs s) = 0).
    { destruct (cnt is_done (pcs s)) eqn:Ed; auto. destruct (inv_phase2 _ HC) as (Ht & _); [lia|contradiction]. }
    pose proof (inv_phase1 _ HC Hd0) as Hp1.
    destruct (Nat.eq_dec (cnt is_run (pcs s)) n) as [Hall|Hnot].
    { exists [], s. simpl. repeat split; auto. }
    (* somebody is on the way to the queue: let it pick *)
    destruct (entry_exists s HC) as (t & p & w0 & He).
    { destruct (cnt is_parked (pcs s)) eqn:Epk; [lia|]. assert (0 < S n0) as Hp by lia. specialize (HW Hp). lia. }
    pose proof (entry_pick _ _ _ _ He Htd) as Hs1.
    assert (Hpos : 0 < length (todo s)) by (destruct (todo s); [contradiction|simpl; lia]).
    pose proof (stepR_cnt _ _ _ _ _ _ (SPick s t p w0 0 He Htd Hpos) is_run) as Hc.
    destruct (entry_counts _ _ _ _ He) as (_ & _ & _ & _ & _ & Hrn & _). cbn [pcs is_run b2n] in Hc.
    pose proof (swap_remove_length 0 (todo s) Htd) as Hl.
    destruct (fun E => IH _ E (reach_step _ _ _ _ Hr Hs1)) as (sch & s' & Hrun & Hgoal & Ha & Hf & Hlen' & Hr');
      [cbn [todo]; lia|].
    exists ((t, 0) :: sch), s'. cbn [ParWork.run todo added finished pcs] in *. rewrite Hs1.
    repeat split; auto; simpl; lia.
Qed.

(* [enabled] (used by the runner to compare with the real scheduler's runnable set) is exact *)
Theorem enabled_spec s t : reachable s -> (enabled s t = true <-> exists c s', step s (t, c) = Some s').
Proof.
  intros Hr. destruct (reachable_Inv s Hr) as [HC HR]. unfold enabled. split.
  - destruct (nth_error (pcs s) t) as [p|] eqn:Hn; [|discriminate].
    destruct p; try discriminate; intros _.
    + apply top_enabled; auto.
    + pose proof (cnt_ge1 is_woken _ _ _ Hn eq_refl). pose proof (inv_wait _ HC).
      apply woken_enabled; auto; lia.
    + eapply run_enabled; eauto.
  - intros (c & s' & H). unfold ParWork.step in H.
    destruct (nth_error (pcs s) t) as [[]|]; auto; discriminate.
Qed.

Section Potential.
Variable U : list item.
Hypothesis U_nodup : NoDup U.
Hypothesis U_inits : forall i, In i inits -> In i U.
Hypothesis U_closed : forall i c, In i U -> In c (children i) -> In c U.

Notation phi := (phi n children U).
Notation pot := (pot n children).
Notation wgt := (wgt n children).
Notation unadded := (unadded n children U).

Lemma reach_in_U i : reach i -> In i U.
Proof. induction 1; eauto. Qed.

Lemma mem_cons x c ad : mem x (c :: ad) = (Nat.eqb x c || mem x ad)%bool.
Proof. clear n_ok. reflexivity. Qed.

Lemma unadded_notin c ad l : ~ In c l ->
  list_sum (map (fun u => if mem u (c :: ad) then 0 else wgt u + 2) l) =
  list_sum (map (fun u => if mem u ad then 0 else wgt u + 2) l).
Proof. clear n_ok.
  induction l as [|u l IH]; intros H; [reflexivity|]. cbn [map]. rewrite !list_sum_cons.
  rewrite IH by (intros ?; apply H; right; auto). rewrite mem_cons.
  destruct (Nat.eqb_spec u c); [subst; exfalso; apply H; left; auto|]. reflexivity.
Qed.

Lemma unadded_in c ad l : NoDup l -> In c l -> mem c ad = false ->
  list_sum (map (fun u => if mem u (c :: ad) then 0 else wgt u + 2) l) + (wgt c + 2) =
  list_sum (map (fun u => if mem u ad then 0 else wgt u + 2) l).
Proof. clear n_ok.
  induction 1 as [|u l Hu Hl IH]; intros Hin Hm; [destruct Hin|].
  cbn [map]. rewrite !list_sum_cons, mem_cons. destruct Hin as [->|Hin].
  - rewrite Nat.eqb_refl, Hm. cbn [orb]. rewrite unadded_notin by auto. lia.
  - destruct (Nat.eqb_spec u c); [subst; contradiction|]. cbn [orb]. specialize (IH Hin Hm). lia.
Qed.

Lemma pot_run_step i j : j < length (children i) -> pot (Run i (S j)) + K n = pot (Run i j).
Proof. clear n_ok.
  intros H. unfold ParWork.pot.
  replace (length (children i) - j + 1) with (S (length (children i) - S j + 1)) by lia.
  simpl. lia.
Qed.

Lemma entry_pot s t p w0 : entry s t p w0 -> n < pot p.
Proof. clear n_ok. intros [_ [[-> _]|[-> _]]]; simpl; lia. Qed.

Theorem phi_decreases s t c s' : reachable s -> step s (t, c) = Some s' -> phi s' < phi s.
Proof.
  intros Hr Hs. destruct (reachable_Inv s Hr) as [HC HR]. apply step_R in Hs as (p & p' & w & Hs).
  pose proof (inv_len _ HC) as Hlen.
  destruct (stepR_sum _ _ _ _ _ _ Hs) as (Hn & _ & Hsum). specialize (Hsum pot).
  unfold ParWork.phi.
  destruct Hs; try pose proof (entry_pot _ _ _ _ He) as Hpot; bsimp.
  (* SAddNew, SAddWake: the new item leaves the unadded ones and joins the queue *)
  5, 6: (pose proof (pot_run_step i j (nth_error_lt _ _ _ Hch)); apply mem_false in Hin;
         pose proof (unadded_in ch (added s) U U_nodup (reach_in_U _ (child_reach _ _ _ _ _ HC HR Hn Hch)) Hin) as Hu;
         unfold ParWork.unadded; rewrite map_app, list_sum_app; cbn [map]; rewrite list_sum_cons;
         cbn [list_sum fold_right ParWork.pot] in *; unfold K in *; lia).
  - pose proof (swap_remove_perm ci (todo s) Hci) as Hperm.
    apply (Permutation_map wgt) in Hperm. apply Permutation_list_sum in Hperm.
    cbn [map] in Hperm. rewrite list_sum_cons in Hperm.
    assert (Hpw : pot (Run (nth ci (todo s) 0) 0) = wgt (nth ci (todo s) 0)).
    { unfold ParWork.pot, ParWork.wgt. rewrite Nat.sub_0_r. reflexivity. }
    lia.
  - cbn [ParWork.pot] in Hsum. rewrite Htd. cbn [map list_sum fold_right]. lia.
  - (* the last one in is worth more than all the sleepers gain by being woken *)
    assert (cnt is_parked (pcs s) < length (pcs s)).
    { eapply cntg_lt_length; eauto. destruct He as [_ [[-> _]|[-> _]]]; reflexivity. }
    rewrite Htd. cbn [map list_sum fold_right ParWork.pot] in *. lia.
  - pose proof (pot_run_step i j (nth_error_lt _ _ _ Hch)). unfold K in *. lia.
  - apply nth_error_None in Hch.
    pose proof (Forall_nth_error _ _ _ _ (inv_run_closed _ HR) Hn) as [Hj _].
    assert (Hpk : pot (Run i j) = K n).
    { unfold ParWork.pot. replace (length (children i) - j + 1) with 1 by lia. lia. }
    rewrite Hpk in Hsum. cbn [ParWork.pot] in Hsum. unfold K in *. lia.
Qed.

Lemma reachable_step s tc s' : reachable s -> step s tc = Some s' -> reachable s'.
Proof. destruct tc; apply reach_step. Qed.

Lemma run_reachable sch : forall s s', reachable s -> run sch s = Some s' -> reachable s'.
Proof. exact (srun_R step reachable reachable_step sch). Qed.

Lemma phi_step s tc s' : reachable s -> step s tc = Some s' -> phi s' < phi s.
Proof. destruct tc; apply phi_decreases. Qed.

(* every schedule is finite: at most phi(init) steps can be taken from the start *)
Theorem terminates sch : forall s s', reachable s -> run sch s = Some s' -> length sch + phi s' <= phi s.
Proof. exact (srun_finite step reachable phi reachable_step phi_step sch). Qed.

(* ... and every schedule can be completed: from any reachable state some continuation ends
   with all runners (in particular Do) returned, after at most phi(s) further steps *)
Theorem can_finish s : reachable s ->
  exists sch s', run sch s = Some s' /\ all_done s' = true /\ length sch <= phi s.
Proof.
  apply (srun_can_finish step reachable phi all_done reachable_step phi_step).
  intros s0 Hr. destruct (no_deadlock s0 Hr) as [H|(t & c & s' & H)]; eauto.
Qed.
End Potential.
End Proofs.
