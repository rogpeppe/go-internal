(* Gen/TxtarSrc.v is txtar/archive.go translated to Gallina by harness/go2coq on every
   run.  This file proves, for every input (and every sufficiently large iteration
   bound), that each generated function computes exactly what the hand-written
   statement-level model (TxtarIndex.v, QuoteIndex.v) computes -- including where that
   model would panic or run out of fuel -- and therefore what the line-based model of
   Txtar.v computes.  Every theorem about parse / needs_quote / quote / unquote thus holds
   of the code as translated, and a change of archive.go that changes the generated text
   stops these proofs from compiling.

   The proofs do not mention generated hypothesis or bound-variable names: each function
   is unfolded, the primitive operations (searches, checked index and slice expressions,
   comparisons) are case-split in evaluation order by [go_cases], loops go by induction on
   the iteration bound (for) or on the list (range). *)
From Coq Require Import List Bool Arith ZArith Lia ZifyBool.
From Coq.Strings Require Import Byte.
From GI Require Import Lib.Bytes Lib.BytesFacts Lib.GoSem Lib.GoSemExtFacts Lib.GoSemData Lib.GoSemDataFacts
  Gen.TxtarConsts Gen.TxtarQuoteConsts Gen.TxtarSrc
  Txtar.Txtar Txtar.TxtarFacts Txtar.QuoteFacts Txtar.TxtarIndex Txtar.TxtarIndexFacts
  Txtar.QuoteIndex Txtar.QuoteIndexFacts.
Import ListNotations.

(* the package-level variables as translated are the regenerated constants *)
Lemma src_vars :
  src_marker = marker /\ src_markerEnd = marker_end /\ src_newlineMarker = newline_marker.
Proof. repeat split. Qed.

Ltac go_vars :=
  let E1 := fresh in let E2 := fresh in let E3 := fresh in
  pose proof src_vars as (E1 & E2 & E3); rewrite ?E1, ?E2, ?E3; clear E1 E2 E3.

(* the library calls and checked expressions of GoSem.v in terms of the list functions *)
Ltac go_unfold :=
  unfold go_bytes_HasPrefix, go_bytes_HasSuffix, go_bytes_IndexByte, go_bytes_Index,
    go_strings_TrimSpace, go_utf8_Valid, go_slice, go_index, go_append, go_bytes_TrimPrefix,
    opt_pos, unreachable, NL, CR in *.

Definition mres_res (m : mres) : res (bytes * bytes) :=
  match m with MRes n a => Ok (n, a) | MPanic => Panic end.

Theorem src_isMarker_eq data : src_isMarker data = mres_res (is_marker_idx data).
Proof.
  unfold src_isMarker, is_marker_idx. go_vars. go_unfold. unfold len. go_cases idtac.
Qed.

Theorem src_isMarker_no_panic data : exists n a, src_isMarker data = Ok (n, a).
Proof.
  rewrite src_isMarker_eq. pose proof (is_marker_idx_no_panic data) as H.
  destruct (is_marker_idx data) as [n a|]; [now exists n, a|congruence].
Qed.

(* fixNL: make + copy + store is "append a byte" *)

Lemma go_make_bytes_nat n : go_make_bytes (Z.of_nat n) = Ok (repeat x00 n).
Proof. exact (go_make_of_nat x00 n). Qed.

Lemma go_copy_zeros n data :
  length data <= n -> go_copy (repeat x00 n) data = data ++ repeat x00 (n - length data).
Proof.
  intros H. unfold go_copy. rewrite repeat_length, firstn_all2 by assumption. f_equal.
  replace n with (length data + (n - length data)) at 1 by lia.
  rewrite repeat_app, skipn_app, repeat_length, Nat.sub_diag, skipn_all2 by (rewrite repeat_length; lia).
  reflexivity.
Qed.

Lemma go_store_at data b rest v : go_store (data ++ b :: rest) (len data) v = Ok (data ++ v :: rest).
Proof. exact (go_store_of_at data b rest v). Qed.

Lemma go_make_bytes_succ data : go_make_bytes (len data + 1) = Ok (repeat x00 (length data + 1)).
Proof.
  unfold len. replace (Z.of_nat (length data) + 1)%Z with (Z.of_nat (length data + 1)) by lia.
  apply go_make_bytes_nat.
Qed.

Lemma copy_store data v :
  go_store (go_copy (repeat x00 (length data + 1)) data) (len data) v = Ok (data ++ [v]).
Proof.
  rewrite go_copy_zeros by lia.
  replace (length data + 1 - length data) with 1 by lia. cbn [repeat]. apply go_store_at.
Qed.

Theorem src_fixNL_idx_eq data : src_fixNL data = opt_res (fix_nl_idx data).
Proof.
  unfold src_fixNL, fix_nl_idx. rewrite go_make_bytes_succ. go_unfold. go_red.
  rewrite copy_store. unfold len. go_cases idtac.
Qed.

Theorem src_fixNL_eq data : src_fixNL data = Ok (fix_nl data).
Proof. now rewrite src_fixNL_idx_eq, fix_nl_idx_eq. Qed.

Lemma src_findFileMarker_loop_eq (L : Type) fuel : forall n data name after i,
  @src_findFileMarker_loop1 L fuel n data name after i = returned (find_loop n data i).
Proof.
  induction n as [|n IH]; intros data name after i; [reflexivity|].
  cbn [src_findFileMarker_loop1 find_loop]. go_vars.
  unfold index_nl_marker. go_unfold. go_red.
  destruct (slice_z data i (len data)) as [rest|]; go_red; [|reflexivity].
  rewrite src_isMarker_eq. destruct (is_marker_idx rest) as [nm af|]; cbn [mres_res]; go_red; [|reflexivity].
  rewrite bytes_eqb_nil, src_fixNL_idx_eq.
  go_cases ltac:(first [apply IH | rewrite IH; do 2 f_equal; lia | idtac]).
Qed.

Theorem src_findFileMarker_eq fuel data :
  src_findFileMarker fuel data = find_file_marker_fuel fuel data.
Proof.
  unfold src_findFileMarker, find_file_marker_fuel. go_red.
  rewrite src_findFileMarker_loop_eq. destruct (find_loop fuel data 0); reflexivity.
Qed.

Theorem src_findFileMarker_spec fuel data :
  length data + 1 <= fuel -> src_findFileMarker fuel data = Ok (find_result data).
Proof. intros H. rewrite src_findFileMarker_eq. now apply find_file_marker_fuel_spec. Qed.

Lemma find_lines_rest_len ls : forall n rest,
  snd (find_lines ls) = Some (n, rest) -> length (concat rest) <= length (concat ls).
Proof.
  induction ls as [|l ls IH]; intros n rest H; [discriminate|].
  cbn [concat]. rewrite app_length. destruct (marker_line l) as [m|] eqn:E.
  - cbn [find_lines] in H. rewrite E in H. cbn [snd] in H. injection H as _ <-. lia.
  - rewrite find_lines_cons_nomark in H by assumption. cbn [snd] in H.
    specialize (IH n rest H). lia.
Qed.

Lemma find_result_after_len d : length (snd (find_result d)) <= length d.
Proof.
  unfold find_result, find_spec.
  destruct (snd (find_lines (split_lines d))) as [[n rest]|] eqn:E; cbn [snd length]; [|lia].
  apply find_lines_rest_len in E. now rewrite concat_split_lines in E.
Qed.

(* The loop of Parse is [parse_loop], iteration by iteration.  Every call of findFileMarker
   inside gets the whole bound [fuel], which is enough because the data only gets shorter. *)
Lemma src_Parse_loop_eq fuel : forall n data a name,
  length data + 1 <= fuel ->
  bindT (src_Parse_loop1 fuel n data a name) (fun '(_, a', _) => Ok a')
  = match parse_loop n name data (files a) with
    | Ok fs => Ok {| comment := comment a; files := fs |}
    | Panic => Panic
    | OutOfFuel => OutOfFuel
    end.
Proof.
  induction n as [|n IH]; intros data a name Hf; [reflexivity|].
  cbn [src_Parse_loop1 parse_loop]. rewrite bytes_eqb_nil.
  destruct name as [|b name]; cbn [negb]; [now destruct a|].
  rewrite src_findFileMarker_spec, find_file_marker_idx_spec by assumption.
  pose proof (find_result_after_len data) as Hlen.
  destruct (find_result data) as [[fdata name'] data']. go_unfold. go_red.
  now rewrite IH by (cbn [snd] in Hlen; lia).
Qed.

Theorem src_Parse_eq fuel s : length s + 2 <= fuel -> src_Parse fuel s = Ok (parse s).
Proof.
  intros Hfuel. unfold src_Parse. rewrite src_findFileMarker_spec by lia.
  pose proof (parse_loop_find_result fuel s Hfuel) as H. pose proof (find_result_after_len s) as Hlen.
  destruct (find_result s) as [[c n] rest]. destruct H as [-> H]. go_red.
  rewrite src_Parse_loop_eq by (cbn [snd] in Hlen; lia). cbn [comment files].
  rewrite H. now destruct (parse s).
Qed.

Theorem src_Parse_idx_eq fuel s : length s + 2 <= fuel -> src_Parse fuel s = parse_idx s.
Proof. intros H. now rewrite src_Parse_eq, parse_idx_eq. Qed.

Theorem src_Parse_total fuel s :
  length s + 2 <= fuel -> src_Parse fuel s <> Panic /\ src_Parse fuel s <> OutOfFuel.
Proof. intros H. rewrite src_Parse_eq by assumption. split; discriminate. Qed.

(* the round trip, stated on the translated Parse: what it returns is reproduced by
   parsing its Format *)
Theorem src_Parse_format_parse fuel fuel' s a :
  length s + 2 <= fuel -> src_Parse fuel s = Ok a ->
  length (format a) + 2 <= fuel' -> src_Parse fuel' (format a) = Ok a.
Proof.
  intros H1 H2 H3. rewrite src_Parse_eq in H2 by assumption. injection H2 as <-.
  rewrite src_Parse_eq by assumption. now rewrite parse_format_parse.
Qed.

Theorem src_Parse_format_wf fuel a :
  wf_archive a = true -> length (format a) + 2 <= fuel -> src_Parse fuel (format a) = Ok a.
Proof. intros H1 H2. rewrite src_Parse_eq by assumption. now rewrite parse_format_wf. Qed.

Theorem src_NeedsQuote_eq fuel d :
  length d + 1 <= fuel -> src_NeedsQuote fuel d = Ok (needs_quote d).
Proof.
  intros H. pose proof (needs_quote_idx_eq d) as Hidx. unfold needs_quote_idx in Hidx.
  rewrite find_file_marker_idx_spec in Hidx.
  unfold src_NeedsQuote. rewrite src_findFileMarker_spec by assumption.
  destruct (find_result d) as [[b n] r]. go_red. rewrite bytes_eqb_nil. exact Hidx.
Qed.

(* an error result ([]byte, error) of the translation: (nil, true) for the error *)
Definition err_pair (o : option bytes) : bytes * bool :=
  match o with Some q => (q, false) | None => ([], true) end.

Definition err_res (r : res (option bytes)) : res (bytes * bool) :=
  match r with Ok o => Ok (err_pair o) | Panic => Panic | OutOfFuel => OutOfFuel end.

Lemma src_Quote_loop_eq (L : Type) : forall l nd prev,
  @src_Quote_loop1 L l nd prev = Ok (Normal (fold_left quote_step l (nd, prev))).
Proof.
  induction l as [|b l IH]; intros nd prev; [reflexivity|].
  cbn [src_Quote_loop1 fold_left quote_step]. go_unfold.
  destruct (beq prev x0a); go_red; apply IH.
Qed.

Theorem src_Quote_idx_eq d : src_Quote d = err_res (quote_idx d).
Proof.
  unfold src_Quote, quote_idx. go_unfold. go_red.
  destruct (len d =? 0)%Z; [reflexivity|].
  destruct (index_z d (len d - 1)) as [b|]; go_red; [|reflexivity].
  destruct (beq b x0a); go_red; [|reflexivity].
  destruct (utf8_valid d); go_red; [|reflexivity].
  rewrite src_Quote_loop_eq. go_unfold. go_red. cbn [err_res err_pair].
  match goal with |- (let '(x, _) := ?p in _) = _ => rewrite (surjective_pairing p) end. reflexivity.
Qed.

Theorem src_Quote_eq d : src_Quote d = Ok (err_pair (quote d)).
Proof. now rewrite src_Quote_idx_eq, quote_idx_eq. Qed.

Lemma src_replace_literal d :
  go_bytes_Replace d [x0a; x3e] [x0a] (-1) = replace_all d unquote_old unquote_new.
Proof. reflexivity. Qed.

Theorem src_Unquote_idx_eq d : src_Unquote d = err_res (unquote_idx d).
Proof.
  unfold src_Unquote, unquote_idx. rewrite src_replace_literal.
  change (first_byte unquote_first) with x3e. change [x3e] with unquote_prefix.
  go_unfold. go_cases idtac.
Qed.

Theorem src_Unquote_eq d : src_Unquote d = Ok (err_pair (unquote d)).
Proof. now rewrite src_Unquote_idx_eq, unquote_idx_eq. Qed.

Theorem src_Unquote_Quote d q : src_Quote d = Ok (q, false) -> src_Unquote q = Ok (d, false).
Proof.
  rewrite src_Quote_eq, src_Unquote_eq. intros H. injection H as H.
  destruct (quote d) as [q'|] eqn:E; cbn [err_pair] in H; [|discriminate].
  injection H as <-. now rewrite (unquote_quote d q' E).
Qed.

(* the hypotheses of the theorems above are satisfiable, the bounds are needed, and the
   failure values of the translation are real *)
Import Coq.Strings.String.StringSyntax.

Example ex_src_parse :
  src_Parse 40 (B "c" ++ [NL] ++ B "-- a --" ++ [CR; NL] ++ B "x" ++ [NL] ++ B "-- b --")
  = Ok {| comment := B "c" ++ [NL]; files := [(B "a", B "x" ++ [NL]); (B "b", [])] |}.
Proof. vm_compute. reflexivity. Qed.

Example ex_src_fuel_needed :
  src_Parse 1 (B "-- a --") = OutOfFuel /\ src_findFileMarker 0 [] = OutOfFuel /\
  length (B "-- a --") + 2 <= 9 /\ src_Parse 9 (B "-- a --") = Ok {| comment := []; files := [(B "a", [])] |}.
Proof. vm_compute. repeat split; try reflexivity. Qed.

Example ex_src_quote :
  src_Quote (B "-- a --" ++ [NL]) = Ok (B ">-- a --" ++ [NL], false) /\ src_Quote (B "x") = Ok ([], true) /\
  src_Unquote (B ">-- a --" ++ [NL]) = Ok (B "-- a --" ++ [NL], false) /\ src_Unquote (B "x" ++ [NL]) = Ok ([], true).
Proof. vm_compute. repeat split; reflexivity. Qed.

(* the checked expressions of the translation do fail when misused *)
Example ex_src_checked :
  go_slice (B "abc") 2 1 = Panic /\ go_index (B "abc") 3 = Panic /\ go_store (B "abc") 3 x00 = Panic /\
  go_make_bytes (-1) = Panic /\ go_bytes_Replace (B "abc") (B "a") (B "b") (-1) = Panic.
Proof. vm_compute. repeat split; reflexivity. Qed.
