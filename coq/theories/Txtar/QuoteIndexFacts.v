(* quote_idx / unquote_idx (QuoteIndex.v: checked indexing, bytes.Count, the allocate-
   and-copy loop of bytes.Replace, bytes.TrimPrefix) never panic, never run out of fuel,
   never truncate a copy, and equal quote / unquote of Txtar.v on every byte string. *)
From Coq Require Import List Bool Arith ZArith Lia.
From Coq.Strings Require Import Byte.
From GI Require Import Lib.Bytes Lib.BytesFacts Lib.GoSemExtFacts Gen.TxtarConsts Gen.TxtarQuoteConsts Txtar.Txtar
  Txtar.TxtarFacts Txtar.QuoteFacts Txtar.TxtarIndex Txtar.TxtarIndexFacts Txtar.QuoteIndex.
Import ListNotations.

(* the regenerated literals of Quote / Unquote *)
Lemma quote_literals :
  quote_mark = [GT] /\ unquote_first = [GT] /\ unquote_old = [NL; GT] /\ unquote_new = [NL]
  /\ unquote_prefix = [GT].
Proof. repeat split. Qed.

Lemma index_sub_bound p r k : index_sub p r = Some k -> k + length p <= length r.
Proof.
  revert k. induction r as [|b r IH]; intros k; cbn [index_sub].
  - destruct (has_prefix p []) eqn:E; [|discriminate]. intros H. inversion H; subst.
    apply has_prefix_length in E. lia.
  - destruct (has_prefix p (b :: r)) eqn:E.
    + intros H. inversion H; subst. apply has_prefix_length in E. lia.
    + destruct (index_sub p r) as [k'|]; [|discriminate]. intros H. inversion H; subst.
      specialize (IH k' eq_refl). cbn [length]. lia.
Qed.

Definition NG : bytes := [NL; GT].

(* how many times drop_gt_after_nl drops a '>' *)
Fixpoint drop_count (d : bytes) : nat :=
  match d with
  | [] => 0
  | b :: r =>
      if beq b NL then
        match r with
        | g :: r' => if beq g x3e then S (drop_count r') else drop_count r
        | [] => 0
        end
      else drop_count r
  end.

(* the non-overlapping left-to-right scan of drop_gt_after_nl, in terms of the first
   occurrence of "\n>" *)
Lemma drop_index r :
  match index_sub NG r with
  | None => drop_gt_after_nl r = r /\ drop_count r = 0
  | Some k => drop_gt_after_nl r = firstn k r ++ NL :: drop_gt_after_nl (skipn (k + 2) r)
              /\ drop_count r = S (drop_count (skipn (k + 2) r))
  end.
Proof.
  induction r as [|b r IH]; [now split|].
  cbn [index_sub]. destruct (has_prefix NG (b :: r)) eqn:E.
  - apply has_prefix_iff in E. destruct E as [x E]. injection E as -> ->. now split.
  - assert (Hstep : drop_gt_after_nl (b :: r) = b :: drop_gt_after_nl r /\ drop_count (b :: r) = drop_count r).
    { cbn [drop_gt_after_nl drop_count]. destruct (beq b NL) eqn:Eb; [|now split].
      apply beq_eq in Eb. subst b. destruct r as [|g r']; [now split|].
      destruct (beq g x3e) eqn:Eg; [|now split].
      apply beq_eq in Eg. subst g. discriminate. }
    destruct Hstep as [-> ->]. destruct (index_sub NG r) as [k|]; destruct IH as [-> ->]; now split.
Qed.

(* induction along the occurrences that the scan visits, with what drop_index says at each *)
Lemma ng_ind (P : list byte -> Prop) :
  (forall r, index_sub NG r = None -> drop_gt_after_nl r = r -> drop_count r = 0 -> P r) ->
  (forall r k, index_sub NG r = Some k -> k + 2 <= length r ->
     drop_gt_after_nl r = firstn k r ++ NL :: drop_gt_after_nl (skipn (k + 2) r) ->
     drop_count r = S (drop_count (skipn (k + 2) r)) -> P (skipn (k + 2) r) -> P r) ->
  forall r : list byte, P r.
Proof.
  intros H0 HS r. remember (S (length r)) as n eqn:Hn. assert (Hlt : length r < n) by lia. clear Hn.
  revert r Hlt. induction n as [|n IH]; intros r Hlt; [lia|].
  pose proof (drop_index r) as Hd. destruct (index_sub NG r) as [k|] eqn:E; destruct Hd as [Hd Ho].
  - pose proof (index_sub_bound _ _ _ E) as Hk. cbn [NG length] in Hk.
    apply (HS r k E Hk Hd Ho). apply IH. rewrite skipn_length. lia.
  - now apply H0.
Qed.

Lemma drop_occ_length r : length (drop_gt_after_nl r) + drop_count r = length r.
Proof.
  induction r as [r Hnone Hdrop Hcount|r k Hocc Hk Hdrop Hcount IH] using ng_ind;
    rewrite Hdrop, Hcount.
  - (* no occurrence *) lia.
  - (* occurrence at k *)
    rewrite skipn_length in IH. rewrite app_length, firstn_length. cbn [length]. lia.
Qed.

Lemma len_NG : len NG = 2%Z.
Proof. reflexivity. Qed.

Lemma count_loop_occ r : forall f a, length r < f -> count_loop f NG r a = Ok (a + drop_count r).
Proof.
  induction r as [r Hnone Hdrop Hcount|r k Hocc Hk Hdrop Hcount IH] using ng_ind; intros f a Hf;
    (destruct f as [|f]; [lia|]); cbn [count_loop]; rewrite Hcount.
  - (* no occurrence *) now rewrite Hnone, Nat.add_0_r.
  - (* occurrence at k *) rewrite Hocc, len_NG. replace (Z.of_nat k + 2)%Z with (Z.of_nat (k + 2)) by lia.
    rewrite slice_z_from, IH by (rewrite ?skipn_length; lia). f_equal. lia.
Qed.

Lemma copy_into_fits alloc t x :
  length t + length x <= alloc -> copy_into alloc t x = Some (t ++ x).
Proof.
  intros H. unfold copy_into.
  replace (Nat.leb (length t) alloc) with true by (symmetry; apply Nat.leb_le; lia).
  rewrite firstn_all2 by lia. reflexivity.
Qed.

(* s[len(p) : len(p)+k] of s = p ++ r *)
Lemma slice_mid p r k :
  k <= length r -> slice_z (p ++ r) (len p) (len p + Z.of_nat k) = Some (firstn k r).
Proof.
  intros H. unfold len. rewrite <- Nat2Z.inj_add, slice_z_nat by (rewrite ?app_length; lia).
  rewrite skipn_length_app. f_equal. f_equal. lia.
Qed.

(* The loop, run once per occurrence, at the boundary of s = p ++ r: nothing is truncated
   as long as what remains to be written fits into the allocation. *)
Lemma replace_loop_occ r : forall p t alloc,
  length t + length (drop_gt_after_nl r) <= alloc ->
  replace_loop (drop_count r) alloc (p ++ r) NG [NL] (len p) t = Ok (t ++ drop_gt_after_nl r).
Proof.
  induction r as [r Hnone Hdrop Hcount|r k Hocc Hk Hdrop Hcount IH] using ng_ind;
    intros p t alloc Hfit; rewrite Hdrop, Hcount in *; cbn [replace_loop]; rewrite slice_rest.
  - (* no occurrence *) now rewrite copy_into_fits.
  - (* occurrence at k *) rewrite Hocc, slice_mid by lia.
    rewrite app_length, firstn_length in Hfit. cbn [length] in Hfit.
    rewrite !copy_into_fits by (rewrite ?app_length, firstn_length; cbn [length]; lia).
    replace (len p + Z.of_nat k + len NG)%Z with (len (p ++ firstn (k + 2) r))
      by (rewrite len_app, len_NG; unfold len; rewrite firstn_length; lia).
    replace (p ++ r) with ((p ++ firstn (k + 2) r) ++ skipn (k + 2) r)
      by (now rewrite <- app_assoc, firstn_skipn).
    rewrite IH.
    + now rewrite <- !app_assoc.
    + rewrite !app_length, firstn_length. cbn [length]. lia.
Qed.

(* the allocation len(s) + n*(len(new)-len(old)) is the length of the result *)
Lemma replace_all_eq d : replace_all d NG [NL] = Ok (drop_gt_after_nl d).
Proof.
  unfold replace_all, count_sub. rewrite count_loop_occ by lia. cbn [Nat.add].
  pose proof (drop_occ_length d) as Hlen. destruct (Nat.eqb (drop_count d) 0) eqn:E0.
  - apply Nat.eqb_eq in E0. pose proof (drop_index d) as Hd.
    destruct (index_sub NG d); destruct Hd as [Hd Ho]; [lia|now rewrite Hd].
  - apply Nat.eqb_neq in E0. rewrite len_NG. replace (len [NL]) with 1%Z by reflexivity. unfold len.
    replace (Z.of_nat (length d) + Z.of_nat (drop_count d) * (1 - 2) <? 0)%Z with false
      by (symmetry; apply Z.ltb_ge; lia).
    apply (replace_loop_occ d [] []). cbn [length]. lia.
Qed.

Lemma trim_prefix_gt d :
  trim_prefix [GT] d = Ok (match d with g :: r => if beq g GT then r else g :: r | [] => [] end).
Proof.
  unfold trim_prefix. destruct d as [|g r]; [reflexivity|].
  cbn [has_prefix]. rewrite (beq_sym GT g), andb_true_r.
  destruct (beq g GT); [|reflexivity].
  replace (len [GT]) with (Z.of_nat 1) by reflexivity. rewrite slice_z_from by (cbn [length]; lia).
  reflexivity.
Qed.

Theorem unquote_idx_eq d : unquote_idx d = Ok (unquote d).
Proof.
  unfold unquote_idx, unquote. rewrite len_zero_iff, index_z_last.
  destruct d as [|b0 r]; [reflexivity|]. rewrite index_z_head.
  destruct quote_literals as (_ & -> & -> & -> & ->). cbn [first_byte]. fold NG GT.
  destruct (last_byte (b0 :: r)) as [bl|] eqn:El; [|now apply last_byte_None in El].
  destruct (beq b0 GT); cbn [negb andb]; [|reflexivity].
  destruct (beq bl NL); cbn [negb]; [|reflexivity].
  rewrite replace_all_eq, trim_prefix_gt.
  destruct (drop_gt_after_nl (b0 :: r)) as [|g r']; [reflexivity|]. now destruct (beq g GT).
Qed.

(* one iteration of the range loop of Quote, on the pair (nd, prev) *)
Definition quote_step (st : bytes * byte) (b : byte) : bytes * byte :=
  let (nd, prev) := st in ((if beq prev NL then nd ++ quote_mark else nd) ++ [b], b).

Lemma quote_fold d : forall nd prev,
  fst (fold_left quote_step d (nd, prev)) = nd ++ quote_aux prev d.
Proof.
  induction d as [|b d IH]; intros nd prev; cbn [fold_left quote_step quote_aux fst].
  - now rewrite app_nil_r.
  - rewrite IH. destruct quote_literals as [-> _].
    destruct (beq prev NL); cbn [app]; now rewrite <- !app_assoc.
Qed.

Theorem quote_idx_eq d : quote_idx d = Ok (quote d).
Proof.
  unfold quote_idx, quote. rewrite len_zero_iff, index_z_last.
  destruct d as [|b0 r]; [reflexivity|].
  destruct (last_byte (b0 :: r)) as [bl|] eqn:El; [|now apply last_byte_None in El].
  destruct (beq bl NL); cbn [negb]; [|reflexivity].
  destruct (utf8_valid (b0 :: r)); cbn [negb]; [|reflexivity].
  fold quote_step. now rewrite quote_fold.
Qed.

Theorem quote_unquote_idx_total d :
  quote_idx d <> Panic /\ quote_idx d <> OutOfFuel /\ unquote_idx d <> Panic /\ unquote_idx d <> OutOfFuel.
Proof. rewrite quote_idx_eq, unquote_idx_eq. repeat split; discriminate. Qed.

(* the failure values are real: too small an allocation truncates, a missing
   occurrence makes the slice expression of the loop fail *)
Example ex_replace_failures :
  copy_into 2 [x61] [x62; x63] = Some [x61; x62] /\
  replace_loop 1 5 [x61; x62] NG [NL] 0 [] = Panic /\
  count_loop 1 NG [NL; GT; NL; GT] 0 = OutOfFuel.
Proof. vm_compute. repeat split; reflexivity. Qed.
