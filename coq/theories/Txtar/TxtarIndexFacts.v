(* The index-faithful model of txtar/archive.go (TxtarIndex.v) is equal to the
   line-based model (Txtar.v) on every byte string: isMarker never hits a failing
   index or slice expression, the loop of findFileMarker ends within
   [length data + 1] iterations, and parse_idx s = Ok (parse s).  Every theorem
   about [parse] / [needs_quote] therefore is a theorem about the statement-level
   model, whose failure values (Panic, OutOfFuel) are proved unreachable. *)
From Coq Require Import List Bool Arith ZArith Lia ZifyBool.
From Coq.Strings Require Import Byte.
From GI Require Import Lib.Bytes Lib.BytesFacts Lib.GoSemExtFacts Gen.TxtarConsts Txtar.Txtar
  Txtar.TxtarFacts Txtar.TxtarIndex.
Import ListNotations.

(* facts about the regenerated constants (by computation: a changed constant breaks the
   named lemma, not a proof deep inside) *)

Lemma newline_marker_eq : newline_marker = NL :: marker.
Proof. reflexivity. Qed.

Lemma marker_nonempty : marker <> [].
Proof. discriminate. Qed.

Lemma len_app a b : len (a ++ b) = (len a + len b)%Z.
Proof. exact (len_of_app a b). Qed.

(* data[i:] and data[:i] at the boundary i = len(pre) of data = pre ++ x *)
Lemma slice_rest pre x : slice_z (pre ++ x) (len pre) (len (pre ++ x)) = Some x.
Proof.
  unfold len at 1. rewrite slice_z_from by (rewrite app_length; lia).
  now rewrite skipn_length_app.
Qed.

Lemma slice_pre pre x : slice_z (pre ++ x) 0 (len pre) = Some pre.
Proof.
  unfold len. rewrite slice_z_to by (rewrite app_length; lia).
  now rewrite firstn_length_app.
Qed.

(* data[len(data)-1], in range or not *)
Lemma index_z_last d : index_z d (len d - 1) = last_byte d.
Proof.
  destruct (last_byte d) as [b|] eqn:E.
  - destruct (last_byte_Some d b E) as [x ->]. exact (index_of_last x b).
  - apply last_byte_None in E. now subst d.
Qed.

Lemma slice_z_drop_last x b : slice_z (x ++ [b]) 0 (len (x ++ [b]) - 1) = Some x.
Proof. exact (slice_of_init x b). Qed.

Lemma fix_nl_idx_eq d : fix_nl_idx d = Some (fix_nl d).
Proof.
  unfold fix_nl_idx, fix_nl. rewrite len_zero_iff, index_z_last. destruct d as [|b r]; [reflexivity|].
  destruct (last_byte (b :: r)) as [c|] eqn:E; [now destruct (beq c NL)|].
  now apply last_byte_None in E.
Qed.

(* an NL-free pattern cannot see the first NL, nor beyond it *)
Lemma has_prefix_nl_cut p a x : ~ In NL p -> has_prefix p (a ++ NL :: x) = has_prefix p a.
Proof.
  revert a. induction p as [|c p IH]; intros a H; [reflexivity|].
  destruct a as [|b a]; cbn [app has_prefix].
  - rewrite beq_false by (intros E; apply H; now left). reflexivity.
  - rewrite IH by (intros E; apply H; now right). reflexivity.
Qed.

Lemma has_prefix_shorter p x s :
  has_prefix p (x ++ s) = true -> length p <= length x -> has_prefix p x = true.
Proof.
  revert x. induction p as [|c p IH]; intros x H Hl; [reflexivity|].
  destruct x as [|b x]; cbn [length] in Hl; [lia|].
  cbn [app has_prefix] in *. apply andb_true_iff in H. destruct H as [H1 H2].
  rewrite H1. rewrite IH; [reflexivity|assumption|lia].
Qed.

Lemma has_prefix_marker_line l tail :
  first_line l tail -> has_prefix marker (l ++ tail) = has_prefix marker l.
Proof.
  intros [_ [[l0 H0]| ->]]; [|now rewrite app_nil_r].
  rewrite <- app_assoc. cbn [app]. now rewrite !has_prefix_nl_cut by apply marker_no_nl.
Qed.

Definition name_of (o : option bytes) : bytes := match o with Some n => n | None => [] end.

(* what isMarker returns agrees with the classification [o] of the line: the name or "",
   and with a name what follows the line *)
Definition answers (o : option bytes) (after : bytes) (m : mres) : Prop :=
  exists a, m = MRes (name_of o) a /\ (o <> None -> a = after).

Lemma answers_none after : answers None after (MRes [] []).
Proof. exists []. split; [reflexivity|congruence]. Qed.

(* the last two statements of isMarker, on the line without terminator and CR *)
Definition marker_check (data after : bytes) : mres :=
  if negb (has_suffix marker_end data) || (len data <? len marker + len marker_end)%Z
  then MRes [] []
  else match slice_z data (len marker) (len data - len marker_end) with
       | None => MPanic
       | Some mid => MRes (trim_space mid) after
       end.

(* isMarker after the line terminator was cut off *)
Definition marker_tail (data after : bytes) : mres :=
  match index_z data (len data - 1) with
  | None => MPanic
  | Some b =>
      match (if beq b CR then slice_z data 0 (len data - 1) else Some data) with
      | None => MPanic
      | Some data => marker_check data after
      end
  end.

Lemma is_marker_idx_unfold data :
  is_marker_idx data =
  if negb (has_prefix marker data) then MRes [] [] else
  match
    match index_byte NL data with
    | Some i =>
        match slice_z data 0 (Z.of_nat i), slice_z data (Z.of_nat i + 1) (len data) with
        | Some d, Some a => Some (d, a)
        | _, _ => None
        end
    | None => Some (data, [])
    end
  with
  | None => MPanic
  | Some (d, a) => marker_tail d a
  end.
Proof. reflexivity. Qed.

(* the slice data[len(marker) : len(data)-len(markerEnd)] is in range because of the
   length guard in front of it, whatever the constants are *)
Lemma marker_check_spec d2 s after :
  has_prefix marker (d2 ++ s) = true ->
  answers (marker_core d2) after (marker_check d2 after).
Proof.
  intros HP. unfold marker_check, marker_core.
  destruct (has_suffix marker_end d2) eqn:ES; cbn [negb orb].
  2:{ rewrite andb_false_r. apply answers_none. }
  unfold len. destruct (Z.of_nat (length d2) <? Z.of_nat (length marker) + Z.of_nat (length marker_end))%Z eqn:EL.
  - replace (Nat.leb (length marker + length marker_end) (length d2)) with false by lia.
    rewrite andb_false_r. apply answers_none.
  - rewrite (has_prefix_shorter marker d2 s HP) by lia.
    replace (Nat.leb (length marker + length marker_end) (length d2)) with true by lia.
    cbn [andb]. cbv zeta.
    rewrite <- Nat2Z.inj_sub by lia. rewrite slice_z_nat by lia.
    replace (length d2 - length marker_end - length marker)
      with (length d2 - length marker - length marker_end) by lia.
    set (mid := firstn (length d2 - length marker - length marker_end) (skipn (length marker) d2)).
    exists after. split; [|reflexivity]. now destruct (trim_space mid).
Qed.

Lemma marker_tail_spec d1 after :
  has_prefix marker d1 = true ->
  answers (marker_core (strip_cr d1)) after (marker_tail d1 after).
Proof.
  intros HP. unfold marker_tail. rewrite index_z_last.
  destruct (last_byte d1) as [b|] eqn:E.
  2:{ apply last_byte_None in E. subst d1. now rewrite marker_prefix_nonempty in HP. }
  destruct (beq b CR) eqn:Eb.
  - apply beq_eq in Eb. subst b. destruct (last_byte_Some d1 CR E) as [x ->].
    rewrite slice_z_drop_last, (strip_last_snoc CR). now apply (marker_check_spec x [CR]).
  - rewrite (strip_last_id CR) by (rewrite E; intros H; injection H as ->; now rewrite beq_refl in Eb).
    apply (marker_check_spec d1 []). now rewrite app_nil_r.
Qed.

(* isMarker applied to a text whose first line is l: it sees that line only, and it
   decides exactly [marker_line l]; when it finds a name, [after] is what follows
   the line.  No index or slice expression fails. *)
Lemma is_marker_idx_line l tail :
  first_line l tail ->
  answers (marker_line l) tail (is_marker_idx (l ++ tail)).
Proof.
  intros Hl. rewrite is_marker_idx_unfold, (has_prefix_marker_line l tail Hl).
  destruct (has_prefix marker l) eqn:HP; cbn [negb].
  2:{ rewrite no_prefix_no_marker by assumption. apply answers_none. }
  revert HP. destruct Hl as [[[l0 H0]|[Hne Hnl]] Ht]; intros HP.
  - (* terminated line: data, after = data[:i], data[i+1:] *)
    rewrite marker_line_tline, <- app_assoc. cbn [app]. rewrite (index_byte_first NL l0 tail H0).
    fold (len l0). rewrite slice_pre.
    replace (len l0 + 1)%Z with (len (l0 ++ [NL])) by (now rewrite len_app).
    change (l0 ++ NL :: tail) with (l0 ++ [NL] ++ tail). rewrite app_assoc, slice_rest.
    apply marker_tail_spec. now rewrite has_prefix_nl_cut in HP by apply marker_no_nl.
  - (* unterminated last line: no NL at all *)
    destruct Ht as [Ht| ->].
    { exfalso. destruct Ht as [l0 _]. apply Hnl. apply in_or_app. right. now left. }
    rewrite app_nil_r, (index_byte_notin NL l Hnl).
    rewrite marker_line_unterm by (intros E; apply Hnl; now apply last_byte_In).
    now apply marker_tail_spec.
Qed.

Lemma is_marker_idx_no_panic data : is_marker_idx data <> MPanic.
Proof.
  pose proof (split_lines_ok data) as Hok. rewrite <- (concat_split_lines data).
  destruct (split_lines data) as [|l rest]; [discriminate|]. cbn [concat].
  destruct (is_marker_idx_line l (concat rest)) as [a [H _]].
  - apply (lines_ok_first l rest); [assumption|now intros ->].
  - rewrite H. discriminate.
Qed.

(* The jump  i += bytes.Index(data[i:], newlineMarker) + 1.  bytes.Index for a pattern that
   starts with NL, from the start of a line: the NL that ends the line is an occurrence iff
   the next line begins with the rest of the pattern; otherwise the search goes on exactly
   as it would from the start of the next line *)
Lemma index_sub_line m l0 x :
  ~ In NL l0 ->
  index_sub (NL :: m) (l0 ++ NL :: x)
  = if has_prefix m x then Some (length l0)
    else option_map (fun k => length l0 + S k) (index_sub (NL :: m) x).
Proof.
  induction l0 as [|b l0 IH]; intros H; cbn [app index_sub has_prefix length].
  - rewrite beq_refl. cbn [andb]. destruct (has_prefix m x); [reflexivity|].
    now destruct (index_sub (NL :: m) x).
  - rewrite (beq_false NL b) by (intros E; apply H; now left). cbn [andb].
    rewrite IH by (intros E; apply H; now right). destruct (has_prefix m x); [reflexivity|].
    now destruct (index_sub (NL :: m) x).
Qed.

Lemma index_sub_no_nl m l : ~ In NL l -> index_sub (NL :: m) l = None.
Proof.
  induction l as [|b l IH]; intros H; [reflexivity|]. cbn [index_sub has_prefix].
  rewrite (beq_false NL b) by (intros E; apply H; now left). cbn [andb].
  now rewrite IH by (intros E; apply H; now right).
Qed.

(* text in front of the first marker line, its name, and the lines after it *)
Fixpoint find_lines (ls : list bytes) : bytes * option (bytes * list bytes) :=
  match ls with
  | [] => ([], None)
  | l :: rest =>
      match marker_line l with
      | Some n => ([], Some (n, rest))
      | None => let '(b, r) := find_lines rest in (l ++ b, r)
      end
  end.

Lemma find_lines_cons_nomark l rest :
  marker_line l = None ->
  find_lines (l :: rest) = (l ++ fst (find_lines rest), snd (find_lines rest)).
Proof. intros H. cbn [find_lines]. rewrite H. now destruct (find_lines rest). Qed.

Definition find_spec (pre : bytes) (ls : list bytes) : bytes * bytes * bytes :=
  match snd (find_lines ls) with
  | Some (n, rest) => (pre ++ fst (find_lines ls), n, concat rest)
  | None => (fix_nl (pre ++ concat ls), [], [])
  end.

Lemma find_spec_skip pre l rest :
  marker_line l = None -> find_spec pre (l :: rest) = find_spec (pre ++ l) rest.
Proof.
  intros H. unfold find_spec. rewrite (find_lines_cons_nomark l rest H). cbn [fst snd concat].
  destruct (snd (find_lines rest)) as [[n r]|]; now rewrite <- app_assoc.
Qed.

(* one iteration at the start of a marker line: return data[:i], name, after *)
Lemma find_loop_marker fuel data pre l tail n :
  data = pre ++ l ++ tail -> first_line l tail -> marker_line l = Some n ->
  find_loop (S fuel) data (len pre) = Ok (pre, n, tail).
Proof.
  intros -> Hl EM. cbn [find_loop]. rewrite !slice_rest.
  destruct (is_marker_idx_line l tail Hl) as [a [-> Hafter]]. rewrite EM in *.
  pose proof (marker_line_nonempty l n EM) as Hn.
  cbn [name_of]. destruct n as [|n0 n']; [congruence|]. cbn [is_nil negb].
  now rewrite slice_pre, Hafter.
Qed.

(* one iteration at the start of a line that is no marker line *)
Lemma find_loop_nomark fuel data pre l tail :
  data = pre ++ l ++ tail -> first_line l tail -> marker_line l = None ->
  find_loop (S fuel) data (len pre)
  = match index_sub (NL :: marker) (l ++ tail) with
    | None => Ok (fix_nl data, [], [])
    | Some j => find_loop fuel data (len pre + (Z.of_nat j + 1))
    end.
Proof.
  intros -> Hl EM. cbn [find_loop]. rewrite !slice_rest.
  destruct (is_marker_idx_line l tail Hl) as [a [-> _]]. rewrite EM. cbn [name_of is_nil negb].
  unfold index_nl_marker. rewrite newline_marker_eq, fix_nl_idx_eq. reflexivity.
Qed.

(* The loop, started at a line start (i = len pre), with at least one unit of fuel per
   remaining line.  From a line that is no marker line the jump either lands on the next
   line, or that line does not begin with [marker] and the search from here is the search
   from there: one iteration from here does what one iteration from the next line does. *)
Lemma find_loop_lines (ls : list bytes) : forall data pre fuel,
  data = pre ++ concat ls -> length ls < fuel -> lines_ok ls ->
  find_loop fuel data (len pre) = Ok (find_spec pre ls).
Proof.
  induction ls as [|l rest IH]; intros data pre fuel Hd Hf Hok; (destruct fuel as [|fuel]; [lia|]).
  - subst data. cbn [find_loop concat]. rewrite !slice_rest, is_marker_idx_unfold, marker_prefix_nonempty.
    cbn [negb is_nil]. unfold index_nl_marker. now rewrite newline_marker_eq, fix_nl_idx_eq.
  - assert (Hl : first_line l (concat rest)) by (apply (lines_ok_first l rest); [assumption|now intros ->]).
    cbn [concat length] in *. destruct (marker_line l) as [n|] eqn:EM.
    + rewrite (find_loop_marker fuel data pre l (concat rest) n) by assumption.
      unfold find_spec. cbn [find_lines]. rewrite EM. cbn [fst snd]. now rewrite app_nil_r.
    + rewrite (find_loop_nomark fuel data pre l (concat rest)), find_spec_skip by assumption.
      rewrite app_assoc in Hd. destruct rest as [|l' rest'].
      * (* last line: no occurrence, return fixNL(data), "", nil *)
        unfold find_spec. cbn [concat find_lines snd] in *. rewrite app_nil_r, <- Hd.
        destruct Hok as [[l0 H0]|[_ Hnl]].
        -- now rewrite index_sub_line, marker_prefix_nonempty by assumption.
        -- now rewrite index_sub_no_nl.
      * assert (Hl' : first_line l' (concat rest')).
        { apply (lines_ok_first l' rest'); [now apply lines_ok_inv2 in Hok|now intros ->]. }
        specialize (IH data (pre ++ l)).
        destruct (lines_ok_inv2 _ _ _ Hok) as [Ht Hok']. inversion Ht as [l0 H0 El]. subst l.
        rewrite <- (app_assoc l0). cbn [app concat] in *.
        rewrite index_sub_line, (has_prefix_marker_line l' _ Hl') by assumption.
        destruct (has_prefix marker l') eqn:EP.
        -- (* the jump lands on the next line *)
           replace (len pre + (Z.of_nat (length l0) + 1))%Z with (len (pre ++ l0 ++ [NL]))
             by (rewrite !len_app; reflexivity).
           apply IH; [assumption|lia|assumption].
        -- rewrite <- (IH (S fuel)) by (assumption || lia).
           rewrite (find_loop_nomark fuel data (pre ++ l0 ++ [NL]) l' (concat rest'))
             by (assumption || now apply no_prefix_no_marker).
           destruct (index_sub (NL :: marker) (l' ++ concat rest')) as [k|]; cbn [option_map]; [|reflexivity].
           f_equal. rewrite !len_app. unfold len. cbn [length]. lia.
Qed.

Definition find_result (data : bytes) : bytes * bytes * bytes := find_spec [] (split_lines data).

(* findFileMarker ends, without panic, in at most [length data + 1] iterations *)
Lemma find_file_marker_fuel_spec fuel data :
  length data + 1 <= fuel -> find_file_marker_fuel fuel data = Ok (find_result data).
Proof.
  intros Hf. unfold find_file_marker_fuel, find_result.
  apply (find_loop_lines (split_lines data) data []); [now rewrite concat_split_lines| |].
  - pose proof (split_lines_length data). lia.
  - apply split_lines_ok.
Qed.

Lemma find_file_marker_idx_spec data : find_file_marker_idx data = Ok (find_result data).
Proof. apply find_file_marker_fuel_spec. lia. Qed.

Lemma find_file_marker_fuel_total fuel data :
  length data + 1 <= fuel ->
  find_file_marker_fuel fuel data <> Panic /\ find_file_marker_fuel fuel data <> OutOfFuel.
Proof. intros H. rewrite find_file_marker_fuel_spec by assumption. split; discriminate. Qed.

Lemma find_file_marker_idx_total data :
  find_file_marker_idx data <> Panic /\ find_file_marker_idx data <> OutOfFuel.
Proof. rewrite find_file_marker_idx_spec. split; discriminate. Qed.

(* the line-based [collect] is "find the first marker line, then go on" *)
Lemma collect_find_lines ls :
  collect marker_line ls =
  match snd (find_lines ls) with
  | Some (n, rest) =>
      (fst (find_lines ls),
       (n, fst (collect marker_line rest)) :: snd (collect marker_line rest))
  | None => (fst (find_lines ls), [])
  end.
Proof.
  induction ls as [|l ls IH]; [reflexivity|].
  destruct (marker_line l) as [n|] eqn:E.
  - rewrite (collect_cons_mark _ l n ls E). cbn [find_lines]. now rewrite E.
  - rewrite (collect_cons_nomark _ l ls E), find_lines_cons_nomark by assumption.
    cbn [fst snd]. rewrite IH. now destruct (snd (find_lines ls)) as [[n r]|].
Qed.

(* what findFileMarker returns in front of a marker is already NL-terminated: it
   consists of whole terminated lines (Parse does not apply fixNL to it, the
   line-based model does) *)
Lemma find_lines_Some ls n rest :
  lines_ok ls -> snd (find_lines ls) = Some (n, rest) ->
  fix_nl (fst (find_lines ls)) = fst (find_lines ls) /\ n <> [] /\ lines_ok rest /\ length rest < length ls.
Proof.
  induction ls as [|l ls IH]; intros Hok H; [discriminate|].
  destruct (marker_line l) as [m|] eqn:E.
  - cbn [find_lines] in *. rewrite E in *. cbn [fst snd] in *. injection H as <- <-.
    split; [reflexivity|]. split; [now apply (marker_line_nonempty l)|].
    split; [now apply lines_ok_inv in Hok|cbn [length]; lia].
  - rewrite find_lines_cons_nomark in * by assumption. cbn [fst snd] in *.
    destruct ls as [|l2 ls']; [discriminate|].
    apply lines_ok_inv2 in Hok. destruct Hok as [Ht Hok].
    destruct (IH Hok H) as (IH1 & IH2 & IH3 & IH4).
    split; [|split; [assumption|split; [assumption|cbn [length] in *; lia]]].
    apply fix_nl_fixed. right. apply fix_nl_fixed in IH1. destruct IH1 as [IH1|IH1].
    + rewrite IH1, app_nil_r. now apply tline_last.
    + rewrite last_byte_app; [assumption|]. intros E0. rewrite E0 in IH1. discriminate.
Qed.

Lemma find_lines_None ls : snd (find_lines ls) = None -> fst (find_lines ls) = concat ls.
Proof.
  induction ls as [|l ls IH]; [reflexivity|].
  destruct (marker_line l) as [m|] eqn:E.
  - cbn [find_lines]. rewrite E. discriminate.
  - rewrite find_lines_cons_nomark by assumption. cbn [fst snd concat]. intros H. now rewrite IH.
Qed.

Lemma find_result_concat ls :
  lines_ok ls -> find_result (concat ls) = find_spec [] ls.
Proof. intros H. unfold find_result. now rewrite split_lines_concat. Qed.

(* What Parse does with a result of findFileMarker.  The text in front of the marker is
   the comment, or the data of the file read before: the first component of [collect].
   The loop then appends the remaining files; it needs one iteration per remaining
   marker line, so at most one per line, and one to stop. *)
Lemma parse_loop_lines fuel : forall ls acc,
  length ls < fuel -> lines_ok ls ->
  let '(before, name, rest) := find_spec [] ls in
  before = fix_nl (fst (collect marker_line ls)) /\
  parse_loop fuel name rest acc = Ok (acc ++ map fix_entry (snd (collect marker_line ls))).
Proof.
  induction fuel as [|fuel IH]; intros ls acc Hf Hok; [lia|].
  unfold find_spec. rewrite (collect_find_lines ls). cbn [app].
  destruct (snd (find_lines ls)) as [[n rest]|] eqn:E; cbn [fst snd parse_loop].
  - destruct (find_lines_Some ls n rest Hok E) as (Hfix & Hn & Hok' & Hlen).
    split; [now rewrite Hfix|]. replace (is_nil n) with false by (now destruct n).
    rewrite find_file_marker_idx_spec, (find_result_concat rest Hok').
    assert (IH' := fun acc' => IH rest acc' ltac:(lia) Hok').
    destruct (find_spec [] rest) as [[d' n2] r2].
    destruct (IH' (acc ++ [(n, d')])) as [-> ->]. now rewrite <- app_assoc.
  - split; [now rewrite (find_lines_None ls E)|]. now rewrite app_nil_r.
Qed.

Lemma parse_loop_find_result fuel s :
  length s + 2 <= fuel ->
  let '(c, name, rest) := find_result s in
  c = comment (parse s) /\ parse_loop fuel name rest [] = Ok (files (parse s)).
Proof.
  intros Hf. unfold parse. rewrite parse_with_eq. apply parse_loop_lines; [|apply split_lines_ok].
  pose proof (split_lines_length s). lia.
Qed.

(* Parse, statement by statement, is the line-based parse: in particular it is
   total (no panic, no fuel exhaustion) on every byte string *)
Theorem parse_idx_eq s : parse_idx s = Ok (parse s).
Proof.
  unfold parse_idx. rewrite find_file_marker_idx_spec.
  pose proof (parse_loop_find_result (length s + 2) s (le_n _)) as H.
  destruct (find_result s) as [[c n] rest]. destruct H as [-> ->]. now destruct (parse s).
Qed.

Theorem parse_idx_total s : parse_idx s <> Panic /\ parse_idx s <> OutOfFuel.
Proof. rewrite parse_idx_eq. split; discriminate. Qed.

Lemma existsb_find_lines ls :
  existsb is_marker_line ls = match snd (find_lines ls) with Some _ => true | None => false end.
Proof.
  induction ls as [|l ls IH]; [reflexivity|].
  cbn [existsb]. unfold is_marker_line at 1. destruct (marker_line l) as [n|] eqn:E.
  - cbn [find_lines]. now rewrite E.
  - rewrite find_lines_cons_nomark by assumption. cbn [orb snd]. exact IH.
Qed.

Theorem needs_quote_idx_eq d : needs_quote_idx d = Ok (needs_quote d).
Proof.
  unfold needs_quote_idx. rewrite find_file_marker_idx_spec.
  unfold find_result, find_spec. rewrite needs_quote_eq, existsb_find_lines.
  destruct (snd (find_lines (split_lines d))) as [[n rest]|] eqn:E; [|reflexivity].
  apply (find_lines_Some _ _ _ (split_lines_ok d)) in E. now destruct n.
Qed.

(* the regenerated format string of x/tools' Format is "marker %s markerEnd \n", and
   the x/tools package has the same three marker constants as /repo's: a change of
   either side breaks these two lemmas *)
Lemma xtools_format_string_eq :
  xtools_format_string = marker ++ [x25; x73] ++ marker_end ++ [NL].
Proof. reflexivity. Qed.

Lemma xtools_markers_eq :
  xtools_marker = marker /\ xtools_marker_end = marker_end /\ xtools_newline_marker = newline_marker.
Proof. repeat split. Qed.

(* fmt.Fprintf(&buf, "-- %s --\n", name) writes the marker line, whatever bytes the
   name consists of (it is an argument, not part of the format) *)
Lemma expand_format_string n : expand_s xtools_format_string [n] = Some (format_marker n).
Proof. reflexivity. Qed.

Lemma format_files_eq fs : forall buf, format_files fs buf = Ok (buf ++ format_body fs).
Proof.
  induction fs as [|[n d] fs IH]; intros buf.
  - cbn [format_files format_body map concat]. now rewrite app_nil_r.
  - cbn [format_files]. rewrite expand_format_string, fix_nl_idx_eq, IH.
    unfold format_body. cbn [map concat fst snd]. now rewrite <- !app_assoc.
Qed.

Theorem format_idx_eq a : format_idx a = Ok (format a).
Proof. unfold format_idx. rewrite fix_nl_idx_eq, format_files_eq. now rewrite format_eq. Qed.

Import Coq.Strings.String.StringSyntax.

(* '%' in a name is data: the statement-level Format does not re-interpret it *)
Example ex_format_percent :
  format_idx {| comment := []; files := [(B "%s%d%", B "x")] |} = Ok (B "-- %s%d% --" ++ [NL] ++ B "x" ++ [NL])
  /\ expand_s (B "%d") [B "x"] = None /\ expand_s (B "a%%%s") [B "x"] = Some (B "a%x").
Proof. vm_compute. repeat split; reflexivity. Qed.

Example ex_idx_crlf : parse_idx ex_crlf = Ok (parse ex_crlf).
Proof. vm_compute. reflexivity. Qed.

Example ex_idx_short_marker :
  parse_idx (B "-- --") = Ok {| comment := B "-- --" ++ [NL]; files := [] |}
  /\ is_marker_idx (B "-- --") = MRes [] [].
Proof. vm_compute. split; reflexivity. Qed.

Example ex_idx_marker_cr_eof :
  parse_idx (B "-- a --" ++ [CR]) = Ok {| comment := []; files := [(B "a", [])] |}
  /\ needs_quote_idx (B "x" ++ [NL] ++ B "-- a --") = Ok true.
Proof. vm_compute. split; reflexivity. Qed.

(* the checked expressions do fail outside the situations isMarker creates: the
   failure values of the model are real *)
Example ex_checked_ops_fail :
  index_z [] (len [] - 1) = None /\ slice_z (B "-- --") 3 2 = None
  /\ find_loop 1 (B "x" ++ [NL] ++ B "-- ") 0 = OutOfFuel
  /\ find_loop 1 (B "x") 2 = Panic.
Proof. vm_compute. repeat split; reflexivity. Qed.

(* without the length guard the slice expression of isMarker would be reached with
   low > high: this is the panic the unrepaired code had on "-- --" *)
Example ex_guard_needed :
  has_suffix marker_end (B "-- --") = true /\
  slice_z (B "-- --") (len marker) (len (B "-- --") - len marker_end) = None.
Proof. vm_compute. split; reflexivity. Qed.

(* the hypothesis of find_file_marker_fuel_total is satisfiable, and fuel matters:
   three candidate lines need three iterations *)
Example ex_fuel_hyp :
  let d := B "-- " ++ [NL] ++ B "-- " ++ [NL] ++ B "-- a --" in
  length d + 1 <= 20 /\
  find_file_marker_fuel 20 d = Ok (B "-- " ++ [NL] ++ B "-- " ++ [NL], B "a", []) /\
  find_file_marker_fuel 2 d = OutOfFuel.
Proof. vm_compute. repeat split; try reflexivity. repeat constructor. Qed.
