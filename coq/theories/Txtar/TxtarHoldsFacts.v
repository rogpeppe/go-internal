(* The executable property statements of TxtarHolds.v are constantly true: what the
   model binary answers to "holds <hex>" is a theorem for every input. *)
From Coq Require Import List Bool Arith Lia.
From Coq.Strings Require Import Byte.
From GI Require Import Lib.Bytes Lib.BytesFacts Gen.TxtarConsts Txtar.Txtar Txtar.TxtarFacts
  Txtar.QuoteFacts Txtar.TxtarIndex Txtar.TxtarIndexFacts Txtar.TxtarHolds.
Import ListNotations.

Lemma entries_eqb_eq a b : entries_eqb a b = true <-> a = b.
Proof.
  revert b. induction a as [|[n d] a IH]; intros [|[n' d'] b]; cbn [entries_eqb];
    try (split; discriminate); [split; reflexivity|].
  unfold entry_eqb. cbn [fst snd]. rewrite !andb_true_iff, !bytes_eqb_eq, IH. split.
  - intros [[-> ->] ->]. reflexivity.
  - intros H. injection H as -> -> ->. auto.
Qed.

Lemma archive_eqb_eq a b : archive_eqb a b = true <-> a = b.
Proof.
  destruct a as [c fs], b as [c' fs']. unfold archive_eqb. cbn [comment files].
  rewrite andb_true_iff, bytes_eqb_eq, entries_eqb_eq. split.
  - intros [-> ->]. reflexivity.
  - intros H. injection H as -> ->. now split.
Qed.

Lemma archive_eqb_refl a : archive_eqb a a = true.
Proof. now apply archive_eqb_eq. Qed.

Lemma forallb_Forall {A} (f : A -> bool) l : Forall (fun x => f x = true) l -> forallb f l = true.
Proof. rewrite Forall_forall. apply forallb_forall. Qed.

Theorem c03_holds_on_true s : c03_holds_on s = true.
Proof.
  unfold c03_holds_on. cbv zeta.
  rewrite parse_idx_eq, format_idx_eq, parse_format_parse, parse_wf_archive, bytes_eqb_refl,
    !archive_eqb_refl, (forallb_Forall _ _ (parse_names_wf s)).
  destruct (parse_data_nl s) as [Hc Hd].
  unfold nl_terminated at 1. rewrite Hc, bytes_eqb_refl, forallb_Forall.
  2:{ eapply Forall_impl; [|exact Hd]. intros nd H. unfold nl_terminated. rewrite H. apply bytes_eqb_refl. }
  cbn [andb]. destruct (cr_free s) eqn:E; [|reflexivity].
  rewrite <- (parse_ref s E). apply archive_eqb_refl.
Qed.

Lemma probe_name_wf : wf_name probe_name = true.
Proof. reflexivity. Qed.

Lemma ends_nl_iff d : ends_nl d = true <-> last_byte d = Some NL.
Proof.
  unfold ends_nl. destruct (last_byte d) as [b|]; [|split; discriminate].
  split.
  - intros H. apply beq_eq in H. now subst.
  - intros H. injection H as ->. apply beq_refl.
Qed.

Lemma eqb_negb_iff (b c : bool) : (b = false <-> c = true) -> Bool.eqb (negb b) c = true.
Proof. destruct b, c; cbn [negb Bool.eqb]; intuition congruence. Qed.

Theorem c14_holds_on_true d : c14_holds_on d = true.
Proof.
  unfold c14_holds_on. cbv zeta.
  rewrite needs_quote_idx_eq, needs_quote_fix_nl, !Bool.eqb_reflx, eqb_negb_iff.
  2:{ rewrite archive_eqb_eq. apply (needs_quote_semantic probe_name d probe_name_wf). }
  cbn [andb]. destruct (quote d) as [q|] eqn:Eq.
  - rewrite (unquote_quote d q Eq), bytes_eqb_refl.
    destruct (quote_clean_survives d q [] probe_name Eq eq_refl probe_name_wf) as [Hc Hs].
    fold (one_file q) in Hs. rewrite Hc, Hs, archive_eqb_refl. cbn [negb andb].
    apply quote_Some in Eq. destruct Eq as [[->|[Hl Hu]] _]; [reflexivity|].
    apply ends_nl_iff in Hl. rewrite Hl, Hu. apply orb_true_r.
  - apply quote_refuses in Eq. destruct Eq as [Hne H].
    destruct d as [|b r]; [congruence|]. cbn [is_nil negb andb]. destruct H as [H|H].
    + destruct (ends_nl (b :: r)) eqn:E; [|reflexivity]. apply ends_nl_iff in E. contradiction.
    + rewrite H. apply orb_true_r.
Qed.
