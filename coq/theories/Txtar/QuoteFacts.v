(* Proofs about the txtar model (Txtar.v): NeedsQuote / Quote / Unquote (C14). *)
From Coq Require Import List Bool Arith Lia.
From Coq.Strings Require Import Byte.
From GI Require Import Lib.Bytes Lib.BytesFacts Gen.TxtarConsts Txtar.Txtar Txtar.TxtarFacts.
Import ListNotations.

Definition GT : byte := x3e.

(* NeedsQuote is exact with respect to the parser: a text needs no quoting exactly when it
   survives as the data of a file.
   The one-file instance of parse_format_iff: the archive with the terminated data is well
   formed exactly when the data needs no quoting *)
Lemma needs_quote_semantic n d :
  wf_name n = true ->
  (needs_quote d = false <->
   parse (format {| comment := []; files := [(n, d)] |})
   = {| comment := []; files := [(n, fix_nl d)] |}).
Proof.
  intros Hn. rewrite (parse_format_iff [] [(n, d)]), wf_archive_iff, <- (needs_quote_fix_nl d).
  cbn [archive_of comment files fst snd map fix_entry]. split.
  - intros H. split; [reflexivity|]. constructor; [|constructor].
    split; [exact Hn|]. rewrite needs_quote_fix_nl in H. now apply wf_text_fix_nl.
  - intros [_ H]. apply Forall_inv in H. destruct H as [_ H]. now apply wf_text_iff in H.
Qed.

Lemma quote_Some d q :
  quote d = Some q ->
  (d = [] \/ (last_byte d = Some NL /\ utf8_valid d = true)) /\ q = quote_aux NL d.
Proof.
  destruct d as [|b r].
  - intros H. injection H as <-. split; [now left|reflexivity].
  - unfold quote. intros H.
    destruct (last_byte (b :: r)) as [c|] eqn:El; [|discriminate].
    destruct (beq c NL) eqn:Ec; [|discriminate]. apply beq_eq in Ec. subst c.
    destruct (utf8_valid (b :: r)) eqn:Eu; [|discriminate].
    injection H as <-. split; [right; now split|reflexivity].
Qed.

(* Quote refuses exactly the non-empty texts that do not end in NL or are
   not valid UTF-8 *)
Lemma quote_refuses d :
  quote d = None <-> d <> [] /\ (last_byte d <> Some NL \/ utf8_valid d = false).
Proof.
  destruct d as [|b r].
  - split; [discriminate|]. intros [H _]. now contradiction H.
  - unfold quote. destruct (last_byte (b :: r)) as [c|] eqn:El.
    + destruct (beq c NL) eqn:Ec.
      * apply beq_eq in Ec. subst c. destruct (utf8_valid (b :: r)) eqn:Eu.
        -- split; [discriminate|]. intros [_ [H|H]]; [now contradiction H|discriminate].
        -- split; [|reflexivity]. intros _. split; [discriminate|now right].
      * apply beq_neq in Ec. split; [|reflexivity]. intros _. split; [discriminate|].
        left. congruence.
    + split; [|reflexivity]. intros _. split; [discriminate|]. left. discriminate.
Qed.

Lemma quote_accepts d :
  (d = [] \/ (last_byte d = Some NL /\ utf8_valid d = true)) -> exists q, quote d = Some q.
Proof.
  intros H. destruct (quote d) as [q|] eqn:E; [now exists q|].
  apply quote_refuses in E. destruct E as [Hne [E|E]]; destruct H as [H|[H1 H2]]; congruence.
Qed.

Lemma drop_gt_nl_gt r : drop_gt_after_nl (NL :: GT :: r) = NL :: drop_gt_after_nl r.
Proof. reflexivity. Qed.

Lemma drop_gt_other b r : beq b NL = false -> drop_gt_after_nl (b :: r) = b :: drop_gt_after_nl r.
Proof. intros H. cbn [drop_gt_after_nl]. now rewrite H. Qed.

Lemma quote_aux_cons prev b r :
  quote_aux prev (b :: r) = (if beq prev NL then [GT] else []) ++ b :: quote_aux b r.
Proof. reflexivity. Qed.

Lemma drop_gt_quote_aux prev d : drop_gt_after_nl (prev :: quote_aux prev d) = prev :: d.
Proof.
  revert prev. induction d as [|b r IH]; intros prev.
  - cbn [quote_aux drop_gt_after_nl]. now destruct (beq prev NL).
  - rewrite quote_aux_cons. destruct (beq prev NL) eqn:E.
    + apply beq_eq in E. subst prev. cbn [app]. now rewrite drop_gt_nl_gt, IH.
    + cbn [app]. now rewrite drop_gt_other, IH.
Qed.

Lemma quote_aux_nonempty prev d : d <> [] -> quote_aux prev d <> [].
Proof.
  destruct d as [|b r]; [intros H; now contradiction H|]. intros _.
  rewrite quote_aux_cons. destruct (beq prev NL); discriminate.
Qed.

Lemma last_byte_quote_aux prev d : d <> [] -> last_byte (quote_aux prev d) = last_byte d.
Proof.
  revert prev. induction d as [|b r IH]; intros prev Hne; [now contradiction Hne|].
  rewrite quote_aux_cons. rewrite last_byte_app by discriminate.
  destruct r as [|c r'].
  - reflexivity.
  - rewrite (last_byte_cons b (quote_aux b (c :: r'))) by (apply quote_aux_nonempty; discriminate).
    rewrite (last_byte_cons b (c :: r')) by discriminate.
    apply IH. discriminate.
Qed.

(* Unquote undoes Quote *)
Lemma unquote_quote d q : quote d = Some q -> unquote q = Some d.
Proof.
  intros H. apply quote_Some in H. destruct H as [Hd ->].
  destruct d as [|b r]; [reflexivity|]. destruct Hd as [Hd|[Hl _]]; [discriminate|].
  assert (Hq : quote_aux NL (b :: r) = GT :: b :: quote_aux b r) by reflexivity.
  assert (Hlast : last_byte (GT :: b :: quote_aux b r) = Some NL).
  { rewrite <- Hq, last_byte_quote_aux by discriminate. exact Hl. }
  rewrite Hq. unfold unquote. rewrite Hlast.
  change (beq GT x3e && beq NL NL) with true. cbv iota.
  rewrite drop_gt_other by reflexivity. rewrite drop_gt_quote_aux.
  reflexivity.
Qed.

Lemma quote_aux_line p l0 rest :
  ~ In NL l0 ->
  quote_aux p (l0 ++ NL :: rest)
  = (if beq p NL then [GT] else []) ++ l0 ++ NL :: quote_aux NL rest.
Proof.
  revert p. induction l0 as [|b l0 IH]; intros p Hl; cbn [app]; rewrite quote_aux_cons; [reflexivity|].
  rewrite IH by (intros E; apply Hl; now right).
  now rewrite (beq_false b NL) by (intros E; apply Hl; now left).
Qed.

Lemma lines_all_terminated ls :
  lines_ok ls -> (concat ls = [] \/ last_byte (concat ls) = Some NL) -> Forall tline ls.
Proof.
  induction ls as [|l rest IH]; intros Hok Hl; [constructor|].
  destruct rest as [|l2 rest'].
  - cbn [concat] in Hl. rewrite app_nil_r in Hl. constructor; [|constructor].
    destruct Hok as [Ht|Hu]; [assumption|]. exfalso.
    destruct Hl as [Hl|Hl]; [now apply (proj1 Hu)|now apply (uline_last l Hu)].
  - apply lines_ok_inv2 in Hok. destruct Hok as [Ht Hrest]. constructor; [assumption|].
    apply IH; [assumption|]. right. destruct Hl as [Hl|Hl].
    + exfalso. apply (tline_nonempty l Ht). now apply app_eq_nil in Hl.
    + rewrite <- Hl. symmetry. apply last_byte_app. intros E. apply app_eq_nil in E.
      apply lines_ok_inv in Hrest. now apply (is_line_nonempty l2 (proj1 Hrest)).
Qed.

Lemma needs_quote_quote_aux ls :
  Forall tline ls -> needs_quote (quote_aux NL (concat ls)) = false.
Proof.
  induction 1 as [|l ls [l0 Hl0] _ IH]; [reflexivity|].
  cbn [concat]. rewrite <- app_assoc. cbn [app]. rewrite quote_aux_line by assumption.
  change (needs_quote ((GT :: l0) ++ NL :: quote_aux NL (concat ls)) = false).
  rewrite needs_quote_eq, split_lines_tline_app.
  - cbn [existsb]. rewrite <- needs_quote_eq, IH. unfold is_marker_line.
    cbn [app]. now rewrite marker_line_gt.
  - intros [E|E]; [discriminate|now apply Hl0].
Qed.

(* the quoted form never needs quoting ... *)
Lemma quote_clean d q : quote d = Some q -> needs_quote q = false.
Proof.
  intros H. apply quote_Some in H. destruct H as [Hd ->].
  rewrite <- (concat_split_lines d). apply needs_quote_quote_aux.
  apply lines_all_terminated; [apply split_lines_ok|].
  rewrite concat_split_lines. destruct Hd as [Hd|[Hl _]]; [now left|now right].
Qed.

Lemma quote_wf_text d q : quote d = Some q -> wf_text q = true.
Proof.
  intros H. apply wf_text_iff. split; [|now apply (quote_clean d)].
  apply quote_Some in H. destruct H as [Hd ->]. apply fix_nl_fixed.
  destruct Hd as [->|[Hl _]]; [now left|right].
  rewrite last_byte_quote_aux; [exact Hl|]. intros ->. discriminate.
Qed.

(* ... and survives Format/Parse unchanged, in any well-formed surrounding archive *)
Lemma quote_survives d q c n fs1 fs2 :
  quote d = Some q ->
  wf_archive {| comment := c; files := fs1 ++ fs2 |} = true -> wf_name n = true ->
  parse (format {| comment := c; files := fs1 ++ (n, q) :: fs2 |})
  = {| comment := c; files := fs1 ++ (n, q) :: fs2 |}.
Proof.
  intros Hq Hwf Hn. apply parse_format_wf. apply wf_archive_iff in Hwf. apply wf_archive_iff.
  cbn [comment files] in *. destruct Hwf as [Hc Hfs].
  apply Forall_app in Hfs. destruct Hfs as [H1 H2].
  split; [exact Hc|]. apply Forall_app. split; [exact H1|]. constructor; [|exact H2].
  split; [exact Hn|now apply (quote_wf_text d)].
Qed.

Lemma quote_clean_survives d q c n :
  quote d = Some q -> wf_text c = true -> wf_name n = true ->
  needs_quote q = false /\
  parse (format {| comment := c; files := [(n, q)] |}) = {| comment := c; files := [(n, q)] |}.
Proof.
  intros Hq Hc Hn. split; [now apply (quote_clean d)|].
  apply (quote_survives d q c n [] [] Hq); [|assumption].
  apply wf_archive_iff. split; [exact Hc|constructor].
Qed.

Import Coq.Strings.String.StringSyntax.

(* the two inputs on which the unrepaired NeedsQuote answered "no" *)
Example ex_needs_quote_eof :
  needs_quote (B "-- a --") = true /\ needs_quote (B "x" ++ [NL] ++ B "-- a --") = true /\
  needs_quote (B "-- a --" ++ [CR]) = true /\ needs_quote (B "--a --" ++ [NL] ++ B "-- --") = false.
Proof. vm_compute. repeat split; reflexivity. Qed.

Example ex_wf_name : wf_name (B "dir/a b.txt") = true /\ wf_name (B " a") = false /\ wf_name [] = false.
Proof. vm_compute. repeat split; reflexivity. Qed.

(* both directions of needs_quote_semantic on concrete data *)
Example ex_semantic_no :
  parse (format {| comment := []; files := [(B "f", B "x" ++ [NL] ++ B "--y --")] |})
  = {| comment := []; files := [(B "f", B "x" ++ [NL] ++ B "--y --" ++ [NL])] |}.
Proof. apply needs_quote_semantic; vm_compute; reflexivity. Qed.

Example ex_semantic_yes :
  parse (format {| comment := []; files := [(B "f", B "x" ++ [NL] ++ B "-- y --")] |})
  = {| comment := []; files := [(B "f", B "x" ++ [NL]); (B "y", [])] |}.
Proof. vm_compute. reflexivity. Qed.

Definition ex_text : bytes := B "a" ++ [NL] ++ B "-- b --" ++ [NL] ++ [NL] ++ B ">c" ++ CRLF.

Example ex_quote :
  quote ex_text = Some (B ">a" ++ [NL] ++ B ">-- b --" ++ [NL] ++ B ">" ++ [NL] ++ B ">>c" ++ CRLF).
Proof. vm_compute. reflexivity. Qed.

Example ex_unquote_quote : forall q, quote ex_text = Some q -> unquote q = Some ex_text.
Proof. intros q. apply unquote_quote. Qed.

Example ex_quote_needed : needs_quote ex_text = true.
Proof. vm_compute. reflexivity. Qed.

Example ex_quote_refused :
  quote (B "a") = None /\ quote [xff; NL] = None /\ quote [xc3; NL] = None /\ quote [xc3; xa9; NL] <> None.
Proof. vm_compute. repeat split; try reflexivity. discriminate. Qed.

Example ex_quote_survives : forall q, quote ex_text = Some q ->
  parse (format {| comment := B "c" ++ [NL]; files := [(B "x", []); (B "f", q); (B "y", B "z" ++ [NL])] |})
  = {| comment := B "c" ++ [NL]; files := [(B "x", []); (B "f", q); (B "y", B "z" ++ [NL])] |}.
Proof.
  intros q Hq. apply (quote_survives ex_text q _ (B "f") [(B "x", [])] [(B "y", B "z" ++ [NL])] Hq);
    vm_compute; reflexivity.
Qed.

Eval vm_compute in (match quote ex_text with Some q => unquote q | None => None end).
