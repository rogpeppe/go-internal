(* Proofs about the txtar model (Txtar.v): marker lines, collect, and the Parse/Format
   theorems of C03.  The quoting theorems of C14 are in QuoteFacts.v.
   Property theorems are re-exported, unchanged, by Properties/C03.v and C14.v. *)
From Coq Require Import List Bool Arith Lia.
From Coq.Strings Require Import Byte.
From GI Require Import Lib.Bytes Lib.BytesFacts Gen.TxtarConsts Txtar.Txtar.
Import ListNotations.

(* the facts about the regenerated constants that the proofs rely on
   (re-checked by computation whenever Gen/TxtarConsts.v changes) *)

Lemma marker_no_nl : ~ In NL marker.
Proof. apply mem_byte_false. reflexivity. Qed.

Lemma marker_end_no_nl : ~ In NL marker_end.
Proof. apply mem_byte_false. reflexivity. Qed.

Lemma marker_end_not_cr x : last_byte (x ++ marker_end) <> Some CR.
Proof. rewrite last_byte_app; discriminate. Qed.

Lemma marker_not_gt l : has_prefix marker (x3e :: l) = false.
Proof. reflexivity. Qed.

Lemma marker_prefix_nonempty : has_prefix marker [] = false.
Proof. reflexivity. Qed.

(* strip_nl and strip_cr are, by computation, [strip_last NL] and [strip_last CR].  The
   lemmas below serve both: with the byte given, as in [rewrite (strip_last_snoc NL)],
   rewriting finds strip_nl / strip_cr by conversion; without it, it does not *)
Definition strip_last (c : byte) (l : bytes) : bytes :=
  match rev l with
  | b :: r => if beq b c then rev r else l
  | [] => l
  end.

Lemma strip_last_snoc c l : strip_last c (l ++ [c]) = l.
Proof.
  unfold strip_last. rewrite rev_app_distr. cbn [rev app]. rewrite beq_refl. apply rev_involutive.
Qed.

Lemma strip_last_id c l : last_byte l <> Some c -> strip_last c l = l.
Proof.
  unfold strip_last, last_byte. intros H. destruct (rev l) as [|b r]; [reflexivity|].
  destruct (beq b c) eqn:E; [|reflexivity]. apply beq_eq in E. subst b. now contradiction H.
Qed.

Lemma strip_last_prefix c l : exists s, l = strip_last c l ++ s.
Proof.
  unfold strip_last. destruct (rev l) as [|b r] eqn:E.
  - exists []. now rewrite app_nil_r.
  - destruct (beq b c).
    + exists [b]. rewrite <- (rev_involutive l), E. reflexivity.
    + exists []. now rewrite app_nil_r.
Qed.

Lemma strip_last_incl c l : incl (strip_last c l) l.
Proof. destruct (strip_last_prefix c l) as [s H]. intros x Hx. rewrite H. apply in_or_app. now left. Qed.

Lemma has_prefix_strip_last c p l : has_prefix p (strip_last c l) = true -> has_prefix p l = true.
Proof. destruct (strip_last_prefix c l) as [s H]. rewrite H at 2. apply has_prefix_app_mono. Qed.

Lemma strip_nl_line_no_nl l : is_line l -> ~ In NL (strip_nl l).
Proof.
  intros [[l0 H0]|[Hne Hnl]].
  - now rewrite (strip_last_snoc NL).
  - intros H. apply Hnl. now apply (strip_last_incl NL).
Qed.

(* [l] is the first line of the text [l ++ tail] *)
Definition first_line (l tail : bytes) : Prop := is_line l /\ (tline l \/ tail = []).

Lemma lines_ok_first l rest tail :
  lines_ok (l :: rest) -> (rest = [] -> tail = []) -> first_line l tail.
Proof.
  intros H Ht. split; [now apply lines_ok_inv in H|].
  destruct rest; [right; now apply Ht|]. left. now apply lines_ok_inv2 in H.
Qed.

Lemma split_lines_first l tail : first_line l tail -> split_lines (l ++ tail) = l :: split_lines tail.
Proof.
  intros [Hl [Ht| ->]].
  - rewrite split_lines_app by (right; now apply tline_last). now rewrite split_lines_tline.
  - now rewrite app_nil_r, split_lines_line.
Qed.

Lemma In_firstn {A} k (l : list A) x : In x (firstn k l) -> In x l.
Proof. intros H. rewrite <- (firstn_skipn k l). apply in_or_app. now left. Qed.

Lemma In_skipn {A} k (l : list A) x : In x (skipn k l) -> In x l.
Proof. intros H. rewrite <- (firstn_skipn k l). apply in_or_app. now right. Qed.

Lemma marker_core_Some l n :
  marker_core l = Some n ->
  has_prefix marker l = true /\ last_byte l <> Some CR /\ n <> [] /\ trim_space n = n /\ incl n l.
Proof.
  unfold marker_core.
  destruct (has_prefix marker l && has_suffix marker_end l
            && Nat.leb (length marker + length marker_end) (length l)) eqn:C; [|discriminate].
  apply andb_true_iff in C. destruct C as [C _].
  apply andb_true_iff in C. destruct C as [C S].
  cbv zeta.
  set (mid := firstn (length l - length marker - length marker_end) (skipn (length marker) l)).
  destruct (trim_space mid) as [|b t] eqn:E; [discriminate|].
  intros H. injection H as <-. rewrite <- E.
  split; [exact C|]. split.
  { apply has_suffix_iff in S. destruct S as [x ->]. apply marker_end_not_cr. }
  split; [rewrite E; discriminate|]. split; [apply trim_space_idem|].
  intros x Hx. apply trim_space_incl in Hx. unfold mid in Hx.
  apply In_firstn in Hx. now apply In_skipn in Hx.
Qed.

Lemma marker_line_tline l0 : marker_line (l0 ++ [NL]) = marker_core (strip_cr l0).
Proof. unfold marker_line. now rewrite (strip_last_snoc NL). Qed.

Lemma marker_line_unterm u : last_byte u <> Some NL -> marker_line u = marker_core (strip_cr u).
Proof. intros H. unfold marker_line. now rewrite (strip_last_id NL). Qed.

Lemma marker_line_has_prefix l n : marker_line l = Some n -> has_prefix marker l = true.
Proof.
  intros H. apply marker_core_Some in H.
  apply (has_prefix_strip_last NL), (has_prefix_strip_last CR), H.
Qed.

Lemma marker_line_nonempty l n : marker_line l = Some n -> n <> [].
Proof. intros H. apply marker_core_Some in H. tauto. Qed.

Lemma marker_line_snoc_nl u : last_byte u <> Some NL -> marker_line (u ++ [NL]) = marker_line u.
Proof. intros H. now rewrite marker_line_tline, marker_line_unterm. Qed.

Lemma no_prefix_no_marker l : has_prefix marker l = false -> marker_line l = None.
Proof.
  intros H. destruct (marker_line l) as [n|] eqn:E; [|reflexivity].
  apply marker_line_has_prefix in E. congruence.
Qed.

Lemma marker_line_gt l : marker_line (x3e :: l) = None.
Proof. apply no_prefix_no_marker, marker_not_gt. Qed.

(* a marker line ending in CRLF is recognised exactly like one ending in LF *)
Lemma marker_line_crlf l :
  last_byte l <> Some CR ->
  marker_line (l ++ [CR; NL]) = marker_line (l ++ [NL]).
Proof.
  intros Hl. change (l ++ [CR; NL]) with (l ++ [CR] ++ [NL]). rewrite app_assoc.
  now rewrite !marker_line_tline, (strip_last_snoc CR), (strip_last_id CR).
Qed.

Lemma wf_name_iff n :
  wf_name n = true <-> n <> [] /\ trim_space n = n /\ ~ In NL n.
Proof.
  unfold wf_name. rewrite !andb_true_iff, bytes_eqb_eq, negb_true_iff, mem_byte_false.
  destruct n; intuition congruence.
Qed.

Lemma marker_line_wf_name l n : is_line l -> marker_line l = Some n -> wf_name n = true.
Proof.
  intros Hl H. unfold marker_line in H. apply marker_core_Some in H.
  destruct H as (_ & _ & Hne & Htrim & Hincl). apply wf_name_iff. repeat split; try assumption.
  intros Hin. apply (strip_nl_line_no_nl l Hl). apply (strip_last_incl CR). now apply Hincl.
Qed.

Lemma format_marker_eq n : format_marker n = (marker ++ n ++ marker_end) ++ [NL].
Proof. unfold format_marker. now rewrite <- !app_assoc. Qed.

Lemma marker_core_format n :
  n <> [] -> trim_space n = n -> marker_core (marker ++ n ++ marker_end) = Some n.
Proof.
  intros Hne Htrim. unfold marker_core. cbv zeta.
  set (L := marker ++ n ++ marker_end).
  assert (HP : has_prefix marker L = true) by apply has_prefix_app.
  assert (HS : has_suffix marker_end L = true).
  { apply has_suffix_iff. exists (marker ++ n). unfold L. now rewrite app_assoc. }
  assert (HL : Nat.leb (length marker + length marker_end) (length L) = true).
  { apply Nat.leb_le. unfold L. rewrite !app_length. lia. }
  assert (HM : firstn (length L - length marker - length marker_end) (skipn (length marker) L) = n).
  { unfold L. rewrite skipn_length_app.
    replace (length (marker ++ n ++ marker_end) - length marker - length marker_end)
      with (length n) by (rewrite !app_length; lia).
    apply firstn_length_app. }
  rewrite HP, HS, HL, HM. cbn [andb]. rewrite Htrim. destruct n; congruence.
Qed.

Lemma marker_line_format_marker n : wf_name n = true -> marker_line (format_marker n) = Some n.
Proof.
  intros H. apply wf_name_iff in H. destruct H as [Hne [Htrim Hnl]].
  rewrite format_marker_eq, marker_line_tline, (strip_last_id CR).
  - now apply marker_core_format.
  - rewrite app_assoc. apply marker_end_not_cr.
Qed.

Lemma format_marker_tline n : ~ In NL n -> tline (format_marker n).
Proof.
  intros H. rewrite format_marker_eq. constructor.
  intros Hin. apply in_app_or in Hin. destruct Hin as [Hin|Hin]; [now apply marker_no_nl|].
  apply in_app_or in Hin. destruct Hin as [Hin|Hin]; [now apply H|now apply marker_end_no_nl].
Qed.

Lemma collect_cons_mark ml m n rest :
  ml m = Some n ->
  collect ml (m :: rest) = ([], (n, fst (collect ml rest)) :: snd (collect ml rest)).
Proof. intros H. cbn [collect]. destruct (collect ml rest) as [c fs]. now rewrite H. Qed.

Lemma collect_cons_nomark ml m rest :
  ml m = None ->
  collect ml (m :: rest) = (m ++ fst (collect ml rest), snd (collect ml rest)).
Proof. intros H. cbn [collect]. destruct (collect ml rest) as [c fs]. now rewrite H. Qed.

Lemma collect_app_nomark ml ls rest :
  (forall l, In l ls -> ml l = None) ->
  collect ml (ls ++ rest) = (concat ls ++ fst (collect ml rest), snd (collect ml rest)).
Proof.
  induction ls as [|l ls IH]; intros H.
  - cbn [app concat]. now destruct (collect ml rest).
  - cbn [app concat]. rewrite collect_cons_nomark by (apply H; now left).
    rewrite IH by (intros x Hx; apply H; now right). cbn [fst snd]. now rewrite app_assoc.
Qed.

Lemma collect_nomark ml ls :
  (forall l, In l ls -> ml l = None) -> collect ml ls = (concat ls, []).
Proof.
  intros H. rewrite <- (app_nil_r ls) at 1. rewrite collect_app_nomark by assumption.
  cbn [collect fst snd]. now rewrite app_nil_r.
Qed.

Lemma collect_ext ml ml' ls :
  (forall l, In l ls -> ml l = ml' l) -> collect ml ls = collect ml' ls.
Proof.
  induction ls as [|l ls IH]; intros H; [reflexivity|].
  cbn [collect]. rewrite IH by (intros x Hx; apply H; now right).
  rewrite (H l) by now left. reflexivity.
Qed.

Lemma collect_app_cong ml ls ls1 ls2 :
  collect ml ls1 = collect ml ls2 -> collect ml (ls ++ ls1) = collect ml (ls ++ ls2).
Proof. intros H. induction ls as [|l ls IH]; [exact H|]. cbn [app collect]. now rewrite IH. Qed.

Lemma collect_names ml ls :
  map fst (snd (collect ml ls))
  = flat_map (fun l => match ml l with Some n => [n] | None => [] end) ls.
Proof.
  induction ls as [|l ls IH]; [reflexivity|]. cbn [flat_map]. destruct (ml l) as [n|] eqn:E.
  - rewrite (collect_cons_mark _ _ _ _ E). cbn [snd map fst app]. now rewrite IH.
  - now rewrite (collect_cons_nomark _ _ _ E).
Qed.

Lemma collect_files_nil ml ls :
  snd (collect ml ls) = [] -> forall l, In l ls -> ml l = None.
Proof.
  intros H l Hin. destruct (ml l) as [n|] eqn:E; [exfalso|reflexivity].
  apply (in_nil (a := n)). change [] with (map fst (@nil (bytes * bytes))).
  rewrite <- H, collect_names. apply in_flat_map. exists l. rewrite E. split; [assumption|now left].
Qed.

Definition fix_entry (nd : bytes * bytes) : bytes * bytes := (fst nd, fix_nl (snd nd)).

Definition archive_of (r : bytes * list (bytes * bytes)) : archive :=
  {| comment := fix_nl (fst r); files := map fix_entry (snd r) |}.

Lemma parse_with_eq ml d : parse_with ml d = archive_of (collect ml (split_lines d)).
Proof. unfold parse_with. now destruct (collect ml (split_lines d)). Qed.

Definition is_marker_line (l : bytes) : bool :=
  match marker_line l with Some _ => true | None => false end.

Lemma needs_quote_eq d : needs_quote d = existsb is_marker_line (split_lines d).
Proof. reflexivity. Qed.

(* NeedsQuote is true exactly when some line of the text is a marker line *)
Lemma needs_quote_exact d :
  needs_quote d = true <-> exists l n, In l (split_lines d) /\ marker_line l = Some n.
Proof.
  rewrite needs_quote_eq, existsb_exists. unfold is_marker_line. split.
  - intros [l [Hin Hl]]. destruct (marker_line l) as [n|] eqn:E; [|discriminate]. now exists l, n.
  - intros [l [n [Hin Hl]]]. exists l. now rewrite Hl.
Qed.

Lemma needs_quote_false_iff d :
  needs_quote d = false <-> forall l, In l (split_lines d) -> marker_line l = None.
Proof.
  rewrite <- not_true_iff_false, needs_quote_exact. split.
  - intros H l Hin. destruct (marker_line l) as [n|] eqn:E; [|reflexivity].
    exfalso. apply H. now exists l, n.
  - intros H (l & n & Hin & E). now rewrite (H l Hin) in E.
Qed.

Lemma needs_quote_nil : needs_quote [] = false.
Proof. reflexivity. Qed.

Lemma needs_quote_first l tail :
  first_line l tail -> needs_quote (l ++ tail) = is_marker_line l || needs_quote tail.
Proof. intros H. now rewrite !needs_quote_eq, split_lines_first. Qed.

(* NeedsQuote does not depend on whether the text ends in a newline *)
Lemma needs_quote_fix_nl d : needs_quote (fix_nl d) = needs_quote d.
Proof.
  destruct (fix_nl_cases d) as [[Hd H]|[[_ H]|[Hne [Hl H]]]]; rewrite H.
  - now subst.
  - reflexivity.
  - destruct (split_lines_snoc_nl d Hne Hl) as [ls [u [H1 [H2 Hu]]]].
    rewrite !needs_quote_eq, H1, H2, !existsb_app. f_equal. cbn [existsb]. f_equal.
    unfold is_marker_line. rewrite marker_line_snoc_nl; [reflexivity|]. now apply uline_last.
Qed.

Lemma wf_text_iff t :
  wf_text t = true <-> fix_nl t = t /\ needs_quote t = false.
Proof. unfold wf_text. now rewrite andb_true_iff, bytes_eqb_eq, negb_true_iff. Qed.

Lemma wf_text_fix_nl t : needs_quote t = false -> wf_text (fix_nl t) = true.
Proof. intros H. apply wf_text_iff. now rewrite fix_nl_idem, needs_quote_fix_nl. Qed.

Lemma wf_archive_iff a :
  wf_archive a = true <->
  wf_text (comment a) = true /\
  Forall (fun nd => wf_name (fst nd) = true /\ wf_text (snd nd) = true) (files a).
Proof.
  unfold wf_archive. rewrite andb_true_iff, forallb_forall, Forall_forall.
  split; intros [Hc Hf]; (split; [exact Hc|]); intros x Hx; apply andb_true_iff; now apply Hf.
Qed.

(* What Parse returns is a well-formed archive: names well formed, every text empty or
   NL-terminated and free of marker lines *)

Lemma collect_inv ls :
  lines_ok ls ->
  needs_quote (fst (collect marker_line ls)) = false /\
  Forall (fun nd => wf_name (fst nd) = true /\ needs_quote (snd nd) = false)
         (snd (collect marker_line ls)).
Proof.
  induction ls as [|l rest IH]; intros Hok.
  - split; [reflexivity|constructor].
  - destruct (lines_ok_inv _ _ Hok) as [Hl Hrest]. destruct (IH Hrest) as [IHc IHf].
    destruct (marker_line l) as [n|] eqn:E.
    + rewrite (collect_cons_mark _ l n rest E). cbn [fst snd]. split; [reflexivity|].
      constructor; [|assumption]. split; [|assumption]. now apply (marker_line_wf_name l).
    + rewrite (collect_cons_nomark _ l rest E). cbn [fst snd]. split; [|assumption].
      rewrite needs_quote_first by (apply (lines_ok_first l rest); [assumption|now intros ->]).
      unfold is_marker_line. now rewrite E.
Qed.

Lemma parse_wf_archive s : wf_archive (parse s) = true.
Proof.
  unfold parse. rewrite parse_with_eq. apply wf_archive_iff. cbn [archive_of comment files].
  destruct (collect_inv (split_lines s) (split_lines_ok s)) as [Hc Hf].
  split; [now apply wf_text_fix_nl|]. apply Forall_map.
  eapply Forall_impl; [|exact Hf]. intros nd [Hn Hq]. split; [exact Hn|now apply wf_text_fix_nl].
Qed.

Lemma parse_names_wf s :
  Forall (fun nd => wf_name (fst nd) = true) (files (parse s)).
Proof.
  destruct (proj1 (wf_archive_iff _) (parse_wf_archive s)) as [_ H].
  eapply Forall_impl; [|exact H]. now intros nd [Hn _].
Qed.

Lemma parse_data_nl s :
  fix_nl (comment (parse s)) = comment (parse s) /\
  Forall (fun nd => fix_nl (snd nd) = snd nd) (files (parse s)).
Proof.
  destruct (proj1 (wf_archive_iff _) (parse_wf_archive s)) as [Hc Hf].
  split; [now apply wf_text_iff in Hc|].
  eapply Forall_impl; [|exact Hf]. intros nd [_ Hd]. now apply wf_text_iff in Hd.
Qed.

(* Parse (Format a) = a for well-formed a, hence Parse (Format (Parse s)) = Parse s *)

Definition format_body (fs : list (bytes * bytes)) : bytes :=
  concat (map (fun nd => format_marker (fst nd) ++ fix_nl (snd nd)) fs).

Lemma format_eq a : format a = fix_nl (comment a) ++ format_body (files a).
Proof. reflexivity. Qed.

Lemma collect_wf_text t rest :
  wf_text t = true ->
  collect marker_line (split_lines (t ++ rest))
  = (t ++ fst (collect marker_line (split_lines rest)), snd (collect marker_line (split_lines rest))).
Proof.
  intros H. apply wf_text_iff in H. destruct H as [Hfix Hq].
  rewrite split_lines_app by (now apply fix_nl_fixed).
  rewrite collect_app_nomark by (now apply needs_quote_false_iff). now rewrite concat_split_lines.
Qed.

Lemma collect_body fs :
  Forall (fun nd => wf_name (fst nd) = true /\ wf_text (snd nd) = true) fs ->
  collect marker_line (split_lines (format_body fs)) = ([], fs).
Proof.
  induction 1 as [|[n d] fs [Hn Hd] _ IH]; [reflexivity|]. cbn [fst snd] in Hn, Hd.
  unfold format_body. cbn [map concat fst snd]. fold (format_body fs).
  rewrite (proj1 (proj1 (wf_text_iff d) Hd)), <- app_assoc.
  assert (Ht : tline (format_marker n)).
  { apply format_marker_tline. apply wf_name_iff in Hn. tauto. }
  rewrite split_lines_first by (split; [now left|now left]).
  rewrite (collect_cons_mark _ _ n _ (marker_line_format_marker n Hn)).
  rewrite (collect_wf_text d _ Hd), IH. cbn [fst snd]. now rewrite app_nil_r.
Qed.

Lemma parse_format_wf a : wf_archive a = true -> parse (format a) = a.
Proof.
  destruct a as [c fs]. intros H. apply wf_archive_iff in H. cbn [comment files] in H.
  destruct H as [Hc Hfs].
  unfold parse. rewrite parse_with_eq, format_eq. cbn [comment files].
  pose proof (proj1 (proj1 (wf_text_iff c) Hc)) as Hfix.
  rewrite Hfix, (collect_wf_text c _ Hc), (collect_body fs Hfs).
  unfold archive_of. cbn [fst snd]. rewrite app_nil_r, Hfix. f_equal.
  induction Hfs as [|[n d] fs [_ Hd] _ IH]; [reflexivity|].
  cbn [map fix_entry fst snd]. unfold fix_entry at 1. cbn [fst snd].
  now rewrite (proj1 (proj1 (wf_text_iff d) Hd)), IH.
Qed.

Lemma parse_format_parse s : parse (format (parse s)) = parse s.
Proof. apply parse_format_wf. apply parse_wf_archive. Qed.

(* Format does not see whether a text ends in NL, so for an arbitrary archive the round
   trip can at best return the archive with its texts terminated; it does exactly when that
   archive is well formed *)
Lemma format_archive_of c fs :
  format (archive_of (c, fs)) = format {| comment := c; files := fs |}.
Proof.
  unfold format. cbn [archive_of comment files fst snd]. rewrite fix_nl_idem, map_map. do 2 f_equal.
  apply map_ext. intros nd. cbn [fix_entry fst snd]. now rewrite fix_nl_idem.
Qed.

Lemma parse_format_iff c fs :
  parse (format {| comment := c; files := fs |}) = archive_of (c, fs)
  <-> wf_archive (archive_of (c, fs)) = true.
Proof.
  rewrite <- format_archive_of. split; [|apply parse_format_wf].
  intros H. rewrite <- H. apply parse_wf_archive.
Qed.

(* agreement with the x/tools reference parser on CR-free input *)

Definition no_cr (s : bytes) : bool := negb (mem_byte CR s).

Lemma marker_line_ref_no_cr l : ~ In CR l -> marker_line l = ref_marker_line l.
Proof.
  intros H. unfold marker_line, ref_marker_line. rewrite (strip_last_id CR); [reflexivity|].
  intros E. apply H. apply (strip_last_incl NL). now apply last_byte_In.
Qed.

Lemma parse_ref_In s : ~ In CR s -> parse s = ref_parse s.
Proof.
  intros H. unfold parse, ref_parse, parse_with.
  rewrite (collect_ext marker_line ref_marker_line); [reflexivity|].
  intros l Hl. apply marker_line_ref_no_cr. intros Hin. apply H.
  now apply (split_lines_In_incl s l).
Qed.

Lemma parse_ref s : no_cr s = true -> parse s = ref_parse s.
Proof. unfold no_cr. rewrite negb_true_iff, mem_byte_false. apply parse_ref_In. Qed.

(* CRLF after a line is treated like LF, lifted to Parse *)

Definition names (a : archive) : list bytes := map fst (files a).

Definition texts (a : archive) : list bytes := comment a :: map snd (files a).
Definition texts_c (r : bytes * list (bytes * bytes)) : list bytes := fst r :: map snd (snd r).

Lemma names_archive_of r : names (archive_of r) = map fst (snd r).
Proof. unfold names. cbn [archive_of files]. rewrite map_map. now apply map_ext. Qed.

Lemma texts_archive_of r : texts (archive_of r) = map fix_nl (texts_c r).
Proof.
  unfold texts, texts_c. cbn [archive_of comment files map]. f_equal.
  rewrite !map_map. now apply map_ext.
Qed.

(* the texts of [ls1 ++ ls2]: those of [ls1], the last of them continued by the first of [ls2] *)
Lemma collect_app_texts ml ls1 :
  exists ts p, forall ls2,
    texts_c (collect ml (ls1 ++ ls2))
    = ts ++ (p ++ fst (collect ml ls2)) :: map snd (snd (collect ml ls2)).
Proof.
  induction ls1 as [|l ls1 (ts & p & IH)].
  - now exists [], [].
  - destruct (ml l) as [n|] eqn:E.
    + exists ([] :: ts), p. intros ls2. cbn [app]. rewrite (collect_cons_mark ml l n _ E).
      unfold texts_c in *. cbn [fst snd map app]. now rewrite IH.
    + destruct ts as [|t ts].
      * exists [], (l ++ p). intros ls2. specialize (IH ls2). cbn [app]. rewrite (collect_cons_nomark ml l _ E).
        unfold texts_c in *. cbn [fst snd app] in *. injection IH as -> ->. now rewrite app_assoc.
      * exists ((l ++ t) :: ts), p. intros ls2. specialize (IH ls2). cbn [app]. rewrite (collect_cons_nomark ml l _ E).
        unfold texts_c in *. cbn [fst snd app] in *. now injection IH as -> ->.
Qed.

Lemma split_lines_at_line pre x post :
  pre = [] \/ last_byte pre = Some NL -> tline x ->
  split_lines (pre ++ x ++ post) = split_lines pre ++ x :: split_lines post.
Proof.
  intros Hpre Hx. rewrite split_lines_app by assumption. f_equal.
  apply split_lines_first. split; now left.
Qed.

(* Parse depends on a terminated line at a line start through its classification only *)
Lemma parse_with_line_class ml pre x y post :
  pre = [] \/ last_byte pre = Some NL -> tline x -> tline y -> ml x = ml y ->
  names (parse_with ml (pre ++ x ++ post)) = names (parse_with ml (pre ++ y ++ post))
  /\ (ml y <> None -> parse_with ml (pre ++ x ++ post) = parse_with ml (pre ++ y ++ post)).
Proof.
  intros Hpre Hx Hy Hm. rewrite !parse_with_eq, !split_lines_at_line by assumption. split.
  - rewrite !names_archive_of, !collect_names, !flat_map_app. cbn [flat_map]. now rewrite Hm.
  - intros Hn. f_equal. apply collect_app_cong.
    destruct (ml y) as [n|] eqn:E; [|congruence].
    now rewrite (collect_cons_mark _ _ n _ Hm), (collect_cons_mark _ _ n _ E).
Qed.

Lemma parse_with_line_name ml pre x post n :
  pre = [] \/ last_byte pre = Some NL -> tline x -> ml x = Some n ->
  In n (names (parse_with ml (pre ++ x ++ post))).
Proof.
  intros Hpre Hx Hm. rewrite parse_with_eq, names_archive_of, collect_names, split_lines_at_line by assumption.
  apply in_flat_map. exists x. rewrite Hm. split; [|now left]. apply in_or_app. right. now left.
Qed.

Lemma parse_with_line_texts ml pre x y post :
  pre = [] \/ last_byte pre = Some NL -> tline x -> tline y -> ml x = None -> ml y = None ->
  exists ts1 p q ts2,
    texts (parse_with ml (pre ++ x ++ post)) = ts1 ++ fix_nl (p ++ x ++ q) :: ts2 /\
    texts (parse_with ml (pre ++ y ++ post)) = ts1 ++ fix_nl (p ++ y ++ q) :: ts2.
Proof.
  intros Hpre Hx Hy Hmx Hmy.
  destruct (collect_app_texts ml (split_lines pre)) as (ts & p & H).
  exists (map fix_nl ts), p, (fst (collect ml (split_lines post))),
    (map fix_nl (map snd (snd (collect ml (split_lines post))))).
  rewrite !parse_with_eq, !texts_archive_of, !split_lines_at_line, !H by assumption.
  rewrite !collect_cons_nomark by assumption. cbn [fst snd]. now rewrite !map_app.
Qed.

Lemma tline_crlf l : ~ In NL l -> tline (l ++ [CR; NL]).
Proof.
  intros H. change (l ++ [CR; NL]) with (l ++ [CR] ++ [NL]). rewrite app_assoc. constructor.
  intros Hin. apply in_app_or in Hin. destruct Hin as [Hin|[Hin|[]]]; [now apply H|discriminate].
Qed.

(* The line [l] (without NL, not ending in CR) sits at a line start of the input.
   Terminating it by CRLF instead of LF never changes the file names or their
   number; and when the line is a marker line the two archives are equal. *)
Lemma crlf_like_lf pre l post :
  pre = [] \/ last_byte pre = Some NL ->
  ~ In NL l -> last_byte l <> Some CR ->
  names (parse (pre ++ l ++ [CR; NL] ++ post)) = names (parse (pre ++ l ++ [NL] ++ post))
  /\ (marker_line (l ++ [NL]) <> None ->
      parse (pre ++ l ++ [CR; NL] ++ post) = parse (pre ++ l ++ [NL] ++ post)).
Proof.
  intros Hpre Hnl Hcr. rewrite !(app_assoc l).
  apply parse_with_line_class; [assumption|now apply tline_crlf|now constructor|now apply marker_line_crlf].
Qed.

(* the marker case, with the recognised name made explicit *)
Lemma crlf_marker_recognised pre l post n :
  pre = [] \/ last_byte pre = Some NL ->
  ~ In NL l -> marker_core l = Some n ->
  marker_line (l ++ [CR; NL]) = Some n /\ marker_line (l ++ [NL]) = Some n /\
  parse (pre ++ l ++ [CR; NL] ++ post) = parse (pre ++ l ++ [NL] ++ post) /\
  In n (names (parse (pre ++ l ++ [CR; NL] ++ post))).
Proof.
  intros Hpre Hnl Hm.
  assert (Hcr : last_byte l <> Some CR) by (apply marker_core_Some in Hm; tauto).
  assert (Hlf : marker_line (l ++ [NL]) = Some n) by (now rewrite marker_line_tline, (strip_last_id CR)).
  assert (Hcrlf : marker_line (l ++ [CR; NL]) = Some n) by (now rewrite marker_line_crlf).
  repeat split; try assumption.
  - apply (crlf_like_lf pre l post Hpre Hnl Hcr). congruence.
  - rewrite (app_assoc l). now apply parse_with_line_name; [|apply tline_crlf|].
Qed.

(* the non-marker case: the comment and the file data of the two archives are the
   same texts, except the one text that contains the line, which differs by that CR *)
Lemma crlf_nonmarker_local pre l post :
  pre = [] \/ last_byte pre = Some NL ->
  ~ In NL l -> last_byte l <> Some CR -> marker_line (l ++ [NL]) = None ->
  exists ts1 p q ts2,
    texts (parse (pre ++ l ++ [CR; NL] ++ post)) = ts1 ++ fix_nl (p ++ (l ++ [CR; NL]) ++ q) :: ts2 /\
    texts (parse (pre ++ l ++ [NL] ++ post)) = ts1 ++ fix_nl (p ++ (l ++ [NL]) ++ q) :: ts2.
Proof.
  intros Hpre Hnl Hcr Hm. rewrite !(app_assoc l).
  apply parse_with_line_texts; [assumption|now apply tline_crlf|now constructor| |assumption].
  now rewrite marker_line_crlf.
Qed.

(* Examples: the hypotheses above are satisfiable by non-trivial values *)

Require Coq.Strings.String.
Import Coq.Strings.String.StringSyntax.
Delimit Scope string_scope with string.
Definition B (s : String.string) : bytes := String.list_byte_of_string s.
Arguments B s%string.
Definition CRLF : bytes := [CR; NL].

(* three files, markers terminated by CRLF, CRLF and LF, unterminated last file *)
Definition ex_crlf : bytes :=
  B "intro" ++ CRLF ++ B "-- a.txt --" ++ CRLF ++ B "A1" ++ CRLF ++ B "A2" ++ [NL]
  ++ B "--   b   --" ++ CRLF ++ B "-- c/d --" ++ [NL] ++ B "last".

Example ex_crlf_parse :
  parse ex_crlf =
  {| comment := B "intro" ++ CRLF;
     files := [ (B "a.txt", B "A1" ++ CRLF ++ B "A2" ++ [NL]); (B "b", []); (B "c/d", B "last" ++ [NL]) ] |}.
Proof. vm_compute. reflexivity. Qed.

(* the reference parser sees no marker in the CRLF lines: the no_cr hypothesis of
   parse_ref is needed *)
Example ex_crlf_ref_differs : no_cr ex_crlf = false /\ names (ref_parse ex_crlf) = [B "c/d"].
Proof. vm_compute. split; reflexivity. Qed.

Definition ex_lf : bytes :=
  B "intro" ++ [NL] ++ B "-- a.txt --" ++ [NL] ++ B "A1" ++ [NL] ++ B "--  b  --" ++ [NL]
  ++ B "-- --" ++ [NL] ++ B "-- c --" ++ [NL] ++ B "x".

Example ex_lf_no_cr : no_cr ex_lf = true /\ length (files (parse ex_lf)) = 3.
Proof. vm_compute. split; reflexivity. Qed.

Example ex_lf_ref : parse ex_lf = ref_parse ex_lf.
Proof. apply parse_ref. vm_compute. reflexivity. Qed.

(* a well-formed archive (hypothesis of parse_format_wf): look-alike lines "-- --",
   "--x --" are allowed in data, names may contain inner spaces *)
Definition ex_wf : archive :=
  {| comment := B "hello" ++ [NL] ++ B "-- --" ++ [NL];
     files := [ (B "a", B "x" ++ [NL]); (B "b b", []); (B "c", B "--x --" ++ CRLF ++ B "y" ++ [NL]) ] |}.

Example ex_wf_ok : wf_archive ex_wf = true.
Proof. vm_compute. reflexivity. Qed.

Example ex_wf_roundtrip : parse (format ex_wf) = ex_wf.
Proof. apply parse_format_wf. exact ex_wf_ok. Qed.

(* without the side condition the round trip fails: an untrimmed name, an
   unterminated data, a data containing a marker line *)
Example ex_not_wf :
  parse (format {| comment := []; files := [(B " a ", B "x")] |})
    = {| comment := []; files := [(B "a", B "x" ++ [NL])] |} /\
  names (parse (format {| comment := []; files := [(B "a", B "-- b --" ++ [NL])] |})) = [B "a"; B "b"].
Proof. vm_compute. split; reflexivity. Qed.

(* the two inputs on which the unrepaired Go code failed *)
Example ex_short_marker : parse (B "-- --") = {| comment := B "-- --" ++ [NL]; files := [] |}.
Proof. vm_compute. reflexivity. Qed.

Example ex_marker_cr_eof : parse (B "-- a --" ++ [CR]) = {| comment := []; files := [(B "a", [])] |}.
Proof. vm_compute. reflexivity. Qed.

Example ex_marker_cr_eof_stable :
  parse (format (parse (B "-- a --" ++ [CR]))) = parse (B "-- a --" ++ [CR]).
Proof. vm_compute. reflexivity. Qed.

(* hypotheses of crlf_like_lf / crlf_marker_recognised *)
Example ex_crlf_hyps :
  let pre := B "c" ++ [NL] in let l := B "--  a  --" in
  (pre = [] \/ last_byte pre = Some NL) /\ ~ In NL l /\ last_byte l <> Some CR /\
  marker_core l = Some (B "a").
Proof.
  cbv zeta. split; [right; reflexivity|]. split; [apply mem_byte_false; reflexivity|].
  split; [vm_compute; discriminate|vm_compute; reflexivity].
Qed.

(* a non-marker line: names agree, the data differs by the CR only *)
Example ex_crlf_nonmarker :
  parse (B "-- a --" ++ [NL] ++ B "x" ++ CRLF ++ B "y") = {| comment := []; files := [(B "a", B "x" ++ CRLF ++ B "y" ++ [NL])] |} /\
  parse (B "-- a --" ++ [NL] ++ B "x" ++ [NL] ++ B "y") = {| comment := []; files := [(B "a", B "x" ++ [NL] ++ B "y" ++ [NL])] |}.
Proof. vm_compute. split; reflexivity. Qed.

(* the hypothesis "l does not end in CR" is needed: CR CR LF is not a marker end *)
Example ex_crcrlf :
  marker_line (B "-- a --" ++ [CR] ++ CRLF) = None /\ marker_line (B "-- a --" ++ [CR] ++ [NL]) = Some (B "a").
Proof. vm_compute. split; reflexivity. Qed.

(* Unicode white space around a name is trimmed (U+00A0, U+3000), inner kept *)
Example ex_unicode_trim :
  marker_line (B "-- " ++ [xc2; xa0] ++ B "a b" ++ [xe3; x80; x80] ++ B " --" ++ [NL]) = Some (B "a b").
Proof. vm_compute. reflexivity. Qed.

Eval vm_compute in (parse (B "-- a --" ++ CRLF ++ B "-- a --")).
Eval vm_compute in (wf_archive (parse ex_crlf), bytes_eqb (format (parse (format ex_wf))) (format ex_wf)).
