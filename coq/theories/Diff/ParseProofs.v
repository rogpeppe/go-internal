(* C08 — [parse_render] inverts [render] on hunks whose counts match their bodies and whose
   lines are lines of texts; hence the bytes Diff returns determine its hunks. *)
From Coq Require Import List Bool Arith ZArith Lia DecimalNat.
From Coq.Strings Require Import Byte.
From GI Require Import Lib.Bytes Lib.BytesFacts Gen.DiffConsts Diff.Diff Diff.DiffSpec Diff.DiffBase Diff.DiffParse.
Import ListNotations.

Definition nonl (p : bytes) : Prop := Forall (fun b => b <> NL) p.

(* what a line of a text looks like: terminated, or carrying a backslash-marker after its newline *)
Definition line_ok (l : line) : Prop :=
  exists p, nonl p /\
    (l = p ++ [NL] \/ exists m, nonl m /\ l = p ++ NL :: x5c :: m ++ [NL]).

Lemma msg_marker_shape : exists m, no_newline_msg = NL :: x5c :: m ++ [NL] /\
  forallb (fun b => negb (beq b NL)) m = true.
Proof. exists (removelast (skipn 2 no_newline_msg)). split; reflexivity. Qed.

Lemma forallb_nonl m : forallb (fun b => negb (beq b NL)) m = true -> nonl m.
Proof.
  intro H. apply Forall_forall. intros b Hb E. rewrite forallb_forall in H.
  specialize (H b Hb). subst b. rewrite beq_refl in H. discriminate.
Qed.

Lemma lines_line_ok t : Forall line_ok (lines t).
Proof.
  destruct msg_marker_shape as (m0 & Hm & Hm').
  induction t as [|b r IH]; simpl; [constructor|].
  destruct (beq b NL) eqn:E.
  - apply beq_eq in E. subst b. constructor; [|exact IH].
    exists []. split; [constructor|]. left. reflexivity.
  - assert (Hb : b <> NL). { intro; subst b. rewrite beq_refl in E. discriminate. }
    destruct (lines r) as [|l ls] eqn:El.
    + constructor; [|constructor]. exists [b]. split; [repeat constructor; assumption|].
      right. exists m0. split; [apply forallb_nonl; assumption|]. rewrite Hm. reflexivity.
    + inversion IH as [|? ? (p & Hp & Hl) Hls]; subst. constructor; [|assumption].
      exists (b :: p). split; [constructor; assumption|].
      destruct Hl as [-> | (m & Hmm & ->)]; [left; reflexivity|].
      right. exists m. split; [assumption | reflexivity].
Qed.

Lemma take_line_app p rest : nonl p -> take_line (p ++ NL :: rest) = Some (p ++ [NL], rest).
Proof.
  induction 1 as [|b p Hb Hp IH]; simpl.
  - reflexivity.
  - destruct (beq b NL) eqn:E; [apply beq_eq in E; contradiction|].
    rewrite IH. reflexivity.
Qed.

(* what may follow a chunk line: not a backslash *)
Definition no_marker (rest : bytes) : Prop :=
  match rest with c :: _ => c <> x5c | [] => True end.

Lemma take_body_line_ok l rest : line_ok l -> no_marker rest ->
  take_body_line (l ++ rest) = Some (l, rest).
Proof.
  intros (p & Hp & Hl) Hr. unfold take_body_line.
  destruct Hl as [-> | (m & Hm & ->)].
  - rewrite <- app_assoc. simpl. rewrite take_line_app by assumption.
    destruct rest as [|c rest]; [reflexivity|]. simpl in Hr.
    destruct (beq c x5c) eqn:E; [apply beq_eq in E; contradiction | reflexivity].
  - rewrite <- app_assoc. simpl. rewrite take_line_app by assumption.
    change (beq x5c x5c) with true. cbv iota.
    replace (x5c :: (m ++ [NL]) ++ rest) with ((x5c :: m) ++ NL :: rest)
      by (simpl; rewrite <- app_assoc; reflexivity).
    rewrite take_line_app by (constructor; [discriminate | assumption]).
    f_equal. f_equal. simpl. rewrite <- !app_assoc. reflexivity.
Qed.

Definition render_body (b : list (tag * line)) : bytes :=
  concat (map (fun tl => tag_byte (fst tl) :: snd tl) b).

Lemma tag_of_tag_byte t : tag_of_byte (tag_byte t) = Some t.
Proof. destruct t; reflexivity. Qed.

Lemma no_marker_body b rest : no_marker rest -> no_marker (render_body b ++ rest).
Proof.
  destruct b as [|[t l] b]; simpl; [auto|]. intros _. destruct t; discriminate.
Qed.

Lemma render_body_cons t l b : render_body ((t, l) :: b) = tag_byte t :: l ++ render_body b.
Proof. reflexivity. Qed.

Lemma parse_body_render b : forall fuel rest,
  Forall line_ok (map snd b) -> no_marker rest ->
  length (old_side b) + length (new_side b) <= fuel ->
  parse_body fuel (length (old_side b)) (length (new_side b)) (render_body b ++ rest) = Some (b, rest).
Proof.
  induction b as [|[t l] b IH]; intros fuel rest Hok Hr Hf.
  - destruct fuel; reflexivity.
  - inversion Hok as [|? ? Hl Hok']; subst.
    assert (Hstep : take_body_line (l ++ render_body b ++ rest) = Some (l, render_body b ++ rest)).
    { apply take_body_line_ok; [assumption | apply no_marker_body; assumption]. }
    rewrite render_body_cons, old_side_cons, new_side_cons in *. cbn [app]. rewrite <- app_assoc.
    destruct fuel as [|fu]; [destruct t; cbn [length] in Hf; lia|].
    destruct t; cbn [length parse_body Nat.eqb andb] in *;
      rewrite ?andb_false_r, tag_of_tag_byte, Hstep; cbv beta iota zeta;
      rewrite IH by (auto; lia); reflexivity.
Qed.

Definition no_digit (rest : bytes) : Prop :=
  match rest with c :: _ => digit_of c = None | [] => True end.

Lemma read_uint_bytes u : forall rest, no_digit rest -> read_uint (uint_bytes u ++ rest) = (u, rest).
Proof.
  induction u; intros rest Hr; simpl; try (rewrite IHu by assumption; reflexivity).
  destruct rest as [|c rest]; [reflexivity|]. simpl in Hr. simpl. rewrite Hr. reflexivity.
Qed.

Lemma to_uint_nonNil n : Nat.to_uint n <> Decimal.Nil.
Proof. rewrite <- (Unsigned.of_to n) at 1. rewrite Unsigned.to_of. apply DecimalFacts.unorm_nonnil. Qed.

Lemma parse_dec_dec n rest : no_digit rest -> parse_dec (dec n ++ rest) = Some (n, rest).
Proof.
  intro H. unfold parse_dec, dec. rewrite read_uint_bytes by assumption.
  pose proof (to_uint_nonNil n). pose proof (Unsigned.of_to n) as E.
  remember (Nat.to_uint n) as u. destruct u; try contradiction; rewrite E; reflexivity.
Qed.

Local Opaque dec parse_dec.

(* one literal and one %d of the format at a time *)
Lemma sscanf_lit c f d : beq c x25 = false -> sscanf (c :: f) (c :: d) = sscanf f d.
Proof. intros H. cbn [sscanf]. now rewrite H, beq_refl. Qed.

Lemma sscanf_d f n d : no_digit d ->
  sscanf (x25 :: x64 :: f) (dec n ++ d) =
  match sscanf f d with Some (ns, rest) => Some (n :: ns, rest) | None => None end.
Proof.
  intros H. cbn [sscanf]. change (beq x25 x25) with true. change (beq x64 x64) with true.
  cbv iota. now rewrite parse_dec_dec.
Qed.

Lemma sscanf_hunk a b c e rest :
  sscanf fmt_hunk (sprintf fmt_hunk [ANat a; ANat b; ANat c; ANat e] ++ rest) = Some ([a; b; c; e], rest).
Proof.
  rewrite sprintf_hunk, <- !app_assoc. unfold fmt_hunk. cbn [app].
  repeat first [rewrite sscanf_lit by reflexivity | rewrite sscanf_d by reflexivity]. reflexivity.
Qed.

Definition hunk_ok (h : hunk) : Prop :=
  cx h = length (old_side (body h)) /\ cy h = length (new_side (body h)) /\
  Forall line_ok (map snd (body h)).

Lemma render_hunk_body h :
  render_hunk h = sprintf fmt_hunk [ANat (sx h); ANat (cx h); ANat (sy h); ANat (cy h)] ++ render_body (body h).
Proof. reflexivity. Qed.

Lemma parse_hunk_render h rest : hunk_ok h -> no_marker rest ->
  parse_hunk (render_hunk h ++ rest) = Some (h, rest).
Proof.
  intros (H1 & H2 & H3) Hr. unfold parse_hunk.
  rewrite render_hunk_body, <- app_assoc, sscanf_hunk.
  rewrite H1, H2, parse_body_render by (auto; lia).
  destruct h; simpl in *. subst. reflexivity.
Qed.

Lemma render_hunk_nonnil h : render_hunk h <> [].
Proof. rewrite render_hunk_shape. discriminate. Qed.

Lemma no_marker_hunks hs : no_marker (concat (map render_hunk hs)).
Proof.
  destruct hs as [|h hs]; cbn [map concat]; [exact I|]. rewrite render_hunk_shape. discriminate.
Qed.

Lemma parse_hunks_app fu h d rest : d <> [] -> parse_hunk (d ++ rest) = Some (h, rest) ->
  parse_hunks (S fu) (d ++ rest) =
  match parse_hunks fu rest with Some hs => Some (h :: hs) | None => None end.
Proof.
  intros Hd E. destruct d as [|c d]; [contradiction|]. cbn [app parse_hunks] in *. now rewrite E.
Qed.

Lemma parse_hunks_render hs : forall fuel,
  Forall hunk_ok hs -> length (concat (map render_hunk hs)) <= fuel ->
  parse_hunks fuel (concat (map render_hunk hs)) = Some hs.
Proof.
  induction hs as [|h hs IH]; intros fuel Hok Hf.
  - destruct fuel; reflexivity.
  - inversion Hok as [|? ? Hh Hok']; subst.
    (* [cbn]/[change] here would make Qed compare the two spellings of the rendered text by
       evaluating the format string; the list equations only rewrite *)
    rewrite map_cons, concat_cons in *. rewrite app_length in Hf.
    pose proof (render_hunk_nonnil h) as Hne.
    assert (1 <= length (render_hunk h)) by (destruct (render_hunk h); [contradiction | cbn [length]; lia]).
    destruct fuel as [|fu]; [lia|].
    rewrite (parse_hunks_app fu h) by auto using parse_hunk_render, no_marker_hunks.
    rewrite IH; [reflexivity | assumption | lia].
Qed.

Lemma strip_prefix_app p d : strip_prefix p (p ++ d) = Some d.
Proof.
  induction p as [|a p IH]; simpl; [destruct d; reflexivity|]. rewrite beq_refl. exact IH.
Qed.

Theorem parse_render_render oldName newName hs : Forall hunk_ok hs ->
  parse_render oldName newName (render oldName newName hs) = Some hs.
Proof.
  intro H. unfold parse_render, render. rewrite strip_prefix_app.
  apply parse_hunks_render; [assumption | lia].
Qed.

Corollary render_inj oldName newName hs hs' : Forall hunk_ok hs -> Forall hunk_ok hs' ->
  render oldName newName hs = render oldName newName hs' -> hs = hs'.
Proof.
  intros H H' E. pose proof (parse_render_render oldName newName hs H) as P.
  rewrite E, (parse_render_render oldName newName hs' H') in P. congruence.
Qed.
