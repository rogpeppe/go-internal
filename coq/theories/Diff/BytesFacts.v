(* C08 — end to end at the level of the returned BYTES, and the consumer (testscript cmp/cmpenv). *)
From Coq Require Import List Bool Arith ZArith Lia.
From Coq.Strings Require Import Byte.
From GI Require Import Lib.Bytes Gen.DiffConsts Diff.Diff Diff.DiffSpec Diff.DiffBase Diff.DiffProofs
  Diff.TgsProofs Diff.DiffParse Diff.ParseProofs Diff.CtxFacts.
Import ListNotations.

Lemma In_sub {A} (a : A) l i j : In a (sub l i j) -> In a l.
Proof.
  unfold sub. intro H. rewrite <- (firstn_skipn i l). apply in_or_app. right.
  rewrite <- (firstn_skipn (j - i) (skipn i l)). apply in_or_app. left. exact H.
Qed.

Lemma body_line_sides t l b : In (t, l) b -> In l (old_side b) \/ In l (new_side b).
Proof.
  unfold old_side, new_side. induction b as [|[t' l'] b IH]; simpl; [contradiction|].
  intros [E | H].
  - inversion E; subst. destruct t; simpl; auto.
  - destruct (IH H); destruct t'; simpl; auto.
Qed.

Lemma wf_from_hunk_ok x y hs : forall px py,
  Forall line_ok x -> Forall line_ok y -> wf_from x y px py hs -> Forall hunk_ok hs.
Proof.
  induction hs as [|h hs IH]; intros px py Hx Hy W; [constructor|].
  apply wf_from_cons in W as (p & q & _ & _ & _ & _ & (_ & _ & Hcx & Hcy & _ & _ & Hold & Hnew) & W).
  constructor; [|eapply IH; eauto].
  split; [assumption|]. split; [assumption|].
  apply Forall_forall. intros l Hl. apply in_map_iff in Hl as ([t l'] & <- & Hin).
  rewrite Forall_forall in Hx, Hy.
  destruct (body_line_sides _ _ _ Hin) as [H | H].
  - rewrite Hold in H. apply Hx. eapply In_sub. exact H.
  - rewrite Hnew in H. apply Hy. eapply In_sub. exact H.
Qed.

Theorem diff_hunks_readable : forall old new hs,
  diff_hunks (lines old) (lines new) = Ok hs -> Forall hunk_ok hs.
Proof.
  intros old new hs E. eapply wf_from_hunk_ok; [apply lines_line_ok | apply lines_line_ok |].
  apply (hunks_wf_all _ _ _ E).
Qed.

Lemma render_nonempty on nn hs : render on nn hs <> [].
Proof. unfold render. rewrite render_header_shape. discriminate. Qed.

Theorem diff_bytes_parse : forall oldName old newName new out,
  diff oldName old newName new = Ok out -> old <> new ->
  exists hs, diff_hunks (lines old) (lines new) = Ok hs /\ out = render oldName newName hs /\
             parse_render oldName newName out = Some hs.
Proof.
  intros on old nn new out E Hne. unfold diff in E.
  destruct (bytes_eqb_spec old new); [contradiction|].
  destruct (diff_hunks (lines old) (lines new)) as [hs| |] eqn:Eh; simpl in E; try discriminate.
  inversion E; subst out. exists hs. split; [reflexivity|]. split; [reflexivity|].
  apply parse_render_render. eapply diff_hunks_readable. exact Eh.
Qed.

(* END TO END: the bytes returned by Diff, read as a unified diff and applied to the lines of the
   old text, give the lines of the new text, and applied in reverse to the new text give the old;
   [lines] is injective, so this is the new (old) text itself, final newline or not. *)
Theorem bytes_patch : forall oldName old newName new out,
  diff oldName old newName new = Ok out ->
  patch_bytes oldName newName out (lines old) = Some (lines new) /\
  unpatch_bytes oldName newName out (lines new) = Some (lines old).
Proof.
  intros on old nn new out E.
  destruct (bytes_eqb_spec old new) as [<-|Hne].
  - unfold diff in E. rewrite bytes_eqb_refl in E. injection E as <-. split; reflexivity.
  - destruct (diff_bytes_parse _ _ _ _ _ E Hne) as (hs & Eh & Eo & Ep).
    unfold patch_bytes, unpatch_bytes. rewrite Ep.
    pose proof (render_nonempty on nn hs) as Hr. rewrite <- Eo in Hr.
    destruct out as [|c out]; [contradiction|].
    apply hunks_rel_consequences, (diff_hunks_spec _ _ _ Eh).
Qed.

(* The failure path of testscript's doCmdCmp (cmd.go), the consumer named by the property:
     text1 := ts.ReadFile(name1); data := ReadFile(name2); text2 := string(data)
     if env { text2 = ts.expand(text2) }
     eq := text1 == text2 ... if !eq && !neg { Logf("%s", diff.Diff(name1, []byte(text1), name2, []byte(text2))); Fatalf(...) }
   [expand] (os.Expand over the script environment) is external: a section variable.  The
   UpdateScripts branch (C16) is outside this model.  That the call really passes the compared
   texts is re-read from the source on every run ([cmp_diff_args], checked by genconsts and by
   [cmp_diff_args_shape]). *)
Section Consumer.
Variable expand : bytes -> bytes.

Inductive cmp_outcome :=
| CmpPass
| CmpFailNoDiff                (* `! cmp` on equal files *)
| CmpFail (logged : bytes)     (* the unified diff written to the log before the FAIL line *)
| CmpPanic.

Definition cmp_compared (env : bool) (data2 : bytes) : bytes := if env then expand data2 else data2.

Definition do_cmp (neg env : bool) (name1 name2 text1 data2 : bytes) : cmp_outcome :=
  let text2 := cmp_compared env data2 in
  if bytes_eqb text1 text2 then (if neg then CmpFailNoDiff else CmpPass)
  else if neg then CmpPass
  else match diff name1 text1 name2 text2 with
       | Ok d => CmpFail d
       | _ => CmpPanic
       end.

Theorem cmp_never_panics neg env name1 name2 text1 data2 :
  do_cmp neg env name1 name2 text1 data2 <> CmpPanic.
Proof.
  unfold do_cmp. destruct (bytes_eqb text1 (cmp_compared env data2)); destruct neg; try discriminate.
  destruct (diff_hunks_rel (lines text1) (lines (cmp_compared env data2))) as (hs & Eh & _).
  unfold diff. destruct (bytes_eqb text1 (cmp_compared env data2)); [discriminate|].
  rewrite Eh. discriminate.
Qed.

(* a failing cmp / cmpenv logs a diff that turns the first file's text into the text it was
   compared with (for cmpenv: the EXPANDED second file), and back; the texts do differ *)
Theorem cmp_logged_diff_patches env name1 name2 text1 data2 d :
  do_cmp false env name1 name2 text1 data2 = CmpFail d ->
  text1 <> cmp_compared env data2 /\ d <> [] /\
  patch_bytes name1 name2 d (lines text1) = Some (lines (cmp_compared env data2)) /\
  unpatch_bytes name1 name2 d (lines (cmp_compared env data2)) = Some (lines text1).
Proof.
  unfold do_cmp. intro H.
  destruct (bytes_eqb_spec text1 (cmp_compared env data2)) as [|Hne]; [discriminate|].
  destruct (diff name1 text1 name2 (cmp_compared env data2)) as [out| |] eqn:Ed; try discriminate.
  inversion H; subst d.
  split; [assumption|]. split.
  - intro E0. subst out. apply diff_nil_iff in Ed. contradiction.
  - apply bytes_patch. assumption.
Qed.

Theorem cmp_fails_iff env name1 name2 text1 data2 :
  (exists d, do_cmp false env name1 name2 text1 data2 = CmpFail d) <-> text1 <> cmp_compared env data2.
Proof.
  split.
  - intros (d & H). apply cmp_logged_diff_patches in H. tauto.
  - intro Hne. pose proof (cmp_never_panics false env name1 name2 text1 data2) as Hp.
    unfold do_cmp in *. destruct (bytes_eqb_spec text1 (cmp_compared env data2)); [contradiction|].
    destruct (diff name1 text1 name2 (cmp_compared env data2)); try contradiction. eauto.
Qed.

End Consumer.
