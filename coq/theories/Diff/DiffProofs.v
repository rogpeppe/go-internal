(* C08 — the main loop of Diff: every result is [Ok hs] with [hunks_rel 0 0 x y hs], from which
   no-panic, well-formedness, patch and reverse-patch correctness follow.  The only fact about
   the match list used here is [matches_ok] (what [tgs_ok] checks and TgsProofs.v proves of every pair). *)
From Coq Require Import List Bool Arith ZArith Lia ZifyBool Sorting.Sorted.
From Coq.Strings Require Import Byte.
From GI Require Import Lib.Bytes Gen.DiffConsts Diff.Diff Diff.DiffSpec Diff.DiffBase.
Import ListNotations.

(* the proofs of this file never look at the value of the context constant *)
Local Opaque ctxC.

(* [hs] rewrites [xs] (the old lines from position px on) into [ys] (the new lines from py on):
   an unchanged gap [g], then the chunk, and so on; after the last hunk the rests are equal. *)
Fixpoint hunks_rel (px py : nat) (xs ys : list line) (hs : list hunk) : Prop :=
  match hs with
  | [] => xs = ys
  | h :: hs' =>
      exists g xs' ys',
        xs = g ++ old_side (body h) ++ xs' /\
        ys = g ++ new_side (body h) ++ ys' /\
        cx h = length (old_side (body h)) /\
        cy h = length (new_side (body h)) /\
        sx h = pos_of (px + length g) (cx h) /\
        sy h = pos_of (py + length g) (cy h) /\
        hunks_rel (px + length g + cx h) (py + length g + cy h) xs' ys' hs'
  end.

Lemma start_pos_pos_of p c : start_pos (pos_of p c) c = Some p.
Proof. unfold start_pos, pos_of. destruct (c =? 0); reflexivity. Qed.

Lemma apply_body_sides b rest : apply_body b (old_side b ++ rest) = Some (new_side b, rest).
Proof.
  induction b as [|[t l] b IH]; [reflexivity|]. rewrite old_side_cons, new_side_cons.
  destruct t; cbn [apply_body app]; rewrite ?bytes_eqb_refl, IH; reflexivity.
Qed.

Lemma apply_from_rel hs : forall px py xs ys,
  hunks_rel px py xs ys hs -> apply_from px py xs hs = Some ys.
Proof.
  induction hs as [|h hs IH]; intros px py xs ys H; simpl in *.
  - congruence.
  - destruct H as (g & xs' & ys' & Hx & Hy & Hcx & Hcy & Hsx & Hsy & Hr).
    rewrite Hsx, Hsy, !start_pos_pos_of.
    replace (px + length g - px) with (length g) by lia.
    assert (Hlen : length g <= length xs) by (rewrite Hx, app_length; lia).
    destruct (Nat.leb_spec px (px + length g)); [|lia].
    destruct (Nat.leb_spec (length g) (length xs)); [|lia].
    rewrite Nat.eqb_refl, <- Hcx, <- Hcy, !Nat.eqb_refl. simpl.
    rewrite Hx at 1. rewrite skipn_app, Nat.sub_diag, skipn_all. simpl.
    rewrite apply_body_sides.
    rewrite (IH _ _ _ _ Hr).
    rewrite Hx, firstn_app, Nat.sub_diag, firstn_all. simpl. rewrite app_nil_r.
    rewrite Hy. reflexivity.
Qed.

Lemma sides_swap b :
  old_side (map (fun tl => (swap_tag (fst tl), snd tl)) b) = new_side b /\
  new_side (map (fun tl => (swap_tag (fst tl), snd tl)) b) = old_side b.
Proof.
  induction b as [|[t l] b [IH1 IH2]]; [split; reflexivity|].
  unfold old_side, new_side in *. destruct t; simpl; rewrite ?IH1, ?IH2; split; congruence.
Qed.

Lemma hunks_rel_swap hs : forall px py xs ys,
  hunks_rel px py xs ys hs -> hunks_rel py px ys xs (swap_hunks hs).
Proof.
  induction hs as [|h hs IH]; intros px py xs ys H; simpl in *.
  - congruence.
  - destruct H as (g & xs' & ys' & Hx & Hy & Hcx & Hcy & Hsx & Hsy & Hr).
    exists g, ys', xs'. destruct (sides_swap (body h)) as [-> ->]. repeat split; auto.
Qed.

Lemma wf_from_rel x y hs : forall px py,
  px <= length x -> py <= length y ->
  hunks_rel px py (skipn px x) (skipn py y) hs -> wf_from x y px py hs.
Proof.
  induction hs as [|h hs IH]; intros px py Hpx Hpy H; simpl in *; [exact I|].
  destruct H as (g & xs' & ys' & Hx & Hy & Hcx & Hcy & Hsx & Hsy & Hr).
  apply skipn_eq_app in Hx as (Hx1 & Hx2 & Hx3); [|assumption].
  apply skipn_eq_app in Hy as (Hy1 & Hy2 & Hy3); [|assumption].
  symmetry in Hx3. apply skipn_eq_app in Hx3 as (Hx4 & Hx5 & Hx6); [|assumption].
  symmetry in Hy3. apply skipn_eq_app in Hy3 as (Hy4 & Hy5 & Hy6); [|assumption].
  exists (px + length g), (py + length g).
  rewrite <- Hcx in *. rewrite <- Hcy in *.
  repeat split; try lia; try assumption.
  - congruence.
  - apply IH; try lia. rewrite <- Hx6, <- Hy6. exact Hr.
Qed.

Section Loop.
Variables x y : list line.

(* x[a:b] and y[c:d] are the same lines and lie on the same diagonal *)
Definition same_run (a b c d : nat) : Prop :=
  a <= b /\ b <= length x /\ d <= length y /\ b + c = d + a /\ sub x a b = sub y c d.

Lemma same_run_nil a c : a <= length x -> c <= length y -> same_run a a c c.
Proof. intros. unfold same_run. rewrite !sub_nil. repeat split; auto; lia. Qed.

Lemma same_run_app a b c d e f : same_run a b c d -> same_run b e d f -> same_run a e c f.
Proof.
  intros (H1 & H2 & H3 & H4 & H5) (G1 & G2 & G3 & G4 & G5). unfold same_run.
  rewrite <- (sub_app x a b e), <- (sub_app y c d f), H5, G5 by lia. repeat split; auto; lia.
Qed.

(* a part of a common run, given by its four ends *)
Lemma same_run_sub a b c d a' b' c' d' :
  same_run a b c d -> a <= a' -> a' <= b' -> b' <= b -> a' + c = c' + a -> b' + c = d' + a ->
  same_run a' b' c' d'.
Proof.
  intros (H1 & H2 & H3 & H4 & H5) G1 G2 G3 G4 G5. unfold same_run. repeat split; try lia.
  transitivity (sub (sub x a b) (a' - a) (b' - a)); [|rewrite H5]; rewrite sub_sub by lia; f_equal; lia.
Qed.

Lemma same_run_take a b c d n :
  same_run a b c d -> a + n <= b -> same_run a (a + n) c (c + n) /\ same_run (a + n) b (c + n) d.
Proof. intros R H. pose proof R as (_ & _ & _ & R4 & _). split; apply (same_run_sub _ _ _ _ _ _ _ _ R); lia. Qed.

Lemma same_run_drop a b c d k :
  same_run a b c d -> a + k <= b -> same_run a (b - k) c (d - k) /\ same_run (b - k) b (d - k) d.
Proof. intros R H. pose proof R as (_ & _ & _ & R4 & _). split; apply (same_run_sub _ _ _ _ _ _ _ _ R); lia. Qed.

Lemma same_run_nth a b c d i : same_run a b c d -> i < b - a -> nth_error x (a + i) = nth_error y (c + i).
Proof.
  intros (_ & _ & _ & H & E) Hi.
  rewrite <- (nth_error_sub x a b), <- (nth_error_sub y c d), E by lia. reflexivity.
Qed.

Lemma same_run_eof a b c d : same_run a b c d -> length x <= b -> length y <= d -> skipn a x = skipn c y.
Proof.
  intros (_ & H2 & H3 & _ & E) Hx Hy. rewrite <- (sub_full x a), <- (sub_full y c).
  replace (length x) with b by lia. replace (length y) with d by lia. exact E.
Qed.

Lemma line_eqb_nth a c : a < length x -> c < length y ->
  bytes_eqb (nth a x []) (nth c y []) = true <-> nth_error x a = nth_error y c.
Proof.
  intros Ha Hc. rewrite (nth_error_nth' x [] Ha), (nth_error_nth' y [] Hc), bytes_eqb_eq.
  split; congruence.
Qed.

Lemma same_run_one a c : a < length x -> c < length y -> nth_error x a = nth_error y c ->
  same_run a (S a) c (S c).
Proof.
  intros Ha Hc E. pose proof (nth_error_nth' x [] Ha) as Ex. unfold same_run.
  rewrite (sub_snoc x a a _ (le_n a) Ex), (sub_snoc y c c (nth a x []) (le_n c)), !sub_nil by congruence.
  repeat split; auto; lia.
Qed.

Lemma expand_back_spec mx my dx dy : forall sx0 sy0,
  same_run sx0 mx sy0 my -> dx <= sx0 -> dy <= sy0 ->
  exists stx sty, expand_back x y dx dy sx0 sy0 = Ok (stx, sty) /\
    dx <= stx /\ dy <= sty /\ same_run stx mx sty my.
Proof.
  induction sx0 as [|s IH]; intros sy0 R Hx Hy; simpl.
  - exists 0, sy0. auto.
  - destruct ((dx <? S s) && (dy <? sy0)) eqn:Ec; [|exists (S s), sy0; auto].
    apply andb_true_iff in Ec as [Ex Ey]. apply Nat.ltb_lt in Ex, Ey.
    pose proof R as (R1 & R2 & R3 & R4 & _).
    rewrite (idx_ok x s []), (idx_ok y (sy0 - 1) []) by lia. simpl.
    destruct (bytes_eqb _ _) eqn:Eq; [|exists (S s), sy0; auto].
    apply line_eqb_nth in Eq; try lia. apply IH; try lia.
    apply (same_run_app _ (S s) _ sy0); [|exact R].
    replace sy0 with (S (sy0 - 1)) at 2 by lia. apply same_run_one; auto; lia.
Qed.

(* the forward expansion stops at a point where the texts differ (or one of them ends) *)
Definition maxpt (a b : nat) : Prop :=
  a < length x -> b < length y -> nth_error x a <> nth_error y b.
Definition eof (a b : nat) : Prop := length x <= a /\ length y <= b.

Lemma expand_fwd_spec mx my : forall fuel ex0 ey0,
  same_run mx ex0 my ey0 -> length x <= fuel + ex0 ->
  exists ex ey, expand_fwd fuel x y ex0 ey0 = Ok (ex, ey) /\ same_run mx ex my ey /\ maxpt ex ey.
Proof.
  assert (Hend : forall ex0 ey0, (ex0 <? length x) && (ey0 <? length y) = false -> maxpt ex0 ey0).
  { intros ex0 ey0 Ec Hx Hy. apply Nat.ltb_lt in Hx, Hy. rewrite Hx, Hy in Ec. discriminate. }
  induction fuel as [|fu IH]; intros ex0 ey0 R Hf; simpl;
    (destruct ((ex0 <? length x) && (ey0 <? length y)) eqn:Ec; [|exists ex0, ey0; auto]);
    apply andb_true_iff in Ec as [Ex Ey]; apply Nat.ltb_lt in Ex, Ey; [lia|].
  rewrite (idx_ok x ex0 []), (idx_ok y ey0 []) by lia. simpl.
  destruct (bytes_eqb _ _) eqn:Eq.
  - apply line_eqb_nth in Eq; try lia. apply IH; [|lia].
    apply (same_run_app _ ex0 _ ey0); [exact R | apply same_run_one; auto].
  - exists ex0, ey0. split; [reflexivity|]. split; [exact R|]. intros _ _ E.
    apply line_eqb_nth in E; [congruence | lia..].
Qed.

(* an inner pair: in range, equal lines, and the line occurs nowhere else in x *)
Definition anchor (m : nat * nat) : Prop :=
  fst m < length x /\ snd m < length y /\
  nth_error x (fst m) = nth_error y (snd m) /\
  (forall i, nth_error x i = nth_error x (fst m) -> i = fst m).

Definition mok (m : nat * nat) : Prop := anchor m \/ m = (length x, length y).
Definition le2 (a b : nat * nat) : Prop := fst a <= fst b /\ snd a <= snd b.

(* the matches still to be processed, relative to done = (dx,dy) *)
Definition Pending (dx dy : nat) (ms : list (nat * nat)) : Prop :=
  ms <> [] /\ last ms (0, 0) = (length x, length y) /\
  Forall (fun m => fst m <= length x /\ snd m <= length y /\ (dx <= fst m -> dy <= snd m)) ms /\
  StronglySorted le2 ms /\ Forall mok (tl ms).

(* an anchor that is not inside a common run lies beyond it on the y side as well *)
Lemma anchor_beyond a ex c ey m :
  same_run a ex c ey -> c <= snd m -> anchor m -> ex <= fst m -> ey <= snd m.
Proof.
  intros R Hc (_ & _ & A3 & A4) Hx.
  destruct (Nat.le_gt_cases ey (snd m)) as [|Hlt]; [assumption|exfalso].
  pose proof R as (R1 & _ & _ & R4 & _).
  pose proof (same_run_nth a ex c ey (snd m - c) R ltac:(lia)) as E.
  replace (c + (snd m - c)) with (snd m) in E by lia.
  rewrite <- A3 in E. apply A4 in E. lia.
Qed.

Lemma P_skip dx dy m ms : Pending dx dy (m :: ms) -> fst m < dx -> dx <= length x -> Pending dx dy ms.
Proof.
  intros (_ & Hl & Hf & Hs & Hm) Hlt Hdx.
  assert (ms <> []).
  { intro; subst ms. simpl in Hl. subst m. simpl in Hlt. lia. }
  split; [assumption|]. split.
  { destruct ms; [contradiction|]. exact Hl. }
  inversion Hf; subst. inversion Hs; subst. simpl in Hm.
  repeat split; auto. destruct ms; [constructor|]. inversion Hm; auto.
Qed.

Lemma P_step dx dy mx my ms ex ey :
  Pending dx dy ((mx, my) :: ms) -> same_run mx ex my ey -> ~ eof ex ey -> Pending ex ey ms.
Proof.
  intros (_ & Hl & Hf & Hs & Hm) R Hne. pose proof R as (R1 & R2 & R3 & R4 & _).
  assert (ms <> []).
  { intro; subst ms. simpl in Hl. injection Hl as -> ->. apply Hne. unfold eof. lia. }
  split; [assumption|]. split.
  { destruct ms; [contradiction|]. exact Hl. }
  inversion Hf as [|? ? _ Hf']; subst. inversion Hs as [|? ? Hs' Hle]; subst. simpl in Hm.
  repeat split; auto.
  - rewrite Forall_forall in *. intros m Hin.
    destruct (Hf' m Hin) as (B1 & B2 & _). repeat split; auto.
    intro Hex. destruct (Hm m Hin) as [Ha | ->]; [|exact R3].
    apply (anchor_beyond mx ex my ey m); auto. apply (Hle m Hin).
  - destruct ms; [constructor|]. inversion Hm; auto.
Qed.

(* after a maximal point that is not the end of both texts, the next match (an anchor or the end
   sentinel) cannot be reached by common lines only: something is deleted or added *)
Lemma changes_nonempty dx dy mx my stx sty :
  maxpt dx dy -> ~ eof dx dy -> mok (mx, my) -> dx <= stx -> dy <= sty -> same_run stx mx sty my ->
  tagged TDel (sub x dx stx) ++ tagged TAdd (sub y dy sty) <> [].
Proof.
  intros Hmax Hne Hmok Hx Hy R E. pose proof R as (R1 & R2 & R3 & R4 & _).
  apply app_eq_nil in E as [E1 E2]. apply map_eq_nil in E1, E2.
  apply sub_empty_eq in E1, E2; try lia. subst stx sty.
  destruct (Nat.eq_dec mx dx) as [-> | N].
  - assert (my = dy) by lia. subst my.
    destruct Hmok as [(A1 & A2 & A3 & _) | [= E1 E2]].
    + exact (Hmax A1 A2 A3).
    + apply Hne. unfold eof. lia.
  - pose proof (same_run_nth dx mx dy my 0 R ltac:(lia)) as E.
    rewrite !Nat.add_0_r in E. apply Hmax; [lia | lia | exact E].
Qed.

(* (e0x,e0y) = end of the last emitted hunk (ghost); done, chunk, count, ctext as in the code:
   a common gap up to the chunk, whose two sides are x[chx:dx] and y[chy:dy] *)
Definition LoopInv (e0x e0y dx dy chx chy cntx cnty : nat) (ctext : list (tag * line)) : Prop :=
  same_run e0x chx e0y chy /\ dx <= length x /\ dy <= length y /\
  cntx + chx = dx /\ cnty + chy = dy /\
  old_side ctext = sub x chx dx /\ new_side ctext = sub y chy dy.

Lemma Inv_start e0x e0y chx chy : same_run e0x chx e0y chy -> LoopInv e0x e0y chx chy chx chy 0 0 [].
Proof.
  intro R. pose proof R as (_ & R2 & R3 & _). unfold LoopInv. rewrite !sub_nil. split; [exact R|]. repeat split; auto.
Qed.

Lemma Inv_changes e0x e0y dx dy chx chy cntx cnty ctext stx sty :
  LoopInv e0x e0y dx dy chx chy cntx cnty ctext ->
  dx <= stx -> stx <= length x -> dy <= sty -> sty <= length y ->
  LoopInv e0x e0y stx sty chx chy (cntx + length (sub x dx stx)) (cnty + length (sub y dy sty))
    (ctext ++ tagged TDel (sub x dx stx) ++ tagged TAdd (sub y dy sty)).
Proof.
  intros (R & I1 & I2 & I3 & I4 & I5 & I6) H1 H2 H3 H4. unfold LoopInv.
  rewrite !old_side_app, !new_side_app, !old_side_tagged, !new_side_tagged, app_nil_r, I5, I6. cbn [app]. rewrite !sub_length, !sub_app by lia.
  split; [exact R|]. repeat split; auto; lia.
Qed.

Lemma Inv_ctx e0x e0y dx dy chx chy cntx cnty ctext ex ey :
  LoopInv e0x e0y dx dy chx chy cntx cnty ctext -> same_run dx ex dy ey ->
  LoopInv e0x e0y ex ey chx chy (cntx + length (sub x dx ex)) (cnty + length (sub x dx ex))
    (ctext ++ tagged TCtx (sub x dx ex)).
Proof.
  intros (R & I1 & I2 & I3 & I4 & I5 & I6) (R1 & R2 & R3 & R4 & R5). unfold LoopInv.
  rewrite old_side_app, new_side_app, old_side_tagged, new_side_tagged, I5, I6, sub_length by lia.
  rewrite R5 at 2. rewrite !sub_app by lia. split; [exact R|]. repeat split; auto; lia.
Qed.

Lemma Inv_empty e0x e0y dx dy chx chy cntx cnty :
  LoopInv e0x e0y dx dy chx chy cntx cnty [] -> chx = dx /\ chy = dy /\ cntx = 0 /\ cnty = 0.
Proof.
  intros (R & I1 & I2 & I3 & I4 & I5 & I6). symmetry in I5, I6.
  apply sub_empty_eq in I5, I6; lia.
Qed.

Lemma Inv_counts e0x e0y dx dy chx chy cntx cnty ctext :
  LoopInv e0x e0y dx dy chx chy cntx cnty ctext -> cntx + chx = dx /\ cnty + chy = dy.
Proof. unfold LoopInv. tauto. Qed.

Lemma pos_of_if p c : (if 0 <? c then S p else p) = pos_of p c.
Proof. unfold pos_of. destruct c; reflexivity. Qed.

Lemma Inv_emit e0x e0y dx dy chx chy cntx cnty ctext rest :
  LoopInv e0x e0y dx dy chx chy cntx cnty ctext ->
  hunks_rel dx dy (skipn dx x) (skipn dy y) rest ->
  hunks_rel e0x e0y (skipn e0x x) (skipn e0y y)
    (mkHunk (pos_of chx cntx) cntx (pos_of chy cnty) cnty ctext :: rest).
Proof.
  intros ((R1 & R2 & R3 & R4 & R5) & I1 & I2 & I3 & I4 & I5 & I6) Hrel.
  exists (sub x e0x chx), (skipn dx x), (skipn dy y). cbn [sx cx sy cy body].
  rewrite I5, I6, !sub_length by lia.
  replace (e0x + (chx - e0x)) with chx by lia. replace (e0y + (chx - e0x)) with chy by lia.
  replace (dx - chx) with cntx by lia. replace (dy - chy) with cnty by lia.
  replace (chx + cntx) with dx by lia. replace (chy + cnty) with dy by lia.
  repeat split; try assumption.
  - rewrite app_assoc, sub_app by lia. apply skipn_sub; lia.
  - rewrite R5, app_assoc, sub_app by lia. apply skipn_sub; lia.
Qed.

(* what is shown of a run of the loop from a state whose last emitted hunk ended at (e0x,e0y) *)
Definition GoodRun (e0x e0y : nat) (r : res (list hunk)) : Prop :=
  exists hs, r = Ok hs /\ hunks_rel e0x e0y (skipn e0x x) (skipn e0y y) hs /\ Forall (hunk_ctx_ok x y) hs.

Lemma Good_emit e0x e0y dx dy chx chy cntx cnty ctext r :
  LoopInv e0x e0y dx dy chx chy cntx cnty ctext ->
  hunk_ctx_ok x y (mkHunk (pos_of chx cntx) cntx (pos_of chy cnty) cnty ctext) -> GoodRun dx dy r ->
  GoodRun e0x e0y (do rest <- r; Ok (mkHunk (pos_of chx cntx) cntx (pos_of chy cnty) cnty ctext :: rest)).
Proof.
  intros HI Hh (rest & -> & Hrel & Hctx). eexists. split; [reflexivity|].
  split; [exact (Inv_emit _ _ _ _ _ _ _ _ _ _ HI Hrel) | constructor; assumption].
Qed.

Lemma model_bind_Ok_r {A} (r : res A) : (do a <- r; Ok a) = r.
Proof. destruct r; reflexivity. Qed.

(* the runs of context lines of the pending chunk obey the context rule so far *)
Definition RunsOK (pre : list nat) (cur chx chy : nat) : Prop :=
  match pre with
  | [] => cur <= ctxC /\ (cur = ctxC \/ (chx = 0 /\ chy = 0))
  | lead :: inners =>
      lead <= ctxC /\ (lead = ctxC \/ (chx = 0 /\ chy = 0)) /\ Forall inner_ok inners /\ inner_ok cur
  end.

(* ... and the last of them has [cur] lines *)
Definition Runs (chx chy : nat) (ctext : list (tag * line)) (cur : nat) : Prop :=
  exists pre, runs ctext = pre ++ [cur] /\ RunsOK pre cur chx chy.

Lemma RunsOK_changes pre cur chx chy k :
  RunsOK pre cur chx chy -> RunsOK (pre ++ cur :: repeat 0 k) 0 chx chy.
Proof.
  assert (Hz : Forall inner_ok (repeat 0 k)).
  { apply Forall_forall. intros z Hz. apply repeat_spec in Hz. subst. left. reflexivity. }
  destruct pre as [|lead inners]; simpl.
  - intros (H1 & H2). repeat split; auto. left. reflexivity.
  - intros (H1 & H2 & H3 & H4). repeat split; auto.
    + apply Forall_app. split; [assumption|]. constructor; assumption.
    + left. reflexivity.
Qed.

Lemma Runs_nil : Runs 0 0 [] 0.
Proof. exists []. split; [reflexivity|]. simpl. split; [lia | right; split; reflexivity]. Qed.

Lemma Runs_new_chunk chx chy l : length l = ctxC -> Runs chx chy (tagged TCtx l) ctxC.
Proof.
  intro H. exists []. split; [|simpl; split; [lia | left; reflexivity]].
  unfold runs. rewrite runs_from_ctx, H. reflexivity.
Qed.

(* changed lines close the current run; a chunk that has begun gets at least one *)
Lemma Runs_changes chx chy ctext cur ch :
  Runs chx chy ctext cur -> all_change ch = true -> (ctext <> [] -> ch <> []) ->
  Runs chx chy (ctext ++ ch) 0.
Proof.
  intros (pre & E & Hok) Hall Hne. destruct ch as [|t ch].
  - destruct ctext; [|exfalso; apply Hne; [discriminate | reflexivity]].
    destruct pre as [|a [|b pre]]; try discriminate. injection E as <-. exists []. auto.
  - exists (pre ++ cur :: repeat 0 (length (t :: ch) - 1)). split.
    + apply runs_changes; [assumption | discriminate | assumption].
    + apply RunsOK_changes. assumption.
Qed.

Lemma Runs_ctx chx chy ctext l :
  Runs chx chy ctext 0 -> length l < 2 * ctxC -> (nonempty ctext = false -> length l < ctxC) ->
  Runs chx chy (ctext ++ tagged TCtx l) (length l).
Proof.
  intros (pre & E & Hok) H1 H2. exists pre. split; [exact (runs_ctx _ _ _ _ E)|].
  destruct pre as [|lead inners]; simpl in *.
  - apply runs_single, length_zero_iff_nil in E. subst ctext. specialize (H2 eq_refl).
    destruct Hok as [_ Hc]. split; [lia|]. destruct Hc as [Hc|Hc]; [lia | right; exact Hc].
  - destruct Hok as (K1 & K2 & K3 & _). repeat split; auto. right. lia.
Qed.

Lemma Runs_hunk chx chy ctext cntx cnty l :
  Runs chx chy ctext 0 -> ctext <> [] -> length l <= ctxC ->
  (length l = ctxC \/ (cntx + chx = length x /\ cnty + chy = length y)) ->
  hunk_ctx_ok x y (mkHunk (pos_of chx cntx) cntx (pos_of chy cnty) cnty (ctext ++ tagged TCtx l)).
Proof.
  intros (pre & E & Hok) Hne H1 H2. destruct pre as [|lead inners].
  { apply runs_single, length_zero_iff_nil in E. contradiction. }
  destruct Hok as (K1 & K2 & K3 & _).
  exists chx, chy, lead, inners, (length l). cbn [sx cx sy cy body]. rewrite !start_pos_pos_of.
  split; [reflexivity|]. split; [reflexivity|]. split; [exact (runs_ctx _ _ _ _ E)|].
  repeat split; auto. destruct H2 as [H2|H2]; [left; exact H2 | right; lia].
Qed.

(* the test that keeps a chunk open after a common run of r lines; b: the chunk has begun *)
Lemma continue_cases ex ey r (b : bool) :
  if ((ex <? length x) || (ey <? length y)) && ((r <? ctxC) || (b && (r <? 2 * ctxC)))
  then ~ eof ex ey /\ r < 2 * ctxC /\ (b = false -> r < ctxC)
  else eof ex ey \/ (ctxC <= r /\ (b = true -> 2 * ctxC <= r)).
Proof. unfold eof. destruct (_ && _) eqn:E; lia. Qed.

Lemma eof_spec ex ey : BoolSpec (eof ex ey) (~ eof ex ey) ((length x <=? ex) && (length y <=? ey)).
Proof. unfold eof. destruct (Nat.leb_spec (length x) ex), (Nat.leb_spec (length y) ey); constructor; lia. Qed.

(* a pending chunk that has begun sits behind a maximal point which is not the end of both texts,
   and all remaining matches are anchors or the end sentinel *)
Definition LiveChunk (dx dy : nat) (ms : list (nat * nat)) (ctext : list (tag * line)) : Prop :=
  ctext <> [] -> maxpt dx dy /\ ~ eof dx dy /\ Forall mok ms.

Lemma diff_loop_ok : forall ms e0x e0y dx dy chx chy cntx cnty ctext cur,
  LoopInv e0x e0y dx dy chx chy cntx cnty ctext -> Runs chx chy ctext cur ->
  LiveChunk dx dy ms ctext -> Pending dx dy ms ->
  GoodRun e0x e0y (diff_loop x y ms dx dy chx chy cntx cnty ctext).
Proof.
  induction ms as [|[mx my] ms IH]; intros e0x e0y dx dy chx chy cntx cnty ctext cur HI HR HL HP.
  { destruct HP as (Hne & _). contradiction. }
  pose proof HI as (_ & I1 & I2 & _).
  assert (Hmok : Forall mok ms) by apply HP.
  cbn [diff_loop]. destruct (Nat.ltb_spec mx dx) as [Hlt | Hge].
  { apply (IH _ _ _ _ _ _ _ _ _ cur); auto; [|eapply P_skip; eauto].
    intro Hne. destruct (HL Hne) as (? & ? & _). auto. }
  assert (Hm : mx <= length x /\ my <= length y /\ dy <= my).
  { destruct HP as (_ & _ & Hf & _). inversion Hf; subst. simpl in *. intuition. }
  destruct Hm as (M1 & M2 & M3).
  destruct (expand_back_spec mx my dx dy mx my) as (stx & sty & -> & B1 & B2 & RB); auto.
  { apply same_run_nil; assumption. }
  destruct (expand_fwd_spec mx my (length x) mx my) as (ex & ey & -> & RF & Hmax); [|lia|].
  { apply same_run_nil; assumption. }
  pose proof (same_run_app _ _ _ _ _ _ RB RF) as R. pose proof R as (R1 & R2 & R3 & R4 & _).
  cbn [bind fst snd]. rewrite (slice_ok x dx stx), (slice_ok y dy sty), (sub_chk_ok ex stx) by lia.
  cbn [bind].
  (* the chunk with the changed lines of this pass *)
  apply Inv_changes with (stx := stx) (sty := sty) in HI; try lia.
  apply Runs_changes with (ch := tagged TDel (sub x dx stx) ++ tagged TAdd (sub y dy sty)) in HR;
    [|apply all_change_del_add|].
  2:{ intro Hne. destruct (HL Hne) as (L1 & L2 & L3). inversion L3. eapply changes_nonempty; eauto. }
  set (ctext2 := ctext ++ tagged TDel (sub x dx stx) ++ tagged TAdd (sub y dy sty)) in *.
  set (cntx2 := cntx + length (sub x dx stx)) in *. set (cnty2 := cnty + length (sub y dy sty)) in *.
  clearbody ctext2 cntx2 cnty2. clear HL cur.
  pose proof (continue_cases ex ey (ex - stx) (nonempty ctext2)) as Hc.
  assert (Hlen : length (sub x stx ex) = ex - stx) by (apply sub_length; lia).
  destruct (_ && _).
  - (* too few common lines: the chunk continues *)
    destruct Hc as (Hneof & C1 & C2).
    rewrite (slice_ok x stx ex) by lia. cbn [bind].
    apply (IH _ _ _ _ _ _ _ _ _ (length (sub x stx ex))).
    + apply Inv_ctx with (dy := sty); assumption.
    + apply Runs_ctx; rewrite ?Hlen; assumption.
    + intros _. auto.
    + apply (P_step dx dy mx my); assumption.
  - (* the chunk ends here; what follows it, from the end (gx,gy) of the last hunk so far *)
    assert (Hnext : forall gx gy, same_run gx ex gy ey -> (~ eof ex ey -> gx + ctxC <= ex) ->
       GoodRun gx gy
        (if (length x <=? ex) && (length y <=? ey) then Ok []
         else do chx' <- sub_chk ex ctxC; do chy' <- sub_chk ey ctxC;
              do xs4 <- slice x chx' ex;
              diff_loop x y ms ex ey chx' chy' (length xs4) (length xs4) (tagged TCtx xs4))).
    { intros gx gy G Hfar. destruct (eof_spec ex ey) as [[Ex Ey] | Hneof].
      { exists []. split; [reflexivity|]. split; [|constructor]. exact (same_run_eof _ _ _ _ G Ex Ey). }
      specialize (Hfar Hneof). pose proof G as (_ & _ & _ & G4 & _).
      destruct (same_run_drop _ _ _ _ ctxC G Hfar) as (G1 & G2).
      rewrite (sub_chk_ok ex), (sub_chk_ok ey) by lia. cbn [bind].
      rewrite (slice_ok x (ex - ctxC) ex) by lia. cbn [bind].
      apply (IH gx gy _ _ _ _ _ _ _ ctxC).
      - exact (Inv_ctx _ _ _ _ _ _ 0 0 [] _ _ (Inv_start _ _ _ _ G1) G2).
      - apply Runs_new_chunk. rewrite sub_length; lia.
      - intros _. auto.
      - apply (P_step dx dy mx my); assumption. }
    destruct (nonempty ctext2) eqn:Ene.
    + (* emit the chunk, closed by at most ctxC of the common lines *)
      set (n := Nat.min (ex - stx) ctxC).
      assert (Hn : stx + n <= ex /\ n <= ctxC /\ (n = ctxC \/ (stx + n = ex /\ eof ex ey)) /\
                   (~ eof ex ey -> stx + n + ctxC <= ex)) by (unfold n, eof in *; lia).
      clearbody n. destruct Hn as (N1 & N2 & N3 & N4).
      rewrite (slice_ok x stx (stx + n)) by lia. cbn [bind Nat.add app]. rewrite !pos_of_if.
      destruct (same_run_take _ _ _ _ n R N1) as (Rn & Rn').
      apply Inv_ctx with (1 := HI) in Rn.
      apply (Good_emit _ _ _ _ _ _ _ _ _ _ Rn); [|exact (Hnext _ _ Rn' N4)].
      assert (Hl : length (sub x stx (stx + n)) = n) by (rewrite sub_length; lia).
      apply Runs_hunk; rewrite ?Hl; try assumption.
      { intros ->. discriminate. }
      destruct N3 as [N3 | (N3 & E1 & E2)]; [left; exact N3 | right].
      apply Inv_counts in Rn. lia.
    + (* nothing to emit: the chunk is empty, done = start = chunk *)
      apply nonempty_false in Ene. subst ctext2.
      destruct (Inv_empty _ _ _ _ _ _ _ _ HI) as (-> & -> & -> & ->). destruct HI as (G & _).
      cbn [bind Nat.add app]. rewrite model_bind_Ok_r. apply Hnext.
      { exact (same_run_app _ _ _ _ _ _ G R). }
      intro Hneof. destruct Hc as [Hc | (Hc & _)]; [contradiction|]. destruct G. lia.
Qed.

End Loop.

Lemma anchor_ok_spec x y p : anchor_ok x y p = true ->
  exists s, nth_error x (fst p) = Some s /\ nth_error y (snd p) = Some s /\
            count_line x s = 1 /\ count_line y s = 1.
Proof.
  unfold anchor_ok. destruct (nth_error x (fst p)) as [a|]; [|discriminate].
  destruct (nth_error y (snd p)) as [b|]; [|discriminate]. rewrite !andb_true_iff, bytes_eqb_eq, !Nat.eqb_eq.
  intros [[<- H2] H3]. eauto.
Qed.

Lemma anchor_ok_anchor x y p : anchor_ok x y p = true -> anchor x y p.
Proof.
  intro H. apply anchor_ok_spec in H as (s & Ea & Eb & H2 & _). unfold anchor.
  split; [apply nth_error_Some; congruence|]. split; [apply nth_error_Some; congruence|].
  split; [congruence|]. intros i Hi. apply (count_line_unique x s H2); congruence.
Qed.

Lemma increasing_sorted (e : nat * nat) l :
  increasing l = true -> Forall (fun p => le2 p e) l -> StronglySorted le2 (l ++ [e]).
Proof.
  induction l as [|p l IH]; intros Hi Hf; simpl.
  - repeat constructor.
  - inversion Hf; subst.
    assert (Hi' : increasing l = true).
    { destruct l; [reflexivity|]. simpl in Hi. apply andb_true_iff in Hi. tauto. }
    specialize (IH Hi' H2). constructor; [assumption|].
    destruct l as [|q l]; simpl.
    + constructor; [assumption | constructor].
    + simpl in Hi. apply andb_true_iff in Hi as [Hi _]. apply andb_true_iff in Hi as [L1 L2].
      apply Nat.ltb_lt in L1, L2.
      assert (Hpq : le2 p q) by (unfold le2; lia).
      simpl in IH. inversion IH; subst.
      constructor; [assumption|].
      eapply Forall_impl; [|eassumption]. intros r Hr. unfold le2 in *. lia.
Qed.

(* the shape and the facts the checker establishes *)
Definition matches_ok (x y : list line) (ms : list (nat * nat)) : Prop :=
  exists inner, ms = (0, 0) :: inner ++ [(length x, length y)] /\
    Forall (fun p => anchor_ok x y p = true) inner /\ increasing inner = true.

Lemma tgs_ok_list_matches_ok x y ms : tgs_ok_list x y ms = true <-> matches_ok x y ms.
Proof.
  unfold tgs_ok_list, matches_ok. split.
  - intro H. destruct ms as [|[[|?] [|?]] r]; try discriminate.
    destruct (rev r) as [|[a b] ri] eqn:Er; [discriminate|].
    apply andb_true_iff in H as [H H4]. apply andb_true_iff in H as [H H3].
    apply andb_true_iff in H as [H1 H2]. apply Nat.eqb_eq in H1, H2. subst a b.
    exists (rev ri). split.
    + f_equal. rewrite <- (rev_involutive r), Er. reflexivity.
    + split; [|assumption]. apply Forall_forall. apply forallb_forall. assumption.
  - intros (inner & -> & Hf & Hi).
    rewrite rev_app_distr. simpl. rewrite rev_involutive, !Nat.eqb_refl, Hi. simpl.
    rewrite andb_true_r. apply forallb_forall. apply Forall_forall. assumption.
Qed.

Lemma matches_ok_Pending x y ms : matches_ok x y ms -> Pending x y 0 0 ms.
Proof.
  intros (inner & -> & Hf & Hi).
  assert (Ha : Forall (anchor x y) inner).
  { eapply Forall_impl; [|exact Hf]. intros p. apply anchor_ok_anchor. }
  assert (Hle : Forall (fun p => le2 p (length x, length y)) inner).
  { eapply Forall_impl; [|exact Ha]. intros p (A1 & A2 & _). unfold le2. simpl. lia. }
  unfold Pending. split; [discriminate|]. split.
  { change ((0, 0) :: inner ++ [(length x, length y)]) with (((0, 0) :: inner) ++ [(length x, length y)]).
    apply last_last. }
  split; [|split].
  - constructor; [simpl; lia|]. apply Forall_app. split.
    + eapply Forall_impl; [|exact Ha]. intros p (A1 & A2 & _). lia.
    + constructor; [simpl; lia | constructor].
  - constructor.
    + apply increasing_sorted; assumption.
    + apply Forall_forall. intros p _. unfold le2. simpl. lia.
  - simpl. apply Forall_app. split.
    + eapply Forall_impl; [|exact Ha]. intros p Hp. left. assumption.
    + constructor; [right; reflexivity | constructor].
Qed.

Lemma diff_loop_matches_ok x y ms : matches_ok x y ms ->
  exists hs, diff_loop x y ms 0 0 0 0 0 0 [] = Ok hs /\ hunks_rel 0 0 x y hs /\
             Forall (hunk_ctx_ok x y) hs.
Proof.
  intro H. apply matches_ok_Pending in H.
  destruct (diff_loop_ok x y ms 0 0 0 0 0 0 0 0 [] 0) as (hs & E & R & Hc); [| | |assumption|].
  - apply Inv_start, same_run_nil; lia.
  - apply Runs_nil.
  - intro F. contradiction.
  - exists hs. repeat split; assumption.
Qed.

(* everything the property says follows from [hunks_rel] *)
Lemma hunks_rel_consequences x y hs : hunks_rel 0 0 x y hs ->
  hunks_wf x y hs /\ apply_hunks x hs = Some y /\ apply_hunks y (swap_hunks hs) = Some x.
Proof.
  intro H. split; [|split].
  - apply wf_from_rel; simpl; try lia. exact H.
  - apply apply_from_rel. exact H.
  - apply apply_from_rel. apply hunks_rel_swap. exact H.
Qed.

Theorem diff_hunks_rel_partial x y : tgs_ok x y = true ->
  exists hs, diff_hunks x y = Ok hs /\ hunks_rel 0 0 x y hs /\ Forall (hunk_ctx_ok x y) hs.
Proof.
  unfold tgs_ok, diff_hunks. intro H.
  destruct (tgs x y) as [ms| |]; try discriminate. simpl.
  apply diff_loop_matches_ok. apply tgs_ok_list_matches_ok. assumption.
Qed.

Theorem patch_correct_partial x y hs :
  tgs_ok x y = true -> diff_hunks x y = Ok hs -> apply_hunks x hs = Some y.
Proof.
  intros H E. destruct (diff_hunks_rel_partial x y H) as (hs' & E' & R & _).
  assert (hs' = hs) by congruence. subst. apply hunks_rel_consequences. assumption.
Qed.

(* Diff returns nothing exactly when the texts are byte-identical (needs nothing of tgs) *)
Theorem diff_nil_iff oldName old newName new : diff oldName old newName new = Ok [] <-> old = new.
Proof.
  unfold diff. split.
  - destruct (bytes_eqb old new) eqn:E; [intros _; apply bytes_eqb_eq; assumption|].
    destruct (diff_hunks (lines old) (lines new)); simpl; discriminate.
  - intros ->. rewrite bytes_eqb_refl. reflexivity.
Qed.
