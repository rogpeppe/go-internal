(* C08 — direct readings of the property sentence.
   * every difference between the two texts lies inside a hunk: both texts are the SAME sequence
     of unchanged gaps, interleaved with the old sides resp. the new sides of the hunks
     ([hunks_cover_changes]), and line by line ([outside_hunks_equal]);
   * the returned bytes are literally the three header lines, with the file names copied as data
     whatever bytes they contain, followed by the rendered hunks ([diff_bytes_shape]);
   * end to end on TEXTS: the returned bytes, read back and applied to the old text, give the new
     text byte for byte, and in reverse the old one, final newline or not ([text_patch]);
   * a fact about the algorithm: diffing in the other direction is NOT the reversed diff
     ([rediff_is_not_reverse]); "applied in reverse" is about [swap_hunks], not about Diff(new, old). *)
From Coq Require Import List Bool Arith ZArith Lia.
From Coq.Strings Require Import Byte.
From GI Require Import Lib.Bytes Gen.DiffConsts Diff.Diff Diff.DiffSpec Diff.DiffBase Diff.DiffProofs
  Diff.TgsProofs Diff.DiffParse Diff.ParseProofs Diff.CtxFacts Diff.BytesFacts Diff.DiffFacts.
Import ListNotations.

(* g0 ++ s1 ++ g1 ++ s2 ++ ... ++ sn ++ gn *)
Fixpoint weave (gaps sides : list (list line)) : list line :=
  match gaps, sides with
  | g :: gs, s :: ss => g ++ s ++ weave gs ss
  | g :: _, [] => g
  | [], _ => []
  end.

Definition old_sides (hs : list hunk) : list (list line) := map (fun h => old_side (body h)) hs.
Definition new_sides (hs : list hunk) : list (list line) := map (fun h => new_side (body h)) hs.

Lemma hunks_rel_weave hs : forall px py xs ys,
  hunks_rel px py xs ys hs ->
  exists gaps, length gaps = S (length hs) /\
               xs = weave gaps (old_sides hs) /\ ys = weave gaps (new_sides hs).
Proof.
  induction hs as [|h hs IH]; intros px py xs ys H; simpl in H.
  - exists [xs]. subst ys. repeat split.
  - destruct H as (g & xs' & ys' & Hx & Hy & _ & _ & _ & _ & Hr).
    destruct (IH _ _ _ _ Hr) as (gaps & Hl & Hxs & Hys).
    exists (g :: gaps). split; [simpl; congruence|].
    unfold old_sides, new_sides in *. simpl. rewrite <- Hxs, <- Hys. split; assumption.
Qed.

(* Both texts are the same gaps around the two sides of the hunks: outside the hunks nothing differs. *)
Theorem hunks_cover_changes : forall x y hs, diff_hunks x y = Ok hs ->
  exists gaps, length gaps = S (length hs) /\
               x = weave gaps (old_sides hs) /\ y = weave gaps (new_sides hs).
Proof.
  intros x y hs E. exact (hunks_rel_weave hs 0 0 x y (proj1 (diff_hunks_spec x y hs E))).
Qed.

(* 0-based line i lies in the old (new) range of some hunk *)
Definition in_old_range (hs : list hunk) (i : nat) : Prop :=
  exists h p, In h hs /\ start_pos (sx h) (cx h) = Some p /\ p <= i < p + cx h.
Definition in_new_range (hs : list hunk) (j : nat) : Prop :=
  exists h q, In h hs /\ start_pos (sy h) (cy h) = Some q /\ q <= j < q + cy h.

Lemma hunks_rel_starts hs : forall px py xs ys, hunks_rel px py xs ys hs ->
  forall h q, In h hs -> start_pos (sy h) (cy h) = Some q -> py <= q.
Proof.
  induction hs as [|h0 hs IH]; intros px py xs ys H h q Hin Hq; [contradiction|].
  simpl in H. destruct H as (g & xs' & ys' & _ & _ & _ & _ & _ & Hsy & Hr).
  destruct Hin as [<-|Hin].
  - rewrite Hsy, start_pos_pos_of in Hq. inversion Hq. lia.
  - pose proof (IH _ _ _ _ Hr h q Hin Hq). lia.
Qed.

Lemma hunks_rel_outside hs : forall px py xs ys, hunks_rel px py xs ys hs ->
  forall i, i < length xs -> ~ in_old_range hs (px + i) ->
  exists j, j < length ys /\ nth_error ys j = nth_error xs i /\ ~ in_new_range hs (py + j).
Proof.
  induction hs as [|h hs IH]; intros px py xs ys H i Hi Hout; simpl in H.
  - subst ys. exists i. repeat split; auto. intros (h & q & [] & _).
  - destruct H as (g & xs' & ys' & Hx & Hy & Hcx & Hcy & Hsx & Hsy & Hr).
    assert (Hp : start_pos (sx h) (cx h) = Some (px + length g)) by (rewrite Hsx; apply start_pos_pos_of).
    assert (Hq : start_pos (sy h) (cy h) = Some (py + length g)) by (rewrite Hsy; apply start_pos_pos_of).
    destruct (Nat.lt_ge_cases i (length g)) as [Hg|Hg].
    + (* inside the gap before the hunk *)
      exists i. subst xs ys. rewrite !nth_error_app1 by assumption.
      split; [rewrite app_length; lia|]. split; [reflexivity|].
      intros (h' & q & [<-|Hin] & Hq' & Hr').
      * rewrite Hq in Hq'. inversion Hq'. lia.
      * pose proof (hunks_rel_starts _ _ _ _ _ Hr h' q Hin Hq'). lia.
    + destruct (Nat.lt_ge_cases i (length g + cx h)) as [Hc|Hc].
      * exfalso. apply Hout. exists h, (px + length g). split; [left; reflexivity|]. split; [exact Hp|lia].
      * (* behind the hunk *)
        assert (Hi' : i - length g - cx h < length xs').
        { subst xs. rewrite !app_length in Hi. lia. }
        destruct (IH _ _ _ _ Hr (i - length g - cx h) Hi') as (j & Hj & Hn & Ho).
        { intros (h' & p & Hin & Hp' & Hr'). apply Hout. exists h', p. split; [right; exact Hin|].
          split; [exact Hp'|lia]. }
        exists (length g + cy h + j). subst xs ys.
        split; [rewrite !app_length; lia|]. split.
        -- rewrite nth_error_app2 by lia. rewrite nth_error_app2 by lia.
           rewrite (nth_error_app2 g) by lia. rewrite (nth_error_app2 (old_side (body h))) by lia.
           etransitivity; [|etransitivity; [exact Hn|]]; f_equal; lia.
        -- intros (h' & q & [<-|Hin] & Hq' & Hr').
           ++ rewrite Hq in Hq'. inversion Hq'. lia.
           ++ apply Ho. exists h', q. split; [exact Hin|]. split; [exact Hq'|lia].
Qed.

(* A line of the old text that is in no hunk is a line of the new text that is in no hunk:
   every place where the texts differ is inside a hunk. *)
Theorem outside_hunks_equal : forall x y hs i, diff_hunks x y = Ok hs ->
  i < length x -> ~ in_old_range hs i ->
  exists j, j < length y /\ nth_error y j = nth_error x i /\ ~ in_new_range hs j.
Proof.
  intros x y hs i E. exact (hunks_rel_outside hs 0 0 x y (proj1 (diff_hunks_spec x y hs E)) i).
Qed.

Theorem diff_bytes_shape : forall oldName old newName new out,
  diff oldName old newName new = Ok out -> old <> new ->
  exists hs, diff_hunks (lines old) (lines new) = Ok hs /\ hs <> [] /\
    out = [x64; x69; x66; x66; x20] ++ oldName ++ [x20] ++ newName ++ [x0a] ++
          [x2d; x2d; x2d; x20] ++ oldName ++ [x0a] ++
          [x2b; x2b; x2b; x20] ++ newName ++ [x0a] ++
          concat (map render_hunk hs).
Proof.
  intros on old nn new out E Hne.
  destruct (diff_bytes_parse _ _ _ _ _ E Hne) as (hs & Eh & Eo & _).
  exists hs. split; [exact Eh|]. split.
  - intro Hnil. subst hs. apply Hne. apply diff_hunks_nonempty. exact Eh.
  - subst out. unfold render. rewrite render_header_shape. rewrite <- !app_assoc. reflexivity.
Qed.

Definition patch_text (oldName newName out old : bytes) : option bytes :=
  option_map unlines (patch_bytes oldName newName out (lines old)).
Definition unpatch_text (oldName newName out new : bytes) : option bytes :=
  option_map unlines (unpatch_bytes oldName newName out (lines new)).

Theorem text_patch : forall oldName old newName new out,
  diff oldName old newName new = Ok out ->
  patch_text oldName newName out old = Some new /\
  unpatch_text oldName newName out new = Some old.
Proof.
  intros on old nn new out E. destruct (bytes_patch _ _ _ _ _ E) as (Hp & Hu).
  unfold patch_text, unpatch_text. rewrite Hp, Hu. simpl. rewrite !unlines_lines. split; reflexivity.
Qed.

(* the consumer, at the level of texts: what a failing cmp / cmpenv logs turns the text of the
   first file into the text it was compared with (for cmpenv the expanded one), and back *)
Theorem cmp_logged_diff_text : forall (expand : bytes -> bytes) env name1 name2 text1 data2 d,
  do_cmp expand false env name1 name2 text1 data2 = CmpFail d ->
  patch_text name1 name2 d text1 = Some (cmp_compared expand env data2) /\
  unpatch_text name1 name2 d (cmp_compared expand env data2) = Some text1.
Proof.
  intros expand env n1 n2 t1 d2 d E.
  destruct (cmp_logged_diff_patches expand env n1 n2 t1 d2 d E) as (_ & _ & Hp & Hu).
  unfold patch_text, unpatch_text. rewrite Hp, Hu. simpl. rewrite !unlines_lines. split; reflexivity.
Qed.

Definition removed (hs : list hunk) : list line :=
  concat (map (fun h => map snd (filter (fun tl => match fst tl with TDel => true | _ => false end) (body h))) hs).
Definition added (hs : list hunk) : list line :=
  concat (map (fun h => map snd (filter (fun tl => match fst tl with TAdd => true | _ => false end) (body h))) hs).

(* "b\nc\n" against "c\nb\n": forward Diff keeps one of the two lines, Diff in the other direction
   keeps the other one *)
Theorem rediff_is_not_reverse : exists x y hs hs',
  diff_hunks x y = Ok hs /\ diff_hunks y x = Ok hs' /\ removed hs' <> added hs.
Proof.
  exists [[x62; x0a]; [x63; x0a]], [[x63; x0a]; [x62; x0a]].
  eexists. eexists. split; [vm_compute; reflexivity|]. split; [vm_compute; reflexivity|].
  vm_compute. discriminate.
Qed.

(* the gaps of the example pair of DiffFacts.v: one hunk, nothing before it, nothing behind it *)
Example ex_cover :
  match diff_hunks (lines ex_old) (lines ex_new) with
  | Ok hs => lines ex_old = weave [[]; []] (old_sides hs) /\ lines ex_new = weave [[]; []] (new_sides hs)
  | _ => False
  end.
Proof. vm_compute. split; reflexivity. Qed.

(* two hunks far apart: the gap between them is common to both texts *)
Definition ex_far_old : list line := map (fun b => [b; x0a]) [x61;x62;x63;x64;x65;x66;x67;x68;x69;x6a;x6b;x6c].
Definition ex_far_new : list line := map (fun b => [b; x0a]) [x41;x62;x63;x64;x65;x66;x67;x68;x69;x6a;x6b;x4c].
Example ex_cover_two :
  match diff_hunks ex_far_old ex_far_new with
  | Ok hs => length hs = 2 /\
             ex_far_old = weave [[]; map (fun b => [b; x0a]) [x65;x66;x67;x68]; []] (old_sides hs) /\
             ex_far_new = weave [[]; map (fun b => [b; x0a]) [x65;x66;x67;x68]; []] (new_sides hs) /\
             ~ in_old_range hs 5 /\ in_old_range hs 0
  | _ => False
  end.
Proof.
  vm_compute. split; [reflexivity|]. split; [reflexivity|]. split; [reflexivity|]. split.
  - intros (h & p & Hin & Hp & Hr). destruct Hin as [<-|[<-|[]]]; vm_compute in Hp; inversion Hp; subst p; simpl in Hr; lia.
  - eexists. exists 0. split; [left; reflexivity|]. split; [vm_compute; reflexivity|]. simpl. lia.
Qed.

(* text level, with a text that lacks its final newline and file names full of printf verbs *)
Example ex_text_patch :
  match diff [x25; x64] ex_old [x25; x73; x25] ex_new with
  | Ok out => patch_text [x25; x64] [x25; x73; x25] out ex_old = Some ex_new /\
              unpatch_text [x25; x64] [x25; x73; x25] out ex_new = Some ex_old /\
              firstn 12 out = [x64; x69; x66; x66; x20; x25; x64; x20; x25; x73; x25; x0a]
  | _ => False
  end.
Proof. vm_compute. repeat split. Qed.

(* the consumer at text level: cmpenv with V=x, file a = "x\nsame\n", file b = "$V\nother" (no final newline) *)
Example ex_cmp_text :
  let expand := fun d : bytes => match d with x24 :: x56 :: r => x78 :: r | _ => d end in
  let a := [x78; x0a; x73; x0a] in
  let b := [x24; x56; x0a; x6f] in
  match do_cmp expand false true [x61] [x62] a b with
  | CmpFail d => patch_text [x61] [x62] d a = Some [x78; x0a; x6f] /\ unpatch_text [x61] [x62] d [x78; x0a; x6f] = Some a
  | _ => False
  end.
Proof. vm_compute. split; reflexivity. Qed.
