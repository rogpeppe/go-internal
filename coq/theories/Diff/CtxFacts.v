(* C08 — consequences of the context rule [hunk_ctx_ok]: every hunk has a changed line, a side
   with count 0 means that file is empty, consecutive hunks are separated by a common run of at
   least 2*ctxC lines. *)
From Coq Require Import List Bool Arith ZArith Lia.
From Coq.Strings Require Import Byte.
From GI Require Import Lib.Bytes Gen.DiffConsts Diff.Diff Diff.DiffSpec Diff.DiffBase Diff.DiffProofs
  Diff.TgsProofs.
Import ListNotations.

Theorem hunks_ctx : forall x y hs, diff_hunks x y = Ok hs -> Forall (hunk_ctx_ok x y) hs.
Proof. intros x y hs E. apply (diff_hunks_spec x y hs E). Qed.

Theorem hunks_wf_all : forall x y hs, diff_hunks x y = Ok hs -> hunks_wf x y hs.
Proof. intros x y hs E. apply hunks_rel_consequences, (diff_hunks_spec x y hs E). Qed.

Lemma ctxC_pos : 0 < ctxC.
Proof. unfold ctxC. lia. Qed.

Local Opaque ctxC.

Theorem hunk_has_change : forall x y hs h,
  diff_hunks x y = Ok hs -> In h hs -> has_change (body h) = true.
Proof.
  intros x y hs h E Hin. pose proof (hunks_ctx x y hs E) as Hc.
  rewrite Forall_forall in Hc. destruct (Hc h Hin) as (p & q & lead & inners & trail & _ & _ & R & _).
  eapply runs_has_change. exact R.
Qed.

Definition nctx (b : list (tag * line)) : nat := length (filter is_ctx b).

Lemma runs_from_sum b : forall c, list_sum (runs_from c b) = c + nctx b.
Proof.
  unfold nctx. induction b as [|t b IH]; intro c; simpl; [lia|].
  destruct (is_ctx t); simpl; rewrite IH; lia.
Qed.

Lemma nctx_le_sides b : nctx b <= length (old_side b) /\ nctx b <= length (new_side b).
Proof.
  unfold nctx, old_side, new_side, is_ctx. induction b as [|[t l] b IH]; simpl; [lia|].
  destruct t; simpl; rewrite ?map_length in *; simpl; lia.
Qed.

Lemma lead_trail_le b lead inners trail :
  runs b = lead :: inners ++ [trail] -> lead + trail <= nctx b.
Proof.
  intro R. pose proof (runs_from_sum b 0) as S. fold (runs b) in S. rewrite R in S.
  simpl in S. rewrite list_sum_app in S. simpl in S. lia.
Qed.

Lemma has_change_sides b : has_change b = true -> 1 <= length (old_side b) + length (new_side b).
Proof.
  unfold has_change, old_side, new_side, is_ctx. induction b as [|[t l] b IH]; simpl; [discriminate|].
  destruct t; simpl; rewrite ?map_length in *; simpl; intros; lia.
Qed.

(* the facts of [wf_from] about one hunk, at its positions *)
Definition hunk_at (x y : list line) (h : hunk) (p q : nat) : Prop :=
  sx h = pos_of p (cx h) /\ sy h = pos_of q (cy h) /\
  cx h = length (old_side (body h)) /\ cy h = length (new_side (body h)) /\
  p + cx h <= length x /\ q + cy h <= length y /\
  old_side (body h) = sub x p (p + cx h) /\ new_side (body h) = sub y q (q + cy h).

Lemma wf_from_cons x y px py h hs : wf_from x y px py (h :: hs) ->
  exists p q, px <= p /\ py <= q /\ p - px = q - py /\ sub x px p = sub y py q /\
    hunk_at x y h p q /\ wf_from x y (p + cx h) (q + cy h) hs.
Proof. simpl. intros (p & q & H). exists p, q. unfold hunk_at. tauto. Qed.

Lemma wf_from_split x y l1 : forall px py h l2,
  wf_from x y px py (l1 ++ h :: l2) ->
  exists px' py' p q, px <= px' /\ py <= py' /\ px' <= p /\ py' <= q /\
    hunk_at x y h p q /\ sub x px' p = sub y py' q /\ p - px' = q - py' /\
    wf_from x y (p + cx h) (q + cy h) l2.
Proof.
  induction l1 as [|h1 l1 IH]; intros px py h l2 W;
    apply wf_from_cons in W as (p & q & A1 & A2 & A3 & A4 & Hat & W).
  - exists px, py, p, q. auto 10.
  - destruct (IH _ _ _ _ W) as (px' & py' & p' & q' & B1 & B2 & B).
    exists px', py', p', q'. split; [lia|]. split; [lia|]. exact B.
Qed.

(* the context rule of a hunk, read at the positions [hunk_at] gives it *)
Lemma hunk_ctx_ok_at x y h p q : hunk_at x y h p q -> hunk_ctx_ok x y h ->
  exists lead inners trail, runs (body h) = lead :: inners ++ [trail] /\
    lead <= ctxC /\ (lead = ctxC \/ (p = 0 /\ q = 0)) /\ Forall inner_ok inners /\
    trail <= ctxC /\ (trail = ctxC \/ (p + cx h = length x /\ q + cy h = length y)).
Proof.
  intros (H1 & H2 & _) (p' & q' & lead & inners & trail & P1 & P2 & R).
  rewrite H1, start_pos_pos_of in P1. rewrite H2, start_pos_pos_of in P2.
  injection P1 as <-. injection P2 as <-. eauto.
Qed.

(* With at least one context line ([ctxC_pos]), a hunk has no old (new) lines only if the old (new) text is
   empty; its printed start is then 0 ("-0,0" / "+0,0", the Go convention for an empty file). *)
Theorem zero_count_side : forall x y hs h,
  diff_hunks x y = Ok hs -> In h hs ->
  (cx h = 0 -> x = [] /\ sx h = 0) /\ (cy h = 0 -> y = [] /\ sy h = 0).
Proof.
  intros x y hs h E Hin.
  pose proof (proj1 (Forall_forall _ _) (hunks_ctx x y hs E) h Hin) as Hc.
  pose proof (hunks_wf_all x y hs E) as W.
  destruct (in_split _ _ Hin) as (l1 & l2 & ->).
  destruct (wf_from_split x y l1 0 0 h l2 W) as (_ & _ & p' & q' & _ & _ & _ & _ & Hat & _).
  destruct (hunk_ctx_ok_at _ _ _ _ _ Hat Hc) as (lead & inners & trail & R & _ & L2 & _ & _ & T2).
  destruct Hat as (Hsx & Hsy & Hcx & Hcy & Hxe & Hye & _ & _).
  pose proof (lead_trail_le _ _ _ _ R) as LT. pose proof (nctx_le_sides (body h)) as [N1 N2].
  pose proof ctxC_pos as CP.
  split; intro Z.
  - assert (lead = 0 /\ trail = 0) as [-> ->] by lia.
    destruct L2 as [L2 | [L2 _]]; [lia|]. destruct T2 as [T2 | [T2 _]]; [lia|].
    subst p'. split.
    + destruct x; [reflexivity | simpl in T2; lia].
    + rewrite Hsx, Z. reflexivity.
  - assert (lead = 0 /\ trail = 0) as [-> ->] by lia.
    destruct L2 as [L2 | [_ L2]]; [lia|]. destruct T2 as [T2 | [_ T2]]; [lia|].
    subst q'. split.
    + destruct y; [reflexivity | simpl in T2; lia].
    + rewrite Hsy, Z. reflexivity.
Qed.

(* Two consecutive hunks h1, h2: h1 ends with exactly ctxC context lines, h2 starts with exactly
   ctxC context lines, and between them lie g >= 0 further lines that are equal in both texts;
   so the common run between the last change of h1 and the first change of h2 has 2*ctxC + g
   lines — a shorter run would have kept the two changes in one hunk ([inner_ok]). *)
Theorem hunks_separated : forall x y hs l1 h1 h2 l2,
  diff_hunks x y = Ok hs -> hs = l1 ++ h1 :: h2 :: l2 ->
  exists lead1 inners1 inners2 trail2 p1 q1 p2 q2,
    runs (body h1) = lead1 :: inners1 ++ [ctxC] /\
    runs (body h2) = ctxC :: inners2 ++ [trail2] /\
    hunk_at x y h1 p1 q1 /\ hunk_at x y h2 p2 q2 /\
    p1 + cx h1 <= p2 /\ q1 + cy h1 <= q2 /\
    p2 - (p1 + cx h1) = q2 - (q1 + cy h1) /\
    sub x (p1 + cx h1) p2 = sub y (q1 + cy h1) q2.
Proof.
  intros x y hs l1 h1 h2 l2 E ->.
  pose proof (hunks_ctx x y _ E) as Hc. rewrite Forall_app in Hc. destruct Hc as (_ & Hc).
  inversion Hc as [|? ? Hc1 Hc']. inversion Hc' as [|? ? Hc2 _]. subst.
  pose proof (hunks_wf_all x y _ E) as W.
  destruct (wf_from_split x y l1 0 0 h1 (h2 :: l2) W) as (_ & _ & p1 & q1 & _ & _ & _ & _ & Hat1 & _ & _ & W2).
  apply wf_from_cons in W2 as (p2 & q2 & Hp12 & Hq12 & Hdiag & Hgap & Hat2 & _).
  destruct (hunk_ctx_ok_at _ _ _ _ _ Hat1 Hc1) as (lead1 & inners1 & trail1 & R1 & _ & _ & _ & _ & T2).
  destruct (hunk_ctx_ok_at _ _ _ _ _ Hat2 Hc2) as (lead2 & inners2 & trail2 & R2 & _ & L2 & _).
  pose proof Hat1 as (_ & _ & Hcx1 & Hcy1 & Hxe1 & Hye1 & _). pose proof Hat2 as (_ & _ & Hcx2 & Hcy2 & Hxe2 & Hye2 & _).
  pose proof (has_change_sides _ (runs_has_change _ _ _ _ R1)) as C1.
  pose proof (has_change_sides _ (runs_has_change _ _ _ _ R2)) as C2.
  assert (trail1 = ctxC) as ->.
  { destruct T2 as [T2 | [T2 T2']]; [assumption | exfalso]. lia. }
  assert (lead2 = ctxC) as ->.
  { destruct L2 as [L2 | [L2 L2']]; [assumption | exfalso]. lia. }
  exists lead1, inners1, inners2, trail2, p1, q1, p2, q2. auto 10.
Qed.
