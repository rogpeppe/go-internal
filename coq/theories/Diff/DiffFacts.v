(* C08 — the theorems for every pair of line lists / texts, with no bound; their statements as
   Props of their own ([*_full_statement]); Examples and computed sanity checks. *)
From Coq Require Import List Bool Arith ZArith Lia.
From Coq.Strings Require Import Byte.
From GI Require Import Lib.Bytes Gen.DiffConsts Diff.Diff Diff.DiffSpec Diff.DiffBase Diff.DiffProofs
  Diff.TgsProofs Diff.DiffParse Diff.ParseProofs Diff.CtxFacts Diff.BytesFacts.
Import ListNotations.

Definition tgs_sound_full_statement : Prop := forall x y, tgs_sound_on x y.
Definition diff_no_panic_full_statement : Prop := forall x y, exists hs, diff_hunks x y = Ok hs.
Definition hunks_wf_full_statement : Prop :=
  forall x y hs, diff_hunks x y = Ok hs -> hunks_wf x y hs.
Definition patch_correct_full_statement : Prop :=
  forall x y hs, diff_hunks x y = Ok hs -> apply_hunks x hs = Some y.
Definition patch_reverse_full_statement : Prop :=
  forall x y hs, diff_hunks x y = Ok hs -> apply_hunks y (swap_hunks hs) = Some x.

Lemma increasing_pairwise l : increasing l = true ->
  forall i j, i < j -> j < length l -> lt2 (nth i l (0, 0)) (nth j l (0, 0)).
Proof.
  induction l as [|p l IH]; intros H i j Hij Hj; simpl in Hj; [lia|].
  assert (Hl : increasing l = true).
  { destruct l; [reflexivity|]. simpl in H. apply andb_true_iff in H. tauto. }
  destruct j as [|j]; [lia|]. destruct i as [|i].
  - simpl. destruct l as [|q l]; [simpl in Hj; lia|].
    simpl in H. apply andb_true_iff in H as [H _]. apply andb_true_iff in H as [H1 H2].
    apply Nat.ltb_lt in H1, H2.
    destruct j as [|j]; [split; assumption|].
    destruct (IH Hl 0 (S j)) as [G1 G2]; [lia | simpl in *; lia|].
    simpl in G1, G2. unfold lt2. simpl. lia.
  - simpl. apply IH; [assumption | lia | lia].
Qed.

Theorem tgs_sound : forall x y, tgs_sound_on x y.
Proof.
  intros x y. destruct (tgs_matches_ok x y) as (ms & E & inner & -> & Hf & Hi).
  exists inner. split; [exact E|]. split.
  - eapply Forall_impl; [|exact Hf]. intros p. apply anchor_ok_spec.
  - apply increasing_pairwise. assumption.
Qed.

Theorem diff_no_panic : forall x y, exists hs, diff_hunks x y = Ok hs.
Proof. intros x y. destruct (diff_hunks_rel x y) as (hs & E & _). eauto. Qed.

Theorem patch_correct : forall x y hs, diff_hunks x y = Ok hs -> apply_hunks x hs = Some y.
Proof. intros x y hs E. apply hunks_rel_consequences, (diff_hunks_spec x y hs E). Qed.

Theorem patch_reverse : forall x y hs,
  diff_hunks x y = Ok hs -> apply_hunks y (swap_hunks hs) = Some x.
Proof. intros x y hs E. apply hunks_rel_consequences, (diff_hunks_spec x y hs E). Qed.

Theorem diff_total : forall oldName old newName new, exists out, diff oldName old newName new = Ok out.
Proof.
  intros. unfold diff. destruct (bytes_eqb old new); [eauto|].
  destruct (diff_no_panic (lines old) (lines new)) as (hs & ->). simpl. eauto.
Qed.

(* texts: with the injectivity of [lines] the two patch theorems say that the hunks turn the old
   text into exactly the new text (and back), final newline or not *)
Theorem patch_texts : forall old new hs,
  diff_hunks (lines old) (lines new) = Ok hs ->
  apply_hunks (lines old) hs = Some (lines new) /\
  apply_hunks (lines new) (swap_hunks hs) = Some (lines old) /\
  (forall t, apply_hunks (lines old) hs = Some (lines t) -> t = new) /\
  (forall t, apply_hunks (lines new) (swap_hunks hs) = Some (lines t) -> t = old).
Proof.
  intros old new hs H.
  pose proof (patch_correct _ _ _ H) as F. pose proof (patch_reverse _ _ _ H) as B.
  repeat split; try assumption.
  - intros t Ht. rewrite F in Ht. inversion Ht. apply lines_inj. congruence.
  - intros t Ht. rewrite B in Ht. inversion Ht. apply lines_inj. congruence.
Qed.

Theorem diff_hunks_nonempty : forall old new,
  diff_hunks (lines old) (lines new) = Ok [] -> old = new.
Proof.
  intros old new H. apply patch_correct in H. unfold apply_hunks in H. simpl in H.
  inversion H. apply lines_inj. assumption.
Qed.

(* "a\nb\nb\nc\nd\ne\nf\ng\nh" (duplicate lines, no final newline) vs "a\nb\nc\nx\ne\nf\ng\nh\nb\n" *)
Definition ex_old : bytes :=
  [x61;x0a; x62;x0a; x62;x0a; x63;x0a; x64;x0a; x65;x0a; x66;x0a; x67;x0a; x68].
Definition ex_new : bytes :=
  [x61;x0a; x62;x0a; x63;x0a; x78;x0a; x65;x0a; x66;x0a; x67;x0a; x68;x0a; x62;x0a].

Eval vm_compute in (length (lines ex_old), length (lines ex_new)).
Eval vm_compute in tgs (lines ex_old) (lines ex_new).
Eval vm_compute in
  match diff_hunks (lines ex_old) (lines ex_new) with
  | Ok hs => map (fun h => (sx h, cx h, sy h, cy h, length (body h))) hs
  | _ => []
  end.

(* the checker of the tgs facts accepts a non-trivial pair ... *)
Example ex_tgs_ok : tgs_ok (lines ex_old) (lines ex_new) = true.
Proof. vm_compute. reflexivity. Qed.

(* ... the anchors found are a (0,0), c (3,2), e f g (5,4) (6,5) (7,6); b is duplicated, the last
   line of the old text carries the no-newline message and so differs from "h\n" *)
Example ex_tgs : tgs (lines ex_old) (lines ex_new) =
  Ok [(0, 0); (0, 0); (3, 2); (5, 4); (6, 5); (7, 6); (9, 9)].
Proof. vm_compute. reflexivity. Qed.

Example ex_hunks :
  match diff_hunks (lines ex_old) (lines ex_new) with
  | Ok hs => map (fun h => (sx h, cx h, sy h, cy h)) hs = [(1, 9, 1, 9)] /\
             apply_hunks (lines ex_old) hs = Some (lines ex_new) /\
             apply_hunks (lines ex_new) (swap_hunks hs) = Some (lines ex_old)
  | _ => False
  end.
Proof. vm_compute. repeat split. Qed.

(* the rendered bytes begin with the three header lines *)
Example ex_render :
  match diff [x6f] ex_old [x6e] ex_new with
  | Ok out => firstn 19 out = [x64;x69;x66;x66;x20;x6f;x20;x6e;x0a; x2d;x2d;x2d;x20;x6f;x0a; x2b;x2b;x2b;x20]
  | _ => False
  end.
Proof. vm_compute. reflexivity. Qed.

(* an insertion into an empty file: the Go convention "-0,0" *)
Example ex_empty_old :
  match diff_hunks (lines []) (lines [x61; x0a]) with
  | Ok hs => map (fun h => (sx h, cx h, sy h, cy h)) hs = [(0, 0, 1, 1)]
  | _ => False
  end.
Proof. vm_compute. reflexivity. Qed.

(* two hunks: 2*C + 1 common lines between two edits *)
Definition ex_long (a z : byte) : bytes :=
  [a;x0a; x31;x0a; x32;x0a; x33;x0a; x34;x0a; x35;x0a; x36;x0a; x37;x0a; z;x0a].
Example ex_two_hunks :
  match diff_hunks (lines (ex_long x61 x62)) (lines (ex_long x78 x79)) with
  | Ok hs => map (fun h => (sx h, cx h, sy h, cy h)) hs = [(1, 4, 1, 4); (6, 4, 6, 4)]
  | _ => False
  end.
Proof. vm_compute. reflexivity. Qed.

(* lines: the unterminated last line carries the message; [lines] is injective because of it *)
Example ex_lines : lines [x61; x0a; x62] = [[x61; x0a]; x62 :: no_newline_msg].
Proof. reflexivity. Qed.
Example ex_lines_msg_text :
  lines ([x61] ++ no_newline_msg) <> lines [x61].
Proof. vm_compute. discriminate. Qed.

(* the executable form of the property on the example *)
Example ex_holds : C08_holds_on ex_old ex_new = true.
Proof. vm_compute. reflexivity. Qed.

(* the statement-level lines on a text without final newline *)
Example ex_lines_go : lines_go [x61; x0a; x62] = Ok [[x61; x0a]; x62 :: no_newline_msg].
Proof. reflexivity. Qed.

(* the runs of context lines of the two hunks of [ex_two_hunks]: 0 leading (top of file) and
   ctxC trailing; ctxC leading and 0 trailing (end of file) *)
Example ex_runs :
  match diff_hunks (lines (ex_long x61 x62)) (lines (ex_long x78 x79)) with
  | Ok hs => map (fun h => runs (body h)) hs = [[0; 0; 3]; [3; 0; 0]]
  | _ => False
  end.
Proof. vm_compute. reflexivity. Qed.

(* the bytes print and parse back; applying them gives the new lines *)
Example ex_parse_back :
  match diff [x6f] ex_old [x6e] ex_new with
  | Ok out => match parse_render [x6f] [x6e] out, diff_hunks (lines ex_old) (lines ex_new) with
              | Some hs, Ok hs' => hs = hs'
              | _, _ => False
              end /\ patch_bytes [x6f] [x6e] out (lines ex_old) = Some (lines ex_new)
  | _ => False
  end.
Proof. vm_compute. split; reflexivity. Qed.

(* the reader rejects bytes that are not a rendering: a count that does not match the body *)
Example ex_parse_rejects :
  parse_render [x6f] [x6e]
    (render_header [x6f] [x6e] ++ [x40;x40;x20;x2d;x31;x2c;x32;x20;x2b;x31;x2c;x31;x20;x40;x40;x0a; x2d;x61;x0a; x2b;x62;x0a])
  = None.
Proof. vm_compute. reflexivity. Qed.

(* a cmpenv whose second file holds a reference: the logged diff is against the expanded text *)
Example ex_cmpenv :
  let expand := fun d : bytes => if bytes_eqb d [x24; x56; x0a] then [x78; x0a] else d in   (* "$V\n" -> "x\n" *)
  match do_cmp expand false true [x61] [x62] [x79; x0a] [x24; x56; x0a] with
  | CmpFail d => patch_bytes [x61] [x62] d (lines [x79; x0a]) = Some (lines [x78; x0a])
  | _ => False
  end.
Proof. vm_compute. reflexivity. Qed.
