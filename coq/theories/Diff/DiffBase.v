(* C08 — basic facts about the vocabulary of the diff model: checked index / update / slice,
   sub-lists, the two sides of a chunk, occurrence counts, [lines], what the Fprintf calls print,
   and the runs of context lines of a chunk. *)
From Coq Require Import List Bool Arith ZArith Lia.
From Coq.Strings Require Import Byte.
From GI Require Export Lib.BytesFacts.
From GI Require Import Lib.Bytes Gen.DiffConsts Diff.Diff Diff.DiffSpec.
Import ListNotations.

Lemma list_bytes_eqb_true_iff (a b : list line) : list_bytes_eqb a b = true <-> a = b.
Proof.
  revert b. induction a as [|x a IH]; intros [|y b]; simpl; split; intro H; try congruence; auto.
  - apply andb_true_iff in H as [H1 H2]. apply bytes_eqb_eq in H1. apply IH in H2. congruence.
  - inversion H; subst. apply andb_true_iff. split; [apply bytes_eqb_refl | apply IH; reflexivity].
Qed.

Lemma idx_ok {A} (l : list A) (i : nat) (d : A) : i < length l -> idx l i = Ok (nth i l d).
Proof.
  intro H. unfold idx. rewrite (nth_error_nth' l d H). reflexivity.
Qed.

Lemma idx_Ok_inv {A} (l : list A) (i : nat) (a : A) : idx l i = Ok a -> nth_error l i = Some a.
Proof. unfold idx. destruct (nth_error l i); congruence. Qed.

Lemma upd_ok {A} (l : list A) (i : nat) (v : A) :
  i < length l -> exists l', upd l i v = Ok l' /\ length l' = length l /\
    (forall d, nth i l' d = v) /\ (forall j d, j <> i -> nth j l' d = nth j l d).
Proof.
  revert i. induction l as [|a l IH]; intros i H; simpl in H; [lia|].
  destruct i as [|i]; simpl.
  - eexists; split; [reflexivity|]. repeat split. intros [|j] d Hj; [contradiction | reflexivity].
  - destruct (IH i) as (l' & E & Hl & He & Hn); [lia|]. rewrite E. simpl.
    eexists; split; [reflexivity|]. split; [simpl; lia|]. split; [exact He|].
    intros [|j] d Hj; simpl; auto.
Qed.

Lemma slice_ok {A} (l : list A) a b : a <= b -> b <= length l -> slice l a b = Ok (sub l a b).
Proof.
  intros H1 H2. unfold slice.
  destruct (Nat.leb_spec a b); [|lia]. destruct (Nat.leb_spec b (length l)); [|lia]. reflexivity.
Qed.

Lemma sub_chk_ok a b : b <= a -> sub_chk a b = Ok (a - b).
Proof. intro H. unfold sub_chk. destruct (Nat.ltb_spec a b); [lia | reflexivity]. Qed.

Lemma sub_length {A} (l : list A) a b : b <= length l -> length (sub l a b) = b - a.
Proof. intro H. unfold sub. rewrite firstn_length, skipn_length. lia. Qed.

Lemma sub_empty_eq {A} (l : list A) a b : a <= b -> b <= length l -> sub l a b = [] -> a = b.
Proof. intros H1 H2 E. apply (f_equal (@length _)) in E. rewrite sub_length in E by lia. simpl in E. lia. Qed.

Lemma sub_nil {A} (l : list A) a : sub l a a = [].
Proof. unfold sub. rewrite Nat.sub_diag. reflexivity. Qed.

Lemma firstn_plus {A} (l : list A) n m : firstn (n + m) l = firstn n l ++ firstn m (skipn n l).
Proof.
  revert l. induction n as [|n IH]; intros [|a l]; simpl; auto.
  - destruct m; reflexivity.
  - f_equal. apply IH.
Qed.

Lemma sub_app {A} (l : list A) a b c :
  a <= b -> b <= c -> c <= length l -> sub l a b ++ sub l b c = sub l a c.
Proof.
  intros H1 H2 H3. unfold sub.
  replace (c - a) with ((b - a) + (c - b)) by lia.
  rewrite firstn_plus. f_equal. rewrite skipn_skipn'.
  replace (a + (b - a)) with b by lia. reflexivity.
Qed.

Lemma sub_full {A} (l : list A) a : sub l a (length l) = skipn a l.
Proof.
  unfold sub. rewrite <- (skipn_length a l). apply firstn_all.
Qed.

Lemma skipn_sub {A} (l : list A) a b :
  a <= b -> b <= length l -> skipn a l = sub l a b ++ skipn b l.
Proof.
  intros H1 H2. rewrite <- (sub_full l a), <- (sub_full l b). symmetry. apply sub_app; auto.
Qed.

Lemma sub_sub {A} (l : list A) a b i j :
  j <= b - a -> b <= length l -> sub (sub l a b) i j = sub l (a + i) (a + j).
Proof.
  intros H1 H2. unfold sub.
  rewrite skipn_firstn_comm, firstn_firstn, skipn_skipn'.
  replace (a + j - (a + i)) with (j - i) by lia.
  f_equal. lia.
Qed.

Lemma nth_error_sub {A} (l : list A) a b i :
  i < b - a -> nth_error (sub l a b) i = nth_error l (a + i).
Proof.
  intros H. unfold sub. rewrite nth_error_firstn_lt by lia. apply nth_error_skipn_add.
Qed.

Lemma sub_snoc {A} (l : list A) a b v :
  a <= b -> nth_error l b = Some v -> sub l a (S b) = sub l a b ++ [v].
Proof.
  intros H1 H2.
  assert (Hb : b < length l) by (apply nth_error_Some; congruence).
  rewrite <- (sub_app l a b (S b)) by lia. f_equal.
  unfold sub. replace (S b - b) with 1 by lia.
  rewrite <- (firstn_skipn b l) in H2 at 1.
  rewrite nth_error_app2 in H2 by (rewrite firstn_length; lia).
  rewrite firstn_length, Nat.min_l, Nat.sub_diag in H2 by lia.
  destruct (skipn b l); simpl in *; congruence.
Qed.

Lemma skipn_eq_app {A} (l : list A) a u v :
  a <= length l -> skipn a l = u ++ v ->
  a + length u <= length l /\ u = sub l a (a + length u) /\ v = skipn (a + length u) l.
Proof.
  intros H E.
  assert (Hl : length l - a = length u + length v) by (rewrite <- skipn_length, E, app_length; reflexivity).
  split; [lia|].
  unfold sub. replace (a + length u - a) with (length u) by lia.
  rewrite <- skipn_skipn', E.
  rewrite firstn_app, Nat.sub_diag, firstn_all, skipn_app, Nat.sub_diag, skipn_all. simpl.
  rewrite app_nil_r. auto.
Qed.

Lemma old_side_cons t l b : old_side ((t, l) :: b) = match t with TAdd => old_side b | _ => l :: old_side b end.
Proof. destruct t; reflexivity. Qed.
Lemma new_side_cons t l b : new_side ((t, l) :: b) = match t with TDel => new_side b | _ => l :: new_side b end.
Proof. destruct t; reflexivity. Qed.

Lemma old_side_app a b : old_side (a ++ b) = old_side a ++ old_side b.
Proof. unfold old_side. rewrite filter_app, map_app. reflexivity. Qed.
Lemma new_side_app a b : new_side (a ++ b) = new_side a ++ new_side b.
Proof. unfold new_side. rewrite filter_app, map_app. reflexivity. Qed.

Lemma old_side_tagged t l : old_side (tagged t l) = match t with TAdd => [] | _ => l end.
Proof. induction l as [|a l IH]; [destruct t; reflexivity|]. cbn [tagged map]. rewrite old_side_cons. fold (tagged t l). rewrite IH. destruct t; reflexivity. Qed.
Lemma new_side_tagged t l : new_side (tagged t l) = match t with TDel => [] | _ => l end.
Proof. induction l as [|a l IH]; [destruct t; reflexivity|]. cbn [tagged map]. rewrite new_side_cons. fold (tagged t l). rewrite IH. destruct t; reflexivity. Qed.

Lemma nonempty_false {A} (l : list A) : nonempty l = false -> l = [].
Proof. destruct l; simpl; congruence. Qed.

Lemma count_line_zero l a : count_line l a = 0 -> forall i, nth_error l i <> Some a.
Proof.
  induction l as [|b r IH]; intros H i; simpl in *.
  - destruct i; discriminate.
  - destruct (bytes_eqb b a) eqn:E; [discriminate|].
    destruct i; simpl; [|apply IH; lia].
    intros [= ->]. rewrite bytes_eqb_refl in E. discriminate.
Qed.

Lemma count_line_pos l a : 1 <= count_line l a -> exists i, nth_error l i = Some a.
Proof.
  induction l as [|b r IH]; simpl; intro H; [lia|].
  destruct (bytes_eqb_spec b a) as [->|_].
  - exists 0. reflexivity.
  - destruct IH as (i & Hi); [lia|]. exists (S i). assumption.
Qed.

Lemma count_line_unique l a : count_line l a = 1 ->
  forall i j, nth_error l i = Some a -> nth_error l j = Some a -> i = j.
Proof.
  induction l as [|b r IH]; intros H i j Hi Hj; simpl in H; [discriminate|].
  destruct (bytes_eqb b a) eqn:E.
  - pose proof (count_line_zero r a ltac:(lia)) as Z.
    destruct i, j; simpl in *; try reflexivity; exfalso; eapply Z; eauto.
  - destruct i; [injection Hi as ->; rewrite bytes_eqb_refl in E; discriminate|].
    destruct j; [injection Hj as ->; rewrite bytes_eqb_refl in E; discriminate|].
    f_equal. eapply IH; eauto.
Qed.

Lemma lines_nil_iff d : lines d = [] <-> d = [].
Proof.
  split; [|intros ->; reflexivity].
  destruct d as [|b r]; auto. simpl. destruct (beq b NL); [discriminate|].
  destruct (lines r); discriminate.
Qed.

(* shape of the constant the injectivity of [lines] depends on: the message starts with a
   newline and goes on after it (so a line carrying it has an inner newline, which no
   terminated line has) *)
Lemma no_newline_msg_shape : exists r, no_newline_msg = NL :: r /\ r <> [].
Proof. eexists. split; [reflexivity | discriminate]. Qed.

Lemma lines_nonempty d : Forall (fun l => l <> []) (lines d).
Proof.
  induction d as [|b r IH]; simpl; [constructor|].
  destruct (beq b NL); [constructor; [discriminate | exact IH]|].
  destruct (lines r) eqn:E.
  - constructor; [discriminate | constructor].
  - inversion IH; subst. constructor; [discriminate | assumption].
Qed.

(* the inverse of [lines]: a line is cut at its first newline; the newline is kept only when
   nothing follows it (otherwise what follows is the no-newline message) *)
Fixpoint strip (l : line) : bytes :=
  match l with
  | [] => []
  | b :: r => if beq b NL then (match r with [] => [b] | _ => [] end) else b :: strip r
  end.
Definition unlines (ls : list line) : bytes := concat (map strip ls).

Lemma unlines_lines t : unlines (lines t) = t.
Proof.
  destruct no_newline_msg_shape as (m & Hm & Hm').
  unfold unlines. induction t as [|b r IH]; simpl; [reflexivity|].
  destruct (beq b NL) eqn:Eb.
  - simpl. rewrite Eb. simpl. rewrite IH. reflexivity.
  - destruct (lines r) as [|l ls] eqn:El.
    + apply lines_nil_iff in El. subst r. rewrite Hm. simpl. rewrite Eb. simpl.
      destruct m; [contradiction|]. reflexivity.
    + simpl in *. rewrite Eb. simpl. rewrite IH. reflexivity.
Qed.

Lemma lines_inj a b : lines a = lines b -> a = b.
Proof.
  intro H. rewrite <- (unlines_lines a), <- (unlines_lines b), H. reflexivity.
Qed.

(* the separator read from the source is the single byte NL *)
Lemma lines_sep_shape : lines_sep = [NL].
Proof. reflexivity. Qed.

Lemma split_after_nonempty c d : split_after c d <> [].
Proof.
  destruct d as [|b r]; simpl; [discriminate|].
  destruct (beq b c); [discriminate|]. destruct (split_after c r); discriminate.
Qed.

(* drop an empty last piece, or append the message to a non-empty one *)
Fixpoint fix_last (l : list bytes) : list line :=
  match l with
  | [] => []
  | [a] => match a with [] => [] | _ => [a ++ no_newline_msg] end
  | a :: r => a :: fix_last r
  end.

Lemma lines_fix_last d : lines d = fix_last (split_after NL d).
Proof.
  induction d as [|b r IH]; [reflexivity|].
  simpl. destruct (beq b NL) eqn:E.
  - rewrite IH. pose proof (split_after_nonempty NL r).
    destruct (split_after NL r); [contradiction | reflexivity].
  - rewrite IH. pose proof (split_after_nonempty NL r).
    destruct (split_after NL r) as [|l ls]; [contradiction|].
    destruct ls as [|l' ls]; simpl.
    + destruct l; reflexivity.
    + reflexivity.
Qed.

Lemma idx_snoc {A} (l : list A) z : idx (l ++ [z]) (length l) = Ok z.
Proof. unfold idx. rewrite nth_error_app2, Nat.sub_diag by lia. reflexivity. Qed.

Lemma upd_snoc {A} (l : list A) z v : upd (l ++ [z]) (length l) v = Ok (l ++ [v]).
Proof. induction l as [|a l IH]; simpl; [reflexivity|]. rewrite IH. reflexivity. Qed.

Lemma slice_snoc {A} (l : list A) z : slice (l ++ [z]) 0 (length l) = Ok l.
Proof.
  unfold slice. rewrite app_length. simpl.
  destruct (Nat.leb_spec (length l) (length l + 1)); [|lia]. simpl.
  rewrite Nat.sub_0_r, firstn_app, Nat.sub_diag, firstn_all. simpl. rewrite app_nil_r. reflexivity.
Qed.

Lemma fix_last_snoc l z :
  fix_last (l ++ [z]) = l ++ match z with [] => [] | _ => [z ++ no_newline_msg] end.
Proof.
  induction l as [|a l IH]; [reflexivity|].
  simpl. rewrite IH. destruct (l ++ [z]) eqn:E; [|reflexivity].
  destruct l; discriminate.
Qed.

Lemma last_ops_fix_last (l : list bytes) : l <> [] ->
  (do last <- idx l (length l - 1);
   if bytes_eqb last [] then slice l 0 (length l - 1)
   else upd l (length l - 1) (last ++ no_newline_msg)) = Ok (fix_last l).
Proof.
  intro H. destruct (exists_last H) as (init & z & ->).
  rewrite app_length. simpl. replace (length init + 1 - 1) with (length init) by lia.
  rewrite idx_snoc. simpl. rewrite fix_last_snoc.
  destruct z as [|c z]; simpl.
  - rewrite slice_snoc, app_nil_r. reflexivity.
  - rewrite upd_snoc. reflexivity.
Qed.

(* the statement-level version of lines computes [lines] and never panics *)
Theorem lines_go_eq d : lines_go d = Ok (lines d).
Proof.
  unfold lines_go. rewrite lines_sep_shape.
  pose proof (split_after_nonempty NL d) as H.
  unfold sub_chk. destruct (Nat.ltb_spec (length (split_after NL d)) 1) as [Hl | _].
  - destruct (split_after NL d); [contradiction | simpl in Hl; lia].
  - simpl. rewrite lines_fix_last. apply last_ops_fix_last. assumption.
Qed.

(* the arguments of the four calls, in the order the model passes them *)
Lemma diff_fprintf_args_shape :
  diff_fprintf_args =
  [ [ [x6f;x6c;x64;x4e;x61;x6d;x65]; [x6e;x65;x77;x4e;x61;x6d;x65] ];   (* oldName, newName *)
    [ [x6f;x6c;x64;x4e;x61;x6d;x65] ];                                  (* oldName *)
    [ [x6e;x65;x77;x4e;x61;x6d;x65] ];                                  (* newName *)
    [ [x63;x68;x75;x6e;x6b;x2e;x78]; [x63;x6f;x75;x6e;x74;x2e;x78];
      [x63;x68;x75;x6e;x6b;x2e;x79]; [x63;x6f;x75;x6e;x74;x2e;x79] ] ]. (* chunk.x, count.x, chunk.y, count.y *)
Proof. reflexivity. Qed.

(* "diff old new\n--- old\n+++ new\n" *)
Lemma render_header_shape oldName newName :
  render_header oldName newName =
  [x64; x69; x66; x66; x20] ++ oldName ++ [x20] ++ newName ++ [x0a] ++
  [x2d; x2d; x2d; x20] ++ oldName ++ [x0a] ++
  [x2b; x2b; x2b; x20] ++ newName ++ [x0a].
Proof.
  unfold render_header. cbv -[app dec].
  repeat (progress (cbn [app]; rewrite <- ?app_assoc)). reflexivity.
Qed.

(* "@@ -a,b +c,e @@\n" *)
Lemma sprintf_hunk a b c e :
  sprintf fmt_hunk [ANat a; ANat b; ANat c; ANat e] =
  [x40; x40; x20; x2d] ++ dec a ++ [x2c] ++ dec b ++ [x20; x2b] ++ dec c ++ [x2c] ++ dec e ++ [x20; x40; x40; x0a].
Proof. cbv -[app dec]. reflexivity. Qed.

(* ... then the chunk lines *)
Lemma render_hunk_shape h :
  render_hunk h =
  [x40; x40; x20; x2d] ++ dec (sx h) ++ [x2c] ++ dec (cx h) ++
  [x20; x2b] ++ dec (sy h) ++ [x2c] ++ dec (cy h) ++ [x20; x40; x40; x0a] ++
  concat (map (fun tl => tag_byte (fst tl) :: snd tl) (body h)).
Proof. unfold render_hunk. rewrite sprintf_hunk, <- !app_assoc. reflexivity. Qed.

(* the consumer (testscript doCmdCmp) hands name1, []byte(text1), name2, []byte(text2) to Diff *)
Lemma cmp_diff_args_shape :
  cmp_diff_args =
  [ [x6e;x61;x6d;x65;x31]; [x5b;x5d;x62;x79;x74;x65;x28;x74;x65;x78;x74;x31;x29];
    [x6e;x61;x6d;x65;x32]; [x5b;x5d;x62;x79;x74;x65;x28;x74;x65;x78;x74;x32;x29] ].
Proof. reflexivity. Qed.

Lemma runs_from_ctx c l : runs_from c (tagged TCtx l) = [c + length l].
Proof.
  revert c. induction l as [|a l IH]; intro c; simpl.
  - rewrite Nat.add_0_r. reflexivity.
  - unfold tagged in IH. rewrite IH. f_equal. lia.
Qed.

Lemma runs_from_app b : forall c, exists pre k,
  runs_from c b = pre ++ [k] /\ forall b', runs_from c (b ++ b') = pre ++ runs_from k b'.
Proof.
  induction b as [|tl b IH]; intro c; simpl.
  - exists [], c. split; [reflexivity|]. intro; reflexivity.
  - destruct (is_ctx tl).
    + apply IH.
    + destruct (IH 0) as (pre & k & E & F). exists (c :: pre), k. split.
      * rewrite E. reflexivity.
      * intro b'. rewrite F. reflexivity.
Qed.

Lemma runs_app b b' pre k : runs b = pre ++ [k] -> runs (b ++ b') = pre ++ runs_from k b'.
Proof.
  intro E. destruct (runs_from_app b 0) as (pre0 & k0 & E0 & F). unfold runs in *.
  rewrite E in E0. apply app_inj_tail in E0 as [-> ->]. apply F.
Qed.

Definition all_change (ch : list (tag * line)) : bool := forallb (fun tl => negb (is_ctx tl)) ch.

Lemma runs_from_changes ch : forall c, ch <> [] -> all_change ch = true ->
  runs_from c ch = c :: repeat 0 (length ch - 1) ++ [0].
Proof.
  induction ch as [|t ch IH]; intros c Hne Hall; [contradiction|].
  simpl in Hall. apply andb_true_iff in Hall as [Ht Hall].
  simpl. destruct (is_ctx t); [discriminate|].
  destruct ch as [|t' ch]; [reflexivity|].
  rewrite IH by (auto; discriminate). simpl. rewrite Nat.sub_0_r. reflexivity.
Qed.

Lemma all_change_del_add xs ys : all_change (tagged TDel xs ++ tagged TAdd ys) = true.
Proof.
  unfold all_change. rewrite forallb_app. apply andb_true_iff. split.
  - induction xs; simpl; auto.
  - induction ys; simpl; auto.
Qed.

Lemma runs_changes ctext ch pre cur :
  runs ctext = pre ++ [cur] -> ch <> [] -> all_change ch = true ->
  runs (ctext ++ ch) = (pre ++ cur :: repeat 0 (length ch - 1)) ++ [0].
Proof.
  intros E Hne Hall. rewrite (runs_app _ _ _ _ E), runs_from_changes by assumption.
  rewrite <- app_assoc. reflexivity.
Qed.

Lemma runs_ctx ctext l pre cur :
  runs ctext = pre ++ [cur] -> runs (ctext ++ tagged TCtx l) = pre ++ [cur + length l].
Proof. intro E. rewrite (runs_app _ _ _ _ E), runs_from_ctx. reflexivity. Qed.

(* a chunk with one run consists of context lines *)
Lemma runs_single b k : runs b = [k] -> length b = k.
Proof.
  unfold runs. change (length b) with (0 + length b). generalize 0.
  induction b as [|t b IH]; intros c E; simpl in *; [injection E; lia|].
  destruct (is_ctx t).
  - apply IH in E. lia.
  - destruct (runs_from_app b 0) as (pre & k' & E' & _). rewrite E' in E. destruct pre; discriminate.
Qed.

Lemma runs_from_no_change b : forall c, has_change b = false -> runs_from c b = [c + length b].
Proof.
  induction b as [|t b IH]; intros c H; simpl in *.
  - rewrite Nat.add_0_r. reflexivity.
  - apply orb_false_iff in H as [H1 H2]. destruct (is_ctx t); [|discriminate].
    rewrite IH by assumption. f_equal. lia.
Qed.

Lemma runs_has_change b lead inners trail : runs b = lead :: inners ++ [trail] -> has_change b = true.
Proof.
  intro E. destruct (has_change b) eqn:H; [reflexivity|].
  unfold runs in E. rewrite runs_from_no_change in E by assumption.
  destruct inners; discriminate.
Qed.
