(* C08 — tgs is sound: the pairs it returns are in range, strictly increasing in both
   coordinates, and pair a line occurring exactly once in x with its unique occurrence in y.
   In the order of the code: the occurrence-count map, xi / yi / inv, the patience arrays with
   the binary search, the backward reconstruction.  At the end, with [tgs_ok_true], the theorem
   about the main loop (DiffProofs.v) for every pair of line lists. *)
From Coq Require Import List Bool Arith ZArith Lia Sorting.Sorted.
From Coq.Strings Require Import Byte.
From GI Require Import Lib.Bytes Gen.DiffConsts Diff.Diff Diff.DiffSpec Diff.DiffBase Diff.DiffProofs.
Import ListNotations.

Lemma mget_mset m s v s' : mget (mset m s v) s' = if bytes_eqb s s' then Some v else mget m s'.
Proof.
  induction m as [|[k w] m IH]; simpl.
  - reflexivity.
  - destruct (bytes_eqb_spec k s) as [->|N]; simpl.
    + destruct (bytes_eqb s s'); reflexivity.
    + rewrite IH. destruct (bytes_eqb_spec k s') as [->|]; [|reflexivity].
      destruct (bytes_eqb_spec s s'); [congruence | reflexivity].
Qed.

Lemma mget0_mset m s v s' : mget0 (mset m s v) s' = if bytes_eqb s s' then v else mget0 m s'.
Proof. unfold mget0. rewrite mget_mset. destruct (bytes_eqb s s'); reflexivity. Qed.

(* the two counting passes are one update with different numbers: below the threshold [th] an
   entry is no longer touched *)
Definition count_by (th d : Z) (m : smap) (s : line) : smap :=
  let c := mget0 m s in if (th <? c)%Z then mset m s (c - d)%Z else m.
Definition dec_above (th d c : Z) : Z := if (th <? c)%Z then (c - d)%Z else c.

Definition f1 := dec_above (-2) 1.
Definition f4 := dec_above (-8) 4.

Lemma mget0_count_by th d m a s :
  mget0 (count_by th d m a) s = if bytes_eqb a s then dec_above th d (mget0 m s) else mget0 m s.
Proof.
  unfold count_by, dec_above. destruct (bytes_eqb a s) eqn:E.
  - apply bytes_eqb_eq in E. subst a.
    destruct (th <? mget0 m s)%Z; [|reflexivity]. rewrite mget0_mset, bytes_eqb_refl. reflexivity.
  - destruct (th <? mget0 m a)%Z; [|reflexivity]. rewrite mget0_mset, E. reflexivity.
Qed.

Lemma fold_count_by th d l : forall m s,
  mget0 (fold_left (count_by th d) l m) s = Nat.iter (count_line l s) (dec_above th d) (mget0 m s).
Proof.
  induction l as [|a l IH]; intros m s; simpl; [reflexivity|].
  rewrite IH, mget0_count_by. destruct (bytes_eqb a s); simpl; [|reflexivity].
  symmetry. apply (nat_rect_succ_r (dec_above th d)).
Qed.

Lemma iter_f1 n : Nat.iter n f1 0%Z = match n with 0 => 0%Z | 1 => (-1)%Z | _ => (-2)%Z end.
Proof.
  destruct n as [|[|n]]; try reflexivity.
  induction n as [|n IH]; [reflexivity|].
  change (Nat.iter (S (S (S n))) f1 0%Z) with (f1 (Nat.iter (S (S n)) f1 0%Z)). rewrite IH. reflexivity.
Qed.

Lemma iter_f4 k c : (-2 <= c <= 0)%Z ->
  Nat.iter k f4 c = match k with 0 => c | 1 => (c - 4)%Z | _ => (c - 8)%Z end.
Proof.
  intro Hc. destruct k as [|[|k]]; try reflexivity.
  - simpl. unfold f4, dec_above. destruct (Z.ltb_spec (-8) c); lia.
  - induction k as [|k IH].
    + simpl. unfold f4, dec_above. destruct (Z.ltb_spec (-8) c); [|lia].
      destruct (Z.ltb_spec (-8) (c - 4)); lia.
    + change (Nat.iter (S (S (S k))) f4 c) with (f4 (Nat.iter (S (S k)) f4 c)). rewrite IH.
      unfold f4, dec_above. destruct (Z.ltb_spec (-8) (c - 8)); lia.
Qed.

Section Tgs.
Variables x y : list line.

Definition m1 : smap := fold_left count_x x [].
Definition m2 : smap := fold_left count_y y m1.

(* "unique": occurs once in x and once in y *)
Definition Ub (s : line) : bool := (count_line x s =? 1) && (count_line y s =? 1).

Lemma m2_unique s : (mget0 m2 s =? -5)%Z = Ub s.
Proof.
  unfold m2, m1. change count_y with (count_by (-8) 4). change count_x with (count_by (-2) 1).
  rewrite !fold_count_by. fold f1 f4. unfold mget0 at 1. simpl mget.
  rewrite iter_f1. unfold Ub.
  set (n := count_line x s). set (k := count_line y s).
  assert (Hc : forall c, (-2 <= c <= 0)%Z ->
     (Nat.iter k f4 c =? -5)%Z = (c =? -1)%Z && (k =? 1)).
  { intros c Hc. rewrite iter_f4 by assumption.
    destruct k as [|[|k']]; simpl.
    - rewrite andb_false_r. apply Z.eqb_neq. lia.
    - rewrite andb_true_r. destruct (Z.eqb_spec c (-1)).
      + subst. reflexivity.
      + apply Z.eqb_neq. lia.
    - rewrite andb_false_r. apply Z.eqb_neq. lia. }
  destruct n as [|[|n']]; rewrite Hc by lia; reflexivity.
Qed.

Definition negvals (m : smap) : Prop := forall s v, mget m s = Some v -> (v < 0)%Z.

Lemma negvals_mget0 m s : negvals m -> (mget0 m s <= 0)%Z.
Proof. intro H. unfold mget0. destruct (mget m s) eqn:E; [apply H in E|]; lia. Qed.

Lemma negvals_count_by th d : (0 < d)%Z -> forall m a, negvals m -> negvals (count_by th d m a).
Proof.
  intros Hd m a H s v. unfold count_by. pose proof (negvals_mget0 m a H).
  destruct (th <? mget0 m a)%Z; [|apply H].
  rewrite mget_mset. destruct (bytes_eqb a s); [|apply H]. intro E. inversion E. lia.
Qed.

Lemma negvals_fold (f : smap -> line -> smap) l : (forall m a, negvals m -> negvals (f m a)) ->
  forall m, negvals m -> negvals (fold_left f l m).
Proof. intro Hf. induction l; simpl; auto. Qed.

Lemma negvals_m2 : negvals m2.
Proof.
  unfold m2, m1. apply negvals_fold; [apply (negvals_count_by (-8) 4); lia|].
  apply negvals_fold; [apply (negvals_count_by (-2) 1); lia|]. intros s v. discriminate.
Qed.

Definition ub_at (l : list line) (p : nat) : bool :=
  match nth_error l p with Some s => Ub s | None => false end.

Lemma filter_seq_S (f : nat -> bool) i :
  filter f (seq 0 (S i)) = filter f (seq 0 i) ++ (if f i then [i] else []).
Proof. rewrite seq_S, filter_app. simpl. destruct (f i); reflexivity. Qed.

(* state of the loop over y after i lines *)
Definition Gy (i : nat) (m : smap) (yi : list nat) : Prop :=
  yi = filter (ub_at y) (seq 0 i) /\
  (forall s, (forall p, p < i -> nth_error y p = Some s -> Ub s = false) -> mget m s = mget m2 s) /\
  (forall p s, p < i -> nth_error y p = Some s -> Ub s = true ->
     exists j, mget m s = Some (Z.of_nat j) /\ nth_error yi j = Some p).

Lemma Ub_y_unique s p q :
  Ub s = true -> nth_error y p = Some s -> nth_error y q = Some s -> p = q.
Proof.
  intros H. apply andb_true_iff in H as [_ H]. apply Nat.eqb_eq in H.
  apply count_line_unique. assumption.
Qed.

Lemma gather_y_spec : forall ys i m yi,
  (forall k, nth_error ys k = nth_error y (i + k)) -> i + length ys = length y ->
  Gy i m yi -> Gy (length y) (fst (gather_y ys i m yi)) (snd (gather_y ys i m yi)).
Proof.
  induction ys as [|s r IH]; intros i m yi Hn Hl HG; simpl in *.
  - replace (length y) with i by lia. assumption.
  - assert (Hs : nth_error y i = Some s) by (rewrite <- (Nat.add_0_r i), <- Hn; reflexivity).
    assert (Hn' : forall k, nth_error r k = nth_error y (S i + k)).
    { intro k. replace (S i + k) with (i + S k) by lia. rewrite <- Hn. reflexivity. }
    destruct HG as (Gfilter & Gkeep & Gindex).
    (* is there an earlier unique occurrence of s?  No: it would be the same index. *)
    assert (Hearly : forall p, p < i -> nth_error y p = Some s -> Ub s = false).
    { intros p Hp Hy. destruct (Ub s) eqn:EU; [|reflexivity].
      pose proof (Ub_y_unique s p i EU Hy Hs). lia. }
    pose proof (Gkeep s Hearly) as Hm.
    assert (HU : (mget0 m s =? -5)%Z = Ub s).
    { unfold mget0. rewrite Hm. apply m2_unique. }
    destruct (mget0 m s =? -5)%Z eqn:E5.
    + (* s is unique: recorded *)
      symmetry in HU. apply IH; try assumption; try lia.
      split; [|split].
      * rewrite filter_seq_S. unfold ub_at at 2. rewrite Hs, HU, Gfilter. reflexivity.
      * intros s' Hno. rewrite mget_mset.
        destruct (bytes_eqb_spec s s') as [<-|Nss'].
        -- rewrite (Hno i) in HU; [discriminate | lia | assumption].
        -- apply Gkeep. intros p Hp. apply Hno. lia.
      * intros p s' Hp Hy HU'. rewrite mget_mset.
        destruct (bytes_eqb_spec s s') as [<-|Nss'].
        -- assert (p = i) by (eapply Ub_y_unique; eauto). subst p.
           exists (length yi). split; [reflexivity|].
           rewrite nth_error_app2, Nat.sub_diag by lia. reflexivity.
        -- assert (p <> i) by congruence.
           destruct (Gindex p s') as (j & Hj1 & Hj2); try assumption; try lia.
           exists j. split; [assumption|].
           rewrite nth_error_app1; [assumption|]. apply nth_error_Some. congruence.
    + (* not unique *)
      symmetry in HU. apply IH; try assumption; try lia.
      split; [|split].
      * rewrite filter_seq_S. unfold ub_at at 2. rewrite Hs, HU, app_nil_r. assumption.
      * intros s' Hno. apply Gkeep. intros p Hp. apply Hno. lia.
      * intros p s' Hp Hy HU'.
        assert (p <> i) by congruence.
        apply Gindex; try assumption; lia.
Qed.

Definition my := gather_y y 0 m2 [].
Definition m3 := fst my.
Definition yi := snd my.

Lemma Gy_final : Gy (length y) m3 yi.
Proof.
  unfold m3, yi, my. apply gather_y_spec; try reflexivity.
  split; [reflexivity|]. split.
  - intros; reflexivity.
  - intros p s Hp. lia.
Qed.

(* the test of the loop over x is exactly "unique" *)
Lemma m3_test s :
  match mget m3 s with
  | Some j => if (0 <=? j)%Z then
                Ub s = true /\ exists p, nth_error yi (Z.to_nat j) = Some p /\ nth_error y p = Some s
              else Ub s = false
  | None => Ub s = false
  end.
Proof.
  destruct Gy_final as (Gfilter & Gkeep & Gindex).
  destruct (Ub s) eqn:EU.
  - assert (Hc : 1 <= count_line y s).
    { unfold Ub in EU. apply andb_true_iff in EU as [_ EU]. apply Nat.eqb_eq in EU. lia. }
    destruct (count_line_pos y s Hc) as (p & Hp).
    destruct (Gindex p s) as (j & Hj1 & Hj2); try assumption.
    { apply nth_error_Some. congruence. }
    rewrite Hj1. destruct (Z.leb_spec 0 (Z.of_nat j)); [|lia].
    split; [reflexivity|]. exists p. rewrite Nat2Z.id. split; assumption.
  - rewrite (Gkeep s); [|intros; assumption].
    destruct (mget m2 s) as [v|] eqn:Ev; [|reflexivity].
    apply negvals_m2 in Ev. destruct (Z.leb_spec 0 v); [lia | reflexivity].
Qed.

(* state of the loop over x after i lines *)
Definition Gx (i : nat) (xi inv : list nat) : Prop :=
  xi = filter (ub_at x) (seq 0 i) /\ length inv = length xi /\
  (forall t q, nth_error xi t = Some q ->
     exists j p s, nth_error inv t = Some j /\ nth_error yi j = Some p /\
       nth_error x q = Some s /\ nth_error y p = Some s /\ Ub s = true).

Lemma gather_x_spec : forall xs i xi inv,
  (forall k, nth_error xs k = nth_error x (i + k)) -> i + length xs = length x ->
  Gx i xi inv ->
  Gx (length x) (fst (gather_x xs i m3 xi inv)) (snd (gather_x xs i m3 xi inv)).
Proof.
  induction xs as [|s r IH]; intros i xi inv Hn Hl HG; simpl in *.
  - replace (length x) with i by lia. assumption.
  - assert (Hs : nth_error x i = Some s) by (rewrite <- (Nat.add_0_r i), <- Hn; reflexivity).
    assert (Hn' : forall k, nth_error r k = nth_error x (S i + k)).
    { intro k. replace (S i + k) with (i + S k) by lia. rewrite <- Hn. reflexivity. }
    destruct HG as (Gfilter & Glen & Gpairs).
    pose proof (m3_test s) as HT.
    assert (Hskip : Ub s = false -> Gx (S i) xi inv).
    { intro HU. split; [|split; assumption].
      rewrite filter_seq_S. unfold ub_at at 2. rewrite Hs, HU, app_nil_r. assumption. }
    destruct (mget m3 s) as [j|]; [|apply IH; auto; lia].
    destruct (0 <=? j)%Z; [|apply IH; auto; lia].
    destruct HT as (HU & p & Hp1 & Hp2).
    apply IH; try assumption; try lia.
    split; [|split].
    + rewrite filter_seq_S. unfold ub_at at 2. rewrite Hs, HU, Gfilter. reflexivity.
    + rewrite !app_length. simpl. lia.
    + intros t q Ht.
      destruct (Nat.lt_ge_cases t (length xi)) as [Hlt | Hge].
      * rewrite nth_error_app1 in Ht by assumption.
        destruct (Gpairs t q Ht) as (j' & p' & s' & A1 & A2 & A3 & A4 & A5).
        exists j', p', s'. repeat split; try assumption.
        rewrite nth_error_app1; [assumption|]. apply nth_error_Some. congruence.
      * rewrite nth_error_app2 in Ht by assumption.
        destruct (t - length xi) as [|d] eqn:Ed; [|destruct d; discriminate].
        simpl in Ht. inversion Ht; subst q.
        assert (t = length xi) by lia. subst t.
        exists (Z.to_nat j), p, s. repeat split; try assumption.
        rewrite nth_error_app2, Glen, Nat.sub_diag by lia. reflexivity.
Qed.

Definition xv := gather_x x 0 m3 [] [].
Definition xi := fst xv.
Definition J := snd xv.

Lemma Gx_final : Gx (length x) xi J.
Proof.
  unfold xi, J, xv. apply gather_x_spec; try reflexivity.
  split; [reflexivity|]. split; [reflexivity|]. intros [|t] q Hq; discriminate.
Qed.

Definition n := length xi.

Lemma J_length : length J = n.
Proof. destruct Gx_final as (_ & H & _). exact H. Qed.

Lemma filter_seq_sorted (f : nat -> bool) k : forall a, StronglySorted lt (filter f (seq a k)).
Proof.
  induction k as [|k IH]; intro a; simpl; [constructor|].
  assert (Hall : Forall (lt a) (filter f (seq (S a) k))).
  { apply Forall_forall. intros b Hb. apply filter_In in Hb as [Hb _]. apply in_seq in Hb. lia. }
  destruct (f a); [constructor|]; auto.
Qed.

Lemma sorted_nth l : StronglySorted lt l ->
  forall i j, i < j -> j < length l -> nth i l 0 < nth j l 0.
Proof.
  induction 1 as [|a l Hs IH Hf]; intros i j Hij Hj; simpl in *; [lia|].
  destruct j as [|j]; [lia|]. destruct i as [|i].
  - rewrite Forall_forall in Hf. apply Hf. apply nth_In. lia.
  - apply IH; lia.
Qed.

Lemma tri t : t < n ->
  exists s, nth t J 0 < length yi /\
    nth_error x (nth t xi 0) = Some s /\ nth_error y (nth (nth t J 0) yi 0) = Some s /\ Ub s = true.
Proof.
  intro Ht. destruct Gx_final as (_ & _ & Gpairs).
  destruct (Gpairs t (nth t xi 0)) as (j & p & s & A1 & A2 & A3 & A4 & A5).
  { apply nth_error_nth'. exact Ht. }
  exists s. rewrite (nth_error_nth _ _ 0 A1), (nth_error_nth _ _ 0 A2).
  repeat split; try assumption. apply nth_error_Some. congruence.
Qed.

Lemma NoDup_map_on {A B} (f : A -> B) l :
  NoDup l -> (forall a b, In a l -> In b l -> f a = f b -> a = b) -> NoDup (map f l).
Proof.
  induction 1 as [|a l Hn Hd IH]; intro Hinj; simpl; constructor.
  - intro Hin. apply in_map_iff in Hin as (b & Hb1 & Hb2).
    assert (b = a) by (apply Hinj; simpl; auto). subst. contradiction.
  - apply IH. intros; apply Hinj; simpl; auto.
Qed.

Lemma in_index_filter (l : list line) p :
  In p (filter (ub_at l) (seq 0 (length l))) <->
  exists s, nth_error l p = Some s /\ Ub s = true.
Proof.
  rewrite filter_In, in_seq. unfold ub_at. split.
  - intros [H1 H2]. destruct (nth_error l p) as [s|]; [|discriminate]. eauto.
  - intros (s & H1 & H2). rewrite H1. split; [|assumption].
    assert (p < length l) by (apply nth_error_Some; congruence). lia.
Qed.

Lemma yi_le_n : length yi <= n.
Proof.
  unfold n.
  rewrite <- (map_length (fun p => nth p y []) yi), <- (map_length (fun q => nth q x []) xi).
  destruct Gy_final as (Ey & _). destruct Gx_final as (Ex & _).
  apply NoDup_incl_length.
  - apply NoDup_map_on.
    + rewrite Ey. apply NoDup_filter, seq_NoDup.
    + intros a b Ha Hb E. rewrite Ey in Ha, Hb.
      apply in_index_filter in Ha as (sa & Ha1 & Ha2). apply in_index_filter in Hb as (sb & Hb1 & Hb2).
      cbv beta in E.
      assert (sa = sb).
      { rewrite <- (nth_error_nth _ _ [] Ha1), <- (nth_error_nth _ _ [] Hb1). exact E. }
      subst sb.
      eapply Ub_y_unique; eauto.
  - intros s Hs. apply in_map_iff in Hs as (p & Hp1 & Hp2). rewrite Ey in Hp2.
    apply in_index_filter in Hp2 as (s' & Hs1 & Hs2).
    cbv beta in Hp1.
    assert (s' = s) by (rewrite <- (nth_error_nth _ _ [] Hs1); exact Hp1).
    subst s'.
    assert (Hc : 1 <= count_line x s).
    { unfold Ub in Hs2. apply andb_true_iff in Hs2 as [Hs2 _]. apply Nat.eqb_eq in Hs2. lia. }
    destruct (count_line_pos x s Hc) as (q & Hq).
    apply in_map_iff. exists q. split; [apply (nth_error_nth _ _ [] Hq)|].
    rewrite Ex. apply in_index_filter. eauto.
Qed.

Lemma J_lt_n t : t < n -> nth t J 0 < n.
Proof. intro Ht. destruct (tri t Ht) as (s & H & _). pose proof yi_le_n. lia. Qed.

(* the pair a slot of the result holds *)
Definition anchor_pair (t : nat) : nat * nat := (nth t xi 0, nth (nth t J 0) yi 0).

Lemma anchor_pair_ok t : t < n -> anchor_ok x y (anchor_pair t) = true.
Proof.
  intro Ht. destruct (tri t Ht) as (s & _ & A1 & A2 & A3).
  unfold anchor_ok, anchor_pair. simpl. rewrite A1, A2, bytes_eqb_refl. exact A3.
Qed.

Lemma anchor_pair_lt t t' : t < t' -> t' < n -> nth t J 0 < nth t' J 0 ->
  fst (anchor_pair t) < fst (anchor_pair t') /\ snd (anchor_pair t) < snd (anchor_pair t').
Proof.
  intros H1 H2 H3. unfold anchor_pair. simpl. split.
  - apply sorted_nth; try assumption. destruct Gx_final as (-> & _). apply filter_seq_sorted.
  - apply sorted_nth; [destruct Gy_final as (-> & _); apply filter_seq_sorted | assumption |].
    destruct (tri t' H2) as (s & H & _). exact H.
Qed.

End Tgs.

Lemma div2_mid lo hi : lo < hi -> lo <= Nat.div2 (lo + hi) /\ Nat.div2 (lo + hi) < hi.
Proof.
  intro H. rewrite Nat.div2_div. split.
  - apply Nat.div_le_lower_bound; lia.
  - apply Nat.div_lt_upper_bound; lia.
Qed.

(* sort.Search on a monotone predicate returns the least index satisfying it (or the bound) *)
Lemma search_loop_spec (m : nat) (f : nat -> res bool) (p : nat -> bool) :
  (forall k, k < m -> f k = Ok (p k)) ->
  (forall k k', k <= k' -> k' < m -> p k = true -> p k' = true) ->
  forall fuel lo hi, hi <= m -> lo <= hi -> hi - lo <= fuel ->
    (forall k, k < lo -> p k = false) -> (forall k, hi <= k -> k < m -> p k = true) ->
    exists r, search_loop fuel f lo hi = Ok r /\ lo <= r /\ r <= hi /\
      (forall k, k < r -> p k = false) /\ (forall k, r <= k -> k < m -> p k = true).
Proof.
  intros Hf Hmono. induction fuel as [|fu IH]; intros lo hi H1 H2 H3 H4 H5.
  - assert (lo = hi) by lia. subst. simpl. rewrite Nat.ltb_irrefl.
    exists hi. repeat split; auto.
  - simpl. destruct (Nat.ltb_spec lo hi) as [Hlt | Hge].
    + destruct (div2_mid lo hi Hlt) as [M1 M2]. set (h := Nat.div2 (lo + hi)) in *.
      rewrite Hf by lia. simpl. destruct (p h) eqn:Ep; simpl.
      * destruct (IH lo h) as (r & Er & R1 & R2 & R3 & R4); try lia; try assumption.
        { intros k Hk Hkm. apply (Hmono h k); assumption. }
        exists r. repeat split; try assumption; lia.
      * destruct (IH (h + 1) hi) as (r & Er & R1 & R2 & R3 & R4); try lia; try assumption.
        { intros k Hk. destruct (p k) eqn:Epk; [|reflexivity].
          rewrite (Hmono k h) in Ep; [discriminate | lia | lia | assumption]. }
        exists r. repeat split; try assumption; lia.
    + assert (lo = hi) by lia. subst. exists hi. repeat split; auto.
Qed.

Lemma nth_repeat_lt {A} (a d : A) m l : l < m -> nth l (repeat a m) d = a.
Proof. revert l. induction m as [|m IH]; intros [|l] H; simpl; try lia; auto. apply IH. lia. Qed.

(* an index of level >= 2 has, as its latest predecessor of the level below, one with a smaller J-value *)
Definition has_pred (J L : list nat) (t : nat) : Prop :=
  2 <= nth t L 0 -> exists t', t' < t /\ nth t' L 0 = nth t L 0 - 1 /\ nth t' J 0 < nth t J 0 /\
    forall t'', t' < t'' -> t'' < t -> nth t'' L 0 <> nth t L 0 - 1.

Section Patience.
Variable n : nat.
Variable J : list nat.
Hypothesis J_len : length J = n.
Hypothesis J_lt : forall t, t < n -> nth t J 0 < n.

(* after the first i elements: f levels are in use; T is strictly increasing on its first f
   entries and n+1 beyond; T[l] is the J-value of the latest index of level l+1 *)
Definition PI (i f : nat) (T L : list nat) : Prop :=
  length T = n /\ length L = n /\ f <= i /\
  (forall l l', l < l' -> l' < f -> nth l T 0 < nth l' T 0) /\
  (forall l, f <= l -> l < n -> nth l T 0 = n + 1) /\
  (forall l, l < f -> exists t, t < i /\ nth t L 0 = l + 1 /\ nth l T 0 = nth t J 0 /\
       forall t', t < t' -> t' < i -> nth t' L 0 <> l + 1) /\
  (forall t, t < i -> 1 <= nth t L 0) /\
  (forall t, t < i -> has_pred J L t).

(* the search finds the first level whose latest J-value is not below J[i]; the levels in use
   hold J-values (< n), the others n+1, so the test is monotone *)
Lemma patience_search i f T L : PI i f T L -> i < n ->
  exists r, sort_search n (fun k => do tk <- idx T k; Ok (nth i J 0 <=? tk)) = Ok r /\ r <= f /\
    (forall l, l < r -> nth l T 0 < nth i J 0) /\ (r < f -> nth i J 0 <= nth r T 0).
Proof.
  intros (PT & PL & Pf & Pinc & Pinf & Plat & _) Hi.
  set (ji := nth i J 0). assert (Hji : ji < n) by (apply J_lt; assumption).
  set (p := fun k => ji <=? nth k T 0).
  assert (Hmono : forall k k', k <= k' -> k' < n -> p k = true -> p k' = true).
  { unfold p. intros k k' Hk Hk' Hp. apply Nat.leb_le in Hp. apply Nat.leb_le.
    destruct (Nat.eq_dec k k'); [subst; assumption|].
    destruct (Nat.lt_ge_cases k' f).
    - specialize (Pinc k k' ltac:(lia) ltac:(lia)). lia.
    - rewrite (Pinf k') by lia. lia. }
  destruct (search_loop_spec n (fun k => do tk <- idx T k; Ok (ji <=? tk)) p) with (fuel := n) (lo := 0) (hi := n)
    as (r & Er & _ & _ & R3 & R4); try lia; try assumption.
  { intros k Hk. rewrite (idx_ok T k 0) by lia. reflexivity. }
  exists r. split; [exact Er|]. unfold p in R3, R4. split; [|split].
  - destruct (Nat.le_gt_cases r f); [assumption|exfalso].
    specialize (R3 f ltac:(lia)). rewrite (Pinf f) in R3 by lia. apply Nat.leb_gt in R3. lia.
  - intros l Hl. apply Nat.leb_gt, R3, Hl.
  - intro Hr. apply Nat.leb_le, R4; lia.
Qed.

Lemma patience_step i f T L : PI i f T L -> i < n ->
  exists k T' L' f',
    sort_search n (fun k => do tk <- idx T k; Ok (nth i J 0 <=? tk)) = Ok k /\
    upd T k (nth i J 0) = Ok T' /\ upd L i (k + 1) = Ok L' /\ PI (S i) f' T' L'.
Proof.
  intros HP Hi. destruct (patience_search i f T L HP Hi) as (r & Er & Hrf & A & B).
  destruct HP as (PT & PL & Pf & Pinc & Pinf & Plat & Plev & Ppred). set (ji := nth i J 0) in *.
  destruct (upd_ok T r ji) as (T' & ET & HTl & HTeq & HTne); [lia|].
  destruct (upd_ok L i (r + 1)) as (L' & EL & HLl & HLeq & HLne); [lia|].
  specialize (HTeq 0). specialize (HLeq 0).
  exists r, T', L', (if r =? f then S f else f).
  split; [exact Er|]. split; [exact ET|]. split; [exact EL|].
  assert (Hf' : (r = f /\ (if r =? f then S f else f) = S f) \/ (r < f /\ (if r =? f then S f else f) = f)).
  { destruct (Nat.eqb_spec r f); [left | right]; split; auto; lia. }
  set (f' := if r =? f then S f else f) in *. clearbody f'.
  unfold PI. split; [lia|]. split; [lia|]. split; [lia|].
  split; [|split; [|split; [|split]]].
  - (* strictly increasing *)
    intros l l' Hll' Hl'.
    destruct (Nat.eq_dec l r) as [-> | Hlr], (Nat.eq_dec l' r) as [-> | Hl'r].
    + lia.
    + rewrite HTeq, (HTne l') by assumption.
      destruct Hf' as [[E1 E2] | [E1 E2]]; [lia|].
      specialize (Pinc r l' ltac:(lia) ltac:(lia)). specialize (B E1). lia.
    + rewrite HTeq, (HTne l) by assumption. apply A. lia.
    + rewrite (HTne l), (HTne l') by assumption. apply Pinc; lia.
  - intros l Hl Hln. rewrite HTne by lia. apply Pinf; lia.
  - (* latest index of each level *)
    intros l Hl. destruct (Nat.eq_dec l r) as [-> | Hlr].
    + exists i. split; [lia|]. split; [exact HLeq|]. split; [exact HTeq|]. intros; lia.
    + destruct (Plat l) as (t & Ht & E1 & E2 & E3); [lia|].
      exists t. split; [lia|]. rewrite HLne, HTne by lia. split; [assumption|]. split; [assumption|].
      intros t' H1 H2. destruct (Nat.eq_dec t' i) as [-> | Hne].
      * rewrite HLeq. lia.
      * rewrite HLne by assumption. apply E3; lia.
  - intros t Ht. destruct (Nat.eq_dec t i) as [-> | Hne].
    + rewrite HLeq. lia.
    + rewrite HLne by assumption. apply Plev. lia.
  - (* predecessors *)
    intros t Ht H2. destruct (Nat.eq_dec t i) as [-> | Hne].
    + rewrite HLeq in *.
      destruct (Plat (r - 1)) as (t' & Ht' & E1 & E2 & E3); [lia|].
      exists t'. split; [lia|]. rewrite HLne by lia. split; [lia|]. split.
      * rewrite <- E2. apply A. lia.
      * intros t'' H3 H4. rewrite HLne by lia. specialize (E3 t'' H3 H4). lia.
    + rewrite HLne in * by assumption.
      destruct (Ppred t) as (t' & Ht' & E1 & E2 & E3); [lia | assumption |].
      exists t'. split; [assumption|]. rewrite HLne by lia. split; [assumption|]. split; [assumption|].
      intros t'' H3 H4. rewrite HLne by lia. apply E3; assumption.
Qed.

Lemma patience_run : forall k i f T L, i + k = n -> PI i f T L ->
  exists T' L' f', patience (seq i k) n J T L = Ok (T', L') /\ PI n f' T' L'.
Proof.
  induction k as [|k IH]; intros i f T L Hik HP; simpl.
  - replace n with i by lia. eauto.
  - rewrite (idx_ok J i 0) by lia. simpl.
    destruct (patience_step i f T L HP) as (r & T' & L' & f' & Es & ET & EL & HP'); [lia|].
    rewrite Es. simpl. rewrite ET. simpl. rewrite EL. simpl.
    apply (IH (S i) f'); [lia | assumption].
Qed.

Lemma PI_init : PI 0 0 (repeat (n + 1) n) (repeat 0 n).
Proof.
  unfold PI. rewrite !repeat_length.
  split; [reflexivity|]. split; [reflexivity|]. split; [lia|].
  split; [intros; lia|]. split; [intros; apply nth_repeat_lt; assumption|].
  split; [intros; lia|]. split; intros; lia.
Qed.

End Patience.

Lemma max_level_fold L : forall k0,
  k0 <= fold_left (fun k v => if k <? v then v else k) L k0 /\
  (forall v, In v L -> v <= fold_left (fun k v => if k <? v then v else k) L k0) /\
  (fold_left (fun k v => if k <? v then v else k) L k0 = k0 \/
   In (fold_left (fun k v => if k <? v then v else k) L k0) L).
Proof.
  induction L as [|a L IH]; intro k0; simpl.
  - split; [lia|]. split; [intros v []|]. left. reflexivity.
  - destruct (IH (if k0 <? a then a else k0)) as (H1 & H2 & H3).
    set (M := fold_left (fun k v => if k <? v then v else k) L (if k0 <? a then a else k0)) in *.
    destruct (Nat.ltb_spec k0 a).
    + split; [lia|]. split.
      * intros v [<- | Hv]; [lia | apply H2; assumption].
      * destruct H3 as [H3 | H3]; right; [left; congruence | right; assumption].
    + split; [lia|]. split.
      * intros v [<- | Hv]; [lia | apply H2; assumption].
      * destruct H3 as [H3 | H3]; [left; assumption | right; right; assumption].
Qed.

Lemma max_level_ge L t : t < length L -> nth t L 0 <= max_level L.
Proof. intro H. apply (max_level_fold L 0). apply nth_In. assumption. Qed.

Lemma max_level_attained L : max_level L = 0 \/ exists t, t < length L /\ nth t L 0 = max_level L.
Proof.
  destruct (max_level_fold L 0) as (_ & _ & [H | H]); [left; exact H|].
  right. destruct (In_nth _ _ 0 H) as (t & Ht & E). eauto.
Qed.


Section Backward.
Variable n : nat.
Variables J L xi yi : list nat.
Variable e : nat * nat.
Hypothesis J_len : length J = n.
Hypothesis L_len : length L = n.
Hypothesis xi_len : length xi = n.
Hypothesis J_lt : forall t, t < n -> nth t J 0 < n.
Hypothesis Jy : forall t, t < n -> nth t J 0 < length yi.
Hypothesis Lv : forall t, t < n -> 1 <= nth t L 0.
Hypothesis PP : forall t, t < n -> has_pred J L t.

Definition slot_pair (t : nat) : nat * nat := (nth t xi 0, nth (nth t J 0) yi 0).
Hypothesis slot_pair_lt : forall t t', t < t' -> t' < n -> nth t J 0 < nth t' J 0 -> lt2 (slot_pair t) (slot_pair t').

Definition top_level := max_level L.
Definition pair0 : nat * nat := (0, 0).

(* indices i-1 .. 0 are still to be scanned; slots k+1 .. top_level are filled *)
Definition BI (i k : nat) (sq : list (nat * nat)) : Prop :=
  length sq = top_level + 2 /\ k <= top_level /\
  (forall l, k < l -> l <= top_level -> exists t, t < n /\ nth l sq pair0 = slot_pair t) /\
  (forall l, k < l -> l < top_level -> lt2 (nth l sq pair0) (nth (S l) sq pair0)) /\
  nth (top_level + 1) sq pair0 = e /\
  (k < top_level -> exists t, i <= t /\ t < n /\ nth t L 0 = k + 1 /\ nth (k + 1) sq pair0 = slot_pair t /\
            forall t', i <= t' -> t' < t -> nth t' L 0 <> k) /\
  (k = top_level -> forall t, i <= t -> t < n -> nth t L 0 <> top_level).

Lemma rev_seq_S i : rev (seq 0 (S i)) = i :: rev (seq 0 i).
Proof. rewrite seq_S, rev_app_distr. reflexivity. Qed.

Lemma backward_run : forall i k sq, i <= n -> BI i k sq ->
  exists sq' k', backward (rev (seq 0 i)) k n J L xi yi sq = Ok sq' /\ BI 0 k' sq'.
Proof.
  induction i as [|i IH]; intros k sq Hi HB.
  - simpl. eauto.
  - rewrite rev_seq_S. simpl.
    destruct HB as (Blen & Bk & Bfilled & Binc & Bend & Bnext & Bnone).
    rewrite (idx_ok L i 0) by lia. simpl.
    destruct (Nat.eqb_spec (nth i L 0) k) as [Ek | Nk].
    + (* slot k is filled with the pair of index i *)
      pose proof (Lv i ltac:(lia)) as Hk1.
      rewrite (idx_ok J i 0) by lia. simpl.
      destruct (Nat.ltb_spec (nth i J 0) n) as [_ | Hbad]; [|specialize (J_lt i ltac:(lia)); lia].
      rewrite (idx_ok xi i 0) by lia. simpl.
      rewrite (idx_ok yi (nth i J 0) 0) by (apply Jy; lia). simpl.
      destruct (upd_ok sq k (nth i xi 0, nth (nth i J 0) yi 0)) as (sq' & Eu & Hl' & Heq & Hne); [lia|].
      specialize (Heq pair0). fold (slot_pair i) in Heq.
      rewrite Eu. simpl.
      apply IH; [lia|].
      unfold BI. split; [lia|]. split; [lia|].
      split; [|split; [|split; [|split]]].
      * intros l H1 H2. destruct (Nat.eq_dec l k) as [-> | Hlk].
        -- exists i. split; [lia | exact Heq].
        -- rewrite Hne by assumption. apply Bfilled; lia.
      * intros l H1 H2. destruct (Nat.eq_dec l k) as [-> | Hlk].
        -- rewrite Heq, Hne by lia.
           destruct Bnext as (t & T1 & T2 & T3 & T4 & T5); [lia|].
           replace (k + 1) with (S k) in T4 by lia. rewrite T4.
           destruct (PP t T2 ltac:(lia)) as (t' & P1 & P2 & P3 & P4).
           assert (t' = i).
           { destruct (Nat.lt_trichotomy t' i) as [Hlt | [Heq' | Hgt]]; [exfalso | assumption | exfalso].
             - apply (P4 i); lia.
             - apply (T5 t'); lia. }
           subst t'. apply slot_pair_lt; assumption.
        -- rewrite !Hne by lia. apply Binc; lia.
      * rewrite Hne by lia. assumption.
      * intros _. exists i. split; [lia|]. split; [lia|]. split; [lia|].
        replace (Nat.pred k + 1) with k by lia. split; [exact Heq|]. intros; lia.
      * intros; lia.
    + apply IH; [lia|].
      unfold BI. split; [assumption|]. split; [assumption|]. split; [assumption|].
      split; [assumption|]. split; [assumption|]. split.
      * intro Hk. destruct (Bnext Hk) as (t & T1 & T2 & T3 & T4 & T5).
        exists t. split; [lia|]. split; [assumption|]. split; [assumption|]. split; [assumption|].
        intros t' H1 H2. destruct (Nat.eq_dec t' i) as [-> | Hne]; [assumption|]. apply T5; lia.
      * intros Hk t H1 H2. destruct (Nat.eq_dec t i) as [-> | Hne]; [congruence|]. apply Bnone; auto; lia.
Qed.

Lemma BI_final k sq : BI 0 k sq -> k = 0.
Proof.
  intros (Blen & Bk & Bfilled & Binc & Bend & Bnext & Bnone).
  destruct k as [|k]; [reflexivity | exfalso].
  destruct (Nat.eq_dec (S k) top_level) as [E | N].
  - destruct (max_level_attained L) as [Z | (t & Ht & Et)]; fold top_level in *; [lia|].
    apply (Bnone E t); lia.
  - destruct Bnext as (t & T1 & T2 & T3 & T4 & T5); [lia|].
    destruct (PP t T2 ltac:(lia)) as (t' & P1 & P2 & P3 & P4).
    apply (T5 t'); lia.
Qed.

Lemma reconstruct_ok :
  exists ms,
    (do sq <- upd (repeat pair0 (2 + top_level)) (1 + top_level) e;
     do sq <- backward (rev (seq 0 n)) top_level n J L xi yi sq;
     upd sq 0 pair0) = Ok ms /\
    length ms = top_level + 2 /\ nth 0 ms pair0 = pair0 /\ nth (top_level + 1) ms pair0 = e /\
    (forall l, 1 <= l -> l <= top_level -> exists t, t < n /\ nth l ms pair0 = slot_pair t) /\
    (forall l, 1 <= l -> l < top_level -> lt2 (nth l ms pair0) (nth (S l) ms pair0)).
Proof.
  destruct (upd_ok (repeat pair0 (2 + top_level)) (1 + top_level) e) as (sq1 & E1 & Hl1 & Hn1 & _).
  { rewrite repeat_length. lia. }
  rewrite repeat_length in Hl1.
  rewrite E1. simpl.
  destruct (backward_run n top_level sq1) as (sq2 & k' & E2 & HB); [lia| |].
  { unfold BI. split; [lia|]. split; [lia|]. split; [intros; lia|]. split; [intros; lia|].
    split; [|split; intros; lia].
    rewrite Nat.add_comm. apply Hn1. }
  rewrite E2. simpl.
  pose proof (BI_final k' sq2 HB). subst k'.
  destruct HB as (Blen & Bk & Bfilled & Binc & Bend & _).
  destruct (upd_ok sq2 0 pair0) as (ms & E3 & Hl3 & Heq & Hne); [lia|].
  exists ms. split; [exact E3|]. split; [lia|]. split; [apply Heq|].
  split; [rewrite Hne by lia; exact Bend|].
  split; intros l H1 H2; rewrite !Hne by lia; [apply Bfilled | apply Binc]; lia.
Qed.

End Backward.

Lemma tgs_unfold x y :
  tgs x y =
  (do TL <- patience (seq 0 (n x y)) (n x y) (J x y) (repeat (n x y + 1) (n x y)) (repeat 0 (n x y));
   do sq <- upd (repeat (0, 0) (2 + max_level (snd TL))) (1 + max_level (snd TL)) (length x, length y);
   do sq <- backward (rev (seq 0 (n x y))) (max_level (snd TL)) (n x y) (J x y) (snd TL) (xi x y) (yi x y) sq;
   upd sq 0 (0, 0)).
Proof. reflexivity. Qed.

Lemma increasing_nth (l : list (nat * nat)) :
  (forall i, S i < length l -> lt2 (nth i l (0, 0)) (nth (S i) l (0, 0))) -> increasing l = true.
Proof.
  induction l as [|p l IH]; intro H; [reflexivity|].
  destruct l as [|q l]; [reflexivity|].
  change (increasing (p :: q :: l)) with ((fst p <? fst q) && (snd p <? snd q) && increasing (q :: l)).
  destruct (H 0) as [H1 H2]; [simpl; lia|]. simpl in H1, H2.
  apply Nat.ltb_lt in H1, H2. rewrite H1, H2. simpl. apply IH.
  intros i Hi. apply (H (S i)). simpl in *. lia.
Qed.

(* the patience pass of tgs succeeds and gives every index a level >= 1 *)
Lemma patience_tgs x y : exists T L,
  patience (seq 0 (n x y)) (n x y) (J x y) (repeat (n x y + 1) (n x y)) (repeat 0 (n x y)) = Ok (T, L) /\
  length L = n x y /\ (forall t, t < n x y -> 1 <= nth t L 0) /\ (forall t, t < n x y -> has_pred (J x y) L t).
Proof.
  destruct (patience_run (n x y) (J x y) (J_length x y) (J_lt_n x y) (n x y) 0 0
              (repeat (n x y + 1) (n x y)) (repeat 0 (n x y))) as (T & L & f & EP & HP).
  { reflexivity. } { apply PI_init; try apply J_length; try apply J_lt_n. }
  exists T, L. split; [exact EP|]. destruct HP as (_ & PL & _ & _ & _ & _ & Plev & Ppred). auto.
Qed.

(* tgs returns the two sentinels around pairs that are in range, strictly increasing in both
   coordinates, and pair a line occurring exactly once in x with its unique occurrence in y *)
Theorem tgs_matches_ok x y : exists ms, tgs x y = Ok ms /\ matches_ok x y ms.
Proof.
  rewrite tgs_unfold.
  destruct (patience_tgs x y) as (T & L & EP & PL & Plev & Ppred). rewrite EP. cbn [bind snd].
  destruct (reconstruct_ok (n x y) (J x y) L (xi x y) (yi x y) (length x, length y))
    as (ms & E & Hlen & H0 & Hend & Hin & Hinc).
  - apply J_length.
  - exact PL.
  - reflexivity.
  - apply J_lt_n.
  - intros t Ht. destruct (tri x y t Ht) as (s & H & _). exact H.
  - intros t Ht. apply Plev. assumption.
  - exact Ppred.
  - intros t t' H1 H2 H3. apply (anchor_pair_lt x y t t'); assumption.
  - unfold pair0, top_level in *. rewrite E. exists ms. split; [reflexivity|]. set (k := max_level L) in *.
    (* the array as a list: the start sentinel, k inner pairs, the end sentinel *)
    destruct ms as [|a ms']; [simpl in Hlen; lia|]. simpl in H0, Hlen. subst a.
    destruct (exists_last (l := ms')) as (inner & z & ->); [intros ->; simpl in Hlen; lia|].
    rewrite app_length in Hlen. simpl in Hlen. assert (Hk : length inner = k) by lia.
    replace (k + 1) with (S k) in Hend by lia. cbn [nth] in Hend.
    rewrite app_nth2, Hk, Nat.sub_diag in Hend by lia. cbn [nth] in Hend. subst z.
    exists inner. split; [reflexivity|]. split.
    + apply Forall_nth. intros i d Hi. destruct (Hin (S i)) as (t & Ht & Et); try lia.
      cbn [nth] in Et. rewrite app_nth1 in Et by lia.
      rewrite (nth_indep _ d (0, 0) Hi), Et. apply (anchor_pair_ok x y). assumption.
    + apply increasing_nth. intros i Hi. specialize (Hinc (S i) ltac:(lia) ltac:(lia)).
      cbn [nth] in Hinc. rewrite !app_nth1 in Hinc by lia. exact Hinc.
Qed.

Theorem tgs_ok_true x y : tgs_ok x y = true.
Proof.
  destruct (tgs_matches_ok x y) as (ms & E & H). unfold tgs_ok. rewrite E.
  apply tgs_ok_list_matches_ok. assumption.
Qed.

Theorem diff_hunks_rel x y :
  exists hs, diff_hunks x y = Ok hs /\ hunks_rel 0 0 x y hs /\ Forall (hunk_ctx_ok x y) hs.
Proof. apply diff_hunks_rel_partial, tgs_ok_true. Qed.

Corollary diff_hunks_spec x y hs :
  diff_hunks x y = Ok hs -> hunks_rel 0 0 x y hs /\ Forall (hunk_ctx_ok x y) hs.
Proof. intro E. destruct (diff_hunks_rel x y) as (hs' & E' & H). rewrite E in E'. injection E' as <-. exact H. Qed.
