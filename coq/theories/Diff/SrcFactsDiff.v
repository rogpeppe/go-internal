(* The generated [src_Diff] of Gen/DiffSrc.v (diff/diff.go: Diff) returns [Ok] of exactly
   the bytes the hand-written model [diff] (Diff/Diff.v) computes, for every input and every
   iteration bound [fuel >= length old + 1].

   The model keeps the chunk as tagged lines and renders the hunks at the end; the Go code keeps
   the prefixed lines ([enc]) and writes each chunk into a bytes.Buffer as it is completed.  The
   main lemma [src_Diff_loop1_sim] runs the two in lock step: whenever the model's loop returns
   the hunks hs from a state, the translated loop from the image of that state ends normally
   with the buffer extended by the rendering of hs.  That the model's loop does return is
   [diff_no_panic] (Diff/DiffFacts.v).

   The proofs do not mention generated hypothesis or bound-variable names. *)
From Coq Require Import List Bool Arith ZArith Lia ZifyBool.
From Coq.Strings Require Import Byte.
From GI Require Import Lib.Bytes Gen.DiffConsts Diff.Diff Diff.DiffSpec Diff.DiffBase Diff.DiffProofs
  Diff.TgsProofs Diff.DiffFacts Diff.SrcLib Lib.GoSemExtFacts Lib.GoSemDataFacts Gen.DiffSrc Diff.SrcFacts.
From GI Require Import Lib.GoSem Lib.GoSemExt Lib.GoSemData.
Import ListNotations.

(* the chunk lines as the Go code keeps them: the tag byte in front of the line *)
Definition enc (b : list (tag * line)) : list bytes := map (fun tl => tag_byte (fst tl) :: snd tl) b.

Lemma enc_app a b : enc (a ++ b) = enc a ++ enc b.
Proof. apply map_app. Qed.

Lemma enc_tagged t l : enc (tagged t l) = map (fun s => tag_byte t :: s) l.
Proof. unfold enc, tagged. rewrite map_map. reflexivity. Qed.

Lemma len_of_enc b : (len_of (enc b) >? 0)%Z = nonempty b.
Proof. rewrite len_of_pos_iff. now destruct b. Qed.

Lemma zadd_len {A} a (l : list A) : (Z.of_nat a + len_of l)%Z = Z.of_nat (a + length l).
Proof. unfold len_of. lia. Qed.

Lemma Zltb_nat a b : (Z.of_nat a <? Z.of_nat b)%Z = (a <? b).
Proof. lia. Qed.
Lemma Zgtb_nat a b : (Z.of_nat a >? Z.of_nat b)%Z = (b <? a).
Proof. lia. Qed.
Lemma Zgeb_nat a b : (Z.of_nat a >=? Z.of_nat b)%Z = (b <=? a).
Proof. lia. Qed.
Lemma Zltb_len {A} a (l : list A) : (Z.of_nat a <? len_of l)%Z = (a <? length l).
Proof. apply Zltb_nat. Qed.
Lemma Zgeb_len {A} a (l : list A) : (Z.of_nat a >=? len_of l)%Z = (length l <=? a).
Proof. apply Zgeb_nat. Qed.
Lemma Zgtb_nat0 a : (Z.of_nat a >? 0)%Z = (0 <? a).
Proof. apply (Zgtb_nat a 0). Qed.
Lemma Zsucc_nat a : (Z.of_nat a + 1)%Z = Z.of_nat (S a).
Proof. lia. Qed.
Lemma go_slice_of_00 {A} (l : list A) : go_slice_of l 0 0 = Ok [].
Proof. apply (go_slice_of_nat l 0 0). Qed.

(* for _, s := range l { ctext = append(ctext, "-"+s); count.x++ } *)
Lemma src_Diff_loop4_eq (L : Type) fuel l : forall cx cy ct,
  @src_Diff_loop4 L fuel l (Z.of_nat cx, Z.of_nat cy) ct =
  Ok (Normal ((Z.of_nat (cx + length l), Z.of_nat cy), ct ++ map (fun s => tag_byte TDel :: s) l)).
Proof.
  induction l as [|s l IH]; intros cx cy ct; cbn [src_Diff_loop4 length map].
  - now rewrite Nat.add_0_r, app_nil_r.
  - diff_red. rewrite Zsucc_nat, IH, <- app_assoc. cbn [app]. do 4 f_equal. lia.
Qed.

(* for _, s := range l { ctext = append(ctext, "+"+s); count.y++ } *)
Lemma src_Diff_loop5_eq (L : Type) fuel l : forall cx cy ct,
  @src_Diff_loop5 L fuel l (Z.of_nat cx, Z.of_nat cy) ct =
  Ok (Normal ((Z.of_nat cx, Z.of_nat (cy + length l)), ct ++ map (fun s => tag_byte TAdd :: s) l)).
Proof.
  induction l as [|s l IH]; intros cx cy ct; cbn [src_Diff_loop5 length map].
  - now rewrite Nat.add_0_r, app_nil_r.
  - diff_red. rewrite Zsucc_nat, IH, <- app_assoc. cbn [app]. do 4 f_equal. lia.
Qed.

(* for _, s := range l { ctext = append(ctext, " "+s); count.x++; count.y++ } *)
Lemma src_Diff_loop6_eq (L : Type) fuel l : forall cx cy ct,
  @src_Diff_loop6 L fuel l (Z.of_nat cx, Z.of_nat cy) ct =
  Ok (Normal ((Z.of_nat (cx + length l), Z.of_nat (cy + length l)), ct ++ map (fun s => tag_byte TCtx :: s) l)).
Proof.
  induction l as [|s l IH]; intros cx cy ct; cbn [src_Diff_loop6 length map].
  - now rewrite !Nat.add_0_r, app_nil_r.
  - diff_red. rewrite !Zsucc_nat, IH, <- app_assoc. cbn [app]. do 4 f_equal; f_equal; lia.
Qed.

(* diff.go has this loop three times; the translations differ in their names only *)
Lemma src_Diff_loop7_eq (L : Type) fuel l cx cy ct :
  @src_Diff_loop7 L fuel l (Z.of_nat cx, Z.of_nat cy) ct =
  Ok (Normal ((Z.of_nat (cx + length l), Z.of_nat (cy + length l)), ct ++ map (fun s => tag_byte TCtx :: s) l)).
Proof. exact (src_Diff_loop6_eq L fuel l cx cy ct). Qed.

Lemma src_Diff_loop9_eq (L : Type) fuel l cx cy ct :
  @src_Diff_loop9 L fuel l (Z.of_nat cx, Z.of_nat cy) ct =
  Ok (Normal ((Z.of_nat (cx + length l), Z.of_nat (cy + length l)), ct ++ map (fun s => tag_byte TCtx :: s) l)).
Proof. exact (src_Diff_loop6_eq L fuel l cx cy ct). Qed.

(* for _, s := range ctext { out.WriteString(s) } *)
Lemma src_Diff_loop8_eq (L : Type) fuel l : forall out,
  @src_Diff_loop8 L fuel l out = Ok (Normal (out ++ concat l)).
Proof.
  induction l as [|s l IH]; intro out; cbn [src_Diff_loop8 concat].
  - now rewrite app_nil_r.
  - diff_red. rewrite IH. now rewrite <- app_assoc.
Qed.

Lemma src_Diff_loop2_sim (L : Type) fuel (x y : list bytes) dx dy : forall n sx sy r,
  expand_back x y dx dy sx sy = Diff.Ok r -> Nat.min sx (length x) + 1 <= n ->
  @src_Diff_loop2 L fuel n x y (Z.of_nat dx, Z.of_nat dy) (Z.of_nat sx, Z.of_nat sy) =
  Ok (Normal (Z.of_nat (fst r), Z.of_nat (snd r))).
Proof.
  unfold line in *. induction n as [|n IH]; intros sx sy r H Hn; [lia|].
  cbn [src_Diff_loop2]. diff_red. rewrite !Zgtb_nat.
  destruct sx as [|sx]; cbn [expand_back] in H; unfold line in H.
  { injection H as <-. change (dx <? 0) with false. reflexivity. }
  destruct ((dx <? S sx) && (dy <? sy)) eqn:Ec; diff_red; [|injection H as <-; reflexivity].
  apply andb_true_iff in Ec as [_ Ey]. apply Nat.ltb_lt in Ey.
  apply model_bind_Ok_inv in H as (a & Ea & H). apply model_bind_Ok_inv in H as (b & Eb & H).
  replace (Z.of_nat (S sx) - 1)%Z with (Z.of_nat sx) by lia.
  replace (Z.of_nat sy - 1)%Z with (Z.of_nat (sy - 1)) by lia.
  rewrite (idx_src_id _ _ _ Ea), (idx_src_id _ _ _ Eb). diff_red.
  destruct (bytes_eqb a b); diff_red; [|injection H as <-; reflexivity].
  apply idx_Ok_inv in Ea. assert (sx < length x) by (apply nth_error_Some; congruence).
  apply (IH _ _ _ H). lia.
Qed.

Lemma expand_fwd_unfold fu (x y : list bytes) ex ey :
  expand_fwd fu x y ex ey =
  if (ex <? length x) && (ey <? length y) then
    do a <- idx x ex; do b <- idx y ey;
    if bytes_eqb a b then match fu with 0 => Diff.OutOfFuel | S fu => expand_fwd fu x y (S ex) (S ey) end
    else Diff.Ok (ex, ey)
  else Diff.Ok (ex, ey).
Proof. destruct fu; reflexivity. Qed.

Lemma src_Diff_loop3_sim (L : Type) fuel (x y : list bytes) : forall n fu ex ey r,
  expand_fwd fu x y ex ey = Diff.Ok r -> fu + 1 <= n ->
  @src_Diff_loop3 L fuel n x y (Z.of_nat ex, Z.of_nat ey) = Ok (Normal (Z.of_nat (fst r), Z.of_nat (snd r))).
Proof.
  unfold line in *. induction n as [|n IH]; intros fu ex ey r H Hn; [lia|].
  rewrite expand_fwd_unfold in H. unfold line in H. cbn [src_Diff_loop3]. diff_red. rewrite !Zltb_len.
  destruct ((ex <? length x) && (ey <? length y)); diff_red; [|injection H as <-; reflexivity].
  apply model_bind_Ok_inv in H as (a & Ea & H). apply model_bind_Ok_inv in H as (b & Eb & H).
  rewrite (idx_src_id _ _ _ Ea), (idx_src_id _ _ _ Eb). diff_red.
  destruct (bytes_eqb a b); diff_red; [|injection H as <-; reflexivity].
  destruct fu as [|fu]; [discriminate|]. rewrite !Zsucc_nat. apply (IH _ _ _ _ H). lia.
Qed.

Lemma uint_digits_bytes u : uint_digits u = uint_bytes u.
Proof. induction u; cbn; congruence. Qed.

Lemma go_fmt_int_dec n : go_fmt_int (Z.of_nat n) = dec n.
Proof. rewrite go_fmt_int_nat. apply uint_digits_bytes. Qed.

(* fmt.Fprintf(&out, "@@ -%d,%d +%d,%d @@\n", chunk.x, count.x, chunk.y, count.y) *)
Lemma hunk_header_src out a b c d :
  go_fmt_Fprintf_buffer out fmt_hunk
    [FmtInt (Z.of_nat a); FmtInt (Z.of_nat b); FmtInt (Z.of_nat c); FmtInt (Z.of_nat d)] =
  Ok (out ++ sprintf fmt_hunk [ANat a; ANat b; ANat c; ANat d]).
Proof.
  unfold go_fmt_Fprintf_buffer.
  assert (E : go_fmt_Sprintf fmt_hunk
                [FmtInt (Z.of_nat a); FmtInt (Z.of_nat b); FmtInt (Z.of_nat c); FmtInt (Z.of_nat d)] =
              Ok (sprintf fmt_hunk [ANat a; ANat b; ANat c; ANat d])).
  { cbv -[go_fmt_int dec app Z.of_nat]. rewrite !go_fmt_int_dec. reflexivity. }
  rewrite E. reflexivity.
Qed.

Lemma header_diff_src out oldName newName :
  go_fmt_Fprintf_buffer out fmt_header_diff [FmtStr oldName; FmtStr newName] =
  Ok (out ++ sprintf fmt_header_diff [AStr oldName; AStr newName]).
Proof. unfold go_fmt_Fprintf_buffer. cbv -[app]. reflexivity. Qed.

Lemma header_old_src out oldName :
  go_fmt_Fprintf_buffer out fmt_header_old [FmtStr oldName] = Ok (out ++ sprintf fmt_header_old [AStr oldName]).
Proof. unfold go_fmt_Fprintf_buffer. cbv -[app]. reflexivity. Qed.

Lemma header_new_src out newName :
  go_fmt_Fprintf_buffer out fmt_header_new [FmtStr newName] = Ok (out ++ sprintf fmt_header_new [AStr newName]).
Proof. unfold go_fmt_Fprintf_buffer. cbv -[app]. reflexivity. Qed.

Lemma render_hunk_enc sx cx sy cy b :
  render_hunk (mkHunk sx cx sy cy b) = sprintf fmt_hunk [ANat sx; ANat cx; ANat sy; ANat cy] ++ concat (enc b).
Proof. reflexivity. Qed.

(* if (count.x > 0) { chunk.x++ }; if (count.y > 0) { chunk.y++ } *)
Lemma chunk_starts_src {B} (chx chy cx cy : nat) (k : Z * Z -> res B) :
  bind (if (Z.of_nat cx >? 0)%Z then Ok ((Z.of_nat chx + 1)%Z, Z.of_nat chy) else Ok (Z.of_nat chx, Z.of_nat chy))
    (fun ch => bind (if (Z.of_nat cy >? 0)%Z then Ok (fst ch, (snd ch + 1)%Z) else Ok ch) k) =
  k (Z.of_nat (if 0 <? cx then S chx else chx), Z.of_nat (if 0 <? cy then S chy else chy)).
Proof. rewrite !Zgtb_nat0. destruct (0 <? cx), (0 <? cy); cbn [bind fst snd]; rewrite ?Zsucc_nat; reflexivity. Qed.

Lemma src_Diff_loop1_sim fuel (x y : list bytes) : length x + 1 <= fuel ->
  forall ms dx dy chx chy cntx cnty ctext hs,
  diff_loop x y ms dx dy chx chy cntx cnty ctext = Diff.Ok hs -> forall out,
  exists d c n t,
    @src_Diff_loop1 unit fuel x y (map zp ms) out (Z.of_nat dx, Z.of_nat dy) (Z.of_nat chx, Z.of_nat chy)
       (Z.of_nat cntx, Z.of_nat cnty) (enc ctext) =
    Ok (Normal (out ++ concat (map render_hunk hs), d, c, n, t)).
Proof.
  intros Hfuel. induction ms as [|[mx my] ms IH]; intros dx dy chx chy cntx cnty ctext hs H out.
  { cbn in H. injection H as <-. cbn [map src_Diff_loop1 concat]. rewrite app_nil_r. eauto. }
  cbn [diff_loop] in H. unfold line in *. cbn [map zp fst snd src_Diff_loop1].
  (* [next]: the following iterations; below, [after]: the statements behind the emission of a chunk *)
  match goal with |- context [bindL _ ?k] => set (next := k) end.
  diff_red. rewrite Zltb_nat. destruct (mx <? dx).
  { subst next. diff_red. apply (IH _ _ _ _ _ _ _ _ H). }
  apply model_bind_Ok_inv in H as ([stx sty] & Eb & H). apply model_bind_Ok_inv in H as ([ex ey] & Ef & H).
  cbn [fst snd] in H.
  apply model_bind_Ok_inv in H as (xs1 & E1 & H). apply model_bind_Ok_inv in H as (ys1 & E2 & H).
  apply model_bind_Ok_inv in H as (r & Er & H).
  rewrite (src_Diff_loop2_sim _ fuel x y dx dy fuel mx my _ Eb) by lia. diff_red.
  rewrite (src_Diff_loop3_sim _ fuel x y fuel (length x) mx my _ Ef) by lia. diff_red.
  rewrite (slice_src _ _ _ _ E1). diff_red. rewrite src_Diff_loop4_eq. diff_red.
  rewrite (slice_src _ _ _ _ E2). diff_red. rewrite src_Diff_loop5_eq. diff_red.
  match goal with |- context [bindO (if (len_of _ >? 0)%Z then _ else _) ?k] => set (after := k) end.
  rewrite (sub_chk_Ok _ _ _ Er), <- !enc_tagged, <- !enc_app, <- (app_assoc ctext), !len_of_enc, !Zltb_len.
  change 3%Z with (Z.of_nat ctxC). change 6%Z with (Z.of_nat (2 * ctxC)). rewrite !Zltb_nat.
  unfold line in *.
  match type of H with context [nonempty ?c] => set (ct1 := c) in * end.
  set (cx1 := cntx + length xs1) in *. set (cy1 := cnty + length ys1) in *.
  match type of H with (if ?c then _ else _) = _ => destruct c end.
  - (* too few common lines: the chunk continues *)
    apply model_bind_Ok_inv in H as (xs2 & E3 & H).
    rewrite (slice_src _ _ _ _ E3). diff_red. rewrite src_Diff_loop6_eq. diff_red.
    rewrite <- enc_tagged, <- enc_app. subst next. diff_red. apply (IH _ _ _ _ _ _ _ _ H).
  - (* the chunk ends: emit it unless it is empty; then stop at the end of both files, or start a new chunk *)
    apply model_bind_Ok_inv in H as (em & Eem & H). apply model_bind_Ok_inv in H as (rest & ER & H). injection H as <-.
    (* what follows the emission is the same code in both cases: it is run once, from the count
       and chunk text the model continues with, before looking at [em] *)
    set (cxe := match em with Some _ => 0 | None => cx1 end) in *.
    set (cye := match em with Some _ => 0 | None => cy1 end) in *.
    set (cte := match em with Some _ => [] | None => ct1 end) in *.
    assert (Hafter : forall o dn ch, exists d c n t,
      bindL (after (o, dn, (Z.of_nat (fst ch), Z.of_nat (snd ch)), (Z.of_nat cxe, Z.of_nat cye), enc cte)) next =
      Ok (Normal (o ++ concat (map render_hunk rest), d, c, n, t))).
    { intros o dn ch. subst after next. cbv beta iota. change 3%Z with (Z.of_nat ctxC). rewrite !Zgeb_len.
      destruct ((length x <=? ex) && (length y <=? ey)).
      { injection ER as <-. diff_red. cbn [map concat]. rewrite app_nil_r. eauto. }
      apply model_bind_Ok_inv in ER as (chx' & Ex & ER). apply model_bind_Ok_inv in ER as (chy' & Ey & ER).
      apply model_bind_Ok_inv in ER as (xs4 & E5 & ER).
      rewrite (sub_chk_Ok _ _ _ Ex), (sub_chk_Ok _ _ _ Ey), (slice_src _ _ _ _ E5). diff_red.
      rewrite src_Diff_loop9_eq. diff_red. rewrite <- enc_tagged, <- enc_app.
      apply (IH _ _ _ _ _ _ _ _ ER). }
    clear ER. subst cxe cye cte. destruct (nonempty ct1).
    + apply model_bind_Ok_inv in Eem as (xs3 & E4 & [= <-]).
      rewrite <- Nat2Z.inj_min, <- !Nat2Z.inj_add, (slice_src _ _ _ _ E4). diff_red.
      rewrite src_Diff_loop7_eq. diff_red. rewrite chunk_starts_src. diff_red. rewrite hunk_header_src. diff_red.
      rewrite src_Diff_loop8_eq. diff_red. rewrite go_slice_of_00. diff_red.
      rewrite <- enc_tagged, <- enc_app, <- app_assoc, <- render_hunk_enc.
      cbn [map concat]. rewrite app_assoc. apply (Hafter _ _ (_, _)).
    + injection Eem as <-. diff_red. apply (Hafter _ _ (chx, chy)).
Qed.

Lemma lines_length_le d : length (lines d) <= length d.
Proof.
  induction d as [|b r IH]; cbn [lines length]; [lia|].
  destruct (beq b NL); cbn [length]; [lia|]. destruct (lines r); cbn [length] in *; lia.
Qed.

(* the translated Diff returns exactly the model's bytes, for every iteration bound that allows
   one pass over the lines of the old text *)
Theorem src_Diff_eq fuel oldName old newName new :
  length old + 1 <= fuel ->
  src_Diff fuel oldName old newName new = res_conv id (diff oldName old newName new).
Proof.
  intro Hfuel. unfold src_Diff, diff, go_bytes_Equal, go_buffer_Bytes. diff_red.
  destruct (bytes_eqb old new); [reflexivity|].
  rewrite !src_lines_eq. diff_red.
  pose proof (lines_length_le old) as Hl.
  destruct (diff_no_panic (lines old) (lines new)) as (hs & Ehs). rewrite Ehs. cbn [Diff.bind res_conv id].
  apply model_bind_Ok_inv in Ehs as (ms & Et & Ehs).
  rewrite header_diff_src. diff_red. rewrite header_old_src. diff_red. rewrite header_new_src. diff_red.
  unfold go_buffer_empty. cbn [app]. rewrite <- !app_assoc. fold (render_header oldName newName).
  rewrite (src_tgs_eq fuel _ _ _ Et) by lia. diff_red. unfold line in *.
  destruct (src_Diff_loop1_sim fuel (lines old) (lines new) ltac:(lia) _ _ _ _ _ _ _ _ _ Ehs
              (render_header oldName newName)) as (d & c & n & ct & E).
  exact (f_equal (fun r => bindT r (fun '(o, _, _, _, _) => Ok o)) E).
Qed.

(* totality, on the translation itself: never Panic, never OutOfFuel with that bound *)
Theorem src_Diff_total fuel oldName old newName new :
  length old + 1 <= fuel -> exists out, src_Diff fuel oldName old newName new = Ok out.
Proof.
  intro Hf. rewrite (src_Diff_eq fuel _ _ _ _ Hf).
  destruct (diff_total oldName old newName new) as (out & ->). now exists out.
Qed.

Theorem src_lines_total d : exists l, src_lines d = Ok l.
Proof. rewrite src_lines_eq. eauto. Qed.
