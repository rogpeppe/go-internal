(* C08 on the source as translated: the main theorems of the property, restated directly on the
   generated functions of Gen/DiffSrc.v (diff/diff.go translated by harness/go2coq on every run).
   Each follows from the equality of the generated function with the model (Diff/SrcFacts.v,
   Diff/SrcFactsDiff.v) and the theorem about the model.  [fuel] is the iteration bound handed to
   every loop of the translation; [length old + 1] (one pass over the lines of the old text and
   one step to stop) is enough, and the result does not depend on it beyond that. *)
From Coq Require Import List Bool Arith ZArith Lia.
From Coq.Strings Require Import Byte.
From GI Require Import Lib.Bytes Gen.DiffConsts Diff.Diff Diff.DiffSpec Diff.DiffBase Diff.DiffProofs
  Diff.TgsProofs Diff.DiffParse Diff.ParseProofs Diff.CtxFacts Diff.BytesFacts Diff.DiffFacts Diff.CoverFacts
  Gen.DiffSrc Diff.SrcFacts Diff.SrcFactsDiff.
From GI Require Lib.GoSem.
Import ListNotations.

Lemma src_Diff_Ok_iff fuel oldName old newName new out :
  length old + 1 <= fuel ->
  (src_Diff fuel oldName old newName new = GoSem.Ok out <-> diff oldName old newName new = Ok out).
Proof.
  intro Hf. rewrite (src_Diff_eq fuel _ _ _ _ Hf).
  destruct (diff oldName old newName new) as [o| |]; cbn [res_conv id]; split; intro H;
    try discriminate; injection H as <-; reflexivity.
Qed.

Theorem source_diff_nil_iff fuel oldName old newName new :
  length old + 1 <= fuel ->
  (src_Diff fuel oldName old newName new = GoSem.Ok [] <-> old = new).
Proof. intro Hf. rewrite (src_Diff_Ok_iff fuel _ _ _ _ _ Hf). apply diff_nil_iff. Qed.

(* for different texts: the three header lines and the rendering of hunks that are well formed
   (in order, not overlapping, start lines and counts matching their bodies) and that turn the
   lines of the old text into the lines of the new text, and back *)
Theorem source_diff_hunks fuel oldName old newName new :
  length old + 1 <= fuel -> old <> new ->
  exists hs, src_Diff fuel oldName old newName new = GoSem.Ok (render oldName newName hs) /\ hs <> [] /\
    hunks_wf (lines old) (lines new) hs /\
    apply_hunks (lines old) hs = Some (lines new) /\
    apply_hunks (lines new) (swap_hunks hs) = Some (lines old).
Proof.
  intros Hf Hne. destruct (diff_total oldName old newName new) as (out & E).
  destruct (diff_bytes_parse _ _ _ _ _ E Hne) as (hs & Eh & -> & _).
  exists hs. split; [now apply (src_Diff_Ok_iff fuel _ _ _ _ _ Hf)|].
  split; [intro Hnil; subst hs; apply Hne; now apply diff_hunks_nonempty|].
  split; [now apply hunks_wf_all|]. split; [now apply patch_correct | now apply patch_reverse].
Qed.

Theorem source_bytes_patch fuel oldName old newName new out :
  length old + 1 <= fuel -> src_Diff fuel oldName old newName new = GoSem.Ok out ->
  patch_bytes oldName newName out (lines old) = Some (lines new) /\
  unpatch_bytes oldName newName out (lines new) = Some (lines old).
Proof. intros Hf E. apply (src_Diff_Ok_iff fuel _ _ _ _ _ Hf) in E. now apply bytes_patch. Qed.

Theorem source_text_patch fuel oldName old newName new out :
  length old + 1 <= fuel -> src_Diff fuel oldName old newName new = GoSem.Ok out ->
  patch_text oldName newName out old = Some new /\
  unpatch_text oldName newName out new = Some old.
Proof. intros Hf E. apply (src_Diff_Ok_iff fuel _ _ _ _ _ Hf) in E. now apply text_patch. Qed.

(* a concrete non-trivial instance: the translated function itself, run inside Coq *)
Example source_diff_ex :
  src_Diff 40 [x61] [x61; x0a; x62; x0a; x63] [x62] [x61; x0a; x58; x0a; x63; x0a] =
  GoSem.Ok (render [x61] [x62]
    [mkHunk 1 3 1 3 [(TCtx, [x61; x0a]); (TDel, [x62; x0a]); (TDel, x63 :: no_newline_msg);
                     (TAdd, [x58; x0a]); (TAdd, [x63; x0a])]]).
Proof. vm_compute. reflexivity. Qed.
