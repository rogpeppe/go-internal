(* Gen/DiffSrc.v is diff/diff.go (lines, tgs, Diff) translated to Gallina by harness/go2coq on
   every run.  This file proves that the generated [src_lines] and [src_tgs] return [Ok] of
   exactly what the hand-written model (Diff/Diff.v) computes -- for every input and every
   iteration bound [fuel] of at least [length x + 1] -- and Diff/SrcFactsDiff.v does the same
   for [src_Diff].  The model is over nat with checked index / slice / subtraction, the
   translation over Z with Go's checks: each step of the model that succeeds is matched by the
   corresponding step of the translation on the images of the same values ([zl], [zp]); that
   the model's steps do succeed is what Diff/TgsProofs.v and Diff/DiffProofs.v establish.

   The proofs do not mention generated hypothesis or bound-variable names: each function is
   unfolded, straight-line code is rewritten step by step with the lemmas about the checked
   operations, range loops go by induction on the list, for-loops on the iteration bound. *)
From Coq Require Import List Bool Arith ZArith Lia ZifyBool.
From Coq.Strings Require Import Byte.
From GI Require Import Lib.Bytes Gen.DiffConsts Diff.Diff Diff.DiffSpec Diff.DiffBase Diff.DiffProofs
  Diff.TgsProofs Diff.SrcLib Lib.GoSemExtFacts Lib.GoSemDataFacts Gen.DiffSrc.
From GI Require Import Lib.GoSem Lib.GoSemExt Lib.GoSemData.
Import ListNotations.

(* From here on [res], [Ok], [Panic], [bind] are those of Lib/GoSem.v (the translation); the
   model's are written [Diff.res], [Diff.Ok], ... *)

Definition zl (l : list nat) : list Z := map Z.of_nat l.
Definition zp (p : nat * nat) : Z * Z := (Z.of_nat (fst p), Z.of_nat (snd p)).

Definition res_conv {A B} (f : A -> B) (r : Diff.res A) : res B :=
  match r with Diff.Ok a => Ok (f a) | Diff.Panic => Panic | Diff.OutOfFuel => OutOfFuel end.

(* one step of symbolic execution of the translated code: beta/iota/zeta, then the binds of the
   translation's monad, the boolean connectives and the total operations of the buffer, the map
   and the append are computed; nothing else is unfolded *)
Ltac diff_red :=
  cbv beta iota zeta;
  cbn [bind bindT bindO bindL negb orb andb fst snd app go_append go_buffer_WriteString go_buffer_Bytes
       go_buffer_empty go_map_empty go_bytes_Equal].

Lemma idx_src {A B} (f : A -> B) (l : list A) i a :
  idx l i = Diff.Ok a -> go_index_of (map f l) (Z.of_nat i) = Ok (f a).
Proof.
  intro H. apply idx_Ok_inv in H. now rewrite go_index_of_map_nat, H.
Qed.

Lemma idx_zl (l : list nat) i a : idx l i = Diff.Ok a -> go_index_of (zl l) (Z.of_nat i) = Ok (Z.of_nat a).
Proof. apply idx_src. Qed.

Lemma idx_src_id {A} (l : list A) i a : idx l i = Diff.Ok a -> go_index_of l (Z.of_nat i) = Ok a.
Proof. intro H. apply idx_Ok_inv in H. now rewrite go_index_of_nat, H. Qed.

Lemma upd_Ok_inv {A} (l : list A) : forall i v l',
  upd l i v = Diff.Ok l' -> i < length l /\ l' = firstn i l ++ v :: skipn (S i) l.
Proof.
  induction l as [|a l IH]; intros i v l' H; [discriminate|].
  destruct i as [|i]; cbn [upd] in H.
  - injection H as <-. cbn. split; [lia | reflexivity].
  - destruct (upd l i v) as [r| |] eqn:E; try discriminate. cbn [Diff.bind] in H. injection H as <-.
    destruct (IH _ _ _ E) as [Hl ->]. cbn [length firstn skipn app]. split; [lia | reflexivity].
Qed.

Lemma upd_src {A B} (f : A -> B) (l : list A) i v l' :
  upd l i v = Diff.Ok l' -> go_store_of (map f l) (Z.of_nat i) (f v) = Ok (map f l').
Proof.
  intro H. apply upd_Ok_inv in H as [Hl ->].
  rewrite go_store_of_nat, map_length. destruct (Nat.ltb_spec i (length l)); [|lia].
  now rewrite map_app, firstn_map, skipn_map.
Qed.

Lemma upd_zl (l : list nat) i v l' :
  upd l i v = Diff.Ok l' -> go_store_of (zl l) (Z.of_nat i) (Z.of_nat v) = Ok (zl l').
Proof. apply upd_src. Qed.

Lemma slice_src {A} (l : list A) a b s :
  slice l a b = Diff.Ok s -> go_slice_of l (Z.of_nat a) (Z.of_nat b) = Ok s.
Proof.
  unfold slice. rewrite go_slice_of_nat. destruct ((a <=? b) && (b <=? length l)); [|discriminate].
  now intros [= <-].
Qed.

Lemma sub_chk_Ok a b r : sub_chk a b = Diff.Ok r -> (Z.of_nat a - Z.of_nat b)%Z = Z.of_nat r.
Proof.
  unfold sub_chk. destruct (Nat.ltb_spec a b); [discriminate|]. intros [= <-]. lia.
Qed.

(* a step of the model that succeeded *)
Lemma model_bind_Ok_inv {A B} (m : Diff.res A) (k : A -> Diff.res B) b :
  Diff.bind m k = Diff.Ok b -> exists a, m = Diff.Ok a /\ k a = Diff.Ok b.
Proof. destruct m; cbn; try discriminate. eauto. Qed.

Theorem src_lines_eq d : src_lines d = Ok (lines d).
Proof.
  unfold src_lines, go_strings_SplitAfter. diff_red.
  rewrite lines_fix_last. unfold NL.
  pose proof (split_after_nonempty x0a d) as Hne.
  destruct (exists_last Hne) as (init & z & ->).
  unfold go_index_of, go_slice_of. rewrite index_of_last, slice_of_init. diff_red.
  rewrite fix_last_snoc, len_of_app.
  replace (len_of init + len_of [z] - 1)%Z with (len_of init) by (unfold len_of; cbn [length]; lia).
  rewrite go_store_of_at. destruct z as [|c z]; cbn [bytes_eqb]; diff_red.
  - now rewrite app_nil_r.
  - reflexivity.
Qed.

(* the translator's association-list map is the model's smap *)
Lemma go_map_find_mget (m : smap) s : go_map_find m s = mget m s.
Proof. induction m as [|[k v] m IH]; cbn; [reflexivity|]. now rewrite IH. Qed.

Lemma go_map_get_mget0 (m : smap) s : go_map_get 0%Z m s = mget0 m s.
Proof. unfold go_map_get, mget0. now rewrite go_map_find_mget. Qed.

Lemma go_map_set_mset (m : smap) s v : go_map_set m s v = mset m s v.
Proof. induction m as [|[k w] m IH]; cbn; [reflexivity|]. now rewrite IH. Qed.

Lemma src_tgs_loop1_eq (L : Type) fuel l : forall m,
  @src_tgs_loop1 L fuel l m = Ok (Normal (fold_left count_x l m)).
Proof.
  induction l as [|s l IH]; intro m; cbn [src_tgs_loop1 fold_left]; [reflexivity|].
  rewrite go_map_get_mget0, go_map_set_mset, Z.gtb_ltb. unfold count_x at 2.
  destruct (-2 <? mget0 m s)%Z; diff_red; apply IH.
Qed.

Lemma src_tgs_loop2_eq (L : Type) fuel l : forall m,
  @src_tgs_loop2 L fuel l m = Ok (Normal (fold_left count_y l m)).
Proof.
  induction l as [|s l IH]; intro m; cbn [src_tgs_loop2 fold_left]; [reflexivity|].
  rewrite go_map_get_mget0, go_map_set_mset, Z.gtb_ltb. unfold count_y at 2.
  destruct (-8 <? mget0 m s)%Z; diff_red; apply IH.
Qed.

Lemma zl_app a b : zl (a ++ b) = zl a ++ zl b.
Proof. apply map_app. Qed.

Lemma len_of_zl l : len_of (zl l) = Z.of_nat (length l).
Proof. unfold zl. rewrite len_of_map. reflexivity. Qed.

Lemma src_tgs_loop3_eq (L : Type) fuel ys : forall i m yi,
  @src_tgs_loop3 L fuel ys (Z.of_nat i) m (zl yi) =
  Ok (Normal (fst (gather_y ys i m yi), zl (snd (gather_y ys i m yi)))).
Proof.
  induction ys as [|s ys IH]; intros i m yi; cbn [src_tgs_loop3 gather_y]; [reflexivity|].
  rewrite go_map_get_mget0, go_map_set_mset, len_of_zl.
  replace (Z.of_nat i + 1)%Z with (Z.of_nat (S i)) by lia.
  destruct (mget0 m s =? -5)%Z; diff_red.
  - change [Z.of_nat i] with (zl [i]). rewrite <- zl_app. apply IH.
  - apply IH.
Qed.

Lemma src_tgs_loop4_eq (L : Type) fuel m xs : forall i xi inv,
  @src_tgs_loop4 L fuel m xs (Z.of_nat i) (zl xi) (zl inv) =
  Ok (Normal (zl (fst (gather_x xs i m xi inv)), zl (snd (gather_x xs i m xi inv)))).
Proof.
  induction xs as [|s xs IH]; intros i xi inv; cbn [src_tgs_loop4 gather_x]; [reflexivity|].
  rewrite go_map_lookup_get, go_map_find_mget. unfold go_map_get. rewrite go_map_find_mget.
  replace (Z.of_nat i + 1)%Z with (Z.of_nat (S i)) by lia.
  destruct (mget m s) as [j|]; diff_red; [|apply IH].
  rewrite Z.geb_leb. destruct (Z.leb_spec 0 j); diff_red; [|apply IH].
  change [Z.of_nat i] with (zl [i]). replace [j] with (zl [Z.to_nat j]) by (cbn; now rewrite Z2Nat.id).
  rewrite <- !zl_app. apply IH.
Qed.

(* for i := range T { T[i] = n + 1 } *)
Lemma src_tgs_loop5_eq (L : Type) fuel (v : Z) l : forall (pre rest : list Z),
  length rest = length l ->
  @src_tgs_loop5 L fuel v l (len_of pre) (pre ++ rest) = Ok (Normal (pre ++ repeat (v + 1)%Z (length l))).
Proof.
  induction l as [|a l IH]; intros pre rest H; cbn [src_tgs_loop5].
  - destruct rest; [reflexivity | discriminate].
  - destruct rest as [|b rest]; [discriminate|]. rewrite go_store_of_at. diff_red.
    replace (len_of pre + 1)%Z with (len_of (pre ++ [(v + 1)%Z])) by (rewrite len_of_app; reflexivity).
    replace (pre ++ (v + 1)%Z :: rest) with ((pre ++ [(v + 1)%Z]) ++ rest) by (now rewrite <- app_assoc).
    rewrite IH by (cbn in H; lia). cbn [length repeat]. now rewrite <- app_assoc.
Qed.

(* the model's sort_search is the reference loop of GoSemDataFacts.v *)
Lemma search_loop_conv steps (fm : nat -> Diff.res bool) (fn : nat -> res bool) :
  (forall k, fn k = res_conv id (fm k)) ->
  forall i j, search_loop_nat steps fn i j = res_conv id (search_loop steps fm i j).
Proof.
  intro Hf. induction steps as [|s IH]; intros i j; cbn [search_loop_nat search_loop];
    destruct (i <? j); try reflexivity.
  rewrite Hf. destruct (fm (Nat.div2 (i + j))) as [b| |]; cbn [res_conv bind Diff.bind id]; try reflexivity.
  destruct b; cbn [negb]; apply IH.
Qed.

(* k := sort.Search(n, func(k int) bool { return T[k] >= J[i] }), when the model's search succeeds *)
Lemma search_src n (T : list nat) (ji : nat) (zJ : list Z) (zi : Z) k :
  go_index_of zJ zi = Ok (Z.of_nat ji) ->
  sort_search n (fun k => do tk <- idx T k; Diff.Ok (ji <=? tk)) = Diff.Ok k ->
  go_sort_Search (Z.of_nat n)
    (fun zk => bind (go_index_of (zl T) zk) (fun t5 => bind (go_index_of zJ zi) (fun t6 => Ok (t5 >=? t6)%Z))) =
  Ok (Z.of_nat k).
Proof.
  intros HJ H. unfold sort_search in H.
  rewrite (go_sort_Search_nat _ (fun k => res_conv id (do tk <- idx T k; Diff.Ok (ji <=? tk)))).
  - rewrite (search_loop_conv n (fun k => do tk <- idx T k; Diff.Ok (ji <=? tk))) by reflexivity.
    rewrite H. reflexivity.
  - intro t. unfold zl. rewrite go_index_of_map_nat. unfold idx.
    destruct (nth_error T t) as [tk|]; cbn [bind Diff.bind res_conv id]; [|reflexivity].
    rewrite HJ. cbn [bind]. f_equal. unfold id. rewrite Z.geb_leb.
    destruct (Nat.leb_spec ji tk), (Z.leb_spec (Z.of_nat ji) (Z.of_nat tk)); try lia; reflexivity.
Qed.

Lemma src_tgs_loop6_sim (L : Type) fuel n J : forall is T Lv T' L',
  patience is n J T Lv = Diff.Ok (T', L') ->
  @src_tgs_loop6 L fuel (zl J) (Z.of_nat n) (zl is) (zl T) (zl Lv) = Ok (Normal (zl T', zl L')).
Proof.
  induction is as [|i is IH]; intros T Lv T' L' H; cbn [patience] in H.
  - injection H as <- <-. reflexivity.
  - cbn [zl map src_tgs_loop6].
    apply model_bind_Ok_inv in H as (ji & EJ & H). apply model_bind_Ok_inv in H as (k & ES & H).
    apply model_bind_Ok_inv in H as (T1 & ET & H). apply model_bind_Ok_inv in H as (L1 & EL & H).
    pose proof (idx_zl _ _ _ EJ) as EJ'.
    rewrite (search_src n T ji (zl J) (Z.of_nat i) k EJ' ES). diff_red. rewrite EJ'. diff_red.
    rewrite (upd_zl _ _ _ _ ET). diff_red.
    replace (Z.of_nat k + 1)%Z with (Z.of_nat (k + 1)) by lia.
    rewrite (upd_zl _ _ _ _ EL). diff_red.
    apply (IH _ _ _ _ H).
Qed.

(* k := 0; for _, v := range L { if k < v { k = v } } *)
Lemma src_tgs_loop7_eq (L : Type) fuel l : forall k,
  @src_tgs_loop7 L fuel (zl l) (Z.of_nat k) =
  Ok (Normal (Z.of_nat (fold_left (fun k v => if k <? v then v else k) l k))).
Proof.
  induction l as [|v l IH]; intro k; cbn [zl map src_tgs_loop7 fold_left]; [reflexivity|].
  destruct (Nat.ltb_spec k v), (Z.ltb_spec (Z.of_nat k) (Z.of_nat v)); try lia; diff_red; apply IH.
Qed.

(* for i := n-1; i >= 0; i-- { if L[i] == k && J[i] < lastj { seq[k] = pair{xi[i], yi[J[i]]}; k-- } }
   The model writes [pred k] for k--; the two agree because every level in L is at least 1, so a
   match never happens at k = 0.  One iteration per index and one to stop. *)
Lemma src_tgs_loop8_sim (L : Type) fuel lastj J Lv xi yi : forall i m k sq sq',
  backward (rev (seq 0 i)) k lastj J Lv xi yi sq = Diff.Ok sq' ->
  (forall t, t < i -> 1 <= nth t Lv 0) -> i + 1 <= m ->
  exists k' i',
    @src_tgs_loop8 L fuel m (zl xi) (zl yi) (zl J) (zl Lv) (Z.of_nat lastj) (Z.of_nat k) (map zp sq)
      (Z.of_nat i - 1)%Z = Ok (Normal (k', map zp sq', i')).
Proof.
  induction i as [|i IH]; intros m k sq sq' H Hpos Hm.
  - cbn in H. injection H as <-. destruct m as [|m]; [lia|]. cbn [src_tgs_loop8].
    change (Z.of_nat 0 - 1 >=? 0)%Z with false. cbv iota. eauto.
  - rewrite rev_seq_S in H. cbn [backward] in H.
    destruct m as [|m]; [lia|]. cbn [src_tgs_loop8].
    replace (Z.of_nat (S i) - 1)%Z with (Z.of_nat i) by lia.
    destruct (Z.geb_spec (Z.of_nat i) 0); [|lia].
    apply model_bind_Ok_inv in H as (li & EL & H). rewrite (idx_zl _ _ _ EL). diff_red.
    assert (Hli : 1 <= li).
    { apply idx_Ok_inv in EL. specialize (Hpos i ltac:(lia)). now rewrite (nth_error_nth _ _ _ EL) in Hpos. }
    assert (Hrest : forall t, t < i -> 1 <= nth t Lv 0) by (intros; apply Hpos; lia).
    destruct (Nat.eqb_spec li k) as [Heq|Hne], (Z.eqb_spec (Z.of_nat li) (Z.of_nat k)); try lia; diff_red;
      [subst li|].
    + apply model_bind_Ok_inv in H as (ji & EJ & H). rewrite (idx_zl _ _ _ EJ). diff_red.
      destruct (Nat.ltb_spec ji lastj), (Z.ltb_spec (Z.of_nat ji) (Z.of_nat lastj)); try lia; diff_red.
      * apply model_bind_Ok_inv in H as (a & Ea & H). apply model_bind_Ok_inv in H as (b & Eb & H).
        apply model_bind_Ok_inv in H as (sq1 & Es & H).
        rewrite (idx_zl _ _ _ Ea). diff_red.
        rewrite (idx_zl _ _ _ Eb). diff_red.
        change (Z.of_nat a, Z.of_nat b) with (zp (a, b)). rewrite (upd_src zp _ _ _ _ Es). diff_red.
        replace (Z.of_nat k - 1)%Z with (Z.of_nat (pred k)) by lia.
        apply (IH m _ _ _ H Hrest). lia.
      * apply (IH m _ _ _ H Hrest). lia.
    + apply (IH m _ _ _ H Hrest). lia.
Qed.

Lemma zp_repeat m : map zp (repeat (0, 0) m) = repeat (0%Z, 0%Z) m.
Proof. induction m as [|m IH]; cbn; [reflexivity|]. now rewrite IH. Qed.

Lemma zl_repeat v m : zl (repeat v m) = repeat (Z.of_nat v) m.
Proof. induction m as [|m IH]; cbn; [reflexivity|]. unfold zl in IH. now rewrite IH. Qed.

Lemma gather_x_length xs : forall i m xi inv,
  length (fst (gather_x xs i m xi inv)) <= length xi + length xs.
Proof.
  induction xs as [|s xs IH]; intros i m xi inv; cbn [gather_x length fst]; [lia|].
  destruct (mget m s) as [j|]; [destruct (0 <=? j)%Z|];
    match goal with |- context [gather_x xs ?i ?m ?a ?b] => specialize (IH i m a b) end;
    rewrite ?app_length in IH; cbn [length] in IH; lia.
Qed.

Lemma n_le_x x y : TgsProofs.n x y <= length x.
Proof.
  unfold TgsProofs.n, TgsProofs.xi, TgsProofs.xv.
  pose proof (gather_x_length x 0 (m3 x y) [] []) as H. cbn [length] in H. lia.
Qed.

(* the translated tgs returns exactly the model's pairs (as Z), for every iteration bound that
   allows one pass over the anchors *)
Theorem src_tgs_eq fuel x y ms :
  tgs x y = Diff.Ok ms -> length x + 1 <= fuel -> src_tgs fuel x y = Ok (map zp ms).
Proof.
  intros H Hfuel. rewrite tgs_unfold in H.
  destruct (patience_tgs x y) as (T & Lv & EP & _ & Plev & _).
  rewrite EP in H. cbn [Diff.bind snd] in H.
  pose proof (n_le_x x y) as Hn.
  unfold src_tgs. diff_red.
  rewrite src_tgs_loop1_eq. diff_red. rewrite src_tgs_loop2_eq. diff_red.
  change (@nil Z) with (zl []).
  rewrite (src_tgs_loop3_eq _ fuel y 0). diff_red.
  rewrite (src_tgs_loop4_eq _ fuel _ x 0). diff_red.
  change (gather_y y 0 _ []) with (my x y). change (gather_x x 0 _ [] []) with (xv x y).
  change (fst (xv x y)) with (TgsProofs.xi x y). change (snd (xv x y)) with (TgsProofs.J x y).
  change (snd (my x y)) with (TgsProofs.yi x y).
  rewrite len_of_zl. change (length (TgsProofs.xi x y)) with (TgsProofs.n x y).
  set (n := TgsProofs.n x y) in *. set (J := TgsProofs.J x y) in *.
  rewrite !go_make_of_nat. diff_red.
  rewrite (src_tgs_loop5_eq _ fuel (Z.of_nat n) (repeat 0%Z n) [] (repeat 0%Z n) eq_refl).
  diff_red. rewrite repeat_length, go_int_range_nat.
  replace (Z.of_nat n + 1)%Z with (Z.of_nat (n + 1)) by lia.
  rewrite <- zl_repeat. change (repeat 0%Z n) with (repeat (Z.of_nat 0) n). rewrite <- zl_repeat.
  fold (zl (seq 0 n)). rewrite (src_tgs_loop6_sim _ fuel n J _ _ _ _ _ EP). diff_red.
  rewrite (src_tgs_loop7_eq _ fuel Lv 0). diff_red. fold (max_level Lv). set (K := max_level Lv) in *.
  replace (2 + Z.of_nat K)%Z with (Z.of_nat (2 + K)) by lia. rewrite go_make_of_nat. diff_red.
  apply model_bind_Ok_inv in H as (sq1 & E1 & H). apply model_bind_Ok_inv in H as (sq2 & E2 & H).
  rewrite <- zp_repeat. replace (1 + Z.of_nat K)%Z with (Z.of_nat (1 + K)) by lia.
  change (len_of x, len_of y) with (zp (length x, length y)).
  rewrite (upd_src zp _ _ _ _ E1). diff_red.
  destruct (src_tgs_loop8_sim unit fuel n J Lv _ _ n fuel K sq1 sq2 E2) as (k' & i' & E8).
  { intros t Ht. apply Plev. assumption. } { lia. }
  rewrite E8. diff_red.
  change (0%Z, 0%Z) with (zp (0, 0)). change 0%Z with (Z.of_nat 0) at 1.
  rewrite (upd_src zp _ _ _ _ H). reflexivity.
Qed.

Theorem src_tgs_total fuel x y : length x + 1 <= fuel ->
  exists ms, tgs x y = Diff.Ok ms /\ src_tgs fuel x y = Ok (map zp ms).
Proof.
  intro Hf. destruct (tgs_matches_ok x y) as (ms & E & _). exists ms. split; [exact E|].
  now apply src_tgs_eq.
Qed.
