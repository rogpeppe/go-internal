(* C13 — cache Trim removes only stale entries and only when a trim is due.
   This file contains only the property theorems, each a lemma proved in CacheTrim/ or a line
   or two away from one, with Print Assumptions beneath it.  Times are Z nanoseconds
   since the Unix epoch; [clock_ok] is a clock between 1970 and 2262, [ns_ok] an mtime that
   time.Unix converts without wrapping, [dir_ok] the latter for every file of the 256
   subdirectories; [read_record c] is what lockedfile.Read(trim.txt) yields (None when the file
   is missing or, [trimblocked], a directory).  The intervals are the names regenerated from
   cache.go. *)
From Coq Require Import List Bool ZArith Sorted.
From Coq.Strings Require Import Byte.
From GI Require Import Lib.Bytes Gen.CacheTrimConsts CacheTrim.CacheTrim CacheTrim.CacheTrimTimeFacts
  CacheTrim.CacheTrimFacts CacheTrim.CacheTrimConc CacheTrim.CacheTrimConcFacts.
Import ListNotations.
Local Open Scope Z_scope.

(* the three intervals are the ones the property names: five days, one hour, one day *)
Theorem C13_intervals_as_stated :
  trim_limit = 5 * 24 * 3600 * nano /\ mtime_interval = 3600 * nano /\ trim_interval = 24 * 3600 * nano.
Proof. exact intervals_as_stated. Qed.
Print Assumptions C13_intervals_as_stated.

(* the expressions in used and Trim are the named intervals; the subdirectory count of Trim is that of
   Open; ParseInt is called with base 10 and 64 bits *)
Theorem C13_code_constants :
  used_threshold = mtime_interval /\ window_upper = trim_interval /\
  window_lower = - mtime_interval /\ cutoff_offset = - trim_limit - mtime_interval /\
  0 < mtime_interval /\ 0 < trim_interval /\ 0 < trim_limit /\
  trim_subdir_count = open_subdir_count /\ 0 <= trim_subdir_count /\
  parse_base = 10 /\ parse_bits = 64.
Proof. exact consts_rel. Qed.
Print Assumptions C13_code_constants.

Theorem C13_entry_names : forall h,
  is_entry_name (h ++ index_suffix) = true /\ is_entry_name (h ++ data_suffix) = true /\
  put_index_suffix = index_suffix /\ put_data_suffix = data_suffix.
Proof. intros h. repeat split; try apply is_entry_name_suffix; apply suffix_rel. Qed.
Print Assumptions C13_entry_names.

(* package time as Trim uses it is integer arithmetic: the window test on now.Sub(time.Unix(t, 0)) is
   the test on now - t*10^9, for every int64 second count t in trim.txt, wrapped or not *)
Theorem C13_window_test_exact : forall now t, clock_ok now -> i64 t ->
  let d := time_sub (time_of_ns now) (time_unix t 0) in
  (d <? window_upper) && (d >? window_lower) =
  (now - t * nano <? window_upper) && (now - t * nano >? window_lower).
Proof. exact window_char. Qed.
Print Assumptions C13_window_test_exact.

Theorem C13_record_dichotomy : forall now record,
  record_in_window now record \/ record_stale now record.
Proof. exact record_dichotomy. Qed.
Print Assumptions C13_record_dichotomy.

(* a parsable last-trim second t with -mtimeInterval < now - t*10^9 < trimInterval: nothing changes,
   nil is returned *)
Theorem C13_trim_skips : forall now c, clock_ok now ->
  record_in_window now (read_record c) -> trim now c = c /\ trim_err now c = false.
Proof. exact trim_skips. Qed.
Print Assumptions C13_trim_skips.

(* missing / unreadable / corrupt / a day old / an hour ahead: the scan runs over every
   subdirectory that can be opened; the record becomes now's second, which
   ParseInt(TrimSpace(.)) reads back — unless trim.txt cannot be written: then it stays as it
   was and that error is the only one Trim returns *)
Theorem C13_trim_runs_otherwise : forall now c, clock_ok now -> record_stale now (read_record c) ->
  trim now c = trimmed now c /\ trim_err now c = trimblocked c /\
  parse_int (trim_space (decimal (now / nano))) = Some (now / nano).
Proof. exact trim_runs_otherwise. Qed.
Print Assumptions C13_trim_runs_otherwise.

(* after a trim that ran, a second one within (a day minus the truncated second) does nothing *)
Theorem C13_trim_then_skips : forall now now' c, clock_ok now -> clock_ok now' ->
  record_stale now (read_record c) -> trimblocked c = false ->
  now <= now' -> now' - now < trim_interval - nano ->
  trim now' (trim now c) = trim now c.
Proof. exact trim_then_skips. Qed.
Print Assumptions C13_trim_then_skips.

(* used refreshes iff the mtime is at least mtimeInterval old; afterwards mtime >= u - mtimeInterval *)
Theorem C13_used_keeps : forall u o, clock_ok u -> ns_ok (omtime o) -> stat_ok (okind_of o) = true ->
  let o' := used_obj u o in
  omtime o' = (if u - omtime o <? mtime_interval then omtime o else u) /\
  u - mtime_interval <= omtime o' /\ omtime o <= omtime o' /\
  oname o' = oname o /\ odata o' = odata o /\ okind_of o' = okind_of o.
Proof. exact used_keeps. Qed.
Print Assumptions C13_used_keeps.

(* the invariant, over every history of stores, lookups and trims with a monotone clock *)
Theorem C13_lastuse_invariant : forall c h, dir_ok c ->
  Forall ev_ok h ->
  StronglySorted (fun a b => etime a <= etime b) h ->
  forall e i n o, In e h -> uses e i n ->
  In o (subdir i (run true c h)) -> oname o = n -> okind_of o = KFile ->
  etime e - mtime_interval <= omtime o.
Proof. exact lastuse_invariant. Qed.
Print Assumptions C13_lastuse_invariant.

(* under that invariant, what was used within trimLimit survives *)
Theorem C13_trim_keeps_recent : forall now c i o lastuse, clock_ok now -> ns_ok (omtime o) ->
  In o (subdir i c) ->
  lastuse - mtime_interval <= omtime o ->
  now - trim_limit <= lastuse ->
  In o (subdir i (trim now c)).
Proof. exact trim_keeps_recent. Qed.
Print Assumptions C13_trim_keeps_recent.

(* when the scan runs, every regular file with an entry name and mtime < now - trimLimit - mtimeInterval goes *)
Theorem C13_trim_removes_stale : forall now c i o, clock_ok now -> record_stale now (read_record c) ->
  (i < Z.to_nat trim_subdir_count)%nat -> ns_ok (omtime o) ->
  is_entry_name (oname o) = true -> okind_of o = KFile ->
  omtime o < now - trim_limit - mtime_interval ->
  ~ In o (subdir i (trim now c)).
Proof. exact trim_removes_stale. Qed.
Print Assumptions C13_trim_removes_stale.

(* nothing outside the 256 subdirectories changes (trim.txt aside); inside them nothing is added or
   modified, and names without the -a / -d suffix stay, in order *)
Theorem C13_trim_only_entries : forall now c,
  rootobjs (trim now c) = rootobjs c /\
  length (subdirs (trim now c)) = length (subdirs c) /\
  forall i,
    (forall o, In o (subdir i (trim now c)) -> In o (subdir i c)) /\
    filter non_entry (subdir i (trim now c)) = filter non_entry (subdir i c) /\
    (forall o, In o (subdir i c) ->
       is_entry_name (oname o) = false \/ stat_ok (okind_of o) = false \/ remove_ok (okind_of o) = false ->
       In o (subdir i (trim now c))) /\
    ((Z.to_nat trim_subdir_count <= i)%nat -> subdir i (trim now c) = subdir i c).
Proof. exact trim_only_entries. Qed.
Print Assumptions C13_trim_only_entries.

(* an interrupted Trim (killed anywhere, any order of processing): whatever subset of the
   removals was carried out, keep-recent and only-entries hold, only stale entries are gone,
   and the record is unchanged, so the next Trim runs *)
Theorem C13_trim_partial_safe : forall done now c, clock_ok now ->
  rootobjs (trim_partial done now c) = rootobjs c /\
  trimtxt (trim_partial done now c) = trimtxt c /\
  trimblocked (trim_partial done now c) = trimblocked c /\
  (forall now', trim_due now' (read_record (trim_partial done now c)) = trim_due now' (read_record c)) /\
  forall i,
    (forall o, In o (subdir i (trim_partial done now c)) -> In o (subdir i c)) /\
    filter non_entry (subdir i (trim_partial done now c)) = filter non_entry (subdir i c) /\
    (forall o lastuse, In o (subdir i c) -> ns_ok (omtime o) ->
       lastuse - mtime_interval <= omtime o -> now - trim_limit <= lastuse ->
       In o (subdir i (trim_partial done now c))) /\
    (forall o, In o (subdir i c) -> ns_ok (omtime o) -> ~ In o (subdir i (trim_partial done now c)) ->
       is_entry_name (oname o) = true /\ omtime o < now - trim_limit - mtime_interval).
Proof. exact trim_partial_safe. Qed.
Print Assumptions C13_trim_partial_safe.

(* the same after any number k of completed subdirectories *)
Theorem C13_trim_prefix_safe : forall k now c, clock_ok now ->
  rootobjs (trim_prefix k now c) = rootobjs c /\
  trimtxt (trim_prefix k now c) = trimtxt c /\
  trimblocked (trim_prefix k now c) = trimblocked c /\
  (forall now', trim_due now' (read_record (trim_prefix k now c)) = trim_due now' (read_record c)) /\
  forall i,
    (forall o, In o (subdir i (trim_prefix k now c)) -> In o (subdir i c)) /\
    filter non_entry (subdir i (trim_prefix k now c)) = filter non_entry (subdir i c) /\
    (forall o lastuse, In o (subdir i c) -> ns_ok (omtime o) ->
       lastuse - mtime_interval <= omtime o -> now - trim_limit <= lastuse ->
       In o (subdir i (trim_prefix k now c))) /\
    (forall o, In o (subdir i c) -> ns_ok (omtime o) -> ~ In o (subdir i (trim_prefix k now c)) ->
       is_entry_name (oname o) = true /\ omtime o < now - trim_limit - mtime_interval).
Proof. intros k. apply trim_partial_safe. Qed.
Print Assumptions C13_trim_prefix_safe.

Theorem C13_trim_prefix_is_prefix : forall k now c i,
  subdir i (trim_prefix k now c) =
  if trim_due now (read_record c) && Nat.ltb i (Nat.min k (Z.to_nat trim_subdir_count))
  then trim_subdir (trim_cutoff now) (subdir i c) else subdir i c.
Proof. exact subdir_trim_prefix. Qed.
Print Assumptions C13_trim_prefix_is_prefix.

(* the next due Trim, at the same or a later time, leaves what it would have left without the interruption *)
Theorem C13_trim_resume : forall done now now' c, clock_ok now -> clock_ok now' -> now <= now' ->
  trim_due now' (read_record c) = true ->
  trim now' (trim_partial done now c) = trim now' c.
Proof. exact trim_resume. Qed.
Print Assumptions C13_trim_resume.

(* which files each public lookup refreshes: Get the index file only *)
Theorem C13_api_get_touches : forall u ia na c,
  (forall i, subdir i (api_get u ia na c) = map (touch u ia na i) (subdir i c)) /\
  rootobjs (api_get u ia na c) = rootobjs c /\ trimtxt (api_get u ia na c) = trimtxt c.
Proof. intros. split; [intros i; apply subdir_used|split; reflexivity]. Qed.
Print Assumptions C13_api_get_touches.

(* OutputFile the data file only *)
Theorem C13_api_output_file_touches : forall u id nd c,
  (forall i, subdir i (api_output_file u id nd c) = map (touch u id nd i) (subdir i c)) /\
  rootobjs (api_output_file u id nd c) = rootobjs c /\ trimtxt (api_output_file u id nd c) = trimtxt c.
Proof. intros. split; [intros i; apply subdir_used|split; reflexivity]. Qed.
Print Assumptions C13_api_output_file_touches.

(* GetFile and GetBytes both *)
Theorem C13_api_lookup_touches : forall u ia na id nd c,
  (forall i, subdir i (lookup u ia na id nd c) = map (touch u id nd i) (map (touch u ia na i) (subdir i c))) /\
  rootobjs (lookup u ia na id nd c) = rootobjs c /\ trimtxt (lookup u ia na id nd c) = trimtxt c.
Proof.
  intros. split; [intros i|split; reflexivity].
  unfold lookup, api_output_file, api_get. rewrite !subdir_used. reflexivity.
Qed.
Print Assumptions C13_api_lookup_touches.

(* after Get at time u the index file survives any trim at now <= u + trimLimit *)
Theorem C13_get_refreshes_index : forall c u now ia na, dir_ok c -> clock_ok u -> clock_ok now ->
  now <= u + trim_limit ->
  forall o', In o' (subdir ia (api_get u ia na c)) -> oname o' = na -> stat_ok (okind_of o') = true ->
  u - mtime_interval <= omtime o' /\ In o' (subdir ia (trim now (api_get u ia na c))).
Proof.
  intros c u now ia na Hok Hc Hn Hle. apply (used_kept true c (EGet u ia na)); simpl; auto.
  split; [exact Hc|exact I].
Qed.
Print Assumptions C13_get_refreshes_index.

(* ... but not the data file: Get alone does not protect the output (its documented contract) *)
Theorem C13_get_only_data_not_protected : exists c u now ia na id nd,
  dir_ok c /\ clock_ok u /\ clock_ok now /\ u <= now <= u + trim_limit /\
  has_file na (subdir ia c) = true /\ has_file nd (subdir id c) = true /\
  let c' := trim now (api_get u ia na c) in
  has_file na (subdir ia c') = true /\ has_file nd (subdir id c') = false.
Proof. exact get_only_data_not_protected. Qed.
Print Assumptions C13_get_only_data_not_protected.

(* after a lookup at time u both files are still there, refreshed, and survive any trim at now <= u + trimLimit *)
Theorem C13_lookup_refreshes : forall c u now ia na id nd, dir_ok c -> clock_ok u -> clock_ok now ->
  now <= u + trim_limit ->
  let c' := lookup u ia na id nd c in
  forall i n, (i = ia /\ n = na) \/ (i = id /\ n = nd) ->
  (forall o, In o (subdir i c) -> oname o = n ->
     exists o', In o' (subdir i c') /\ oname o' = n /\ odata o' = odata o /\ okind_of o' = okind_of o) /\
  (forall o', In o' (subdir i c') -> oname o' = n -> stat_ok (okind_of o') = true ->
     u - mtime_interval <= omtime o' /\ In o' (subdir i (trim now c'))).
Proof. exact lookup_refreshes. Qed.
Print Assumptions C13_lookup_refreshes.

(* histories (repaired Put): a file used at time u is still there after any further stores, lookups
   and trims whose times lie in [u, u + trimLimit] *)
Theorem C13_history_survives : forall c pre e post i n, dir_ok c ->
  Forall ev_ok (pre ++ e :: post) -> uses e i n ->
  (exists o, In o (subdir i (run true c (pre ++ [e]))) /\ oname o = n /\ okind_of o = KFile) ->
  Forall (fun e' => etime e <= etime e' <= etime e + trim_limit) post ->
  exists o, In o (subdir i (run true c (pre ++ e :: post))) /\ oname o = n /\ okind_of o = KFile.
Proof.
  intros c pre e post i n Hok Hc Hu Hex Hpost. apply has_file_spec.
  apply (survives true); auto. apply has_file_spec, Hex.
Qed.
Print Assumptions C13_history_survives.

(* the code before the repair of copyFile: only when the use is not a re-store of an existing output *)
Theorem C13_history_survives_unrepaired_partial : forall c pre e post i n, dir_ok c ->
  Forall ev_ok (pre ++ e :: post) -> uses e i n ->
  store_refreshes (run false c pre) e i n ->
  (exists o, In o (subdir i (run false c (pre ++ [e]))) /\ oname o = n /\ okind_of o = KFile) ->
  Forall (fun e' => etime e <= etime e' <= etime e + trim_limit) post ->
  exists o, In o (subdir i (run false c (pre ++ e :: post))) /\ oname o = n /\ okind_of o = KFile.
Proof.
  intros c pre e post i n Hok Hc Hu Hr Hex Hpost. apply has_file_spec.
  apply (survives false); auto. apply has_file_spec, Hex.
Qed.
Print Assumptions C13_history_survives_unrepaired_partial.

(* ... and without that restriction the statement is false for the unrepaired store *)
Theorem C13_unrepaired_store_refuted : exists c pre e post i n,
  dir_ok c /\ Forall ev_ok (pre ++ e :: post) /\ uses e i n /\
  (exists o, In o (subdir i (run false c (pre ++ [e]))) /\ oname o = n /\ okind_of o = KFile) /\
  Forall (fun e' => etime e <= etime e' <= etime e + trim_limit) post /\
  ~ (exists o, In o (subdir i (run false c (pre ++ e :: post))) /\ oname o = n /\ okind_of o = KFile).
Proof. exact store_asis_refuted. Qed.
Print Assumptions C13_unrepaired_store_refuted.

(* the executable form of the history statement (with the property's five days) is true of the
   model on every directory and history; the runner evaluates it on every scenario *)
Theorem C13_holds_on_true : forall c h, dir_ok c -> Forall ev_ok h ->
  c13_holds_on c h = true.
Proof.
  intros c h Hok Hc. unfold c13_holds_on. replace stated_limit with trim_limit by (symmetry; apply intervals_as_stated).
  apply holds_from_true; auto.
Qed.
Print Assumptions C13_holds_on_true.

(* Trim concurrent with a lookup in another process (one file, interleaved at Stat / Remove /
   Chtimes / read): a file that is young or was refreshed before the trimming process looks at
   it survives every interleaving *)
Theorem C13_conc_fresh_survives : forall data now u sched s o, clock_ok now -> clock_ok u ->
  now <= u + trim_limit ->
  cfile s = Some o -> ns_ok (omtime o) -> u - mtime_interval <= omtime o ->
  ctp s = TIdle ->
  exists o', cfile (c_run data (trim_cutoff now) u sched s) = Some o' /\
             oname o' = oname o /\ odata o' = odata o /\ okind_of o' = okind_of o /\
             u - mtime_interval <= omtime o'.
Proof. exact conc_fresh_survives. Qed.
Print Assumptions C13_conc_fresh_survives.

(* in particular an entry whose lookup completed before the trim reached it *)
Theorem C13_conc_lookup_before_trim : forall data now u o sched, clock_ok now -> clock_ok u ->
  now <= u + trim_limit -> ns_ok (omtime o) -> okind_of o = KFile ->
  let s1 := c_run data (trim_cutoff now) u lookup_alone (c_init o) in
  clp s1 = LDone true /\
  exists o', cfile (c_run data (trim_cutoff now) u sched s1) = Some o' /\
             oname o' = oname o /\ odata o' = odata o /\ okind_of o' = KFile /\
             u - mtime_interval <= omtime o'.
Proof. exact conc_lookup_before_trim. Qed.
Print Assumptions C13_conc_lookup_before_trim.

(* no interleaving removes a file that the trimming process did not see stale *)
Theorem C13_conc_removed_only_if_seen_stale : forall data cutoff u sched s o,
  cfile s = Some o -> ctp s = TIdle -> trim_removes cutoff o = false ->
  trim_removes cutoff (set_mtime u o) = false ->
  cfile (c_run data cutoff u sched s) <> None.
Proof. exact conc_removed_only_if_seen_stale. Qed.
Print Assumptions C13_conc_removed_only_if_seen_stale.

(* a lookup that overlaps the trim may lose: Stat by the trim, the whole (successful,
   refreshing) lookup, then the Remove *)
Theorem C13_conc_overlap_removed :
  let s := c_run false (trim_cutoff ex_c_now) ex_c_now [true; false; false; false; false; true] (c_init ex_c_old) in
  clp s = LDone true /\ cfile s = None.
Proof. exact conc_overlap_removed. Qed.
Print Assumptions C13_conc_overlap_removed.

(* ... or win *)
Theorem C13_conc_overlap_survives :
  let s := c_run false (trim_cutoff ex_c_now) ex_c_now [false; false; false; true; false; true] (c_init ex_c_old) in
  clp s = LDone true /\ cfile s = Some (set_mtime ex_c_now ex_c_old).
Proof. exact conc_overlap_survives. Qed.
Print Assumptions C13_conc_overlap_survives.

(* and GetBytes (used, then read) can refresh the data file and still miss *)
Theorem C13_conc_overlap_data_miss :
  let s := c_run true (trim_cutoff ex_c_now) ex_c_now [true; false; false; true; false] (c_init ex_c_oldd) in
  clp s = LDone false /\ cfile s = None.
Proof. exact conc_overlap_data_miss. Qed.
Print Assumptions C13_conc_overlap_data_miss.

(* The source as translated: Gen/CacheSrc.v is made from cache/cache.go by harness/go2coq on every
   run; CacheTrim/SrcFacts.v proves the segments of used / Trim / trimSubdir equal to the tests of
   the model above. *)
From GI Require Import Lib.GoSem Lib.GoSemSeg.
From GI Require Cache.SrcLib Gen.CacheSrc CacheTrim.SrcFacts TxtarWrite.Path.
Import SrcLib CacheSrc SrcFacts.

(* the body of  if data, err := lockedfile.Read(trim.txt); err == nil { ... }  of Trim as translated
   (ParseInt(TrimSpace(data)), time.Unix(t, 0), now.Sub, the two comparisons): it returns nil iff
   the model's trim_due is false *)
Theorem C13_source_due_eq : forall now data,
  src_Cache_Trim_due (time_of_ns now) data = Ok (if trim_due now (Some data) then Normal tt else Return false).
Proof. exact src_Trim_due_eq. Qed.
Print Assumptions C13_source_due_eq.

(* window exactness of the source's arithmetic: a parsable record t stops the scan iff
   -mtimeInterval < now - t*10^9 < trimInterval, for every int64 t *)
Theorem C13_source_window_exact : forall now data t, clock_ok now -> parse_int (trim_space data) = Some t ->
  src_Cache_Trim_due (time_of_ns now) data =
    Ok (if (now - t * nano <? trim_interval) && (now - t * nano >? - mtime_interval) then Return false else Normal tt).
Proof. exact src_Trim_window_exact. Qed.
Print Assumptions C13_source_window_exact.

Theorem C13_source_due_window : forall now data, clock_ok now ->
  (src_Cache_Trim_due (time_of_ns now) data = Ok (Return false) <-> record_in_window now (Some data)) /\
  (src_Cache_Trim_due (time_of_ns now) data = Ok (Normal tt) <-> record_stale now (Some data)).
Proof. exact src_Trim_due_window. Qed.
Print Assumptions C13_source_due_window.

(* a record that does not parse never stops the scan *)
Theorem C13_source_corrupt_runs : forall now data, parse_int (trim_space data) = None ->
  src_Cache_Trim_due (time_of_ns now) data = Ok (Normal tt).
Proof. exact src_Trim_corrupt. Qed.
Print Assumptions C13_source_corrupt_runs.

(* cutoff := now.Add(-trimLimit - mtimeInterval) as translated is the model's cutoff, the instant
   now - trimLimit - mtimeInterval *)
Theorem C13_source_cutoff_eq : forall now,
  src_Cache_Trim_cutoff (time_of_ns now) = Ok (Normal (trim_cutoff now)).
Proof. exact src_Trim_cutoff_eq. Qed.
Print Assumptions C13_source_cutoff_eq.

Theorem C13_source_cutoff_exact : forall now, clock_ok now ->
  src_Cache_Trim_cutoff (time_of_ns now) = Ok (Normal (time_of_ns (now - trim_limit - mtime_interval))).
Proof. exact src_Trim_cutoff_exact. Qed.
Print Assumptions C13_source_cutoff_exact.

(* trimSubdir as translated: only names ending in -a / -d are looked at, and the file found by Stat
   is removed iff its mtime is before the cutoff; together: the model's trim_removes *)
Theorem C13_source_candidate_eq : forall subdir name,
  src_Cache_trimSubdir_candidate subdir name =
    Ok (if is_entry_name name then Normal (Path.join subdir name) else Continue tt).
Proof. exact src_trimSubdir_candidate_eq. Qed.
Print Assumptions C13_source_candidate_eq.

Theorem C13_source_stale_exact : forall now mtime, clock_ok now -> ns_ok mtime ->
  src_Cache_trimSubdir_stale (trim_cutoff now) (time_of_ns mtime) false =
    Ok (mtime <? now - trim_limit - mtime_interval).
Proof. exact src_trimSubdir_stale_exact. Qed.
Print Assumptions C13_source_stale_exact.

Theorem C13_source_trim_removes : forall cutoff o,
  trim_removes cutoff o =
    match src_Cache_trimSubdir_candidate [] (oname o),
          src_Cache_trimSubdir_stale cutoff (time_of_ns (omtime o)) (negb (stat_ok (okind_of o))) with
    | Ok (Normal _), Ok true => remove_ok (okind_of o)
    | _, _ => false
    end.
Proof. exact trim_removes_src. Qed.
Print Assumptions C13_source_trim_removes.

(* used as translated leaves the mtime alone iff Stat succeeded and the file is less than
   mtimeInterval old; the model's used_obj is Stat, this test, Chtimes *)
Theorem C13_source_used_exact : forall u m, clock_ok u -> ns_ok m ->
  src_Cache_used_fresh (time_of_ns m) false (time_of_ns u) =
    Ok (if u - m <? mtime_interval then Return tt else Normal tt).
Proof. exact src_used_fresh_exact. Qed.
Print Assumptions C13_source_used_exact.

Theorem C13_source_used_obj : forall now o,
  used_obj now o =
    match src_Cache_used_fresh (time_of_ns (omtime o)) (negb (stat_ok (okind_of o))) (time_of_ns now) with
    | Ok (Return _) => o
    | _ => if stat_ok (okind_of o) then set_mtime now o else o
    end.
Proof. exact used_obj_src. Qed.
Print Assumptions C13_source_used_obj.
