(* C14 — txtar quoting: NeedsQuote is exact and Quote/Unquote are inverse.
   Only the property theorems, each closed by [exact] of a lemma proved in Txtar/ or
   Lib/Utf8*Facts.v, with Print Assumptions beneath it. *)
From Coq Require Import List.
From Coq.Strings Require Import Byte.
From GI Require Import Lib.Bytes Gen.TxtarConsts Txtar.Txtar Txtar.TxtarFacts Txtar.QuoteFacts
  Txtar.TxtarIndex Txtar.TxtarIndexFacts Txtar.TxtarHolds Txtar.TxtarHoldsFacts
  Lib.Utf8 Lib.Utf8Facts Lib.Utf8EncodeFacts Txtar.QuoteIndex Txtar.QuoteIndexFacts Lib.Utf8Go Lib.Utf8GoFacts
  Lib.GoSem Gen.TxtarSrc Txtar.SrcFacts.
Import ListNotations.

Theorem C14_needs_quote_exact : forall d,
  needs_quote d = true <-> exists l n, In l (split_lines d) /\ marker_line l = Some n.
Proof. exact needs_quote_exact. Qed.
Print Assumptions C14_needs_quote_exact.

Theorem C14_needs_quote_final_newline : forall d, needs_quote (fix_nl d) = needs_quote d.
Proof. exact needs_quote_fix_nl. Qed.
Print Assumptions C14_needs_quote_final_newline.

Theorem C14_needs_quote_semantic : forall n d,
  wf_name n = true ->
  (needs_quote d = false <->
   parse (format {| comment := []; files := [(n, d)] |})
   = {| comment := []; files := [(n, fix_nl d)] |}).
Proof. exact needs_quote_semantic. Qed.
Print Assumptions C14_needs_quote_semantic.

Theorem C14_unquote_quote : forall d q, quote d = Some q -> unquote q = Some d.
Proof. exact unquote_quote. Qed.
Print Assumptions C14_unquote_quote.

Theorem C14_quote_clean : forall d q c n,
  quote d = Some q -> wf_text c = true -> wf_name n = true ->
  needs_quote q = false /\
  parse (format {| comment := c; files := [(n, q)] |}) = {| comment := c; files := [(n, q)] |}.
Proof. exact quote_clean_survives. Qed.
Print Assumptions C14_quote_clean.

Theorem C14_quote_survives : forall d q c n fs1 fs2,
  quote d = Some q ->
  wf_archive {| comment := c; files := fs1 ++ fs2 |} = true -> wf_name n = true ->
  parse (format {| comment := c; files := fs1 ++ (n, q) :: fs2 |})
  = {| comment := c; files := fs1 ++ (n, q) :: fs2 |}.
Proof. exact quote_survives. Qed.
Print Assumptions C14_quote_survives.

Theorem C14_quote_refuses : forall d,
  quote d = None <-> d <> [] /\ (last_byte d <> Some NL \/ utf8_valid d = false).
Proof. exact quote_refuses. Qed.
Print Assumptions C14_quote_refuses.

(* the statement-level (index-faithful) model of NeedsQuote, TxtarIndex.v *)

Theorem C14_needs_quote_idx_eq : forall d, needs_quote_idx d = Ok (needs_quote d).
Proof. exact needs_quote_idx_eq. Qed.
Print Assumptions C14_needs_quote_idx_eq.

Theorem C14_holds_on : forall d, c14_holds_on d = true.
Proof. exact c14_holds_on_true. Qed.
Print Assumptions C14_holds_on.

(* utf8.Valid (used by Quote) at rune level, Lib/Utf8.v *)

(* the DFA utf8_valid of the model accepts exactly the byte strings that decode rune
   by rune without the error answer (RuneError, width 1) of utf8.DecodeRune *)
Theorem C14_utf8_valid_runes : forall d, utf8_valid d = true <-> valid_runes d.
Proof. exact utf8_valid_iff. Qed.
Print Assumptions C14_utf8_valid_runes.

Theorem C14_utf8_valid_runes_ok : forall d, utf8_valid d = runes_ok d.
Proof. exact utf8_valid_eq. Qed.
Print Assumptions C14_utf8_valid_runes_ok.

(* ... and a rune decodes without error exactly when the input starts with the
   shortest-form encoding of a Unicode scalar value (no overlong form, no surrogate,
   nothing above U+10FFFF) *)
Theorem C14_decode_rune_spec : forall d r w,
  (decode_rune d = Some (r, w) /\ is_err1 (r, w) = false) <->
  (is_scalar r = true /\ w = rune_len r /\ exists rest, d = encode_rune r ++ rest).
Proof. exact decode_rune_spec. Qed.
Print Assumptions C14_decode_rune_spec.

(* Quote / Unquote at statement level (QuoteIndex.v): checked indexing, bytes.Count and
   the allocate-and-copy loop of bytes.Replace, bytes.TrimPrefix; the literals regenerated *)

Theorem C14_quote_idx_eq : forall d, quote_idx d = Ok (quote d).
Proof. exact quote_idx_eq. Qed.
Print Assumptions C14_quote_idx_eq.

Theorem C14_unquote_idx_eq : forall d, unquote_idx d = Ok (unquote d).
Proof. exact unquote_idx_eq. Qed.
Print Assumptions C14_unquote_idx_eq.

(* utf8.DecodeRune as the standard library codes it -- the regenerated tables first / acceptRanges,
   the mask-and-or trick, shifts and ors -- never indexes out of range and is decode_rune *)
Theorem C14_decode_rune_tab_eq : forall p,
  decode_rune_tab p = match decode_rune p with Some (r, w) => DOk r w | None => DEmpty end.
Proof. exact decode_rune_tab_eq. Qed.
Print Assumptions C14_decode_rune_tab_eq.

(* NeedsQuote, Quote, Unquote as TRANSLATED from the Go source text on every run (Gen/TxtarSrc.v,
   made by harness/go2coq in the vocabulary of Lib/GoSem.v), proved equal on every input to the
   statement-level models and hence to needs_quote / quote / unquote.  An ([]byte, error) result is
   the pair (bytes, is-error): err_pair (Some q) = (q, false), err_pair None = ([], true). *)

Theorem C14_source_needs_quote_eq : forall fuel d,
  length d + 1 <= fuel -> src_NeedsQuote fuel d = Ok (needs_quote d).
Proof. exact src_NeedsQuote_eq. Qed.
Print Assumptions C14_source_needs_quote_eq.

Theorem C14_source_quote_eq : forall d, src_Quote d = Ok (err_pair (quote d)).
Proof. exact src_Quote_eq. Qed.
Print Assumptions C14_source_quote_eq.

Theorem C14_source_unquote_eq : forall d, src_Unquote d = Ok (err_pair (unquote d)).
Proof. exact src_Unquote_eq. Qed.
Print Assumptions C14_source_unquote_eq.

Theorem C14_source_quote_idx_eq : forall d,
  src_Quote d = match quote_idx d with Ok o => Ok (err_pair o) | Panic => Panic | OutOfFuel => OutOfFuel end.
Proof. exact src_Quote_idx_eq. Qed.
Print Assumptions C14_source_quote_idx_eq.

Theorem C14_source_unquote_idx_eq : forall d,
  src_Unquote d = match unquote_idx d with Ok o => Ok (err_pair o) | Panic => Panic | OutOfFuel => OutOfFuel end.
Proof. exact src_Unquote_idx_eq. Qed.
Print Assumptions C14_source_unquote_idx_eq.

Theorem C14_source_unquote_quote : forall d q, src_Quote d = Ok (q, false) -> src_Unquote q = Ok (d, false).
Proof. exact src_Unquote_Quote. Qed.
Print Assumptions C14_source_unquote_quote.
