(* C05 — cache returns exactly what was stored, or not-found, never other bytes.
   Only the property theorems; the proofs are in the Cache/*Facts.v and Cache/Src*.v files. *)
From Coq Require Import List ZArith.
From Coq.Strings Require Import Byte.
From GI Require Import Lib.Bytes Gen.CacheConsts Cache.CacheEntry Cache.CacheEntryFacts Cache.Cache Cache.CacheSeqFacts
  Cache.CacheFault Cache.CacheHolds Cache.CacheHoldsFacts Cache.CacheFd Cache.CacheFdFacts Cache.CacheHash Cache.CacheHashFacts.
Import ListNotations.

Theorem C05_entry_roundtrip : forall id out size tm,
  length id = hash_size_n -> length out = hash_size_n ->
  (0 <= size < int64_lim)%Z -> (0 <= tm < int64_lim)%Z ->
  parse_entry (encode_entry id out size tm) id = Some (out, size, tm).
Proof. exact entry_roundtrip. Qed.
Print Assumptions C05_entry_roundtrip.

Theorem C05_parse_entry_strict : forall e id out size tm,
  parse_entry e id = Some (out, size, tm) -> entry_wf e id out size tm.
Proof. exact parse_entry_strict. Qed.
Print Assumptions C05_parse_entry_strict.

Theorem C05_get_bytes_sound : forall (H : bytes -> bytes) fs id,
  match get_bytes H fs id with
  | NotFound => True
  | Found d out size tm => H d = out /\ get fs id = Some (out, size, tm)
  end.
Proof. exact get_bytes_sound. Qed.
Print Assumptions C05_get_bytes_sound.

Theorem C05_get_file_sound : forall fs id,
  match get_file fs id with
  | NotFound => True
  | Found p out size tm =>
      p = DatP out /\ get fs id = Some (out, size, tm) /\
      exists c, fst (run_seq (get_file_prog id) fs) p = Some c /\ Z.of_nat (length c) = size
  end.
Proof. exact get_file_sound. Qed.
Print Assumptions C05_get_file_sound.

Theorem C05_lookups_pure : forall (H : bytes -> bytes) fs id,
  fst (run_seq (get_prog id) fs) = fs /\ fst (run_seq (get_file_prog id) fs) = fs /\
  fst (run_seq (get_bytes_prog H id) fs) = fs.
Proof. exact lookups_pure. Qed.
Print Assumptions C05_lookups_pure.

Theorem C05_put_get : forall (H : bytes -> bytes),
  (forall x, length (H x) = hash_size_n) ->
  forall chunks fs id tm,
  let d := concat chunks in
  length id = hash_size_n ->
  (0 <= tm < int64_lim)%Z -> (Z.of_nat (length d) < int64_lim)%Z ->
  (forall c, fs (DatP (H d)) = Some c -> H c = H d -> c = d) ->
  exists fs',
    put H fs id (honest_reader chunks) tm = (fs', PutOk (H d) (length d)) /\
    get_bytes H fs' id = Found d (H d) (Z.of_nat (length d)) tm /\
    get_file fs' id = Found (DatP (H d)) (H d) (Z.of_nat (length d)) tm /\
    fs' (DatP (H d)) = Some d.
Proof. exact put_get. Qed.
Print Assumptions C05_put_get.

Theorem C05_lookup_frame : forall (H : bytes -> bytes) fs id id' rd tm,
  id' <> id ->
  (forall out size tm0, get fs id = Some (out, size, tm0) -> out <> H (rd_pass1 rd)) ->
  let fs' := fst (put H fs id' rd tm) in
  get fs' id = get fs id /\ get_bytes H fs' id = get_bytes H fs id /\ get_file fs' id = get_file fs id.
Proof. exact lookup_frame. Qed.
Print Assumptions C05_lookup_frame.

Theorem C05_history_sound : forall (H : bytes -> bytes) ops fs n id,
  let s := history_run H (firstn n ops) fs in bytes_ok H s id /\ file_ok s id.
Proof. exact history_sound. Qed.
Print Assumptions C05_history_sound.

Theorem C05_put_get_persists : forall (H : bytes -> bytes) ops fs id d out size tm,
  get_bytes H fs id = Found d out size tm ->
  Forall (harmless H id out) ops ->
  let fs' := history_run H ops fs in
  get_bytes H fs' id = Found d out size tm /\ get_file fs' id = get_file fs id.
Proof. exact put_get_persists. Qed.
Print Assumptions C05_put_get_persists.

Theorem C05_path_name_inj : forall p q, path_name p = path_name q -> p = q.
Proof. exact path_name_inj. Qed.
Print Assumptions C05_path_name_inj.

(* the executable forms the runner evaluates on every case *)
Theorem C05_holds_on_true : forall (H : bytes -> bytes) fs ids, c05_holds_on H fs ids = true.
Proof. exact c05_holds_on_true. Qed.
Print Assumptions C05_holds_on_true.

Theorem C05_put_holds_on_true : forall (H : bytes -> bytes),
  (forall x, length (H x) = hash_size_n) ->
  forall chunks fs id tm,
  let d := concat chunks in
  length id = hash_size_n ->
  (0 <= tm < int64_lim)%Z -> (Z.of_nat (length d) < int64_lim)%Z ->
  (forall c, fs (DatP (H d)) = Some c -> H c = H d -> c = d) ->
  c05_put_holds_on H fs id chunks tm = true.
Proof. exact c05_put_holds_on_true. Qed.
Print Assumptions C05_put_holds_on_true.

(* descriptors: whatever the files hold and whatever its operations answer, a lookup that returns has
   closed every file it opened -- lookups cannot use up the descriptors later lookups need *)
Theorem C05_lookups_fd_balanced : forall (H : bytes -> bytes) id b fs,
  (fd_leak b (get_prog id) fs = Some 0%nat \/ fd_leak b (get_prog id) fs = None) /\
  (fd_leak b (get_file_prog id) fs = Some 0%nat \/ fd_leak b (get_file_prog id) fs = None) /\
  (fd_leak b (get_bytes_prog H id) fs = Some 0%nat \/ fd_leak b (get_bytes_prog H id) fs = None).
Proof. exact lookups_fd_balanced. Qed.
Print Assumptions C05_lookups_fd_balanced.

(* every program of the API closes what it opens whatever results its operations deliver *)
Theorem C05_api_closes_all : forall (H : bytes -> bytes) id rd chunks tm out,
  closes_all [] (put_prog H id rd tm) /\ closes_all [] (put_bytes_prog H id chunks tm) /\
  closes_all [] (get_prog id) /\ closes_all [] (get_file_prog id) /\ closes_all [] (get_bytes_prog H id) /\
  closes_all [] (output_file_prog out).
Proof.
  intros H id rd chunks tm out.
  exact (conj (closes_put H id rd tm) (conj (closes_put_bytes H id chunks tm) (conj (closes_get id)
    (conj (closes_get_file id) (conj (closes_get_bytes H id) (closes_output_file out)))))).
Qed.
Print Assumptions C05_api_closes_all.

(* PutBytes then lookups: PutBytes is Put from an in-memory source *)
Theorem C05_put_bytes_get : forall (H : bytes -> bytes),
  (forall x, length (H x) = hash_size_n) ->
  forall chunks fs id tm,
  let d := concat chunks in
  length id = hash_size_n ->
  (0 <= tm < int64_lim)%Z -> (Z.of_nat (length d) < int64_lim)%Z ->
  (forall c, fs (DatP (H d)) = Some c -> H c = H d -> c = d) ->
  exists fs',
    run_seq (put_bytes_prog H id chunks tm) fs = (fs', PutOk (H d) (length d)) /\
    get_bytes H fs' id = Found d (H d) (Z.of_nat (length d)) tm /\
    get_file fs' id = Found (DatP (H d)) (H d) (Z.of_nat (length d)) tm /\
    fs' (DatP (H d)) = Some d.
Proof. exact put_get. Qed.
Print Assumptions C05_put_bytes_get.

(* cache/hash.go: however the data is cut into Write calls, Hash.Sum is SHA-256 of the whole *)
Theorem C05_hash_sum_chunks : forall (H : bytes -> bytes) chunks,
  hash_sum H (fold_left hash_write chunks new_hash) = H (concat chunks).
Proof. exact hash_sum_chunks. Qed.
Print Assumptions C05_hash_sum_chunks.

(* Subkey is unambiguous: ids have a fixed length, so what is hashed determines parent and description *)
Theorem C05_subkey_inj : forall (H : bytes -> bytes) (U : bytes -> Prop),
  (forall a b, U a -> U b -> H a = H b -> a = b) ->
  forall p d p' d', length p = length p' ->
  U (subkey_preimage p d) -> U (subkey_preimage p' d') ->
  subkey H p d = subkey H p' d' -> p = p' /\ d = d'.
Proof. exact subkey_inj. Qed.
Print Assumptions C05_subkey_inj.

(* FileHash: a name not yet known is hashed from the disk; a failure is not remembered; once a name
   has a sum (computed, or set by SetFileHash) FileHash answers it whatever the disk holds by then *)
Theorem C05_file_hash_fresh : forall (H : bytes -> bytes) t disk name c,
  fh_lookup t name = None -> disk name = Some c ->
  file_hash H t disk name = (set_file_hash t name (H c), Some (H c)).
Proof. exact file_hash_fresh. Qed.
Print Assumptions C05_file_hash_fresh.

Theorem C05_file_hash_failure_not_remembered : forall (H : bytes -> bytes) t disk name,
  fh_lookup t name = None -> disk name = None -> file_hash H t disk name = (t, None).
Proof. exact file_hash_failure_not_remembered. Qed.
Print Assumptions C05_file_hash_failure_not_remembered.

Theorem C05_file_hash_twice : forall (H : bytes -> bytes) t disk disk' name t1 s,
  file_hash H t disk name = (t1, Some s) -> file_hash H t1 disk' name = (t1, Some s).
Proof. exact file_hash_twice. Qed.
Print Assumptions C05_file_hash_twice.

Theorem C05_set_then_file_hash : forall (H : bytes -> bytes) t disk name s,
  file_hash H (set_file_hash t name s) disk name = (set_file_hash t name s, Some s).
Proof. exact set_then_file_hash. Qed.
Print Assumptions C05_set_then_file_hash.

From GI Require Import Cache.CacheConc Cache.CacheReent Cache.CacheReentFacts.

(* a lookup made by the source reader of a Put, while that Put is in progress (CacheReent.v): the
   Reads of the hash pass precede every file operation, the n-th Read of the copy pass precedes the
   n-th write to the output file.  Lookups leave the files alone, so the Put is not disturbed ... *)
Theorem C05_lookup_inside_put_transparent : forall (H : bytes -> bytes) id chunks tm c w fs,
  is_lookup c = true ->
  fst (put_cb H id chunks tm c w fs) = put H fs id (honest_reader chunks) tm.
Proof. exact put_cb_transparent. Qed.
Print Assumptions C05_lookup_inside_put_transparent.

(* ... it succeeds on an arbitrarily damaged store and is followed by exact lookups, whichever lookup
   its source made at whichever point ... *)
Theorem C05_lookup_inside_put_get : forall (H : bytes -> bytes),
  (forall x, length (H x) = hash_size_n) ->
  forall chunks fs id tm c w,
  let d := concat chunks in
  is_lookup c = true ->
  length id = hash_size_n ->
  (0 <= tm < int64_lim)%Z -> (Z.of_nat (length d) < int64_lim)%Z ->
  (forall c0, fs (DatP (H d)) = Some c0 -> H c0 = H d -> c0 = d) ->
  exists fs',
    fst (put_cb H id chunks tm c w fs) = (fs', PutOk (H d) (length d)) /\
    get_bytes H fs' id = Found d (H d) (Z.of_nat (length d)) tm /\
    get_file fs' id = Found (DatP (H d)) (H d) (Z.of_nat (length d)) tm /\
    fs' (DatP (H d)) = Some d.
Proof. exact put_cb_get. Qed.
Print Assumptions C05_lookup_inside_put_get.

(* ... and what the inner lookup is told is sound whatever the Put has written so far: bytes hash to
   the reported OutputID, a named file has the reported size *)
Theorem C05_lookup_inside_put_sound : forall (H : bytes -> bytes) id chunks tm c w fs b,
  is_lookup c = true ->
  snd (put_cb H id chunks tm c w fs) = Some b ->
  match b with
  | XBytes (Found d out _ _) => H d = out
  | XFile (Found p out size _) => p = DatP out /\ exists (fs1 : files) (c0 : bytes), fs1 p = Some c0 /\ Z.of_nat (length c0) = size
  | _ => True
  end.
Proof. exact put_cb_inner_sound. Qed.
Print Assumptions C05_lookup_inside_put_sound.

(* the source as data plus position: Put rewinds before each pass (regenerated flags put_order_ok,
   copy_commit_ok), so a source handed over at ANY position stores the whole data ... *)
Theorem C05_put_from_any_position : forall (H : bytes -> bytes),
  (forall x, length (H x) = hash_size_n) ->
  forall cut s fs id tm,
  let d := ms_data s in
  concat (cut d) = d ->
  length id = hash_size_n ->
  (0 <= tm < int64_lim)%Z -> (Z.of_nat (length d) < int64_lim)%Z ->
  (forall c0, fs (DatP (H d)) = Some c0 -> H c0 = H d -> c0 = d) ->
  exists fs',
    put_src H fs id s cut tm = (fs', PutOk (H d) (length d)) /\
    get_bytes H fs' id = Found d (H d) (Z.of_nat (length d)) tm /\
    get_file fs' id = Found (DatP (H d)) (H d) (Z.of_nat (length d)) tm /\
    fs' (DatP (H d)) = Some d.
Proof. exact put_src_get. Qed.
Print Assumptions C05_put_from_any_position.

(* ... and the reader a Put has used, left at its end, given to Put again (any id): the whole data again *)
Theorem C05_put_reader_reuse : forall (H : bytes -> bytes),
  (forall x, length (H x) = hash_size_n) ->
  forall cut s fs id tm id' tm',
  let d := ms_data s in
  concat (cut d) = d ->
  length id = hash_size_n -> length id' = hash_size_n ->
  (0 <= tm < int64_lim)%Z -> (0 <= tm' < int64_lim)%Z -> (Z.of_nat (length d) < int64_lim)%Z ->
  (forall c0, fs (DatP (H d)) = Some c0 -> H c0 = H d -> c0 = d) ->
  exists fs' fs'',
    put_src H fs id s cut tm = (fs', PutOk (H d) (length d)) /\
    put_src H fs' id' (ms_after_put s) cut tm' = (fs'', PutOk (H d) (length d)) /\
    get_bytes H fs'' id' = Found d (H d) (Z.of_nat (length d)) tm' /\
    get_file fs'' id' = Found (DatP (H d)) (H d) (Z.of_nat (length d)) tm'.
Proof. exact put_src_reuse. Qed.
Print Assumptions C05_put_reader_reuse.

(* histories that contain such Puts: inner lookups and source positions leave no trace in the
   files -- the history ends in the state of the same history with plain Puts of the whole data, so
   C05_history_sound and C05_put_get_persists cover them; in particular the lookups are sound after
   every prefix *)
Theorem C05_history_with_inner_lookups_erases : forall (H : bytes -> bytes) ops fs,
  Forall xhop_ok ops -> xhistory_run H ops fs = history_run H (map xerase ops) fs.
Proof. exact xhistory_erase. Qed.
Print Assumptions C05_history_with_inner_lookups_erases.

Theorem C05_history_with_inner_lookups_sound : forall (H : bytes -> bytes) ops fs n id,
  Forall xhop_ok ops ->
  let s := xhistory_run H (firstn n ops) fs in bytes_ok H s id /\ file_ok s id.
Proof. exact xhistory_sound. Qed.
Print Assumptions C05_history_with_inner_lookups_sound.

(* on the source as translated: Gen/CacheSrc.v is made from cache/cache.go by harness/go2coq on
   every run; Cache/SrcFacts.v proves its segments equal to the codec above *)
From GI Require Import Lib.GoSem Lib.GoSemSeg Cache.SrcLib Gen.CacheSrc Cache.SrcFacts.
From GI Require CacheTrim.CacheTrim TxtarWrite.Path.

(* the statements of get between io.ReadFull and c.used, run on the buffer e ++ tail (e = the
   entrySize bytes read) with any bound >= 21 on the two padding loops: never Panic, never
   OutOfFuel; return missing(...) iff parse_entry e id = None, else hand on parse_entry's fields *)
Theorem C05_source_get_parse_eq : forall fuel id err e tail,
  length e = entry_size_n -> (21 <= fuel)%nat ->
  src_Cache_get_parse fuel id err (e ++ tail) =
  Ok match parse_entry e id with
     | None => Return (mkEntry (go_zero_array HashSize) 0 go_time_zero, true)
     | Some (out, size, tm) => Normal (false, skipn (entry_size_n - 1) e ++ tail, out, size, tm)
     end.
Proof. exact src_get_parse_eq. Qed.
Print Assumptions C05_source_get_parse_eq.

(* C05_entry_roundtrip on the translated code: what the translated fmt.Sprintf of putIndexEntry
   writes for (id, out, size, clock) is accepted by the translated parser of get for the same id,
   with exactly out, size and the clock's UnixNano *)
Theorem C05_source_entry_roundtrip : forall fuel id out size now err e tail,
  length id = hash_size_n -> length out = hash_size_n ->
  (0 <= size < int64_lim)%Z -> (0 <= go_time_UnixNano now < int64_lim)%Z -> (21 <= fuel)%nat ->
  src_Cache_putIndexEntry_entry id out size now = Ok (Normal e) ->
  src_Cache_get_parse fuel id err (e ++ tail) =
    Ok (Normal (false, [NL] ++ tail, out, size, go_time_UnixNano now)).
Proof. exact src_entry_roundtrip. Qed.
Print Assumptions C05_source_entry_roundtrip.

(* C05_parse_entry_strict on the translated code: what the translated parser lets through is a
   well-formed entry for this id *)
Theorem C05_source_parse_entry_strict : forall fuel id err e tail b r out size tm,
  length e = entry_size_n -> (21 <= fuel)%nat ->
  src_Cache_get_parse fuel id err (e ++ tail) = Ok (Normal (b, r, out, size, tm)) ->
  entry_wf e id out size tm /\ b = false /\ r = skipn (entry_size_n - 1) e ++ tail.
Proof. exact src_get_parse_strict. Qed.
Print Assumptions C05_source_parse_entry_strict.

(* ... and it rejects everything the model's parse_entry rejects *)
Theorem C05_source_parse_entry_rejects : forall fuel id err e tail,
  length e = entry_size_n -> (21 <= fuel)%nat -> parse_entry e id = None ->
  src_Cache_get_parse fuel id err (e ++ tail) =
    Ok (Return (mkEntry (go_zero_array HashSize) 0 go_time_zero, true)).
Proof. exact src_get_parse_rejects. Qed.
Print Assumptions C05_source_parse_entry_rejects.

(* the fmt.Sprintf of putIndexEntry as translated is the model's encode_entry *)
Theorem C05_source_put_entry_eq : forall id out size now,
  src_Cache_putIndexEntry_entry id out size now = Ok (Normal (encode_entry id out size (go_time_UnixNano now))).
Proof. exact src_put_entry_eq. Qed.
Print Assumptions C05_source_put_entry_eq.

(* the final return of get as translated: the decoded fields and time.Unix(0, tm) *)
Theorem C05_source_get_result : forall buf size tm, (0 <= tm < int64_lim)%Z ->
  src_Cache_get_result buf size tm = Ok (Return (mkEntry buf size (CacheTrim.time_of_ns tm), false)).
Proof. exact src_get_result_eq. Qed.
Print Assumptions C05_source_get_result.

(* fileName as translated: Join(dir, two hex digits of id[0], hex(id) ++ "-" ++ key); with key "a" or
   "d" the last element is what Cache.path_name computes (Cache/SrcWorldFacts.v: cw_fileName_idx, _dat) *)
Theorem C05_source_file_name : forall c b0 idr key,
  src_Cache_fileName_body c (b0 :: idr) key =
    Ok (Return (Path.join (Path.join (cache_dir c) (hex [b0])) (hex (b0 :: idr) ++ name_sep ++ key))).
Proof. exact src_fileName_eq. Qed.
Print Assumptions C05_source_file_name.

(* WHOLE FUNCTIONS of cache/cache.go translated in world mode (Gen/CacheWorldSrc.v: every
   operating-system call an uninterpreted operation of the record SrcWorld.os_ops on an abstract
   world), proved equal -- for every world and every behaviour of the operations -- to running the
   model's program terms with SrcWorld.run_prog over the same operations. *)
From GI Require Import Lib.GoSemWorld Lib.GoSemWorldVal Cache.SrcWorld Gen.CacheWorldSrc Cache.SrcWorldFacts.

(* Cache.fileName as translated is run_prog's file_name for the index entry ("a") and the output
   file ("d") of an id *)
Theorem C05_source_world_file_name : forall (c : cw_Cache) (id : bytes), id <> [] ->
  cw_Cache_fileName c id [x61] = GoSem.Ok (c, file_name (cw_Cache_dir c) (IdxP id)) /\
  cw_Cache_fileName c id [x64] = GoSem.Ok (c, file_name (cw_Cache_dir c) (DatP id)).
Proof. exact (fun c id Hne => conj (cw_fileName_idx c id Hne) (cw_fileName_dat c id Hne)). Qed.
Print Assumptions C05_source_world_file_name.

(* Cache.used as translated performs exactly the operations of the model's used_prog (Stat; Chtimes
   with two clock reads when Stat failed) when files are fresh: the world afterwards is the
   world run_prog reaches *)
Theorem C05_source_world_used : forall (OS : os_ops), always_fresh OS ->
  forall (w : World OS) (c : cw_Cache) (p : path),
  cw_Cache_used OS w c (file_name (cw_Cache_dir c) p) = GoSem.Ok (used_w OS (cw_Cache_dir c) p w, c).
Proof. exact cw_used_eq. Qed.
Print Assumptions C05_source_world_used.

(* ... where used_w is the world after used_prog, whatever follows it *)
Theorem C05_source_world_used_prog : forall (OS : os_ops) (A : Type) dir p (k : prog A) w h o,
  run_prog OS dir (used_prog p k) (w, h, o) = run_prog OS dir k (used_w OS dir p w, h, o).
Proof. exact run_used. Qed.
Print Assumptions C05_source_world_used_prog.

(* Cache.OutputFile as translated = run_prog of output_file_prog *)
Theorem C05_source_world_output_file : forall (OS : os_ops), always_fresh OS ->
  forall (w : World OS) (c : cw_Cache) (out : bytes) h o, out <> [] ->
  cw_Cache_OutputFile OS w c out =
  match run_prog OS (cw_Cache_dir c) (output_file_prog out) (w, h, o) with
  | (st, p) => GoSem.Ok (st_world OS st, c, file_name (cw_Cache_dir c) p)
  end.
Proof. exact cw_OutputFile_eq. Qed.
Print Assumptions C05_source_world_output_file.

(* Cache.get / Get as translated (verify mode off) = run_prog of the model's get_prog: Open; the
   Read calls of io.ReadFull; on a well-formed entry for this id the refresh (used) and then the
   deferred Close; otherwise Close alone; no Close after a failed Open.  A hit hands back the
   decoded entry (output id of 32 bytes), a miss the zero Entry and an entryNotFoundError.
   Premises: the contract of os.File.Read and fresh modification times (SrcWorld.v). *)
From GI Require Import Cache.SrcWorldGet.
Theorem C05_source_world_get : forall (OS : os_ops), read_contract OS -> always_fresh OS ->
  forall fuel (w : World OS) (c : cw_Cache) (id : bytes) h o,
  length id = 32%nat -> (21 <= fuel)%nat ->
  match run_prog OS (cw_Cache_dir c) (get_prog id) (w, h, o) with
  | (st, r) =>
      exists entry err,
        cw_Cache_Get OS false fuel w c id = GoSem.Ok (st_world OS st, c, entry, err) /\ get_rel r entry err
        /\ match r with Some (out, _, _) => length out = 32%nat | None => True end
  end.
Proof. exact cw_Get_eq. Qed.
Print Assumptions C05_source_world_get.

(* Cache.GetFile as translated = run_prog of get_file_prog *)
Theorem C05_source_world_get_file : forall (OS : os_ops), read_contract OS -> always_fresh OS ->
  forall fuel (w : World OS) (c : cw_Cache) (id : bytes) h o,
  size_nonneg OS -> length id = 32%nat -> (21 <= fuel)%nat ->
  match run_prog OS (cw_Cache_dir c) (get_file_prog id) (w, h, o) with
  | (st, r) =>
      exists file entry err,
        cw_Cache_GetFile OS false fuel w c id = GoSem.Ok (st_world OS st, c, file, entry, err)
        /\ get_file_rel (cw_Cache_dir c) r file entry err
  end.
Proof. exact cw_GetFile_eq. Qed.
Print Assumptions C05_source_world_get_file.

(* Cache.GetBytes as translated = run_prog of get_bytes_prog (H is sha256.Sum256) *)
Theorem C05_source_world_get_bytes : forall (OS : os_ops) (H : bytes -> bytes), read_contract OS -> always_fresh OS ->
  forall fuel (w : World OS) (c : cw_Cache) (id : bytes) h o,
  length id = 32%nat -> (21 <= fuel)%nat ->
  match run_prog OS (cw_Cache_dir c) (get_bytes_prog H id) (w, h, o) with
  | (st, r) =>
      exists data entry err,
        cw_Cache_GetBytes OS H false fuel w c id = GoSem.Ok (st_world OS st, c, data, entry, err)
        /\ get_bytes_rel r data entry err
  end.
Proof. exact cw_GetBytes_eq. Qed.
Print Assumptions C05_source_world_get_bytes.

(* C05_get_bytes_sound on the translated GetBytes, for every behaviour of the operating system
   within the two contracts: bytes handed back with a nil error hash to the output id handed back
   with them *)
Theorem C05_source_world_get_bytes_sound : forall (OS : os_ops) (H : bytes -> bytes), read_contract OS -> always_fresh OS ->
  forall fuel (w : World OS) (c : cw_Cache) (id : bytes) w' c' data entry err,
  length id = 32%nat -> (21 <= fuel)%nat ->
  cw_Cache_GetBytes OS H false fuel w c id = GoSem.Ok (w', c', data, entry, err) ->
  werr_is_nil err = true -> H data = cw_Entry_OutputID entry.
Proof. exact cw_GetBytes_sound. Qed.
Print Assumptions C05_source_world_get_bytes_sound.
