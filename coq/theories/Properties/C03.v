(* C03 — txtar: Parse is total and Format/Parse round-trips.
   This file contains only the property theorems, each closed by [exact] of a lemma
   proved elsewhere, with Print Assumptions beneath it. *)
From Coq Require Import List.
From Coq.Strings Require Import Byte.
From GI Require Import Lib.Bytes Gen.TxtarConsts Txtar.Txtar Txtar.TxtarFacts
  Txtar.TxtarIndex Txtar.TxtarIndexFacts Txtar.TxtarHolds Txtar.TxtarHoldsFacts
  Lib.Utf8 Lib.Utf8Facts Lib.Utf8Trim Lib.Utf8TrimFacts Lib.GoSem Gen.TxtarSrc Txtar.SrcFacts.
Import ListNotations.

Theorem C03_parse_format_parse : forall s, parse (format (parse s)) = parse s.
Proof. exact parse_format_parse. Qed.
Print Assumptions C03_parse_format_parse.

Theorem C03_parse_format_wf : forall a, wf_archive a = true -> parse (format a) = a.
Proof. exact parse_format_wf. Qed.
Print Assumptions C03_parse_format_wf.

Theorem C03_parse_wf_archive : forall s, wf_archive (parse s) = true.
Proof. exact parse_wf_archive. Qed.
Print Assumptions C03_parse_wf_archive.

Theorem C03_parse_data_nl : forall s,
  fix_nl (comment (parse s)) = comment (parse s) /\
  Forall (fun nd => fix_nl (snd nd) = snd nd) (files (parse s)).
Proof. exact parse_data_nl. Qed.
Print Assumptions C03_parse_data_nl.

Theorem C03_parse_names_wf : forall s,
  Forall (fun nd => wf_name (fst nd) = true) (files (parse s)).
Proof. exact parse_names_wf. Qed.
Print Assumptions C03_parse_names_wf.

Theorem C03_parse_ref : forall s, ~ In CR s -> parse s = ref_parse s.
Proof. exact parse_ref_In. Qed.
Print Assumptions C03_parse_ref.

Theorem C03_crlf_marker_like_lf : forall l,
  last_byte l <> Some CR -> marker_line (l ++ [CR; NL]) = marker_line (l ++ [NL]).
Proof. exact marker_line_crlf. Qed.
Print Assumptions C03_crlf_marker_like_lf.

Theorem C03_crlf_like_lf : forall pre l post,
  pre = [] \/ last_byte pre = Some NL ->
  ~ In NL l -> last_byte l <> Some CR ->
  map fst (files (parse (pre ++ l ++ [CR; NL] ++ post)))
    = map fst (files (parse (pre ++ l ++ [NL] ++ post)))
  /\ (marker_line (l ++ [NL]) <> None ->
      parse (pre ++ l ++ [CR; NL] ++ post) = parse (pre ++ l ++ [NL] ++ post)).
Proof. exact crlf_like_lf. Qed.
Print Assumptions C03_crlf_like_lf.

Theorem C03_crlf_marker_recognised : forall pre l post n,
  pre = [] \/ last_byte pre = Some NL ->
  ~ In NL l -> marker_core l = Some n ->
  marker_line (l ++ [CR; NL]) = Some n /\ marker_line (l ++ [NL]) = Some n /\
  parse (pre ++ l ++ [CR; NL] ++ post) = parse (pre ++ l ++ [NL] ++ post) /\
  In n (map fst (files (parse (pre ++ l ++ [CR; NL] ++ post)))).
Proof. exact crlf_marker_recognised. Qed.
Print Assumptions C03_crlf_marker_recognised.

Theorem C03_crlf_nonmarker_local : forall pre l post,
  pre = [] \/ last_byte pre = Some NL ->
  ~ In NL l -> last_byte l <> Some CR -> marker_line (l ++ [NL]) = None ->
  exists ts1 p q ts2,
    comment (parse (pre ++ l ++ [CR; NL] ++ post))
      :: map snd (files (parse (pre ++ l ++ [CR; NL] ++ post)))
      = ts1 ++ fix_nl (p ++ (l ++ [CR; NL]) ++ q) :: ts2 /\
    comment (parse (pre ++ l ++ [NL] ++ post))
      :: map snd (files (parse (pre ++ l ++ [NL] ++ post)))
      = ts1 ++ fix_nl (p ++ (l ++ [NL]) ++ q) :: ts2.
Proof. exact crlf_nonmarker_local. Qed.
Print Assumptions C03_crlf_nonmarker_local.

(* the statement-level (index-faithful) model of archive.go, TxtarIndex.v *)

Theorem C03_is_marker_no_panic : forall data, is_marker_idx data <> MPanic.
Proof. exact is_marker_idx_no_panic. Qed.
Print Assumptions C03_is_marker_no_panic.

Theorem C03_find_file_marker_total : forall fuel data,
  length data + 1 <= fuel ->
  find_file_marker_fuel fuel data <> Panic /\ find_file_marker_fuel fuel data <> OutOfFuel.
Proof. exact find_file_marker_fuel_total. Qed.
Print Assumptions C03_find_file_marker_total.

Theorem C03_parse_total : forall s, parse_idx s <> Panic /\ parse_idx s <> OutOfFuel.
Proof. exact parse_idx_total. Qed.
Print Assumptions C03_parse_total.

Theorem C03_parse_idx_eq : forall s, parse_idx s = Ok (parse s).
Proof. exact parse_idx_eq. Qed.
Print Assumptions C03_parse_idx_eq.

Theorem C03_holds_on : forall s, c03_holds_on s = true.
Proof. exact c03_holds_on_true. Qed.
Print Assumptions C03_holds_on.

(* golang.org/x/tools/txtar.Format at statement level (buffer writes, fmt.Fprintf with the
   regenerated format string), and the x/tools marker constants *)

Theorem C03_format_idx_eq : forall a, format_idx a = Ok (format a).
Proof. exact format_idx_eq. Qed.
Print Assumptions C03_format_idx_eq.

Theorem C03_xtools_constants :
  xtools_format_string = marker ++ [x25; x73] ++ marker_end ++ [NL] /\
  (xtools_marker = marker /\ xtools_marker_end = marker_end /\ xtools_newline_marker = newline_marker).
Proof. exact (conj xtools_format_string_eq xtools_markers_eq). Qed.
Print Assumptions C03_xtools_constants.

(* strings.TrimSpace (used by isMarker) at rune level, Lib/Utf8.v *)

(* the byte-table trim_space of the model strips exactly the maximal prefix and suffix
   of white-space runes: runes decoded as utf8.DecodeRune / DecodeLastRune do, white
   space as unicode.IsSpace defines it in the regenerated standard-library tables *)
Theorem C03_trim_space_runes : forall d,
  trim_space d = trim_space_runes d /\ trim_left d = trim_left_runes d /\ trim_right d = trim_right_runes d.
Proof. exact trim_all_eq. Qed.
Print Assumptions C03_trim_space_runes.

(* strings.TrimSpace as the Go code computes it (indexFunc forwards; lastIndexFunc backwards
   with DecodeLastRune, then the width of the last kept rune by decoding FORWARDS) never fails
   and is the model's trim_space *)
Theorem C03_trim_func_eq : forall d, trim_func d = Some (trim_space d).
Proof. exact trim_func_eq. Qed.
Print Assumptions C03_trim_func_eq.

(* txtar/archive.go as TRANSLATED from the Go source text on every run (Gen/TxtarSrc.v, made by
   harness/go2coq in the vocabulary of Lib/GoSem.v): every generated function is proved equal, on
   every input, to the hand-written statement-level model, failure values included; so all of the
   above holds of the code as translated.  [fuel] bounds the iterations of each loop execution. *)

Theorem C03_source_is_marker_eq : forall data,
  src_isMarker data = match is_marker_idx data with MRes n a => Ok (n, a) | MPanic => Panic end.
Proof. exact src_isMarker_eq. Qed.
Print Assumptions C03_source_is_marker_eq.

Theorem C03_source_fix_nl_eq : forall data, src_fixNL data = Ok (fix_nl data).
Proof. exact src_fixNL_eq. Qed.
Print Assumptions C03_source_fix_nl_eq.

Theorem C03_source_find_file_marker_eq : forall fuel data,
  src_findFileMarker fuel data = find_file_marker_fuel fuel data.
Proof. exact src_findFileMarker_eq. Qed.
Print Assumptions C03_source_find_file_marker_eq.

Theorem C03_source_parse_eq : forall fuel s, length s + 2 <= fuel -> src_Parse fuel s = Ok (parse s).
Proof. exact src_Parse_eq. Qed.
Print Assumptions C03_source_parse_eq.

Theorem C03_source_parse_idx_eq : forall fuel s, length s + 2 <= fuel -> src_Parse fuel s = parse_idx s.
Proof. exact src_Parse_idx_eq. Qed.
Print Assumptions C03_source_parse_idx_eq.

Theorem C03_source_parse_total : forall fuel s,
  length s + 2 <= fuel -> src_Parse fuel s <> Panic /\ src_Parse fuel s <> OutOfFuel.
Proof. exact src_Parse_total. Qed.
Print Assumptions C03_source_parse_total.

Theorem C03_source_parse_format_parse : forall fuel fuel' s a,
  length s + 2 <= fuel -> src_Parse fuel s = Ok a ->
  length (format a) + 2 <= fuel' -> src_Parse fuel' (format a) = Ok a.
Proof. exact src_Parse_format_parse. Qed.
Print Assumptions C03_source_parse_format_parse.

Theorem C03_source_parse_format_wf : forall fuel a,
  wf_archive a = true -> length (format a) + 2 <= fuel -> src_Parse fuel (format a) = Ok a.
Proof. exact src_Parse_format_wf. Qed.
Print Assumptions C03_source_parse_format_wf.
