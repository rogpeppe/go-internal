(* C02 — testscript word splitting, quoting and variable expansion are exact.
   This file contains only the property theorems, each closed by [exact] of a lemma proved in
   TsParse/*Facts.v or TsParse/SrcLaws.v, with Print Assumptions beneath it.
   Model: TsParse/TsParse.v; literals: Gen/TsParseConsts.v (regenerated from the source). *)
From Coq Require Import List NArith.
From Coq.Strings Require Import Byte.
From GI Require Import Lib.GoSem Lib.GoSemState.
From GI Require Import Lib.Bytes Gen.TsParseConsts TsParse.TsParse TsParse.TsSpec TsParse.TsShape
  TsParse.TsHolds TsParse.TsParseFacts TsParse.TsEnvFacts TsParse.TsRegexFacts TsParse.TsCmpFacts
  TsParse.TsHoldsFacts TsParse.TsShapeFacts TsParse.TsUtf8Facts TsParse.TsFold TsParse.TsFoldFacts
  TsParse.TsScript TsParse.TsScriptFacts.
From GI Require Import Gen.TsParseSrc TsParse.SrcLib TsParse.SrcLibFacts TsParse.SrcFacts TsParse.SrcParseFacts
  TsParse.SrcCmdEnvFacts TsParse.SrcLaws.
Import ListNotations.

(* any list of words survives quoting: nothing inside quotes is split, expanded or a comment
   (the empty word and words the tokenizer would otherwise drop included) *)
Theorem C02_parse_quote_words : forall (st : ts_env) (ws : list (list byte)),
  ts_parse st (join_sp (map sq ws)) = Some ws.
Proof. exact parse_quote_words. Qed.
Print Assumptions C02_parse_quote_words.

(* ... and words without a newline give one script line *)
Theorem C02_quoted_line_single : forall ws : list (list byte),
  Forall (fun w => ~ In NL w) ws -> ~ In NL (join_sp (map sq ws)).
Proof. exact quoted_line_single. Qed.
Print Assumptions C02_quoted_line_single.

(* the characters named by the property: space and tab separate words, # starts a comment, ' quotes,
   $ { } expand, @R selects the regular expression, = separates KEY and VALUE, exec overrides PWD *)
Theorem C02_syntax_characters :
  blank_byte SP = true /\ blank_byte TAB = true /\
  is_comment x23 = true /\ ts_quote = x27 /\ dollar = x24 /\ lbrace = x7b /\ rbrace = x7d /\
  ts_regex_suffix = [x40; x52] /\ ts_env_sep = x3d /\ pwd_key = [x50; x57; x44].
Proof. exact syntax_characters. Qed.
Print Assumptions C02_syntax_characters.

(* ordinary words separated by arbitrary non-empty runs of blanks parse to themselves *)
Theorem C02_parse_plain_split : forall st lead w0 rest trail,
  blank_run lead -> plain_word w0 ->
  Forall (fun p => fst p <> [] /\ blank_run (fst p) /\ plain_word (snd p)) rest ->
  blank_run trail ->
  ts_parse st (lead ++ w0 ++ join_runs rest ++ trail) = Some (w0 :: map snd rest).
Proof. exact parse_plain_split. Qed.
Print Assumptions C02_parse_plain_split.

Theorem C02_parse_blank_line : forall st s, blank_run s -> ts_parse st s = Some [].
Proof. exact parse_blank_line. Qed.
Print Assumptions C02_parse_blank_line.

(* a comment character after an even number of quote characters ends the line *)
Theorem C02_parse_comment : forall st l h r,
  is_comment h = true -> in_quote_after l false = false ->
  ts_parse st (l ++ h :: r) = ts_parse st l.
Proof. exact parse_comment. Qed.
Print Assumptions C02_parse_comment.

(* $k is replaced by the current value, once: no re-splitting, no re-expansion, for any value *)
Theorem C02_parse_expand_once : forall st cmd pre k post v,
  plain_word cmd -> plain_chunk pre -> plain_chunk post -> no_alnum_head post ->
  valid_name k -> getenv st k = v ->
  ts_parse st (cmd ++ SP :: pre ++ dollar :: k ++ post) = Some [cmd; pre ++ v ++ post].
Proof. exact parse_expand_once. Qed.
Print Assumptions C02_parse_expand_once.

Theorem C02_parse_expand_once_brace : forall st cmd pre k post v,
  plain_word cmd -> plain_chunk pre -> plain_chunk post ->
  brace_word k -> strip_suffix ts_regex_suffix k = None -> getenv st k = v ->
  ts_parse st (cmd ++ SP :: pre ++ dollar :: lbrace :: k ++ rbrace :: post)
  = Some [cmd; pre ++ v ++ post].
Proof. exact parse_expand_once_brace. Qed.
Print Assumptions C02_parse_expand_once_brace.

Theorem C02_parse_expand_regex : forall st cmd pre k post v,
  plain_word cmd -> plain_chunk pre -> plain_chunk post ->
  brace_word k -> getenv st k = v ->
  ts_parse st (cmd ++ SP :: pre ++ dollar :: lbrace :: (k ++ ts_regex_suffix) ++ rbrace :: post)
  = Some [cmd; pre ++ quote_meta v ++ post].
Proof. exact parse_expand_regex. Qed.
Print Assumptions C02_parse_expand_regex.

(* after any sequence of assignments the value of k is that of the last assignment to k *)
Theorem C02_latest_wins : forall st pre k v post,
  no_sep k -> Forall (not_assign k) post ->
  getenv (cmd_env (pre ++ (k ++ ts_env_sep :: v) :: post) st) k = v.
Proof. exact latest_wins. Qed.
Print Assumptions C02_latest_wins.

Theorem C02_unassigned_keeps : forall args st k,
  Forall (not_assign k) args -> getenv (cmd_env args st) k = getenv st k.
Proof. exact unassigned_keeps. Qed.
Print Assumptions C02_unassigned_keeps.

(* a sequence of env commands is one env command with all the arguments *)
Theorem C02_env_commands_compose : forall cmds st,
  fold_left (fun s args => cmd_env args s) cmds st = cmd_env (concat cmds) st.
Proof. exact cmd_env_seq. Qed.
Print Assumptions C02_env_commands_compose.

(* the lookup map used for expansion agrees with the list handed to children, in every state
   reached from any initial variables by any env commands *)
Theorem C02_envmap_agrees_with_list : forall vars cmds,
  consistent (fold_left (fun s args => cmd_env args s) cmds (setup_env vars)).
Proof. exact reachable_consistent. Qed.
Print Assumptions C02_envmap_agrees_with_list.

(* executed programs see the same value as the script, for every name but PWD *)
Theorem C02_child_env_agrees : forall st cd k l,
  consistent st -> regular k -> k <> pwd_key ->
  child_env st cd = Some l ->
  or_empty (child_lookup k l) = getenv st k.
Proof. exact child_env_agrees. Qed.
Print Assumptions C02_child_env_agrees.

Theorem C02_child_env_agrees_reachable : forall vars cmds cd k l,
  regular k -> k <> pwd_key ->
  child_env (fold_left (fun s args => cmd_env args s) cmds (setup_env vars)) cd = Some l ->
  or_empty (child_lookup k l) = getenv (fold_left (fun s args => cmd_env args s) cmds (setup_env vars)) k.
Proof. exact child_env_agrees_reachable. Qed.
Print Assumptions C02_child_env_agrees_reachable.

(* ... set or unset alike: the child finds the last binding of the list, or nothing *)
Theorem C02_child_sees_list : forall st cd k l,
  regular k -> k <> pwd_key -> child_env st cd = Some l ->
  child_lookup k l = list_get (env_list st) k.
Proof. exact child_sees_list. Qed.
Print Assumptions C02_child_sees_list.

Theorem C02_child_pwd : forall st cd l,
  child_env st cd = Some l -> child_lookup pwd_key l = Some cd.
Proof. exact child_pwd. Qed.
Print Assumptions C02_child_pwd.

(* the child is started exactly when no entry holds a NUL byte *)
Theorem C02_child_env_defined : forall st cd,
  (exists l, child_env st cd = Some l) <->
  (forall e, In e (env_list st) -> ~ In nul_byte e) /\ ~ In nul_byte cd.
Proof. exact child_env_defined. Qed.
Print Assumptions C02_child_env_defined.

(* QuoteMeta of a valid UTF-8 value is a literal regular expression denoting exactly the value *)
Theorem C02_quote_meta_literal : forall v : list byte,
  utf8_ok v = true -> re_literal (quote_meta v) = Some v.
Proof. exact quote_meta_literal. Qed.
Print Assumptions C02_quote_meta_literal.

Theorem C02_expand_regex_denotes : forall st cmd k v,
  plain_word cmd -> brace_word k -> getenv st k = v -> utf8_ok v = true ->
  exists p,
    ts_parse st (cmd ++ SP :: dollar :: lbrace :: (k ++ ts_regex_suffix) ++ [rbrace]) = Some [cmd; p]
    /\ re_literal p = Some v.
Proof. exact expand_regex_denotes. Qed.
Print Assumptions C02_expand_regex_denotes.

(* the control structure of parse, expand and doCmdCmp in the current source is the one the model
   was written against (structural fingerprints, see gen_tsparse_shape.go and TsShape.v) *)
Theorem C02_source_shapes_current :
  ts_parse_shape = parse_go_shape /\ ts_expand_shape = expand_shape /\ ts_cmp_shape = cmp_shape.
Proof. exact source_shapes_current. Qed.
Print Assumptions C02_source_shapes_current.

(* expansion of a text that is not tokenized (cmpenv's second file): the value is inserted as it
   is and scanning resumes after the reference *)
Theorem C02_expand_text_var : forall st pre k post,
  no_dollar pre -> valid_name k -> no_alnum_head post ->
  expand st (pre ++ dollar :: k ++ post) = pre ++ getenv st k ++ expand st post.
Proof. exact expand_text_var. Qed.
Print Assumptions C02_expand_text_var.

Theorem C02_expand_text_brace : forall st pre k post,
  no_dollar pre -> brace_ok k -> strip_suffix ts_regex_suffix k = None ->
  expand st (pre ++ dollar :: lbrace :: k ++ rbrace :: post) = pre ++ getenv st k ++ expand st post.
Proof. exact expand_text_brace. Qed.
Print Assumptions C02_expand_text_brace.

Theorem C02_expand_text_regex : forall st pre k post,
  no_dollar pre -> brace_ok k ->
  expand st (pre ++ dollar :: lbrace :: (k ++ ts_regex_suffix) ++ rbrace :: post)
  = pre ++ quote_meta (getenv st k) ++ expand st post.
Proof. exact expand_text_regex. Qed.
Print Assumptions C02_expand_text_regex.

(* cmpenv: the second file goes through the expander exactly once, the first file not at all *)
Theorem C02_cmpenv_expands_once : forall st name1 name2 text1 text2,
  name1 <> name2 ->
  (do_cmd_cmp st false true name1 name2 text1 text2 = true <-> text1 = expand st text2).
Proof. exact cmpenv_expands_once. Qed.
Print Assumptions C02_cmpenv_expands_once.

Theorem C02_cmpenv_value_not_reexpanded : forall st name1 name2 pre k post v,
  name1 <> name2 -> no_dollar pre -> no_dollar post -> no_alnum_head post ->
  valid_name k -> getenv st k = v ->
  do_cmd_cmp st false true name1 name2 (pre ++ v ++ post) (pre ++ dollar :: k ++ post) = true.
Proof. exact cmpenv_value_not_reexpanded. Qed.
Print Assumptions C02_cmpenv_value_not_reexpanded.

(* cmp expands neither file *)
Theorem C02_cmp_no_expand : forall st name1 name2 text1 text2,
  name1 <> name2 ->
  (do_cmd_cmp st false false name1 name2 text1 text2 = true <-> text1 = text2).
Proof. exact cmp_no_expand. Qed.
Print Assumptions C02_cmp_no_expand.

Theorem C02_cmp_negated : forall st env name1 name2 text1 text2,
  name1 <> name2 ->
  do_cmd_cmp st true env name1 name2 text1 text2 = negb (do_cmd_cmp st false env name1 name2 text1 text2).
Proof. exact cmp_negated. Qed.
Print Assumptions C02_cmp_negated.

(* env k=$o takes the value of o when the line runs; later assignments to o do not reach k *)
Theorem C02_env_copy_at_assignment : forall st k o,
  plain_chunk k -> no_sep k -> valid_name o ->
  getenv (fst (ts_step st (ts_env_cmd ++ SP :: k ++ ts_env_sep :: dollar :: o))) k = getenv st o.
Proof. exact env_copy_at_assignment. Qed.
Print Assumptions C02_env_copy_at_assignment.

Theorem C02_env_chain_snapshot : forall st k o later,
  plain_chunk k -> no_sep k -> valid_name o -> Forall (not_assign k) later ->
  getenv (cmd_env later (fst (ts_step st (ts_env_cmd ++ SP :: k ++ ts_env_sep :: dollar :: o)))) k
  = getenv st o.
Proof. exact env_chain_snapshot. Qed.
Print Assumptions C02_env_chain_snapshot.

(* the executable boolean form of the statements (extracted, asked by the runner for every case)
   is true on every state, directory, line, name and value *)
Theorem C02_holds_on : forall st cd line k v, c02_holds_on st cd line k v = true.
Proof. exact c02_holds_on_true. Qed.
Print Assumptions C02_holds_on.

(* the UTF-8 automaton used by re_literal is the shared model of unicode/utf8.Valid *)
Theorem C02_utf8_ok_is_utf8_valid : forall d : list byte, utf8_ok d = utf8_valid d.
Proof. exact utf8_ok_is_utf8_valid. Qed.
Print Assumptions C02_utf8_ok_is_utf8_valid.

(* envvarname as a parameter (identity here, ToLower on Windows): the latest assignment to any
   spelling of a name wins, the map agrees with the list up to folding; the model above is the
   identity instance *)
Theorem C02_latest_wins_fold : forall (fold : list byte -> list byte) st pre k k0 v post,
  no_sep k -> fold k = fold k0 -> Forall (not_assign_f fold k0) post ->
  getenv_f fold (cmd_env_f fold (pre ++ (k ++ ts_env_sep :: v) :: post) st) k0 = v.
Proof. exact latest_wins_f. Qed.
Print Assumptions C02_latest_wins_fold.

Theorem C02_envmap_agrees_with_list_fold : forall (fold : list byte -> list byte) vars args,
  consistent_f fold (cmd_env_f fold args (setup_env_f fold vars)).
Proof. exact reachable_consistent_f. Qed.
Print Assumptions C02_envmap_agrees_with_list_fold.

Theorem C02_fold_id_is_model : forall st k v vars args,
  getenv_f id_fold st k = getenv st k /\
  setenv_f id_fold k v st = setenv k v st /\
  setup_env_f id_fold vars = setup_env vars /\
  cmd_env_f id_fold args st = cmd_env args st.
Proof. exact fold_id_is_model. Qed.
Print Assumptions C02_fold_id_is_model.

(* the line loop of run, cmdEnv, Setenv, Getenv and setEnv in the current source are the ones
   script_lines / run_lines, cmd_env / env_listing, setenv, getenv and setup_env were written against *)
Theorem C02_script_shapes_current :
  ts_runloop_shape = runloop_shape /\ ts_cmdenv_shape = cmdenv_shape /\ ts_setenv_shape = setenv_shape /\
  ts_getenv_shape = getenv_shape /\ ts_setenvall_shape = setenvall_shape.
Proof. exact script_shapes_current. Qed.
Print Assumptions C02_script_shapes_current.

Theorem C02_line_sep_is_nl : ts_line_sep = [NL].
Proof. exact line_sep_is_nl. Qed.
Print Assumptions C02_line_sep_is_nl.

(* every byte of the script belongs to exactly one line, in order; no line is dropped or cut
   whatever its length: the lines written back with their line feeds are the script (plus the
   line feed an unterminated last line lacked) *)
Theorem C02_lines_total : forall s,
  unlines (script_lines s) = s ++ (if open_ended s then [NL] else []).
Proof. exact lines_total. Qed.
Print Assumptions C02_lines_total.

Theorem C02_lines_no_nl : forall s, Forall (fun l => ~ In NL l) (script_lines s).
Proof. exact lines_no_nl. Qed.
Print Assumptions C02_lines_no_nl.

(* a script written line by line is read back as exactly these lines (any bytes but LF, any
   length, CR included), also when the last line has no line feed *)
Theorem C02_lines_of_unlines : forall ls,
  Forall (fun l => ~ In NL l) ls -> script_lines (unlines ls) = ls.
Proof. exact lines_of_unlines. Qed.
Print Assumptions C02_lines_of_unlines.

Theorem C02_lines_of_unlines_open : forall ls l,
  Forall (fun l => ~ In NL l) ls -> l <> [] -> ~ In NL l ->
  script_lines (unlines ls ++ l) = ls ++ [l].
Proof. exact lines_of_unlines_open. Qed.
Print Assumptions C02_lines_of_unlines_open.

(* the splitter that is extracted and run (constant stack) is the one of the statements *)
Theorem C02_script_lines_tr_eq : forall s, script_lines_tr s = script_lines s.
Proof. exact script_lines_tr_eq. Qed.
Print Assumptions C02_script_lines_tr_eq.

(* one tokenizer call per line, in order, each in the environment left by the lines before it *)
Theorem C02_run_script_length : forall st s,
  length (snd (run_script st s)) = length (script_lines s).
Proof. exact run_script_length. Qed.
Print Assumptions C02_run_script_length.

Theorem C02_run_lines_each : forall ls st i l,
  nth_error ls i = Some l ->
  nth_error (snd (run_lines st ls)) i = Some (ts_parse (fst (run_lines st (firstn i ls))) l).
Proof. exact run_lines_each. Qed.
Print Assumptions C02_run_lines_each.

(* EVERY line's words reach its command: a script of any number of lines, each the quoting of any
   words (any length, any bytes but LF), gives for every line exactly its words *)
Theorem C02_script_quoted_lines : forall st wss,
  Forall (Forall (fun w => ~ In NL w)) wss ->
  snd (run_script st (unlines (map quoted_line wss))) = map Some wss.
Proof. exact script_quoted_lines. Qed.
Print Assumptions C02_script_quoted_lines.

(* a phase comment line, which run() does not hand to the tokenizer, has no words and no effect *)
Theorem C02_phase_line_no_words : forall st r,
  ts_parse st (ts_phase_prefix ++ r) = Some [] /\ fst (ts_step st (ts_phase_prefix ++ r)) = st.
Proof. exact (fun st r => conj (phase_line_no_words st r) (phase_line_keeps_state st r)). Qed.
Print Assumptions C02_phase_line_no_words.

(* commands that only read — the listing `env`, `env NAME`, exists, grep, cmp, ... — leave the list
   handed to programs, the lookup map and the current directory as they are, wherever they stand
   in a history *)
Theorem C02_readonly_commands_frame : forall h s,
  hrun (filter (fun c => negb (readonly c)) h) s = hrun h s.
Proof. exact readonly_commands_frame. Qed.
Print Assumptions C02_readonly_commands_frame.

Theorem C02_listing_is_identity : forall s, hstep s (HEnv []) = s.
Proof. exact listing_is_identity. Qed.
Print Assumptions C02_listing_is_identity.

(* a script line is the history command hcmd_of_line reads from it *)
Theorem C02_ts_step_is_hstep : forall st cd line,
  fst (ts_step st line) = hs_env (hstep {| hs_env := st; hs_cd := cd |} (hcmd_of_line st line)).
Proof. exact ts_step_is_hstep. Qed.
Print Assumptions C02_ts_step_is_hstep.

(* after any history of env / ts.Setenv / cd / read-only commands, expansion and ts.Getenv see the
   value of the latest assignment *)
Theorem C02_history_latest_wins : forall h s k,
  getenv (hs_env (hrun h s)) k = pick (last_assign k (hist_assigns h)) (getenv (hs_env s) k).
Proof. exact history_latest_wins. Qed.
Print Assumptions C02_history_latest_wins.

Theorem C02_history_consistent : forall h s,
  forallb api_ok h = true -> consistent (hs_env s) -> consistent (hs_env (hrun h s)).
Proof. exact history_consistent. Qed.
Print Assumptions C02_history_consistent.

(* ... and a program executed at that point finds that very value under every regular name but PWD *)
Theorem C02_history_child_agrees : forall h vars cd0 k l,
  forallb api_ok h = true -> regular k -> k <> pwd_key ->
  let s := hrun h {| hs_env := setup_env vars; hs_cd := cd0 |} in
  child_env (hs_env s) (hs_cd s) = Some l ->
  or_empty (child_lookup k l) = getenv (hs_env s) k /\
  getenv (hs_env s) k = pick (last_assign k (hist_assigns h)) (or_empty (list_get vars k)).
Proof. exact history_child_agrees. Qed.
Print Assumptions C02_history_child_agrees.

Theorem C02_history_child_pwd : forall h s l,
  child_env (hs_env (hrun h s)) (hs_cd (hrun h s)) = Some l ->
  child_lookup pwd_key l = Some (pick (last_cd h) (hs_cd s)).
Proof. exact history_child_pwd. Qed.
Print Assumptions C02_history_child_pwd.

(* the argument-less env prints every variable of the list exactly once, with the value expansion uses *)
Theorem C02_env_listing_shows_current : forall st out,
  env_listing st = Some out ->
  (forall k v, In (k, v) out -> v = getenv st k) /\
  NoDup (map fst out) /\
  (forall kv k v, In kv (env_list st) -> split_kv kv = Some (k, v) -> In k (map fst out)).
Proof. exact env_listing_shows_current. Qed.
Print Assumptions C02_env_listing_shows_current.

(* the executable boolean form of the history statements (extracted; the model driver accumulates
   the history of every script and the runner asks it for every history script) is true on every
   history, initial variables, directory and name *)
Theorem C02_history_holds : forall h vars cd0 k, history_holds h vars cd0 k = true.
Proof. exact history_holds_true. Qed.
Print Assumptions C02_history_holds.

(* Gen/TsParseSrc.v is envvarname and the methods Getenv, Setenv,
   setEnv, expand, parse of TestScript (testscript/testscript.go) and its env command cmdEnv (testscript/cmd.go) translated into Gallina by harness/go2coq
   on every run; ts_recv is the record of the fields line, env, envMap of the receiver, recv_of / env_of go
   between it and the model's state; a method that assigns a field returns the receiver.  Each translated
   function returns Ok of exactly what the model computes, for every input and every receiver: it never
   panics (no index or slice expression of parse is out of range) and does not exhaust an iteration bound
   greater than the length of the line; parse ends in Failed (the call of Fatalf) exactly where the model
   says so. *)

Theorem C02_source_getenv_eq : forall (r : ts_recv) (k : list byte),
  src_TestScript_Getenv r k = Ok (getenv (env_of r) k).
Proof. exact src_Getenv_eq. Qed.
Print Assumptions C02_source_getenv_eq.

Theorem C02_source_setenv_eq : forall (line : list byte) (st : ts_env) (k v : list byte),
  src_TestScript_Setenv (recv_of line st) k v = Ok (recv_of line (setenv k v st)).
Proof. exact src_Setenv_eq. Qed.
Print Assumptions C02_source_setenv_eq.

(* ... on a TestScript whose map was never made the store panics, in the translation as in Go *)
Theorem C02_source_setenv_nil_map : forall (r : ts_recv) (k v : list byte),
  r_envMap r = None -> src_TestScript_Setenv r k v = Panic.
Proof. exact src_Setenv_nil_map. Qed.
Print Assumptions C02_source_setenv_nil_map.

Theorem C02_source_setup_eq : forall (r : ts_recv) (vars : list (list byte)),
  src_TestScript_setEnv r vars = Ok (recv_of (r_line r) (setup_env vars)).
Proof. exact src_setEnv_eq. Qed.
Print Assumptions C02_source_setup_eq.

(* os.Expand as the translation uses it (its mapping is a translated closure, a computation) is the
   model's os_expand whenever the mapping returns *)
Theorem C02_source_os_expand_pure : forall (f : list byte -> list byte) (m : list byte -> res (list byte)) s,
  (forall k, m k = Ok (f k)) -> go_os_Expand s m = Ok (os_expand f s).
Proof. exact go_os_Expand_pure. Qed.
Print Assumptions C02_source_os_expand_pure.

Theorem C02_source_expand_eq : forall (r : ts_recv) (s : list byte),
  src_TestScript_expand r s = Ok (expand (env_of r) s).
Proof. exact src_expand_eq. Qed.
Print Assumptions C02_source_expand_eq.

Theorem C02_source_parse_eq : forall (fuel : nat) (r : ts_recv) (line : list byte),
  length line < fuel ->
  src_TestScript_parse fuel r line =
  Ok (match ts_parse (env_of r) line with
      | Some ws => Done ({| r_line := line; r_env := r_env r; r_envMap := r_envMap r |}, ws)
      | None => Failed
      end).
Proof. exact src_parse_eq. Qed.
Print Assumptions C02_source_parse_eq.

Theorem C02_source_parse_total : forall (fuel : nat) (r : ts_recv) (line : list byte),
  length line < fuel ->
  src_TestScript_parse fuel r line <> Panic /\ src_TestScript_parse fuel r line <> OutOfFuel.
Proof. exact source_parse_total. Qed.
Print Assumptions C02_source_parse_total.

Theorem C02_source_parse_failed_iff : forall (fuel : nat) (r : ts_recv) (line : list byte),
  length line < fuel ->
  (src_TestScript_parse fuel r line = Ok Failed <-> ts_parse (env_of r) line = None).
Proof. exact source_parse_failed_iff. Qed.
Print Assumptions C02_source_parse_failed_iff.

Theorem C02_source_parse_quote_words : forall (fuel : nat) (r : ts_recv) (ws : list (list byte)),
  length (join_sp (map sq ws)) < fuel ->
  src_TestScript_parse fuel r (join_sp (map sq ws)) = Ok (Done (with_line r (join_sp (map sq ws)), ws)).
Proof. exact source_parse_quote_words. Qed.
Print Assumptions C02_source_parse_quote_words.

Theorem C02_source_parse_expand_once : forall (fuel : nat) (r : ts_recv) cmd pre k post v,
  plain_word cmd -> plain_chunk pre -> plain_chunk post -> no_alnum_head post ->
  valid_name k -> src_TestScript_Getenv r k = Ok v ->
  length (cmd ++ SP :: pre ++ dollar :: k ++ post) < fuel ->
  src_TestScript_parse fuel r (cmd ++ SP :: pre ++ dollar :: k ++ post)
  = Ok (Done (with_line r (cmd ++ SP :: pre ++ dollar :: k ++ post), [cmd; pre ++ v ++ post])).
Proof. exact source_parse_expand_once. Qed.
Print Assumptions C02_source_parse_expand_once.

Theorem C02_source_parse_expand_once_brace : forall (fuel : nat) (r : ts_recv) cmd pre k post v,
  plain_word cmd -> plain_chunk pre -> plain_chunk post ->
  brace_word k -> strip_suffix ts_regex_suffix k = None -> src_TestScript_Getenv r k = Ok v ->
  length (cmd ++ SP :: pre ++ dollar :: lbrace :: k ++ rbrace :: post) < fuel ->
  src_TestScript_parse fuel r (cmd ++ SP :: pre ++ dollar :: lbrace :: k ++ rbrace :: post)
  = Ok (Done (with_line r (cmd ++ SP :: pre ++ dollar :: lbrace :: k ++ rbrace :: post), [cmd; pre ++ v ++ post])).
Proof. exact source_parse_expand_once_brace. Qed.
Print Assumptions C02_source_parse_expand_once_brace.

Theorem C02_source_parse_expand_regex : forall (fuel : nat) (r : ts_recv) cmd pre k post v,
  plain_word cmd -> plain_chunk pre -> plain_chunk post ->
  brace_word k -> src_TestScript_Getenv r k = Ok v ->
  length (cmd ++ SP :: pre ++ dollar :: lbrace :: (k ++ ts_regex_suffix) ++ rbrace :: post) < fuel ->
  src_TestScript_parse fuel r (cmd ++ SP :: pre ++ dollar :: lbrace :: (k ++ ts_regex_suffix) ++ rbrace :: post)
  = Ok (Done (with_line r (cmd ++ SP :: pre ++ dollar :: lbrace :: (k ++ ts_regex_suffix) ++ rbrace :: post),
              [cmd; pre ++ quote_meta v ++ post])).
Proof. exact source_parse_expand_regex. Qed.
Print Assumptions C02_source_parse_expand_regex.

Theorem C02_source_expand_regex_denotes : forall (fuel : nat) (r : ts_recv) cmd k v,
  plain_word cmd -> brace_word k -> src_TestScript_Getenv r k = Ok v -> utf8_ok v = true ->
  length (cmd ++ SP :: dollar :: lbrace :: (k ++ ts_regex_suffix) ++ [rbrace]) < fuel ->
  exists p,
    src_TestScript_parse fuel r (cmd ++ SP :: dollar :: lbrace :: (k ++ ts_regex_suffix) ++ [rbrace])
    = Ok (Done (with_line r (cmd ++ SP :: dollar :: lbrace :: (k ++ ts_regex_suffix) ++ [rbrace]), [cmd; p]))
    /\ re_literal p = Some v.
Proof. exact source_expand_regex_denotes. Qed.
Print Assumptions C02_source_expand_regex_denotes.

Theorem C02_source_expand_text_var : forall (r : ts_recv) pre k post v,
  no_dollar pre -> valid_name k -> no_alnum_head post -> src_TestScript_Getenv r k = Ok v ->
  exists rest, src_TestScript_expand r post = Ok rest /\
    src_TestScript_expand r (pre ++ dollar :: k ++ post) = Ok (pre ++ v ++ rest).
Proof. exact source_expand_text_var. Qed.
Print Assumptions C02_source_expand_text_var.

Theorem C02_source_expand_text_regex : forall (r : ts_recv) pre k post v,
  no_dollar pre -> brace_ok k -> src_TestScript_Getenv r k = Ok v ->
  exists rest, src_TestScript_expand r post = Ok rest /\
    src_TestScript_expand r (pre ++ dollar :: lbrace :: (k ++ ts_regex_suffix) ++ rbrace :: post)
    = Ok (pre ++ quote_meta v ++ rest).
Proof. exact source_expand_text_regex. Qed.
Print Assumptions C02_source_expand_text_regex.

(* after setEnv(vars) and any sequence of Setenv calls the translated Getenv returns the value of the last
   call for the name; none of the calls panics *)
Theorem C02_source_latest_wins : forall (r0 : ts_recv) vars pre k v post,
  Forall (fun kv => fst kv <> k) post ->
  exists r1 r2,
    src_TestScript_setEnv r0 vars = Ok r1 /\
    src_setenvs r1 (pre ++ (k, v) :: post) = Ok r2 /\
    src_TestScript_Getenv r2 k = Ok v.
Proof. exact source_latest_wins. Qed.
Print Assumptions C02_source_latest_wins.

Theorem C02_source_unassigned_keeps : forall line st kvs k,
  Forall (fun kv => fst kv <> k) kvs ->
  exists r2, src_setenvs (recv_of line st) kvs = Ok r2 /\
    src_TestScript_Getenv r2 k = src_TestScript_Getenv (recv_of line st) k.
Proof. exact source_unassigned_keeps. Qed.
Print Assumptions C02_source_unassigned_keeps.

Theorem C02_source_envmap_agrees_with_list : forall (r0 : ts_recv) vars kvs,
  Forall (fun kv => no_sep (fst kv)) kvs ->
  exists r1 r2,
    src_TestScript_setEnv r0 vars = Ok r1 /\ src_setenvs r1 kvs = Ok r2 /\ consistent (env_of r2).
Proof. exact source_envmap_agrees_with_list. Qed.
Print Assumptions C02_source_envmap_agrees_with_list.

(* a value stored by the translated Setenv is what the translated parse inserts, once *)
Theorem C02_source_setenv_then_parse : forall (fuel : nat) line0 st cmd pre k post v,
  plain_word cmd -> plain_chunk pre -> plain_chunk post -> no_alnum_head post -> valid_name k ->
  length (cmd ++ SP :: pre ++ dollar :: k ++ post) < fuel ->
  exists r1,
    src_TestScript_Setenv (recv_of line0 st) k v = Ok r1 /\
    src_TestScript_parse fuel r1 (cmd ++ SP :: pre ++ dollar :: k ++ post)
    = Ok (Done (with_line r1 (cmd ++ SP :: pre ++ dollar :: k ++ post), [cmd; pre ++ v ++ post])).
Proof. exact source_setenv_then_parse. Qed.
Print Assumptions C02_source_setenv_then_parse.

(* the env command as translated: with arguments it is the model's cmd_env, every K=V going through the
   translated Setenv; without arguments it leaves line, env and envMap alone and panics exactly where the
   model's listing is None (an entry of ts.env without the separator: kv[:-1] in the Go code); negated it
   ends in Fatalf.  What it prints (Logf) is outside the translated state. *)
Theorem C02_source_cmdenv_eq : forall (line : list byte) (st : ts_env) (neg : bool) (args : list (list byte)),
  src_TestScript_cmdEnv (recv_of line st) neg args =
  if neg then Ok Failed
  else match args with
       | [] => match env_listing st with
               | Some _ => Ok (Done (recv_of line st))
               | None => Panic
               end
       | _ :: _ => Ok (Done (recv_of line (cmd_env args st)))
       end.
Proof. exact src_cmdEnv_eq. Qed.
Print Assumptions C02_source_cmdenv_eq.

Theorem C02_source_env_latest_wins : forall line st pre k v post,
  no_sep k -> Forall (not_assign k) post ->
  exists r', src_TestScript_cmdEnv (recv_of line st) false (pre ++ (k ++ ts_env_sep :: v) :: post) = Ok (Done r') /\
    src_TestScript_Getenv r' k = Ok v.
Proof. exact source_env_latest_wins. Qed.
Print Assumptions C02_source_env_latest_wins.

Theorem C02_source_env_listing_identity : forall line st,
  forallb has_kv (env_list st) = true ->
  src_TestScript_cmdEnv (recv_of line st) false [] = Ok (Done (recv_of line st)).
Proof. exact src_cmdEnv_listing_identity. Qed.
Print Assumptions C02_source_env_listing_identity.
