(* C12 — an interrupted or failing Put leaves the cache consistent.
   Only the property theorems; the proofs are in Cache/CacheFaultFacts.v (one Put), Cache/CacheHistFacts.v
   (histories), Cache/CacheFdFacts.v (descriptors), Cache/CacheSeqFacts.v and Cache/SrcWorldFacts.v (source). *)
From Coq Require Import List ZArith.
From Coq.Strings Require Import Byte.
From GI Require Import Lib.Bytes Gen.CacheConsts Cache.CacheEntry Cache.Cache Cache.CacheSeqFacts
  Cache.CacheFault Cache.CacheFaultFacts Cache.CacheHistFacts Cache.CacheFd Cache.CacheFdFacts.
Import ListNotations.

Theorem C12_inv_init : forall (H : bytes -> bytes) (U : bytes -> Prop), Inv H U no_files /\ InvB H U no_files.
Proof. intros H U. split; [apply inv_init|apply invb_init]. Qed.
Print Assumptions C12_inv_init.

(* regime (a): one fault per Put — an operation fails, a write is short and reports it, a
   read-back is short, execution stops before or after any operation, or (with no file fault)
   the source reader errs, ends early or delivers other bytes on the second pass *)
Theorem C12_inv_put_faulty : forall (H : bytes -> bytes) (U : bytes -> Prop),
  (forall x, length (H x) = hash_size_n) -> H_inj_on H U ->
  forall fs id rd tm b,
  Inv H U fs -> length id = hash_size_n -> U (rd_pass1 rd) -> one_fault H b rd ->
  Inv H U (fst (fst (run_f b (put_prog H id rd tm) fs))).
Proof. exact inv_put_faulty. Qed.
Print Assumptions C12_inv_put_faulty.

(* what the faulty Put may have done, file by file *)
Theorem C12_put_faulty_post : forall (H : bytes -> bytes) (U : bytes -> Prop),
  (forall x, length (H x) = hash_size_n) -> H_inj_on H U ->
  forall fs id rd tm b,
  length id = hash_size_n -> I1 H U fs -> U (rd_pass1 rd) -> one_fault H b rd ->
  put_post H id (rd_pass1 rd) fs (fst (fst (run_f b (put_prog H id rd tm) fs))).
Proof. exact put_faulty_post. Qed.
Print Assumptions C12_put_faulty_post.

(* both regimes, including (b) torn write then stop: the byte-wise invariant InvB is preserved
   with no further hypothesis ... *)
Theorem C12_invb_put_faulty : forall (H : bytes -> bytes) (U : bytes -> Prop),
  H_inj_on H U ->
  forall fs id rd tm b,
  InvB H U fs -> U (rd_pass1 rd) -> one_fault_b H b rd ->
  InvB H U (fst (fst (run_f b (put_prog H id rd tm) fs))).
Proof. exact invb_put_faulty. Qed.
Print Assumptions C12_invb_put_faulty.

(* ... and implies Inv when no mixture of hash digits is the hash of another content *)
Theorem C12_invb_inv : forall (H : bytes -> bytes) (U : bytes -> Prop),
  (forall x, length (H x) = hash_size_n) ->
  forall fs, no_hybrid H U -> InvB H U fs -> Inv H U fs.
Proof. exact invb_inv. Qed.
Print Assumptions C12_invb_inv.

(* GetBytes needs no invariant: after any faulty Put from ANY state (pre-damaged outputs included) *)
Theorem C12_get_bytes_sound_after : forall (H : bytes -> bytes) fs id rd tm b id',
  match get_bytes H (fst (fst (run_f b (put_prog H id rd tm) fs))) id' with
  | NotFound => True
  | Found d out size t => H d = out /\ get (fst (fst (run_f b (put_prog H id rd tm) fs))) id' = Some (out, size, t)
  end.
Proof. intros H fs id rd tm b id'. apply get_bytes_sound. Qed.
Print Assumptions C12_get_bytes_sound_after.

Theorem C12_get_file_exact : forall (H : bytes -> bytes) (U : bytes -> Prop) fs id p out size tm,
  Inv H U fs -> get_file fs id = Found p out size tm ->
  exists d0, U d0 /\ H d0 = out /\ fs p = Some d0 /\ Z.of_nat (length d0) = size.
Proof. exact get_file_exact. Qed.
Print Assumptions C12_get_file_exact.

Theorem C12_failed_put_frame : forall (H : bytes -> bytes) (U : bytes -> Prop),
  (forall x, length (H x) = hash_size_n) -> H_inj_on H U ->
  forall fs id rd tm b id',
  Inv H U fs -> length id = hash_size_n -> U (rd_pass1 rd) -> one_fault H b rd -> id' <> id ->
  let fs' := fst (fst (run_f b (put_prog H id rd tm) fs)) in
  get fs' id' = get fs id' /\ get_bytes H fs' id' = get_bytes H fs id' /\ get_file fs' id' = get_file fs id'.
Proof. exact failed_put_frame. Qed.
Print Assumptions C12_failed_put_frame.

(* the output of the faulty Put is ALREADY stored (and shared with other ids): its bytes are
   unchanged at every fault point, whichever content the faulty Put stores *)
Theorem C12_failed_put_preserves_shared_output : forall (H : bytes -> bytes) (U : bytes -> Prop),
  (forall x, length (H x) = hash_size_n) -> H_inj_on H U ->
  forall fs s d,
  I1 H U fs -> fput_ok H U s -> U d -> fs (DatP (H d)) = Some d -> fput_run H s fs (DatP (H d)) = Some d.
Proof. exact failed_put_preserves_shared_output. Qed.
Print Assumptions C12_failed_put_preserves_shared_output.

(* histories of faulty Puts on one cache: the only state handed from call to call is the file
   map ([fhistory_run] is a fold over it); the invariant, every complete output and the lookups of
   every id the history does not store survive any number of failing / interrupted Puts *)
Theorem C12_faulty_history_inv : forall (H : bytes -> bytes) (U : bytes -> Prop),
  (forall x, length (H x) = hash_size_n) -> H_inj_on H U ->
  forall l fs, Inv H U fs -> Forall (fput_ok H U) l -> Inv H U (fhistory_run H l fs).
Proof. exact faulty_history_inv. Qed.
Print Assumptions C12_faulty_history_inv.

Theorem C12_faulty_history_preserves_outputs : forall (H : bytes -> bytes) (U : bytes -> Prop),
  (forall x, length (H x) = hash_size_n) -> H_inj_on H U ->
  forall l fs d,
  Inv H U fs -> Forall (fput_ok H U) l -> U d -> fs (DatP (H d)) = Some d -> fhistory_run H l fs (DatP (H d)) = Some d.
Proof. exact faulty_history_preserves_outputs. Qed.
Print Assumptions C12_faulty_history_preserves_outputs.

Theorem C12_faulty_history_frame : forall (H : bytes -> bytes) (U : bytes -> Prop),
  (forall x, length (H x) = hash_size_n) -> H_inj_on H U ->
  forall l fs id',
  Inv H U fs -> Forall (fput_ok H U) l -> Forall (fun s => fp_id s <> id') l ->
  let fs' := fhistory_run H l fs in
  get fs' id' = get fs id' /\ get_bytes H fs' id' = get_bytes H fs id' /\ get_file fs' id' = get_file fs id'.
Proof. exact faulty_history_frame. Qed.
Print Assumptions C12_faulty_history_frame.

(* PutBytes is Put from a source that cannot misbehave: every single file fault is covered *)
Theorem C12_put_bytes_faulty_post : forall (H : bytes -> bytes) (U : bytes -> Prop),
  (forall x, length (H x) = hash_size_n) -> H_inj_on H U ->
  forall chunks fs id tm b,
  let d := concat chunks in
  length id = hash_size_n -> I1 H U fs -> U d -> regime_a b ->
  put_post H id d fs (fst (fst (run_f b (put_bytes_prog H id chunks tm) fs))).
Proof. exact put_bytes_faulty_post. Qed.
Print Assumptions C12_put_bytes_faulty_post.

(* descriptors: under every fault budget, from every state, for every source, a Put that
   returns has closed every file it opened (a Put that stops has no process left to hold any) *)
Theorem C12_put_fd_balanced : forall (H : bytes -> bytes) id rd tm b fs,
  (fd_leak b (put_prog H id rd tm) fs = Some 0%nat /\ exists a, snd (fst (run_f b (put_prog H id rd tm) fs)) = Done a) \/
  (fd_leak b (put_prog H id rd tm) fs = None /\ snd (fst (run_f b (put_prog H id rd tm) fs)) = Stopped).
Proof. exact put_fd_balanced. Qed.
Print Assumptions C12_put_fd_balanced.

Theorem C12_put_bytes_fd_balanced : forall (H : bytes -> bytes) id chunks tm b fs,
  (fd_leak b (put_bytes_prog H id chunks tm) fs = Some 0%nat /\ exists a, snd (fst (run_f b (put_bytes_prog H id chunks tm) fs)) = Done a) \/
  (fd_leak b (put_bytes_prog H id chunks tm) fs = None /\ snd (fst (run_f b (put_bytes_prog H id chunks tm) fs)) = Stopped).
Proof. exact (fun H id chunks tm => closes_all_balanced _ _ (closes_put_bytes H id chunks tm)). Qed.
Print Assumptions C12_put_bytes_fd_balanced.

(* Cache.putIndexEntry, the WHOLE function translated in world mode (Gen/CacheWorldSrc.v: every
   operating-system call an uninterpreted operation on an abstract world), verify mode off: for
   every world and every behaviour of the operations it performs exactly the operations of the
   model's put_index_body, in its order, with its decisions on every result -- OpenFile(O_WRONLY |
   O_CREATE, 0666), one Write of encode_entry (the clock read of time.Now() as the time stamp),
   Truncate to the entry's length only after a successful Write, Close always, Remove when any
   of them failed and Chtimes otherwise -- and returns nil exactly when the model says true. *)
From GI Require Import Lib.GoSemWorld Lib.GoSemWorldVal Cache.SrcLib Cache.SrcWorld Gen.CacheWorldSrc Cache.SrcWorldFacts.

Theorem C12_source_world_put_index_entry :
  forall (OS : os_ops) (rh : bytes -> bytes) fuel (w : World OS) (c : cw_Cache) (id out : bytes) (size : Z)
         (allow : bool) (h : Handle OS) (o : bool),
  id <> [] -> (0 <= size)%Z ->
  let tm := go_time_UnixNano (op_time_now OS w) in
  match run_prog OS (cw_Cache_dir c) (put_index_body id out (Z.to_nat size) tm) (w, h, o) with
  | (st, ok) =>
      exists err,
        cw_Cache_putIndexEntry OS false rh fuel w c id out size allow = GoSem.Ok (st_world OS st, c, err)
        /\ werr_is_nil err = ok
  end.
Proof. exact cw_putIndexEntry_eq. Qed.
Print Assumptions C12_source_world_put_index_entry.
