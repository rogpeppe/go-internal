(* C17 — testscript honours its deadline: blocked commands are stopped and reported.
   Only the property theorems, each closed by [exact] of a lemma of TsDeadline/ (TsDeadlineFacts.v,
   TsTimedFacts.v, TsTimedBounds.v, TsRunsFacts.v, TsLateFacts.v, SrcFacts.v) or, for the life of the
   shared context, of TsBatch/TsBatchFacts.v.
   Times are integer nanoseconds.  [reachable p s]: s is a state of the interleaving system of
   waitOrStop (waiter, helper, process, context, timer) for process kind / kill delay p.
   [wos p o]: the timed run of waitOrStop where each step is late by the delay the oracle o gives;
   [bounded sigma o]: every delay is between 0 and sigma.  [fg_params now eps D e i]: a foreground
   command of a script started by RunT at [now] with Params.Deadline = D (context created eps
   later) that exits by itself at e (None: blocks) and i after the interrupt (None: ignores it). *)
From Coq Require Import List Bool ZArith.
From Coq.Strings Require Import Byte.
From GI Require Import TsBatch.TsBatch TsBatch.TsBatchFacts TsDeadline.TsLate TsDeadline.TsLateFacts.
From GI Require Import Lib.Bytes Gen.TsBatchConsts TsDeadline.TsDeadline TsDeadline.TsDeadlineFacts
  TsDeadline.TsTimed TsDeadline.TsTimedFacts TsDeadline.TsTimedBounds TsDeadline.TsRuns TsDeadline.TsRunsFacts.
Import ListNotations.
Local Open Scope Z_scope.

(* The context expires grace_reserve grace periods before the deadline; the grace period is at
   least min_grace (and at least 1/grace_divisor of the remaining time). *)
Theorem C17_grace_arith : forall now eps D,
  ctx_deadline now eps D + grace_reserve * grace (D - now) = D + eps /\ grace (D - now) >= min_grace.
Proof. exact grace_arith. Qed.
Print Assumptions C17_grace_arith.

Theorem C17_grace_share : forall until, grace until >= Z.quot until grace_divisor.
Proof. exact grace_ge_share. Qed.
Print Assumptions C17_grace_share.

(* "Two grace periods before the deadline, killed one grace period later": the constants of the
   source are these (background commands get a non-positive kill delay: never killed). *)
Theorem C17_two_grace_periods_reserved :
  grace_reserve = 2 /\ (forall until, fg_kill_delay until = grace until) /\ bg_kill_delay <= 0.
Proof. exact two_grace_periods_reserved. Qed.
Print Assumptions C17_two_grace_periods_reserved.

(* Every interleaving: exactly one value is sent and received, and the two goroutines finish
   together, exactly when it has been passed. *)
Theorem C17_wait_or_stop_one_value : forall p s, reachable p s ->
  usent s = urecv s /\ (usent s <= 1)%nat /\
  (w_done (uw s) = true <-> h_done (uh s) = true) /\ (h_done (uh s) = true <-> usent s = 1%nat).
Proof. exact one_value. Qed.
Print Assumptions C17_wait_or_stop_one_value.

(* No deadlock: once the process has exited, either both have finished or one of them can take a
   step that waits for nothing ... *)
Theorem C17_wait_or_stop_no_deadlock : forall p s, reachable p s -> upr s <> PRun ->
  (w_done (uw s) = true /\ h_done (uh s) = true) \/
  exists l s', In l unconditional_labels /\ ustep p l s = Some s'.
Proof. exact no_deadlock. Qed.
Print Assumptions C17_wait_or_stop_no_deadlock.

(* ... and at most 9 such steps exist: every step of a goroutine lowers the rank, the environment
   never changes it. *)
Theorem C17_wait_or_stop_terminates : forall p s l s', reachable p s -> ustep p l s = Some s' ->
  if is_thread_label l then (rank s' < rank s)%nat else rank s' = rank s.
Proof. exact thread_steps_bounded. Qed.
Print Assumptions C17_wait_or_stop_terminates.

(* Attribution: Wait's own result exactly when no signal was sent (the first select sent nil, or Signal
   answered os.ErrProcessDone because Wait had already reaped the process); the context's error when
   the interrupt was delivered — and also when Signal failed with another error but the value was taken
   from the second select; after such a failure the final send carries Signal's own error. *)
Theorem C17_attribution : forall p s, reachable p s ->
  (uw s = WDoneCtx -> (uintr s = true \/ usigerr s = true) /\ uctx s = true) /\
  (uw s = WDoneWait -> uintr s = false /\ usigerr s = false) /\
  (uw s = WDoneSig -> usigerr s = true /\ uctx s = true) /\
  (sig_fails p = false -> usigerr s = false).
Proof. exact attribution. Qed.
Print Assumptions C17_attribution.

Theorem C17_kill_only_after_interrupt_and_timer : forall p s, reachable p s -> ukil s = true ->
  kd_pos p = true /\ (uintr s = true \/ usigerr s = true) /\ utm s = TFired.
Proof. exact kill_only_after_interrupt. Qed.
Print Assumptions C17_kill_only_after_interrupt_and_timer.

Theorem C17_no_signal_before_context_done : forall p s, reachable p s -> (uintr s = true \/ usigerr s = true) ->
  uctx s = true /\ has_ctx p = true.
Proof. exact no_signal_before_ctx. Qed.
Print Assumptions C17_no_signal_before_context_done.

(* Every timed run is one of those interleavings, with the same result. *)
Theorem C17_timed_run_is_an_interleaving : forall p o, res (wos p o) <> RNever ->
  exists s, uexec (uparams_of p) (trace (wos p o)) uinit = Some s /\
            uw s = (match res (wos p o) with RCtx => WDoneCtx | _ => WDoneWait end) /\ uh s = HDone.
Proof. exact wos_trace_valid. Qed.
Print Assumptions C17_timed_run_is_an_interleaving.

(* A blocked foreground command is interrupted grace_reserve grace periods before the deadline
   (at most two slacks late). *)
Theorem C17_interrupt_time : forall sigma now eps D i o,
  bounded sigma o ->
  exists ti, t_int (wos (fg_params now eps D None i) o) = Some ti /\ int_ok (wos (fg_params now eps D None i) o) = true /\
             D + eps - grace_reserve * grace (D - now) <= ti <= D + eps - grace_reserve * grace (D - now) + 2 * sigma.
Proof. exact runt_interrupt_time. Qed.
Print Assumptions C17_interrupt_time.

(* One that ignores the interrupt is killed one grace period later (at most five slacks late). *)
Theorem C17_kill_escalation : forall sigma now eps D o,
  bounded sigma o ->
  exists tk, t_kill (wos (fg_params now eps D None None) o) = Some tk /\
             D + eps - (grace_reserve - 1) * grace (D - now) <= tk <= D + eps - (grace_reserve - 1) * grace (D - now) + 5 * sigma /\
             t_exit (wos (fg_params now eps D None None) o) = Some tk.
Proof. exact runt_kill_time. Qed.
Print Assumptions C17_kill_escalation.

(* Every foreground command has returned seven slacks after the later of its own exit and the
   kill time ... *)
Theorem C17_returns_by : forall sigma now eps D e i o,
  bounded sigma o -> 0 <= sigma ->
  exists r, t_ret (wos (fg_params now eps D e i) o) = Some r /\
            r <= (match e with
                  | Some ee => Z.max ee (D + eps - (grace_reserve - 1) * grace (D - now))
                  | None => D + eps - (grace_reserve - 1) * grace (D - now)
                  end) + 7 * sigma.
Proof. exact runt_returns_by. Qed.
Print Assumptions C17_returns_by.

(* ... hence by the deadline, when the slack is small against the minimum grace period. *)
Theorem C17_done_by_deadline : forall sigma now eps D e i o,
  bounded sigma o -> 0 <= sigma -> 2 <= grace_reserve -> eps + 7 * sigma <= min_grace ->
  exists r, t_ret (wos (fg_params now eps D e i) o) = Some r /\
            r <= Z.max (match e with Some ee => ee + 7 * sigma | None => D end) D.
Proof. exact runt_done_by_deadline. Qed.
Print Assumptions C17_done_by_deadline.

(* A command that finishes more than a slack before the context expires is unaffected: Wait's own
   result, no signal. *)
Theorem C17_early_unaffected : forall sigma now eps D ee i o,
  bounded sigma o -> 0 <= eps -> ee + sigma < D - grace_reserve * grace (D - now) ->
  res (wos (fg_params now eps D (Some ee) i) o) = RWait /\ t_int (wos (fg_params now eps D (Some ee) i) o) = None /\
  t_kill (wos (fg_params now eps D (Some ee) i) o) = None /\
  exists r, t_ret (wos (fg_params now eps D (Some ee) i) o) = Some r /\ ee <= r <= ee + 2 * sigma.
Proof. exact runt_early_unaffected. Qed.
Print Assumptions C17_early_unaffected.

(* A command that exits d after the interrupt, d + slack < killDelay, is not killed. *)
Theorem C17_cooperative_not_killed : forall sigma p o c d,
  bounded sigma o -> tE p = None -> tI p = Some d -> tC p = Some c -> 0 <= d -> d + sigma < tK p ->
  t_kill (wos p o) = None /\ res (wos p o) = RCtx /\
  exists r, t_ret (wos p o) = Some r /\ r <= c + d + 4 * sigma.
Proof. exact cooperative_not_killed. Qed.
Print Assumptions C17_cooperative_not_killed.

(* exec failed and the context has expired: the failure is the timed-out one, negated or not. *)
Theorem C17_timed_out_message : forall p o wait_ok neg v,
  fg_exec p o wait_ok neg = Some v ->
  (match res (wos p o) with RCtx => true | _ => negb wait_ok end) = true ->
  (exists c r, tC p = Some c /\ t_ret (wos p o) = Some r /\ c <= r) ->
  v = XTimedOut timed_out_message.
Proof. exact timed_out_report. Qed.
Print Assumptions C17_timed_out_message.

(* A foreground command that never exits by itself is reported with the timed-out message. *)
Theorem C17_blocked_reports_timed_out : forall sigma now eps D i o wait_ok neg,
  bounded sigma o -> match i with Some d => 0 <= d | None => True end ->
  fg_exec (fg_params now eps D None i) o wait_ok neg = Some (XTimedOut timed_out_message).
Proof. exact runt_blocked_timed_out. Qed.
Print Assumptions C17_blocked_reports_timed_out.

(* waitOrStop as a timed automaton: [treach par s] — s is reached by some sequence of discrete
   steps (labels of the interleaving system, environment events not before their time) and delays
   (allowed while no pending obligation is more than the slack overdue).  Every interleaving, every
   timing. *)

(* Its control part is a run of the interleaving system: all the theorems above hold of timed runs. *)
Theorem C17_timed_automaton_refines : forall par s, treach par s -> reachable (pu par) (us s).
Proof. exact treach_untimed. Qed.
Print Assumptions C17_timed_automaton_refines.

(* The interrupt is sent between the expiry of the context and three slacks later. *)
Theorem C17_ta_interrupt_window : forall par s ts, wf_tpar par -> treach par s -> at_sig s = Some ts ->
  pC par <= ts <= pC par + 3 * psig par.
Proof. exact ta_interrupt_window. Qed.
Print Assumptions C17_ta_interrupt_window.

(* The kill is sent killDelay after the context expired, at most seven slacks late. *)
Theorem C17_ta_kill_window : forall par s tk, wf_tpar par -> treach par s -> at_kill s = Some tk ->
  pC par + pK par <= tk <= pC par + pK par + 7 * psig par.
Proof. exact ta_kill_window. Qed.
Print Assumptions C17_ta_kill_window.

(* With a deadline and a positive kill delay the clock cannot pass ten slacks after the kill time while
   the waiter has not returned (whatever the process does, also when Signal fails) ... *)
Theorem C17_ta_returns_by : forall par s, wf_tpar par -> has_ctx (pu par) = true -> kd_pos (pu par) = true ->
  treach par s -> w_done (uw (us s)) = false -> now s <= pC par + pK par + 10 * psig par.
Proof. exact ta_returns_by. Qed.
Print Assumptions C17_ta_returns_by.

(* ... so the return time is at most that. *)
Theorem C17_ta_return_time : forall par s r, wf_tpar par -> has_ctx (pu par) = true -> kd_pos (pu par) = true ->
  treach par s -> at_ret s = Some r -> r <= pC par + pK par + 10 * psig par.
Proof. exact ta_return_time. Qed.
Print Assumptions C17_ta_return_time.

(* A command that exits by itself more than three slacks before the context expires: in every timed
   run no signal is ever sent, the result is Wait's own, and waitOrStop returns within three slacks. *)
Theorem C17_ta_early_unaffected : forall par s, wf_tpar par -> early par -> treach par s ->
  uintr (us s) = false /\ usigerr (us s) = false /\ ukil (us s) = false /\ at_sig s = None /\ at_kill s = None /\
  (w_done (uw (us s)) = false -> now s <= pE par + 3 * psig par) /\
  (w_done (uw (us s)) = true ->
   uw (us s) = WDoneWait /\ exists r, at_ret s = Some r /\ pE par <= r <= pE par + 3 * psig par).
Proof. exact ta_early_unaffected. Qed.
Print Assumptions C17_ta_early_unaffected.

(* Under RunT: interrupt grace_reserve grace periods before the deadline, kill one grace period later,
   return at most ten slacks after that. *)
Theorem C17_ta_runt_windows : forall u now_ eps D e d sg s,
  0 <= sg -> 0 <= ctx_deadline now_ eps D -> 0 <= e -> 0 <= d -> has_ctx u = true -> kd_pos u = true ->
  treach (fg_tpar u now_ eps D e d sg) s ->
  let g := grace (D - now_) in
  (forall ts, at_sig s = Some ts -> D + eps - grace_reserve * g <= ts <= D + eps - grace_reserve * g + 3 * sg) /\
  (forall tk, at_kill s = Some tk -> D + eps - (grace_reserve - 1) * g <= tk <= D + eps - (grace_reserve - 1) * g + 7 * sg) /\
  (forall r, at_ret s = Some r -> r <= D + eps - (grace_reserve - 1) * g + 10 * sg).
Proof. exact ta_runt_windows. Qed.
Print Assumptions C17_ta_runt_windows.

(* several RunT calls made by one process (TsRuns.v).  [run_calls_now cs]: what each call of the
   history cs computes (grace period, expiry of its context) for the source as it is — the generated
   constant says whether the grace period is a variable of RunT's body or package-level state;
   [single_call c]: what a fresh process computes for c. *)

(* The outcome of a RunT call does not depend on the calls made before it. *)
Theorem C17_runs_independent : forall cs k c,
  nth_error cs k = Some c -> nth_error (run_calls_now cs) k = Some (single_call c).
Proof. exact runs_independent. Qed.
Print Assumptions C17_runs_independent.

(* A call of a fresh process is the RunT of the theorems above. *)
Theorem C17_single_call_is_runt : forall c D, c_deadline c = Some D ->
  r_grace (single_call c) = grace (D - c_now c) /\
  r_ctx (single_call c) = Some (ctx_deadline (c_now c) (c_eps c) D).
Proof. exact single_call_is_runt. Qed.
Print Assumptions C17_single_call_is_runt.

(* With a grace period kept by the package between calls it is false: after a call with a deadline an
   hour away, the context of a call with a deadline five seconds away is born expired. *)
Theorem C17_kept_grace_period_refuted :
  exists cs k c r, nth_error cs k = Some c /\ nth_error (run_calls false pstate0 cs) k = Some r /\
    r <> single_call c /\
    (exists x, r_ctx r = Some x /\ x < c_now c) /\ (exists y, r_ctx (single_call c) = Some y /\ c_now c < y).
Proof. exact kept_grace_refuted. Qed.
Print Assumptions C17_kept_grace_period_refuted.

(* "Scripts that finish earlier are unaffected by the deadline", in any history: a command of call k
   that exits more than a slack before that call's context expires is never signalled and returns
   Wait's own result, whatever calls came before; and in a call without a deadline nothing is ever
   signalled. *)
Theorem C17_early_unaffected_in_any_history : forall sigma cs k c D ee i o r,
  nth_error cs k = Some c -> c_deadline c = Some D -> nth_error (run_calls_now cs) k = Some r ->
  bounded sigma o -> 0 <= c_eps c -> ee + sigma < D - grace_reserve * grace (D - c_now c) ->
  res (wos (call_params r (Some ee) i) o) = RWait /\ t_int (wos (call_params r (Some ee) i) o) = None /\
  t_kill (wos (call_params r (Some ee) i) o) = None.
Proof. exact early_unaffected_in_any_history. Qed.
Print Assumptions C17_early_unaffected_in_any_history.

Theorem C17_no_deadline_never_signals : forall cs k c ee i o r,
  nth_error cs k = Some c -> c_deadline c = None -> nth_error (run_calls_now cs) k = Some r ->
  res (wos (call_params r (Some ee) i) o) = RWait /\ t_int (wos (call_params r (Some ee) i) o) = None /\
  t_kill (wos (call_params r (Some ee) i) o) = None.
Proof. exact no_deadline_never_signals. Qed.
Print Assumptions C17_no_deadline_never_signals.

(* the exit status of the command plays no part in the attribution.  [wos_return wins ie we]: the
   last lines of waitOrStop (ie: the helper goroutine's value, we: cmd.Wait's); [fg_exec_gen wins]:
   cmdExec on top of it; interrupt_error_wins: what the source has (generated). *)

(* Once the helper goroutine reports the interrupt, that is what waitOrStop returns, whatever
   cmd.Wait returned. *)
Theorem C17_attribution_ignores_exit_status : forall ie w1 w2, ie <> WNil ->
  wos_return interrupt_error_wins ie w1 = ie /\
  wos_return interrupt_error_wins ie w1 = wos_return interrupt_error_wins ie w2.
Proof. exact attribution_status_free. Qed.
Print Assumptions C17_attribution_ignores_exit_status.

(* cmdExec with the status explicit is the cmdExec of the theorems above. *)
Theorem C17_exec_with_status_is_exec : forall p o wait_ok neg,
  fg_exec_gen interrupt_error_wins p o wait_ok neg = fg_exec p o wait_ok neg.
Proof. exact fg_exec_gen_now. Qed.
Print Assumptions C17_exec_with_status_is_exec.

(* A foreground command blocked until the context expired is reported with the timed-out message
   whatever status it exits with on the interrupt — 0 included. *)
Theorem C17_blocked_timed_out_any_status : forall sigma now eps D i o wait_ok neg,
  bounded sigma o -> match i with Some d => 0 <= d | None => True end ->
  fg_exec_gen interrupt_error_wins (fg_params now eps D None i) o wait_ok neg = Some (XTimedOut timed_out_message).
Proof. exact blocked_timed_out_any_status. Qed.
Print Assumptions C17_blocked_timed_out_any_status.

(* With the interrupt error returned only when cmd.Wait failed too, a blocked command that exits 0
   on the interrupt is a success: refuted by witness. *)
Theorem C17_success_on_interrupt_refuted :
  exists now eps D i o, bounded 0 o /\
    fg_exec_gen false (fg_params now eps D None (Some i)) o true false = Some XOk /\
    fg_exec_gen interrupt_error_wins (fg_params now eps D None (Some i)) o true false = Some (XTimedOut timed_out_message).
Proof. exact success_on_interrupt_refuted. Qed.
Print Assumptions C17_success_on_interrupt_refuted.

(* scripts that start long after the RunT call (TsLate.v) *)

(* The context of a script is the one RunT created before it started any subtest (generated
   constant): when it expires does not depend on when the script starts. *)
Theorem C17_script_context_is_runts : forall now eps D t0,
  script_ctx_deadline now eps D t0 = ctx_deadline now eps D.
Proof. exact script_ctx_is_runts. Qed.
Print Assumptions C17_script_context_is_runts.

(* Hence a foreground command that is started before the context expires - however late its script
   got going: sequential T, -parallel 1, a slow script in front - is for waitOrStop exactly the command
   of the theorems above ... *)
Theorem C17_late_script_same_command : forall now eps D t0 e i,
  t0 <= ctx_deadline now eps D -> fg_params_at now eps D t0 e i = fg_params now eps D e i.
Proof. exact late_script_same_params. Qed.
Print Assumptions C17_late_script_same_command.

(* ... in particular it is interrupted two grace periods before the deadline of the RunT call. *)
Theorem C17_late_script_interrupt_time : forall sigma now eps D t0 i o,
  bounded sigma o -> t0 <= ctx_deadline now eps D ->
  exists ti, t_int (wos (fg_params_at now eps D t0 None i) o) = Some ti /\ int_ok (wos (fg_params_at now eps D t0 None i) o) = true /\
             D + eps - grace_reserve * grace (D - now) <= ti <= D + eps - grace_reserve * grace (D - now) + 2 * sigma.
Proof. exact late_script_interrupt_time. Qed.
Print Assumptions C17_late_script_interrupt_time.

(* A command started after the context has expired is interrupted as soon as it runs, and killed one
   grace period after that if it ignores the interrupt. *)
Theorem C17_started_after_expiry : forall sigma now eps D t0 i o,
  bounded sigma o -> ctx_deadline now eps D <= t0 ->
  exists ti, t_int (wos (fg_params_at now eps D t0 None i) o) = Some ti /\ int_ok (wos (fg_params_at now eps D t0 None i) o) = true /\
             t0 <= ti <= t0 + 2 * sigma.
Proof. exact started_after_expiry. Qed.
Print Assumptions C17_started_after_expiry.

Theorem C17_started_after_expiry_kill : forall sigma now eps D t0 o,
  bounded sigma o -> ctx_deadline now eps D <= t0 ->
  exists tk, t_kill (wos (fg_params_at now eps D t0 None None) o) = Some tk /\
             t0 + grace (D - now) <= tk <= t0 + grace (D - now) + 5 * sigma.
Proof. exact started_after_expiry_kill. Qed.
Print Assumptions C17_started_after_expiry_kill.

(* With one context per subtest, counted from the start of the subtest, it is false: a script that
   starts late and blocks is interrupted after the deadline. *)
Theorem C17_context_per_subtest_refuted :
  exists now eps D t0 o,
    now <= t0 /\ t0 <= ctx_deadline now eps D /\ bounded 0 o /\
    exists ti, t_int (wos (fg_params_at_gen false now eps D t0 None None) o) = Some ti /\ D < ti.
Proof. exact context_per_subtest_refuted. Qed.
Print Assumptions C17_context_per_subtest_refuted.

(* the life of the shared context (the batch model of TsBatch.v) *)

(* Outside the subtests RunT cancels the context only when there is no script at all (generated
   constant).  Then, whatever the retention settings (TestWork, -testwork, WorkdirRoot) and under every
   interleaving, the context is not cancelled while a script is unfinished: "scripts that finish
   earlier are unaffected by the deadline". *)
Theorem C17_context_lives_while_scripts_run : forall cfg progs sched,
  precancel_guarded cfg = early_cleanup_only_without_scripts -> progs <> [] ->
  let st := run cfg progs (start cfg progs) sched in
  all_done st = false -> cancelled (sh st) = false.
Proof. exact context_lives_while_scripts_run. Qed.
Print Assumptions C17_context_lives_while_scripts_run.

(* With a cancel() that RunT runs under some retention setting although there are scripts, it is false. *)
Theorem C17_precancel_refuted :
  exists cfg progs, precancel_guarded cfg = false /\ has_cancel cfg = true /\ retain cfg = true /\ progs <> [] /\
    all_done (start cfg progs) = false /\ cancelled (sh (start cfg progs)) = true.
Proof. exact precancel_refuted. Qed.
Print Assumptions C17_precancel_refuted.

From GI Require Lib.GoSem Lib.GoSemInt64 Lib.GoSemFail TsDeadline.SrcLib Gen.TsDeadlineSrc TsDeadline.SrcFacts.

(* the source itself: the pure segments of RunT, exec and cmdExec, translated on every run
   by harness/go2coq (Gen/TsDeadlineSrc.v), are the model (TsDeadline/SrcFacts.v).  time.Duration
   is int64 with wrap-around (Lib/GoSemInt64.v); [until] is the value of time.Until(p.Deadline);
   [until_ok until]: an int64 not among the lowest grace_reserve * min_grace values. *)

(* The translated arithmetic of RunT (gp := timeout / 20, the 100 ms floor, timeout -= 2 * gracePeriod)
   computes the model's grace period and context time-out. *)
Theorem C17_source_deadline_arith : forall until, TsDeadline.SrcFacts.until_ok until ->
  TsDeadlineSrc.src_RunT_deadline min_grace until = GoSem.Ok (GoSem.Normal (grace until, ctx_timeout until)).
Proof. exact TsDeadline.SrcFacts.src_deadline_eq. Qed.
Print Assumptions C17_source_deadline_arith.

(* The grace period is the model's for EVERY int64 value of time.Until. *)
Theorem C17_source_grace_every_int64 : forall until, GoSemInt64.is_i64 until ->
  exists t, TsDeadlineSrc.src_RunT_deadline min_grace until = GoSem.Ok (GoSem.Normal (grace until, t)).
Proof. exact TsDeadline.SrcFacts.src_deadline_grace. Qed.
Print Assumptions C17_source_grace_every_int64.

(* On the lowest 200 ms worth of int64 values (time.Until saturates there for a deadline more
   than about 292 years in the past) Go's subtraction wraps: the context gets a time-out of about
   +292 years instead of a negative one. *)
Theorem C17_source_deadline_wraps : forall until,
  - GoSemInt64.i64_two63 <= until < - GoSemInt64.i64_two63 + grace_reserve * min_grace ->
  TsDeadlineSrc.src_RunT_deadline min_grace until =
    GoSem.Ok (GoSem.Normal (min_grace, ctx_timeout until + GoSemInt64.i64_two64)).
Proof. exact TsDeadline.SrcFacts.src_deadline_wraps. Qed.
Print Assumptions C17_source_deadline_wraps.

(* From Params to context.WithTimeout, by the translated segments in source order (declaration,
   test of Params.Deadline, arithmetic, arguments of the call): no deadline, no context with a
   time-out; otherwise the context is derived from context.Background() with the model's time-out,
   and the grace period is the model's. *)
Theorem C17_source_runt_context : forall p until, TsDeadline.SrcFacts.until_ok until ->
  TsDeadline.SrcFacts.src_runt_context p until =
    GoSem.Ok (if TsDeadline.SrcLib.go_time_IsZero (TsDeadline.SrcLib.p_Deadline p) then (None, min_grace)
              else (Some (TsDeadline.SrcLib.CtxBackground, ctx_timeout until), grace until)).
Proof. exact TsDeadline.SrcFacts.src_runt_context_eq. Qed.
Print Assumptions C17_source_runt_context.

(* "Two grace periods before the deadline", on the translated segments. *)
Theorem C17_source_two_grace_periods : forall p until, TsDeadline.SrcFacts.until_ok until ->
  TsDeadline.SrcLib.go_time_IsZero (TsDeadline.SrcLib.p_Deadline p) = false ->
  exists g t, TsDeadline.SrcFacts.src_runt_context p until = GoSem.Ok (Some (TsDeadline.SrcLib.CtxBackground, t), g) /\
              (t + grace_reserve * g = until) /\ g >= min_grace /\ g >= Z.quot until grace_divisor.
Proof. exact TsDeadline.SrcFacts.src_two_grace_periods. Qed.
Print Assumptions C17_source_two_grace_periods.

(* A foreground command of a script whose record RunT's literal made is waited for with RunT's
   context and the model's kill delay (one grace period); a background command with bg_kill_delay. *)
Theorem C17_source_kill_delay : forall ctx until cmd ts,
  TsDeadlineSrc.src_RunT_script ctx (grace until) = GoSem.Ok (GoSem.Normal ts) ->
  TsDeadlineSrc.src_TestScript_exec_wait_args ts cmd = GoSem.Ok (ctx, cmd, fg_kill_delay until).
Proof. exact TsDeadline.SrcFacts.src_fg_kill_delay_eq. Qed.
Print Assumptions C17_source_kill_delay.

Theorem C17_source_background_kill_delay : forall ts cmd,
  TsDeadlineSrc.src_TestScript_cmdExec_bg_wait_args ts cmd = GoSem.Ok (TsDeadline.SrcLib.d_ctxt ts, cmd, bg_kill_delay).
Proof. exact TsDeadline.SrcFacts.src_bg_wait_args_eq. Qed.
Print Assumptions C17_source_background_kill_delay.

(* RunT's own os.Remove(testTempDir) / cancel() are guarded by a condition that is false whenever
   there is a script. *)
Theorem C17_source_early_cancel_needs_no_scripts : forall p n tw,
  TsDeadlineSrc.src_RunT_no_scripts p n tw = GoSem.Ok true -> n = 0.
Proof. exact TsDeadline.SrcFacts.src_no_scripts_requires_empty. Qed.
Print Assumptions C17_source_early_cancel_needs_no_scripts.

(* The tail of cmdExec, by the translated conditions and Fatalf decisions: the model's verdict
   for every combination of error / expired context / negation ... *)
Theorem C17_source_cmd_exec_verdict : forall ts err expired neg,
  exists x, TsDeadline.SrcFacts.src_cmd_exec_tail ts err expired neg = GoSem.Ok x /\
            TsDeadline.SrcFacts.verdict_of_exit x = Some (cmd_exec_verdict err expired neg).
Proof. exact TsDeadline.SrcFacts.src_cmd_exec_tail_eq. Qed.
Print Assumptions C17_source_cmd_exec_verdict.

(* ... in particular an exec that failed while the context had expired ends in
   Fatalf("test timed out while running command"). *)
Theorem C17_source_timed_out_message : forall ts neg,
  TsDeadline.SrcFacts.src_cmd_exec_tail ts true true neg = GoSem.Ok (GoSemFail.FailedM timed_out_message).
Proof. exact TsDeadline.SrcFacts.src_cmd_exec_timed_out. Qed.
Print Assumptions C17_source_timed_out_message.
