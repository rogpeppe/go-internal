(* C07 — lockedfile contents change atomically: Read/Write/Transform linearise; Transform
   rolls back.  Only the property theorems, each closed by [exact] of a lemma proved in the
   files of LockedFile/ required below, with Print Assumptions beneath. *)
From Coq Require Import List NArith Bool Arith Sorted.
From Coq.Strings Require Import Byte.
From GI Require Import Gen.LockedFileConsts LockedFile.LockedFile LockedFile.LockBasics
  LockedFile.LockProofs LockedFile.TransformProofs
  LockedFile.LinBasics LockedFile.LinProofs LockedFile.LinTheorems LockedFile.FaultProofs.
From GI Require Import LockedFile.Policy LockedFile.PolicyProofs LockedFile.PolicyTransform LockedFile.PolicyCall.
From GI Require Import LockedFile.LinFresh.
Import ListNotations.

(* faults: every plan with at most one faulty operation (a failing write may have
   written any prefix), all old / new, all length relations *)
Theorem C07_transform_fault_atomic : forall t old plan fd,
  acc_writable (fd_acc fd) = true -> acc_readable (fd_acc fd) = true -> fd_off fd = 0 ->
  single_fault plan ->
  match run_body (transform_body t) plan 0 old fd with
  | (r, b', _) =>
      (r = ResOk /\ t old = Some b') \/
      (r = ResErr /\ b' = old /\ (t old = None \/ exists j, plan j <> FNone))
  end.
Proof. exact transform_fault_atomic. Qed.
Print Assumptions C07_transform_fault_atomic.

Theorem C07_transform_fault_atomic_at : forall t old k f,
  match run_body (transform_body t) (fault_at k f) 0 old (fresh_fd edit_flags) with
  | (r, b', _) => (r = ResOk /\ t old = Some b') \/ (r = ResErr /\ b' = old)
  end.
Proof. exact transform_fault_atomic_at. Qed.
Print Assumptions C07_transform_fault_atomic_at.

Theorem C07_transform_ok : forall t old new fd,
  acc_writable (fd_acc fd) = true -> acc_readable (fd_acc fd) = true -> fd_off fd = 0 ->
  t old = Some new ->
  match run_body (transform_body t) no_faults 0 old fd with
  | (r, b', _) => r = ResOk /\ b' = new
  end.
Proof. exact transform_ok. Qed.
Print Assumptions C07_transform_ok.

Theorem C07_transform_t_fails : forall t old fd plan,
  acc_writable (fd_acc fd) = true -> acc_readable (fd_acc fd) = true -> fd_off fd = 0 ->
  single_fault plan -> t old = None ->
  match run_body (transform_body t) plan 0 old fd with
  | (r, b', _) => r = ResErr /\ b' = old
  end.
Proof. exact transform_t_fails. Qed.
Print Assumptions C07_transform_t_fails.

(* the whole call (open, flock, body, unlock, close) alone on the OS model *)
Theorem C07_transform_call_fault_atomic : forall t old plan,
  single_fault plan ->
  match run_seq 0 0 (prog_of_call (CTransform t)) plan 0 (os_with (Some old)) with
  | (_, out, s') =>
      ltab s' 0 = [] /\ fds s' 0 = None /\
      ((out = Finished ResOk /\ t old = Some (content_of (files s' 0))) \/
       (out = Finished ResErr /\ content_of (files s' 0) = old))
  end.
Proof. exact transform_call_fault_atomic. Qed.
Print Assumptions C07_transform_call_fault_atomic.

(* a fault among the operations actually executed forces an error return *)
Theorem C07_transform_fault_errs : forall t old plan fd k,
  acc_writable (fd_acc fd) = true -> acc_readable (fd_acc fd) = true ->
  k < body_steps (transform_body t) plan 0 old fd -> plan k <> FNone ->
  result_of (run_body (transform_body t) plan 0 old fd) = ResErr.
Proof. exact transform_fault_errs. Qed.
Print Assumptions C07_transform_fault_errs.

Theorem C07_write_fault_errs : forall d plan X fd k,
  acc_writable (fd_acc fd) = true -> acc_readable (fd_acc fd) = true ->
  k < body_steps (write_body d) plan 0 X fd -> plan k <> FNone ->
  result_of (run_body (write_body d) plan 0 X fd) = ResErr.
Proof. exact write_fault_errs. Qed.
Print Assumptions C07_write_fault_errs.

(* any write-locking call on an existing file, alone, operation j suffering plan j (any plan):
   what it returns and leaves is its body run on the contents after the post-lock truncation;
   a failed truncation leaves the old contents; the lock is always released *)
Theorem C07_excl_call_faulty : forall fl b old plan,
  io_only b -> lock_mode_of_flags fl = Some LEx ->
  has_flag (strip fl openfile_strip_mask) sys_O_CREATE && has_flag (strip fl openfile_strip_mask) sys_O_EXCL = false ->
  match run_seq 0 0 (client_prog fl b) plan 0 (os_with (Some old)) with
  | (_, out, s') =>
      ltab s' 0 = [] /\ fds s' 0 = None /\
      if has_flag fl truncate_cond_mask then
        match plan 2 with
        | FNone => match run_body b plan 4 (start_contents fl old) (fresh_fd fl) with
                   | (r, X', _) => out = Finished r /\ content_of (files s' 0) = X' end
        | _ => out = Finished ResErr /\ content_of (files s' 0) = old
        end
      else match run_body b plan 3 old (fresh_fd fl) with
           | (r, X', _) => out = Finished r /\ content_of (files s' 0) = X' end
  end.
Proof. exact excl_call_faulty. Qed.
Print Assumptions C07_excl_call_faulty.

(* Write promises no rollback: success = exactly the new content; failure = the old content
   or a (possibly empty) prefix of the new content, never a mixture *)
Theorem C07_write_call_faulty : forall d old plan,
  match run_seq 0 0 (prog_of_call (CWrite d)) plan 0 (os_with (Some old)) with
  | (_, out, s') =>
      ltab s' 0 = [] /\ fds s' 0 = None /\
      ((out = Finished ResOk /\ content_of (files s' 0) = d) \/
       (out = Finished ResErr /\
        (content_of (files s' 0) = old \/ exists m, content_of (files s' 0) = firstn m d)))
  end.
Proof. exact write_call_faulty. Qed.
Print Assumptions C07_write_call_faulty.

Theorem C07_create_write_call_faulty : forall d old plan,
  match run_seq 0 0 (prog_of_call (CCreate (write_body d))) plan 0 (os_with (Some old)) with
  | (_, out, s') =>
      ltab s' 0 = [] /\ fds s' 0 = None /\
      ((out = Finished ResOk /\ content_of (files s' 0) = d) \/
       (out = Finished ResErr /\
        (content_of (files s' 0) = old \/ exists m, content_of (files s' 0) = firstn m d)))
  end.
Proof. exact create_write_call_faulty. Qed.
Print Assumptions C07_create_write_call_faulty.

Theorem C07_edit_call_faulty : forall b old plan,
  io_only b ->
  match run_seq 0 0 (prog_of_call (CEdit b)) plan 0 (os_with (Some old)),
        run_body b plan 3 old (fresh_fd edit_flags) with
  | (_, out, s'), (r, X', _) =>
      ltab s' 0 = [] /\ fds s' 0 = None /\ out = Finished r /\ content_of (files s' 0) = X'
  end.
Proof. exact edit_call_faulty. Qed.
Print Assumptions C07_edit_call_faulty.

Theorem C07_write_has_no_rollback :
  exists old d plan, single_fault plan /\
    match run_seq 0 0 (prog_of_call (CWrite d)) plan 0 (os_with (Some old)) with
    | (_, out, s') => out = Finished ResErr /\ content_of (files s' 0) <> old
    end.
Proof. exact write_has_no_rollback. Qed.
Print Assumptions C07_write_has_no_rollback.

(* schedules: every interleaving of any number of clients (LinProofs / LinTheorems) *)

Theorem C07_register_invariant : forall cfg f s i,
  wf_cfg cfg -> reachable cfg f s ->
  (forall c, holds c LEx (ltab (st_os s) i) = false) ->
  content_of (files (st_os s) i) = reg s i.
Proof. exact register_invariant. Qed.
Print Assumptions C07_register_invariant.

Theorem C07_linearizable : forall cfg f s,
  wf_cfg cfg -> reachable cfg f s ->
  (forall i, legal (content_of (f i)) (lin s i) (reg s i) /\
             StronglySorted newer (lin s i) /\
             forall e, In e (lin s i) -> entry_ok cfg i e) /\
  (forall c x, returned s c x ->
     (status s c = SIdle /\ x = ResErr) \/
     (status s c = SClosing /\
      exists e t0 t1, In e (lin s (c_ino (cfg c))) /\ le_client e = c /\
        (x, le_after e) = call_spec (flags_of cfg c) (body_of cfg c) (le_before e) /\
        t_inv s c = Some t0 /\ t_resp s c = Some t1 /\ t0 <= le_time e <= t1)).
Proof. exact linearizable. Qed.
Print Assumptions C07_linearizable.

Theorem C07_real_time_order : forall cfg f s i e1 e2 t1 t2,
  wf_cfg cfg -> reachable cfg f s ->
  In e1 (lin s i) -> In e2 (lin s i) ->
  t_resp s (le_client e1) = Some t1 -> t_inv s (le_client e2) = Some t2 -> t1 < t2 ->
  le_time e1 < le_time e2.
Proof. exact real_time_order. Qed.
Print Assumptions C07_real_time_order.

Theorem C07_read_complete : forall cfg f s c v,
  wf_cfg cfg -> reachable cfg f s ->
  c_call (cfg c) = CRead -> returned s c (ResData v) ->
  let i := c_ino (cfg c) in
  exists e, In e (lin s i) /\ le_client e = c /\ le_before e = v /\ le_after e = v /\
    (v = content_of (f i) \/
     exists w, In w (lin s i) /\ is_writer cfg w /\ le_time w < le_time e /\ le_after w = v /\
       snd (call_spec (flags_of cfg (le_client w)) (body_of cfg (le_client w)) (le_before w)) = v).
Proof. exact read_complete. Qed.
Print Assumptions C07_read_complete.

Theorem C07_no_stale_read : forall cfg f s c v w tw tc,
  wf_cfg cfg -> reachable cfg f s ->
  c_call (cfg c) = CRead -> returned s c (ResData v) ->
  In w (lin s (c_ino (cfg c))) -> is_writer cfg w ->
  t_resp s (le_client w) = Some tw -> t_inv s c = Some tc -> tw < tc ->
  exists e, In e (lin s (c_ino (cfg c))) /\ le_client e = c /\ le_before e = v /\
            le_time w < le_time e.
Proof. exact no_stale_read. Qed.
Print Assumptions C07_no_stale_read.

Theorem C07_write_effect : forall cfg f s c d,
  wf_cfg cfg -> reachable cfg f s ->
  c_call (cfg c) = CWrite d -> returned s c ResOk ->
  exists e, In e (lin s (c_ino (cfg c))) /\ le_client e = c /\ le_after e = d.
Proof. exact write_effect. Qed.
Print Assumptions C07_write_effect.

Theorem C07_transform_effect : forall cfg f s c t x,
  wf_cfg cfg -> reachable cfg f s ->
  c_call (cfg c) = CTransform t -> returned s c x -> status s c = SClosing ->
  exists e, In e (lin s (c_ino (cfg c))) /\ le_client e = c /\
    match t (le_before e) with
    | Some new => x = ResOk /\ le_after e = new
    | None => x = ResErr /\ le_after e = le_before e
    end.
Proof. exact transform_effect. Qed.
Print Assumptions C07_transform_effect.

Theorem C07_no_lost_update : forall cfg f s i g,
  wf_cfg cfg -> reachable cfg f s ->
  (forall c, c_ino (cfg c) = i ->
     c_call (cfg c) = CRead \/ c_call (cfg c) = CTransform (fun b => Some (g b))) ->
  reg s i = Nat.iter (writers cfg (lin s i)) g (content_of (f i)).
Proof. exact no_lost_update. Qed.
Print Assumptions C07_no_lost_update.

Theorem C07_no_lost_update_contents : forall cfg f s i g,
  wf_cfg cfg -> reachable cfg f s ->
  (forall c, c_ino (cfg c) = i ->
     c_call (cfg c) = CRead \/ c_call (cfg c) = CTransform (fun b => Some (g b))) ->
  (forall c, holds c LEx (ltab (st_os s) i) = false) ->
  content_of (files (st_os s) i) = Nat.iter (writers cfg (lin s i)) g (content_of (f i)).
Proof. exact no_lost_update_contents. Qed.
Print Assumptions C07_no_lost_update_contents.

(* each client contributes at most one entry to the log, a completed call exactly one *)
Theorem C07_one_entry_per_client : forall cfg f s c i,
  wf_cfg cfg -> reachable cfg f s ->
  cnt c (lin s i) <= 1 /\ (i <> c_ino (cfg c) -> cnt c (lin s i) = 0).
Proof. exact one_entry_per_client. Qed.
Print Assumptions C07_one_entry_per_client.

Theorem C07_completed_call_one_entry : forall cfg f s c x,
  wf_cfg cfg -> reachable cfg f s -> returned s c x -> status s c = SClosing ->
  cnt c (lin s (c_ino (cfg c))) = 1.
Proof. exact completed_call_one_entry. Qed.
Print Assumptions C07_completed_call_one_entry.

Theorem C07_no_lost_update_exact : forall cfg f s i g cs,
  wf_cfg cfg -> reachable cfg f s ->
  (forall c, c_ino (cfg c) = i ->
     c_call (cfg c) = CRead \/ c_call (cfg c) = CTransform (fun b => Some (g b))) ->
  NoDup cs ->
  (forall c, In c cs -> c_ino (cfg c) = i /\ c_call (cfg c) = CTransform (fun b => Some (g b)) /\
                        returned s c ResOk) ->
  (forall c, c_ino (cfg c) = i -> c_call (cfg c) = CTransform (fun b => Some (g b)) ->
             ~ In c cs -> t_inv s c = None) ->
  reg s i = Nat.iter (length cs) g (content_of (f i)).
Proof. exact no_lost_update_exact. Qed.
Print Assumptions C07_no_lost_update_exact.

(* persistent faults (Policy.v: the fault of each operation is chosen by a policy that sees
   the whole history).  The property text asks for "any SINGLE write step" — the theorems above.
   Beyond that the code guarantees the following, and not more. *)

(* a size limit L (RLIMIT_FSIZE, a quota): every write stores what fits below L and then fails,
   the rollback's writes too — all-or-nothing for every L and every length relation *)
Theorem C07_transform_limit_atomic : forall t old L h fd,
  rwfd fd ->
  match run_body_pol (transform_body t) (limit_pol L) h old fd with
  | (r, X, _) => (r = ResOk /\ t old = Some X) \/ (r = ResErr /\ X = old)
  end.
Proof. exact transform_limit_atomic. Qed.
Print Assumptions C07_transform_limit_atomic.

Theorem C07_transform_call_limit_atomic : forall t old L,
  match run_pol 0 0 (prog_of_call (CTransform t)) (limit_pol L) [] (os_with (Some old)) with
  | (_, out, s') =>
      fds s' 0 = None /\ (forall k, holds 0 k (ltab s' 0) = false) /\
      ((out = Finished ResOk /\ t old = Some (content_of (files s' 0))) \/
       (out = Finished ResErr /\ content_of (files s' 0) = old))
  end.
Proof. exact transform_call_limit_atomic. Qed.
Print Assumptions C07_transform_call_limit_atomic.

(* every write fails outright, the truncations do whatever they like: all-or-nothing *)
Theorem C07_transform_no_write_atomic : forall t old pol h fd,
  rwfd fd -> writes_always_fail pol ->
  match run_body_pol (transform_body t) pol h old fd with
  | (r, X, _) => (r = ResOk /\ t old = Some X) \/ (r = ResErr /\ X = old)
  end.
Proof. exact transform_no_write_atomic. Qed.
Print Assumptions C07_transform_no_write_atomic.

(* ANY policy: an error return never loses bytes — the file is at least as long as before and the
   old bytes beyond the new length are intact (write first, truncate last) *)
Theorem C07_transform_err_keeps_old_tail : forall t old pol h fd,
  rwfd fd ->
  match run_body_pol (transform_body t) pol h old fd with
  | (ResErr, X, _) =>
      length old <= length X /\
      forall new, t old = Some new ->
        forall i, length new <= i -> i < length old -> nth i X x00 = nth i old x00
  | _ => True
  end.
Proof. exact transform_err_keeps_old_tail. Qed.
Print Assumptions C07_transform_err_keeps_old_tail.

Theorem C07_transform_call_err_keeps_old_tail : forall t old pol,
  io_faults_only pol ->
  match run_pol 0 0 (prog_of_call (CTransform t)) pol [] (os_with (Some old)) with
  | (_, Finished ResErr, s') =>
      let X := content_of (files s' 0) in
      length old <= length X /\
      forall new, t old = Some new ->
        forall j, length new <= j -> j < length old -> nth j X x00 = nth j old x00
  | _ => True
  end.
Proof. exact transform_call_err_keeps_old_tail. Qed.
Print Assumptions C07_transform_call_err_keeps_old_tail.

(* but all-or-nothing does NOT hold under arbitrary persistent faults: the tail of a growing
   Transform is written, then every write fails — the file is left as old ++ tail of new *)
Theorem C07_transform_persistent_not_atomic :
  exists t old pol, rwfd (fresh_fd edit_flags) /\
    match run_body_pol (transform_body t) pol [] old (fresh_fd edit_flags) with
    | (r, X, _) => r = ResErr /\ X <> old /\ t old <> Some X /\ X = old ++ [x7a; x77]
    end.
Proof. exact transform_persistent_not_atomic. Qed.
Print Assumptions C07_transform_persistent_not_atomic.

(* "applies its function to the latest contents and publishes the result": for EVERY result value
   (the empty one included) a fault-free Transform returns nil and the file holds it *)
Theorem C07_transform_publishes_any_result : forall t old new h fd,
  rwfd fd -> t old = Some new ->
  match run_body_pol (transform_body t) no_fault_pol h old fd with
  | (r, X, _) => r = ResOk /\ X = new
  end.
Proof. exact transform_publishes_any_result. Qed.
Print Assumptions C07_transform_publishes_any_result.

Theorem C07_transform_call_publishes : forall t old new,
  t old = Some new ->
  match run_pol 0 0 (prog_of_call (CTransform t)) no_fault_pol [] (os_with (Some old)) with
  | (_, out, s') =>
      out = Finished ResOk /\ content_of (files s' 0) = new /\
      fds s' 0 = None /\ (forall k, holds 0 k (ltab s' 0) = false)
  end.
Proof. exact transform_call_publishes. Qed.
Print Assumptions C07_transform_call_publishes.

(* Write with any content reader, any I/O policy: nil => exactly what the reader delivered and the
   reader did not fail; error => the old contents or a prefix of what the reader delivered *)
Theorem C07_writer_call_faulty : forall chunks rerr old pol,
  io_faults_only pol ->
  match run_pol 0 0 (prog_of_call (writer_call chunks rerr)) pol [] (os_with (Some old)) with
  | (_, out, s') =>
      fds s' 0 = None /\ (forall k, holds 0 k (ltab s' 0) = false) /\
      ((out = Finished ResOk /\ rerr = false /\ content_of (files s' 0) = concat chunks) \/
       (out = Finished ResErr /\
        (content_of (files s' 0) = old \/ exists m, content_of (files s' 0) = firstn m (concat chunks))))
  end.
Proof. exact writer_call_faulty. Qed.
Print Assumptions C07_writer_call_faulty.

(* the policy semantics gives the position plans of the theorems above as a special case *)
Theorem C07_policies_extend_plans : forall p plan h b fd,
  run_body_pol p (pol_of_plan plan) h b fd = run_body p plan (length h) b fd.
Proof. exact run_body_pol_plan. Qed.
Print Assumptions C07_policies_extend_plans.

(* files that do not exist yet (LinFresh.v): instances of the schedule theorems for the calls
   that create the file *)

(* Transform opens with Edit's flags: it creates, and it never truncates *)
Theorem C07_transform_creates_without_truncating : forall t b,
  has_flag (flags_of_call (CTransform t)) sys_O_CREATE = true /\
  has_flag (flags_of_call (CTransform t)) sys_O_TRUNC = false /\
  has_flag (flags_of_call (CTransform t)) truncate_cond_mask = false /\
  start_contents (flags_of_call (CTransform t)) b = b.
Proof. exact transform_creates_without_truncating. Qed.
Print Assumptions C07_transform_creates_without_truncating.

(* Transforms racing on a file that does not exist when they start lose nothing *)
Theorem C07_no_lost_update_new_file : forall cfg f s i g cs,
  wf_cfg cfg -> reachable cfg f s -> f i = None ->
  (forall c, c_ino (cfg c) = i ->
     c_call (cfg c) = CRead \/ c_call (cfg c) = CTransform (fun b => Some (g b))) ->
  NoDup cs ->
  (forall c, In c cs -> c_ino (cfg c) = i /\ c_call (cfg c) = CTransform (fun b => Some (g b)) /\
                        returned s c ResOk) ->
  (forall c, c_ino (cfg c) = i -> c_call (cfg c) = CTransform (fun b => Some (g b)) ->
             ~ In c cs -> t_inv s c = None) ->
  reg s i = Nat.iter (length cs) g [].
Proof. exact no_lost_update_new_file. Qed.
Print Assumptions C07_no_lost_update_new_file.

(* The SOURCE, translated (see the same heading in C06.v): Read, Write and Transform of
   Gen/LockedFileSrc.v -- Go's lockedfile.go translated on every run over an abstract operating
   system -- are the program terms the theorems above speak about, for every operating system
   (record os_ops), every world, every argument, every fuel >= 1. *)
From Coq Require Import ZArith.
From GI Require Import Lib.GoSem Lib.GoSemWorld.
From GI Require Import LockedFile.LockedFileA LockedFile.Policy LockedFile.PolicyCall.
From GI Require Import LockedFile.SrcLib Gen.LockedFileSrc LockedFile.SrcFacts LockedFile.SrcModel LockedFile.SrcTheorems.
Import GoNotations.
Local Open Scope go_scope.

Theorem C07_source_Read : forall OS : os_ops, unlock_no_eintr OS ->
  forall a : attr, stat_static OS (a_regular a) ->
  forall fuel w name f0 h, 1 <= fuel ->
  (x <- lf_Read OS fuel w name ;; match x with (w', b, e) => Ok (w', result_of_data b e) end) =
  (x <- run_prog OS name 0 fuel (prog_of_call_a a CRead) f0 w h WNil ;; Ok (run_out OS x)).
Proof. exact Read_eq. Qed.
Print Assumptions C07_source_Read.

(* Write with any content reader (the chunks it delivers, the error it ends with): the program
   of the model's writer_call with the close part that hands back the error of Close when the
   copy succeeded (SrcFacts.close_part_w; same operations as close_part: next theorems) *)
Theorem C07_source_Write : forall OS : os_ops, unlock_no_eintr OS ->
  forall a : attr, stat_static OS (a_regular a) ->
  forall fuel w name chunks rerr perm f0 h, 1 <= fuel ->
  (x <- lf_Write OS fuel w name (chunks, rerr) perm ;; match x with (w', e) => Ok (w', result_of_err e) end) =
  (x <- run_prog OS name perm fuel (write_prog_a a chunks (negb (werr_is_nil rerr))) f0 w h WNil ;; Ok (run_out OS x)).
Proof. exact Write_eq. Qed.
Print Assumptions C07_source_Write.

Theorem C07_source_Write_ops_are_writer_call : forall OS : os_ops, unlock_no_eintr OS ->
  forall a : attr, stat_static OS (a_regular a) ->
  forall path perm fuel chunks rerr f0 w h e,
  (x <- run_prog OS path perm fuel (write_prog_a a chunks rerr) f0 w h e ;; Ok (fst (run_out OS x))) =
  (x <- run_prog OS path perm fuel (prog_of_call_a a (writer_call chunks rerr)) f0 w h e ;; Ok (fst (run_out OS x))).
Proof. exact write_prog_world. Qed.
Print Assumptions C07_source_Write_ops_are_writer_call.

Theorem C07_source_Write_close_part : forall OS : os_ops, unlock_no_eintr OS ->
  forall path perm fuel x f w h e,
  run_prog OS path perm fuel (close_part_w x) f w h e =
  (y <- run_prog OS path perm fuel (close_part x) f w h e ;;
   match y with (w', f', h', e', _) =>
     Ok (w', f', h', e', close_result x (res_of_err (cl_e1 OS f w)) (res_of_err (cl_e2 OS f w))) end).
Proof. exact close_part_w_ops. Qed.
Print Assumptions C07_source_Write_close_part.

(* Transform with any function t (model_t t: the same function as the model sees it) *)
Theorem C07_source_Transform : forall OS : os_ops, unlock_no_eintr OS ->
  forall a : attr, stat_static OS (a_regular a) ->
  forall fuel w name (t : bytes -> bytes * werr) f0 h, 1 <= fuel ->
  (x <- lf_Transform OS fuel w name t ;; match x with (w', e) => Ok (w', result_of_err e) end) =
  (x <- run_prog OS name 438 fuel (prog_of_call_a a (CTransform (model_t t))) f0 w h WNil ;; Ok (run_out OS x)).
Proof. exact Transform_eq. Qed.
Print Assumptions C07_source_Transform.

(* the translated Transform run on the MODEL's operating system (SrcModel.model_ops: the OS of
   LockedFile.v under a fault policy), alone on a file holding old *)

(* a size limit L, every write storing what fits and then failing, the rollback's writes too:
   all-or-nothing, everything released *)
Theorem C07_source_transform_limit_atomic : forall (t : bytes -> bytes * werr) old L fuel name, 1 <= fuel ->
  match lf_Transform (model_ops 0 0 (limit_pol L)) fuel (os_with (Some old), []) name t with
  | Ok (w', e) =>
      fds (fst w') 0 = None /\ (forall k, holds 0 k (ltab (fst w') 0) = false) /\
      ((werr_is_nil e = true /\ model_t t old = Some (contents w')) \/
       (werr_is_nil e = false /\ contents w' = old))
  | _ => False
  end.
Proof. exact source_transform_limit_atomic. Qed.
Print Assumptions C07_source_transform_limit_atomic.

(* no faults: Transform returns nil and the file holds the function's result, whatever it is *)
Theorem C07_source_transform_publishes : forall (t : bytes -> bytes * werr) old new fuel name, 1 <= fuel ->
  model_t t old = Some new ->
  match lf_Transform (model_ops 0 0 no_fault_pol) fuel (os_with (Some old), []) name t with
  | Ok (w', e) =>
      werr_is_nil e = true /\ contents w' = new /\
      fds (fst w') 0 = None /\ (forall k, holds 0 k (ltab (fst w') 0) = false)
  | _ => False
  end.
Proof. exact source_transform_publishes. Qed.
Print Assumptions C07_source_transform_publishes.

(* ANY policy that faults file I/O only: an error return never loses bytes *)
Theorem C07_source_transform_err_keeps_old_tail : forall pol' (t : bytes -> bytes * werr) old fuel name, 1 <= fuel ->
  io_faults_only pol' ->
  match lf_Transform (model_ops 0 0 pol') fuel (os_with (Some old), []) name t with
  | Ok (w', e) =>
      werr_is_nil e = false ->
      length old <= length (contents w') /\
      forall new, model_t t old = Some new ->
        forall j, length new <= j -> j < length old -> nth j (contents w') x00 = nth j old x00
  | _ => True
  end.
Proof. exact source_transform_err_keeps_old_tail. Qed.
Print Assumptions C07_source_transform_err_keeps_old_tail.

(* the translated Transform run on the operating system of the model's faulty body semantics
   (SrcBody.body_ops plan: open, flock and close succeed; file I/O as LockedFile.io_step, the n-th
   I/O operation of the call suffering plan n): with a SINGLE faulty operation anywhere -- a failing
   write may have stored any prefix of its data -- the source's Transform is all-or-nothing *)
From GI Require Import LockedFile.SrcBody.

Theorem C07_source_transform_fault_atomic : forall (t : bytes -> bytes * werr) old plan fd fuel name, 1 <= fuel ->
  acc_writable (fd_acc fd) = true -> acc_readable (fd_acc fd) = true -> fd_off fd = 0 ->
  single_fault plan ->
  match lf_Transform (body_ops plan) fuel (old, fd, 0) name t with
  | Ok ((b', _, _), e) =>
      (werr_is_nil e = true /\ model_t t old = Some b') \/
      (werr_is_nil e = false /\ b' = old /\ (model_t t old = None \/ exists j, plan j <> FNone))
  | _ => False
  end.
Proof. exact source_transform_fault_atomic. Qed.
Print Assumptions C07_source_transform_fault_atomic.
