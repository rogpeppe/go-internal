(* C11 — concurrent cache users never observe corrupt or foreign data.
   Only the property theorems; the proofs are in Cache/CacheConcFacts.v (interleavings),
   Cache/CacheReentFacts.v, Cache/CacheReentConcFacts.v (calls from inside a Put) and Cache/SrcWorld*.v (source).
   H: the hash; U: the contents; PS id d tm: "some Put of the system (or of whatever built the
   initial store) stores d under id with timestamp tm". *)
From Coq Require Import List ZArith.
From Coq.Strings Require Import Byte.
From GI Require Import Lib.Bytes Gen.CacheConsts Cache.CacheEntry Cache.Cache Cache.CacheSeqFacts
  Cache.CacheFault Cache.CacheFaultFacts Cache.CacheConc Cache.CacheConcFacts Cache.CacheReent Cache.CacheReentFacts Cache.CacheReentConcFacts.
Import ListNotations.

(* for all clients, all call lists (Puts of PS, lookups), all schedules, all torn views *)
Theorem C11_conc_I1 : forall H U PS, C11_hyps H U PS ->
  forall callss fs0 sched,
  Jc H U PS (init_sys fs0) -> Forall (Forall (call_ok PS)) callss ->
  let s := snd (conc_run H callss fs0 sched) in
  I1 H U (sfiles s) /\ (forall id c, sfiles s (IdxP id) = Some c -> good_idx H PS (sfiles s) id c).
Proof. intros H U PS (H1 & H2 & H3). exact (conc_I1 H U H1 H2 PS H3). Qed.
Print Assumptions C11_conc_I1.

Theorem C11_quiescent_all_readable : forall H U PS, C11_hyps H U PS ->
  forall callss fs0 sched,
  Jc H U PS (init_sys fs0) -> Forall (Forall (call_ok PS)) callss ->
  let st := conc_run H callss fs0 sched in
  finished (fst st) = true ->
  forall calls id chunks tm, In calls callss -> In (CPut id chunks tm) calls ->
  exists d tm', PS id d tm' /\
    get_bytes H (sfiles (snd st)) id = Found d (H d) (Z.of_nat (length d)) tm' /\
    get_file (sfiles (snd st)) id = Found (DatP (H d)) (H d) (Z.of_nat (length d)) tm'.
Proof. intros H U PS (H1 & H2 & H3). exact (quiescent_all_readable H U H1 H2 PS H3). Qed.
Print Assumptions C11_quiescent_all_readable.

Theorem C11_stored_id_readable_in_every_state : forall H U PS, C11_hyps H U PS ->
  forall callss fs0 sched id,
  Jc H U PS (init_sys fs0) -> Forall (Forall (call_ok PS)) callss ->
  idx_nonempty id (init_sys fs0) ->
  let s := snd (conc_run H callss fs0 sched) in
  exists d tm', PS id d tm' /\
    get_bytes H (sfiles s) id = Found d (H d) (Z.of_nat (length d)) tm' /\
    get_file (sfiles s) id = Found (DatP (H d)) (H d) (Z.of_nat (length d)) tm'.
Proof. intros H U PS (H1 & H2 & H3). exact (stored_id_readable H U H1 H2 PS H3). Qed.
Print Assumptions C11_stored_id_readable_in_every_state.

Theorem C11_lookup_in_every_state_is_some_put : forall H U PS, C11_hyps H U PS ->
  forall callss fs0 sched id d out size tm,
  Jc H U PS (init_sys fs0) -> Forall (Forall (call_ok PS)) callss ->
  let s := snd (conc_run H callss fs0 sched) in
  get_bytes H (sfiles s) id = Found d out size tm ->
  exists tm', PS id d tm' /\ out = H d /\ size = Z.of_nat (length d).
Proof. intros H U PS (H1 & H2 & H3). exact (lookup_in_state_is_some_put H U H1 H2 PS H3). Qed.
Print Assumptions C11_lookup_in_every_state_is_some_put.

(* every completed Put has succeeded (no Put fails or misses because of the others) *)
Theorem C11_puts_succeed : forall H U PS, C11_hyps H U PS ->
  forall callss fs0 sched,
  Jc H U PS (init_sys fs0) -> Forall (Forall (call_ok PS)) callss ->
  sinv (Jc H U PS) (Gc H U PS) (post H) (call_ok PS) callss (conc_run H callss fs0 sched).
Proof. intros H U PS (H1 & H2 & H3). exact (conc_sound H U H1 H2 PS H3). Qed.
Print Assumptions C11_puts_succeed.

(* a GetBytes that is itself interleaved, operation by operation, with any writers and served
   torn views returns only bytes that a Put stored for that very id, with matching hash *)
Theorem C11_lookup_is_some_put : forall H U PS, C11_hyps H U PS -> lookup_hyps H U ->
  forall callss fs0 sched,
  Jc H U PS (init_sys fs0) -> Forall (Forall (call_ok PS)) callss ->
  forall i calls cl k id d out size tm,
  nth_error callss i = Some calls -> nth_error (fst (conc_run H callss fs0 sched)) i = Some cl ->
  nth_error calls k = Some (CGetBytes id) -> nth_error (results cl) k = Some (XBytes (Found d out size tm)) ->
  out = H d /\ exists tm', PS id d tm'.
Proof. intros H U PS (H1 & H2 & H3). exact (lookup_is_some_put H U H1 H2 PS H3). Qed.
Print Assumptions C11_lookup_is_some_put.

(* an id stored beforehand whose Puts all carry the same content d0 (with
   19-digit timestamps): every GetBytes and every GetFile of it, interleaved operation by
   operation with any writers and served torn views of the entry being rewritten, finds d0 *)
Theorem C11_restore_invisible : forall H U PS, C11_hyps H U PS ->
  forall rid d0, (forall d tm, PS rid d tm -> d = d0 /\ (10 ^ 18 <= tm < 2 * 10 ^ 18)%Z) -> U d0 ->
  forall callss fs0 sched,
  Jc H U PS (init_sys fs0) -> Forall (Forall (call_ok PS)) callss ->
  idx_nonempty rid (init_sys fs0) ->
  forall i calls cl k r,
  nth_error callss i = Some calls -> nth_error (fst (conc_run H callss fs0 sched)) i = Some cl ->
  nth_error (results cl) k = Some r ->
  (nth_error calls k = Some (CGetBytes rid) -> exists l, r = XBytes l /\ found_bytes H d0 l) /\
  (nth_error calls k = Some (CGetFile rid) -> exists l, r = XFile l /\ found_file H d0 l).
Proof. intros H U PS (H1 & H2 & H3). exact (restore_invisible H U H1 H2 PS H3). Qed.
Print Assumptions C11_restore_invisible.

(* what GetFile guarantees under concurrency: the named file holds exactly a content some Put
   stored for that very id, the reported OutputID is its hash and the reported size its length,
   and the file keeps holding it *)
Theorem C11_get_file_conc : forall H U PS, C11_hyps H U PS -> no_hybrid H U ->
  forall callss fs0 sched,
  Jc H U PS (init_sys fs0) -> Forall (Forall (call_ok PS)) callss ->
  forall i calls cl k id l,
  nth_error callss i = Some calls -> nth_error (fst (conc_run H callss fs0 sched)) i = Some cl ->
  nth_error calls k = Some (CGetFile id) -> nth_error (results cl) k = Some (XFile l) ->
  file_post H PS id l (snd (conc_run H callss fs0 sched)).
Proof. intros H U PS (H1 & H2 & H3). exact (get_file_conc H U H1 H2 PS H3). Qed.
Print Assumptions C11_get_file_conc.

(* a Put whose source is an in-memory reader handed over at ANY position (partly consumed, or left at
   its end by an earlier Put: a reused reader) is, in the interleaved semantics, the Put of the whole
   data: Put rewinds before each pass (regenerated flags).  Every theorem above therefore covers
   re-stores from readers that are not at their start. *)
Theorem C11_put_from_positioned_source : forall (H : bytes -> bytes) id cut s tm,
  concat (cut (ms_data s)) = ms_data s ->
  call_prog H (CPutR id (reader_of_memsrc s cut) tm) = call_prog H (CPut id (cut (ms_data s)) tm).
Proof. exact call_put_positioned. Qed.
Print Assumptions C11_put_from_positioned_source.

(* a call made by the SOURCE READER of a Put while that Put is in progress (Cache/CacheReent.v: before
   the n-th write to the output file, or in the hash pass before the first operation) is a run of the
   interleaved semantics above: two clients, the Put and the inner call, under a schedule with untorn
   views that ends with both finished, the same files and the same two results.  Every theorem of
   this file therefore covers lookups (and Puts) issued from inside a Put. *)
Theorem C11_call_inside_put_is_a_schedule : forall (H : bytes -> bytes) id chunks tm c n fs fs' r b,
  put_cb H id chunks tm c (CbWrite n) fs = (fs', r, Some b) ->
  exists sched, untorn sched /\
    let st := run_conc H sched ([start H [CPut id chunks tm]; start H [c]], init_sys fs) in
    finished (fst st) = true /\ sfiles (snd st) = fs' /\ map results (fst st) = [[XPut r]; [b]].
Proof. exact put_cb_is_a_schedule. Qed.
Print Assumptions C11_call_inside_put_is_a_schedule.

Theorem C11_call_before_put_is_a_schedule : forall (H : bytes -> bytes) id chunks tm c fs fs' r b,
  put_cb H id chunks tm c CbBefore fs = (fs', r, Some b) ->
  exists sched, untorn sched /\
    let st := run_conc H sched ([start H [CPut id chunks tm]; start H [c]], init_sys fs) in
    finished (fst st) = true /\ sfiles (snd st) = fs' /\ map results (fst st) = [[XPut r]; [b]].
Proof. exact put_cb_before_is_a_schedule. Qed.
Print Assumptions C11_call_before_put_is_a_schedule.

(* The programs whose interleavings the theorems above quantify over are what the source does:
   Cache.Get / GetBytes and Cache.putIndexEntry, WHOLE functions translated in world mode
   (Gen/CacheWorldSrc.v: every operating-system call an uninterpreted operation on an abstract
   world), equal run_prog of get_prog / get_bytes_prog / put_index_body for every world and every
   behaviour of the operations (premises: SrcWorld.read_contract, always_fresh). *)
From GI Require Import Lib.GoSemWorld Lib.GoSemWorldVal Cache.SrcLib Cache.SrcWorld Gen.CacheWorldSrc Cache.SrcWorldFacts Cache.SrcWorldGet.

Theorem C11_source_world_get : forall (OS : os_ops), read_contract OS -> always_fresh OS ->
  forall fuel (w : World OS) (c : cw_Cache) (id : bytes) h o,
  length id = 32%nat -> (21 <= fuel)%nat ->
  match run_prog OS (cw_Cache_dir c) (get_prog id) (w, h, o) with
  | (st, r) =>
      exists entry err,
        cw_Cache_Get OS false fuel w c id = GoSem.Ok (st_world OS st, c, entry, err) /\ get_rel r entry err
        /\ match r with Some (out, _, _) => length out = 32%nat | None => True end
  end.
Proof. exact cw_Get_eq. Qed.
Print Assumptions C11_source_world_get.

Theorem C11_source_world_get_bytes : forall (OS : os_ops) (H : bytes -> bytes), read_contract OS -> always_fresh OS ->
  forall fuel (w : World OS) (c : cw_Cache) (id : bytes) h o,
  length id = 32%nat -> (21 <= fuel)%nat ->
  match run_prog OS (cw_Cache_dir c) (get_bytes_prog H id) (w, h, o) with
  | (st, r) =>
      exists data entry err,
        cw_Cache_GetBytes OS H false fuel w c id = GoSem.Ok (st_world OS st, c, data, entry, err)
        /\ get_bytes_rel r data entry err
  end.
Proof. exact cw_GetBytes_eq. Qed.
Print Assumptions C11_source_world_get_bytes.

Theorem C11_source_world_put_index_entry :
  forall (OS : os_ops) (rh : bytes -> bytes) fuel (w : World OS) (c : cw_Cache) (id out : bytes) (size : Z)
         (allow : bool) (h : Handle OS) (o : bool),
  id <> [] -> (0 <= size)%Z ->
  let tm := go_time_UnixNano (op_time_now OS w) in
  match run_prog OS (cw_Cache_dir c) (put_index_body id out (Z.to_nat size) tm) (w, h, o) with
  | (st, ok) =>
      exists err,
        cw_Cache_putIndexEntry OS false rh fuel w c id out size allow = GoSem.Ok (st_world OS st, c, err)
        /\ werr_is_nil err = ok
  end.
Proof. exact cw_putIndexEntry_eq. Qed.
Print Assumptions C11_source_world_put_index_entry.
