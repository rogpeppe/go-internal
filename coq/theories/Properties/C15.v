(* C15 — txtar.Write stays inside its directory; txtar-c / txtar-x round trip.
   Only the property theorems, each closed by [exact] of a lemma proved in one of the
   files of TxtarWrite/ imported below, with Print Assumptions. *)
From Coq Require Import List NArith.
From Coq.Strings Require Import Byte.
From GI Require Import Lib.Bytes Gen.TxtarWriteConsts Txtar.Txtar
  TxtarWrite.Path TxtarWrite.TxtarWrite TxtarWrite.PathFacts TxtarWrite.WriteFacts
  TxtarWrite.FuelFacts TxtarWrite.NulFacts TxtarWrite.RelFacts TxtarWrite.RelWrite TxtarWrite.GoodWrite
  TxtarWrite.SavedirFacts TxtarWrite.NameFacts TxtarWrite.SortFacts TxtarWrite.WalkFacts
  TxtarWrite.Symlink TxtarWrite.SymlinkFacts TxtarWrite.SymlinkPlain
  TxtarWrite.Fd TxtarWrite.FdFacts TxtarWrite.Cli TxtarWrite.CliFacts.
From GI Require Import Lib.GoSem Lib.GoSemWorld TxtarWrite.SrcLib TxtarWrite.SrcWorld Gen.TxtarWriteWorldSrc
  TxtarWrite.SrcWorldFacts TxtarWrite.SrcWorldRel TxtarWrite.SrcWorldFd TxtarWrite.SrcWalk TxtarWrite.SrcWalkFacts Gen.TxtarWriteSrc TxtarWrite.SrcFacts.
Import ListNotations.

(* A cleaned name that the guard of Write lets through (not absolute, not "..", no
   "../" prefix) is "." or a sequence of real elements: it contains no ".." element. *)
Theorem C15_clean_passes_guard : forall p,
  is_abs (clean p) = false -> clean p <> dotdot -> has_prefix dotdot_sep (clean p) = false ->
  exists R, Forall real R /\ clean p = render false R.
Proof. exact clean_passes_guard. Qed.
Print Assumptions C15_clean_passes_guard.

(* Containment, for every archive, every name (incl. "..", "a/../..", ".", "", "/abs",
   "a//b", trailing slashes), every pre-existing file system and every ABSOLUTE directory
   string: whatever differs afterwards did not exist before and is either the directory
   itself or beneath it ("." and "" denote the directory itself: a file is created AT dir
   when dir did not exist, and the O_EXCL create fails when it does), or is a directory
   on the way down to it (MkdirAll of a directory that did not exist yet).
   No hypothesis on the file system at all; C15_write_contained_any_dir is the same for
   relative directory strings. *)
Theorem C15_write_contained : forall cwd fs dir a fs' r,
  is_abs dir = true -> write cwd fs dir a = (fs', r) ->
  forall p, get fs' p <> get fs p ->
    get fs p = None /\
    (within (resolve cwd dir) p \/ (get fs' p = Some Dir /\ within p (resolve cwd dir))).
Proof. exact write_contained. Qed.
Print Assumptions C15_write_contained.

(* The same for EVERY directory string, relative ones included (txtar-x's default is "."),
   resolved against a current directory that exists: [cwd] is a list of real elements and
   it and everything above it are directories in [fs]. *)
Theorem C15_write_contained_any_dir : forall cwd fs dir a fs' r,
  Forall real cwd -> dir_exists fs cwd -> write cwd fs dir a = (fs', r) ->
  forall p, get fs' p <> get fs p ->
    get fs p = None /\
    (within (resolve cwd dir) p \/ (get fs' p = Some Dir /\ within p (resolve cwd dir))).
Proof. exact write_contained_any_dir. Qed.
Print Assumptions C15_write_contained_any_dir.

(* ... and strictly beneath it when the directory (with everything above it) exists *)
Theorem C15_write_contained_strict : forall cwd fs dir a fs' r,
  is_abs dir = true -> dir_exists fs (resolve cwd dir) -> write cwd fs dir a = (fs', r) ->
  forall p, get fs' p <> get fs p -> get fs p = None /\ beneath (resolve cwd dir) p.
Proof. exact write_contained_strict. Qed.
Print Assumptions C15_write_contained_strict.

Theorem C15_write_contained_any_dir_strict : forall cwd fs dir a fs' r,
  Forall real cwd -> dir_exists fs cwd -> dir_exists fs (resolve cwd dir) ->
  write cwd fs dir a = (fs', r) ->
  forall p, get fs' p <> get fs p -> get fs p = None /\ beneath (resolve cwd dir) p.
Proof. exact write_contained_any_dir_strict. Qed.
Print Assumptions C15_write_contained_any_dir_strict.

(* Nothing that exists is ever changed, whatever the result (any directory string) *)
Theorem C15_never_overwrites : forall cwd fs dir a fs' r,
  write cwd fs dir a = (fs', r) -> forall p x, get fs p = Some x -> get fs' p = Some x.
Proof. exact never_overwrites. Qed.
Print Assumptions C15_never_overwrites.

(* Success implies that no name is absolute, cleans to "..", or cleans to "../..." *)
Theorem C15_write_rejects : forall cwd fs dir a fs',
  write cwd fs dir a = (fs', WOk) ->
  forall n d, In (n, d) (files a) ->
    is_abs n = false /\ clean n <> dotdot /\ has_prefix dotdot_sep (clean n) = false.
Proof. exact write_rejects. Qed.
Print Assumptions C15_write_rejects.

(* On success every entry's data is the contents of the file its name denotes (two
   entries denoting the same file cannot both succeed: the second create fails) *)
Theorem C15_write_contents : forall cwd fs dir a fs',
  write cwd fs dir a = (fs', WOk) ->
  forall n d, In (n, d) (files a) -> get fs' (resolve cwd (join dir (clean n))) = Some (File d).
Proof. exact write_contents. Qed.
Print Assumptions C15_write_contents.

(* "Existing file => error": when Write succeeds, nothing (no file, no directory) existed
   before the call at the path of any entry; equivalently an entry whose target exists
   makes Write fail, whatever its data (empty, equal to the old contents, ...) *)
Theorem C15_write_existing_is_error : forall cwd fs dir a fs',
  write cwd fs dir a = (fs', WOk) ->
  forall n d, In (n, d) (files a) -> get fs (resolve cwd (join dir (clean n))) = None.
Proof. exact write_existing_is_error. Qed.
Print Assumptions C15_write_existing_is_error.

(* Which files txtar-c archives: all but dot files/directories (without -a), files that are
   not valid UTF-8, and files containing a marker line (without -quote, or unquotable) *)
Theorem C15_archived_files : forall fl p d,
  savedir_entry fl (p, d) = None <->
  dot_skipped fl p = true \/ utf8_valid d = false \/
  (needs_quote (fix_nl d) = true /\ (f_quote fl = false \/ quote (fix_nl d) = None)).
Proof. exact savedir_entry_None. Qed.
Print Assumptions C15_archived_files.

(* Round trip.  For every tree of files with txtar-representable names (tree_ok: distinct
   paths of real NUL-free elements whose slash form is non-empty, trimmed and newline-free;
   files are leaves), any flags, and an absolute directory that exists and holds nothing:
   txtar-x on what txtar-c printed succeeds; every archived file is at the same path
   beneath the directory, holding what was stored, and obeying the archive's "unquote NAME"
   comment lines (txtar.Unquote on the files they name; txtar-x itself does not interpret
   them) gives back fix_nl of the original contents; nothing else appears beneath the
   directory except the directories leading to those files.
   The directory is named by ANY NUL-free string (absolute, or relative to a current
   directory of real NUL-free elements: txtar-x's default "." included). *)
Theorem C15_savedir_extract : forall fl t cwd fs dir,
  Forall real cwd -> Forall nul_free cwd -> has_nul dir = false -> tree_ok t ->
  dir_exists fs (resolve cwd dir) ->
  (forall q, beneath (resolve cwd dir) q -> get fs q = None) ->
  exists fs',
    extract cwd fs dir (txtar_c fl t) = (fs', WOk) /\
    (forall p d cl n s, In (p, d) t -> savedir_entry fl (p, d) = Some (cl, (n, s)) ->
       get fs' (resolve cwd dir ++ p) = Some (File s) /\
       restored (comment (parse (txtar_c fl t))) n s = Some (fix_nl d)) /\
    (forall q x, beneath (resolve cwd dir) q -> get fs' q = Some x ->
       exists p d e, In (p, d) t /\ savedir_entry fl (p, d) = Some e /\
         ((q = resolve cwd dir ++ p /\ exists s, x = File s) \/
          (x = Dir /\ proper q (resolve cwd dir ++ p)))).
Proof. exact savedir_extract. Qed.
Print Assumptions C15_savedir_extract.

(* The fuel that bounds os.MkdirAll's recursion in the model is never exhausted: the
   explicit WOutOfFuel answer is not a possible result of Write or of txtar-x. *)
Theorem C15_never_out_of_fuel : forall cwd fs dir a, snd (write cwd fs dir a) <> WOutOfFuel.
Proof. exact write_never_out_of_fuel. Qed.
Print Assumptions C15_never_out_of_fuel.

(* A NUL-free string denotes, from a NUL-free current directory, a path of NUL-free elements *)
Theorem C15_resolve_nul_free : forall cwd p,
  Forall nul_free cwd -> has_nul p = false -> Forall nul_free (resolve cwd p).
Proof. exact resolve_nul_free. Qed.
Print Assumptions C15_resolve_nul_free.


(* filepath.Walk, literally, on the archived directory as a tree (entries of each
   directory in byte order of their names, a directory before its contents, SkipDir for
   a dot directory and nothing for a dot file unless -a): for a tree with distinct names in
   every directory, txtar-c on the tree is the flat model [savedir] on the list of the
   tree's regular files given in any order, and the files are visited in the order
   [walk_order] gives. *)
Theorem C15_savedir_tree_flat : forall fl rt t,
  rnode_ok (RDir rt) -> Permutation.Permutation t (rflat [] (RDir rt)) ->
  savedir_tree fl rt = savedir fl t.
Proof. exact savedir_tree_flat. Qed.
Print Assumptions C15_savedir_tree_flat.

Theorem C15_rwalk_order : forall fl rt,
  rnode_ok (RDir rt) ->
  rwalk fl [] (RDir rt) = filter (fun pd => negb (dot_skipped fl (fst pd))) (walk_order (rflat [] (RDir rt))).
Proof. exact rwalk_order. Qed.
Print Assumptions C15_rwalk_order.

(* What tree_ok demands of every file name: the names txtar cannot represent (empty, with
   leading or trailing white space, containing a newline) are excluded; Examples.v shows
   the round trip failing for each kind (ex_leading_space_name, ex_newline_name,
   ex_trailing_cr_name). *)
Theorem C15_tree_ok_names : forall t p,
  tree_ok t -> In p (map fst t) ->
  join_sep p <> [] /\ trim_space (join_sep p) = join_sep p /\ ~ In NL (join_sep p).
Proof. exact tree_ok_names. Qed.
Print Assumptions C15_tree_ok_names.

(* The archive name txtar-c computes, strings.TrimPrefix(Walk's path, dir+"/"), is the
   file's elements joined by "/" (what [savedir] uses) for every directory argument except
   one that cleans to "/": there the names come out absolute, and txtar-x refuses them
   (ex_root_dir_names). *)
Theorem C15_entry_name : forall d0 p,
  p <> [] -> Forall real p ->
  entry_name (clean d0) p = if bytes_eqb (clean d0) [SEP] then SEP :: join_sep p else join_sep p.
Proof. exact entry_name_spec. Qed.
Print Assumptions C15_entry_name.

(* Permission bits (constants of the MkdirAll / OpenFile calls) under the umask 022 of the
   harness: created directories are usable by their owner, created files readable and
   writable; the runner compares the real modes with created_mode. *)
Theorem C15_created_modes :
  N.land (created_mode 18 Dir) 448 = 448%N /\ forall d, N.land (created_mode 18 (File d)) 384 = 384%N.
Proof. exact created_modes_usable. Qed.
Print Assumptions C15_created_modes.

(* THE SCOPE BOUNDARY: symbolic links inside the target directory.  In the variant of the
   model with links (Symlink.v: the kernel follows links in every directory component of a
   path name, Write's names are purely lexical) containment is REFUTED: a directory that
   already contains  link -> ../out  lets the entry "link/x" create a file in out.  The
   runner observes the same on the real code and records it as a note, not as a violation
   (the property speaks of pre-existing files; an archive cannot create links). *)
Theorem C15_symlink_containment_refuted :
  exists fs dir files fs' p,
    sget fs (resolve [] dir ++ [sl_link_name]) = Some (SLink sl_link_target) /\
    s_write [] fs dir files = (fs', SOk) /\
    sget fs p = None /\ sget fs' p <> None /\ ~ within (resolve [] dir) p.
Proof. exact symlink_containment_refuted. Qed.
Print Assumptions C15_symlink_containment_refuted.

(* ... what does survive links: nothing that exists (file, directory, link, or the file a
   link in the last component points to) is ever changed *)
Theorem C15_symlink_never_overwrites : forall cwd dir files fs fs' r,
  s_write cwd fs dir files = (fs', r) -> forall p x, sget fs p = Some x -> sget fs' p = Some x.
Proof. exact symlink_never_overwrites. Qed.
Print Assumptions C15_symlink_never_overwrites.

(* ... and the link is what it takes: on states without symbolic links (sim: the two states
   hold the same files and directories) the symlink model and the plain model agree on
   Write for a directory named by an absolute string - same result (cr: the same verdict
   in the other type), same resulting state.  The containment theorems above therefore hold
   for the symlink model on link-free states. *)
Theorem C15_symlink_model_agrees : forall cwd fs sfs dir a,
  sim fs sfs -> is_abs dir = true ->
  exists sfs', s_write cwd sfs dir (files a) = (sfs', cr (snd (write cwd fs dir a))) /\
               sim (fst (write cwd fs dir a)) sfs'.
Proof. exact symlink_model_agrees_write. Qed.
Print Assumptions C15_symlink_model_agrees.

(* DESCRIPTORS AND FAILING SYSTEM CALLS.  [write_f world] is the loop of Write with the
   events open / write / close on the files it creates, under a world that may make the
   system calls of any iteration fail (MkdirAll, OpenFile, a short write, Close), for the
   loop-body shape read from the source (is Close deferred, does it precede the error check
   of the write, is its error returned).  Without faults it is [write]: every theorem above
   is about the same function. *)
Theorem C15_write_f_no_faults : forall cwd fs dir a,
  fst (write_f no_faults cwd fs dir a) = (fst (write cwd fs dir a), FR (snd (write cwd fs dir a))).
Proof. exact write_f_no_faults. Qed.
Print Assumptions C15_write_f_no_faults.

(* At every moment of a call of Write at most one descriptor is open (every prefix of the
   event trace), and none when it returns - for every archive, however many entries, on
   every path: success, refusal, and whatever system call fails.  Extraction therefore never
   needs more than O(1) descriptors. *)
Theorem C15_write_fd_bounded : forall world cwd fs dir a fs' r tr,
  write_f world cwd fs dir a = (fs', r, tr) ->
  open_after 0 tr = Some 0 /\
  forall t1 t2, tr = t1 ++ t2 -> exists n, open_after 0 t1 = Some n /\ n <= 1.
Proof. exact write_fd_bounded. Qed.
Print Assumptions C15_write_fd_bounded.

(* What the shape constants protect against: were Close deferred (`defer out.Close()` in
   the loop), a successful Write would hold one descriptor per entry, all of them open
   together just before it returns. *)
Theorem C15_deferred_close_holds_all : forall sh g fl cwd dir files fs fs' tr,
  sh_defer sh = true ->
  write_gen_f sh g fl cwd fs dir files no_faults 0 [] = (fs', FR WOk, tr) ->
  max_open 0 tr = length files.
Proof. exact deferred_close_holds_all. Qed.
Print Assumptions C15_deferred_close_holds_all.

(* Success under any world is the fault-free success: all entries were written. *)
Theorem C15_write_f_ok : forall world cwd fs dir a fs' tr,
  write_f world cwd fs dir a = (fs', FR WOk, tr) -> write cwd fs dir a = (fs', WOk).
Proof. exact write_f_ok. Qed.
Print Assumptions C15_write_f_ok.

(* What an error leaves on disk: the entries before the failing one (number k) were written
   exactly as a successful Write of those k entries writes them; beyond that there are only
   new directories and, possibly, the failing entry's file holding a prefix of its data. *)
Theorem C15_write_error_prefix : forall world cwd fs dir a fs' r tr,
  write_f world cwd fs dir a = (fs', r, tr) -> r <> FR WOk ->
  exists k fsk, k < length (files a) /\
    write_gen the_guard the_flags cwd fs dir (firstn k (files a)) = (fsk, WOk) /\
    ext (leftover cwd dir (nth k (files a) ([], []))) fsk fs'.
Proof. exact write_error_prefix. Qed.
Print Assumptions C15_write_error_prefix.

(* Containment and "never overwrites" hold on every failure path too. *)
Theorem C15_write_f_contained : forall world cwd fs dir a fs' r tr,
  is_abs dir = true -> write_f world cwd fs dir a = (fs', r, tr) ->
  forall p, get fs' p <> get fs p ->
    get fs p = None /\
    (within (resolve cwd dir) p \/ (get fs' p = Some Dir /\ within p (resolve cwd dir))).
Proof. exact write_f_contained. Qed.
Print Assumptions C15_write_f_contained.

Theorem C15_write_f_never_overwrites : forall world cwd fs dir a fs' r tr,
  write_f world cwd fs dir a = (fs', r, tr) -> forall p x, get fs p = Some x -> get fs' p = Some x.
Proof. exact write_f_never_overwrites. Qed.
Print Assumptions C15_write_f_never_overwrites.

(* THE COMMAND LINES.  txtar-c [flags] dir: any mix of the two boolean flags, each spelled
   -x, --x, -x=true or -x=false (package flag's parseOne), the last setting of each counting. *)
Theorem C15_c_cmdline_flags : forall cs d,
  flaglike d = false ->
  c_cmdline (map cflag_arg cs ++ [d]) = CRun (cflags_apply cs {| f_quote := false; f_all := false |}) d.
Proof. exact c_cmdline_flags. Qed.
Print Assumptions C15_c_cmdline_flags.

(* txtar-x: no argument = standard input into the default directory; -C d / --C d / -C=d
   with a file argument = that file into d. *)
Theorem C15_x_cmdline_forms : forall d f,
  flaglike f = false ->
  x_cmdline [] = XRun extract_dir_default XStdin /\
  x_cmdline [DASH :: extract_dir_flag; d] = XRun d XStdin /\
  x_cmdline [DASH :: extract_dir_flag; d; f] = XRun d (XFile f) /\
  x_cmdline [DASH :: DASH :: extract_dir_flag; d; f] = XRun d (XFile f) /\
  x_cmdline [DASH :: extract_dir_flag ++ EQS :: d; f] = XRun d (XFile f) /\
  x_cmdline [f] = XRun extract_dir_default (XFile f).
Proof. exact x_cmdline_forms. Qed.
Print Assumptions C15_x_cmdline_forms.

(* The round trip through the two commands, for every tree of files with txtar-representable
   names - of ANY size - whatever the spelling of the flags, through either input route of
   txtar-x: the file named by the argument (holding what txtar-c printed) or standard input
   (all of it is read: extract_stdin_limit = None in the current source).  Conclusion as in
   C15_savedir_extract. *)
Theorem C15_cli_roundtrip : forall fl t cwd fs dir cargs d0 xargs inp stdin,
  Forall real cwd -> Forall nul_free cwd -> has_nul dir = false -> tree_ok t ->
  dir_exists fs (resolve cwd dir) ->
  (forall q, beneath (resolve cwd dir) q -> get fs q = None) ->
  c_cmdline cargs = CRun fl d0 ->
  x_cmdline xargs = XRun dir inp ->
  (inp = XStdin /\ Some stdin = txtar_c_main cargs t) \/
  (exists f out, inp = XFile f /\ Some out = txtar_c_main cargs t /\ os_read_file cwd fs f = inr out) ->
  exists fs',
    txtar_x_main cwd fs xargs stdin = (fs', XR WOk) /\
    (forall p d cl n s, In (p, d) t -> savedir_entry fl (p, d) = Some (cl, (n, s)) ->
       get fs' (resolve cwd dir ++ p) = Some (File s) /\
       restored (comment (parse (txtar_c fl t))) n s = Some (fix_nl d)) /\
    (forall q x, beneath (resolve cwd dir) q -> get fs' q = Some x ->
       exists p d e, In (p, d) t /\ savedir_entry fl (p, d) = Some e /\
         ((q = resolve cwd dir ++ p /\ exists s, x = File s) \/
          (x = Dir /\ proper q (resolve cwd dir ++ p)))).
Proof. exact cli_roundtrip. Qed.
Print Assumptions C15_cli_roundtrip.

(* THE SOURCE, TRANSLATED.  Gen/TxtarWriteWorldSrc.v is txtar.Write (whole), txtar.ParseFile,
   isAbs and the walk function of cmd/txtar-c translated from the Go source text by
   harness/go2coq (world mode) on every run: state-passing functions over an ABSTRACT record OS
   of operating-system operations (os.MkdirAll, os.OpenFile, File.Write, File.Close,
   os.ReadFile), of which nothing is assumed.  The theorems below are about those generated
   terms; an edit of the source changes the terms and re-opens the proofs. *)

Theorem C15_source_isabs_eq : forall p, tw_isAbs p = Ok (is_abs p).
Proof. exact SrcWorldFacts.src_isAbs_eq. Qed.
Print Assumptions C15_source_isabs_eq.

(* txtar.Write as translated IS the reference program write_ops (SrcWorld.v), for every record of
   operations, every world, every archive and directory: per entry, clean + containment decision
   -> the error without touching anything; else MkdirAll of the parent, the exclusive create,
   one Write of all the data, Close; the first error stops.  It never panics on a non-nil
   archive and needs no iteration bound. *)
Theorem C15_source_write_eq : forall (OS : fs_ops) w a dir,
  tw_Write OS w (Some a) dir = Ok (write_ops OS dir (files a) w).
Proof. exact src_Write_eq. Qed.
Print Assumptions C15_source_write_eq.

(* a nil archive pointer is a panic, as in Go *)
Theorem C15_source_write_nil_panics : forall (OS : fs_ops) w dir, tw_Write OS w None dir = Panic.
Proof. exact src_Write_nil. Qed.
Print Assumptions C15_source_write_nil_panics.

(* WHICH calls, in WHICH order, with WHICH arguments: over the logging operations [traced OS] the
   translated Write returns what it returns over OS, and the log grows by the entries' calls in
   order, each entry one of the four shapes of entry_trace (nothing; MkdirAll failed; MkdirAll,
   OpenFile failed; MkdirAll, OpenFile, Write, Close), up to the first entry that does not end
   well -- with the paths Dir(Join(dir, Clean(name))) / Join(dir, Clean(name)), the permission
   bits and the O_WRONLY|O_CREATE|O_EXCL flag word of the regenerated constants. *)
Theorem C15_source_write_calls : forall (OS : fs_ops) w tr a dir,
  exists t,
    tw_Write (traced OS) (w, tr) (Some a) dir =
      Ok ((fst (write_ops OS dir (files a) w), tr ++ t), snd (write_ops OS dir (files a) w)) /\
    write_trace dir (files a) t.
Proof. exact src_Write_calls. Qed.
Print Assumptions C15_source_write_calls.

(* an entry whose cleaned name the guard rejects: the error, and NO call at all, whatever the
   operating system would have answered *)
Theorem C15_source_write_rejected_untouched : forall (OS : fs_ops) w c n d rest dir,
  rejected the_guard (clean (from_slash n)) = true ->
  tw_Write OS w (Some {| comment := c; files := (n, d) :: rest |}) dir = Ok (w, outside_err n).
Proof. exact src_Write_rejected_first. Qed.
Print Assumptions C15_source_write_rejected_untouched.

(* descriptors, on the translated function, for EVERY behaviour of the operating system: at
   every moment of a call of Write at most one descriptor is open, and none when it returns *)
Theorem C15_source_write_fd_bounded : forall (OS : fs_ops) w a dir w' tr e,
  tw_Write (traced OS) (w, []) (Some a) dir = Ok ((w', tr), e) ->
  fds_after 0 tr = Some 0 /\
  forall t1 t2, tr = t1 ++ t2 -> exists n, fds_after 0 t1 = Some n /\ n <= 1.
Proof. exact src_Write_fd_bounded. Qed.
Print Assumptions C15_source_write_fd_bounded.

(* THE TIE to the model: the translated Write run over the file-system model of TxtarWrite.v
   ([model_fs cwd]: the operations interpreted by mkdir_all / os_open / os_write) is the model's
   write -- the same file system afterwards, and the error it returns decodes to the model's
   verdict.  Every theorem above about [write] is therefore a theorem about the source. *)
Theorem C15_source_write_model : forall cwd fs dir a,
  exists e, tw_Write (model_fs cwd) fs (Some a) dir = Ok (fst (write cwd fs dir a), e) /\
            dec_werr e = snd (write cwd fs dir a).
Proof. exact src_Write_model. Qed.
Print Assumptions C15_source_write_model.

(* ... restated: containment, *)
Theorem C15_source_write_contained : forall cwd fs dir a fs' e,
  is_abs dir = true -> tw_Write (model_fs cwd) fs (Some a) dir = Ok (fs', e) ->
  forall p, get fs' p <> get fs p ->
    get fs p = None /\
    (within (resolve cwd dir) p \/ (get fs' p = Some Dir /\ within p (resolve cwd dir))).
Proof. exact src_Write_contained. Qed.
Print Assumptions C15_source_write_contained.

(* containment for every directory string, relative ones included (txtar-x's default "."), *)
Theorem C15_source_write_contained_any_dir : forall cwd fs dir a fs' e,
  Forall real cwd -> dir_exists fs cwd -> tw_Write (model_fs cwd) fs (Some a) dir = Ok (fs', e) ->
  forall p, get fs' p <> get fs p ->
    get fs p = None /\
    (within (resolve cwd dir) p \/ (get fs' p = Some Dir /\ within p (resolve cwd dir))).
Proof. exact src_Write_contained_any_dir. Qed.
Print Assumptions C15_source_write_contained_any_dir.

(* never overwrites, *)
Theorem C15_source_write_never_overwrites : forall cwd fs dir a fs' e,
  tw_Write (model_fs cwd) fs (Some a) dir = Ok (fs', e) ->
  forall p x, get fs p = Some x -> get fs' p = Some x.
Proof. exact src_Write_never_overwrites. Qed.
Print Assumptions C15_source_write_never_overwrites.

(* a nil error means no name was absolute or climbed out, *)
Theorem C15_source_write_rejects : forall cwd fs dir a fs',
  tw_Write (model_fs cwd) fs (Some a) dir = Ok (fs', WNil) ->
  forall n d, In (n, d) (files a) ->
    is_abs n = false /\ clean n <> dotdot /\ has_prefix dotdot_sep (clean n) = false.
Proof. exact src_Write_rejects. Qed.
Print Assumptions C15_source_write_rejects.

(* every file holds the entry's data, *)
Theorem C15_source_write_contents : forall cwd fs dir a fs',
  tw_Write (model_fs cwd) fs (Some a) dir = Ok (fs', WNil) ->
  forall n d, In (n, d) (files a) -> get fs' (resolve cwd (join dir (clean n))) = Some (File d).
Proof. exact src_Write_contents. Qed.
Print Assumptions C15_source_write_contents.

(* and an existing target is an error *)
Theorem C15_source_write_existing_is_error : forall cwd fs dir a fs',
  tw_Write (model_fs cwd) fs (Some a) dir = Ok (fs', WNil) ->
  forall n d, In (n, d) (files a) -> get fs (resolve cwd (join dir (clean n))) = None.
Proof. exact src_Write_existing_is_error. Qed.
Print Assumptions C15_source_write_existing_is_error.

(* FAILING SYSTEM CALLS, on the translated function.  [fault_os world cwd] (SrcWorldFd.v) is the
   file-system model as a record of operations in which the fault of the current iteration
   (world i: MkdirAll, OpenFile, a short write, Close) makes the operation fail the way Fd.v
   describes, with the open / write / close events logged.  The translated Write run over it IS
   write_f world: the same file system, the same verdict (the error value decodes to it), the
   same events.  The close discipline that write_f takes from the regenerated shape flags is thus
   a consequence of the translation. *)
Theorem C15_source_write_fault : forall world cwd fs dir a,
  match write_f world cwd fs dir a with
  | (fs', r, evs) =>
      exists i' e, tw_Write (fault_os world cwd) (fs, 0, []) (Some a) dir = Ok ((fs', i', evs), e) /\ dec_fres e = r
  end.
Proof. exact src_Write_fault. Qed.
Print Assumptions C15_source_write_fault.

(* ... hence C15_write_fd_bounded, C15_write_error_prefix, C15_write_f_contained and
   C15_write_f_never_overwrites are theorems about the translated function: *)
Theorem C15_source_write_fault_fd_bounded : forall world cwd fs dir a fs' i' tr e,
  tw_Write (fault_os world cwd) (fs, 0, []) (Some a) dir = Ok ((fs', i', tr), e) ->
  open_after 0 tr = Some 0 /\
  forall t1 t2, tr = t1 ++ t2 -> exists n, open_after 0 t1 = Some n /\ n <= 1.
Proof. exact src_Write_fault_fd_bounded. Qed.
Print Assumptions C15_source_write_fault_fd_bounded.

Theorem C15_source_write_fault_error_prefix : forall world cwd fs dir a fs' i' tr e,
  tw_Write (fault_os world cwd) (fs, 0, []) (Some a) dir = Ok ((fs', i', tr), e) -> dec_fres e <> FR WOk ->
  exists k fsk, k < length (files a) /\
    write_gen the_guard the_flags cwd fs dir (firstn k (files a)) = (fsk, WOk) /\
    ext (leftover cwd dir (nth k (files a) ([], []))) fsk fs'.
Proof. exact src_Write_fault_error_prefix. Qed.
Print Assumptions C15_source_write_fault_error_prefix.

Theorem C15_source_write_fault_contained : forall world cwd fs dir a fs' i' tr e,
  is_abs dir = true -> tw_Write (fault_os world cwd) (fs, 0, []) (Some a) dir = Ok ((fs', i', tr), e) ->
  forall p, get fs' p <> get fs p ->
    get fs p = None /\
    (within (resolve cwd dir) p \/ (get fs' p = Some Dir /\ within p (resolve cwd dir))).
Proof. exact src_Write_fault_contained. Qed.
Print Assumptions C15_source_write_fault_contained.

Theorem C15_source_write_fault_never_overwrites : forall world cwd fs dir a fs' i' tr e,
  tw_Write (fault_os world cwd) (fs, 0, []) (Some a) dir = Ok ((fs', i', tr), e) ->
  forall p x, get fs p = Some x -> get fs' p = Some x.
Proof. exact src_Write_fault_never_overwrites. Qed.
Print Assumptions C15_source_write_fault_never_overwrites.

(* txtar.ParseFile as translated: ReadFile, then Parse of everything it returned *)
Theorem C15_source_parse_file_eq : forall (OS : fs_ops) w file,
  tw_ParseFile OS w file = Ok (parse_file_ops OS file w).
Proof. exact src_ParseFile_eq. Qed.
Print Assumptions C15_source_parse_file_eq.

(* The walk function of cmd/txtar-c as translated (the literal main hands to filepath.Walk, a
   function of the archive it appends to, of dir, of the two flags and of its parameters) IS the
   reference walk_fn_ops (SrcWorld.v), for every record of operations: an incoming error is
   handed back; the root is passed over; a dot name is skipped unless -a (SkipDir for a
   directory); a non-regular file is passed over; the file is read; then the model's
   [file_entry] decides on the name relative to the root -- invalid UTF-8 dropped, the final
   newline added, a file with a marker line quoted with -quote (and its "unquote NAME" comment
   line) or dropped -- and the entry is appended with its name through ToSlash. *)
Theorem C15_source_walkfn_eq : forall (OS : fs_ops) fl w a dir path info err,
  tc_main_walkfn OS (f_quote fl) (f_all fl) w (Some a) dir path info err =
  Ok (match walk_fn_ops OS fl w a dir path info err with (w', a', e) => (w', Some a', e) end).
Proof. exact src_walkfn_eq. Qed.
Print Assumptions C15_source_walkfn_eq.

(* txtar-c between flag.Parse and Format, with the translated walk function: the hand-modelled
   filepath.Walk (SrcWalk.walk_root) over a tree in Walk's order, reading the files from a file
   system that holds them, builds exactly the model's archive savedir_tree (any directory
   argument that does not clean to "/") *)
Theorem C15_source_savedir_walk_eq : forall cwd fl d0 fs,
  bytes_eqb (clean d0) [SEP] = false ->
  forall rt, rnode_walkable (RDir rt) -> readable cwd d0 fs [] (RDir rt) ->
  src_savedir_walk cwd fl fs (clean d0) rt = Ok ((fs, Some (savedir_tree fl rt)), WNil).
Proof. exact src_savedir_walk_eq. Qed.
Print Assumptions C15_source_savedir_walk_eq.

(* THE ROUND TRIP ON THE TRANSLATED PIECES: the translated walk function under Walk builds an
   archive a; the translated Write, given Parse (Format a), succeeds over the file-system model;
   conclusion as in C15_savedir_extract.  Hand-modelled glue that remains: filepath.Walk's
   traversal (SrcWalk.v), flag parsing and the main functions (Cli.v), x/tools Format, the file
   system. *)
Theorem C15_source_roundtrip : forall fl rt cwdc fsc d0 cwd fs xdir,
  bytes_eqb (clean d0) [SEP] = false ->
  rnode_walkable (RDir rt) -> readable cwdc d0 fsc [] (RDir rt) ->
  Forall real cwd -> Forall nul_free cwd -> has_nul xdir = false -> tree_ok (rflat [] (RDir rt)) ->
  dir_exists fs (resolve cwd xdir) ->
  (forall q, beneath (resolve cwd xdir) q -> get fs q = None) ->
  exists a fs',
    src_savedir_walk cwdc fl fsc (clean d0) rt = Ok ((fsc, Some a), WNil) /\
    tw_Write (model_fs cwd) fs (go_txtar_Parse (format a)) xdir = Ok (fs', WNil) /\
    (forall p d cl n s, In (p, d) (rflat [] (RDir rt)) -> savedir_entry fl (p, d) = Some (cl, (n, s)) ->
       get fs' (resolve cwd xdir ++ p) = Some (File s) /\
       restored (comment (parse (format a))) n s = Some (fix_nl d)) /\
    (forall q x, beneath (resolve cwd xdir) q -> get fs' q = Some x ->
       exists p d e, In (p, d) (rflat [] (RDir rt)) /\ savedir_entry fl (p, d) = Some e /\
         ((q = resolve cwd xdir ++ p /\ exists s, x = File s) \/
          (x = Dir /\ proper q (resolve cwd xdir ++ p)))).
Proof. exact src_roundtrip. Qed.
Print Assumptions C15_source_roundtrip.

(* the pure-mode translation of the statements of Write's loop body in front of os.MkdirAll
   (Gen/TxtarWriteSrc.v): they return the error exactly for the names the property excludes *)
Theorem C15_source_guard_rejects : forall dir nd,
  src_Write_before_os_MkdirAll dir nd = Ok (Return true) <->
  (is_abs (clean (fst nd)) = true \/ clean (fst nd) = dotdot \/ has_prefix dotdot_sep (clean (fst nd)) = true).
Proof. exact src_Write_guard_rejects. Qed.
Print Assumptions C15_source_guard_rejects.
