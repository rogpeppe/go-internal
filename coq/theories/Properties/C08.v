(* C08 — diff: the output is a correct, well-formed unified diff.
   This file contains only the property theorems, each closed by [exact] of a lemma
   proved elsewhere, with Print Assumptions beneath it. *)
From Coq Require Import List.
From Coq.Strings Require Import Byte.
From GI Require Import Lib.Bytes Gen.DiffConsts Diff.Diff Diff.DiffSpec Diff.DiffBase Diff.DiffProofs
  Diff.TgsProofs Diff.DiffParse Diff.ParseProofs Diff.CtxFacts Diff.BytesFacts Diff.DiffFacts
  Diff.CoverFacts Gen.DiffSrc Diff.SrcFacts Diff.SrcFactsDiff Diff.SrcTheorems.
From GI Require Lib.GoSem.
Import ListNotations.

Theorem C08_diff_nil_iff : forall oldName old newName new,
  diff oldName old newName new = Ok [] <-> old = new.
Proof. exact diff_nil_iff. Qed.
Print Assumptions C08_diff_nil_iff.

Theorem C08_diff_no_panic : forall x y, exists hs, diff_hunks x y = Ok hs.
Proof. exact diff_no_panic. Qed.
Print Assumptions C08_diff_no_panic.

Theorem C08_diff_total : forall oldName old newName new,
  exists out, diff oldName old newName new = Ok out.
Proof. exact diff_total. Qed.
Print Assumptions C08_diff_total.

Theorem C08_hunks_wf : forall x y hs, diff_hunks x y = Ok hs -> hunks_wf x y hs.
Proof. exact hunks_wf_all. Qed.
Print Assumptions C08_hunks_wf.

Theorem C08_patch_correct : forall x y hs, diff_hunks x y = Ok hs -> apply_hunks x hs = Some y.
Proof. exact patch_correct. Qed.
Print Assumptions C08_patch_correct.

Theorem C08_patch_reverse : forall x y hs,
  diff_hunks x y = Ok hs -> apply_hunks y (swap_hunks hs) = Some x.
Proof. exact patch_reverse. Qed.
Print Assumptions C08_patch_reverse.

Theorem C08_patch_texts : forall old new hs,
  diff_hunks (lines old) (lines new) = Ok hs ->
  apply_hunks (lines old) hs = Some (lines new) /\
  apply_hunks (lines new) (swap_hunks hs) = Some (lines old) /\
  (forall t, apply_hunks (lines old) hs = Some (lines t) -> t = new) /\
  (forall t, apply_hunks (lines new) (swap_hunks hs) = Some (lines t) -> t = old).
Proof. exact patch_texts. Qed.
Print Assumptions C08_patch_texts.

Theorem C08_lines_inj : forall a b, lines a = lines b -> a = b.
Proof. exact lines_inj. Qed.
Print Assumptions C08_lines_inj.

Theorem C08_diff_hunks_nonempty : forall old new,
  diff_hunks (lines old) (lines new) = Ok [] -> old = new.
Proof. exact diff_hunks_nonempty. Qed.
Print Assumptions C08_diff_hunks_nonempty.

Theorem C08_tgs_sound : forall x y, tgs_sound_on x y.
Proof. exact tgs_sound. Qed.
Print Assumptions C08_tgs_sound.

Theorem C08_lines_go_eq : forall d, lines_go d = Ok (lines d).
Proof. exact lines_go_eq. Qed.
Print Assumptions C08_lines_go_eq.

Theorem C08_render_header_shape : forall oldName newName,
  render_header oldName newName =
  [x64; x69; x66; x66; x20] ++ oldName ++ [x20] ++ newName ++ [x0a] ++
  [x2d; x2d; x2d; x20] ++ oldName ++ [x0a] ++
  [x2b; x2b; x2b; x20] ++ newName ++ [x0a].
Proof. exact render_header_shape. Qed.
Print Assumptions C08_render_header_shape.

Theorem C08_render_hunk_shape : forall h,
  render_hunk h =
  [x40; x40; x20; x2d] ++ dec (sx h) ++ [x2c] ++ dec (cx h) ++
  [x20; x2b] ++ dec (sy h) ++ [x2c] ++ dec (cy h) ++ [x20; x40; x40; x0a] ++
  concat (map (fun tl => tag_byte (fst tl) :: snd tl) (body h)).
Proof. exact render_hunk_shape. Qed.
Print Assumptions C08_render_hunk_shape.

Theorem C08_hunk_ctx : forall x y hs, diff_hunks x y = Ok hs -> Forall (hunk_ctx_ok x y) hs.
Proof. exact hunks_ctx. Qed.
Print Assumptions C08_hunk_ctx.

Theorem C08_hunk_has_change : forall x y hs h,
  diff_hunks x y = Ok hs -> In h hs -> has_change (body h) = true.
Proof. exact hunk_has_change. Qed.
Print Assumptions C08_hunk_has_change.

Theorem C08_zero_count_side : forall x y hs h,
  diff_hunks x y = Ok hs -> In h hs ->
  (cx h = 0 -> x = [] /\ sx h = 0) /\ (cy h = 0 -> y = [] /\ sy h = 0).
Proof. exact zero_count_side. Qed.
Print Assumptions C08_zero_count_side.

Theorem C08_hunks_separated : forall x y hs l1 h1 h2 l2,
  diff_hunks x y = Ok hs -> hs = l1 ++ h1 :: h2 :: l2 ->
  exists lead1 inners1 inners2 trail2 p1 q1 p2 q2,
    runs (body h1) = lead1 :: inners1 ++ [ctxC] /\
    runs (body h2) = ctxC :: inners2 ++ [trail2] /\
    hunk_at x y h1 p1 q1 /\ hunk_at x y h2 p2 q2 /\
    p1 + cx h1 <= p2 /\ q1 + cy h1 <= q2 /\
    p2 - (p1 + cx h1) = q2 - (q1 + cy h1) /\
    sub x (p1 + cx h1) p2 = sub y (q1 + cy h1) q2.
Proof. exact hunks_separated. Qed.
Print Assumptions C08_hunks_separated.

Theorem C08_parse_render : forall oldName newName hs, Forall hunk_ok hs ->
  parse_render oldName newName (render oldName newName hs) = Some hs.
Proof. exact parse_render_render. Qed.
Print Assumptions C08_parse_render.

Theorem C08_render_inj : forall oldName newName hs hs', Forall hunk_ok hs -> Forall hunk_ok hs' ->
  render oldName newName hs = render oldName newName hs' -> hs = hs'.
Proof. exact render_inj. Qed.
Print Assumptions C08_render_inj.

Theorem C08_diff_bytes_parse : forall oldName old newName new out,
  diff oldName old newName new = Ok out -> old <> new ->
  exists hs, diff_hunks (lines old) (lines new) = Ok hs /\ out = render oldName newName hs /\
             parse_render oldName newName out = Some hs.
Proof. exact diff_bytes_parse. Qed.
Print Assumptions C08_diff_bytes_parse.

Theorem C08_bytes_patch : forall oldName old newName new out,
  diff oldName old newName new = Ok out ->
  patch_bytes oldName newName out (lines old) = Some (lines new) /\
  unpatch_bytes oldName newName out (lines new) = Some (lines old).
Proof. exact bytes_patch. Qed.
Print Assumptions C08_bytes_patch.

Theorem C08_cmp_logged_diff_patches : forall (expand : bytes -> bytes) env name1 name2 text1 data2 d,
  do_cmp expand false env name1 name2 text1 data2 = CmpFail d ->
  text1 <> cmp_compared expand env data2 /\ d <> [] /\
  patch_bytes name1 name2 d (lines text1) = Some (lines (cmp_compared expand env data2)) /\
  unpatch_bytes name1 name2 d (lines (cmp_compared expand env data2)) = Some (lines text1).
Proof. exact cmp_logged_diff_patches. Qed.
Print Assumptions C08_cmp_logged_diff_patches.

Theorem C08_cmp_fails_iff : forall (expand : bytes -> bytes) env name1 name2 text1 data2,
  (exists d, do_cmp expand false env name1 name2 text1 data2 = CmpFail d) <->
  text1 <> cmp_compared expand env data2.
Proof. exact cmp_fails_iff. Qed.
Print Assumptions C08_cmp_fails_iff.

Theorem C08_source_shapes :
  lines_sep = [NL] /\
  diff_fprintf_args =
  [ [ [x6f;x6c;x64;x4e;x61;x6d;x65]; [x6e;x65;x77;x4e;x61;x6d;x65] ];
    [ [x6f;x6c;x64;x4e;x61;x6d;x65] ];
    [ [x6e;x65;x77;x4e;x61;x6d;x65] ];
    [ [x63;x68;x75;x6e;x6b;x2e;x78]; [x63;x6f;x75;x6e;x74;x2e;x78];
      [x63;x68;x75;x6e;x6b;x2e;x79]; [x63;x6f;x75;x6e;x74;x2e;x79] ] ] /\
  cmp_diff_args =
  [ [x6e;x61;x6d;x65;x31]; [x5b;x5d;x62;x79;x74;x65;x28;x74;x65;x78;x74;x31;x29];
    [x6e;x61;x6d;x65;x32]; [x5b;x5d;x62;x79;x74;x65;x28;x74;x65;x78;x74;x32;x29] ].
Proof. exact (conj lines_sep_shape (conj diff_fprintf_args_shape cmp_diff_args_shape)). Qed.
Print Assumptions C08_source_shapes.

(* The model is over immutable lists: WHERE the two texts live (views of one buffer, spare
   capacity, reuse of the returned storage by later or concurrent calls) is a run-time dimension
   exercised by the runner only. *)

Theorem C08_hunks_cover_changes : forall x y hs, diff_hunks x y = Ok hs ->
  exists gaps, length gaps = S (length hs) /\
               x = weave gaps (old_sides hs) /\ y = weave gaps (new_sides hs).
Proof. exact hunks_cover_changes. Qed.
Print Assumptions C08_hunks_cover_changes.

Theorem C08_outside_hunks_equal : forall x y hs i, diff_hunks x y = Ok hs ->
  i < length x -> ~ in_old_range hs i ->
  exists j, j < length y /\ nth_error y j = nth_error x i /\ ~ in_new_range hs j.
Proof. exact outside_hunks_equal. Qed.
Print Assumptions C08_outside_hunks_equal.

Theorem C08_diff_bytes_shape : forall oldName old newName new out,
  diff oldName old newName new = Ok out -> old <> new ->
  exists hs, diff_hunks (lines old) (lines new) = Ok hs /\ hs <> [] /\
    out = [x64; x69; x66; x66; x20] ++ oldName ++ [x20] ++ newName ++ [x0a] ++
          [x2d; x2d; x2d; x20] ++ oldName ++ [x0a] ++
          [x2b; x2b; x2b; x20] ++ newName ++ [x0a] ++
          concat (map render_hunk hs).
Proof. exact diff_bytes_shape. Qed.
Print Assumptions C08_diff_bytes_shape.

Theorem C08_text_patch : forall oldName old newName new out,
  diff oldName old newName new = Ok out ->
  patch_text oldName newName out old = Some new /\
  unpatch_text oldName newName out new = Some old.
Proof. exact text_patch. Qed.
Print Assumptions C08_text_patch.

Theorem C08_rediff_is_not_reverse : exists x y hs hs',
  diff_hunks x y = Ok hs /\ diff_hunks y x = Ok hs' /\ removed hs' <> added hs.
Proof. exact rediff_is_not_reverse. Qed.
Print Assumptions C08_rediff_is_not_reverse.

Theorem C08_cmp_logged_diff_text : forall (expand : bytes -> bytes) env name1 name2 text1 data2 d,
  do_cmp expand false env name1 name2 text1 data2 = CmpFail d ->
  patch_text name1 name2 d text1 = Some (cmp_compared expand env data2) /\
  unpatch_text name1 name2 d (cmp_compared expand env data2) = Some text1.
Proof. exact cmp_logged_diff_text. Qed.
Print Assumptions C08_cmp_logged_diff_text.

(* The SOURCE as translated.  Gen/DiffSrc.v is diff/diff.go (lines, tgs, Diff)
   translated to Gallina by harness/go2coq on every run; src_lines / src_tgs / src_Diff are the
   generated functions (Go ints as Z with Go's bound checks, map[string]int as an association
   list, bytes.Buffer as the bytes written, the four Fprintf formats as the source has them).
   [fuel] is the iteration bound of the translated loops; GoSem.Ok / Panic / OutOfFuel are the
   results of the translation's semantics (Lib/GoSem.v). *)

Theorem C08_source_lines : forall d, src_lines d = GoSem.Ok (lines d).
Proof. exact src_lines_eq. Qed.
Print Assumptions C08_source_lines.

Theorem C08_source_tgs : forall fuel x y, length x + 1 <= fuel ->
  exists ms, tgs x y = Ok ms /\ src_tgs fuel x y = GoSem.Ok (map zp ms).
Proof. exact src_tgs_total. Qed.
Print Assumptions C08_source_tgs.

Theorem C08_source_diff_eq : forall fuel oldName old newName new, length old + 1 <= fuel ->
  src_Diff fuel oldName old newName new = res_conv id (diff oldName old newName new).
Proof. exact src_Diff_eq. Qed.
Print Assumptions C08_source_diff_eq.

Theorem C08_source_total : forall fuel oldName old newName new, length old + 1 <= fuel ->
  exists out, src_Diff fuel oldName old newName new = GoSem.Ok out.
Proof. exact src_Diff_total. Qed.
Print Assumptions C08_source_total.

Theorem C08_source_nil_iff : forall fuel oldName old newName new, length old + 1 <= fuel ->
  (src_Diff fuel oldName old newName new = GoSem.Ok [] <-> old = new).
Proof. exact source_diff_nil_iff. Qed.
Print Assumptions C08_source_nil_iff.

Theorem C08_source_hunks : forall fuel oldName old newName new, length old + 1 <= fuel -> old <> new ->
  exists hs, src_Diff fuel oldName old newName new = GoSem.Ok (render oldName newName hs) /\ hs <> [] /\
    hunks_wf (lines old) (lines new) hs /\
    apply_hunks (lines old) hs = Some (lines new) /\
    apply_hunks (lines new) (swap_hunks hs) = Some (lines old).
Proof. exact source_diff_hunks. Qed.
Print Assumptions C08_source_hunks.

Theorem C08_source_bytes_patch : forall fuel oldName old newName new out,
  length old + 1 <= fuel -> src_Diff fuel oldName old newName new = GoSem.Ok out ->
  patch_bytes oldName newName out (lines old) = Some (lines new) /\
  unpatch_bytes oldName newName out (lines new) = Some (lines old).
Proof. exact source_bytes_patch. Qed.
Print Assumptions C08_source_bytes_patch.

Theorem C08_source_text_patch : forall fuel oldName old newName new out,
  length old + 1 <= fuel -> src_Diff fuel oldName old newName new = GoSem.Ok out ->
  patch_text oldName newName out old = Some new /\
  unpatch_text oldName newName out new = Some old.
Proof. exact source_text_patch. Qed.
Print Assumptions C08_source_text_patch.
