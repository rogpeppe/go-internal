(* C16 — UpdateScripts rewrites only the mismatching golden entries.
   This file contains only the property theorems, each closed by [exact] of a lemma proved
   in TsRun/TsUpdateFacts.v, TsRerunFacts.v, TsNamesFacts.v or SrcFactsUpdate.v, with Print Assumptions
   beneath it.  The recording is the update
   branch of [cmd_cmp] (TsRun/TsCmds.v), the rewriting is [apply_updates] (TsRun/TsUpdate.v);
   parse, format, needs_quote, quote are the txtar model of C03/C14. *)
From Coq Require Import List Bool Arith NArith.
From Coq.Strings Require Import Byte.
From GI Require Import Lib.Bytes Txtar.Txtar
  TsRun.TsFs TsRun.TsState TsRun.TsCmds TsRun.TsRun TsRun.TsSpec TsRun.TsUpdate TsRun.TsUpdateFacts
  TsRun.TsRerun TsRun.TsRerunFacts TsRun.TsNamesFacts.
From Coq Require Import Permutation.
From GI Require Lib.GoSem Lib.GoSemState Lib.GoSemFail TsRun.SrcLibUpdate Gen.TsUpdateSrc TsRun.SrcFactsUpdate.
Import ListNotations.

Theorem C16_update_names : forall a U a',
  apply_updates a U = Some a' -> map fst (files a') = map fst (files a).
Proof. exact update_names. Qed.
Print Assumptions C16_update_names.

Theorem C16_update_frame : forall a U a',
  apply_updates a U = Some a' ->
  comment a' = comment a
  /\ Forall2 (fun e e' => fst e' = fst e /\ (assoc_get U (fst e) = None -> snd e' = snd e)) (files a) (files a').
Proof. exact update_frame. Qed.
Print Assumptions C16_update_frame.

Theorem C16_update_entry : forall a U a',
  apply_updates a U = Some a' ->
  Forall2 (fun e e' => forall c, assoc_get U (fst e) = Some c ->
             (needs_quote c = false /\ snd e' = c) \/ (needs_quote c = true /\ quote c = Some (snd e')))
          (files a) (files a').
Proof. exact update_entry. Qed.
Print Assumptions C16_update_entry.

Theorem C16_update_entry_unquotes : forall c q,
  needs_quote c = true -> quote c = Some q -> unquote q = Some c.
Proof. exact update_entry_unquotes. Qed.
Print Assumptions C16_update_entry_unquotes.

Theorem C16_update_format : forall a U a',
  apply_updates a U = Some a' ->
  exists ds, Forall2 (fun e d => stored U e = Some d) (files a) ds
    /\ format a' = fix_nl (comment a)
         ++ concat (map (fun nd => format_marker (fst nd) ++ fix_nl (snd nd)) (combine (map fst (files a)) ds)).
Proof. exact update_format. Qed.
Print Assumptions C16_update_format.

Theorem C16_apply_updates_none : forall a U,
  apply_updates a U = None <->
  exists n d c, In (n, d) (files a) /\ assoc_get U n = Some c /\ needs_quote c = true /\ quote c = None.
Proof. exact apply_updates_none. Qed.
Print Assumptions C16_apply_updates_none.

Theorem C16_update_order_irrelevant : forall a U U',
  (forall n, assoc_get U n = assoc_get U' n) -> apply_updates a U = apply_updates a U'.
Proof. exact update_order_irrelevant. Qed.
Print Assumptions C16_update_order_irrelevant.

Theorem C16_update_reparses : forall a U a',
  wf_archive a = true ->
  (forall n d c, In (n, d) (files a) -> assoc_get U n = Some c -> c = [] \/ last_byte c = Some NL) ->
  apply_updates a U = Some a' ->
  wf_archive a' = true /\ parse (format a') = a'.
Proof. exact update_reparses. Qed.
Print Assumptions C16_update_reparses.

Theorem C16_update_reparses_file : forall file U a',
  (forall n d c, In (n, d) (files (parse file)) -> assoc_get U n = Some c -> c = [] \/ last_byte c = Some NL) ->
  apply_updates (parse file) U = Some a' ->
  parse (format a') = a'.
Proof. exact update_reparses_file. Qed.
Print Assumptions C16_update_reparses_file.

Theorem C16_cmp_records_only_when : forall upd envsubst neg args st,
  neg = true \/ envsubst = true \/ upd = false
  \/ (forall n1 n2, args = [n1; n2] -> assoc_get (s_files st) (clean (mkabs st n2)) = None) ->
  s_updates (outcome_state (cmd_cmp upd envsubst neg args st)) = s_updates st.
Proof. exact cmp_records_only_when. Qed.
Print Assumptions C16_cmp_records_only_when.

Theorem C16_cmp_differs_fails : forall (upd envsubst : bool) args st n1 n2 t1 data,
  args = [n1; n2] -> bytes_eqb n1 n2 = false ->
  ts_read st n1 = Some t1 -> read_file (s_fs st) (mkabs st n2) = Some data ->
  bytes_eqb t1 (if envsubst then expand (s_env st) data else data) = false ->
  envsubst = true \/ upd = false \/ assoc_get (s_files st) (clean (mkabs st n2)) = None ->
  cmd_cmp upd envsubst false args st = Failed st.
Proof. exact cmp_differs_fails. Qed.
Print Assumptions C16_cmp_differs_fails.

Theorem C16_update_mode_passes : forall st n1 n2 t1 t2 entry,
  bytes_eqb n1 n2 = false ->
  ts_read st n1 = Some t1 -> read_file (s_fs st) (mkabs st n2) = Some t2 ->
  assoc_get (s_files st) (clean (mkabs st n2)) = Some entry ->
  cmd_cmp true false false [n1; n2] st
  = Done (if bytes_eqb t1 t2 then st else set_updates st (assoc_set (s_updates st) entry t1)).
Proof. exact update_mode_passes. Qed.
Print Assumptions C16_update_mode_passes.

(* the unrestricted re-run fix-point does not hold of the model (one entry compared with two
   different outputs); the restricted one is proved below (C16_rerun_fixpoint_covered) *)
Theorem C16_rerun_fixpoint_unrestricted_refuted : ~ rerun_fixpoint_unrestricted_statement.
Proof. exact rerun_fixpoint_unrestricted_refuted. Qed.
Print Assumptions C16_rerun_fixpoint_unrestricted_refuted.

(* the "changes nothing" half of the re-run: without UpdateScripts the file is never written *)
Theorem C16_no_flag_no_write : forall cfg work env file,
  c_update cfg = false -> f_change (run_file_full cfg work env file) = Untouched.
Proof. exact no_flag_no_write. Qed.
Print Assumptions C16_no_flag_no_write.

(* an update that cannot be stored is a reported failure of the run, never a crash or a pass *)
Theorem C16_update_error_fails : forall cfg work env file,
  f_change (run_file_full cfg work env file) = UpdateError ->
  (exists n, r_verdict (f_run (run_file_full cfg work env file)) = Fail n)
  /\ r_fail_lines (f_run (run_file_full cfg work env file))
     = r_fail_lines (run_file cfg work env file) ++ [s_lineno (r_final (run_file cfg work env file))].
Proof. exact update_error_fails. Qed.
Print Assumptions C16_update_error_fails.

Theorem C16_update_ok_verdict : forall cfg work env file,
  f_change (run_file_full cfg work env file) <> UpdateError ->
  f_run (run_file_full cfg work env file) = run_file cfg work env file.
Proof. exact update_ok_verdict. Qed.
Print Assumptions C16_update_ok_verdict.

(* the restricted re-run fix-point (TsRun/TsRerun.v: every executed line is tree-free or is the
   only `cmp stdout|stderr G` of its archive entry): the two runs go in lockstep *)
Theorem C16_rerun_lockstep : forall cfg fs2 Ufinal,
  c_update cfg = true ->
  forall ls n st1 seen stF,
  (forall d, is_dir_node (stat fs2 d) = is_dir_node (stat (s_fs st1) d)) ->
  golden_tables st1 fs2 Ufinal ->
  (forall e, ~ In e seen -> assoc_get (s_updates st1) e = None) ->
  safe_run cfg ls n st1 seen ->
  run_lines cfg ls n false st1 = (EPass, stF, []) ->
  (forall e, assoc_get Ufinal e = assoc_get (s_updates stF) e) ->
  run_lines (cfg_update cfg false) ls n false (swapfu st1 fs2 []) = (EPass, swapfu stF fs2 [], []).
Proof. exact rerun_lockstep. Qed.
Print Assumptions C16_rerun_lockstep.

Theorem C16_rerun_fixpoint_restricted_partial : forall cfg work env a a' st1 st2 stF,
  c_update cfg = true ->
  setup cfg work env a = (st1, true) ->
  setup (cfg_update cfg false) work env a' = (st2, true) ->
  comment a' = comment a ->
  st2 = swapfu st1 (s_fs st2) [] ->
  shape_eq (s_fs st2) (s_fs st1) ->
  s_updates st1 = [] ->
  run_script cfg (comment a) st1 = {| r_verdict := Pass; r_final := stF; r_fail_lines := [] |} ->
  golden_tables st1 (s_fs st2) (s_updates stF) ->
  safe_run cfg (script_lines (comment a)) 0 st1 [] ->
  run_archive (cfg_update cfg false) work env a'
  = {| r_verdict := Pass; r_final := swapfu stF (s_fs st2) []; r_fail_lines := [] |}.
Proof. exact rerun_fixpoint_restricted_partial. Qed.
Print Assumptions C16_rerun_fixpoint_restricted_partial.

Theorem C16_rerun_writes_nothing : forall cfg work env file',
  f_change (run_file_full (cfg_update cfg false) work env file') = Untouched.
Proof. exact rerun_writes_nothing. Qed.
Print Assumptions C16_rerun_writes_nothing.

(* the restricted fix-point at file level: all side conditions are one executable check,
   [rerun_covered], which the runner evaluates on every generated case *)
Theorem C16_rerun_fixpoint_covered : forall cfg work env file file',
  c_update cfg = true ->
  r_verdict (f_run (run_file_full cfg work env file)) = Pass ->
  rerun_covered cfg work env file file' = true ->
  r_verdict (f_run (run_file_full (cfg_update cfg false) work env file')) = Pass
  /\ f_change (run_file_full (cfg_update cfg false) work env file') = Untouched.
Proof. exact rerun_fixpoint_covered. Qed.
Print Assumptions C16_rerun_fixpoint_covered.

Theorem C16_safe_run_b_sound : forall cfg ls n st seen,
  safe_run_b cfg ls n st seen = true -> safe_run cfg ls n st seen.
Proof. exact safe_run_b_sound. Qed.
Print Assumptions C16_safe_run_b_sound.

(* "rewrites ONLY the mismatching entries": when no cmp recorded an update the file is not
   written at all, whatever its text -- canonical for txtar.Format or not *)
Theorem C16_no_update_no_write : forall cfg work env file,
  s_updates (r_final (run_file cfg work env file)) = [] ->
  f_change (run_file_full cfg work env file) = Untouched
  /\ f_run (run_file_full cfg work env file) = run_file cfg work env file.
Proof. exact no_update_no_write. Qed.
Print Assumptions C16_no_update_no_write.

Theorem C16_write_only_on_update : forall cfg work env file d,
  f_change (run_file_full cfg work env file) = Rewritten d ->
  s_updates (r_final (run_file cfg work env file)) <> [].
Proof. exact write_only_on_update. Qed.
Print Assumptions C16_write_only_on_update.

(* what is written is the canonical text of the updated archive ... *)
Theorem C16_update_written_canonical : forall file U d,
  (forall n d0 c, In (n, d0) (files (parse file)) -> assoc_get U n = Some c -> c = [] \/ last_byte c = Some NL) ->
  change_of (parse file) U = Rewritten d -> format (parse d) = d.
Proof. exact update_written_canonical. Qed.
Print Assumptions C16_update_written_canonical.

(* ... so the SPELLING of untouched entries in a file that was not canonical (blanks in a marker
   line, CR LF behind it, no final newline) does not survive an update of another entry: the
   byte-level reading of "every other entry stays unchanged" is refuted by a witness; the parsed
   entries do stay unchanged (C16_update_frame) *)
Theorem C16_update_keeps_untouched_bytes_refuted : ~ update_keeps_untouched_bytes_statement.
Proof. exact update_keeps_untouched_bytes_refuted. Qed.
Print Assumptions C16_update_keeps_untouched_bytes_refuted.

(* scriptFiles: filled by setup with (expanded location inside the work directory, cleaned -> entry name as
   the archive spells it), never changed by a script line -- not by mv, cp, rm or symlink either *)
Theorem C16_registered_at_expanded_location : forall cfg work env a p e,
  assoc_get (s_files (fst (setup cfg work env a))) p = Some e ->
  In e (map fst (files a)) /\ p = clean (location work env e) /\ beneath work (location work env e) = true.
Proof. exact setup_files_ok. Qed.
Print Assumptions C16_registered_at_expanded_location.

Theorem C16_script_files_fixed_by_line : forall cfg st line,
  s_files (outcome_state (run_line cfg st line)) = s_files st.
Proof. exact fil_run_line. Qed.
Print Assumptions C16_script_files_fixed_by_line.

Theorem C16_script_files_fixed : forall cfg ls n f st,
  s_files (snd (fst (run_lines cfg ls n f st))) = s_files st.
Proof. exact fil_run_lines. Qed.
Print Assumptions C16_script_files_fixed.

Theorem C16_tree_commands_keep_table : forall args st,
  s_files (outcome_state (cmd_mv args st)) = s_files st
  /\ s_files (outcome_state (cmd_cp args st)) = s_files st
  /\ s_files (outcome_state (cmd_rm args st)) = s_files st
  /\ s_files (outcome_state (cmd_symlink args st)) = s_files st.
Proof. exact fil_tree_commands. Qed.
Print Assumptions C16_tree_commands_keep_table.

(* whatever the script does, an update is only ever recorded under the name of an archive entry as
   written, by a comparison against the expanded location of that entry ... *)
Theorem C16_only_entries_updated : forall cfg work env a e c,
  assoc_get (s_updates (r_final (run_archive cfg work env a))) e = Some c ->
  In e (map fst (files a))
  /\ exists p, assoc_get (s_files (fst (setup cfg work env a))) p = Some e
               /\ p = clean (location work env e) /\ beneath work (location work env e) = true.
Proof. exact only_entries_updated. Qed.
Print Assumptions C16_only_entries_updated.

(* ... and what a run writes is the archive with the same entry names in the same order and the
   same script text *)
Theorem C16_run_rewrites_named_entries_only : forall cfg work env file d,
  f_change (run_file_full cfg work env file) = Rewritten d ->
  exists a', apply_updates (parse file) (s_updates (r_final (run_file cfg work env file))) = Some a'
    /\ d = format a'
    /\ map fst (files a') = map fst (files (parse file))
    /\ comment a' = comment (parse file).
Proof. exact run_rewrites_named_entries_only. Qed.
Print Assumptions C16_run_rewrites_named_entries_only.

(* the source itself: the pure segments of UpdateScripts -- the body of the inner loop of
   applyScriptUpdates, the arguments of its os.WriteFile, and doCmdCmp from the comparison to the
   diff -- translated on every run by harness/go2coq (Gen/TsUpdateSrc.v), are the model
   (TsRun/SrcFactsUpdate.v).  The two loops of applyScriptUpdates are composed around the
   translated body (src_outer: the map iterated in the order [us]; src_apply: then the arguments
   of os.WriteFile). *)

(* One entry of the archive, one recorded update: the name test, then update_data (NeedsQuote /
   Quote), Fatalf exactly where Quote refuses. *)
Theorem C16_source_entry : forall name content found (f : bytes * bytes),
  TsUpdateSrc.src_TestScript_applyScriptUpdates_entry name content found f =
    if negb (bytes_eqb (fst f) name) then GoSem.Ok (GoSem.Continue (found, f))
    else match update_data content with
         | Some d' => GoSem.Ok (GoSem.Normal (true, (fst f, d')))
         | None => GoSem.Ok (GoSem.Return (GoSemFail.FailedM TsRun.SrcFactsUpdate.update_msg))
         end.
Proof. exact TsRun.SrcFactsUpdate.src_entry_eq. Qed.
Print Assumptions C16_source_entry.

(* The rewriting does not depend on the order in which Go iterates over the map: for EVERY
   permutation [us] of the recorded updates U (no key twice; every key the name of an entry) the
   loops never panic; they end in ts.Fatalf exactly when the model has no archive, otherwise
   with the model's entries. *)
Theorem C16_source_apply_updates_any_order : forall U us fs, Permutation us U -> NoDup (map fst U) ->
  (forall k, In k (map fst U) -> In k (map fst fs)) ->
  exists a, TsRun.SrcFactsUpdate.src_outer us fs = GoSem.Ok a /\
            TsRun.SrcFactsUpdate.res_of_model (update_files U fs) a.
Proof. exact TsRun.SrcFactsUpdate.src_apply_updates_eq. Qed.
Print Assumptions C16_source_apply_updates_any_order.

(* What reaches os.WriteFile: the script's own file name and txtar.Format of the model's updated
   archive; nothing is written when Quote refuses. *)
Theorem C16_source_written_bytes : forall U us ts, Permutation us U -> NoDup (map fst U) ->
  (forall k, In k (map fst U) -> In k (map fst (files (SrcLibUpdate.u_archive ts)))) ->
  TsRun.SrcFactsUpdate.src_apply us ts =
    GoSem.Ok (match apply_updates (SrcLibUpdate.u_archive ts) U with
              | Some a' => Some (SrcLibUpdate.u_file ts, format a')
              | None => None
              end).
Proof. exact TsRun.SrcFactsUpdate.src_apply_eq. Qed.
Print Assumptions C16_source_written_bytes.

(* cmp / cmpenv from the comparison on: the model's verdict (cmp_tail is the tail of cmd_cmp:
   C16_source_cmp_tail_is_model), and when an update is recorded -- UpdateScripts, not cmpenv, not
   negated, texts differ, the CLEANED absolute name is a key of scriptFiles -- the receiver
   afterwards agrees with the model's state afterwards: scriptUpdates[entry] = text1. *)
Theorem C16_source_cmp_verdict : forall upd ts st neg env name1 name2 text1 abs2 text2,
  TsRun.SrcFactsUpdate.recv_agrees upd ts st ->
  exists o, TsUpdateSrc.src_TestScript_doCmdCmp_verdict ts neg env name1 name2 text1 abs2 text2 = GoSem.Ok o /\
    match TsRun.SrcFactsUpdate.cmp_tail upd env neg text1 text2 abs2 st with
    | Done st' => exists ts', TsRun.SrcFactsUpdate.view_of_cmp o = Some (TsRun.SrcFactsUpdate.CmpDone ts') /\
                              TsRun.SrcFactsUpdate.recv_agrees upd ts' st'
    | Failed _ => TsRun.SrcFactsUpdate.view_of_cmp o = Some TsRun.SrcFactsUpdate.CmpFailed
    | SkipNow _ => False
    end.
Proof. exact TsRun.SrcFactsUpdate.src_cmp_verdict_eq. Qed.
Print Assumptions C16_source_cmp_verdict.

Theorem C16_source_cmp_tail_is_model : forall upd envsubst neg n1 n2 st text1 data,
  bytes_eqb n1 n2 = false -> ts_read st n1 = Some text1 -> read_file (s_fs st) (mkabs st n2) = Some data ->
  cmd_cmp upd envsubst neg [n1; n2] st =
    TsRun.SrcFactsUpdate.cmp_tail upd envsubst neg text1 (if envsubst then expand (s_env st) data else data) (mkabs st n2) st.
Proof. exact TsRun.SrcFactsUpdate.cmd_cmp_tail. Qed.
Print Assumptions C16_source_cmp_tail_is_model.
