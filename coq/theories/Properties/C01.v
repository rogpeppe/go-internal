(* C01 — testscript verdict: a script passes iff every executed line meets its demand.
   This file contains only the property theorems, each closed by [exact] of a lemma proved
   in one of TsRun/Ts*Facts.v and TsRun/SrcFacts.v, with Print Assumptions beneath it.  The interpreter is TsRun/TsRun.v
   (run_line, run_lines, run_script, cli_exit); the declarative reading of "meets its demand"
   is TsRun/TsSpec.v (demand_met, skip_met, unmet, lines_met, all_met, exec_all). *)
From Coq Require Import List Bool Arith NArith Permutation.
From Coq.Strings Require Import Byte.
From GI Require Import Lib.Bytes Gen.TsRunConsts Txtar.Txtar
  TsRun.TsFs TsRun.TsRegex TsRun.TsRegexFacts TsRun.TsState TsRun.TsCmds TsRun.TsRun TsRun.TsSpec TsRun.TsRunFacts
  TsRun.TsNamesFacts TsRun.TsLineFacts TsRun.TsUnpackFacts.
From GI Require Lib.GoSem Lib.GoSemFail TsRun.SrcLib Gen.TsRunSrc TsRun.SrcFacts.
Import ListNotations.

(* one line: the interpreter returns normally exactly when the declarative demand is met *)
Theorem C01_line_done_iff : forall cfg st line st',
  run_line cfg st line = Done st' <-> demand_met cfg st line st'.
Proof. exact line_done_iff. Qed.
Print Assumptions C01_line_done_iff.

Theorem C01_line_failed_iff : forall cfg st line,
  (exists st', run_line cfg st line = Failed st') <-> unmet cfg st line.
Proof. exact line_failed_iff. Qed.
Print Assumptions C01_line_failed_iff.

Theorem C01_verdict_pass_iff : forall cfg text st0,
  r_verdict (run_script cfg text st0) = Pass
  <-> exists stF, all_met cfg (script_lines text) 0 false st0 stF.
Proof. exact verdict_pass_iff. Qed.
Print Assumptions C01_verdict_pass_iff.

Theorem C01_run_pass_iff : forall cfg text st0 stF,
  run_script cfg text st0 = {| r_verdict := Pass; r_final := stF; r_fail_lines := [] |}
  <-> all_met cfg (script_lines text) 0 false st0 stF.
Proof. exact run_pass_iff. Qed.
Print Assumptions C01_run_pass_iff.

Theorem C01_verdict_fail_first : forall cfg text st0 n stF,
  c_continue cfg = false ->
  (run_script cfg text st0 = {| r_verdict := Fail n; r_final := stF; r_fail_lines := [n] |}
   <-> exists pre l post st1,
         script_lines text = pre ++ l :: post /\ n = S (length pre)
         /\ lines_met cfg pre 0 false st0 st1 /\ is_comment l = false
         /\ unmet cfg (at_line n false st1) l
         /\ stF = line_effects cfg (at_line n false st1) l).
Proof. exact verdict_fail_first. Qed.
Print Assumptions C01_verdict_fail_first.

Theorem C01_fail_line_logged : forall cfg text st0 n,
  c_continue cfg = false ->
  r_verdict (run_script cfg text st0) = Fail n -> r_fail_lines (run_script cfg text st0) = [n].
Proof. exact fail_line_logged. Qed.
Print Assumptions C01_fail_line_logged.

Theorem C01_later_lines_irrelevant : forall cfg pre l post post' n st st1,
  c_continue cfg = false ->
  lines_met cfg pre n false st st1 -> is_comment l = false ->
  unmet cfg (at_line (S (n + length pre)) false st1) l ->
  run_lines cfg (pre ++ l :: post) n false st = run_lines cfg (pre ++ l :: post') n false st.
Proof. exact later_lines_irrelevant. Qed.
Print Assumptions C01_later_lines_irrelevant.

Theorem C01_continue_iff : forall cfg ls n f st k stF U,
  c_continue cfg = true ->
  (run_lines cfg ls n f st = (k, stF, U) <-> exec_all cfg ls n f st k stF U).
Proof. exact continue_iff. Qed.
Print Assumptions C01_continue_iff.

Theorem C01_continue_runs_all : forall cfg text st0,
  c_continue cfg = true ->
  exists k stF U,
    exec_all cfg (script_lines text) 0 false st0 k stF U
    /\ run_script cfg text st0 = {| r_verdict := mk_verdict k U; r_final := stF; r_fail_lines := U |}
    /\ ((exists n, r_verdict (run_script cfg text st0) = Fail n) <-> U <> [])
    /\ (U <> [] -> r_verdict (run_script cfg text st0) = Fail (hd 0 U)).
Proof. exact continue_runs_all. Qed.
Print Assumptions C01_continue_runs_all.

Theorem C01_stop_passes : forall cfg pre l post st0 st1 st2,
  lines_met cfg pre 0 false st0 st1 -> is_comment l = false ->
  demand_met cfg (at_line (S (length pre)) false st1) l st2 -> s_stopped st2 = true ->
  run_lines cfg (pre ++ l :: post) 0 false st0 = (EPass, end_bg st2, []).
Proof. exact stop_passes. Qed.
Print Assumptions C01_stop_passes.

Theorem C01_stop_cmd_stops : forall cfg args st,
  length args <= 1 ->
  cmd_sem cfg (CBuiltin [x73; x74; x6f; x70]) false args st = Done (set_stopped st true).
Proof. exact stop_cmd_stops. Qed.
Print Assumptions C01_stop_cmd_stops.

Theorem C01_skip_skips : forall cfg pre l post st0 st1 st2,
  lines_met cfg pre 0 false st0 st1 -> is_comment l = false ->
  skip_met cfg (at_line (S (length pre)) false st1) l st2 ->
  run_lines cfg (pre ++ l :: post) 0 false st0 = (ESkip, st2, []).
Proof. exact skip_skips. Qed.
Print Assumptions C01_skip_skips.

Theorem C01_skip_after_failure_fails : forall cfg pre l post n st st1 st2,
  lines_met cfg pre n true st st1 -> is_comment l = false ->
  skip_met cfg (at_line (S (n + length pre)) true st1) l st2 ->
  run_lines cfg (pre ++ l :: post) n true st = (EFail, st2, []).
Proof. exact skip_after_failure_fails. Qed.
Print Assumptions C01_skip_after_failure_fails.

Theorem C01_skip_cmd_skips : forall cfg args st,
  length args <= 1 -> s_bg st = [] ->
  cmd_sem cfg (CBuiltin [x73; x6b; x69; x70]) false args st
  = SkipNow (set_bg (set_outerr (set_bg st []) [] []) []).
Proof. exact skip_cmd_skips. Qed.
Print Assumptions C01_skip_cmd_skips.

Theorem C01_guard_false_noop : forall cfg st line words,
  tokenise (s_env st) line = Some words -> guards_block cfg st words ->
  run_line cfg st line = Done st.
Proof. exact guard_false_noop. Qed.
Print Assumptions C01_guard_false_noop.

Theorem C01_neg_flips_exec : forall cfg args st s,
  fg_args args -> exec_times_out cfg args st = false ->
  (cmd_exec cfg true args st = Done s <-> cmd_exec cfg false args st = Failed s)
  /\ (cmd_exec cfg true args st = Failed s <-> cmd_exec cfg false args st = Done s).
Proof. exact neg_flips_exec. Qed.
Print Assumptions C01_neg_flips_exec.

(* "with a leading ! it fails in the way that command defines": being stopped by testscript
   because the deadline of the run is reached is not the command failing *)
Theorem C01_neg_does_not_excuse_timeout : forall cfg args st,
  fg_args args -> exec_times_out cfg args st = true ->
  exists s, forall neg, cmd_exec cfg neg args st = Failed s.
Proof. exact neg_does_not_excuse_timeout. Qed.
Print Assumptions C01_neg_does_not_excuse_timeout.

Theorem C01_no_deadline_no_timeout : forall cfg args st,
  c_deadline cfg = false -> c_cancelled cfg = false -> exec_times_out cfg args st = false.
Proof. exact no_deadline_no_timeout. Qed.
Print Assumptions C01_no_deadline_no_timeout.

Theorem C01_timeout_line_unmet : forall cfg st line neg args,
  reaches cfg st line neg (CBuiltin exec_name) args -> fg_args args ->
  exec_times_out cfg args st = true -> unmet cfg st line.
Proof. exact timeout_line_unmet. Qed.
Print Assumptions C01_timeout_line_unmet.

Theorem C01_timeout_fails_run : forall cfg text st0 pre l post st1 neg args,
  c_continue cfg = false ->
  script_lines text = pre ++ l :: post -> lines_met cfg pre 0 false st0 st1 -> is_comment l = false ->
  reaches cfg (at_line (S (length pre)) false st1) l neg (CBuiltin exec_name) args -> fg_args args ->
  exec_times_out cfg args (at_line (S (length pre)) false st1) = true ->
  r_verdict (run_script cfg text st0) = Fail (S (length pre))
  /\ r_fail_lines (run_script cfg text st0) = [S (length pre)].
Proof. exact timeout_fails_run. Qed.
Print Assumptions C01_timeout_fails_run.

Theorem C01_wait_timeout_fails : forall cfg st,
  wait_times_out cfg (s_bg st) = true -> cmd_wait cfg [] st = Failed (timed_out_state cfg st).
Proof. exact wait_timeout_fails. Qed.
Print Assumptions C01_wait_timeout_fails.

Theorem C01_wait_named_timeout_fails : forall cfg st n bg,
  find_bg (s_bg st) n = Some bg -> c_deadline cfg = true -> running_sleeper bg = true ->
  cmd_wait cfg [n] st = Failed (timed_out_state cfg st).
Proof. exact wait_named_timeout_fails. Qed.
Print Assumptions C01_wait_named_timeout_fails.

(* several scripts in one RunT call (refCount protocol of the shared context): the verdict of
   a script is the verdict of that script run alone, whatever stands around it, in any order *)
Theorem C01_verdict_independent_of_batch : forall cfg jobs,
  c_cancelled cfg = false -> runT_seq cfg jobs = batch_verdicts cfg jobs.
Proof. exact verdict_independent_of_batch. Qed.
Print Assumptions C01_verdict_independent_of_batch.

Theorem C01_verdict_independent_of_batch_nth : forall cfg pre j post,
  c_cancelled cfg = false ->
  nth_error (runT_seq cfg (pre ++ j :: post)) (length pre)
  = Some (r_verdict (run_file cfg (j_work j) (j_env j) (j_file j))).
Proof. exact verdict_independent_of_batch_nth. Qed.
Print Assumptions C01_verdict_independent_of_batch_nth.

Theorem C01_verdict_independent_of_order : forall cfg jobs jobs',
  c_cancelled cfg = false -> Permutation jobs jobs' ->
  Permutation (runT_seq cfg jobs) (runT_seq cfg jobs').
Proof. exact verdict_independent_of_order. Qed.
Print Assumptions C01_verdict_independent_of_order.

Theorem C01_unknown_cmd_fails : forall cfg st line words cw neg name args,
  tokenise (s_env st) line = Some words -> guards_pass cfg st words cw ->
  split_neg cw = Some (neg, name, args) -> lookup_cmd cfg name = None ->
  run_line cfg st line = Failed st.
Proof. exact unknown_cmd_fails. Qed.
Print Assumptions C01_unknown_cmd_fails.

Theorem C01_neg_unsupported_fails : forall cfg st line name args,
  In name neg_rejecting_cmds ->
  reaches cfg st line true (CBuiltin name) args ->
  run_line cfg st line = Failed st.
Proof. exact neg_unsupported_fails. Qed.
Print Assumptions C01_neg_unsupported_fails.

Theorem C01_cli_exit_iff : forall cfg batch,
  cli_exit cfg batch = 0%N <->
  forall j, In j batch -> forall n, r_verdict (run_file cfg (j_work j) (j_env j) (j_file j)) <> Fail n.
Proof. exact cli_exit_iff. Qed.
Print Assumptions C01_cli_exit_iff.

Theorem C01_explicit_exec_required : forall cfg st line neg name args,
  c_explicit_exec cfg = true -> In name (c_main_cmds cfg) ->
  reaches cfg st line neg (CMain name) args ->
  run_line cfg st line = Failed st.
Proof. exact explicit_exec_required. Qed.
Print Assumptions C01_explicit_exec_required.

Theorem C01_explicit_exec_not_required : forall cfg name neg args st,
  c_explicit_exec cfg = false ->
  cmd_sem cfg (CMain name) neg args st = cmd_exec cfg neg (name :: args) st.
Proof. exact explicit_exec_not_required. Qed.
Print Assumptions C01_explicit_exec_not_required.

Theorem C01_unique_names_step : forall st work name data r t1,
  let p := mkabs st (expand (s_env st) name) in
  mkdir_all (s_fs st) (dir p) 511 = (t1, true) ->
  lstat t1 p <> None ->
  snd (unpack true work ((name, data) :: r) st) = false.
Proof. exact unique_names_step. Qed.
Print Assumptions C01_unique_names_step.

(* archive entry names: expanded with the initial variables, unpacked at and registered under the
   expanded location, refused when that location is outside the work directory *)
Theorem C01_unpack_step : forall st work (u : bool) name data r t1 t2,
  let p := mkabs st (expand (s_env st) name) in
  beneath work p = true ->
  mkdir_all (s_fs st) (dir p) 511 = (t1, true) ->
  (if u then write_file_excl t1 p data 438 else write_file t1 p data 438) = Some t2 ->
  unpack u work ((name, data) :: r) st
  = unpack u work r (set_fs (set_files st (assoc_set (s_files st) (clean p) name)) t2).
Proof. exact unpack_step. Qed.
Print Assumptions C01_unpack_step.

Theorem C01_work_named_entry : forall st work (u : bool) q data r t1 t2,
  let name := work_ref ++ [SLASH] ++ q in
  let p := getenv (s_env st) work_key ++ [SLASH] ++ q in
  no_dollar q = true ->
  is_abs (getenv (s_env st) work_key) = true ->
  beneath work p = true ->
  mkdir_all (s_fs st) (dir p) 511 = (t1, true) ->
  (if u then write_file_excl t1 p data 438 else write_file t1 p data 438) = Some t2 ->
  exists st', unpack u work ((name, data) :: r) st = unpack u work r st'
    /\ s_fs st' = t2 /\ assoc_get (s_files st') (clean p) = Some name.
Proof. exact work_named_entry. Qed.
Print Assumptions C01_work_named_entry.

Theorem C01_escaping_name_fails_setup : forall cfg work env a pre name data post t st,
  files a = pre ++ (name, data) :: post ->
  mkdir_all [] (work ++ [x2f; x2e; x74; x6d; x70]) 511 = (t, true) ->
  unpack (c_unique cfg) work pre (empty_state env work t) = (st, true) ->
  beneath work (location work env name) = false ->
  setup cfg work env a = (st, false)
  /\ r_verdict (run_archive cfg work env a) = Fail 0
  /\ r_fail_lines (run_archive cfg work env a) = [0].
Proof. exact escaping_name_fails_setup. Qed.
Print Assumptions C01_escaping_name_fails_setup.

(* ... and for the whole archive: two entries unpacked at the same location, wherever they stand and
   however they are spelled, fail setup (the tree only grows while setup runs: what was created stays) *)
Theorem C01_unique_names_whole_archive : forall cfg work env a pre n1 d1 mid n2 d2 post,
  c_unique cfg = true ->
  files a = pre ++ (n1, d1) :: mid ++ (n2, d2) :: post ->
  location work env n1 = location work env n2 ->
  snd (setup cfg work env a) = false
  /\ r_verdict (run_archive cfg work env a) = Fail 0 /\ r_fail_lines (run_archive cfg work env a) = [0].
Proof. exact unique_names_whole_archive. Qed.
Print Assumptions C01_unique_names_whole_archive.

Theorem C01_setup_failure_is_fail_0 : forall cfg work env a st,
  setup cfg work env a = (st, false) ->
  r_verdict (run_archive cfg work env a) = Fail 0 /\ r_fail_lines (run_archive cfg work env a) = [0].
Proof. exact setup_failure_is_fail_0. Qed.
Print Assumptions C01_setup_failure_is_fail_0.

(* the regular-expression fragment of stdout / stderr / grep: the matcher against the
   declarative reading [ms] (TsRun/TsRegex.v, TsRun/TsRegexFacts.v) *)
Theorem C01_regex_matcher_sound : forall ps prev rest n,
  m_seq ps prev rest = Some n ->
  n <= length rest /\ ms ps prev (firstn n rest) (skipn n rest).
Proof. exact m_seq_sound. Qed.
Print Assumptions C01_regex_matcher_sound.

Theorem C01_regex_matcher_complete : forall ps prev w after,
  ms ps prev w after -> exists n, m_seq ps prev (w ++ after) = Some n.
Proof. exact m_seq_complete. Qed.
Print Assumptions C01_regex_matcher_complete.

Theorem C01_regex_has_match_iff : forall re text,
  re_has_match re text = true <-> re_matches_in re text.
Proof. exact re_has_match_iff. Qed.
Print Assumptions C01_regex_has_match_iff.

Theorem C01_regex_count_zero_iff : forall re text,
  re_count re text = 0%N <-> re_has_match re text = false.
Proof. exact re_count_zero_iff. Qed.
Print Assumptions C01_regex_count_zero_iff.

(* Params.Cmds never replaces a command of the standard set *)
Theorem C01_builtin_shadows_custom : forall cfg name k,
  In name script_cmd_names -> ~ In name (c_main_cmds cfg) ->
  assoc_kind (c_cmds cfg) name = Some k ->
  lookup_cmd cfg name = Some (CBuiltin name).
Proof. exact builtin_shadows_custom. Qed.
Print Assumptions C01_builtin_shadows_custom.

Theorem C01_custom_reached_iff : forall cfg name k,
  lookup_cmd cfg name = Some (CCustom k) <->
  ~ In name (c_main_cmds cfg) /\ ~ In name script_cmd_names /\ assoc_kind (c_cmds cfg) name = Some k.
Proof. exact custom_reached_iff. Qed.
Print Assumptions C01_custom_reached_iff.

(* the built-in conditions: GOOS / GOARCH names, unix, go1.N (name lists and goVersionRegex regenerated) *)
Theorem C01_cond_goos : forall cfg st c,
  In c known_os_names -> cond_eval cfg st c = CondVal (bytes_eqb c (c_goos cfg)).
Proof. exact cond_goos. Qed.
Print Assumptions C01_cond_goos.

Theorem C01_cond_goos_unique : forall cfg st c1 c2,
  In c1 known_os_names -> In c2 known_os_names ->
  cond_eval cfg st c1 = CondVal true -> cond_eval cfg st c2 = CondVal true -> c1 = c2.
Proof. exact cond_goos_unique. Qed.
Print Assumptions C01_cond_goos_unique.

Theorem C01_cond_unix : forall cfg st,
  cond_eval cfg st unix_name = CondVal (mem_bytes (c_goos cfg) unix_os_names).
Proof. exact cond_unix. Qed.
Print Assumptions C01_cond_unix.

Theorem C01_cond_goarch : forall cfg st c,
  In c known_arch_names -> cond_eval cfg st c = CondVal (bytes_eqb c (c_goarch cfg)).
Proof. exact cond_goarch. Qed.
Print Assumptions C01_cond_goarch.

Theorem C01_cond_go_version : forall cfg st c v,
  go_version c = Some v -> cond_eval cfg st c = CondVal (release_tag_holds (c_go_minor cfg) v).
Proof. exact cond_go_version. Qed.
Print Assumptions C01_cond_go_version.

(* for EVERY N >= 1: the guard [go1.N] (N in decimal) holds exactly up to the toolchain's minor version *)
Theorem C01_cond_go1_every_minor : forall cfg st n,
  (1 <= n)%N -> cond_eval cfg st (go1_prefix ++ dec n) = CondVal (N.leb n (c_go_minor cfg)).
Proof. exact cond_go1_every_minor. Qed.
Print Assumptions C01_cond_go1_every_minor.

Theorem C01_release_tag_spec : forall m major minor,
  release_tag_holds m (major, minor) = true <-> major = 1%N /\ (1 <= minor <= m)%N.
Proof. exact release_tag_spec. Qed.
Print Assumptions C01_release_tag_spec.

Theorem C01_release_tags_downward : forall m a b,
  release_tag_holds m (1%N, a) = true -> (1 <= b)%N -> (b <= a)%N -> release_tag_holds m (1%N, b) = true.
Proof. exact release_tags_downward. Qed.
Print Assumptions C01_release_tags_downward.

Theorem C01_guard_runs_iff : forall cfg st (want : bool) c b w rest,
  guard_of w = Some (want, c) -> rest <> [] -> cond_eval cfg st c = CondVal b ->
  run_guards cfg st (w :: rest) = (if Bool.eqb b want then run_guards cfg st rest else Done st).
Proof. exact guard_runs_iff. Qed.
Print Assumptions C01_guard_runs_iff.

Theorem C01_go_version_regex_current :
  go_version_regex = [x5e; x67; x6f; x28; x5b; x31; x2d; x39; x5d; x5b; x30; x2d; x39; x5d; x2a; x29; x5c; x2e;
                      x28; x5b; x31; x2d; x39; x5d; x5b; x30; x2d; x39; x5d; x2a; x29; x24].
Proof. exact go_version_regex_current. Qed.
Print Assumptions C01_go_version_regex_current.

(* exists / ! exists: every operand counts, whatever its position *)
Theorem C01_not_exists_iff : forall st f fs,
  bytes_eqb f readonly_flag = false ->
  cmd_exists true (f :: fs) st = Done st <-> forall g, In g (f :: fs) -> stat (s_fs st) (mkabs st g) = None.
Proof. exact not_exists_iff. Qed.
Print Assumptions C01_not_exists_iff.

Theorem C01_exists_iff : forall st f fs,
  bytes_eqb f readonly_flag = false ->
  cmd_exists false (f :: fs) st = Done st <-> forall g, In g (f :: fs) -> stat (s_fs st) (mkabs st g) <> None.
Proof. exact exists_iff. Qed.
Print Assumptions C01_exists_iff.

Theorem C01_exists_state : forall neg args st, outcome_state (cmd_exists neg args st) = st.
Proof. exact exists_state. Qed.
Print Assumptions C01_exists_state.

(* a program that cannot be started: the line fails (or meets "!"); started with a path, it is "the
   next exec command" all the same: the pending standard input is consumed, the old output is gone *)
Theorem C01_exec_cannot_start : forall cfg neg prog rest st,
  bg_spec (last (prog :: rest) []) = None -> can_start cfg st prog = false ->
  cmd_exec cfg neg (prog :: rest) st
  = (if neg then Done (start_failed_state cfg st prog) else Failed (start_failed_state cfg st prog)).
Proof. exact exec_cannot_start. Qed.
Print Assumptions C01_exec_cannot_start.

Theorem C01_start_failure_consumes_stdin : forall cfg st prog,
  has_slash prog = true ->
  let st' := start_failed_state cfg st prog in
  s_in st' = [] /\ s_out st' = [] /\ s_err st' = [] /\ s_fs st' = s_fs st /\ s_env st' = s_env st /\ s_cd st' = s_cd st /\ s_bg st' = s_bg st.
Proof. exact start_failure_consumes_stdin. Qed.
Print Assumptions C01_start_failure_consumes_stdin.

Theorem C01_lookup_failure_keeps_stdin : forall cfg st prog,
  is_bare prog = true -> prog_found cfg st prog = false ->
  s_in (start_failed_state cfg st prog) = s_in st /\ s_out (start_failed_state cfg st prog) = [].
Proof. exact lookup_failure_keeps_stdin. Qed.
Print Assumptions C01_lookup_failure_keeps_stdin.

(* the source itself: the pure segments of runLine up to the command lookup -- the words and
   the blank-line test; the loop over the [cond] prefixes and the ! prefix -- translated on every
   run by harness/go2coq (Gen/TsRunSrc.v), are the model (TsRun/SrcFacts.v).  ts.parse and
   ts.condition are oracles carried by the receiver [ts]; [parse_agrees st ts] / [cond_agrees cfg st ts]:
   they answer as the model's tokenise / cond_eval compute (a Fatalf or an error where the model
   has no value).  [guards_view] / [line_view] / [view_outcome]: the model's run_guards / run_line
   read as "fail, skip the line, or run these command words with this negation". *)

(* The view is the model: run_guards is view_outcome of guards_view. *)
Theorem C01_source_view_is_run_guards : forall cfg st words,
  run_guards cfg st words = TsRun.SrcFacts.view_outcome cfg st (TsRun.SrcFacts.guards_view cfg st words).
Proof. exact TsRun.SrcFacts.run_guards_view. Qed.
Print Assumptions C01_source_view_is_run_guards.

(* The translated guard loop and ! test: with fuel for one iteration per word, never a panic,
   never out of fuel, and the decision is the model's. *)
Theorem C01_source_guards : forall cfg st ts, TsRun.SrcFacts.cond_agrees cfg st ts ->
  forall fuel words, words <> [] -> length words + 1 <= fuel ->
  exists o, TsRunSrc.src_TestScript_runLine_guards fuel ts words = GoSem.Ok o /\
            TsRun.SrcFacts.view_of_guards o = Some (TsRun.SrcFacts.guards_view cfg st words).
Proof. exact TsRun.SrcFacts.src_guards_eq. Qed.
Print Assumptions C01_source_guards.

(* runLine from the tokenizer to the command lookup, by the translated segments in source order:
   for every line it decides what the model's run_line decides. *)
Theorem C01_source_run_line_prefix : forall cfg st ts,
  TsRun.SrcFacts.parse_agrees st ts -> TsRun.SrcFacts.cond_agrees cfg st ts ->
  forall fuel line,
  (forall ws, tokenise (s_env st) line = Some ws -> length ws + 1 <= fuel) ->
  exists o, TsRun.SrcFacts.src_run_line_prefix ts fuel line = GoSem.Ok o /\
            TsRun.SrcFacts.view_of_guards o = Some (TsRun.SrcFacts.line_view cfg st line) /\
            run_line cfg st line = TsRun.SrcFacts.view_outcome cfg st (TsRun.SrcFacts.line_view cfg st line).
Proof. exact TsRun.SrcFacts.src_run_line_prefix_eq. Qed.
Print Assumptions C01_source_run_line_prefix.
