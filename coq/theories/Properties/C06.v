(* C06 — lockedfile: a write lock excludes every other holder, across processes.
   Only the property theorems, each closed by [exact] of a lemma proved in the files of
   LockedFile/ required below, with Print Assumptions beneath it.  The flock semantics of the OS
   model (LockedFile.os_step) is assumed of the kernel; everything else is about the library's
   protocol, for every schedule of any number of clients. *)
From Coq Require Import List NArith.
From Coq.Strings Require Import Byte.
From GI Require Import Gen.LockedFileConsts LockedFile.LockedFile LockedFile.LockBasics LockedFile.LockProofs LockedFile.MutexFacts
  LockedFile.LockedFileA LockedFile.LockProofsA.
From GI Require Import LockedFile.Policy LockedFile.PolicyProofs LockedFile.PolicyCall LockedFile.PolicyLock.
From GI Require Import LockedFile.ApiCloses.
From GI Require Import LockedFile.DeferClose.
From GI Require Import LockedFile.Handles LockedFile.HandleProofs.
Import ListNotations.

Theorem C06_write_flags_exclusive : forall flags,
  In (N.land flags lock_switch_mask) [sys_O_WRONLY; sys_O_RDWR] ->
  lock_mode_of_flags flags = Some LEx.
Proof. exact write_flags_exclusive. Qed.
Print Assumptions C06_write_flags_exclusive.

Theorem C06_rdonly_shared : forall flags,
  ~ In (N.land flags lock_switch_mask) [sys_O_WRONLY; sys_O_RDWR] ->
  lock_mode_of_flags flags = Some LSh.
Proof. exact rdonly_shared. Qed.
Print Assumptions C06_rdonly_shared.

Theorem C06_api_lock_modes : forall d t b,
  lock_mode_of_flags (flags_of_call (CWrite d)) = Some LEx /\
  lock_mode_of_flags (flags_of_call (CTransform t)) = Some LEx /\
  lock_mode_of_flags (flags_of_call (CCreate b)) = Some LEx /\
  lock_mode_of_flags (flags_of_call (CEdit b)) = Some LEx /\
  lock_mode_of_flags (flags_of_call CMutex) = Some LEx /\
  lock_mode_of_flags (flags_of_call CRead) = Some LSh /\
  lock_mode_of_flags (flags_of_call (COpen b)) = Some LSh.
Proof. exact call_lock_modes. Qed.
Print Assumptions C06_api_lock_modes.

Theorem C06_mutex_is_exclusive : lock_mode_of_flags (flags_of_call CMutex) = Some LEx.
Proof. exact mutex_is_exclusive. Qed.
Print Assumptions C06_mutex_is_exclusive.

(* at every instant of every schedule: two clients between the return of their locking call
   and their Close, on one inode, are both read-lockers *)
Theorem C06_exclusion : forall cfg f s c d,
  wf_cfg cfg -> reachable cfg f s ->
  c <> d -> c_ino (cfg c) = c_ino (cfg d) -> in_cs s c -> in_cs s d ->
  mode_of cfg c = Some LSh /\ mode_of cfg d = Some LSh.
Proof. exact exclusion. Qed.
Print Assumptions C06_exclusion.

Theorem C06_writer_excludes_all : forall cfg f s c d,
  wf_cfg cfg -> reachable cfg f s ->
  c <> d -> c_ino (cfg c) = c_ino (cfg d) ->
  mode_of cfg c = Some LEx -> in_cs s c -> ~ in_cs s d.
Proof. exact writer_excludes_all. Qed.
Print Assumptions C06_writer_excludes_all.

Theorem C06_held_until_close : forall cfg f s c,
  wf_cfg cfg -> reachable cfg f s ->
  (progs s c = after_open (body_of_call (c_call (cfg c))) \/ in_cs s c \/
   exists x, progs s c = close_prog (Ret x)) ->
  exists m, mode_of cfg c = Some m /\ holds_lock cfg s c m.
Proof. exact held_from_before_return_to_unlock. Qed.
Print Assumptions C06_held_until_close.

Theorem C06_released_by_close : forall cfg f s c r,
  wf_cfg cfg -> reachable cfg f s -> returned s c r ->
  forall i k, holds c k (ltab (st_os s) i) = false.
Proof. exact released_by_close. Qed.
Print Assumptions C06_released_by_close.

Theorem C06_no_truncate_before_lock : forall cfg f s c,
  wf_cfg cfg -> reachable cfg f s ->
  (forall fl', first_op (progs s c) = Some (OOpen fl') -> has_flag fl' sys_O_TRUNC = false) /\
  (forall n, first_op (progs s c) = Some (OFtruncate n) ->
             exists m, mode_of cfg c = Some m /\ holds_lock cfg s c m).
Proof. exact no_truncate_before_lock. Qed.
Print Assumptions C06_no_truncate_before_lock.

Theorem C06_io_under_lock : forall cfg f s c o,
  wf_cfg cfg -> reachable cfg f s ->
  first_op (progs s c) = Some o -> is_io o = true ->
  exists m, mode_of cfg c = Some m /\ holds_lock cfg s c m.
Proof. exact io_under_lock. Qed.
Print Assumptions C06_io_under_lock.

Theorem C06_open_flags_stripped : forall flags,
  has_flag (strip flags openfile_strip_mask) sys_O_TRUNC = false /\
  accmode (strip flags openfile_strip_mask) = accmode flags.
Proof. exact open_flags_stripped. Qed.
Print Assumptions C06_open_flags_stripped.

(* Mutex: the zero value / an empty path panic instead of locking "" *)
Theorem C06_mutex_zero_value_panics : mutex_lock [] = MPanic mutex_lock_panic_msg.
Proof. exact mutex_zero_value_panics. Qed.
Print Assumptions C06_mutex_zero_value_panics.

Theorem C06_mutex_nonempty_locks : forall path,
  path <> [] -> mutex_lock path = MRun (prog_of_call CMutex) /\
                lock_mode_of_flags (flags_of_call CMutex) = Some LEx.
Proof. exact mutex_nonempty_locks. Qed.
Print Assumptions C06_mutex_nonempty_locks.

Theorem C06_mutex_at_empty_panics : mutex_at [] = inr mutexat_panic_msg.
Proof. exact mutex_at_empty_panics. Qed.
Print Assumptions C06_mutex_at_empty_panics.

Theorem C06_mutex_creates_lock_file :
  has_flag mutex_flags sys_O_CREATE = true /\
  match run_seq 0 0 (prog_of_call CMutex) no_faults 0 (os_with None) with
  | (tr, out, s') =>
      out = Finished ResOk /\ files s' 0 = Some [] /\ ltab s' 0 = [] /\ fds s' 0 = None /\
      In (OFlock sys_LOCK_EX, ROk) tr
  end.
Proof. exact mutex_creates_lock_file. Qed.
Print Assumptions C06_mutex_creates_lock_file.

(* the files compiled on this platform are the flock(2) back end the model describes
   (genconsts refuses to generate the constants otherwise) *)
Theorem C06_backend_is_flock : filelock_backend_is_flock = true.
Proof. exact backend_is_flock. Qed.
Print Assumptions C06_backend_is_flock.

Theorem C06_truncate_error_keeps_lock : truncate_unlock_inside_regular_check = true.
Proof. exact truncate_error_keeps_lock. Qed.
Print Assumptions C06_truncate_error_keeps_lock.

(* Mutex.Lock (like every call) returns the error of its open: no second open, no lock *)
Theorem C06_open_error_is_returned : forall fl b i c plan s s',
  os_step i c (OOpen (strip fl openfile_strip_mask)) (plan 0) false s = Some (RErr, s') ->
  run_seq i c (client_prog fl b) plan 0 s =
  ([(OOpen (strip fl openfile_strip_mask), RErr)], Finished ResErr, s').
Proof. exact open_error_is_returned. Qed.
Print Assumptions C06_open_error_is_returned.

(* with inode attributes: files that are not regular (Truncate fails and is ignored) and
   files the caller may not open; the model above is the special case of default attributes *)
Theorem C06_plain_model_is_special_case : forall cfg f s,
  reachable cfg f s <-> reachable_a (lift cfg) f s.
Proof. exact reachable_lift. Qed.
Print Assumptions C06_plain_model_is_special_case.

Theorem C06_attr_exclusion : forall cfg f s c d,
  wf_cfg_a cfg -> reachable_a cfg f s ->
  c <> d -> ca_ino (cfg c) = ca_ino (cfg d) -> in_cs s c -> in_cs s d ->
  mode_of_a cfg c = Some LSh /\ mode_of_a cfg d = Some LSh.
Proof. exact exclusion_a. Qed.
Print Assumptions C06_attr_exclusion.

Theorem C06_attr_held_until_close : forall cfg f s c,
  wf_cfg_a cfg -> reachable_a cfg f s ->
  (progs s c = after_open (body_of_call (ca_call (cfg c))) \/ in_cs s c \/
   exists x, progs s c = close_prog (Ret x)) ->
  exists m, mode_of_a cfg c = Some m /\ holds_lock_a cfg s c m.
Proof. exact held_from_before_return_to_unlock_a. Qed.
Print Assumptions C06_attr_held_until_close.

Theorem C06_attr_released_by_close : forall cfg f s c r,
  wf_cfg_a cfg -> reachable_a cfg f s -> returned s c r ->
  forall i k, holds c k (ltab (st_os s) i) = false.
Proof. exact released_by_close_a. Qed.
Print Assumptions C06_attr_released_by_close.

Theorem C06_attr_io_under_lock : forall cfg f s c o,
  wf_cfg_a cfg -> reachable_a cfg f s ->
  first_op (progs s c) = Some o -> is_io o = true ->
  exists m, mode_of_a cfg c = Some m /\ holds_lock_a cfg s c m.
Proof. exact io_under_lock_a. Qed.
Print Assumptions C06_attr_io_under_lock.

(* Create on a FIFO or device node: Truncate fails, is ignored, the caller holds the exclusive
   lock through its critical section, Close releases it *)
Theorem C06_create_on_nonregular : forall old,
  match run_seq_a nonregular 0 0 (prog_of_call_a nonregular (CCreate (Ret ResOk))) no_faults 0
                  (os_with (Some old)) with
  | (tr, out, s') =>
      tr = [(OOpen (strip create_flags openfile_strip_mask), ROk); (OFlock sys_LOCK_EX, ROk);
            (OFtruncate (N.to_nat truncate_size), RErr); (OMark MReturned, ROk);
            (OMark MCloseCalled, ROk); (OFlock sys_LOCK_UN, ROk); (OClose, ROk)] /\
      out = Finished ResOk /\ files s' 0 = Some old /\ ltab s' 0 = [] /\ fds s' 0 = None
  end.
Proof. exact create_on_nonregular. Qed.
Print Assumptions C06_create_on_nonregular.

Theorem C06_nonregular_returned_locked : forall cfg f s c,
  wf_cfg_a cfg -> reachable_a cfg f s ->
  a_regular (ca_attr (cfg c)) = false ->
  progs s c = after_open (body_of_call (ca_call (cfg c))) ->
  exists m, mode_of_a cfg c = Some m /\ holds_lock_a cfg s c m.
Proof. exact nonregular_returned_locked. Qed.
Print Assumptions C06_nonregular_returned_locked.

(* Mutex.Lock by a caller who may read but not write the lock file: the open error is returned,
   no lock is taken (no fallback to a read-only, shared-locking open) *)
Theorem C06_mutex_on_readonly_lock_file : forall b0,
  match run_seq_a readonly 0 0 (prog_of_call_a readonly CMutex) no_faults 0 (os_with (Some b0)) with
  | (tr, out, s') =>
      tr = [(OOpen (strip mutex_flags openfile_strip_mask), RErr)] /\ out = Finished ResErr /\
      ltab s' 0 = [] /\ fds s' 0 = None
  end.
Proof. exact mutex_on_readonly_lock_file. Qed.
Print Assumptions C06_mutex_on_readonly_lock_file.

Theorem C06_denied_client_never_locks : forall cfg f sched c,
  let s := run_a cfg (init_state_a cfg f) sched in
  f (ca_ino (cfg c)) <> None ->
  open_denied (ca_attr (cfg c)) (strip (flags_of_call (ca_call (cfg c))) openfile_strip_mask) = true ->
  (progs s c = prog_of_call_a (ca_attr (cfg c)) (ca_call (cfg c)) \/ progs s c = Ret ResErr) /\
  fds (st_os s) c = None /\ status s c = SIdle /\ files (st_os s) (ca_ino (cfg c)) <> None.
Proof. exact denied_client_never_locks. Qed.
Print Assumptions C06_denied_client_never_locks.

(* "…and is released by that call", on EVERY path (Policy.v: the fault of each operation is
   chosen by an arbitrary policy that sees the whole history — one-shot or persistent failures of
   open, flock, read, write, truncate, close).  OpenFile(fl); any I/O-only body; Close, started by
   a caller without a descriptor, others possibly holding locks: if the call returns, the caller
   holds no descriptor and no lock on the file, and opens and closes balance *)
Theorem C06_released_on_every_path : forall i c fl b pol h s,
  io_only b -> fds s c = None -> locked c (ltab s i) = None -> refs s c = 0 ->
  match run_pol i c (client_prog fl b) pol h s with
  | (h', Finished _, s') =>
      fds s' c = None /\ (forall k, holds c k (ltab s' i) = false) /\
      opens h' + closes h = closes h' + opens h
  | (_, Blocked, _) => True
  end.
Proof. exact released_on_every_path. Qed.
Print Assumptions C06_released_on_every_path.

(* every API call: Read, Write, Transform (any function), Create/Edit/Open/OpenFile + I/O + Close,
   Mutex.Lock + unlock *)
Theorem C06_api_released_on_every_path : forall i c (cl : call) pol s,
  wf_call cl -> fds s c = None -> locked c (ltab s i) = None -> refs s c = 0 ->
  match run_pol i c (prog_of_call cl) pol [] s with
  | (h', Finished _, s') =>
      fds s' c = None /\ (forall k, holds c k (ltab s' i) = false) /\ opens h' = closes h'
  | (_, Blocked, _) => True
  end.
Proof. exact api_released_on_every_path. Qed.
Print Assumptions C06_api_released_on_every_path.

Theorem C06_fd_balanced : forall i c (cl : call) pol s,
  wf_call cl -> fds s c = None -> locked c (ltab s i) = None -> refs s c = 0 ->
  match run_pol i c (prog_of_call cl) pol [] s with
  | (h', Finished _, s') => opens h' = closes h' /\ fds s' c = None
  | (_, Blocked, _) => True
  end.
Proof. exact fd_balanced. Qed.
Print Assumptions C06_fd_balanced.

(* Write with ANY content reader (io.Copy: one write per delivered chunk, then the reader's own
   error) is such a call *)
Theorem C06_writer_is_an_api_call : forall chunks rerr, wf_call (writer_call chunks rerr).
Proof. exact wf_writer_call. Qed.
Print Assumptions C06_writer_is_an_api_call.

(* Close under any faults: the file is untouched, the descriptor closed, the lock gone *)
Theorem C06_close_releases_under_faults : forall i c x pol h s,
  isopen (fds s c) = true -> refs s c = 0 ->
  exists h' s', run_pol i c (close_part x) pol h s = (h', Finished x, s') /\
    files s' = files s /\ fds s' c = None /\ locked c (ltab s' i) = None.
Proof. exact run_pol_close_part. Qed.
Print Assumptions C06_close_releases_under_faults.

(* the policy semantics extends the position-plan semantics the other fault theorems use *)
Theorem C06_policies_extend_plans : forall i c p plan h s,
  run_pol i c p (pol_of_plan plan) h s =
  match run_seq i c p plan (length h) s with
  | (tr, out, s') => (rev tr ++ h, out, s')
  end.
Proof. exact PolicyTransform.run_pol_plan. Qed.
Print Assumptions C06_policies_extend_plans.

(* the error paths of the locking call itself, under any policy and from any OS state: either
   the lock request succeeded, or the call failed (or is blocked) and never handed a File out *)
Theorem C06_no_file_without_lock : forall i c fl b pol s,
  match run_pol i c (client_prog fl b) pol [] s with
  | (h', out, _) =>
      In (OFlock (lock_arg_of_flags fl), ROk) h' \/
      ((out = Finished ResErr \/ out = Blocked) /\ forall r0, ~ In (OMark MReturned, r0) h')
  end.
Proof. exact no_file_without_lock. Qed.
Print Assumptions C06_no_file_without_lock.

(* Mutex.Lock: a nil error means LOCK_EX was granted, whatever else failed *)
Theorem C06_mutex_success_means_locked : forall i c pol s,
  match run_pol i c (prog_of_call CMutex) pol [] s with
  | (h', out, _) => out = Finished ResOk -> In (OFlock sys_LOCK_EX, ROk) h'
  end.
Proof. exact mutex_success_means_locked. Qed.
Print Assumptions C06_mutex_success_means_locked.

Theorem C06_write_call_success_means_locked : forall i c (cl : call) pol s,
  lock_mode_of_flags (flags_of_call cl) = Some LEx ->
  match run_pol i c (prog_of_call cl) pol [] s with
  | (h', out, _) =>
      (exists r, out = Finished r /\ r <> ResErr) -> In (OFlock sys_LOCK_EX, ROk) h'
  end.
Proof. exact write_call_success_means_locked. Qed.
Print Assumptions C06_write_call_success_means_locked.

(* every schedule of any number of clients: a call that has returned holds no descriptor *)
Theorem C06_returned_closed : forall cfg f s c r,
  wf_cfg cfg -> reachable cfg f s -> returned s c r -> fds (st_os s) c = None.
Proof. exact returned_closed. Qed.
Print Assumptions C06_returned_closed.

(* the path keeps naming the file that carries the lock: no operation of any program unlinks,
   renames or replaces it — under every policy, and in every schedule *)
Theorem C06_file_never_removed : forall i c p pol h s j,
  files s j <> None ->
  match run_pol i c p pol h s with (_, _, s') => files s' j <> None end.
Proof. exact file_never_removed. Qed.
Print Assumptions C06_file_never_removed.

Theorem C06_file_never_removed_sched : forall cfg f s j,
  reachable cfg f s -> f j <> None -> files (st_os s) j <> None.
Proof. exact file_never_removed_sched. Qed.
Print Assumptions C06_file_never_removed_sched.

(* the structure of the source these programs rely on (regenerated from the AST on every run):
   Read, Write and Transform close the File they acquired before any statement that can return,
   and the unlock function of Mutex.Lock calls Close *)
Theorem C06_api_closes_on_every_path :
  read_closes_on_every_path = true /\ write_closes_on_every_path = true /\
  transform_closes_on_every_path = true /\ mutex_unlock_closes = true.
Proof. exact api_closes_on_every_path. Qed.
Print Assumptions C06_api_closes_on_every_path.


(* the objects a process holds, over histories (Handles.v).  One process makes
   any sequence of OpenFile / Close (also repeated) / drop-the-reference / garbage collection /
   MutexAt / Lock / unlock-function calls; descriptor numbers are reused after close(2). *)

(* the facts about the Go objects the handle model rests on, regenerated from the source: Close
   checks and sets f.closed before closeFile; OpenFile hands out a File it has just allocated; the
   unlock function is exactly mu.mu.Unlock(); f.Close(); mu.mu.Lock() follows the locked open *)
Theorem C06_handle_objects_as_modelled :
  close_checks_closed_first = true /\ openfile_fresh_file = true /\
  mutex_unlock_body_plain = true /\ mutex_inner_lock_after_open = true.
Proof. exact handle_objects_as_modelled. Qed.
Print Assumptions C06_handle_objects_as_modelled.

(* the invariant (descriptors, lock-table entries and unclosed Files correspond one to one)
   holds in every state the process can reach *)
Theorem C06_handle_invariant_reachable : forall f evs, hinv (hrun (hinit f) evs).
Proof. exact hinv_reachable. Qed.
Print Assumptions C06_handle_invariant_reachable.

(* held from the return of the call until Close / the unlock function is CALLED — not until the
   next garbage collection, not until somebody closes a stale File with the same descriptor
   number, not until the reference is dropped: over any history without that call *)
Theorem C06_handle_held_until_close : forall s evs h f,
  hinv s -> nth_error (h_files s) h = Some f -> open_handle f = true ->
  ~ In (HClose h) evs -> ~ In (HMUnlock h) evs ->
  exists f', nth_error (h_files (hrun s evs)) h = Some f' /\ core f' = core f /\
    isopen (fds (h_os (hrun s evs)) (hf_fd f)) = true /\
    holds (hf_fd f) (hf_kind f) (ltab (h_os (hrun s evs)) (hf_ino f)) = true.
Proof. exact handle_held_until_close. Qed.
Print Assumptions C06_handle_held_until_close.

(* ... and released by that call *)
Theorem C06_handle_close_releases : forall s h f,
  hinv s -> h_stuck s = false -> h_panic s = false ->
  nth_error (h_files s) h = Some f -> open_handle f = true -> hf_mutex f = None ->
  let s' := hexec s (HClose h) in
  hresult s (HClose h) s' = HOk /\
  fds (h_os s') (hf_fd f) = None /\
  (forall k, holds (hf_fd f) k (ltab (h_os s') (hf_ino f)) = false) /\
  nth_error (h_files s') h = Some (set_closed f).
Proof. exact handle_close_releases. Qed.
Print Assumptions C06_handle_close_releases.

(* a repeated Close answers with an error and changes NOTHING, whoever owns the number now *)
Theorem C06_handle_second_close_noop : forall s h f,
  nth_error (h_files s) h = Some f -> hf_closed f = true ->
  hexec s (HClose h) = s /\
  (h_stuck s = false -> h_panic s = false -> hf_ok f = true -> hresult s (HClose h) s = HErr).
Proof. exact handle_second_close_noop. Qed.
Print Assumptions C06_handle_second_close_noop.

(* a garbage collection does nothing as long as the caller references what it has not closed *)
Theorem C06_gc_harmless : forall s,
  (forall f, In f (h_files s) -> open_handle f = true -> hf_live f = true) -> hexec s HGC = s.
Proof. exact gc_harmless. Qed.
Print Assumptions C06_gc_harmless.

(* two Files of one process between return and Close on one file are both read-locked *)
Theorem C06_handles_exclusion : forall s h1 h2 f1 f2,
  hinv s -> nth_error (h_files s) h1 = Some f1 -> nth_error (h_files s) h2 = Some f2 ->
  open_handle f1 = true -> open_handle f2 = true -> h1 <> h2 -> hf_ino f1 = hf_ino f2 ->
  hf_kind f1 = LSh /\ hf_kind f2 = LSh.
Proof. exact handles_exclusion. Qed.
Print Assumptions C06_handles_exclusion.

(* what another process's non-blocking probe finds is exactly what the Files between return and
   Close say: free iff there is none on the file, write-locked iff one of them is a write-locker *)
Theorem C06_probe_reads_handles : forall s i, hinv s ->
  (hprobe s i = PFree <->
     forall h f, nth_error (h_files s) h = Some f -> open_handle f = true -> hf_ino f <> i) /\
  (hprobe s i = PExcl <->
     exists h f, nth_error (h_files s) h = Some f /\ open_handle f = true /\ hf_ino f = i /\ hf_kind f = LEx).
Proof. exact probe_reads_handles. Qed.
Print Assumptions C06_probe_reads_handles.

(* one Mutex VALUE locked and unlocked n times, for every n: each Lock is granted at once and the
   file is write-locked, each unlock function frees it, and the Mutex is ready again *)
Theorem C06_mutex_reusable : forall n s m i, mutex_ready s m i ->
  mutex_ready (hrun s (cycles m (length (h_files s)) n)) m i /\
  seen s (cycles m (length (h_files s)) n) i = cycle_view n.
Proof. exact mutex_reusable. Qed.
Print Assumptions C06_mutex_reusable.

(* The SOURCE, translated.  harness/go2coq (world mode) translates lockedfile.go,
   lockedfile_filelock.go, mutex.go and internal/filelock/filelock.go + filelock_unix.go on every
   run into Gen/LockedFileSrc.v: Gallina functions over an ABSTRACT operating system (a record
   [os_ops] of uninterpreted operations on an abstract world).  LockedFile/SrcFacts.v proves them
   equal, for every such record, every world, every argument and every fuel >= 1, to the
   hand-written program terms of this file's theorems run by the interpreter SrcLib.run_prog
   over the same operations: same operations, same order, same arguments, same control flow on
   every result, same returned value.  Premises (SrcLib.v): flock(LOCK_UN) never reports EINTR;
   what fstat says about "regular file" is the static attribute [a] of the model (a := default_attr
   gives the plain model).  LockedFile/SrcTheorems.v runs the translated functions on the model's
   own operating system (SrcModel.model_ops) and restates the release theorems on them. *)
From Coq Require Import ZArith.
From GI Require Import Lib.GoSem Lib.GoSemWorld.
From GI Require Import LockedFile.LockedFileA LockedFile.Policy LockedFile.PolicyCall.
From GI Require Import LockedFile.SrcLib Gen.LockedFileSrc LockedFile.SrcFacts LockedFile.SrcModel LockedFile.SrcTheorems.
Import GoNotations.
Local Open Scope go_scope.

(* filelock.lock: flock is repeated while it reports EINTR, and only then; an error is wrapped in
   a PathError; the model's Retry (OFlock how) is that loop *)
Theorem C06_source_lock_retries_eintr : forall (OS : os_ops) fuel w f how,
  fl_lock OS fuel w f how =
  (x <- flock_retry OS fuel f how w ;; Ok (fst x, lock_err OS how f (snd x))).
Proof. exact lock_eq. Qed.
Print Assumptions C06_source_lock_retries_eintr.

Theorem C06_source_retry_is_the_loop : forall (OS : os_ops) path perm n how f w,
  retry_op OS path perm n (OFlock how) f w =
  (x <- flock_retry OS n f (Z.of_N how) w ;;
   Ok (fst x, f, res_of_err (snd x), lock_err OS (Z.of_N how) f (snd x))).
Proof. exact retry_flock. Qed.
Print Assumptions C06_source_retry_is_the_loop.

(* closeFile: unlock, then close (cl_w1/cl_w2: the worlds after the two calls), the unlock's error
   first; the model's close_prog performs exactly these two operations *)
Theorem C06_source_closeFile : forall OS : os_ops, unlock_no_eintr OS ->
  forall fuel w f, 1 <= fuel ->
  lf_closeFile OS fuel w f = Ok (cl_w2 OS f w, cl_err OS f w).
Proof. exact closeFile_eq. Qed.
Print Assumptions C06_source_closeFile.

Theorem C06_source_close_prog : forall OS : os_ops, unlock_no_eintr OS ->
  forall path perm fuel k f w h e,
  run_prog OS path perm fuel (close_prog k) f w h e =
  run_prog OS path perm fuel k f (cl_w2 OS f w)
    ((OClose, res_of_err (cl_e2 OS f w)) :: (OFlock filelock_unlock_arg, res_of_err (cl_e1 OS f w)) :: h)
    (first_err (first_err e (lock_err OS (Z.of_N filelock_unlock_arg) f (cl_e1 OS f w))) (cl_e2 OS f w)).
Proof. exact run_close. Qed.
Print Assumptions C06_source_close_prog.

(* openFile = the model's open_file_prog (here with the continuation that ends where openFile
   returns): world, handle (nil on failure) and error value (that of the first failing
   operation) are read off the run *)
Theorem C06_source_openFile : forall OS : os_ops, unlock_no_eintr OS ->
  forall a : attr, stat_static OS (a_regular a) ->
  forall fuel w name flags perm f0 h, 1 <= fuel ->
  lf_openFile OS fuel w name (Z.of_N flags) perm =
  (x <- run_prog OS name perm fuel (open_only_a a flags) f0 w h WNil ;; Ok (open_out OS x)).
Proof. exact openFile_eq. Qed.
Print Assumptions C06_source_openFile.

(* the operations openFile performs, oldest first: no open carries O_TRUNC, and a truncation comes
   only after the lock request chosen by openFile's switch has been granted *)
Theorem C06_source_no_truncate_before_lock : forall (OS : os_ops) (a : attr),
  stat_static OS (a_regular a) ->
  forall path perm fuel flags f0 w w' f' h' e' r,
  run_prog OS path perm fuel (open_only_a a flags) f0 w [] WNil = Ok (w', f', h', e', r) ->
  hist_ok (lock_arg_of_flags flags) false (rev h') = true.
Proof. exact open_hist_ok. Qed.
Print Assumptions C06_source_no_truncate_before_lock.

(* the model's open_file_prog with ANY continuation: openFile, then the continuation *)
Theorem C06_source_open_then : forall (OS : os_ops) (a : attr),
  stat_static OS (a_regular a) ->
  forall path perm fuel flags k f0 w h e,
  run_prog OS path perm fuel (open_file_prog_a a flags k) f0 w h e =
  (x <- run_prog OS path perm fuel (open_only_a a flags) f0 w h e ;;
   match x with (w', f', h', e', r) => run_prog OS path perm fuel (k (result_is_ok r)) f' w' h' e' end).
Proof. exact run_open_k. Qed.
Print Assumptions C06_source_open_then.

(* OpenFile: a new File (closed = false) around the handle, or nil and the error *)
Theorem C06_source_OpenFile : forall OS : os_ops, unlock_no_eintr OS ->
  forall a : attr, stat_static OS (a_regular a) ->
  forall fuel w name flags perm f0 h, 1 <= fuel ->
  lf_OpenFile OS fuel w name (Z.of_N flags) perm =
  (x <- run_prog OS name perm fuel (open_only_a a flags) f0 w h WNil ;; Ok (OpenFile_out OS x)).
Proof. exact OpenFile_eq. Qed.
Print Assumptions C06_source_OpenFile.

Theorem C06_source_Open : forall OS : os_ops, unlock_no_eintr OS ->
  forall a : attr, stat_static OS (a_regular a) ->
  forall fuel w name f0 h, 1 <= fuel ->
  lf_Open OS fuel w name =
  (x <- run_prog OS name 0 fuel (open_only_a a open_flags) f0 w h WNil ;; Ok (OpenFile_out OS x)).
Proof. exact Open_eq. Qed.
Print Assumptions C06_source_Open.

Theorem C06_source_Create : forall OS : os_ops, unlock_no_eintr OS ->
  forall a : attr, stat_static OS (a_regular a) ->
  forall fuel w name f0 h, 1 <= fuel ->
  lf_Create OS fuel w name =
  (x <- run_prog OS name 438 fuel (open_only_a a create_flags) f0 w h WNil ;; Ok (OpenFile_out OS x)).
Proof. exact Create_eq. Qed.
Print Assumptions C06_source_Create.

Theorem C06_source_Edit : forall OS : os_ops, unlock_no_eintr OS ->
  forall a : attr, stat_static OS (a_regular a) ->
  forall fuel w name f0 h, 1 <= fuel ->
  lf_Edit OS fuel w name =
  (x <- run_prog OS name 438 fuel (open_only_a a edit_flags) f0 w h WNil ;; Ok (OpenFile_out OS x)).
Proof. exact Edit_eq. Qed.
Print Assumptions C06_source_Edit.

(* (File).Close: the two operations of closeFile and the flag; a second Close performs no
   operation and reports an error *)
Theorem C06_source_File_Close : forall OS : os_ops, unlock_no_eintr OS ->
  forall fuel w f, 1 <= fuel ->
  lf_File_Close OS fuel w (file_of OS f false) = Ok (cl_w2 OS f w, file_of OS f true, cl_err OS f w).
Proof. exact File_Close_eq. Qed.
Print Assumptions C06_source_File_Close.

Theorem C06_source_second_Close : forall (OS : os_ops) fuel w f,
  exists e, lf_File_Close OS fuel w (file_of OS f true) = Ok (w, file_of OS f true, e) /\
            werr_is_nil e = false.
Proof. exact File_Close_closed. Qed.
Print Assumptions C06_source_second_Close.

(* Mutex.Lock followed by the unlock function it returned = the model's CMutex program; the
   Mutex value is as before; an empty Path panics *)
Theorem C06_source_Mutex : forall OS : os_ops, unlock_no_eintr OS ->
  forall a : attr, stat_static OS (a_regular a) ->
  forall fuel w (mu : lf_Mutex) f0 h, 1 <= fuel ->
  lf_Mutex_Path mu <> [] -> lf_Mutex_mu mu = false ->
  mutex_cycle OS fuel w mu =
  (x <- run_prog OS (lf_Mutex_Path mu) 438 fuel (prog_of_call_a a CMutex) f0 w h WNil ;;
   match x with (w', _, _, _, r) => Ok (w', mu, r) end).
Proof. exact Mutex_eq. Qed.
Print Assumptions C06_source_Mutex.

Theorem C06_source_Mutex_empty_path_panics : forall (OS : os_ops) fuel w (mu : lf_Mutex),
  lf_Mutex_Path mu = [] -> lf_Mutex_Lock OS fuel w mu = Panic.
Proof. exact Mutex_Lock_empty_path. Qed.
Print Assumptions C06_source_Mutex_empty_path_panics.

(* the translated functions run on the MODEL's operating system under any fault policy pol' (over
   the history of the operations really made), from any OS state in which the caller has no
   descriptor (others may hold locks): if the call returns, the caller holds no descriptor and no
   lock on the file; OutOfFuel = the lock request blocks for ever; never a panic *)
Theorem C06_source_read_released : forall i c pol' s fuel name, 1 <= fuel ->
  fds s c = None -> locked c (ltab s i) = None -> refs s c = 0 ->
  match lf_Read (model_ops i c pol') fuel (s, []) name with
  | Ok (w', _, _) => released i c (fst w')
  | OutOfFuel => True
  | Panic => False
  end.
Proof. exact source_read_released. Qed.
Print Assumptions C06_source_read_released.

Theorem C06_source_write_released : forall i c pol' s fuel name content perm, 1 <= fuel ->
  fds s c = None -> locked c (ltab s i) = None -> refs s c = 0 ->
  match lf_Write (model_ops i c pol') fuel (s, []) name content perm with
  | Ok (w', _) => released i c (fst w')
  | OutOfFuel => True
  | Panic => False
  end.
Proof. exact source_write_released. Qed.
Print Assumptions C06_source_write_released.

Theorem C06_source_transform_released : forall i c pol' s fuel name t, 1 <= fuel ->
  fds s c = None -> locked c (ltab s i) = None -> refs s c = 0 ->
  match lf_Transform (model_ops i c pol') fuel (s, []) name t with
  | Ok (w', _) => released i c (fst w')
  | OutOfFuel => True
  | Panic => False
  end.
Proof. exact source_transform_released. Qed.
Print Assumptions C06_source_transform_released.

Theorem C06_source_mutex_released : forall i c pol' s fuel (mu : lf_Mutex), 1 <= fuel ->
  lf_Mutex_Path mu <> [] -> lf_Mutex_mu mu = false ->
  fds s c = None -> locked c (ltab s i) = None -> refs s c = 0 ->
  match mutex_cycle (model_ops i c pol') fuel (s, []) mu with
  | Ok (w', mu', _) => released i c (fst w') /\ mu' = mu
  | OutOfFuel => True
  | Panic => False
  end.
Proof. exact source_mutex_released. Qed.
Print Assumptions C06_source_mutex_released.

(* the premises of the equalities are satisfiable: the model's operating system *)
Theorem C06_source_premises_hold_on_model : forall i c pol',
  unlock_no_eintr (model_ops i c pol') /\ stat_static (model_ops i c pol') (a_regular default_attr).
Proof. exact (fun i c pol' => conj (model_unlock_no_eintr i c pol') (model_stat_static i c pol')). Qed.
Print Assumptions C06_source_premises_hold_on_model.


(* callbacks that do not return.  Transform runs the caller's t under the write
   lock; t may return, fail, panic (recovered above Transform) or call runtime.Goexit.  Go runs
   deferred calls in all four cases and the statements after t's call only in the first two
   (after_callback: that rule, trusted reading of the language specification); the source DEFERS
   the Close in Transform and Read (regenerated from the AST on every run) ... *)
Theorem C06_close_is_deferred :
  transform_defers_close = true /\ read_defers_close = true.
Proof. exact close_is_deferred. Qed.
Print Assumptions C06_close_is_deferred.

(* ... hence, however the callback ends, the history of the process continues with the Close of
   Transform's handle: descriptor closed, no lock of any kind left on the file (the runner's
   holdseq `call` steps make such calls for real and compare the probe of another process with
   the handle model run over exactly these events) *)
Theorem C06_transform_releases_however_callback_ends : forall s h f e,
  hinv s -> h_stuck s = false -> h_panic s = false ->
  nth_error (h_files s) h = Some f -> open_handle f = true -> hf_mutex f = None ->
  let s' := hrun s (after_callback transform_defers_close h e) in
  fds (h_os s') (hf_fd f) = None /\
  (forall k, holds (hf_fd f) k (ltab (h_os s') (hf_ino f)) = false) /\
  nth_error (h_files s') h = Some (set_closed f).
Proof. exact transform_releases_however_callback_ends. Qed.
Print Assumptions C06_transform_releases_however_callback_ends.
