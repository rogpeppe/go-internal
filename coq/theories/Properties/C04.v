(* C04 — testscript runs are isolated from each other and leave nothing behind.
   Only the property theorems, each closed by [exact] of a lemma of TsBatch/TsBatchFacts.v,
   TsCleanupFacts.v or SrcFacts.v, or derived in a line or two from a more general lemma there, with
   Print Assumptions beneath.  [run cfg progs (init progs) sched] is the state of a batch of
   scripts [progs] after the interleaving [sched] (a list of script indices, one atomic step of
   that script each); every statement is for all batches and all schedules. *)
From Coq Require Import List Bool Arith.
From Coq.Strings Require Import Byte.
From GI Require Import Lib.Bytes Gen.TsBatchConsts TsBatch.TsBatch TsBatch.TsBatchFacts TsBatch.TsCleanup TsBatch.TsCleanupFacts.
Import ListNotations.

(* The environment a script starts with is setup()'s list: the documented names (generated from
   the source), the pass-through variables that are set, "exe" - filtered by Setup's allow-list if it
   has one - then Setup's additions; without a filter it is exactly that list; every name in it is a
   documented one (on the allow-list) or one of Setup's; and it is the same for every host environment
   that agrees on the variables setup() reads. *)
Theorem C04_env_from_scratch : forall cfg progs sched s p ss e t o,
  nth_error progs s = Some p -> nth_error (scripts (run cfg progs (init progs) sched)) s = Some ss ->
  In (EvSetup e t o) (obs ss) ->
  e = setup_env (hostenv cfg) s (setup_keep p) (setup_adds p)
  /\ (setup_keep p = None ->
      map fst e = map fst setup_env_head ++ passthrough_present (hostenv cfg) ++ map fst setup_env_tail ++ map fst (setup_adds p))
  /\ (forall k, In k (map fst e) ->
        (In k (map fst setup_env_head ++ passthrough_present (hostenv cfg) ++ map fst setup_env_tail)
         /\ match setup_keep p with Some l => name_in l k = true | None => True end)
        \/ In k (map fst (setup_adds p)))
  /\ (forall h', (forall n, In n host_reads -> host_get h' n = host_get (hostenv cfg) n) ->
                 setup_env h' s (setup_keep p) (setup_adds p) = e).
Proof. exact env_from_scratch. Qed.
Print Assumptions C04_env_from_scratch.

(* A host variable setup() does not read is invisible, whatever its value and whatever Setup filters. *)
Theorem C04_other_host_variables_invisible : forall h s keep adds k v,
  ~ In k host_reads -> setup_env ((k, v) :: h) s keep adds = setup_env h s keep adds.
Proof. intros h s keep adds k v Hk. apply setup_env_indep. intro n. now apply host_get_cons_unread. Qed.
Print Assumptions C04_other_host_variables_invisible.

(* A Setup that keeps nothing (an allow-list without a match, Env.Vars = nil) leaves exactly what it adds. *)
Theorem C04_setup_that_keeps_nothing : forall h s adds, setup_env h s (Some []) adds = adds.
Proof. exact setup_env_keep_nothing. Qed.
Print Assumptions C04_setup_that_keeps_nothing.

(* What a program started by the script sees - provided exec and execBackground pass
   append(ts.env, "PWD="+ts.cd), which is what the generated constant says about the source now: the
   script's own list followed by PWD.  The list is never empty (os/exec never substitutes the
   environment of the test process), PWD is the directory the program runs in whatever the script set
   PWD to, every other name has the script's value. *)
Theorem C04_child_env_from_scratch : forall cfg s cd e,
  pwd_appended cfg = exec_env_appends_pwd ->
  child_env cfg s cd e = e ++ [(PWD, VWork s cd)]
  /\ child_env cfg s cd e <> []
  /\ env_get (child_env cfg s cd e) PWD = Some (VWork s cd)
  /\ (forall k, bytes_eqb PWD k = false -> env_get (child_env cfg s cd e) k = env_get e k).
Proof. exact child_env_scratch. Qed.
Print Assumptions C04_child_env_from_scratch.

(* That is what a probe (a foreground exec) records. *)
Theorem C04_probe_sees_child_env : forall cfg s c ss,
  pwd_appended cfg = exec_env_appends_pwd ->
  exec_action cfg s c ss AProbe
  = (c, add_obs ss [EvProbe (cwd ss) (senv ss ++ [(PWD, VWork s (cwd ss))]) (tr ss)], OCont).
Proof. intros cfg s c ss H. cbn [exec_action]. now rewrite (proj1 (child_env_scratch cfg s (cwd ss) (senv ss) H)). Qed.
Print Assumptions C04_probe_sees_child_env.

(* Right after setup the names a program can see are documented ones (on Setup's allow-list), Setup's
   own, and PWD: no other variable of the host, whatever Setup filters - nothing at all included. *)
Theorem C04_child_env_names_after_setup : forall cfg s p k,
  pwd_appended cfg = exec_env_appends_pwd ->
  In k (map fst (child_env cfg s [] (setup_env (hostenv cfg) s (setup_keep p) (setup_adds p)))) ->
  (In k (documented_names (hostenv cfg)) /\ match setup_keep p with Some l => name_in l k = true | None => True end)
  \/ In k (map fst (setup_adds p)) \/ k = PWD.
Proof.
  intros cfg s p k H Hin. rewrite (proj1 (child_env_scratch cfg s [] _ H)), map_app, in_app_iff in Hin.
  destruct Hin as [Hin|[<-|[]]]; [destruct (setup_env_names _ _ _ _ _ Hin); auto | auto].
Qed.
Print Assumptions C04_child_env_names_after_setup.

(* With ts.env handed over as it is, it is false: a Setup that keeps nothing makes every program
   inherit the environment of the test process. *)
Theorem C04_child_env_without_pwd_refuted :
  exists cfg p s canary v,
    pwd_appended cfg = false /\ ~ In canary host_reads /\
    env_get (child_env cfg s [] (setup_env (hostenv cfg) s (setup_keep p) (setup_adds p))) canary = Some (VLit v)
    /\ v <> [].
Proof. exact child_env_without_pwd_refuted. Qed.
Print Assumptions C04_child_env_without_pwd_refuted.

(* $WORK after setup holds exactly the archive's files (the last entry of a name wins; an entry named
   $WORK/p is the file p), the directories leading to them, and .tmp; nothing is unpacked outside
   and no entry name leaves the work directory — provided setup() expands the entry names with the
   initial environment and refuses names that are not below $WORK, which is what the generated
   constants say about the source now. *)
Theorem C04_workdir_exact : forall cfg progs sched s p ss e t o,
  names_see_env cfg = entry_names_see_env -> names_contained cfg = entry_names_contained ->
  nth_error progs s = Some p -> nth_error (scripts (run cfg progs (init progs) sched)) s = Some ss ->
  In (EvSetup e t o) (obs ss) ->
  o = [] /\ esc_index p = None /\ forall q, tree_get t q = expected_node (archive p) q.
Proof. exact workdir_exact. Qed.
Print Assumptions C04_workdir_exact.

(* A script whose archive has an entry name that leaves the work directory (../x, /abs/x, $HOME/x)
   fails in setup: no Setup event, nothing written outside, the exit path of a setup failure. *)
Theorem C04_escaping_entry_name_fails_setup : forall cfg p s c,
  names_contained cfg = entry_names_contained -> esc_index p <> None ->
  exists t, snd (fst (sstep cfg p s c sstate0))
            = {| ph := Ending VSetupFail SDefers; cwd := []; senv := []; tr := t; wpresent := true;
                 dstack := []; bgl := []; failedf := false; obs := [] |}.
Proof. exact escaping_name_fails_setup. Qed.
Print Assumptions C04_escaping_entry_name_fails_setup.

(* With such names written where they say (the code before the repair) it is false. *)
Theorem C04_uncontained_entry_names_refuted :
  exists cfg p ss e t o,
    names_contained cfg = false /\ names_see_env cfg = true /\
    snd (fst (sstep cfg p 0 [] sstate0)) = ss /\ In (EvSetup e t o) (obs ss) /\ o <> [].
Proof. exact uncontained_names_refuted. Qed.
Print Assumptions C04_uncontained_entry_names_refuted.

(* With the entry names expanded while the environment is still empty (the code before the repair)
   it is false: a file named $WORK/f lands outside the work directory. *)
Theorem C04_unexpanded_entry_names_refuted :
  exists cfg p ss e t o,
    names_see_env cfg = false /\
    snd (fst (sstep cfg p 0 [] sstate0)) = ss /\ In (EvSetup e t o) (obs ss) /\
    o <> [] /\ exists q, tree_get t q <> expected_node (archive p) q.
Proof. exact unexpanded_names_refuted. Qed.
Print Assumptions C04_unexpanded_entry_names_refuted.

(* Frame: a step of script s changes no other script's component ... *)
Theorem C04_frame : forall cfg progs st s s',
  s <> s' -> nth_error (scripts (step cfg progs st s)) s' = nth_error (scripts st) s'.
Proof. exact step_frame. Qed.
Print Assumptions C04_frame.

(* ... and touches root, reference count and cancel only when it is the step that finishes s. *)
Theorem C04_frame_shared : forall cfg progs st s,
  let st' := step cfg progs st s in
  (forall ss ss', nth_error (scripts st) s = Some ss -> nth_error (scripts st') s = Some ss' ->
                  is_done ss' = is_done ss) ->
  retain cfg = false ->
  root_present (sh st') = root_present (sh st) /\ refcount (sh st') = refcount (sh st)
  /\ cancelled (sh st') = cancelled (sh st) /\ root_removals (sh st') = root_removals (sh st).
Proof. exact step_shared_frame. Qed.
Print Assumptions C04_frame_shared.

(* Under every schedule each script is, after its k-th own step, in exactly the state it is in
   after k steps run alone (verdict, cwd, environment, files, deferred functions, background
   processes, everything observed) — provided the key of execCache is the one the source has now
   and it mentions PATH. *)
Theorem C04_interleaving_irrelevant : forall cfg progs sched s p,
  key_by_path cfg = exec_cache_key_has_path ->
  (forall s p, nth_error progs s = Some p -> wf_script s p) ->
  nth_error progs s = Some p ->
  nth_error (scripts (run cfg progs (init progs) sched)) s
  = Some (snd (alone cfg p s (count_occ Nat.eq_dec sched s))).
Proof. exact interleaving_irrelevant. Qed.
Print Assumptions C04_interleaving_irrelevant.

(* For scripts without [exec:...] conditions the same holds whatever the key of the cache. *)
Theorem C04_interleaving_irrelevant_without_exec_conditions : forall cfg progs sched s p,
  nth_error progs s = Some p -> script_uses_cond p = false ->
  nth_error (scripts (run cfg progs (init progs) sched)) s
  = Some (snd (alone cfg p s (count_occ Nat.eq_dec sched s))).
Proof. exact interleaving_irrelevant_nocond. Qed.
Print Assumptions C04_interleaving_irrelevant_without_exec_conditions.

(* With the cache keyed by program name only (the code before the repair) it is false: two
   scripts, two schedules, different verdicts. *)
Theorem C04_program_only_key_refuted :
  exists cfg progs sched1 sched2 s,
    key_by_path cfg = false /\ (forall s p, nth_error progs s = Some p -> wf_script s p) /\
    (forall s', s' < length progs -> option_map is_done (nth_error (scripts (run cfg progs (init progs) sched1)) s') = Some true
                                     /\ option_map is_done (nth_error (scripts (run cfg progs (init progs) sched2)) s') = Some true) /\
    verdict_of (run cfg progs (init progs) sched1) s <> verdict_of (run cfg progs (init progs) sched2) s.
Proof. exact prog_only_key_refuted. Qed.
Print Assumptions C04_program_only_key_refuted.

(* On every exit path (any verdict v: pass, fail, skip, stop, setup failure, panic) the deferred
   functions have run in reverse registration order, each exactly once, also when one panics. *)
Theorem C04_defers_lifo_all_paths : forall cfg progs sched s p ss v,
  nth_error progs s = Some p -> nth_error (scripts (run cfg progs (init progs) sched)) s = Some ss ->
  ph ss = Done v ->
  defer_runs (obs ss) = rev (defer_regs (obs ss)) /\ dstack ss = [].
Proof. exact defers_lifo_all_paths. Qed.
Print Assumptions C04_defers_lifo_all_paths.

(* On every exit path the background list ends empty and every command started is gone (it was
   interrupted, or is of the kind that exits by itself) and has been waited for. *)
Theorem C04_no_bg_left : forall cfg progs sched s p ss v,
  nth_error progs s = Some p -> nth_error (scripts (run cfg progs (init progs) sched)) s = Some ss ->
  ph ss = Done v ->
  bgl ss = [] /\ forall h, In h (bg_started (obs ss)) -> In h (bg_gone (obs ss)) /\ In h (bg_waited (obs ss)).
Proof. exact no_bg_left. Qed.
Print Assumptions C04_no_bg_left.

(* Deferred functions that do not return (they panic, or fail / skip the test through its T; for
   ts.Fatalf see below) change
   the verdict only: a failure is never lost - a run that failed, or one of whose deferred functions
   calls FailNow / Fatal, ends as a failure or a panic whatever the other functions do - and
   functions that all return leave the verdict alone.  (That they all run, in reverse order, and that
   every background command is still interrupted and waited for, is the two theorems above: they hold
   for every script, these kinds of function and T.Skip / T.FailNow called by custom commands included.) *)
Theorem C04_deferred_functions_cannot_hide_failure : forall d v,
  (v = VFail \/ v = VSetupFail \/ exists x, In x d /\ defer_end x = DFailNow) ->
  is_failure (defers_verdict d v) = true.
Proof. exact defers_verdict_keeps_failure. Qed.
Print Assumptions C04_deferred_functions_cannot_hide_failure.

Theorem C04_returning_deferred_functions_keep_verdict : forall d v,
  (forall x, In x d -> defer_end x = DRet) -> defers_verdict d v = v.
Proof. intros d v H. unfold defers_verdict, defers_verdict_gen. now rewrite fold_after_defer_ret, verdict_of_marks_same. Qed.
Print Assumptions C04_returning_deferred_functions_keep_verdict.

(* The step of run() that runs the deferred functions: whatever they do, each of them runs, most
   recent first, the stack is emptied and nothing else of the script changes - environment, files,
   background commands (dealt with next, as on every path); only the verdict depends on how they end. *)
Theorem C04_deferred_functions_step : forall cfg p s c ss v,
  ph ss = Ending v SDefers ->
  sstep cfg p s c ss
  = (c, set_ph (set_dstack (add_obs ss (map (fun d => EvDeferRun (fst d)) (dstack ss))) []) (Ending (defers_verdict (dstack ss) v) SBgClean), NoEffect).
Proof. exact sstep_defers. Qed.
Print Assumptions C04_deferred_functions_step.

(* A deferred function that ends with ts.Fatalf / ts.Check(err) fails the run and changes nothing else:
   run() catches the failNow panic when the chain is through (generated constant
   deferred_failnow_caught) and calls t.FailNow().  With functions that return or end that way, at least
   one of the latter, the step is the one above with the verdict of a failed run - whatever the verdict
   was going to be - so the functions have all run in reverse order and the script goes on to the same
   clean-up as after a failing line (C04_no_bg_left, C04_refcount_root). *)
Theorem C04_fatalf_in_deferred_function_fails_the_run : forall cfg p s c ss v,
  ph ss = Ending v SDefers ->
  (forall x, In x (dstack ss) -> defer_end x = DRet \/ defer_end x = DFatalf) ->
  (exists x, In x (dstack ss) /\ defer_end x = DFatalf) ->
  sstep cfg p s c ss
  = (c, set_ph (set_dstack (add_obs ss (map (fun d => EvDeferRun (fst d)) (dstack ss))) []) (Ending (failed_verdict v) SBgClean), NoEffect).
Proof. intros cfg p s c ss v H A E. now rewrite (sstep_defers _ _ _ _ _ _ H), (defers_verdict_fatalf _ _ A E). Qed.
Print Assumptions C04_fatalf_in_deferred_function_fails_the_run.

(* Without the catch (the code before the repair) it is false: the failNow panic escapes RunT. *)
Theorem C04_uncaught_fatalf_refuted :
  exists d v, (forall x, In x d -> defer_end x = DRet \/ defer_end x = DFatalf) /\ v = VPass /\
    defers_verdict_gen false d v = VPanic /\ defers_verdict_gen true d v = VFail.
Proof. exact uncaught_fatalf_refuted. Qed.
Print Assumptions C04_uncaught_fatalf_refuted.

(* A custom command that ends the run through the T it got from Env.T() (Skip, FailNow, Fatal) sends
   the script straight to its deferred functions, background commands untouched; the end of run()
   deals with them as on every other exit path (C04_no_bg_left). *)
Theorem C04_run_ended_through_t : forall cfg p s c ss pc a,
  ph ss = Running pc -> nth_error (body p) pc = Some a -> (a = ATSkip \/ a = ATFail) ->
  sstep cfg p s c ss = (c, set_ph ss (Ending (match a with ATSkip => VSkip | _ => VFail end) SDefers), NoEffect).
Proof. exact ended_through_t. Qed.
Print Assumptions C04_run_ended_through_t.

(* Without retention: the count is the number of unfinished scripts; the root is there (never
   removed, context not cancelled) while a script is unfinished, and has been removed exactly once,
   and the context cancelled, when all are finished; a finished script's work directory is gone. *)
Theorem C04_refcount_root : forall cfg progs sched,
  retain cfg = false -> progs <> [] ->
  let st := run cfg progs (init progs) sched in
  refcount (sh st) = not_done_count (scripts st)
  /\ (all_done st = false -> root_present (sh st) = true /\ root_removals (sh st) = 0 /\ cancelled (sh st) = false)
  /\ (all_done st = true -> root_present (sh st) = false /\ root_removals (sh st) = 1 /\ cancelled (sh st) = has_cancel cfg)
  /\ (forall s ss, nth_error (scripts st) s = Some ss -> is_done ss = true -> wpresent ss = false /\ tr ss = []).
Proof. exact refcount_root. Qed.
Print Assumptions C04_refcount_root.

(* RunT called without any script (Params.Files non-nil and empty) removes the root at once — what
   the source does now according to the generated constant; refuted for the code before. *)
Theorem C04_empty_batch_leaves_nothing : forall cfg,
  empty_cleans cfg = empty_batch_removes_root -> retain cfg = false ->
  root_present (sh (start cfg [])) = false /\ root_removals (sh (start cfg [])) = 1
  /\ cancelled (sh (start cfg [])) = has_cancel cfg.
Proof. exact empty_batch_leaves_nothing. Qed.
Print Assumptions C04_empty_batch_leaves_nothing.

Theorem C04_empty_batch_refuted :
  exists cfg, empty_cleans cfg = false /\ retain cfg = false /\ root_present (sh (start cfg [])) = true.
Proof. exact empty_batch_refuted. Qed.
Print Assumptions C04_empty_batch_refuted.

(* With retention (TestWork, -testwork, WorkdirRoot) nothing is removed. *)
Theorem C04_retention_keeps_everything : forall cfg progs sched,
  retain cfg = true ->
  let st := run cfg progs (init progs) sched in
  root_present (sh st) = true /\ root_removals (sh st) = 0 /\ cancelled (sh st) = false
  /\ (forall s ss, nth_error (scripts st) s = Some ss -> ph ss <> NotStarted ->
                   wpresent ss = true /\ work_removed (obs ss) = []).
Proof. exact retention_keeps_everything. Qed.
Print Assumptions C04_retention_keeps_everything.

(* removeAll (chmod pass, then RemoveAll) removes every tree, read-only directories included. *)
Theorem C04_remove_all_removes_everything : forall root t, remove_all root t = [].
Proof. exact remove_all_empty. Qed.
Print Assumptions C04_remove_all_removes_everything.

(* No exit path gets stuck: a script that has been scheduled steps_bound times is finished — or it sits
   in a bare `wait` for a background command that is still running and that nothing has signalled,
   which is for ever, in the code as in the model. *)
Theorem C04_every_script_finishes : forall cfg progs sched s p,
  nth_error progs s = Some p -> steps_bound p <= count_occ Nat.eq_dec sched s ->
  exists ss, nth_error (scripts (run cfg progs (init progs) sched)) s = Some ss /\ (is_done ss = true \/ ph ss = Stuck).
Proof.
  intros cfg progs sched s p Hp Hb. destruct (script_finishes cfg progs sched s p Hp Hb) as (ss & Hs & [D|[S _]]); eauto.
Qed.
Print Assumptions C04_every_script_finishes.

Theorem C04_every_script_without_bare_wait_finishes : forall cfg progs sched s p,
  nth_error progs s = Some p -> script_has_wait p = false -> steps_bound p <= count_occ Nat.eq_dec sched s ->
  exists ss, nth_error (scripts (run cfg progs (init progs) sched)) s = Some ss /\ is_done ss = true.
Proof.
  intros cfg progs sched s p Hp Hw Hb. destruct (script_finishes cfg progs sched s p Hp Hb) as (ss & Hs & [D|[_ W]]);
    [eauto | congruence].
Qed.
Print Assumptions C04_every_script_without_bare_wait_finishes.

(* A foreground exec of a bare name is decided by the script's own PATH; with PATH replaced by a
   directory below $WORK no program of the host can be run, whatever the host has installed. *)
Theorem C04_exec_uses_script_path : forall cfg s c ss neg prog,
  exec_action cfg s c ss (AExec neg prog)
  = (c, ss, if Bool.eqb (look cfg s (tr ss) (path_value (senv ss)) prog) neg then OFail else OCont).
Proof. exact exec_outcome. Qed.
Print Assumptions C04_exec_uses_script_path.

Theorem C04_narrowed_path_hides_host_programs : forall cfg cfg' s t sub prog,
  look cfg s t (VOwnPath s sub None) prog = is_exec t (sub ++ [prog]) /\
  look cfg s t (VOwnPath s sub None) prog = look cfg' s t (VOwnPath s sub None) prog.
Proof. exact narrowed_path_hides_host. Qed.
Print Assumptions C04_narrowed_path_hides_host_programs.

(* the whole file system (TsCleanup.v): a table of absolute paths with permission bits and symbolic
   links whose targets may be anywhere (a file of the host, a sibling's work directory, nowhere, a
   loop).  [remove_all_now root mine fs dir] is removeAll(dir) as the source has it now (the generated
   constant says whether the chmod pass is for directories only), run by root or by the owner of the
   paths below [mine]. *)

(* Cleaning up a work directory (and `rm`) changes nothing outside it: not the mode, content or
   existence of any path that is not at or below the directory — whatever the tree holds. *)
Theorem C04_cleanup_touches_only_workdir : forall root mine fs dir p,
  path_prefix dir p = false -> gget (remove_all_now root mine fs dir) p = gget fs p.
Proof. exact cleanup_touches_only_workdir. Qed.
Print Assumptions C04_cleanup_touches_only_workdir.

(* The same for the two-pass algorithm itself, whenever the mode is changed for directories only ... *)
Theorem C04_chmod_of_directories_only_is_contained : forall root mine fs dir p,
  path_prefix dir p = false -> gget (remove_all_at true root mine fs dir) p = gget fs p.
Proof. exact remove_all_frame. Qed.
Print Assumptions C04_chmod_of_directories_only_is_contained.

(* ... and false when os.Chmod is applied to every entry: it follows a link out of the directory. *)
Theorem C04_chmod_of_every_entry_refuted :
  exists root mine fs dir p,
    path_prefix dir p = false /\ gget (remove_all_at false root mine fs dir) p <> gget fs p.
Proof. exact chmod_every_entry_refuted. Qed.
Print Assumptions C04_chmod_of_every_entry_refuted.

(* Everything at or below the directory is gone afterwards: for root whatever the modes, for the
   owner provided the directory that holds it is writable (read-only directories inside are dealt
   with by the chmod pass). *)
Theorem C04_cleanup_removes_everything_as_root : forall dirs_only mine fs dir p,
  path_prefix dir p = true -> gget (remove_all_at dirs_only true mine fs dir) p = None.
Proof. intros dirs_only mine fs dir p P. apply remove_all_removes; [exact P | intros; apply root_can_unlink]. Qed.
Print Assumptions C04_cleanup_removes_everything_as_root.

Theorem C04_cleanup_removes_everything_as_owner : forall mine fs dir p,
  dir <> [] -> (forall q, path_prefix dir q = true -> can_chmod false mine q = true) ->
  g_unremovable false fs dir = false ->
  path_prefix dir p = true -> gget (remove_all_at true false mine fs dir) p = None.
Proof.
  intros mine fs dir p Hne Hown Hpar P. apply remove_all_removes; [exact P | intros q Pq; now apply owner_can_unlink].
Qed.
Print Assumptions C04_cleanup_removes_everything_as_owner.

(* `rm q`, whether it succeeds or fails, changes nothing that is not at or below q ... *)
Theorem C04_rm_touches_only_its_argument : forall root t q p,
  path_prefix q p = false -> tree_get (rm_tree (rm_path root t q)) p = tree_get t p.
Proof. exact rm_frame. Qed.
Print Assumptions C04_rm_touches_only_its_argument.

(* ... and when it succeeds on something that exists nothing is left at or below q. *)
Theorem C04_rm_removes_the_subtree : forall root t q t' n p,
  rm_path root t q = RmOk t' -> tree_get t q = Some n -> path_prefix q p = true -> tree_get t' p = None.
Proof. exact rm_ok_removes. Qed.
Print Assumptions C04_rm_removes_the_subtree.

(* `symlink q -> target` adds the link and nothing else. *)
Theorem C04_symlink_adds_only_the_link : forall root t q tg t',
  symlink_at root t q tg = Some t' ->
  tree_get t q = None /\ forall p, tree_get t' p = if path_eqb q p then Some (Link tg) else tree_get t p.
Proof. exact symlink_exact. Qed.
Print Assumptions C04_symlink_adds_only_the_link.

From GI Require Lib.GoSem Lib.GoSemState TsBatch.SrcLib TsBatch.Names Gen.TsBatchSrc TsBatch.SrcFacts.

(* the source itself: the statements of RunT that name a script (from filepath.Base(file) to
   names[name] = true), translated on every run by harness/go2coq (Gen/TsBatchSrc.v), are the
   model TsBatch/Names.v (TsBatch/SrcFacts.v).  [l] is the map names (newest binding first),
   [Names.cand prefix i] the i-th candidate: prefix, prefix#1, prefix#2, ... *)

(* With fuel for (bindings of the map) + 2 tests the translated segment never panics and never
   runs out of fuel: it records and returns the first candidate that is not in the map. *)
Theorem C04_source_name_is_first_free_candidate : forall fuel l file, length l + 2 <= fuel ->
  exists i, i <= length l + 1 /\
    TsBatchSrc.src_RunT_name fuel (Some l) file =
      GoSem.Ok (GoSem.Normal (Some ((Names.cand (Names.script_prefix file) i, true) :: l),
                              Names.cand (Names.script_prefix file) i)) /\
    Names.taken l (Names.cand (Names.script_prefix file) i) = false /\
    forall i', i' < i -> Names.taken l (Names.cand (Names.script_prefix file) i') = true.
Proof.
  intros fuel l file Hf. destruct (TsBatch.SrcFacts.pick_total l (Names.script_prefix file)) as (i & Hi & P & Fi & B).
  exists i. split; [exact Hi|]. split; [now apply TsBatch.SrcFacts.src_name_eq | now split].
Qed.
Print Assumptions C04_source_name_is_first_free_candidate.

(* The names of a batch (the translated segment for each file in turn, the map handed on) are
   the model's. *)
Theorem C04_source_batch_names : forall fuel files l, length l + length files + 1 <= fuel ->
  TsBatch.SrcFacts.src_batch_names fuel (Some l) files = GoSem.Ok (Names.assign l files).
Proof. exact TsBatch.SrcFacts.src_batch_names_eq. Qed.
Print Assumptions C04_source_batch_names.

(* "Distinct scripts get distinct work directories" starts here: whatever the files are called
   (a/foo.txt, b/foo.txtar, c/foo#1.txt ...), the names one RunT call gives its scripts -- the
   subtest names and the script-<name> directories -- are pairwise distinct. *)
Theorem C04_source_names_distinct : forall fuel files, length files + 1 <= fuel ->
  exists names, TsBatch.SrcFacts.src_batch_names fuel (Some []) files = GoSem.Ok names /\
                length names = length files /\ NoDup names.
Proof.
  intros fuel files Hf. exists (Names.assign [] files). split; [now apply TsBatch.SrcFacts.src_batch_names_eq|].
  split; [apply TsBatch.SrcFacts.assign_length | apply TsBatch.SrcFacts.assign_NoDup].
Qed.
Print Assumptions C04_source_names_distinct.
