(* C09 — par.Work runs every item exactly once and returns only when all are done.
   This file contains only the property theorems, each closed by a lemma proved in Par/ParWorkProofs.v (one Work)
   or Par/ParWorkMultiProofs.v (several), with Print Assumptions beneath it.  [reachable n children inits s]: s is
   reached from the state right after Do's prologue (n runners at the loop head, the initial
   Adds done) by some schedule of atomic steps; every theorem is for all n >= work_do_min_n,
   all item graphs [children], all initial items and all schedules.

   The second half is about SEVERAL Work values in one program (Par/ParWorkMulti.v).  [wreachable cfgs ws]: the world
   ws of Work objects with configurations cfgs (object k: Do(wn), item graph wchildren, initial Adds winits; wU a finite
   universe of its items) is reached from all objects freshly filled by some interleaving of steps of the objects --
   used one after the other, filled together, run concurrently: all are such interleavings.  [nreachable n children
   inits inner ns]: ns is reached by the program in which f(i) of the outer Work, after its Adds, runs the fresh inner
   Work [inner i] and returns when that Do returned.  [good cf]: n >= work_do_min_n and wU is duplicate-free, contains
   the initial items and is closed under children. *)
From Coq Require Import List Arith.
From GI Require Import Gen.ParConsts Par.ParWork Par.ParWorkProofs.
From GI Require Import Par.ParWorkMulti Par.ParWorkMultiProofs.
Import ListNotations.

Theorem C09_runner_count : forall n, work_do_min_n <= n ->
  work_do_spawned n + work_do_inline_runners = n /\ work_running_is_n = true.
Proof. exact runner_count. Qed.
Print Assumptions C09_runner_count.

Theorem C09_add_signals_per_item : work_add_signals_when_waiting = true.
Proof. exact add_signal_guard. Qed.
Print Assumptions C09_add_signals_per_item.

Theorem C09_exactly_once : forall (n : nat) (children : nat -> list nat) (inits : list nat),
  work_do_min_n <= n ->
  forall s : state, reachable n children inits s ->
  NoDup (added s) /\ NoDup (started s) /\ NoDup (finished s) /\
  (forall i, In i (added s) -> occ i (todo s) + cnt (is_run_of i) (pcs s) + occ i (finished s) = 1) /\
  (forall i, In i (todo s) \/ 0 < cnt (is_run_of i) (pcs s) \/ In i (started s) \/ In i (finished s) ->
     In i (added s) /\ reach children inits i).
Proof. exact exactly_once_safety. Qed.
Print Assumptions C09_exactly_once.

Theorem C09_at_most_n : forall (n : nat) (children : nat -> list nat) (inits : list nat),
  work_do_min_n <= n ->
  forall s : state, reachable n children inits s -> length (pcs s) = n /\ cnt is_run (pcs s) <= n.
Proof. exact at_most_n_running. Qed.
Print Assumptions C09_at_most_n.

Theorem C09_do_returns_when_done : forall (n : nat) (children : nat -> list nat) (inits : list nat),
  work_do_min_n <= n ->
  forall s : state, reachable n children inits s -> nth_error (pcs s) 0 = Some Done ->
  todo s = [] /\ cnt is_run (pcs s) = 0 /\
  (forall i, reach children inits i <-> In i (finished s)) /\ NoDup (finished s) /\
  (forall t p, nth_error (pcs s) t = Some p -> p = Woken \/ p = Done).
Proof. exact do_returns. Qed.
Print Assumptions C09_do_returns_when_done.

Theorem C09_any_runner_returns_when_done : forall (n : nat) (children : nat -> list nat) (inits : list nat),
  work_do_min_n <= n ->
  forall (s : state) (t : nat), reachable n children inits s -> nth_error (pcs s) t = Some Done ->
  todo s = [] /\ cnt is_run (pcs s) = 0 /\ cnt is_parked (pcs s) = 0 /\ cnt is_top (pcs s) = 0 /\
  (forall i, reach children inits i <-> In i (finished s)) /\ NoDup (finished s).
Proof. exact do_returns_when_done. Qed.
Print Assumptions C09_any_runner_returns_when_done.

Theorem C09_no_deadlock : forall (n : nat) (children : nat -> list nat) (inits : list nat),
  work_do_min_n <= n ->
  forall s : state, reachable n children inits s ->
  all_done s = true \/ (exists (t c : nat) (s' : state), step n children s (t, c) = Some s').
Proof. exact no_deadlock. Qed.
Print Assumptions C09_no_deadlock.

Theorem C09_no_lost_wakeup : forall (n : nat) (children : nat -> list nat) (inits : list nat),
  work_do_min_n <= n ->
  forall s : state, reachable n children inits s -> todo s <> [] ->
  cnt is_parked (pcs s) < n /\
  (exists (t : nat) (p : pc), nth_error (pcs s) t = Some p /\ (is_top p || is_woken p || is_run p)%bool = true).
Proof. exact no_lost_wakeup. Qed.
Print Assumptions C09_no_lost_wakeup.

Theorem C09_wakeup_per_item : forall (n : nat) (children : nat -> list nat) (inits : list nat),
  work_do_min_n <= n ->
  forall s : state, reachable n children inits s -> 0 < cnt is_parked (pcs s) ->
  length (todo s) <= cnt is_top (pcs s) + cnt is_woken (pcs s).
Proof. exact wakeup_per_item. Qed.
Print Assumptions C09_wakeup_per_item.

Theorem C09_wakeup_ok_on_reachable_states : forall (n : nat) (children : nat -> list nat) (inits : list nat),
  work_do_min_n <= n ->
  forall s : state, reachable n children inits s -> wakeup_ok s = true.
Proof. exact wakeup_ok_reachable. Qed.
Print Assumptions C09_wakeup_ok_on_reachable_states.

Theorem C09_queued_items_get_runners : forall (n : nat) (children : nat -> list nat) (inits : list nat),
  work_do_min_n <= n ->
  forall s : state, reachable n children inits s ->
  exists (sch : list (nat * nat)) (s' : state),
    run n children sch s = Some s' /\ (todo s' = [] \/ cnt is_run (pcs s') = n) /\
    added s' = added s /\ finished s' = finished s /\ length sch + length (todo s') = length (todo s) /\
    cnt is_run (pcs s') = cnt is_run (pcs s) + length sch.
Proof. exact queued_items_get_runners. Qed.
Print Assumptions C09_queued_items_get_runners.

Theorem C09_stuck_is_final : forall (n : nat) (children : nat -> list nat) (inits : list nat),
  work_do_min_n <= n ->
  forall s : state, reachable n children inits s ->
  (forall t c : nat, step n children s (t, c) = None) -> all_done s = true.
Proof. exact stuck_is_final. Qed.
Print Assumptions C09_stuck_is_final.

Theorem C09_enabled_exact : forall (n : nat) (children : nat -> list nat) (inits : list nat),
  work_do_min_n <= n ->
  forall (s : state) (t : nat), reachable n children inits s ->
  enabled s t = true <-> (exists (c : nat) (s' : state), step n children s (t, c) = Some s').
Proof. exact enabled_spec. Qed.
Print Assumptions C09_enabled_exact.

Theorem C09_terminates : forall (n : nat) (children : nat -> list nat) (inits : list nat),
  work_do_min_n <= n ->
  forall U : list nat, NoDup U -> (forall i, In i inits -> In i U) ->
  (forall i c, In i U -> In c (children i) -> In c U) ->
  forall (s : state) (t c : nat) (s' : state), reachable n children inits s ->
  step n children s (t, c) = Some s' -> phi n children U s' < phi n children U s.
Proof. exact phi_decreases. Qed.
Print Assumptions C09_terminates.

Theorem C09_schedules_finite : forall (n : nat) (children : nat -> list nat) (inits : list nat),
  work_do_min_n <= n ->
  forall U : list nat, NoDup U -> (forall i, In i inits -> In i U) ->
  (forall i c, In i U -> In c (children i) -> In c U) ->
  forall (sch : list (nat * nat)) (s s' : state), reachable n children inits s ->
  run n children sch s = Some s' -> length sch + phi n children U s' <= phi n children U s.
Proof. exact terminates. Qed.
Print Assumptions C09_schedules_finite.

Theorem C09_can_finish : forall (n : nat) (children : nat -> list nat) (inits : list nat),
  work_do_min_n <= n ->
  forall U : list nat, NoDup U -> (forall i, In i inits -> In i U) ->
  (forall i c, In i U -> In c (children i) -> In c U) ->
  forall s : state, reachable n children inits s ->
  exists (sch : list (nat * nat)) (s' : state),
    run n children sch s = Some s' /\ all_done s' = true /\ length sch <= phi n children U s.
Proof. exact can_finish. Qed.
Print Assumptions C09_can_finish.

Theorem C09_works_independent : forall (cfgs : list wcfg) (ws : world) (k : nat) (tc : nat * nat) (ws' : world),
  wstep cfgs ws (k, tc) = Some ws' ->
  length ws' = length ws /\
  (forall k', k' <> k -> nth_error ws' k' = nth_error ws k') /\
  (exists cf s s', nth_error cfgs k = Some cf /\ nth_error ws k = Some s /\ cfg_step cf s tc = Some s' /\
                   nth_error ws' k = Some s').
Proof. exact works_independent. Qed.
Print Assumptions C09_works_independent.

Theorem C09_world_is_product : forall (cfgs : list wcfg) (ws : world),
  wreachable cfgs ws <-> Forall2 (fun cf s => reachable (wn cf) (wchildren cf) (winits cf) s) cfgs ws.
Proof. exact world_reachable_iff. Qed.
Print Assumptions C09_world_is_product.

Theorem C09_each_work_correct_among_others : forall cfgs : list wcfg, Forall good cfgs ->
  forall ws : world, wreachable cfgs ws ->
  forall (k : nat) (cf : wcfg) (s : state), nth_error cfgs k = Some cf -> nth_error ws k = Some s ->
  NoDup (started s) /\ NoDup (finished s) /\
  (forall i, In i (started s) \/ In i (finished s) -> reach (wchildren cf) (winits cf) i) /\
  cnt is_run (pcs s) <= wn cf /\
  (nth_error (pcs s) 0 = Some Done ->
     todo s = [] /\ cnt is_run (pcs s) = 0 /\ forall i, reach (wchildren cf) (winits cf) i <-> In i (finished s)).
Proof. exact world_objects_correct. Qed.
Print Assumptions C09_each_work_correct_among_others.

Theorem C09_world_no_deadlock : forall cfgs : list wcfg, Forall good cfgs ->
  forall ws : world, wreachable cfgs ws ->
  wall_done ws = true \/ (exists l ws', wstep cfgs ws l = Some ws').
Proof. exact world_no_deadlock. Qed.
Print Assumptions C09_world_no_deadlock.

Theorem C09_world_terminates : forall cfgs : list wcfg, Forall good cfgs ->
  forall (ws : world) (l : nat * (nat * nat)) (ws' : world), wreachable cfgs ws ->
  wstep cfgs ws l = Some ws' -> wphi cfgs ws' < wphi cfgs ws.
Proof. exact world_phi_decreases. Qed.
Print Assumptions C09_world_terminates.

Theorem C09_world_schedules_finite : forall cfgs : list wcfg, Forall good cfgs ->
  forall (sch : list (nat * (nat * nat))) (ws ws' : world), wreachable cfgs ws ->
  wrun cfgs sch ws = Some ws' -> length sch + wphi cfgs ws' <= wphi cfgs ws.
Proof. exact world_schedules_finite. Qed.
Print Assumptions C09_world_schedules_finite.

Theorem C09_world_can_finish : forall cfgs : list wcfg, Forall good cfgs ->
  forall ws : world, wreachable cfgs ws ->
  exists sch ws', wrun cfgs sch ws = Some ws' /\ wall_done ws' = true /\ length sch <= wphi cfgs ws.
Proof. exact world_can_finish. Qed.
Print Assumptions C09_world_can_finish.

Theorem C09_nested_projection : forall (n : nat) (children : nat -> list nat) (inits : list nat) (inner : nat -> wcfg),
  work_do_min_n <= n -> (forall i, good (inner i)) ->
  forall ns : nstate, nreachable n children inits inner ns ->
  reachable n children inits (outer ns) /\
  (forall i si, inn ns i = Some si ->
     reachable (wn (inner i)) (wchildren (inner i)) (winits (inner i)) si /\ In i (started (outer ns))) /\
  (forall i, In i (finished (outer ns)) -> exists si, inn ns i = Some si /\ nth_error (pcs si) 0 = Some Done).
Proof. intros n children inits inner Hn _. exact (nested_projection n children inits inner Hn). Qed.
Print Assumptions C09_nested_projection.

Theorem C09_nested_frame : forall (n : nat) (children : nat -> list nat) (inner : nat -> wcfg)
  (ns : nstate) (l : nlabel) (ns' : nstate), nstep n children inner ns l = Some ns' ->
  match l with
  | LInner i _ _ => outer ns' = outer ns /\ forall x, x <> i -> inn ns' x = inn ns x
  | LOuter _ _ => forall x sx, inn ns x = Some sx -> inn ns' x = Some sx
  end.
Proof. exact nested_frame. Qed.
Print Assumptions C09_nested_frame.

Theorem C09_nested_do_returns_when_all_levels_done :
  forall (n : nat) (children : nat -> list nat) (inits : list nat) (inner : nat -> wcfg),
  work_do_min_n <= n -> (forall i, good (inner i)) ->
  forall ns : nstate, nreachable n children inits inner ns -> nth_error (pcs (outer ns)) 0 = Some Done ->
  forall i, reach children inits i ->
  exists si, inn ns i = Some si /\ nth_error (pcs si) 0 = Some Done /\ todo si = [] /\ cnt is_run (pcs si) = 0 /\
             (forall x, reach (wchildren (inner i)) (winits (inner i)) x <-> In x (finished si)) /\ NoDup (finished si).
Proof. exact nested_do_returns. Qed.
Print Assumptions C09_nested_do_returns_when_all_levels_done.

Theorem C09_nested_no_deadlock : forall (n : nat) (children : nat -> list nat) (inits : list nat) (inner : nat -> wcfg),
  work_do_min_n <= n -> (forall i, good (inner i)) ->
  forall ns : nstate, nreachable n children inits inner ns ->
  nfinal ns = true \/ (exists l ns', nstep n children inner ns l = Some ns').
Proof. exact nested_no_deadlock. Qed.
Print Assumptions C09_nested_no_deadlock.

Theorem C09_nested_final_state : forall (n : nat) (children : nat -> list nat) (inits : list nat) (inner : nat -> wcfg),
  work_do_min_n <= n -> (forall i, good (inner i)) ->
  forall ns : nstate, nreachable n children inits inner ns -> nfinal ns = true ->
  all_done (outer ns) = true /\
  (forall i si, inn ns i = Some si -> all_done si = true) /\
  (forall i, reach children inits i -> exists si, inn ns i = Some si /\ all_done si = true /\
     (forall x, reach (wchildren (inner i)) (winits (inner i)) x <-> In x (finished si))).
Proof. exact nested_final_spec. Qed.
Print Assumptions C09_nested_final_state.

Theorem C09_nested_terminates : forall (n : nat) (children : nat -> list nat) (inits : list nat) (inner : nat -> wcfg)
  (U : list nat), work_do_min_n <= n -> NoDup U -> (forall i, In i inits -> In i U) ->
  (forall i c, In i U -> In c (children i) -> In c U) -> (forall i, good (inner i)) ->
  forall (ns : nstate) (l : nlabel) (ns' : nstate), nreachable n children inits inner ns ->
  nstep n children inner ns l = Some ns' -> nphi n children inner U ns' < nphi n children inner U ns.
Proof. exact nested_phi_decreases. Qed.
Print Assumptions C09_nested_terminates.

Theorem C09_nested_schedules_finite : forall (n : nat) (children : nat -> list nat) (inits : list nat)
  (inner : nat -> wcfg) (U : list nat), work_do_min_n <= n -> NoDup U -> (forall i, In i inits -> In i U) ->
  (forall i c, In i U -> In c (children i) -> In c U) -> (forall i, good (inner i)) ->
  forall (sch : list nlabel) (ns ns' : nstate), nreachable n children inits inner ns ->
  nrun n children inner sch ns = Some ns' -> length sch + nphi n children inner U ns' <= nphi n children inner U ns.
Proof. exact nested_schedules_finite. Qed.
Print Assumptions C09_nested_schedules_finite.

Theorem C09_nested_can_finish : forall (n : nat) (children : nat -> list nat) (inits : list nat)
  (inner : nat -> wcfg) (U : list nat), work_do_min_n <= n -> NoDup U -> (forall i, In i inits -> In i U) ->
  (forall i c, In i U -> In c (children i) -> In c U) -> (forall i, good (inner i)) ->
  forall ns : nstate, nreachable n children inits inner ns ->
  exists sch ns', nrun n children inner sch ns = Some ns' /\ nfinal ns' = true /\
                  length sch <= nphi n children inner U ns.
Proof. exact nested_can_finish. Qed.
Print Assumptions C09_nested_can_finish.
