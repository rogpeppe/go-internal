(* C18 — imports.ReadImports returns exactly the file's imports and a safe prefix.
   This file contains only the property theorems, each closed by [exact] of a theorem
   proved in Imports/ (ReadFacts, ReadComplete, ScanFacts, ReadSrcFacts, ReadSrcComplete),
   with Print Assumptions beneath it. *)
From Coq Require Import List Bool.
From Coq.Strings Require Import Byte.
From GI Require Import Lib.Bytes Imports.Read.
Import ListNotations.
From GI Require Import Imports.ReadFacts.

(* for every byte string the model of ReadImports returns normally: neither the
   "import reader looping" panic nor fuel exhaustion is reachable *)
Theorem C18_read_total : forall report input,
  exists imports out e, read_imports report input = ROk imports out e.
Proof. exact read_total. Qed.
Print Assumptions C18_read_total.

(* the bytes returned are a prefix of the input, an optional leading byte-order mark aside *)
Theorem C18_output_is_prefix : forall report input imports out e,
  read_imports report input = ROk imports out e ->
  (exists tl, strip_bom input = out ++ tl)
  /\ (input = strip_bom input \/ input = bom ++ strip_bom input).
Proof. exact output_is_prefix. Qed.
Print Assumptions C18_output_is_prefix.

(* a syntax error that is not reported: the whole input (BOM aside) and a nil error, with the
   same imports -- or the NUL error when the bytes consumed afterwards contain a NUL *)
Theorem C18_no_report_whole : forall input imports out,
  read_imports true input = ROk imports out ESyntax ->
  read_imports false input = ROk imports (strip_bom input) ENone
  \/ exists out', read_imports false input = ROk imports out' ENUL.
Proof. exact no_report_whole. Qed.
Print Assumptions C18_no_report_whole.

(* the flag decides what happens to a syntax error and nothing else: a result without a syntax
   error (nil, or the NUL error) is the same imports, bytes and error in both modes *)
Theorem C18_report_flag_only_on_syntax_error : forall input imports out e,
  read_imports true input = ROk imports out e -> e <> ESyntax ->
  read_imports false input = ROk imports out e.
Proof. exact report_flag_only_on_syntax_error. Qed.
Print Assumptions C18_report_flag_only_on_syntax_error.

(* when syntax errors are not requested none is returned, whatever the bytes: the error is nil
   or the NUL error (any kind of syntax error -- newline or end of input in a path literal,
   unterminated comment, stray byte, bad keyword -- is the one value ESyntax in the model) *)
Theorem C18_no_report_no_syntax_error : forall input imports out e,
  read_imports false input = ROk imports out e -> e <> ESyntax.
Proof. exact no_report_no_syntax_error. Qed.
Print Assumptions C18_no_report_no_syntax_error.

(* both modes find the same imports *)
Theorem C18_report_flag_same_imports : forall input i1 o1 e1 i0 o0 e0,
  read_imports true input = ROk i1 o1 e1 -> read_imports false input = ROk i0 o0 e0 -> i1 = i0.
Proof. exact report_flag_same_imports. Qed.
Print Assumptions C18_report_flag_same_imports.
From GI Require Import Imports.ReadGrammar Imports.ReadComplete.

(* completeness on the grammar G of import sections (ReadGrammar.v): optional BOM; trivia =
   blanks, newlines, semicolons, // and /* */ comments; `package` name; any number of import
   declarations, single or grouped, specs plain / named / . / _ (an identifier), raw or
   interpreted path literals with escapes; followed by the end of the input or by a byte
   that is neither trivia nor 'i'.  The imports are the path literals in order, the returned
   bytes are the rendering of the section without the BOM, the error is nil. *)
Theorem C18_read_imports_complete : forall report g rest,
  wf_section g rest = true ->
  read_imports report (render g ++ rest) = ROk (paths g) (render_body g) ENone.
Proof. exact read_imports_complete. Qed.
Print Assumptions C18_read_imports_complete.

(* the returned prefix is itself a member of G (the same section without its BOM, followed by
   nothing) and reading it again yields the same imports and the same bytes *)
Theorem C18_prefix_reparses : forall report g rest,
  wf_section g rest = true ->
  render (without_bom g) ++ [] = render_body g
  /\ read_imports report (render_body g) = ROk (paths g) (render_body g) ENone.
Proof. exact prefix_reparses. Qed.
Print Assumptions C18_prefix_reparses.
From Coq Require Import Sorting.Sorted.
From GI Require Import Gen.ImportsConsts Imports.Build Imports.Scan Imports.ScanFacts.

(* the consumers of ReadImports: imports.ScanDir / ScanFiles (scan.go) *)

(* neither can panic, whatever the directory contains *)
Theorem C18_scan_total : forall tags entries,
  scan_dir tags entries <> SPanic /\ scan_files tags entries <> SPanic.
Proof. exact scan_total. Qed.
Print Assumptions C18_scan_total.

(* a directory whose considered entries are G-files: exactly the sorted sets of the unquoted
   import paths of the selected files, tests apart; ErrNoGo when none is selected *)
Theorem C18_scan_dir_complete : forall tags entries gs,
  filter (considered tags) entries = map g_entry gs -> Forall gfile_ok gs ->
  scan_dir tags entries = spec_scan tags false gs.
Proof. exact scan_dir_complete. Qed.
Print Assumptions C18_scan_dir_complete.

Theorem C18_scan_files_complete : forall tags gs, Forall gfile_ok gs ->
  scan_files tags (map g_entry gs) = spec_scan tags true gs.
Proof. exact scan_files_complete. Qed.
Print Assumptions C18_scan_files_complete.

(* what "sorted set" means: strictly increasing in the byte-wise order, same elements *)
Theorem C18_scan_result_sorted_set : forall l,
  StronglySorted bytes_lt (set_of l) /\ (forall y, In y (set_of l) <-> In y l).
Proof. exact set_of_spec. Qed.
Print Assumptions C18_scan_result_sorted_set.

(* files that are read without error and excluded by import "C" or +build contribute nothing *)
Theorem C18_scan_frame : forall tags explicit f lits data l1 l2 imps tests num,
  read_imports false (e_data f) = ROk lits data ENone ->
  (needs_cgo lits && negb (tags cgo_tag) && negb (tags star) = true
   \/ (explicit = false /\ should_build data tags = Some false)) ->
  scan_loop tags explicit (l1 ++ f :: l2) imps tests num = scan_loop tags explicit (l1 ++ l2) imps tests num.
Proof. exact scan_frame_files. Qed.
Print Assumptions C18_scan_frame.

(* a leading byte-order mark in any file changes nothing *)
Theorem C18_scan_bom : forall tags f l1 l2, has_prefix bom (e_data f) = false ->
  scan_dir tags (l1 ++ with_bom f :: l2) = scan_dir tags (l1 ++ f :: l2)
  /\ scan_files tags (l1 ++ with_bom f :: l2) = scan_files tags (l1 ++ f :: l2).
Proof. exact scan_bom. Qed.
Print Assumptions C18_scan_bom.
From Coq Require Import Arith ZArith.
From GI Require Import Lib.GoSem Lib.GoSemIO Imports.ReadSrcLib Gen.ImportsReadSrc Imports.ReadSrcFacts Imports.ReadSrcComplete.

(* imports/read.go AS TRANSLATED by harness/go2coq on every run (Gen/ImportsReadSrc.v): the
   io.Reader is the list of the bytes it delivers, *imports is [Some l] (or None for nil), an
   error is nil or the value of errSyntax / errNUL ([err_of]); [abs s] is the importReader of
   the source as a function of the model's state *)

(* the methods of the reader compute what the model's functions compute, for every state of
   the reader and every bound fuel >= F on the iterations of each loop, where F is a bound
   within which the model's run from that state neither reaches the "looping" panic nor runs
   out of its own fuel (for ReadImports such an F is given below, so this is not a restriction) *)
Theorem C18_source_methods :
  (forall c, src_isIdent c = Ok (is_ident c))
  /\ (forall s, src_importReader_syntaxError (abs s) = Ok (abs (syntax_error s)))
  /\ (forall s, src_importReader_readByte (abs s) = Ok (abs (snd (read_byte s)), fst (read_byte s)))
  /\ (forall F fuel skip s, F <= fuel -> fail (snd (peek_byte F skip s)) = FNone ->
        src_importReader_peekByte fuel (abs s) skip = Ok (abs (snd (peek_byte F skip s)), fst (peek_byte F skip s)))
  /\ (forall F fuel skip s, F <= fuel -> fail (snd (next_byte F skip s)) = FNone ->
        src_importReader_nextByte fuel (abs s) skip = Ok (abs (snd (next_byte F skip s)), fst (next_byte F skip s)))
  /\ (forall F fuel kw s, F <= fuel -> fail (read_keyword F kw s) = FNone ->
        src_importReader_readKeyword fuel (abs s) kw = Ok (abs (read_keyword F kw s)))
  /\ (forall F fuel s, F <= fuel -> fail (read_ident F s) = FNone ->
        src_importReader_readIdent fuel (abs s) = Ok (abs (read_ident F s)))
  /\ (forall F fuel keep l0 s, F <= fuel -> pkwf s -> fail (read_string F true s) = FNone ->
        src_importReader_readString fuel (abs s) (absI keep l0 s) =
        Ok (abs (read_string F true s), absI keep l0 (read_string F true s)))
  /\ (forall F fuel keep l0 s, F <= fuel -> pkwf s -> fail (read_import F s) = FNone ->
        src_importReader_readImport fuel (abs s) (absI keep l0 s) =
        Ok (abs (read_import F s), absI keep l0 (read_import F s)))
  /\ (forall data, src_newImportReader data = Ok (abs (init_st (strip_bom data)))).
Proof. exact src_methods_eq. Qed.
Print Assumptions C18_source_methods.

(* ReadImports as translated returns Ok of exactly what the model returns, for every input, both
   values of reportSyntaxError, every *imports (what was in it stays in front; nil stays nil)
   and every bound fuel >= 2 * len(data) + 8 on the iterations of each loop *)
Theorem C18_source_ReadImports_is_model : forall fuel data report o, 2 * length data + 8 <= fuel ->
  exists found out e,
    read_imports report data = ROk found out e /\
    src_ReadImports fuel data report o = Ok (imports_after o found, out, err_of e).
Proof. exact src_ReadImports_model. Qed.
Print Assumptions C18_source_ReadImports_is_model.

(* totality on the source: on arbitrary bytes the translated ReadImports returns -- no "import
   reader looping" panic, no slice expression out of range, no nil dereference of *imports,
   no loop beyond 2 * len(data) + 8 iterations *)
Theorem C18_source_total : forall fuel data report o, 2 * length data + 8 <= fuel ->
  exists o' out e, src_ReadImports fuel data report o = Ok (o', out, e).
Proof. exact src_ReadImports_total. Qed.
Print Assumptions C18_source_total.

(* the bytes it returns are a prefix of the input, an optional leading byte-order mark aside *)
Theorem C18_source_output_is_prefix : forall fuel data report o o' out e, 2 * length data + 8 <= fuel ->
  src_ReadImports fuel data report o = Ok (o', out, e) ->
  (exists tl, strip_bom data = out ++ tl) /\ (data = strip_bom data \/ data = bom ++ strip_bom data).
Proof. exact src_ReadImports_prefix. Qed.
Print Assumptions C18_source_output_is_prefix.

(* completeness on the grammar G, directly on the translated ReadImports: the path literals in
   order appended to *imports, the rendering of the section without the BOM, a nil error *)
Theorem C18_source_complete : forall fuel report g rest o, wf_section g rest = true ->
  2 * length (render g ++ rest) + 8 <= fuel ->
  src_ReadImports fuel (render g ++ rest) report o = Ok (imports_after o (paths g), render_body g, ErrNil).
Proof. exact src_ReadImports_complete. Qed.
Print Assumptions C18_source_complete.
