(* C20 — goproxytest serves exactly the modules stored in its directory.
   This file contains only the property theorems, each closed by [exact] of a lemma proved in
   Proxy/, with Print Assumptions beneath it.  The model is Proxy/Proxy.v; every literal of goproxytest
   (routing strings, extensions, suffixes, separators) is a name of Gen/ProxyConsts.v. *)
From Coq Require Import List NArith.
From Coq.Strings Require Import Byte.
From GI Require Import Gen.ProxyConsts Proxy.Proxy Proxy.ProxyStrings Proxy.ProxyFacts Proxy.ProxyConc
  Proxy.ProxyTheorems Proxy.ProxyExamples Proxy.XMod Proxy.XModFacts Proxy.ProxyRefine Proxy.ProxyRefineInst
  Proxy.ProxyExact Proxy.ProxyExactExamples.
From GI Require Import Par.ParCache Par.ParCacheBase Par.ParCacheProofs.
Import ListNotations.

(* module.unescapeString inverts module.escapeString, and conversely *)
Theorem C20_unescape_escape : forall s e, escape_string s = Some e -> unescape_string e = Some s.
Proof. exact unescape_escape. Qed.
Print Assumptions C20_unescape_escape.

Theorem C20_escape_unescape : forall e s, unescape_string e = Some s -> escape_string s = Some e.
Proof. exact escape_unescape. Qed.
Print Assumptions C20_escape_unescape.

(* routing is total, and what it returns is a decomposition of the URL path *)
Theorem C20_route_total : forall O url,
  match route O url with
  | RNotFound => True
  | RList path =>
      exists enc, url = list_url enc /\ unescape_path O enc = Some path /\ check_path O path = true
  | RFile path vers ext =>
      exists enc encv, url = file_url enc encv ext /\
        unescape_path O enc = Some path /\ check_path O path = true /\
        unescape_version O encv = Some vers /\ check_elem O vers = true /\
        ~ In ext_sep ext /\ index at_v (enc ++ at_v ++ encv ++ [ext_sep] ++ ext) = Some (length enc)
  end.
Proof. exact route_decomposition. Qed.
Print Assumptions C20_route_total.

(* every stored module version is served: .info/.mod are the stored entries, the zip holds the
   entries whose names do not start with "." in archive order under path@vers/ *)
Theorem C20_serves_stored : forall O d ml p v ep ev a,
  path_ok O p -> vers_ok O v -> allhex v = false ->
  escape_string p = Some ep -> escape_string v = Some ev ->
  stored O d p v = Some a ->
  respond O d ml (file_url ep ev ext_info) =
    (match find_file (entry_dot ++ ext_info) a with Some data => OkBytes data | None => NotFound end) /\
  respond O d ml (file_url ep ev ext_mod) =
    (match find_file (entry_dot ++ ext_mod) a with Some data => OkBytes data | None => NotFound end) /\
  respond O d ml (file_url ep ev ext_zip) = zip_response (build_zip p v a) /\
  ((forall f, In f (visible a) -> zip_entry_bad (zip_name p v (fst f)) (snd f) = false) ->
   respond O d ml (file_url ep ev ext_zip) = OkZip (zip_entries p v a)).
Proof. exact serves_stored. Qed.
Print Assumptions C20_serves_stored.

(* the zip as archive/zip's Writer records it in the central directory: one record per stored
   file whose name does not start with ".", in archive order, named path@vers/name, method
   Deflate (Store for names ending in "/"), flags, CRC-32 (oracle function crc) and size of the
   stored data *)
Theorem C20_zip_central_directory : forall O crc d ml p v ep ev a,
  path_ok O p -> vers_ok O v -> allhex v = false ->
  escape_string p = Some ep -> escape_string v = Some ev ->
  stored O d p v = Some a ->
  (forall f, In f (visible a) -> zip_entry_bad (zip_name p v (fst f)) (snd f) = false) ->
  exists es, respond O d ml (file_url ep ev ext_zip) = OkZip es /\
    central_directory crc es = map (fun f => cd_of crc (zip_name p v (fst f), snd f)) (visible a) /\
    map cd_name (central_directory crc es) = map (fun f => zip_name p v (fst f)) (visible a) /\
    map cd_size (central_directory crc es) = map (fun f => N.of_nat (length (snd f))) (visible a) /\
    map cd_crc (central_directory crc es) = map (fun f => crc (snd f)) (visible a).
Proof. exact zip_central_directory. Qed.
Print Assumptions C20_zip_central_directory.

(* the list endpoint: the versions of the module list with that path that are not pseudo-versions
   and pass module.Check, one per line, in directory order (duplicates kept); 404 when none *)
Theorem C20_list_exact : forall O d ml p ep,
  path_ok O p -> escape_string p = Some ep ->
  respond O d ml (list_url ep) =
    (match listed O ml p with
     | [] => NotFound
     | vs => OkBytes (flat_map (fun v => v ++ [x0a]) vs)
     end) /\
  (forall v, In v (listed O ml p) <->
     In (p, v) ml /\ is_pseudo O v = false /\ module_check O p v = true).
Proof. exact list_exact. Qed.
Print Assumptions C20_list_exact.

(* the module list holds every version stored under its documented name ... *)
Theorem C20_modlist_complete : forall O d ml p v ep ev e,
  read_mod_list O d = Some ml ->
  path_ok O p -> vers_ok O v -> ~ In disk_sep p -> ~ In disk_sep v ->
  (exists v', v = vers_mark :: v') ->
  escape_string p = Some ep -> escape_string v = Some ev ->
  let nm := replace_byte path_sep disk_sep ep ++ [disk_sep] ++ ev in
  (In (nm ++ suffix_txt, e) d \/ In (nm ++ suffix_txtar, e) d \/
   (In (nm, e) d /\ is_dir e = true /\ has_suffix suffix_txt nm = false /\ has_suffix suffix_txtar nm = false)) ->
  In (p, v) ml.
Proof. exact modlist_complete. Qed.
Print Assumptions C20_modlist_complete.

(* ... and nothing that is not a directory entry *)
Theorem C20_modlist_sound : forall O d ml p v,
  read_mod_list O d = Some ml -> In (p, v) ml ->
  exists nm e, In (nm, e) d /\ mod_entry O nm (is_dir e) = Some (Some (p, v)).
Proof. exact modlist_sound. Qed.
Print Assumptions C20_modlist_sound.

(* anything not stored yields 404: malformed URL, unknown extension, unknown module (also for
   commit-hash requests), unknown version, list of a module without listable version *)
Theorem C20_not_stored_404 : forall O d ml url,
  (route O url = RNotFound -> respond O d ml url = NotFound) /\
  (forall p v e, route O url = RFile p v e ->
     bytes_eqb e ext_info = false -> bytes_eqb e ext_mod = false -> bytes_eqb e ext_zip = false ->
     respond O d ml url = NotFound) /\
  (forall p v e, route O url = RFile p v e -> (forall v', stored O d p v' = None) ->
     respond O d ml url = NotFound) /\
  (forall p v e, route O url = RFile p v e -> allhex v = false -> stored O d p v = None ->
     respond O d ml url = NotFound) /\
  (forall p, route O url = RList p ->
     (forall v, In (p, v) ml -> is_pseudo O v = true \/ module_check O p v = false) ->
     respond O d ml url = NotFound).
Proof. exact not_stored_404. Qed.
Print Assumptions C20_not_stored_404.

(* conversely, whatever is served comes from an archive of the directory / the module list *)
Theorem C20_served_is_stored : forall O d ml url,
  respond O d ml url <> NotFound ->
  (exists p v, route O url = RList p /\ In v (listed O ml p)) \/
  (exists p v e a, route O url = RFile p v e /\
     stored O d p (target_version O d ml p v) = Some a /\
     ((e = ext_info \/ e = ext_mod) /\ find_file (entry_dot ++ e) a <> None \/ e = ext_zip)).
Proof. exact served_is_stored. Qed.
Print Assumptions C20_served_is_stored.

(* commit-hash requests: the version the archive is looked up under is the requested string
   itself or a version of the module list, of that path, whose NON-EMPTY hash (suffix of a
   pseudo-version, Short field of .info) is a prefix of the request or has it as a prefix *)
Theorem C20_hash_resolution_sound : forall O d ml path vers,
  target_version O d ml path vers = vers \/
  (allhex vers = true /\ In (path, target_version O d ml path vers) ml /\
   version_hash O d path (target_version O d ml path vers) <> [] /\
   hash_matches (version_hash O d path (target_version O d ml path vers)) vers = true).
Proof. exact hash_resolution_sound. Qed.
Print Assumptions C20_hash_resolution_sound.

(* a hash that matches no stored version is looked up literally (and is 404 unless a version
   with that very name is stored: C20_not_stored_404) *)
Theorem C20_hash_no_match : forall O d ml path vers,
  (forall v, In (path, v) ml -> hash_matches (version_hash O d path v) vers = false) ->
  target_version O d ml path vers = vers.
Proof. exact hash_no_match. Qed.
Print Assumptions C20_hash_no_match.

(* any interleaving of the handlers of any requests (cache operations atomic and once per key:
   the specification of par.Cache.Do, property C10): every finished request holds the response
   of a fresh server, provided the requests do not alias one archive under two names *)
Theorem C20_concurrent_same : forall O d ml urls sched,
  compatible O d ml urls ->
  forall i url r,
    nth_error urls i = Some url ->
    nth_error (fst (run_sched d sched (map (handler O d ml) urls) no_caches)) i = Some (Ret r) ->
    r = respond O d ml url.
Proof. exact concurrent_same. Qed.
Print Assumptions C20_concurrent_same.

(* one server answering the requests one after the other *)
Theorem C20_sequential_same : forall O d ml urls,
  compatible O d ml urls -> serve_seq O d ml urls no_caches = map (respond O d ml) urls.
Proof. exact sequential_same. Qed.
Print Assumptions C20_sequential_same.

(* requests whose path and looked-up version contain no "_" never alias *)
Theorem C20_no_alias_compatible : forall O d ml urls,
  (forall u, In u urls -> no_alias O d ml u) -> compatible O d ml urls.
Proof. exact no_alias_compatible. Qed.
Print Assumptions C20_no_alias_compatible.

(* no cache operation blocks: some schedule finishes every handler (the quantification over
   schedules in C20_concurrent_same is not vacuous) *)
Theorem C20_some_schedule_finishes : forall d A (pool : list (prog A)) st,
  exists sched, forallb is_ret (fst (run_sched d sched pool st)) = true.
Proof. exact some_schedule_finishes. Qed.
Print Assumptions C20_some_schedule_finishes.

(* "once-per-key caches" as a theorem about the modelled par.Cache (group Par, ParCache.v: every
   synchronisation operation of Cache.Do is a step, Lock blocks, f runs while other threads run):
   under EVERY interleaving of those operations no handler panics and a handler that has returned
   holds the response of a fresh server.  Uses C10's do_returns_f_value. *)
Theorem C20_event_level_same : forall O d ml urls sch st,
  compatible O d ml urls ->
  server_arun O d ml urls sch = Some st ->
  forall i url, nth_error urls i = Some url ->
  exists h, nth_error (hs response st) i = Some (Some h) /\
            run_own d h = respond O d ml url /\
            (forall r, h = Ret r -> r = respond O d ml url).
Proof. exact server_event_level_same. Qed.
Print Assumptions C20_event_level_same.

(* and that system does not deadlock: in every reachable state all handlers have returned or
   some thread can step (from C10's no-deadlock theorem) *)
Theorem C20_event_level_progress : forall O d ml urls sch st,
  compatible O d ml urls ->
  server_arun O d ml urls sch = Some st ->
  Forall (returned response) (hs response st) \/
  exists t st', astep response d key_arch key_zip key_name
                  (zip_of (flat_map (zip_ops d) (map (handler O d ml) urls))) st t = Some st'.
Proof. exact server_event_level_progress. Qed.
Print Assumptions C20_event_level_progress.

(* the cache state of such a run is a reachable state of the Par model (so C10's theorems, f at
   most once per key and race freedom among them, hold of it) *)
Theorem C20_event_level_cache_reachable : forall A d ka kz name_of Zf (ps : list (prog A)) sch st,
  arun A d ka kz name_of Zf sch (ainit A ps) = Some st ->
  (forall n, name_of (ka n) = n) -> (forall n, name_of (kz n) = n) ->
  (forall n v, In (n, v) (flat_map (zip_ops d) ps) -> Zf n = v) ->
  exists sc, creachable fval_id deps0 crash0 (map (calls A d ka kz) ps) sc /\
             ents (acs A st) = ents sc /\ plain (acs A st) = plain sc.
Proof.
  exact (fun A d ka kz name_of Zf ps sch st Hrun H1 H2 H3 =>
           event_level_cache_reachable A d ka kz name_of H1 H2 Zf ps H3 sch st Hrun).
Qed.
Print Assumptions C20_event_level_cache_reachable.

(* with the Gallina x/mod as oracles the side conditions are computed facts *)
Theorem C20_check_path_x_path_ok : forall short p, check_path_x p = true -> path_ok (xmod_oracles short) p.
Proof. exact check_path_x_path_ok. Qed.
Print Assumptions C20_check_path_x_path_ok.

Theorem C20_check_elem_x_vers_ok : forall short v,
  check_elem_x v = true -> mem_byte bang v = false -> vers_ok (xmod_oracles short) v.
Proof. exact check_elem_x_vers_ok. Qed.
Print Assumptions C20_check_elem_x_vers_ok.

Theorem C20_serves_stored_xmod : forall short d ml p v a,
  check_path_x p = true -> semver_is_valid v = true -> check_elem_x v = true -> mem_byte bang v = false ->
  stored (xmod_oracles short) d p v = Some a ->
  exists ep ev, escape_string p = Some ep /\ escape_string v = Some ev /\
  let O := xmod_oracles short in
  respond O d ml (file_url ep ev ext_info) =
    (match find_file (entry_dot ++ ext_info) a with Some data => OkBytes data | None => NotFound end) /\
  respond O d ml (file_url ep ev ext_mod) =
    (match find_file (entry_dot ++ ext_mod) a with Some data => OkBytes data | None => NotFound end) /\
  respond O d ml (file_url ep ev ext_zip) = zip_response (build_zip p v a).
Proof. exact serves_stored_xmod. Qed.
Print Assumptions C20_serves_stored_xmod.

(* with "_" the hypothesis of C20_concurrent_same / C20_sequential_same is necessary: the archive
   example.com_a_b_v1.0.0.txt answers for example.com/a_b and example.com/a/b, and the zip cache
   keeps the prefix of whichever request came first *)
Theorem C20_alias_history_dependent :
  serve_seq O0 d1 ml1 alias_urls no_caches <> map (respond O0 d1 ml1) alias_urls /\
  ~ compatible O0 d1 ml1 alias_urls.
Proof. exact alias_history_dependent. Qed.
Print Assumptions C20_alias_history_dependent.

(* "anything not stored yields 404" as an IFF over all URL paths: the response is something else
   than 404 exactly when the URL is the list of a module with a listable version, or info/mod of a
   stored version (after commit-hash resolution) that holds that entry, or its zip *)
Theorem C20_route_404_exact : forall O d ml url,
  respond O d ml url <> NotFound <->
  ((exists p, route O url = RList p /\ listed O ml p <> []) \/
   (exists p v e a, route O url = RFile p v e /\
      stored O d p (target_version O d ml p v) = Some a /\
      ((e = ext_info \/ e = ext_mod) /\ find_file (entry_dot ++ e) a <> None \/ e = ext_zip))).
Proof. exact route_404_exact. Qed.
Print Assumptions C20_route_404_exact.

(* whatever is served is served under the ESCAPED NAME of what is stored: the URL is the list URL
   of the escaped module path, or the file URL of the escaped path, the escaped requested version
   and one of info/mod/zip (the basis of the runner's servable-set oracle) *)
Theorem C20_served_url_canonical : forall O d ml url,
  respond O d ml url <> NotFound ->
  (exists p ep, escape_string p = Some ep /\ url = list_url ep /\ check_path O p = true /\
                listed O ml p <> []) \/
  (exists p v ep ev e a, escape_string p = Some ep /\ escape_string v = Some ev /\
      url = file_url ep ev e /\ check_path O p = true /\ check_elem O v = true /\
      (e = ext_info \/ e = ext_mod \/ e = ext_zip) /\
      stored O d p (target_version O d ml p v) = Some a).
Proof. exact served_url_canonical. Qed.
Print Assumptions C20_served_url_canonical.

(* a requested version that is not all lower-case hex is looked up literally *)
Theorem C20_target_version_literal : forall O d ml p v,
  allhex v = false -> target_version O d ml p v = v.
Proof. exact target_version_literal. Qed.
Print Assumptions C20_target_version_literal.

(* the same, executable (extracted and compared with the status of every HTTP response): served_b
   decides it from the store without running a handler *)
Theorem C20_served_b_exact : forall O d ml url,
  served_b O d ml url = true <-> respond O d ml url <> NotFound.
Proof. exact served_b_exact. Qed.
Print Assumptions C20_served_b_exact.

(* an extension that is not info/mod/zip is 404 for a stored version even when the archive holds
   the dot-file of that name (.netrc, .gitignore, .info2, ...): dot-files have no endpoint *)
Theorem C20_dotfile_not_served : forall O d ml p v ep ev a e data,
  path_ok O p -> vers_ok O v ->
  escape_string p = Some ep -> escape_string v = Some ev ->
  stored O d p v = Some a ->
  find_file (entry_dot ++ e) a = Some data ->
  ~ In ext_sep e -> e <> ext_info -> e <> ext_mod -> e <> ext_zip ->
  respond O d ml (file_url ep ev e) = NotFound.
Proof. exact dotfile_not_served. Qed.
Print Assumptions C20_dotfile_not_served.

(* byte identity for EVERY byte string: a directory storing i as .info, m as .mod and x as x.go
   (next to two dot-files) serves exactly i, exactly m, a zip with exactly x, and hides the
   dot-files; no hypothesis on i, m, x *)
Theorem C20_serves_arbitrary_bytes : forall i m x : bytes,
  respond O0 (d3 i m x) ml3 u3_info = OkBytes i /\
  respond O0 (d3 i m x) ml3 u3_mod = OkBytes m /\
  respond O0 (d3 i m x) ml3 u3_zip = OkZip [(zip3_name, x)] /\
  respond O0 (d3 i m x) ml3 u3_netrc = NotFound /\
  respond O0 (d3 i m x) ml3 u3_gitignore = NotFound.
Proof. exact serves_arbitrary_bytes. Qed.
Print Assumptions C20_serves_arbitrary_bytes.

(* the order the list endpoint produces is the order of the module list (directory order) ... *)
Theorem C20_list_in_modlist_order : forall O ml1 ml2 p,
  listed O (ml1 ++ ml2) p = listed O ml1 p ++ listed O ml2 p.
Proof. exact listed_app. Qed.
Print Assumptions C20_list_in_modlist_order.

(* ... but the property is about the SET: servers whose module lists are permutations of each
   other (one that sorts, say) answer with the same status and the same multiset of lines, which
   is exactly the listable versions of the module list *)
Theorem C20_list_exact_set : forall O d ml ml' p ep,
  path_ok O p -> escape_string p = Some ep -> Permutation.Permutation ml ml' ->
  (respond O d ml (list_url ep) = NotFound /\ respond O d ml' (list_url ep) = NotFound) \/
  (exists vs vs', respond O d ml (list_url ep) = OkBytes (list_body vs) /\
                  respond O d ml' (list_url ep) = OkBytes (list_body vs') /\
                  vs <> [] /\ Permutation.Permutation vs vs' /\
                  (forall v, In v vs <-> In (p, v) ml /\ is_pseudo O v = false /\ module_check O p v = true)).
Proof. exact list_response_perm. Qed.
Print Assumptions C20_list_exact_set.

(* no version is listed twice unless the module list holds it twice *)
Theorem C20_list_no_duplicates : forall O ml p, NoDup ml -> NoDup (listed O ml p).
Proof. exact listed_nodup. Qed.
Print Assumptions C20_list_no_duplicates.

(* the server as a state machine (module list read at start-up + the two caches): no sequence of
   requests changes the module list *)
Theorem C20_modlist_immutable : forall O d s urls,
  sv_modlist (snd (serve_all O d s urls)) = sv_modlist s.
Proof. exact modlist_immutable. Qed.
Print Assumptions C20_modlist_immutable.

(* and after ANY history of non-aliasing requests a probe is answered as by a freshly started
   server: every response is a function (respond_pure) of the store and the URL alone *)
Theorem C20_history_independent : forall O d s hist probe,
  server_start O d = Some s ->
  compatible O d (sv_modlist s) (hist ++ [probe]) ->
  nth_error (fst (serve_all O d s (hist ++ [probe]))) (length hist) =
    Some (respond O d (sv_modlist s) probe) /\
  fst (serve_all O d s (hist ++ [probe])) = map (respond_pure O d (sv_modlist s)) (hist ++ [probe]).
Proof. exact history_independent. Qed.
Print Assumptions C20_history_independent.
From GI Require Import Lib.GoSem Proxy.XMod Proxy.SrcLib Proxy.SrcFacts Gen.ProxySrc.

(* the Go source itself: Gen/ProxySrc.v is goproxytest/allhex.go (allHex) and pseudo.go
   (isPseudoVersion) translated to Gallina by harness/go2coq on every run; the statements
   below are about those translated functions, for every input.  Panic = a Go run-time panic. *)

(* allHex: the byte loop returns exactly the model's range test on every byte; it never panics *)
Theorem C20_source_all_hex_eq : forall rev, src_allHex rev = Ok (allhex rev).
Proof. exact src_allHex_eq. Qed.
Print Assumptions C20_source_all_hex_eq.

(* isPseudoVersion: exactly the model's is_pseudo with the computed x/mod oracles (dash count,
   semver.IsValid as modelled in XMod.v, the regexp term regenerated from pseudo.go) *)
Theorem C20_source_is_pseudo_version_eq : forall short v,
  src_isPseudoVersion v = Ok (is_pseudo (xmod_oracles short) v).
Proof. exact src_isPseudoVersion_eq. Qed.
Print Assumptions C20_source_is_pseudo_version_eq.

(* a valid semantic version is never taken for a commit hash, stated on the translated allHex *)
Theorem C20_source_semver_not_hex : forall v, semver_is_valid v = true -> src_allHex v = Ok false.
Proof. exact src_semver_not_hex. Qed.
Print Assumptions C20_source_semver_not_hex.
From Coq Require Import ZArith.
From GI Require Import Lib.GoSemHandler Proxy.SrcGlue Proxy.SrcSegFacts.

(* proxy.go: the server does I/O (net/http, os, archive/zip, par.Cache); the pure SEGMENTS between
   its effects are translated on every run (Gen/ProxySrc.v) and the statements below are about the
   translated definitions, for every input: they never panic (Panic = a Go run-time panic or a use
   outside the modelled domain of a library call) and return exactly what the model computes.  What
   stands between the segments is the hand-written glue of Proxy/SrcGlue.v: os.ReadDir and the range
   loop of readModList; the call of readArchive between "route" and "serve" (= the model's stored
   archive); the value of zipCache.Do (the loop over the archive around the translated member filter
   and name, archive/zip failing on the names it refuses, the bytes of the zip an uninterpreted
   function enc of the entry list); readArchive before and json.Unmarshal after the .info selection of
   findHash.  The x/mod calls denote the Gallina x/mod of Proxy/XMod.v (xmod_oracles). *)

(* readModList, the loop body: entry name and kind -> skipped / error / (path, version) appended *)
Theorem C20_source_mod_entry_eq : forall short srv name isdir,
  src_Server_readModList_entry srv (name, isdir) =
  Ok (entry_outcome srv (mod_entry (xmod_oracles short) name isdir)).
Proof. exact src_readModList_entry_eq. Qed.
Print Assumptions C20_source_mod_entry_eq.

(* readModList: the translated body folded over the directory entries computes the model's module
   list, or ends with an error exactly when the model does *)
Theorem C20_source_read_mod_list_eq : forall short dirname fh d,
  match read_mod_list (xmod_oracles short) d with
  | Some ml => src_readModList_loop (mkServer dirname [] fh) (dir_names d) = Ok (mkServer dirname ml fh, false)
  | None => exists s, src_readModList_loop (mkServer dirname [] fh) (dir_names d) = Ok (s, true)
  end.
Proof. exact src_readModList_eq. Qed.
Print Assumptions C20_source_read_mod_list_eq.

(* handler up to the archive lookup: 404 for what route rejects, the list response, or the decoded
   (path, extension, version after commit-hash resolution); findHash is the oracle the server value
   carries, here the model's hash_of *)
Theorem C20_source_route_eq : forall short d srv w url,
  (forall m, srv_archives srv m = hash_of (xmod_oracles short) d (fst m) (snd m)) ->
  src_Server_handler_route srv w url = Ok (route_outcome short d (srv_modList srv) w url).
Proof. exact src_handler_route_eq. Qed.
Print Assumptions C20_source_route_eq.

(* handler after the archive lookup: nil archive -> 404; .info/.mod -> the stored entry or 404; zip ->
   the cached bytes or 500; any other extension -> 404 *)
Theorem C20_source_serve_eq : forall srv w url path ext vers a c,
  src_Server_handler_serve srv w url path ext vers (as_archive a) c = Ok (serve_outcome w url ext a c).
Proof. exact src_handler_serve_eq. Qed.
Print Assumptions C20_source_serve_eq.

(* the zip members: the translated filter and name, folded over the archive, are the model's entry list *)
Theorem C20_source_zip_entries_eq : forall path vers files,
  src_zip_entries path vers files = Ok (build_zip_entries path vers files).
Proof. exact src_zip_entries_eq. Qed.
Print Assumptions C20_source_zip_entries_eq.

Theorem C20_source_zip_skip_eq : forall f,
  src_Server_handler_zipskip f = Ok (if has_prefix hidden_prefix (fst f) then Continue tt else Normal tt).
Proof. exact src_zipskip_eq. Qed.
Print Assumptions C20_source_zip_skip_eq.

Theorem C20_source_zip_name_eq : forall path vers f,
  src_Server_handler_zipname path vers f = Ok (zip_name path vers (fst f)).
Proof. exact src_zipname_eq. Qed.
Print Assumptions C20_source_zip_name_eq.

(* readArchive: nil when path or version cannot be escaped, else the three candidate file names
   built from the model's archive name and filepath.Join *)
Theorem C20_source_archive_names_eq : forall short srv path vers,
  src_Server_readArchive_names srv path vers =
  Ok (match archive_name (xmod_oracles short) path vers with
      | None => Return None
      | Some x =>
          let name := TxtarWrite.Path.join (srv_dir srv) x in
          Normal (name, name ++ suffix_txt, name ++ suffix_txtar)
      end).
Proof. exact src_readArchive_names_eq. Qed.
Print Assumptions C20_source_archive_names_eq.

(* the WalkDir callback: a file below the archive directory gets its name relative to it *)
Theorem C20_source_arpath_eq : forall name rel,
  src_Server_readArchive_arpath name (name ++ [path_sep] ++ rel) = Ok (Normal rel).
Proof. exact src_readArchive_arpath_eq. Qed.
Print Assumptions C20_source_arpath_eq.

(* findHash: the translated selection of .info between readArchive and json.Unmarshal is the model's hash_of *)
Theorem C20_source_find_hash_eq : forall short d m,
  src_findHash short d m = Ok (hash_of (xmod_oracles short) d (fst m) (snd m)).
Proof. exact src_findHash_eq. Qed.
Print Assumptions C20_source_find_hash_eq.

(* THE HANDLER: the translated segments composed in the order handler runs them leave in a fresh
   ResponseWriter exactly the response of a freshly started model server, for every directory,
   module list and URL path *)
Theorem C20_source_handler_eq : forall short enc dirname d ml url,
  src_handle short enc dirname d ml url = Ok (resp_of enc (respond (xmod_oracles short) d ml url)).
Proof. exact src_handle_respond. Qed.
Print Assumptions C20_source_handler_eq.

(* C20_serves_stored on the composed segments, with computed side conditions *)
Theorem C20_source_serves_stored : forall short enc dirname d ml p v a,
  check_path_x p = true -> semver_is_valid v = true -> check_elem_x v = true -> mem_byte bang v = false ->
  stored (xmod_oracles short) d p v = Some a ->
  exists ep ev, escape_string p = Some ep /\ escape_string v = Some ev /\
  src_handle short enc dirname d ml (file_url ep ev ext_info) =
    Ok (resp_of enc (match find_file (entry_dot ++ ext_info) a with Some data => OkBytes data | None => NotFound end)) /\
  src_handle short enc dirname d ml (file_url ep ev ext_mod) =
    Ok (resp_of enc (match find_file (entry_dot ++ ext_mod) a with Some data => OkBytes data | None => NotFound end)) /\
  src_handle short enc dirname d ml (file_url ep ev ext_zip) = Ok (resp_of enc (zip_response (build_zip p v a))).
Proof. exact src_serves_stored. Qed.
Print Assumptions C20_source_serves_stored.

(* C20_list_exact on the composed segments *)
Theorem C20_source_list_exact : forall short enc dirname d ml p ep,
  path_ok (xmod_oracles short) p -> escape_string p = Some ep ->
  src_handle short enc dirname d ml (list_url ep) =
    Ok (resp_of enc (match listed (xmod_oracles short) ml p with
                     | [] => NotFound
                     | vs => OkBytes (flat_map (fun v => v ++ [x0a]) vs)
                     end)) /\
  (forall v, In v (listed (xmod_oracles short) ml p) <->
     In (p, v) ml /\ is_pseudo (xmod_oracles short) v = false /\ module_check (xmod_oracles short) p v = true).
Proof. exact src_list_exact. Qed.
Print Assumptions C20_source_list_exact.

(* C20_not_stored_404 on the composed segments: status 404 with the text of http.NotFound *)
Theorem C20_source_not_stored_404 : forall short enc dirname d ml url,
  let O := xmod_oracles short in
  let nf := Ok (go_http_NotFound go_response_empty url) in
  (route O url = RNotFound -> src_handle short enc dirname d ml url = nf) /\
  (forall p v e, route O url = RFile p v e ->
     bytes_eqb e ext_info = false -> bytes_eqb e ext_mod = false -> bytes_eqb e ext_zip = false ->
     src_handle short enc dirname d ml url = nf) /\
  (forall p v e, route O url = RFile p v e -> (forall v', stored O d p v' = None) ->
     src_handle short enc dirname d ml url = nf) /\
  (forall p v e, route O url = RFile p v e -> allhex v = false -> stored O d p v = None ->
     src_handle short enc dirname d ml url = nf) /\
  (forall p, route O url = RList p ->
     (forall v, In (p, v) ml -> is_pseudo O v = true \/ module_check O p v = false) ->
     src_handle short enc dirname d ml url = nf).
Proof. exact src_not_stored_404. Qed.
Print Assumptions C20_source_not_stored_404.

(* C20_route_404_exact on the composed segments: the status differs from 404 exactly for the URLs the
   store serves *)
Theorem C20_source_route_404_exact : forall short enc dirname d ml url,
  exists w, src_handle short enc dirname d ml url = Ok w /\
    (rw_status w <> 404%Z <-> served_by (xmod_oracles short) d ml url).
Proof. exact src_route_404_exact. Qed.
Print Assumptions C20_source_route_404_exact.
