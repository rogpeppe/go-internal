(* Proofs about Lib/Utf8.v: the byte-level trim_space / utf8_valid of Lib/Bytes.v are
   the rune-level functions (decode, unicode.IsSpace from the regenerated tables,
   TrimLeftFunc / TrimRightFunc, "every rune decodes"). *)
From Coq Require Import List Bool Arith NArith ZArith Lia.
From Coq.Strings Require Import Byte.
From GI Require Import Lib.Bytes Lib.BytesFacts Gen.UnicodeConsts Lib.Utf8 Lib.Utf8Tables
  Lib.Utf8EncodeFacts.
Import ListNotations.
Open Scope N_scope.

Lemma space_err : is_space_rune rune_error = false.
Proof. reflexivity. Qed.

Lemma last_rune_back_le q : (last_rune_back q <= length q)%nat.
Proof.
  unfold last_rune_back.
  repeat match goal with
  | |- context [if ?c then _ else _] => destruct c
  | |- context [match ?l with [] => _ | _ :: _ => _ end] => destruct l
  end; cbn [length]; lia.
Qed.

Lemma decode_last_rune_rev l0 q :
  decode_last_rune (rev (l0 :: q)) =
  if bN l0 <? rune_self then Some (bN l0, 1%nat) else
  match decode_rune (rev (l0 :: firstn (last_rune_back q) q)) with
  | Some (r, w) => if Nat.eqb w (S (last_rune_back q)) then Some (r, w) else err1
  | None => err1
  end.
Proof.
  unfold decode_last_rune. rewrite rev_involutive. cbv zeta.
  pose proof (last_rune_back_le q) as Hk.
  replace (skipn (length (rev (l0 :: q)) - S (last_rune_back q)) (rev (l0 :: q)))
    with (rev (l0 :: firstn (last_rune_back q) q)); [reflexivity|].
  rewrite skipn_rev. f_equal. rewrite rev_length. cbn [length].
  replace (S (length q) - (S (length q) - S (last_rune_back q)))%nat
    with (S (last_rune_back q)) by lia.
  reflexivity.
Qed.

(* DecodeLastRune(x) = (r, size): x ends with a well-formed encoding of r, [size] bytes
   long, or with a byte >= 0x80 and the answer is the error of width 1 *)
Lemma decode_last_rune_cases x r size :
  decode_last_rune x = Some (r, size) ->
  exists pre enc, x = pre ++ enc /\ length enc = size /\
    (decodes enc r size \/ (r = rune_error /\ size = 1%nat /\ exists b, enc = [b] /\ 128 <= bN b)).
Proof.
  rewrite <- (rev_involutive x). destruct (rev x) as [|l0 q]; [discriminate|].
  rewrite decode_last_rune_rev. cbn [rev]. unfold rune_self, err1.
  destruct (bN l0 <? 128) eqn:E0.
  { intros H. injection H as <- <-. exists (rev q), [l0]. repeat split. left.
    constructor. now apply N.ltb_lt. }
  apply N.ltb_ge in E0. pose proof (last_rune_back_le q) as Hk. set (k := last_rune_back q) in *.
  assert (Hlone : exists pre enc, rev q ++ [l0] = pre ++ enc /\ length enc = 1%nat /\
            (decodes enc rune_error 1 \/
             (rune_error = rune_error /\ 1%nat = 1%nat /\ exists b, enc = [b] /\ 128 <= bN b)))
    by (exists (rev q), [l0]; repeat split; right; repeat split; now exists l0).
  destruct (decode_rune_cases (rev (firstn k q) ++ [l0])) as [E|[->|(r' & w' & -> & Hd)]].
  - now destruct (rev (firstn k q)).
  - unfold err1. destruct (Nat.eqb 1 (S k)); intros H; injection H as <- <-; exact Hlone.
  - destruct (Nat.eqb_spec w' (S k)) as [->|_]; intros H; injection H as <- <-; [|exact Hlone].
    exists (rev (skipn k q)), (rev (firstn k q) ++ [l0]). repeat split; [| |now left].
    + now rewrite app_assoc, <- rev_app_distr, firstn_skipn.
    + rewrite app_length, rev_length, firstn_length. cbn [length]. lia.
Qed.

Definition space_width (d : bytes) : nat :=
  match decode_rune d with
  | Some (r, w) => if is_space_rune r then w else 0%nat
  | None => 0%nat
  end.

Definition space_width_last (d : bytes) : nat :=
  match decode_last_rune d with
  | Some (r, w) => if is_space_rune r then w else 0%nat
  | None => 0%nat
  end.

(* the encoding of a white-space rune is an entry of the table *)
Lemma space_rune_entry d r w :
  decodes d r w -> is_space_rune r = true -> In (firstn w d) space_encodings.
Proof.
  intros Hd Hs. destruct (decodes_encode _ _ _ Hd) as (_ & _ & ->).
  change space_encodings with (map encode_rune space_codes). apply in_map, is_space_rune_codes, Hs.
Qed.

Lemma space_not_err r w : is_space_rune r = true -> is_err1 (r, w) = false.
Proof.
  intros Hs. unfold is_err1. cbn [fst]. destruct (N.eqb_spec r rune_error) as [->|_]; [|reflexivity].
  now rewrite space_err in Hs.
Qed.

(* Each entry of the table decodes to a white-space rune of the entry's length (25
   evaluations); conversely a decoded white-space rune was encoded by an entry. *)
Lemma space_width_table d : space_width d = match_width space_encodings d.
Proof.
  revert d. apply width_table_entries; [repeat constructor; discriminate|].
  intros d H. unfold space_width in H.
  destruct (decode_rune d) as [[r w]|] eqn:Ed; [|easy]. destruct (is_space_rune r) eqn:Es; [|easy].
  apply decode_rune_decodes in Ed; [|now apply space_not_err].
  exists (firstn w d). split; [now apply (space_rune_entry d r w)|].
  rewrite <- (firstn_skipn w d) at 2. apply has_prefix_app.
Qed.

Lemma space_prefix_decode d : space_prefix d = space_width d.
Proof. now rewrite space_prefix_width, space_width_table. Qed.

Lemma space_width_last_table q :
  space_width_last (rev q) = match_width (map (@rev byte) space_encodings) q.
Proof.
  revert q. apply (width_table_entries (fun q => space_width_last (rev q))).
  - repeat constructor; try discriminate; intros y; simpl (rev _ ++ y);
      unfold space_width_last; rewrite decode_last_rune_rev; reflexivity.
  - intros q H. unfold space_width_last in H.
    destruct (decode_last_rune (rev q)) as [[r w]|] eqn:Ed; [|easy].
    destruct (is_space_rune r) eqn:Es; [|easy].
    destruct (decode_last_rune_cases _ _ _ Ed) as (pre & enc & Hq & Hl & [Hd|[-> _]]);
      [|now rewrite space_err in Es].
    pose proof (space_rune_entry enc r w Hd Es) as Hin. rewrite <- Hl, firstn_all in Hin.
    exists (rev enc). split; [now apply in_map|].
    rewrite <- (rev_involutive q), Hq, rev_app_distr. apply has_prefix_app.
Qed.

Lemma space_suffix_decode d : space_suffix_rev' (rev d) = space_width_last d.
Proof. now rewrite space_suffix_width, <- space_width_last_table, rev_involutive. Qed.

Lemma decode_last_rune_width d r w : decode_last_rune d = Some (r, w) -> (1 <= w)%nat.
Proof.
  intros H. destruct (decode_last_rune_cases _ _ _ H) as (pre & enc & _ & _ & [Hd|(_ & -> & _)]);
    [now apply decodes_width in Hd|lia].
Qed.

Lemma trim_left_fuel_eq f : forall d, trim_left_fuel f d = trim_left_runes_fuel f d.
Proof.
  induction f as [|f IH]; intros d; [reflexivity|].
  cbn [trim_left_fuel trim_left_runes_fuel]. rewrite space_prefix_decode. unfold space_width.
  destruct (decode_rune d) as [[r w]|] eqn:E; [|reflexivity].
  destruct (is_space_rune r); [|reflexivity].
  apply decode_rune_width in E. destruct w as [|w]; [lia|]. apply IH.
Qed.

(* TrimLeftFunc(d, unicode.IsSpace) *)
Theorem trim_left_eq d : trim_left d = trim_left_runes d.
Proof. apply trim_left_fuel_eq. Qed.

Lemma trim_right_fuel_eq f : forall d,
  rev (trim_right_rev_fuel f (rev d)) = trim_right_runes_fuel f d.
Proof.
  induction f as [|f IH]; intros d; [apply rev_involutive|].
  cbn [trim_right_rev_fuel trim_right_runes_fuel]. rewrite space_suffix_decode.
  unfold space_width_last.
  destruct (decode_last_rune d) as [[r w]|] eqn:E; [|apply rev_involutive].
  destruct (is_space_rune r); [|apply rev_involutive].
  apply decode_last_rune_width in E. destruct w as [|w]; [lia|].
  rewrite skipn_rev. apply IH.
Qed.

(* TrimRightFunc(d, unicode.IsSpace) *)
Theorem trim_right_eq d : trim_right d = trim_right_runes d.
Proof. apply trim_right_fuel_eq. Qed.

(* strings.TrimSpace: the byte-table implementation of Lib/Bytes.v strips exactly the
   white-space runes (unicode.IsSpace of the regenerated tables) at both ends *)
Theorem trim_space_eq d : trim_space d = trim_space_runes d.
Proof. unfold trim_space, trim_space_runes. now rewrite trim_left_eq, trim_right_eq. Qed.

Theorem trim_all_eq d :
  trim_space d = trim_space_runes d /\ trim_left d = trim_left_runes d /\ trim_right d = trim_right_runes d.
Proof. split; [apply trim_space_eq|split; [apply trim_left_eq|apply trim_right_eq]]. Qed.

Lemma is_err1_wide r w : (2 <= w)%nat -> is_err1 (r, w) = false.
Proof.
  intros H. unfold is_err1. cbn [fst snd]. destruct w as [|[|w]]; try lia.
  apply andb_false_r.
Qed.

Lemma utf8_valid_fuel_eq f : forall d, utf8_valid_fuel f d = runes_ok_fuel f d.
Proof.
  induction f as [|f IH]; intros d; [reflexivity|].
  cbn [utf8_valid_fuel runes_ok_fuel]. destruct d as [|b r]; [reflexivity|].
  unfold decode_rune, err1, rune_self. fold (second3 b) (second4 b).
  destruct (bN b <? 128) eqn:E0.
  { unfold is_err1. cbn [fst snd skipn]. apply N.ltb_lt in E0.
    replace (bN b =? rune_error) with false by (symmetry; apply N.eqb_neq; unfold rune_error; lia).
    apply IH. }
  destruct (in_range 194 223 b).
  { destruct r as [|c1 r']; [reflexivity|]. destruct (cont c1); [|reflexivity].
    rewrite is_err1_wide by lia. cbn [snd skipn andb]. apply IH. }
  destruct (in_range 224 239 b).
  { destruct r as [|c1 [|c2 r']]; try reflexivity.
    change (if bN b =? 224 then in_range 160 191 c1
            else if bN b =? 237 then in_range 128 159 c1 else cont c1) with (second3 b c1).
    destruct (second3 b c1 && cont c2); [|reflexivity].
    rewrite is_err1_wide by lia. cbn [snd skipn andb]. apply IH. }
  destruct (in_range 240 244 b); [|reflexivity].
  destruct r as [|c1 [|c2 [|c3 r']]]; try reflexivity.
  change (if bN b =? 240 then in_range 144 191 c1
          else if bN b =? 244 then in_range 128 143 c1 else cont c1) with (second4 b c1).
  destruct (second4 b c1 && cont c2 && cont c3); [|reflexivity].
  rewrite is_err1_wide by lia. cbn [snd skipn andb]. apply IH.
Qed.

(* utf8.Valid: the DFA of Lib/Bytes.v accepts exactly the byte strings that decode
   rune by rune without the error answer *)
Theorem utf8_valid_eq d : utf8_valid d = runes_ok d.
Proof. apply utf8_valid_fuel_eq. Qed.

Lemma runes_ok_fuel_valid f : forall d, (length d <= f)%nat -> runes_ok_fuel f d = true -> valid_runes d.
Proof.
  induction f as [|f IH]; intros d Hl H.
  - destruct d; [constructor|discriminate].
  - cbn [runes_ok_fuel] in H. destruct (decode_rune d) as [[r w]|] eqn:E.
    + destruct (is_err1 (r, w)) eqn:Ee; [discriminate|]. cbn [snd] in H.
      apply (valid_rune d r w E Ee). apply IH; [|assumption].
      assert (Hw := decode_rune_width d r w E). rewrite skipn_length.
      destruct d; [discriminate|]. cbn [length] in *. lia.
    + apply decode_rune_None in E. subst d. constructor.
Qed.

Lemma valid_runes_ok d : valid_runes d -> forall f, (length d <= f)%nat -> runes_ok_fuel f d = true.
Proof.
  induction 1 as [|d r w E Ee Hv IH]; intros f Hl.
  - destruct f; reflexivity.
  - assert (Hw := decode_rune_width d r w E).
    destruct d as [|b d']; [discriminate|]. destruct f as [|f]; [cbn [length] in Hl; lia|].
    cbn [runes_ok_fuel]. rewrite E, Ee. cbn [snd]. apply IH.
    rewrite skipn_length. cbn [length] in *. lia.
Qed.

Theorem utf8_valid_iff d : utf8_valid d = true <-> valid_runes d.
Proof.
  rewrite utf8_valid_eq. unfold runes_ok. split.
  - apply runes_ok_fuel_valid. lia.
  - intros H. now apply valid_runes_ok.
Qed.
