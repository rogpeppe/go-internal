(* Facts about the vocabulary of Lib/GoSemData.v (and the slice operations of GoSemExt.v) at
   natural-number indexes: what the checked operations compute when the Z index is the image
   of a nat, used by the proofs that tie generated translations to models written over nat. *)
From Coq Require Import List Bool Arith ZArith Lia.
From Coq.Strings Require Import Byte.
From GI Require Import Lib.Bytes Lib.BytesFacts Lib.GoSem Lib.GoSemExt Lib.GoSemData.
Import ListNotations.

Lemma go_index_of_nat {A} (l : list A) (i : nat) :
  go_index_of l (Z.of_nat i) = match nth_error l i with Some a => Ok a | None => Panic end.
Proof.
  unfold go_index_of, index_of_z, len_of. rewrite Nat2Z.id.
  destruct (Z.ltb_spec (Z.of_nat i) (Z.of_nat (length l))) as [H|H];
    destruct (Z.leb_spec 0 (Z.of_nat i)); try lia; cbn [andb].
  - reflexivity.
  - assert (E : nth_error l i = None) by (apply nth_error_None; lia). now rewrite E.
Qed.

Lemma go_index_of_map_nat {A B} (f : A -> B) (l : list A) (i : nat) :
  go_index_of (map f l) (Z.of_nat i) = match nth_error l i with Some a => Ok (f a) | None => Panic end.
Proof. rewrite go_index_of_nat, nth_error_map. now destruct (nth_error l i). Qed.

Lemma go_index_of_neg {A} (l : list A) (i : Z) : (i < 0)%Z -> go_index_of l i = Panic.
Proof.
  intro H. unfold go_index_of, index_of_z. destruct (Z.leb_spec 0 i); [lia|]. reflexivity.
Qed.

Lemma go_slice_of_nat {A} (l : list A) (a b : nat) :
  go_slice_of l (Z.of_nat a) (Z.of_nat b) =
  if (a <=? b) && (b <=? length l) then Ok (firstn (b - a) (skipn a l)) else Panic.
Proof.
  unfold go_slice_of, slice_of_z, len_of. rewrite !Nat2Z.id.
  destruct (Nat.leb_spec a b), (Nat.leb_spec b (length l)); cbn [andb];
    destruct (Z.leb_spec 0 (Z.of_nat a)); try lia;
    destruct (Z.leb_spec (Z.of_nat a) (Z.of_nat b)); try lia;
    destruct (Z.leb_spec (Z.of_nat b) (Z.of_nat (length l))); try lia; reflexivity.
Qed.

Lemma go_store_of_nat {A} (l : list A) (i : nat) (v : A) :
  go_store_of l (Z.of_nat i) v =
  if i <? length l then Ok (firstn i l ++ v :: skipn (S i) l) else Panic.
Proof.
  unfold go_store_of, len_of. rewrite Nat2Z.id.
  destruct (Nat.ltb_spec i (length l));
    destruct (Z.leb_spec 0 (Z.of_nat i)); try lia;
    destruct (Z.ltb_spec (Z.of_nat i) (Z.of_nat (length l))); try lia; reflexivity.
Qed.

Lemma go_store_of_at {A} (pre : list A) (a : A) (rest : list A) (v : A) :
  go_store_of (pre ++ a :: rest) (len_of pre) v = Ok (pre ++ v :: rest).
Proof.
  unfold len_of. rewrite go_store_of_nat, app_length. cbn [length].
  destruct (Nat.ltb_spec (length pre) (length pre + S (length rest))); [|lia].
  rewrite firstn_app, Nat.sub_diag, firstn_all, skipn_app, skipn_all2 by lia.
  cbn [firstn]. rewrite app_nil_r. replace (S (length pre) - length pre) with 1 by lia. reflexivity.
Qed.

Lemma go_make_of_nat {A} (z : A) (n : nat) : go_make_of z (Z.of_nat n) = Ok (repeat z n).
Proof.
  unfold go_make_of. destruct (Z.ltb_spec (Z.of_nat n) 0); [lia|]. now rewrite Nat2Z.id.
Qed.

Lemma len_of_map {A B} (f : A -> B) (l : list A) : len_of (map f l) = len_of l.
Proof. unfold len_of. now rewrite map_length. Qed.

Lemma len_of_pos_iff {A} (l : list A) : (len_of l >? 0)%Z = match l with [] => false | _ => true end.
Proof. destruct l; [reflexivity|]. unfold len_of. cbn [length]. apply Z.gtb_lt. lia. Qed.

Lemma go_int_range_nat (n : nat) : go_int_range (Z.of_nat n) = map Z.of_nat (seq 0 n).
Proof. unfold go_int_range. now rewrite Nat2Z.id. Qed.

Lemma go_map_find_set {V} (m : gomap V) k v k' :
  go_map_find (go_map_set m k v) k' = if bytes_eqb k k' then Some v else go_map_find m k'.
Proof.
  induction m as [|[a w] m IH]; cbn [go_map_set go_map_find].
  - reflexivity.
  - destruct (bytes_eqb a k) eqn:E; cbn [go_map_find].
    + apply bytes_eqb_eq in E. subst a. now destruct (bytes_eqb k k').
    + rewrite IH. destruct (bytes_eqb a k') eqn:E'; [|reflexivity].
      apply bytes_eqb_eq in E'. subst k'. destruct (bytes_eqb k a) eqn:E2; [|reflexivity].
      apply bytes_eqb_eq in E2. subst k. rewrite bytes_eqb_refl in E. discriminate.
Qed.

Lemma go_map_lookup_get {V} (z : V) m k :
  go_map_lookup z m k = (go_map_get z m k, match go_map_find m k with Some _ => true | None => false end).
Proof. unfold go_map_lookup, go_map_get. now destruct (go_map_find m k). Qed.

(* the search loop of the library on nat: the reference the Z loop is compared with *)
Fixpoint search_loop_nat (steps : nat) (f : nat -> res bool) (i j : nat) : res nat :=
  if i <? j then
    match steps with
    | O => OutOfFuel
    | S k =>
        let h := Nat.div2 (i + j) in
        bind (f h) (fun b => if negb b then search_loop_nat k f (h + 1) j else search_loop_nat k f i h)
    end
  else Ok i.

Definition res_map {A B} (f : A -> B) (r : res A) : res B :=
  match r with Ok a => Ok (f a) | Panic => Panic | OutOfFuel => OutOfFuel end.

Lemma div2_of_nat (a : nat) : Z.div2 (Z.of_nat a) = Z.of_nat (Nat.div2 a).
Proof. rewrite Z.div2_div, Nat.div2_div, Nat2Z.inj_div. reflexivity. Qed.

Lemma go_search_loop_nat (fz : Z -> res bool) (fn : nat -> res bool) :
  (forall k, fz (Z.of_nat k) = fn k) ->
  forall steps i j,
    go_search_loop steps fz (Z.of_nat i) (Z.of_nat j) = res_map Z.of_nat (search_loop_nat steps fn i j).
Proof.
  intros Hf. induction steps as [|s IH]; intros i j; cbn [go_search_loop search_loop_nat].
  - destruct (Nat.ltb_spec i j), (Z.ltb_spec (Z.of_nat i) (Z.of_nat j)); try lia; reflexivity.
  - destruct (Nat.ltb_spec i j), (Z.ltb_spec (Z.of_nat i) (Z.of_nat j)); try lia; [|reflexivity].
    replace (Z.of_nat i + Z.of_nat j)%Z with (Z.of_nat (i + j)) by lia.
    rewrite div2_of_nat, Hf.
    destruct (fn (Nat.div2 (i + j))) as [b| |]; cbn [bind]; [|reflexivity|reflexivity].
    destruct b; cbn [negb].
    + apply IH.
    + replace (Z.of_nat (Nat.div2 (i + j)) + 1)%Z with (Z.of_nat (Nat.div2 (i + j) + 1)) by lia. apply IH.
Qed.

Lemma go_sort_Search_nat (fz : Z -> res bool) (fn : nat -> res bool) (n : nat) :
  (forall k, fz (Z.of_nat k) = fn k) ->
  go_sort_Search (Z.of_nat n) fz = res_map Z.of_nat (search_loop_nat n fn 0 n).
Proof.
  intro Hf. unfold go_sort_Search. rewrite Nat2Z.id. apply (go_search_loop_nat fz fn Hf n 0 n).
Qed.

Lemma go_fmt_int_nat (n : nat) : go_fmt_int (Z.of_nat n) = uint_digits (Nat.to_uint n).
Proof.
  unfold go_fmt_int. destruct (Z.ltb_spec (Z.of_nat n) 0); [lia|]. now rewrite Nat2Z.id.
Qed.

Example go_fmt_Sprintf_ex :
  go_fmt_Sprintf [x40; x25; x64; x2c; x25; x73; x25; x25] [FmtInt (-12)%Z; FmtStr [x61]] =
  Ok [x40; x2d; x31; x32; x2c; x61; x25].
Proof. reflexivity. Qed.
