(* decode_rune_tab (Lib/Utf8Go.v: utf8.DecodeRune with the regenerated tables first /
   acceptRanges, mask tricks, shifts and ors) never fails on an index and equals the
   arithmetic decode_rune of Lib/Utf8.v on every byte string. *)
From Coq Require Import List Bool Arith NArith ZArith Lia.
From Coq.Strings Require Import Byte.
From GI Require Import Lib.Bytes Lib.BytesFacts Gen.UnicodeConsts Gen.Utf8TablesConsts Lib.Utf8
  Lib.Utf8Tables Lib.Utf8EncodeFacts Lib.Utf8Go.
Import ListNotations.
Open Scope N_scope.

(* the regenerated constants of unicode/utf8 agree with those of Gen/UnicodeConsts.v *)
Lemma utf8_consts :
  utf8_rune_error = rune_error /\ utf8_rune_self = rune_self /\ utf8_locb = 128 /\ utf8_hicb = 191
  /\ utf8_maskx = 63 /\ utf8_mask2 = 31 /\ utf8_mask3 = 15 /\ utf8_mask4 = 7 /\ utf8_as = 240.
Proof. repeat split. Qed.

Definition first_class (b : byte) : N :=
  if bN b <? 128 then 240
  else if in_range 194 223 b then 2
  else if in_range 224 239 b then
    (if bN b =? 224 then 19 else if bN b =? 237 then 35 else 3)
  else if in_range 240 244 b then
    (if bN b =? 240 then 52 else if bN b =? 244 then 68 else 4)
  else 241.

Lemma first_lookup b : nthN utf8_first (bN b) = Some (first_class b).
Proof. destruct b; reflexivity. Qed.

Lemma land_pow2_disjoint x k m : m < 2 ^ k -> N.land (x * 2 ^ k) m = 0.
Proof.
  intros Hm. apply N.bits_inj. intros i. rewrite N.land_spec, N.bits_0.
  destruct (N.lt_ge_cases i k) as [Hi|Hi].
  - now rewrite N.mul_pow2_bits_low.
  - rewrite andb_comm. destruct (N.eq_dec m 0) as [->|Hne]; [now rewrite N.bits_0|].
    rewrite N.bits_above_log2; [reflexivity|].
    apply N.lt_le_trans with k; [|assumption]. apply N.log2_lt_pow2; lia.
Qed.

Lemma lor_add_low x k m : m < 2 ^ k -> N.lor (x * 2 ^ k) m = x * 2 ^ k + m.
Proof.
  intros Hm. pose proof (land_pow2_disjoint x k m Hm) as H.
  rewrite (N.add_nocarry_lxor _ _ H). symmetry. now apply N.lxor_lor.
Qed.

Lemma shiftl6 a : N.shiftl a 6 = a * 2 ^ 6.   Proof. apply N.shiftl_mul_pow2. Qed.
Lemma shiftl12 a : N.shiftl a 12 = a * 2 ^ 12. Proof. apply N.shiftl_mul_pow2. Qed.
Lemma shiftl18 a : N.shiftl a 18 = a * 2 ^ 18. Proof. apply N.shiftl_mul_pow2. Qed.

Lemma join2 a b : b < 64 -> N.lor (N.shiftl a 6) b = a * 64 + b.
Proof. intros H. rewrite shiftl6, lor_add_low by (cbn; lia). reflexivity. Qed.

Lemma join3 a b c : b < 64 -> c < 64 ->
  N.lor (N.lor (N.shiftl a 12) (N.shiftl b 6)) c = a * 4096 + b * 64 + c.
Proof.
  intros Hb Hc. rewrite shiftl12, shiftl6.
  rewrite (lor_add_low a 12 (b * 2 ^ 6)) by (cbn; lia).
  replace (a * 2 ^ 12 + b * 2 ^ 6) with ((a * 64 + b) * 2 ^ 6) by (cbn; lia).
  rewrite lor_add_low by (cbn; lia). cbn. lia.
Qed.

Lemma join4 a b c d : b < 64 -> c < 64 -> d < 64 ->
  N.lor (N.lor (N.lor (N.shiftl a 18) (N.shiftl b 12)) (N.shiftl c 6)) d
  = a * 262144 + b * 4096 + c * 64 + d.
Proof.
  intros Hb Hc Hd. rewrite shiftl18, shiftl12, shiftl6.
  rewrite (lor_add_low a 18 (b * 2 ^ 12)) by (cbn; lia).
  replace (a * 2 ^ 18 + b * 2 ^ 12) with ((a * 64 + b) * 2 ^ 12) by (cbn; lia).
  rewrite (lor_add_low _ 12 (c * 2 ^ 6)) by (cbn; lia).
  replace ((a * 64 + b) * 2 ^ 12 + c * 2 ^ 6) with ((a * 4096 + b * 64 + c) * 2 ^ 6) by (cbn; lia).
  rewrite lor_add_low by (cbn; lia). cbn. lia.
Qed.

(* p0 & mask for the leaders, b & maskx for continuation bytes: the mask keeps the part of
   the byte below the fixed high bits *)
Lemma land_low k p n : k * 2 ^ p <= n < (k + 1) * 2 ^ p -> N.land n (N.ones p) = n - k * 2 ^ p.
Proof.
  intros H. rewrite N.land_ones. assert (Hp : 2 ^ p <> 0) by (apply N.pow_nonzero; discriminate).
  replace n with (n - k * 2 ^ p + k * 2 ^ p) at 1 by lia. rewrite N.mod_add by exact Hp.
  apply N.mod_small. lia.
Qed.

Lemma land_cont c : cont c = true -> N.land (bN c) 63 = bN c - 128.
Proof. intros H. apply cont_iff in H. apply (land_low 2 6). cbn. lia. Qed.
Lemma land_lead2 b : in_range 194 223 b = true -> N.land (bN b) 31 = bN b - 192.
Proof. intros H. apply in_range_iff in H. apply (land_low 6 5). cbn. lia. Qed.
Lemma land_lead3 b : in_range 224 239 b = true -> N.land (bN b) 15 = bN b - 224.
Proof. intros H. apply in_range_iff in H. apply (land_low 14 4). cbn. lia. Qed.
Lemma land_lead4 b : in_range 240 244 b = true -> N.land (bN b) 7 = bN b - 240.
Proof. intros H. apply in_range_iff in H. apply (land_low 30 3). cbn. lia. Qed.

Lemma cont_lt64 c : cont c = true -> bN c - 128 < 64.
Proof. intros H. apply cont_iff in H. lia. Qed.

(* b < lo || hi < b  is the negation of the range test *)
Lemma out_of_range lo hi b : ((bN b <? lo) || (hi <? bN b)) = negb (in_range lo hi b).
Proof.
  unfold in_range. rewrite negb_andb, <- !N.ltb_antisym. reflexivity.
Qed.

Definition dres_of (o : option (N * nat)) : dres :=
  match o with Some (r, w) => DOk r w | None => DEmpty end.

Theorem decode_rune_tab_eq p : decode_rune_tab p = dres_of (decode_rune p).
Proof.
  destruct p as [|b0 rest]; [reflexivity|].
  unfold decode_rune_tab, decode_rune, err1. cbv zeta. rewrite first_lookup. unfold first_class.
  destruct utf8_consts as [K1 [_ [K3 [K4 [K5 [K6 [K7 [K8 K9]]]]]]]].
  rewrite ?K1, ?K3, ?K4, ?K5, ?K6, ?K7, ?K8, ?K9. unfold rune_self.
  destruct (bN b0 <? 128) eqn:E0.
  { cbn [N.leb N.odd dres_of]. replace (240 <=? 240) with true by reflexivity. cbn [N.odd].
    now rewrite N.ldiff_0_r, N.land_0_r, N.lor_0_r. }
  destruct (in_range 194 223 b0) eqn:E2.
  { replace (240 <=? 2) with false by reflexivity.
    change (N.to_nat (N.land 2 7)) with 2%nat. change (nthN utf8_accept_ranges (N.shiftr 2 4)) with (Some (128, 191)).
    destruct rest as [|c1 r1]; [reflexivity|]. cbn [length nth_error Nat.ltb Nat.leb].
    rewrite out_of_range. fold (cont c1). destruct (cont c1) eqn:Ec; cbn [negb dres_of]; [|reflexivity].
    rewrite land_lead2, land_cont by assumption. rewrite join2 by (now apply cont_lt64). reflexivity. }
  destruct (in_range 224 239 b0) eqn:E3.
  { assert (Hx : exists x acc, (if bN b0 =? 224 then 19 else if bN b0 =? 237 then 35 else 3) = x /\
               (240 <=? x) = false /\ N.to_nat (N.land x 7) = 3%nat /\
               nthN utf8_accept_ranges (N.shiftr x 4) = Some acc /\
               (forall c, negb (in_range (fst acc) (snd acc) c) = negb (second3 b0 c))).
    { unfold second3. destruct (bN b0 =? 224); [|destruct (bN b0 =? 237)];
        eexists; eexists; repeat split; reflexivity. }
    destruct Hx as [x [[lo hi] [-> [-> [-> [-> Hacc]]]]]]. cbn [fst snd] in Hacc.
    destruct rest as [|c1 [|c2 r2]]; try reflexivity.
    cbn [length nth_error Nat.ltb Nat.leb]. rewrite out_of_range, Hacc.
    destruct (second3 b0 c1) eqn:Es; cbn [negb andb dres_of]; [|reflexivity].
    rewrite out_of_range. fold (cont c2). destruct (cont c2) eqn:Ec2; cbn [negb dres_of]; [|reflexivity].
    assert (Ec1 : cont c1 = true) by (apply cont_iff; apply second3_true in Es; lia).
    rewrite land_lead3, !land_cont by assumption.
    rewrite join3 by (now apply cont_lt64). reflexivity. }
  destruct (in_range 240 244 b0) eqn:E4.
  { assert (Hx : exists x acc, (if bN b0 =? 240 then 52 else if bN b0 =? 244 then 68 else 4) = x /\
               (240 <=? x) = false /\ N.to_nat (N.land x 7) = 4%nat /\
               nthN utf8_accept_ranges (N.shiftr x 4) = Some acc /\
               (forall c, negb (in_range (fst acc) (snd acc) c) = negb (second4 b0 c))).
    { unfold second4. destruct (bN b0 =? 240); [|destruct (bN b0 =? 244)];
        eexists; eexists; repeat split; reflexivity. }
    destruct Hx as [x [[lo hi] [-> [-> [-> [-> Hacc]]]]]]. cbn [fst snd] in Hacc.
    destruct rest as [|c1 [|c2 [|c3 r3]]]; try reflexivity.
    cbn [length nth_error Nat.ltb Nat.leb]. rewrite out_of_range, Hacc.
    destruct (second4 b0 c1) eqn:Es; cbn [negb andb dres_of]; [|reflexivity].
    rewrite out_of_range. fold (cont c2). destruct (cont c2) eqn:Ec2; cbn [negb andb dres_of]; [|reflexivity].
    rewrite out_of_range. fold (cont c3). destruct (cont c3) eqn:Ec3; cbn [negb dres_of]; [|reflexivity].
    assert (Ec1 : cont c1 = true) by (apply cont_iff; apply second4_true in Es; lia).
    rewrite land_lead4, !land_cont by assumption.
    rewrite join4 by (now apply cont_lt64). reflexivity. }
  (* not a leader: first[p0] = xx, the mask is all ones *)
  replace (240 <=? 241) with true by reflexivity. cbn [N.odd dres_of].
  pose proof (bN_lt b0) as Hb.
  assert (Hl : N.ldiff (bN b0) 4294967295 = 0).
  { apply (N.ldiff_ones_r_low _ 32). destruct (N.eq_dec (bN b0) 0) as [->|Hne]; [reflexivity|].
    apply N.log2_lt_pow2; [lia|]. now apply N.lt_trans with 256. }
  change (N.odd 241) with true. cbv iota. rewrite Hl. reflexivity.
Qed.

Theorem decode_rune_tab_no_panic p : decode_rune_tab p <> DPanic.
Proof. rewrite decode_rune_tab_eq. destruct (decode_rune p) as [[r w]|]; discriminate. Qed.
