(* Facts about Lib/GoSemInt64.v: wrapping is the identity on the values of the type, lands in
   the type, and differs from its argument by a multiple of 2^64. *)
From Coq Require Import ZArith Lia.
From GI Require Import Lib.GoSem Lib.GoSemInt64.
Local Open Scope Z_scope.

Lemma go_wrap64_id : forall z, is_i64 z -> go_wrap64 z = z.
Proof.
  intros z H. unfold go_wrap64, is_i64, i64_two63, i64_two64 in *.
  rewrite Z.mod_small by lia. lia.
Qed.

Lemma go_wrap64_range : forall z, is_i64 (go_wrap64 z).
Proof.
  intros z. unfold go_wrap64, is_i64, i64_two63, i64_two64.
  pose proof (Z.mod_pos_bound (z + 9223372036854775808) 18446744073709551616 ltac:(lia)). lia.
Qed.

Lemma go_wrap64_eq : forall z, exists k, go_wrap64 z = z + k * i64_two64.
Proof.
  intros z. unfold go_wrap64.
  exists (- ((z + i64_two63) / i64_two64)).
  pose proof (Z.div_mod (z + i64_two63) i64_two64 ltac:(unfold i64_two64; lia)). lia.
Qed.

Lemma go_wrap64_low : forall z, - i64_two63 - i64_two64 <= z < - i64_two63 -> go_wrap64 z = z + i64_two64.
Proof.
  intros z H. destruct (go_wrap64_eq z) as [k Hk]. pose proof (go_wrap64_range z) as R.
  unfold is_i64, i64_two63, i64_two64 in *. nia.
Qed.

Lemma go_wrap64_high : forall z, i64_two63 <= z < i64_two63 + i64_two64 -> go_wrap64 z = z - i64_two64.
Proof.
  intros z H. destruct (go_wrap64_eq z) as [k Hk]. pose proof (go_wrap64_range z) as R.
  unfold is_i64, i64_two63, i64_two64 in *. nia.
Qed.

(* division by a positive constant never wraps *)
Lemma go_i64_quo_pos : forall a b, is_i64 a -> 0 < b -> go_i64_quo a b = Ok (Z.quot a b).
Proof.
  intros a b Ha Hb. unfold go_i64_quo.
  destruct (Z.eqb_spec b 0) as [E|_]; [lia|]. f_equal. apply go_wrap64_id.
  unfold is_i64, i64_two63 in *.
  destruct (Z_le_gt_dec 0 a) as [P|N].
  - pose proof (Z.quot_pos a b P Hb). pose proof (Z.quot_le_upper_bound a b a ltac:(lia)). 
    assert (a <= b * a) by nia. lia.
  - assert (Hq : Z.quot a b = - Z.quot (- a) b) by (rewrite Z.quot_opp_l by lia; lia).
    pose proof (Z.quot_pos (- a) b ltac:(lia) Hb).
    assert (Z.quot (- a) b <= - a) by (apply Z.quot_le_upper_bound; nia). lia.
Qed.
