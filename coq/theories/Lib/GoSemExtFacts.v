(* Lemmas and tactics about the vocabulary of Lib/GoSem.v and Lib/GoSemExt.v that the
   equality proofs between translated sources (Gen/*Src.v) and hand-written models share:
   checked slice and index expressions in terms of firstn / skipn / nth_error, the byte
   and substring searches, range over a string and over an int, the substring relation. *)
From Coq Require Import List Bool Arith ZArith NArith Lia ZifyBool.
From Coq.Strings Require Import Byte.
From GI Require Import Lib.Bytes Lib.BytesFacts Lib.GoSem Lib.GoSemExt Lib.Utf8 Lib.Utf8EncodeFacts.
Import ListNotations.
Local Open Scope nat_scope.

Definition opt_res {A : Type} (o : option A) : res A :=
  match o with Some a => Ok a | None => Panic end.

(* a function's result as the outcome of a block that returns it *)
Definition returned {S L R : Type} (r : res R) : res (outcome S L R) :=
  match r with Ok x => Ok (Return x) | Panic => Panic | OutOfFuel => OutOfFuel end.

(* reduce the monadic plumbing of a translated function body *)
Ltac go_red :=
  cbv beta iota zeta;
  cbn [bind bindT bindO bindL negb orb andb fst snd opt_res returned app].

(* case split on the innermost scrutinee *)
Ltac break_match :=
  match goal with
  | |- context [match ?x with _ => _ end] =>
      lazymatch x with
      | context [match _ with _ => _ end] => fail
      | _ => destruct x eqn:?
      end
  end.

(* go_red, then case splits on the scrutinees from the inside out; each case is closed by
   reflexivity, discriminate, lia or [tac], or left to the caller *)
Ltac go_cases tac :=
  go_red; repeat (break_match; go_red; try reflexivity; try discriminate; try lia; try tac).

Lemma bytes_eqb_nil x : bytes_eqb x [] = match x with [] => true | _ => false end.
Proof. now destruct x. Qed.

Lemma bytes_eqb_sym a : forall b, bytes_eqb a b = bytes_eqb b a.
Proof.
  induction a as [|x a IH]; intros [|y b]; cbn [bytes_eqb]; try reflexivity.
  now rewrite beq_sym, IH.
Qed.

Lemma bind_Ok_inv {A B} (m : res A) (k : A -> res B) b :
  bind m k = Ok b -> exists a, m = Ok a /\ k a = Ok b.
Proof. destruct m as [a| |]; try discriminate. intros H. now exists a. Qed.

Lemma bind_OutOfFuel_inv {A B} (m : res A) (k : A -> res B) :
  bind m k = OutOfFuel -> m = OutOfFuel \/ exists a, m = Ok a /\ k a = OutOfFuel.
Proof. destruct m as [a| |]; try discriminate; [|now left]. intros H. right. now exists a. Qed.

Lemma bind_assoc {A B C} (m : res A) (k : A -> res B) (g : B -> res C) :
  bind (bind m k) g = bind m (fun a => bind (k a) g).
Proof. now destruct m. Qed.

Lemma bind_Ok_r {A} (r : res A) : bind r (fun a => Ok a) = r.
Proof. now destruct r. Qed.

Lemma bind_if {A B} (c : bool) (x y : A) (k : A -> res B) :
  bind (if c then Ok x else Ok y) k = k (if c then x else y).
Proof. now destruct c. Qed.

Lemma slice_of_z_nat {A} (d : list A) lo hi : lo <= hi -> hi <= length d ->
  slice_of_z d (Z.of_nat lo) (Z.of_nat hi) = Some (firstn (hi - lo) (skipn lo d)).
Proof.
  intros H1 H2. unfold slice_of_z, len_of.
  destruct ((0 <=? Z.of_nat lo) && (Z.of_nat lo <=? Z.of_nat hi) && (Z.of_nat hi <=? Z.of_nat (length d)))%Z eqn:E; [|lia].
  now rewrite !Nat2Z.id.
Qed.

Lemma index_of_z_nat {A} (d : list A) k : k < length d -> index_of_z d (Z.of_nat k) = nth_error d k.
Proof.
  intros H. unfold index_of_z, len_of.
  destruct ((0 <=? Z.of_nat k) && (Z.of_nat k <? Z.of_nat (length d)))%Z eqn:E; [|lia]. now rewrite Nat2Z.id.
Qed.

(* x[0] *)
Lemma index_of_head {A} (a : A) (r : list A) : index_of_z (a :: r) 0 = Some a.
Proof. apply (index_of_z_nat (a :: r) 0). cbn. lia. Qed.

(* len, slice_z and index_z are len_of, slice_of_z and index_of_z at byte *)
Lemma len_nil : len [] = 0%Z.
Proof. reflexivity. Qed.

Lemma len_pos_iff d : (len d >? 0)%Z = match d with [] => false | _ => true end.
Proof. unfold len. destruct d; cbn [length]; lia. Qed.

Lemma len_zero_iff d : (len d =? 0)%Z = match d with [] => true | _ => false end.
Proof. unfold len. destruct d; cbn [length]; lia. Qed.

Lemma slice_z_nat d lo hi : lo <= hi -> hi <= length d ->
  slice_z d (Z.of_nat lo) (Z.of_nat hi) = Some (firstn (hi - lo) (skipn lo d)).
Proof. exact (slice_of_z_nat d lo hi). Qed.

(* d[:k] *)
Lemma slice_z_to d k : k <= length d -> slice_z d 0 (Z.of_nat k) = Some (firstn k d).
Proof. intros H. change 0%Z with (Z.of_nat 0). rewrite (slice_z_nat d 0 k) by lia. now rewrite Nat.sub_0_r. Qed.

(* d[k:] *)
Lemma slice_z_from d k : k <= length d -> slice_z d (Z.of_nat k) (len d) = Some (skipn k d).
Proof.
  intros H. unfold len. rewrite slice_z_nat by lia. f_equal. apply firstn_all2. rewrite skipn_length. lia.
Qed.

(* d[len(d):] *)
Lemma slice_z_end d : slice_z d (len d) (len d) = Some [].
Proof. unfold len at 1. rewrite slice_z_from by lia. now rewrite skipn_all. Qed.

(* d[0] *)
Lemma index_z_head b r : index_z (b :: r) 0 = Some b.
Proof. exact (index_of_head b r). Qed.

Lemma index_z_nat d k : k < length d -> index_z d (Z.of_nat k) = nth_error d k.
Proof. exact (index_of_z_nat d k). Qed.

(* the same as computations *)
Lemma go_slice_nat d lo hi : lo <= hi -> hi <= length d ->
  go_slice d (Z.of_nat lo) (Z.of_nat hi) = Ok (firstn (hi - lo) (skipn lo d)).
Proof. intros H1 H2. unfold go_slice. now rewrite slice_z_nat. Qed.

Lemma go_slice_to d k : k <= length d -> go_slice d 0 (Z.of_nat k) = Ok (firstn k d).
Proof. intros H. unfold go_slice. now rewrite slice_z_to. Qed.

Lemma go_slice_from d k : k <= length d -> go_slice d (Z.of_nat k) (len d) = Ok (skipn k d).
Proof. intros H. unfold go_slice. now rewrite slice_z_from. Qed.

Lemma go_index_nat d k c : nth_error d k = Some c -> go_index d (Z.of_nat k) = Ok c.
Proof.
  intros H. unfold go_index. rewrite index_z_nat, H; [reflexivity|]. apply nth_error_Some. congruence.
Qed.

Lemma go_index_app (x tail : bytes) i :
  (0 <= i < len x)%Z -> go_index (x ++ tail) i = Ok (nth (Z.to_nat i) x x00).
Proof.
  intros Hi. unfold len in Hi. rewrite <- (Z2Nat.id i) at 1 by lia.
  apply go_index_nat. rewrite nth_error_app1 by lia. apply nth_error_nth'. lia.
Qed.

Lemma go_index_ok (x : bytes) i : (0 <= i < len x)%Z -> go_index x i = Ok (nth (Z.to_nat i) x x00).
Proof. intros Hi. rewrite <- (app_nil_r x) at 1. now apply go_index_app. Qed.

Lemma go_slice_app (x tail : bytes) lo hi :
  (0 <= lo <= hi)%Z -> (hi <= len x)%Z ->
  go_slice (x ++ tail) lo hi = Ok (firstn (Z.to_nat hi - Z.to_nat lo) (skipn (Z.to_nat lo) x)).
Proof.
  intros H1 H2. unfold len in H2. rewrite <- (Z2Nat.id lo), <- (Z2Nat.id hi) at 1 by lia.
  rewrite go_slice_nat by (rewrite ?app_length; lia).
  rewrite skipn_app, firstn_app, skipn_length.
  replace (Z.to_nat hi - Z.to_nat lo - (length x - Z.to_nat lo)) with 0 by lia.
  cbn [firstn]. now rewrite app_nil_r.
Qed.

Lemma go_slice_app_end (x tail : bytes) lo :
  (0 <= lo <= len x)%Z ->
  go_slice (x ++ tail) lo (len (x ++ tail)) = Ok (skipn (Z.to_nat lo) x ++ tail).
Proof.
  intros H. unfold len in H. rewrite <- (Z2Nat.id lo) at 1 by lia.
  rewrite go_slice_from by (rewrite app_length; lia). rewrite skipn_app.
  now replace (Z.to_nat lo - length x) with 0 by lia.
Qed.

Lemma go_slice_end (x : bytes) lo :
  (0 <= lo <= len x)%Z -> go_slice x lo (len x) = Ok (skipn (Z.to_nat lo) x).
Proof. intros H. pose proof (go_slice_app_end x [] lo H) as E. now rewrite !app_nil_r in E. Qed.

Lemma go_slice_all (x : bytes) : go_slice x 0 (len x) = Ok x.
Proof. apply (go_slice_from x 0). lia. Qed.

Lemma index_byte_Some c d k : index_byte c d = Some k ->
  k < length d /\ ~ In c (firstn k d) /\ d = firstn k d ++ c :: skipn (S k) d.
Proof.
  revert k. induction d as [|b r IH]; intros k H; cbn [index_byte] in H; [discriminate|].
  destruct (beq b c) eqn:E.
  - injection H as <-. apply beq_eq in E. subst b. cbn. repeat split; [lia|tauto].
  - destruct (index_byte c r) as [j|]; [|discriminate]. injection H as <-.
    destruct (IH j eq_refl) as [H1 [H2 H3]]. cbn [length firstn skipn]. split; [lia|]. split.
    + intros [Hc|Hc]; [subst; now rewrite beq_refl in E|contradiction].
    + cbn [app]. f_equal. exact H3.
Qed.

Lemma index_byte_None c d : index_byte c d = None -> ~ In c d.
Proof.
  induction d as [|b r IH]; cbn [index_byte]; [tauto|]. destruct (beq b c) eqn:E; [discriminate|].
  destruct (index_byte c r); [discriminate|]. intros _ [H|H]; [subst; now rewrite beq_refl in E|now apply IH].
Qed.

Lemma index_byte_first c pre rest : ~ In c pre -> index_byte c (pre ++ c :: rest) = Some (length pre).
Proof.
  induction pre as [|b p IH]; intros H; cbn [app index_byte length].
  - now rewrite beq_refl.
  - rewrite beq_false by (intros ->; apply H; now left). rewrite IH; [reflexivity|]. intros Hin. apply H. now right.
Qed.

Lemma index_byte_notin c d : ~ In c d -> index_byte c d = None.
Proof.
  induction d as [|b r IH]; intros H; [reflexivity|]. cbn [index_byte].
  rewrite beq_false by (intros ->; apply H; now left). rewrite IH; [reflexivity|]. intros Hin. apply H. now right.
Qed.

(* strings.Index(s, "c") for a one-byte string is strings.IndexByte(s, 'c') *)
Lemma index_sub_byte c d : index_sub [c] d = index_byte c d.
Proof.
  induction d as [|b r IH]; [reflexivity|]. cbn [index_sub index_byte has_prefix].
  rewrite andb_true_r, beq_sym. destruct (beq b c); [reflexivity|]. now rewrite IH.
Qed.

(* the line that `i := IndexByte(p, c); if i >= 0 { line, p = p[:i], p[i+1:] } else { line, p = p, p[len(p):] }` cuts off *)
Definition cut_at (c : byte) (p : bytes) : bytes * bytes :=
  match index_byte c p with
  | Some k => (firstn k p, skipn (S k) p)
  | None => (p, [])
  end.

Lemma cut_at_length c p : p <> [] -> length (snd (cut_at c p)) < length p.
Proof.
  intros Hp. unfold cut_at. destruct (index_byte c p) as [k|] eqn:E; cbn [snd].
  - apply index_byte_Some in E. rewrite skipn_length. lia.
  - destruct p; [contradiction|cbn; lia].
Qed.

Definition sub (x d : bytes) : Prop := exists a b, d = a ++ x ++ b.

Lemma sub_refl d : sub d d.
Proof. exists [], []. now rewrite app_nil_r. Qed.

Lemma sub_trans x y z : sub x y -> sub y z -> sub x z.
Proof.
  intros [a [b ->]] [c [e ->]]. exists (c ++ a), (b ++ e). now rewrite <- !app_assoc.
Qed.

Lemma sub_length x d : sub x d -> length x <= length d.
Proof. intros [a [b ->]]. rewrite !app_length. lia. Qed.

Lemma sub_incl x d : sub x d -> incl x d.
Proof. intros [a [b ->]] y Hy. apply in_or_app. right. apply in_or_app. now left. Qed.

Lemma sub_firstn k d : sub (firstn k d) d.
Proof. exists [], (skipn k d). cbn [app]. now rewrite firstn_skipn. Qed.

Lemma sub_skipn k d : sub (skipn k d) d.
Proof. exists (firstn k d), []. now rewrite app_nil_r, firstn_skipn. Qed.

Lemma sub_app_l x a d : sub x d -> sub x (a ++ d).
Proof. intros [p [q ->]]. exists (a ++ p), q. now rewrite <- app_assoc. Qed.

Lemma sub_app_r x a d : sub x d -> sub x (d ++ a).
Proof. intros [p [q ->]]. exists p, (q ++ a). now rewrite <- !app_assoc. Qed.

Lemma sub_cons x b d : sub x d -> sub x (b :: d).
Proof. apply (sub_app_l x [b] d). Qed.

Lemma sub_tail b r : sub r (b :: r).
Proof. exists [b], []. now rewrite app_nil_r. Qed.

Lemma sub_trim_space d : sub (trim_space d) d.
Proof.
  unfold trim_space. destruct (trim_left_suffix d) as [p Hp]. destruct (trim_right_prefix (trim_left d)) as [s Hs].
  exists p, s. rewrite <- Hs. exact Hp.
Qed.

Lemma sub_Forall (Q : byte -> Prop) x d : sub x d -> Forall Q d -> Forall Q x.
Proof. intros Hs Hd. apply Forall_forall. intros y Hy. rewrite Forall_forall in Hd. apply Hd. now apply (sub_incl x d). Qed.

Lemma cut_at_sub c p : sub (fst (cut_at c p)) p /\ sub (snd (cut_at c p)) p.
Proof.
  unfold cut_at. destruct (index_byte c p); cbn [fst snd].
  - split; [apply sub_firstn|apply sub_skipn].
  - split; [apply sub_refl|]. exists p, []. now rewrite app_nil_r.
Qed.

Lemma len_of_app {A} (x y : list A) : len_of (x ++ y) = (len_of x + len_of y)%Z.
Proof. unfold len_of. rewrite app_length. lia. Qed.

Lemma len_of_nonneg {A} (x : list A) : (0 <= len_of x)%Z.
Proof. unfold len_of. lia. Qed.

(* x[len(x)-1] *)
Lemma index_of_last {A} (q : list A) (a : A) : index_of_z (q ++ [a]) (len_of (q ++ [a]) - 1) = Some a.
Proof.
  unfold index_of_z, len_of. rewrite app_length. cbn [length].
  destruct ((0 <=? Z.of_nat (length q + 1) - 1) && (Z.of_nat (length q + 1) - 1 <? Z.of_nat (length q + 1)))%Z eqn:E; [|lia].
  replace (Z.to_nat (Z.of_nat (length q + 1) - 1)) with (length q) by lia.
  rewrite nth_error_app2 by lia. now rewrite Nat.sub_diag.
Qed.

(* x[len(x)-2] *)
Lemma index_of_last2 {A} (q : list A) (o a : A) : index_of_z (q ++ [o; a]) (len_of (q ++ [o; a]) - 2) = Some o.
Proof.
  unfold index_of_z, len_of. rewrite app_length. cbn [length].
  destruct ((0 <=? Z.of_nat (length q + 2) - 2) && (Z.of_nat (length q + 2) - 2 <? Z.of_nat (length q + 2)))%Z eqn:E; [|lia].
  replace (Z.to_nat (Z.of_nat (length q + 2) - 2)) with (length q) by lia.
  rewrite nth_error_app2 by lia. now rewrite Nat.sub_diag.
Qed.

(* x[:len(x)-1] *)
Lemma slice_of_init {A} (q : list A) (a : A) : slice_of_z (q ++ [a]) 0 (len_of (q ++ [a]) - 1) = Some q.
Proof.
  unfold slice_of_z, len_of. rewrite app_length. cbn [length].
  destruct ((0 <=? 0) && (0 <=? Z.of_nat (length q + 1) - 1) && (Z.of_nat (length q + 1) - 1 <=? Z.of_nat (length q + 1)))%Z eqn:E; [|lia].
  replace (Z.to_nat (Z.of_nat (length q + 1) - 1) - Z.to_nat 0) with (length q) by lia.
  cbn [Z.to_nat skipn]. now rewrite firstn_app, Nat.sub_diag, firstn_all, app_nil_r.
Qed.

Lemma index_of_nil {A} i : @index_of_z A [] i = None.
Proof. unfold index_of_z, len_of. cbn [length]. destruct ((0 <=? i) && (i <? Z.of_nat 0))%Z eqn:E; [lia|reflexivity]. Qed.

(* x[1:] *)
Lemma slice_of_tail {A} (a : A) (r : list A) : slice_of_z (a :: r) 1 (len_of (a :: r)) = Some r.
Proof.
  unfold slice_of_z, len_of. cbn [length].
  destruct ((0 <=? 1) && (1 <=? Z.of_nat (S (length r))) && (Z.of_nat (S (length r)) <=? Z.of_nat (S (length r))))%Z eqn:E; [|lia].
  rewrite Nat2Z.id. change (Z.to_nat 1) with 1. cbn [skipn]. f_equal. apply firstn_all2. lia.
Qed.

Lemma go_int_range_len d : go_int_range (len d) = map Z.of_nat (seq 0 (length d)).
Proof. unfold go_int_range, len. now rewrite Nat2Z.id. Qed.

Lemma decode_rune_nonempty b r : exists c w, decode_rune (b :: r) = Some (c, w) /\ 1 <= w.
Proof.
  destruct (decode_rune (b :: r)) as [[c w]|] eqn:E.
  - exists c, w. split; [reflexivity|]. apply decode_rune_width in E. lia.
  - now apply decode_rune_None in E.
Qed.

(* the number of decoding steps is immaterial once it covers the string *)
Lemma go_runes_from_enough n : forall m pos s, length s <= n -> length s <= m ->
  go_runes_from n pos s = go_runes_from m pos s.
Proof.
  induction n as [|n IH]; intros m pos s Hn Hm.
  - destruct s; [|cbn in Hn; lia]. destruct m; reflexivity.
  - destruct s as [|b r]; [destruct m; reflexivity|]. destruct m as [|m]; [cbn in Hm; lia|].
    cbn [go_runes_from]. destruct (decode_rune_nonempty b r) as [c [w [E Hw]]]. rewrite E.
    f_equal. apply IH; rewrite skipn_length; cbn [length] in *; lia.
Qed.

Lemma go_runes_nil : go_runes [] = [].
Proof. reflexivity. Qed.

Lemma rev_cases {A} (l : list A) :
  (l = [] /\ rev l = []) \/ (exists q a, l = q ++ [a] /\ rev l = a :: rev q).
Proof.
  destruct (rev l) as [|a r] eqn:E.
  - left. split; [|reflexivity]. rewrite <- (rev_involutive l), E. reflexivity.
  - right. exists (rev r), a. rewrite rev_involutive. split; [|reflexivity].
    rewrite <- (rev_involutive l), E. reflexivity.
Qed.

(* len(x) > 0, len(x) >= 1, len(x) >= 2 *)
Lemma len_of_pos_rev {A} (l : list A) : (len_of l >? 0)%Z = match rev l with [] => false | _ => true end.
Proof.
  destruct (rev_cases l) as [[-> ->]|[q [a [-> ->]]]]; [reflexivity|]. unfold len_of. rewrite app_length. cbn [length]. lia.
Qed.
Lemma len_of_ge1_rev {A} (l : list A) : (len_of l >=? 1)%Z = match rev l with [] => false | _ => true end.
Proof.
  destruct (rev_cases l) as [[-> ->]|[q [a [-> ->]]]]; [reflexivity|]. unfold len_of. rewrite app_length. cbn [length]. lia.
Qed.
Lemma len_of_ge2_rev {A} (l : list A) : (len_of l >=? 2)%Z = match rev l with _ :: _ :: _ => true | _ => false end.
Proof.
  destruct (rev_cases l) as [[-> ->]|[q [a [-> ->]]]]; [reflexivity|].
  destruct (rev_cases q) as [[-> ->]|[q' [o [-> ->]]]]; [reflexivity|].
  unfold len_of. rewrite !app_length. cbn [length]. lia.
Qed.

(* x[len(x)-1], x[len(x)-2], x[:len(x)-1] *)
Lemma go_index_of_last_rev {A} (l : list A) :
  go_index_of l (len_of l - 1) = match rev l with a :: _ => Ok a | [] => Panic end.
Proof.
  unfold go_index_of. destruct (rev_cases l) as [[-> ->]|[q [a [-> ->]]]]; [now rewrite index_of_nil|].
  now rewrite index_of_last.
Qed.
Lemma go_index_of_last2_rev {A} (l : list A) :
  go_index_of l (len_of l - 2) = match rev l with _ :: o :: _ => Ok o | _ => Panic end.
Proof.
  unfold go_index_of. destruct (rev_cases l) as [[-> ->]|[q [a [-> ->]]]]; [now rewrite index_of_nil|].
  destruct (rev_cases q) as [[-> ->]|[q' [o [-> ->]]]].
  - unfold index_of_z, len_of. cbn [app length]. reflexivity.
  - rewrite <- app_assoc. cbn [app]. now rewrite index_of_last2.
Qed.
Lemma go_slice_of_init_rev {A} (l : list A) :
  go_slice_of l 0 (len_of l - 1) = match rev l with _ :: r => Ok (rev r) | [] => Panic end.
Proof.
  unfold go_slice_of. destruct (rev_cases l) as [[-> ->]|[q [a [-> ->]]]]; [reflexivity|].
  now rewrite slice_of_init, rev_involutive.
Qed.
