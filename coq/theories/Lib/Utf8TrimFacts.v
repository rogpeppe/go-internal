(* The Go-literal TrimLeftFunc / TrimRightFunc of Lib/Utf8Trim.v compute
   trim_left_runes / trim_right_runes (hence, by Utf8Facts.v, the byte-table
   trim_left / trim_right of Lib/Bytes.v), never run out of fuel and never index out
   of range.  The point of the right-hand side: the width obtained by decoding forwards
   at the last non-space rune equals the size DecodeLastRune reported for it. *)
From Coq Require Import List Bool Arith NArith ZArith Lia.
From Coq.Strings Require Import Byte.
From GI Require Import Lib.Bytes Lib.BytesFacts Gen.UnicodeConsts Lib.Utf8 Lib.Utf8Tables
  Lib.Utf8EncodeFacts Lib.Utf8Facts Lib.Utf8Trim.
Import ListNotations.
Open Scope N_scope.

Lemma index_not_space_spec f : forall d start,
  (length (skipn start d) <= f)%nat ->
  match index_not_space f d start with
  | LFound i => trim_left_runes_fuel f (skipn start d) = skipn i d
  | LNone => trim_left_runes_fuel f (skipn start d) = []
  | LOutOfFuel => False
  end.
Proof.
  induction f as [|f IH]; intros d start Hl.
  - cbn [index_not_space trim_left_runes_fuel]. destruct (skipn start d); [reflexivity|cbn in Hl; lia].
  - cbn [index_not_space trim_left_runes_fuel].
    destruct (decode_rune (skipn start d)) as [[r w]|] eqn:E.
    + destruct (is_space_rune r); [|reflexivity].
      assert (Hw := decode_rune_width _ _ _ E).
      specialize (IH d (start + w)%nat). rewrite <- skipn_skipn' in IH. apply IH.
      rewrite skipn_length. destruct (skipn start d); [discriminate|]. cbn [length] in *. lia.
    + now apply decode_rune_None in E.
Qed.

Theorem trim_left_func_eq d : trim_left_func d = Some (trim_left_runes d).
Proof.
  unfold trim_left_func, trim_left_runes.
  pose proof (index_not_space_spec (length d) d 0 (Nat.le_refl _)) as H. cbn [skipn] in H.
  destruct (index_not_space (length d) d 0); [now rewrite H|now rewrite H|contradiction].
Qed.

(* what follows position i: nothing, or a byte that starts a rune *)
Definition tail_ok (t : bytes) : Prop :=
  match t with [] => True | b :: _ => rune_start b = true end.

(* a byte >= 0x80 followed by such a tail decodes, forwards, to the error of width 1 *)
Lemma decode_rune_lone b tail :
  128 <= bN b -> tail_ok tail -> decode_rune (b :: tail) = err1.
Proof.
  intros Hb Ht. destruct (decode_rune_cases (b :: tail)) as [H|[H|(r & w & _ & H)]];
    [discriminate|exact H|exfalso].
  inversion H; subst; hyps; try lia; cbn [tail_ok] in Ht; apply rune_start_true in Ht; lia.
Qed.

Lemma last_index_loop_spec f : forall d i,
  (i <= length d)%nat -> (i <= f)%nat -> tail_ok (skipn i d) ->
  match last_index_loop f d i with
  | LOutOfFuel => False
  | LNone => trim_right_runes_fuel f (firstn i d) = []
  | LFound j =>
      exists size r,
        decode_last_rune (firstn (j + size) d) = Some (r, size) /\ is_space_rune r = false /\
        (j + size <= i)%nat /\ (1 <= size)%nat /\
        trim_right_runes_fuel f (firstn i d) = firstn (j + size) d /\
        tail_ok (skipn (j + size) d)
  end.
Proof.
  induction f as [|f IH]; intros d i Hi Hf Ht.
  - assert (i = 0)%nat by lia. subst i. reflexivity.
  - destruct i as [|i']; [cbn [last_index_loop firstn]; now destruct f|].
    set (i := S i') in *. cbn [last_index_loop]. fold i. cbn [trim_right_runes_fuel].
    assert (Hlen : length (firstn i d) = i) by (rewrite firstn_length; lia).
    destruct (decode_last_rune (firstn i d)) as [[r size]|] eqn:E.
    2:{ unfold decode_last_rune in E. destruct (rev (firstn i d)) as [|l0 q] eqn:Er.
        - apply (f_equal (@length _)) in Er. rewrite rev_length, Hlen in Er. discriminate.
        - destruct (bN l0 <? rune_self); [discriminate|]. cbv zeta in E.
          destruct (decode_rune _) as [[r' w']|]; [destruct (Nat.eqb w' _)|]; discriminate. }
    assert (Hs := decode_last_rune_width _ _ _ E).
    destruct (decode_last_rune_cases _ _ _ E) as [pre [enc [Hx [Hel Hcase]]]].
    assert (Hsz : (size <= i)%nat).
    { apply (f_equal (@length _)) in Hx. rewrite Hlen, app_length in Hx. lia. }
    rewrite Hlen.
    destruct (is_space_rune r) eqn:Esp.
    + (* a white-space rune: strip it and go on *)
      rewrite firstn_firstn, Nat.min_l by lia.
      assert (Ht' : tail_ok (skipn (i - size) d)).
      { (* the stripped rune was decoded successfully: its first byte starts a rune *)
        assert (Hskip : skipn (i - size) d = enc ++ skipn i d).
        { rewrite <- (firstn_skipn i d) at 1. rewrite Hx.
          assert (Hp : length pre = (i - size)%nat).
          { apply (f_equal (@length _)) in Hx. rewrite Hlen, app_length in Hx. lia. }
          rewrite <- app_assoc, <- Hp. apply skipn_length_app. }
        rewrite Hskip. destruct enc as [|b0 e]; [cbn in Hel; lia|]. cbn [app tail_ok].
        destruct Hcase as [Hd|[-> _]]; [|now rewrite space_err in Esp].
        now apply (decodes_start b0 e r size). }
      specialize (IH d (i - size)%nat ltac:(lia) ltac:(lia) Ht').
      destruct (last_index_loop f d (i - size)) as [j| |]; [|assumption|assumption].
      destruct IH as [sz [r0 [H1 [H2 [H3 [H4 [H5 H6]]]]]]].
      exists sz, r0. repeat split; try assumption. lia.
    + (* the last rune that is not white space *)
      exists size, r. replace (i - size + size)%nat with i by lia.
      repeat split; try assumption; lia.
Qed.

Theorem trim_right_func_eq d : trim_right_func d = Some (trim_right_runes d).
Proof.
  unfold trim_right_func, trim_right_runes.
  assert (Ht0 : tail_ok (skipn (length d) d)) by (now rewrite skipn_all).
  pose proof (last_index_loop_spec (length d) d (length d) (Nat.le_refl _) (Nat.le_refl _) Ht0) as H.
  rewrite firstn_all in H.
  destruct (last_index_loop (length d) d (length d)) as [j| |]; [|now rewrite H|contradiction].
  destruct H as [size [r [Hd [Hsp [Hle [H1 [Htrim Htail]]]]]]]. rewrite Htrim.
  destruct (decode_last_rune_cases _ _ _ Hd) as [pre [enc [Hx [Hel Hcase]]]].
  assert (Hfl : length (firstn (j + size) d) = (j + size)%nat) by (rewrite firstn_length; lia).
  assert (Hp : length pre = j).
  { apply (f_equal (@length _)) in Hx. rewrite Hfl, app_length in Hx. lia. }
  (* d = pre ++ enc ++ tail, the rune found starts at j = |pre| *)
  assert (Hdsplit : d = pre ++ enc ++ skipn (j + size) d).
  { rewrite <- (firstn_skipn (j + size) d) at 1. rewrite Hx. now rewrite <- app_assoc. }
  assert (Hskip : skipn j d = enc ++ skipn (j + size) d).
  { rewrite Hdsplit at 1. rewrite <- Hp. apply skipn_length_app. }
  destruct enc as [|b0 e]; [cbn in Hel; lia|].
  assert (Hnth : nth_error d j = Some b0).
  { rewrite Hdsplit, <- Hp. rewrite nth_error_app2 by lia. now rewrite Nat.sub_diag. }
  rewrite Hnth, Hskip. unfold rune_self.
  destruct Hcase as [Hdec|(-> & -> & b & Hb & Hb128)].
  - (* a well-formed encoding: forwards it decodes alike, whatever follows *)
    rewrite (decodes_decode _ _ _ (decodes_app _ (skipn (j + size) d) _ _ Hdec)).
    destruct (128 <=? bN b0) eqn:E0; [reflexivity|]. apply N.leb_gt in E0.
    inversion Hdec; subst; hyps; try lia. reflexivity.
  - (* a lone byte >= 0x80 reported as the error: forwards it is the error as well *)
    injection Hb as -> ->. replace (128 <=? bN b) with true by (symmetry; now apply N.leb_le).
    cbn [app]. now rewrite (decode_rune_lone b _ Hb128 Htail).
Qed.

(* strings.TrimSpace as the Go code computes it = the byte-table trim_space *)
Theorem trim_func_eq d : trim_func d = Some (trim_space d).
Proof.
  unfold trim_func. rewrite trim_left_func_eq, trim_right_func_eq.
  now rewrite trim_space_eq.
Qed.
