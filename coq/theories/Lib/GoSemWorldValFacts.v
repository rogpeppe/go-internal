(* byte_Z / Z_byte are inverse on bytes; splice over the whole length replaces the slice. *)
From Coq Require Import List ZArith NArith Lia.
From Coq.Strings Require Import Byte.
From GI Require Import Lib.Bytes Lib.GoSem Lib.GoSemSeg Lib.GoSemWorld Lib.GoSemWorldVal.
Import ListNotations.

Lemma Z_byte_byte_Z b : Z_byte (byte_Z b) = b.
Proof. unfold Z_byte, byte_Z. rewrite N2Z.id, Byte.of_to_N. reflexivity. Qed.

Lemma byte_Z_eqb b c : (byte_Z b =? byte_Z c)%Z = Byte.eqb b c.
Proof.
  unfold byte_Z. destruct (Byte.eqb b c) eqn:E.
  - apply Byte.byte_dec_bl in E. subst. apply Z.eqb_refl.
  - apply Z.eqb_neq. intros H. apply N2Z.inj in H.
    assert (Some b = Some c) as [= ->] by (rewrite <- (Byte.of_to_N b), <- (Byte.of_to_N c), H; reflexivity).
    rewrite (Byte.byte_dec_lb eq_refl) in E. discriminate.
Qed.

Lemma splice_all (x s : bytes) : length s = length x -> splice x 0 (Z.of_nat (length x)) s = s.
Proof.
  intros _. unfold splice. rewrite Nat2Z.id, skipn_all. cbn [Z.to_nat firstn app]. apply app_nil_r.
Qed.
