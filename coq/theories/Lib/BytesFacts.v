(* Lemmas about the shared byte-string vocabulary of Lib/Bytes.v: byte equality,
   last_byte / fix_nl, split_lines, prefix / suffix tests and trim_space. *)
From Coq Require Import List Bool Arith NArith Lia.
From Coq.Strings Require Import Byte.
From GI Require Import Lib.Bytes.
Import ListNotations.

Lemma beq_refl b : beq b b = true.
Proof. unfold beq. apply Byte.byte_dec_lb. reflexivity. Qed.

Lemma beq_eq a b : beq a b = true -> a = b.
Proof. unfold beq. apply Byte.byte_dec_bl. Qed.

Lemma beq_neq a b : beq a b = false -> a <> b.
Proof. intros H E. subst b. rewrite beq_refl in H. discriminate. Qed.

Lemma beq_false a b : a <> b -> beq a b = false.
Proof.
  intros H. destruct (beq a b) eqn:E; [|reflexivity].
  apply beq_eq in E. contradiction.
Qed.

Lemma beq_sym a b : beq a b = beq b a.
Proof.
  destruct (beq a b) eqn:E.
  - apply beq_eq in E. subst. symmetry. apply beq_refl.
  - symmetry. apply beq_false. intros H. subst. rewrite beq_refl in E. discriminate.
Qed.

Lemma bytes_eqb_refl a : bytes_eqb a a = true.
Proof. induction a as [|x a IH]; [reflexivity|]. cbn [bytes_eqb]. now rewrite beq_refl, IH. Qed.

Lemma bytes_eqb_eq a b : bytes_eqb a b = true <-> a = b.
Proof.
  split.
  - revert b. induction a as [|x a IH]; intros [|y b] H; cbn [bytes_eqb] in H; try discriminate.
    + reflexivity.
    + apply andb_true_iff in H. destruct H as [H1 H2].
      apply beq_eq in H1. apply IH in H2. now subst.
  - intros ->. apply bytes_eqb_refl.
Qed.

Lemma bytes_eqb_false_iff a b : bytes_eqb a b = false <-> a <> b.
Proof. rewrite <- bytes_eqb_eq. now destruct (bytes_eqb a b). Qed.

Lemma bytes_eqb_neq a b : a <> b -> bytes_eqb a b = false.
Proof. apply bytes_eqb_false_iff. Qed.

Lemma bytes_eqb_spec a b : reflect (a = b) (bytes_eqb a b).
Proof. apply iff_reflect. symmetry. apply bytes_eqb_eq. Qed.

Lemma bN_inj a b : bN a = bN b -> a = b.
Proof.
  unfold bN. intros H. apply (f_equal Byte.of_N) in H. rewrite !Byte.of_to_N in H. now injection H.
Qed.

Lemma beq_bN a b : beq a b = N.eqb (bN a) (bN b).
Proof.
  apply Bool.eq_iff_eq_true. rewrite N.eqb_eq. split.
  - intros H. apply beq_eq in H. now subst.
  - intros H. apply bN_inj in H. subst. apply beq_refl.
Qed.

Lemma mem_byte_In b d : mem_byte b d = true <-> In b d.
Proof.
  unfold mem_byte. rewrite existsb_exists. split.
  - intros [x [Hin Hx]]. apply beq_eq in Hx. now subst.
  - intros H. exists b. split; [assumption|apply beq_refl].
Qed.

Lemma mem_byte_false b d : mem_byte b d = false <-> ~ In b d.
Proof.
  rewrite <- mem_byte_In. destruct (mem_byte b d); split; intros H.
  - discriminate.
  - exfalso. now apply H.
  - discriminate.
  - reflexivity.
Qed.

Lemma mem_byte_forallb (p : byte -> bool) b l :
  forallb p l = true -> mem_byte b l = true -> p b = true.
Proof. rewrite forallb_forall, mem_byte_In. auto. Qed.

Lemma last_byte_nil : last_byte [] = None.
Proof. reflexivity. Qed.

Lemma last_byte_snoc d b : last_byte (d ++ [b]) = Some b.
Proof. unfold last_byte. rewrite rev_app_distr. reflexivity. Qed.

Lemma last_byte_app a b : b <> [] -> last_byte (a ++ b) = last_byte b.
Proof.
  intros Hb. unfold last_byte. rewrite rev_app_distr.
  destruct (rev b) as [|x r] eqn:E; [|reflexivity].
  exfalso. apply Hb. rewrite <- (rev_involutive b), E. reflexivity.
Qed.

Lemma last_byte_cons x d : d <> [] -> last_byte (x :: d) = last_byte d.
Proof. intros H. change (x :: d) with ([x] ++ d). now apply last_byte_app. Qed.

Lemma last_byte_single x : last_byte [x] = Some x.
Proof. reflexivity. Qed.

Lemma last_byte_Some d b : last_byte d = Some b -> exists d', d = d' ++ [b].
Proof.
  unfold last_byte. intros H. destruct (rev d) as [|x r] eqn:E; [discriminate|].
  injection H as ->. exists (rev r). rewrite <- (rev_involutive d), E. reflexivity.
Qed.

Lemma last_byte_None d : last_byte d = None -> d = [].
Proof.
  unfold last_byte. intros H. destruct (rev d) as [|x r] eqn:E; [|discriminate].
  rewrite <- (rev_involutive d), E. reflexivity.
Qed.

Lemma last_byte_In d b : last_byte d = Some b -> In b d.
Proof. intros H. apply last_byte_Some in H. destruct H as [d' ->]. apply in_or_app. right. now left. Qed.

Lemma fix_nl_nil : fix_nl [] = [].
Proof. reflexivity. Qed.

Lemma fix_nl_term d : last_byte d = Some NL -> fix_nl d = d.
Proof. intros H. unfold fix_nl. rewrite H. reflexivity. Qed.

Lemma fix_nl_unterm d : d <> [] -> last_byte d <> Some NL -> fix_nl d = d ++ [NL].
Proof.
  intros Hd Hl. unfold fix_nl. destruct (last_byte d) as [b|] eqn:E.
  - destruct (beq b NL) eqn:Eb; [|reflexivity].
    apply beq_eq in Eb. subst b. contradiction.
  - apply last_byte_None in E. contradiction.
Qed.

Lemma fix_nl_cases d :
  (d = [] /\ fix_nl d = []) \/
  (last_byte d = Some NL /\ fix_nl d = d) \/
  (d <> [] /\ last_byte d <> Some NL /\ fix_nl d = d ++ [NL]).
Proof.
  destruct d as [|x d'] eqn:Ed; [left; split; reflexivity|]. rewrite <- Ed.
  assert (Hne : d <> []) by (subst; discriminate).
  destruct (last_byte d) as [b|] eqn:E.
  - destruct (beq b NL) eqn:Eb.
    + apply beq_eq in Eb. subst b. right; left. split; [reflexivity|]. now apply fix_nl_term.
    + right; right. apply beq_neq in Eb. split; [assumption|]. split.
      * congruence.
      * apply fix_nl_unterm; [assumption|]. rewrite E. congruence.
  - apply last_byte_None in E. contradiction.
Qed.

Lemma fix_nl_last d : fix_nl d = [] \/ last_byte (fix_nl d) = Some NL.
Proof.
  destruct (fix_nl_cases d) as [[_ H]|[[Hl H]|[_ [_ H]]]]; rewrite H.
  - now left.
  - now right.
  - right. apply last_byte_snoc.
Qed.

Lemma fix_nl_fixed d : fix_nl d = d <-> d = [] \/ last_byte d = Some NL.
Proof.
  split.
  - intros H. destruct (fix_nl_last d) as [H1|H1]; rewrite H in H1; auto.
  - intros [->|H]; [reflexivity|now apply fix_nl_term].
Qed.

Lemma fix_nl_idem d : fix_nl (fix_nl d) = fix_nl d.
Proof. apply fix_nl_fixed. apply fix_nl_last. Qed.

(* a terminated line: NL-free text followed by NL *)
Inductive tline : bytes -> Prop :=
| tline_intro l0 : ~ In NL l0 -> tline (l0 ++ [NL]).
(* an unterminated (necessarily last) line *)
Definition uline (l : bytes) : Prop := l <> [] /\ ~ In NL l.
Definition is_line (l : bytes) : Prop := tline l \/ uline l.

(* every line terminated, except possibly the last *)
Fixpoint lines_ok (ls : list bytes) : Prop :=
  match ls with
  | [] => True
  | l :: rest =>
      match rest with
      | [] => is_line l
      | _ :: _ => tline l /\ lines_ok rest
      end
  end.

Lemma tline_cons b l : b <> NL -> tline l -> tline (b :: l).
Proof.
  intros Hb [l0 H0]. change (b :: l0 ++ [NL]) with ((b :: l0) ++ [NL]).
  constructor. intros [H|H]; [now apply Hb|now apply H0].
Qed.

Lemma uline_cons b l : b <> NL -> uline l -> uline (b :: l).
Proof.
  intros Hb [H1 H2]. split; [discriminate|].
  intros [H|H]; [now apply Hb|now apply H2].
Qed.

Lemma tline_nl : tline [NL].
Proof. change [NL] with ([] ++ [NL]). constructor. intros []. Qed.

Lemma tline_nonempty l : tline l -> l <> [].
Proof. intros [l0 _]. destruct l0; discriminate. Qed.

Lemma tline_last l : tline l -> last_byte l = Some NL.
Proof. intros [l0 _]. apply last_byte_snoc. Qed.

Lemma uline_last l : uline l -> last_byte l <> Some NL.
Proof. intros [_ H] E. apply H. now apply last_byte_In. Qed.

Lemma is_line_nonempty l : is_line l -> l <> [].
Proof. intros [H|[H _]]; [now apply tline_nonempty|assumption]. Qed.

Lemma lines_ok_cons l rest : tline l -> lines_ok rest -> lines_ok (l :: rest).
Proof. intros Hl Hr. destruct rest; cbn [lines_ok]; [now left|now split]. Qed.

Lemma lines_ok_inv l rest : lines_ok (l :: rest) -> is_line l /\ lines_ok rest.
Proof.
  destruct rest; cbn [lines_ok].
  - intros H. split; [assumption|exact I].
  - intros [H1 H2]. split; [now left|assumption].
Qed.

Lemma lines_ok_inv2 l l2 rest : lines_ok (l :: l2 :: rest) -> tline l /\ lines_ok (l2 :: rest).
Proof. cbn [lines_ok]. intros H. exact H. Qed.

Lemma lines_ok_In ls l : lines_ok ls -> In l ls -> is_line l.
Proof.
  induction ls as [|x ls IH]; intros Hok Hin; [destruct Hin|].
  apply lines_ok_inv in Hok. destruct Hok as [Hx Hls].
  destruct Hin as [->|Hin]; [assumption|now apply IH].
Qed.

Lemma split_lines_tline_app l0 rest :
  ~ In NL l0 -> split_lines (l0 ++ NL :: rest) = (l0 ++ [NL]) :: split_lines rest.
Proof.
  induction l0 as [|b l0 IH]; intros H.
  - reflexivity.
  - cbn [app split_lines]. rewrite beq_false by (intros E; apply H; now left).
    rewrite IH by (intros E; apply H; now right). reflexivity.
Qed.

Lemma split_lines_tline l : tline l -> split_lines l = [l].
Proof. intros [l0 H]. now rewrite split_lines_tline_app. Qed.

Lemma split_lines_uline l : uline l -> split_lines l = [l].
Proof.
  intros [Hne Hnl]. induction l as [|b l IH]; [contradiction|].
  cbn [split_lines]. rewrite beq_false by (intros E; apply Hnl; now left).
  destruct l as [|c l'].
  - reflexivity.
  - rewrite IH; [reflexivity|discriminate|intros E; apply Hnl; now right].
Qed.

Lemma split_lines_line l : is_line l -> split_lines l = [l].
Proof. intros [H|H]; [now apply split_lines_tline|now apply split_lines_uline]. Qed.

Lemma split_lines_concat ls : lines_ok ls -> split_lines (concat ls) = ls.
Proof.
  induction ls as [|l rest IH]; intros Hok; [reflexivity|].
  destruct rest as [|l2 rest'].
  - cbn [concat]. rewrite app_nil_r. apply split_lines_line. exact Hok.
  - apply lines_ok_inv2 in Hok. destruct Hok as [[l0 H0] Hrest].
    cbn [concat]. rewrite <- app_assoc. cbn [app].
    rewrite split_lines_tline_app by assumption. f_equal. now apply IH.
Qed.

Lemma split_lines_ok d : lines_ok (split_lines d).
Proof.
  induction d as [|b r IH]; [exact I|].
  cbn [split_lines]. destruct (beq b NL) eqn:Eb.
  - apply beq_eq in Eb. subst b. apply lines_ok_cons; [apply tline_nl|assumption].
  - apply beq_neq in Eb. destruct (split_lines r) as [|l ls].
    + right. split; [discriminate|]. intros [H|[]]. now apply Eb.
    + destruct ls as [|l2 ls'].
      * cbn [lines_ok] in *. destruct IH as [H|H]; [left; now apply tline_cons|right; now apply uline_cons].
      * apply lines_ok_inv2 in IH. destruct IH as [H1 H2].
        cbn [lines_ok]. split; [now apply tline_cons|exact H2].
Qed.

Lemma concat_split_lines d : concat (split_lines d) = d.
Proof.
  induction d as [|b r IH]; [reflexivity|].
  cbn [split_lines]. destruct (beq b NL).
  - cbn [concat app]. now rewrite IH.
  - destruct (split_lines r) as [|l ls]; cbn [concat app] in *; now rewrite <- IH.
Qed.

Lemma split_lines_nil_iff d : split_lines d = [] <-> d = [].
Proof.
  split; [|intros ->; reflexivity].
  intros H. rewrite <- (concat_split_lines d), H. reflexivity.
Qed.

Lemma split_lines_In_line d l : In l (split_lines d) -> is_line l.
Proof. apply lines_ok_In. apply split_lines_ok. Qed.

Lemma split_lines_In_incl d l : In l (split_lines d) -> incl l d.
Proof.
  intros H x Hx. rewrite <- (concat_split_lines d). apply in_concat. now exists l.
Qed.

Lemma split_lines_app a b :
  a = [] \/ last_byte a = Some NL ->
  split_lines (a ++ b) = split_lines a ++ split_lines b.
Proof.
  induction a as [|x a' IH]; intros H; [reflexivity|].
  destruct H as [H|H]; [discriminate|].
  destruct a' as [|y a''].
  - cbn in H. injection H as ->. reflexivity.
  - rewrite last_byte_cons in H by discriminate.
    specialize (IH (or_intror H)).
    cbn [app split_lines] in *. destruct (beq x NL).
    + now rewrite IH.
    + rewrite IH. destruct (beq y NL).
      * reflexivity.
      * destruct (split_lines a''); reflexivity.
Qed.

(* appending the missing final NL changes the last line only *)
Lemma split_lines_snoc_nl d :
  d <> [] -> last_byte d <> Some NL ->
  exists ls u, split_lines d = ls ++ [u] /\ split_lines (d ++ [NL]) = ls ++ [u ++ [NL]]
               /\ uline u.
Proof.
  induction d as [|x d' IH]; intros Hne Hl; [contradiction|].
  destruct d' as [|y d''].
  - assert (Hx : x <> NL) by (intros ->; now apply Hl).
    exists [], [x]. cbn [app split_lines]. rewrite (beq_false x NL Hx), beq_refl.
    repeat split; try reflexivity; try discriminate.
    intros [E|[]]. now apply Hx.
  - rewrite last_byte_cons in Hl by discriminate.
    destruct (IH ltac:(discriminate) Hl) as [ls [u [H1 [H2 H3]]]].
    change ((x :: y :: d'') ++ [NL]) with (x :: ((y :: d'') ++ [NL])).
    remember (y :: d'') as d' eqn:Ed.
    cbn [split_lines]. rewrite H1, H2. destruct (beq x NL) eqn:Ex.
    + exists ([x] :: ls), u. repeat split; try reflexivity; apply H3.
    + apply beq_neq in Ex. destruct ls as [|l ls'].
      * exists [], (x :: u). cbn [app]. repeat split; try reflexivity.
        -- discriminate.
        -- intros [E|E]; [now apply Ex|now apply (proj2 H3)].
      * exists ((x :: l) :: ls'), u. cbn [app]. repeat split; try reflexivity; apply H3.
Qed.

Lemma split_lines_length d : length (split_lines d) <= length d.
Proof.
  induction d as [|b r IH]; [constructor|].
  cbn [split_lines]. destruct (beq b NL); cbn [length]; [lia|].
  destruct (split_lines r); cbn [length] in *; lia.
Qed.

Lemma Forall_tline_lines_ok ls : Forall tline ls -> lines_ok ls.
Proof.
  induction ls as [|l ls IH]; intros H; [exact I|]. inversion H; subst.
  apply lines_ok_cons; auto.
Qed.

Lemma concat_tlines_fixed ls : Forall tline ls -> fix_nl (concat ls) = concat ls.
Proof.
  intros H. apply fix_nl_fixed. induction H as [|l ls Hl _ IH]; [left; reflexivity|].
  right. simpl. destruct IH as [E|E].
  - rewrite E, app_nil_r. now apply tline_last.
  - destruct (concat ls) eqn:EC; [discriminate|]. rewrite last_byte_app by discriminate. exact E.
Qed.

Lemma has_prefix_app p x : has_prefix p (p ++ x) = true.
Proof. induction p as [|b p IH]; [reflexivity|]. cbn [app has_prefix]. now rewrite beq_refl, IH. Qed.

Lemma has_prefix_iff p d : has_prefix p d = true <-> exists x, d = p ++ x.
Proof.
  split.
  - revert d. induction p as [|b p IH]; intros d H.
    + now exists d.
    + destruct d as [|c d]; cbn [has_prefix] in H; [discriminate|].
      apply andb_true_iff in H. destruct H as [H1 H2].
      apply beq_eq in H1. subst c. destruct (IH _ H2) as [x ->]. now exists x.
  - intros [x ->]. apply has_prefix_app.
Qed.

Lemma has_prefix_app_mono p d x : has_prefix p d = true -> has_prefix p (d ++ x) = true.
Proof.
  intros H. apply has_prefix_iff in H. destruct H as [y ->].
  rewrite <- app_assoc. apply has_prefix_app.
Qed.

Lemma has_suffix_app s x : has_suffix s (x ++ s) = true.
Proof. unfold has_suffix. rewrite rev_app_distr. apply has_prefix_app. Qed.

Lemma has_suffix_iff s d : has_suffix s d = true <-> exists x, d = x ++ s.
Proof.
  unfold has_suffix. rewrite has_prefix_iff. split.
  - intros [x H]. exists (rev x). rewrite <- (rev_involutive d), H, rev_app_distr.
    now rewrite rev_involutive.
  - intros [x ->]. exists (rev x). apply rev_app_distr.
Qed.

Lemma skipn_length_app {A} (a b : list A) : skipn (length a) (a ++ b) = b.
Proof. induction a; [reflexivity|assumption]. Qed.

Lemma firstn_length_app {A} (a b : list A) : firstn (length a) (a ++ b) = a.
Proof. induction a as [|x a IH]; [now destruct b|]. cbn. now rewrite IH. Qed.

Lemma has_prefix_length p r : has_prefix p r = true -> length p <= length r.
Proof. intros H. apply has_prefix_iff in H. destruct H as [x ->]. rewrite app_length. lia. Qed.

Lemma has_suffix_length s r : has_suffix s r = true -> length s <= length r.
Proof. intros H. apply has_suffix_iff in H. destruct H as [x ->]. rewrite app_length. lia. Qed.

Lemma nth_error_skipn_add {A} s n (l : list A) : nth_error (skipn s l) n = nth_error l (s + n).
Proof.
  revert l. induction s as [|s IH]; intros l; [reflexivity|]. destruct l as [|x l]; [now destruct n|].
  apply IH.
Qed.

Lemma nth_error_firstn_lt {A} n k (l : list A) : n < k -> nth_error (firstn k l) n = nth_error l n.
Proof.
  revert k l. induction n as [|n IH]; intros [|k] [|x l] H; try reflexivity; try lia.
  apply IH. lia.
Qed.

Lemma filter_rev {A} (f : A -> bool) l : filter f (rev l) = rev (filter f l).
Proof.
  induction l as [|x l IH]; [reflexivity|]. cbn [rev filter]. rewrite filter_app, IH. cbn [filter].
  destruct (f x); [reflexivity|apply app_nil_r].
Qed.

Lemma filter_all {A} (f : A -> bool) l : (forall x, In x l -> f x = true) -> filter f l = l.
Proof.
  induction l as [|x l IH]; intros H; [reflexivity|]. cbn [filter]. rewrite (H x (or_introl eq_refl)).
  f_equal. apply IH. intros y Hy. apply H. now right.
Qed.

Lemma filter_none {A} (f : A -> bool) l : (forall x, In x l -> f x = false) -> filter f l = [].
Proof.
  induction l as [|x l IH]; intros H; [reflexivity|]. cbn [filter]. rewrite (H x (or_introl eq_refl)).
  apply IH. intros y Hy. apply H. now right.
Qed.

Lemma Forall2_nth_error {A B} (R : A -> B -> Prop) l1 l2 i a b :
  Forall2 R l1 l2 -> nth_error l1 i = Some a -> nth_error l2 i = Some b -> R a b.
Proof.
  intros H. revert i. induction H as [|x y l1 l2 Hxy _ IH]; intros [|i] Ha Hb; try discriminate.
  - injection Ha as <-. injection Hb as <-. exact Hxy.
  - exact (IH i Ha Hb).
Qed.

(* membership in a list of numbers, as the boolean test computes it *)
Lemma existsb_eqb_In (l : list N) x : existsb (N.eqb x) l = true <-> In x l.
Proof.
  rewrite existsb_exists. split.
  - intros (y & Hy & E). apply N.eqb_eq in E. now subst.
  - intros H. exists x. split; [exact H|apply N.eqb_refl].
Qed.

(* the length of the first entry of [t] that [d] starts with, 0 if there is none *)
Fixpoint match_width (t : list bytes) (d : bytes) : nat :=
  match t with
  | [] => 0
  | e :: t' => if has_prefix e d then length e else match_width t' d
  end.

Lemma match_width_cases t d :
  (exists e, In e t /\ has_prefix e d = true /\ match_width t d = length e) \/
  (match_width t d = 0 /\ forall e, In e t -> has_prefix e d = false).
Proof.
  induction t as [|e t IH]; [right; split; [reflexivity|intros e []]|].
  cbn [match_width]. destruct (has_prefix e d) eqn:E.
  - left. exists e. repeat split; [now left|exact E].
  - destruct IH as [(e' & H1 & H2 & H3)|[H1 H2]].
    + left. exists e'. repeat split; [now right|exact H2|exact H3].
    + right. split; [exact H1|]. intros e' [<-|H]; [exact E|now apply H2].
Qed.

(* [F] computes [match_width t] if it finds every entry of [t] and answers 0 where no
   entry matches *)
Lemma width_table_entries (F : bytes -> nat) t :
  Forall (fun e => e <> [] /\ forall x, F (e ++ x) = length e) t ->
  (forall d, F d <> 0 -> exists e, In e t /\ has_prefix e d = true) ->
  forall d, F d = match_width t d.
Proof.
  intros C S d. destruct (match_width_cases t d) as [(e & He & Hp & ->)|[-> Hno]].
  - apply has_prefix_iff in Hp. destruct Hp as [x ->]. rewrite Forall_forall in C. now apply C.
  - destruct (F d) eqn:E; [reflexivity|]. destruct (S d) as (e & He & Hp); [congruence|].
    now rewrite (Hno e He) in Hp.
Qed.

(* for a function given by a match on bytes the second condition is shown by cases on the
   bytes it inspects, in this form: where [F] answers 0 the table is not consulted *)
Lemma width_table (F : bytes -> nat) t :
  (forall d, F d = 0 \/ F d = match_width t d) ->
  Forall (fun e => e <> [] /\ forall x, F (e ++ x) = length e) t ->
  forall d, F d = match_width t d.
Proof.
  intros S C. apply width_table_entries; [exact C|]. intros d Hd.
  destruct (S d) as [H|H]; [contradiction|]. rewrite H in Hd.
  destruct (match_width_cases t d) as [(e & He & Hp & _)|[H0 _]]; [now exists e|contradiction].
Qed.

(* ... and then [F] recognises exactly the entries of the table *)
Lemma width_table_iff (F : bytes -> nat) t :
  (forall d, F d = match_width t d) ->
  Forall (fun e => e <> [] /\ forall x, F (e ++ x) = length e) t ->
  forall d n, (F d = n /\ n <> 0) <-> exists e, In e t /\ has_prefix e d = true /\ length e = n.
Proof.
  intros HF C d n. split.
  - intros [<- Hn]. rewrite HF in *.
    destruct (match_width_cases t d) as [(e & He & Hp & Hw)|[Hw _]]; [|contradiction].
    exists e. now rewrite Hw.
  - intros (e & He & Hp & <-). apply has_prefix_iff in Hp. destruct Hp as [x ->].
    rewrite Forall_forall in C. destruct (C e He) as [Hne Hx]. split; [apply Hx|].
    now destruct e.
Qed.

(* the UTF-8 encodings of the 25 code points of unicode.IsSpace, in the order of Lib/Bytes.v *)
Definition space_encodings : list bytes :=
  [[x09]; [x0a]; [x0b]; [x0c]; [x0d]; [x20]; [xc2; x85]; [xc2; xa0]; [xe1; x9a; x80];
   [xe2; x80; x80]; [xe2; x80; x81]; [xe2; x80; x82]; [xe2; x80; x83]; [xe2; x80; x84];
   [xe2; x80; x85]; [xe2; x80; x86]; [xe2; x80; x87]; [xe2; x80; x88]; [xe2; x80; x89];
   [xe2; x80; x8a]; [xe2; x80; xa8]; [xe2; x80; xa9]; [xe2; x80; xaf]; [xe2; x81; x9f];
   [xe3; x80; x80]].

Lemma space_encodings_front :
  Forall (fun e => e <> [] /\ forall x, space_prefix (e ++ x) = length e) space_encodings.
Proof. repeat constructor; discriminate. Qed.

Lemma space_encodings_back :
  Forall (fun e => e <> [] /\ forall x, space_suffix_rev' (e ++ x) = length e)
         (map (@rev byte) space_encodings).
Proof. repeat constructor; discriminate. Qed.

(* a case in which the function's answer is known: it is 0, or what the table answers *)
Ltac leaf := first [left; reflexivity | right; reflexivity].
(* cases on the next two bytes of [q], as far as the goal looks at them; [last] closes the
   goals in which both are known *)
Ltac two_more q last :=
  let c := fresh "c" in
  (destruct q as [|c q]; [leaf|]); case c; clear c; try leaf;
  (destruct q as [|c q]; [leaf|]); case c; last.

Lemma space_prefix_width d : space_prefix d = match_width space_encodings d.
Proof.
  revert d. apply width_table; [|exact space_encodings_front].
  intros [|b r]; [left; reflexivity|]. case b; try leaf; two_more r leaf.
Qed.

(* A last byte [c] outside this set has no row of its own in space_suffix_rev: the match
   falls through to the row [c, x80 :: xe2 :: _], which looks at [q] before it looks at [c]. *)
Definition own_row (c : byte) : bool :=
  match c with
  | x09 | x0a | x0b | x0c | x0d | x20 | x80 | x85 | x9f | xa0 => true
  | _ => false
  end.
Definition e280_row (c : byte) (q : bytes) : nat :=
  match q with
  | x80 :: xe2 :: _ =>
      match c with
      | x80 | x81 | x82 | x83 | x84 | x85 | x86 | x87 | x88 | x89 | x8a | xa8 | xa9 | xaf => 3
      | _ => 0
      end
  | _ => 0
  end.
(* each of the 246 cases holds by conversion: no case analysis on [q] *)
Lemma space_suffix_row c q : own_row c = false -> space_suffix_rev' (c :: q) = e280_row c q.
Proof. case c; intros E; first [discriminate E | reflexivity]. Qed.

Lemma space_suffix_width q : space_suffix_rev' q = match_width (map (@rev byte) space_encodings) q.
Proof.
  revert q. apply width_table; [|exact space_encodings_back].
  intros [|c q]; [left; reflexivity|]. destruct (own_row c) eqn:E.
  - revert E. case c; intros E; try discriminate E; first [leaf | two_more q leaf].
  - rewrite (space_suffix_row c q E). two_more q ltac:(first [leaf | case c; leaf]).
Qed.

Lemma space_prefix_iff d n :
  (space_prefix d = n /\ n <> 0) <->
  exists e, In e space_encodings /\ has_prefix e d = true /\ length e = n.
Proof. exact (width_table_iff _ _ space_prefix_width space_encodings_front d n). Qed.

Lemma space_suffix_iff q n :
  (space_suffix_rev' q = n /\ n <> 0) <->
  exists e, In e (map (@rev byte) space_encodings) /\ has_prefix e q = true /\ length e = n.
Proof. exact (width_table_iff _ _ space_suffix_width space_encodings_back q n). Qed.

Lemma skipn_skipn' {A} (n m : nat) (l : list A) : skipn n (skipn m l) = skipn (m + n) l.
Proof.
  revert l. induction m as [|m IH]; intros l; [reflexivity|].
  destruct l as [|x l]; [now rewrite !skipn_nil|]. cbn [skipn plus]. apply IH.
Qed.

(* trim_left_fuel and trim_right_rev_fuel are one loop, over the width function [w] *)
Definition trim_fuel (w : bytes -> nat) : nat -> bytes -> bytes :=
  fix go fuel d :=
    match fuel with
    | 0 => d
    | S f => match w d with 0 => d | n => go f (skipn n d) end
    end.

Lemma trim_left_fuel_loop : trim_left_fuel = trim_fuel space_prefix.
Proof. reflexivity. Qed.
Lemma trim_right_rev_fuel_loop : trim_right_rev_fuel = trim_fuel space_suffix_rev'.
Proof. reflexivity. Qed.

Lemma trim_fuel_zero w f : w [] = 0 -> forall d, length d <= f -> w (trim_fuel w f d) = 0.
Proof.
  intros Hnil. induction f as [|f IH]; intros d Hlen.
  - destruct d; [exact Hnil|cbn in Hlen; lia].
  - cbn [trim_fuel]. destruct (w d) as [|n] eqn:E; [exact E|].
    apply IH. rewrite skipn_length. destruct d; cbn [length] in *; lia.
Qed.

Lemma trim_fuel_fixed w f d : w d = 0 -> trim_fuel w f d = d.
Proof. intros H. destruct f; cbn [trim_fuel]; [reflexivity|now rewrite H]. Qed.

Lemma trim_fuel_skipn w f : forall d, exists k, trim_fuel w f d = skipn k d.
Proof.
  induction f as [|f IH]; intros d; [now exists 0|].
  cbn [trim_fuel]. destruct (w d) as [|n]; [now exists 0|].
  destruct (IH (skipn (S n) d)) as [k Hk]. exists (S n + k). now rewrite Hk, skipn_skipn'.
Qed.

(* what the loop strips satisfies [Q] if [Q] is kept by every single step *)
Lemma trim_fuel_strips w (Q : bytes -> Prop) :
  Q [] ->
  (forall d n, w d = S n -> exists e x, d = e ++ x /\ length e = S n /\ forall l, Q l -> Q (e ++ l)) ->
  forall f d, exists l, Q l /\ d = l ++ trim_fuel w f d.
Proof.
  intros Hnil Hstep. induction f as [|f IH]; intros d; cbn [trim_fuel]; [now exists []|].
  destruct (w d) as [|n] eqn:E; [now exists []|].
  destruct (Hstep d n E) as (e & x & -> & Hn & He). rewrite <- Hn, skipn_length_app.
  destruct (IH x) as (l & Hl & Hx). exists (e ++ l). split; [now apply He|].
  now rewrite <- app_assoc, <- Hx.
Qed.

Lemma trim_left_zero d : space_prefix (trim_left d) = 0.
Proof. apply (trim_fuel_zero space_prefix); [reflexivity|lia]. Qed.

Lemma trim_left_suffix d : exists pfx, d = pfx ++ trim_left d.
Proof.
  destruct (trim_fuel_skipn space_prefix (length d) d) as [k Hk]. exists (firstn k d).
  unfold trim_left. rewrite trim_left_fuel_loop, Hk. symmetry. apply firstn_skipn.
Qed.

Lemma trim_right_zero d : space_suffix_rev' (rev (trim_right d)) = 0.
Proof.
  unfold trim_right. rewrite rev_involutive. apply (trim_fuel_zero space_suffix_rev'); [reflexivity|].
  rewrite rev_length. lia.
Qed.

Lemma trim_right_prefix d : exists sfx, d = trim_right d ++ sfx.
Proof.
  destruct (trim_fuel_skipn space_suffix_rev' (length d) (rev d)) as [k Hk].
  exists (rev (firstn k (rev d))). unfold trim_right.
  rewrite trim_right_rev_fuel_loop, Hk, <- rev_app_distr, firstn_skipn. symmetry. apply rev_involutive.
Qed.

Lemma trim_left_fixed d : space_prefix d = 0 -> trim_left d = d.
Proof. apply (trim_fuel_fixed space_prefix). Qed.

Lemma trim_right_fixed d : space_suffix_rev' (rev d) = 0 -> trim_right d = d.
Proof.
  intros H. unfold trim_right. rewrite trim_right_rev_fuel_loop, trim_fuel_fixed by assumption.
  apply rev_involutive.
Qed.

Lemma space_prefix_prefix_zero p x : space_prefix (p ++ x) = 0 -> space_prefix p = 0.
Proof.
  intros H. destruct (space_prefix p) as [|n] eqn:E; [reflexivity|exfalso].
  destruct (proj1 (space_prefix_iff p (S n)) (conj E (Nat.neq_succ_0 n))) as (e & He & Hp & Hl).
  apply has_prefix_app_mono with (x := x) in Hp.
  destruct (proj2 (space_prefix_iff (p ++ x) (S n))) as [H1 _]; [now exists e|congruence].
Qed.

Lemma trim_space_idem d : trim_space (trim_space d) = trim_space d.
Proof.
  unfold trim_space. set (L := trim_left d). set (t := trim_right L).
  assert (Ht0 : space_prefix t = 0).
  { destruct (trim_right_prefix L) as [sfx Hs]. fold t in Hs.
    apply (space_prefix_prefix_zero t sfx). rewrite <- Hs. apply trim_left_zero. }
  rewrite (trim_left_fixed t Ht0). apply trim_right_fixed. apply trim_right_zero.
Qed.

Lemma trim_space_incl d : incl (trim_space d) d.
Proof.
  unfold trim_space. intros x Hx.
  destruct (trim_left_suffix d) as [pfx Hd].
  destruct (trim_right_prefix (trim_left d)) as [sfx Hs].
  rewrite Hd. apply in_or_app. right. rewrite Hs. apply in_or_app. now left.
Qed.
