(* What utf8.DecodeRune accepts (Lib/Utf8.v): exactly the shortest-form encodings of
   Unicode scalar values -- no overlong forms, no surrogates, nothing above U+10FFFF.
   Together with utf8_valid_iff (Utf8Facts.v) this is the specification of utf8.Valid. *)
From Coq Require Import List Bool Arith NArith ZArith Lia.
From Coq.Strings Require Import Byte.
From GI Require Import Lib.Bytes Lib.BytesFacts Gen.UnicodeConsts Lib.Utf8 Lib.Utf8Tables.
Import ListNotations.
Open Scope N_scope.

Lemma bN_lt b : bN b < 256.
Proof. pose proof (Byte.to_N_bounded b). unfold bN. lia. Qed.

Lemma byte_of_bN b : byte_of_N (bN b) = b.
Proof. unfold byte_of_N, bN. now rewrite Byte.of_to_N. Qed.

Lemma bN_byte_of_N n : n < 256 -> bN (byte_of_N n) = n.
Proof.
  intros H. unfold byte_of_N, bN. destruct (Byte.of_N n) as [b|] eqn:E.
  - now apply Byte.to_of_N.
  - apply Byte.of_N_None_iff in E. lia.
Qed.

Lemma is_scalar_iff r : is_scalar r = true <-> r < 55296 \/ 57344 <= r <= 1114111.
Proof. unfold is_scalar, max_rune. rewrite orb_true_iff, andb_true_iff, N.ltb_lt, !N.leb_le. tauto. Qed.

(* the digits of r, as encode_rune computes them *)
Lemma base64 r :
  exists a b c d, r = ((a * 64 + b) * 64 + c) * 64 + d /\ b < 64 /\ c < 64 /\ d < 64 /\
    r mod 64 = d /\ (r / 64) mod 64 = c /\ (r / 4096) mod 64 = b /\
    r / 64 = (a * 64 + b) * 64 + c /\ r / 4096 = a * 64 + b /\ r / 262144 = a.
Proof.
  exists (r / 262144), ((r / 4096) mod 64), ((r / 64) mod 64), (r mod 64).
  change 4096 with (64 * 64). change 262144 with (64 * 64 * 64). rewrite <- !N.div_div by discriminate.
  pose proof (N.div_mod r 64) as H0. pose proof (N.mod_lt r 64) as L0.
  pose proof (N.div_mod (r / 64) 64) as H1. pose proof (N.mod_lt (r / 64) 64) as L1.
  pose proof (N.div_mod (r / 64 / 64) 64) as H2. pose proof (N.mod_lt (r / 64 / 64) 64) as L2.
  revert H0 L0 H1 L1 H2 L2.
  generalize (r mod 64), ((r / 64) mod 64), ((r / 64 / 64) mod 64), (r / 64 / 64 / 64).
  generalize (r / 64 / 64). generalize (r / 64). intros. lia.
Qed.

(* the digits of a number given in base 64: with these the arithmetic below is linear *)
Lemma digits2 x y :
  y < 64 -> let r := x * 64 + y in r / 64 = x /\ r mod 64 = y.
Proof.
  intros Hy r. destruct (base64 r) as (a & b & c & d & Hr & Hb & Hc & Hd & -> & _ & _ & -> & _).
  unfold r in Hr. lia.
Qed.

Lemma digits3 x y z :
  y < 64 -> z < 64 ->
  let r := x * 4096 + y * 64 + z in r / 4096 = x /\ (r / 64) mod 64 = y /\ r mod 64 = z.
Proof.
  intros Hy Hz r. destruct (base64 r) as (a & b & c & d & Hr & Hb & Hc & Hd & -> & -> & _ & _ & -> & _).
  unfold r in Hr. lia.
Qed.

Lemma digits4 x y z u :
  y < 64 -> z < 64 -> u < 64 ->
  let r := x * 262144 + y * 4096 + z * 64 + u in
  r / 262144 = x /\ (r / 4096) mod 64 = y /\ (r / 64) mod 64 = z /\ r mod 64 = u.
Proof.
  intros Hy Hz Hu r.
  destruct (base64 r) as (a & b & c & d & Hr & Hb & Hc & Hd & -> & -> & -> & _ & _ & ->).
  unfold r in Hr. lia.
Qed.

(* [d] starts with a well-formed encoding, [w] bytes long, of the value [r] *)
Inductive decodes : bytes -> N -> nat -> Prop :=
| dec1 b t : bN b < 128 -> decodes (b :: t) (bN b) 1
| dec2 b c1 t :
    in_range 194 223 b = true -> cont c1 = true ->
    decodes (b :: c1 :: t) ((bN b - 192) * 64 + (bN c1 - 128)) 2
| dec3 b c1 c2 t :
    in_range 224 239 b = true -> second3 b c1 = true -> cont c2 = true ->
    decodes (b :: c1 :: c2 :: t) ((bN b - 224) * 4096 + (bN c1 - 128) * 64 + (bN c2 - 128)) 3
| dec4 b c1 c2 c3 t :
    in_range 240 244 b = true -> second4 b c1 = true -> cont c2 = true -> cont c3 = true ->
    decodes (b :: c1 :: c2 :: c3 :: t)
            ((bN b - 240) * 262144 + (bN c1 - 128) * 4096 + (bN c2 - 128) * 64 + (bN c3 - 128)) 4.

(* DecodeRune answers the error of width 1 on everything else *)
Lemma decode_rune_cases d :
  d = [] \/ decode_rune d = err1 \/ exists r w, decode_rune d = Some (r, w) /\ decodes d r w.
Proof.
  assert (Hok : forall (d : bytes) r w, decodes d r w ->
            Some (r, w) = err1 \/ exists r' w', Some (r, w) = Some (r', w') /\ decodes d r' w')
    by (intros d' r w H; right; now exists r, w).
  destruct d as [|b t]; [now left|right]. unfold decode_rune, rune_self.
  destruct (bN b <? 128) eqn:E0; [apply Hok; constructor; now apply N.ltb_lt|].
  destruct (in_range 194 223 b) eqn:E2.
  { destruct t as [|c1 t]; [now left|]. destruct (cont c1) eqn:Ec; [|now left].
    apply Hok. now constructor. }
  destruct (in_range 224 239 b) eqn:E3.
  { destruct t as [|c1 [|c2 t]]; [now left..|].
    destruct (second3 b c1) eqn:E1; [|now left]. destruct (cont c2) eqn:Ec; [|now left].
    apply Hok. now constructor. }
  destruct (in_range 240 244 b) eqn:E4; [|now left].
  destruct t as [|c1 [|c2 [|c3 t]]]; [now left..|].
  destruct (second4 b c1) eqn:E1; [|now left]. destruct (cont c2) eqn:Ec2; [|now left].
  destruct (cont c3) eqn:Ec3; [|now left]. apply Hok. now constructor.
Qed.

Lemma decode_rune_decodes d r w :
  decode_rune d = Some (r, w) -> is_err1 (r, w) = false -> decodes d r w.
Proof.
  intros H He. destruct (decode_rune_cases d) as [->|[E|(r' & w' & E & Hd)]]; [discriminate| |];
    rewrite E in H; injection H as <- <-; [discriminate He|exact Hd].
Qed.

Lemma decode_rune_None d : decode_rune d = None -> d = [].
Proof. destruct (decode_rune_cases d) as [->|[E|(r & w & E & _)]]; now rewrite ?E. Qed.

Lemma decodes_width d r w : decodes d r w -> (1 <= w <= 4)%nat.
Proof. destruct 1; lia. Qed.

Lemma decode_rune_width d r w : decode_rune d = Some (r, w) -> (1 <= w <= 4)%nat.
Proof.
  destruct (decode_rune_cases d) as [->|[E|(r' & w' & E & Hd)]]; [discriminate| |];
    rewrite E; intros H; injection H as <- <-; [lia|now apply decodes_width in Hd].
Qed.

(* an encoding is recognised whatever follows it, and starts with no continuation byte *)
Lemma decodes_app d t r w : decodes d r w -> decodes (d ++ t) r w.
Proof. destruct 1; now constructor. Qed.

Lemma decodes_start b d r w : decodes (b :: d) r w -> rune_start b = true.
Proof. intros H. apply rune_start_true. inversion H; subst; hyps; lia. Qed.

Lemma decodes_decode d r w : decodes d r w -> decode_rune d = Some (r, w).
Proof.
  assert (Hlead : forall lo hi b, in_range lo hi b = true -> (194 <=? lo) = true ->
            (bN b <? 128) = false /\ forall lo' hi', hi' < lo -> in_range lo' hi' b = false).
  { intros lo hi b H Hlo. apply in_range_iff in H. apply N.leb_le in Hlo. split; [apply N.ltb_ge; lia|].
    intros lo' hi' Hh. apply in_range_false. lia. }
  destruct 1 as [b t Hb|b c1 t H0 H1|b c1 c2 t H0 H1 H2|b c1 c2 c3 t H0 H1 H2 H3];
    unfold decode_rune, rune_self.
  - now replace (bN b <? 128) with true by (symmetry; now apply N.ltb_lt).
  - destruct (Hlead _ _ _ H0) as [-> _]; [reflexivity|]. now rewrite H0, H1.
  - destruct (Hlead _ _ _ H0) as [-> Hn]; [reflexivity|]. now rewrite (Hn 194 223), H0, H1, H2.
  - destruct (Hlead _ _ _ H0) as [-> Hn]; [reflexivity|].
    now rewrite (Hn 194 223), (Hn 224 239), H0, H1, H2, H3.
Qed.

(* encode_rune, by the width of the encoding *)
Lemma encode_rune_1 r : r < 128 -> rune_len r = 1%nat /\ encode_rune r = [byte_of_N r].
Proof. intros H. unfold rune_len, encode_rune. now rewrite (proj2 (N.ltb_lt r 128)) by lia. Qed.

Lemma encode_rune_2 r :
  128 <= r < 2048 ->
  rune_len r = 2%nat /\ encode_rune r = [byte_of_N (192 + r / 64); byte_of_N (128 + r mod 64)].
Proof.
  intros H. unfold rune_len, encode_rune. rewrite (proj2 (N.ltb_ge r 128)) by lia.
  now rewrite (proj2 (N.ltb_lt r 2048)) by lia.
Qed.

Lemma encode_rune_3 r :
  2048 <= r < 65536 ->
  rune_len r = 3%nat /\
  encode_rune r = [byte_of_N (224 + r / 4096); byte_of_N (128 + (r / 64) mod 64); byte_of_N (128 + r mod 64)].
Proof.
  intros H. unfold rune_len, encode_rune. rewrite (proj2 (N.ltb_ge r 128)) by lia.
  rewrite (proj2 (N.ltb_ge r 2048)) by lia. now rewrite (proj2 (N.ltb_lt r 65536)) by lia.
Qed.

Lemma encode_rune_4 r :
  65536 <= r ->
  rune_len r = 4%nat /\
  encode_rune r = [byte_of_N (240 + r / 262144); byte_of_N (128 + (r / 4096) mod 64);
                   byte_of_N (128 + (r / 64) mod 64); byte_of_N (128 + r mod 64)].
Proof.
  intros H. unfold rune_len, encode_rune. rewrite (proj2 (N.ltb_ge r 128)) by lia.
  rewrite (proj2 (N.ltb_ge r 2048)) by lia. now rewrite (proj2 (N.ltb_ge r 65536)) by lia.
Qed.

Lemma encode_rune_length r : length (encode_rune r) = rune_len r.
Proof.
  unfold encode_rune, rune_len.
  destruct (r <? 128); [|destruct (r <? 2048); [|destruct (r <? 65536)]]; reflexivity.
Qed.

Lemma byte_back k b : k <= bN b -> byte_of_N (k + (bN b - k)) = b.
Proof. intros H. replace (k + (bN b - k)) with (bN b) by lia. apply byte_of_bN. Qed.

(* a well-formed encoding is the shortest-form encoding of a scalar value *)
Lemma decodes_encode d r w :
  decodes d r w -> is_scalar r = true /\ w = rune_len r /\ firstn w d = encode_rune r.
Proof.
  rewrite is_scalar_iff.
  destruct 1 as [b t Hb|b c1 t H0 H1|b c1 c2 t H0 H1 H2|b c1 c2 c3 t H0 H1 H2 H3]; hyps; cbn [firstn].
  - destruct (encode_rune_1 (bN b) Hb) as [-> ->]. rewrite byte_of_bN. repeat split. lia.
  - set (x := bN b - 192) in *. set (y := bN c1 - 128) in *.
    destruct (encode_rune_2 (x * 64 + y)) as [-> ->]; [lia|].
    destruct (digits2 x y) as [-> ->]; [lia|]. unfold x, y. rewrite !byte_back by lia.
    repeat split. lia.
  - set (x := bN b - 224) in *. set (y := bN c1 - 128) in *. set (z := bN c2 - 128) in *.
    destruct (encode_rune_3 (x * 4096 + y * 64 + z)) as [-> ->]; [lia|].
    destruct (digits3 x y z) as (-> & -> & ->); [lia..|]. unfold x, y, z. rewrite !byte_back by lia.
    repeat split. lia.
  - set (x := bN b - 240) in *. set (y := bN c1 - 128) in *. set (z := bN c2 - 128) in *.
    set (u := bN c3 - 128) in *.
    destruct (encode_rune_4 (x * 262144 + y * 4096 + z * 64 + u)) as [-> ->]; [lia|].
    destruct (digits4 x y z u) as (-> & -> & -> & ->); [lia..|]. unfold x, y, z, u.
    rewrite !byte_back by lia. repeat split. lia.
Qed.

Lemma decodes_eq d r r' w : decodes d r' w -> r' = r -> decodes d r w.
Proof. now intros H <-. Qed.

(* conversely every scalar value, encoded in shortest form, is a well-formed encoding *)
Lemma encode_decodes r t : is_scalar r = true -> decodes (encode_rune r ++ t) r (rune_len r).
Proof.
  rewrite is_scalar_iff. intros Hs.
  destruct (base64 r) as (a & b & c & d & Hr & Hb & Hc & Hd & M0 & M1 & M2 & D1 & D2 & D3).
  destruct (N.lt_ge_cases r 128) as [H1|H1]; [|destruct (N.lt_ge_cases r 2048) as [H2|H2];
    [|destruct (N.lt_ge_cases r 65536) as [H3|H3]]].
  - destruct (encode_rune_1 r H1) as [-> ->]. cbn [app].
    eapply decodes_eq; [apply dec1|]; rewrite bN_byte_of_N; lia.
  - destruct (encode_rune_2 r (conj H1 H2)) as [-> ->]. rewrite D1, M0. cbn [app].
    eapply decodes_eq; [apply dec2; [apply in_range_iff|apply cont_iff]|];
      rewrite ?bN_byte_of_N by lia; lia.
  - destruct (encode_rune_3 r (conj H2 H3)) as [-> ->]. rewrite D2, M1, M0. cbn [app].
    eapply decodes_eq; [apply dec3; [apply in_range_iff|apply second3_true|apply cont_iff]|];
      rewrite ?bN_byte_of_N by lia; lia.
  - destruct (encode_rune_4 r H3) as [-> ->]. rewrite D3, M2, M1, M0. cbn [app].
    eapply decodes_eq;
      [apply dec4; [apply in_range_iff|apply second4_true|apply cont_iff|apply cont_iff]|];
      rewrite ?bN_byte_of_N by lia; lia.
Qed.

(* a successful decode: the rune is a scalar value, the width is the length of its
   shortest encoding, and the bytes consumed are that encoding *)
Theorem decode_rune_sound d r w :
  decode_rune d = Some (r, w) -> is_err1 (r, w) = false ->
  is_scalar r = true /\ w = rune_len r /\ firstn w d = encode_rune r.
Proof. intros H He. now apply decodes_encode, decode_rune_decodes. Qed.

Lemma is_err1_iff r w : is_err1 (r, w) = true <-> r = rune_error /\ w = 1%nat.
Proof.
  unfold is_err1. cbn [fst snd]. rewrite andb_true_iff, N.eqb_eq, Nat.eqb_eq. tauto.
Qed.

Theorem decode_encode r rest :
  is_scalar r = true -> decode_rune (encode_rune r ++ rest) = Some (r, rune_len r).
Proof. intros H. now apply decodes_decode, encode_decodes. Qed.

(* the two together: DecodeRune succeeds on d exactly when d starts with the
   shortest-form encoding of a scalar value *)
Theorem decode_rune_spec d r w :
  (decode_rune d = Some (r, w) /\ is_err1 (r, w) = false) <->
  (is_scalar r = true /\ w = rune_len r /\ exists rest, d = encode_rune r ++ rest).
Proof.
  split.
  - intros [H He]. destruct (decode_rune_sound d r w H He) as [Hs [Hw Hf]].
    repeat split; try assumption. exists (skipn w d). now rewrite <- Hf, firstn_skipn.
  - intros [Hs [-> [rest ->]]]. split; [now apply decode_encode|].
    unfold is_err1. cbn [fst snd]. apply andb_false_iff.
    destruct (N.eq_dec r rune_error) as [->|Hne]; [right; reflexivity|left; now apply N.eqb_neq].
Qed.

(* Examples: overlong forms, surrogates and values above U+10FFFF are refused, the
   properly encoded U+FFFD is not an error *)
Example ex_decode :
  decode_rune [xc0; x80] = err1 /\ decode_rune [xe0; x80; x80] = err1 /\
  decode_rune [xed; xa0; x80] = err1 /\ decode_rune [xf4; x90; x80; x80] = err1 /\
  decode_rune [xef; xbf; xbd] = Some (rune_error, 3%nat) /\
  decode_rune [xf4; x8f; xbf; xbf] = Some (max_rune, 4%nat) /\
  decode_last_rune [x41; xe2; x80; xa8] = Some (8232, 3%nat) /\
  decode_last_rune [xe2; x80] = err1.
Proof. vm_compute. repeat split; reflexivity. Qed.
