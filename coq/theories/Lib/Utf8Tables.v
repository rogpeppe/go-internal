(* Table lemmas for Lib/Utf8Facts.v: the byte tests of Lib/Utf8.v as inequalities on byte
   codes, and unicode.IsSpace of the regenerated tables as a list of code points whose
   encodings are the [space_encodings] of Lib/BytesFacts.v. *)
From Coq Require Import List Bool Arith NArith ZArith Lia.
From Coq.Strings Require Import Byte.
From GI Require Import Lib.Bytes Lib.BytesFacts Gen.UnicodeConsts Lib.Utf8.
Import ListNotations.
Open Scope N_scope.

(* boolean tests on N in the goal and the context as propositions *)
Ltac b2p :=
  repeat (rewrite ?orb_true_iff, ?andb_true_iff, ?N.leb_le, ?N.eqb_eq, ?N.ltb_lt, ?negb_true_iff,
          ?orb_false_iff, ?andb_false_iff, ?N.leb_gt, ?N.eqb_neq, ?N.ltb_ge in * ).

Lemma in_range_iff lo hi b : in_range lo hi b = true <-> lo <= bN b <= hi.
Proof. unfold in_range. b2p. tauto. Qed.
Lemma in_range_false lo hi b : in_range lo hi b = false <-> bN b < lo \/ hi < bN b.
Proof. unfold in_range. b2p. tauto. Qed.
Lemma cont_iff b : cont b = true <-> 128 <= bN b <= 191.
Proof. apply in_range_iff. Qed.
Lemma cont_false b : cont b = false <-> bN b < 128 \/ 191 < bN b.
Proof. apply in_range_false. Qed.

Lemma rune_start_true b : rune_start b = true <-> bN b < 128 \/ 191 < bN b.
Proof. unfold rune_start. rewrite negb_true_iff. apply in_range_false. Qed.
Lemma rune_start_false b : rune_start b = false <-> 128 <= bN b <= 191.
Proof. unfold rune_start. rewrite negb_false_iff. apply in_range_iff. Qed.

Lemma second3_true b c1 :
  second3 b c1 = true <->
  128 <= bN c1 <= 191 /\ (bN b = 224 -> 160 <= bN c1) /\ (bN b = 237 -> bN c1 <= 159).
Proof.
  unfold second3, cont.
  destruct (N.eqb_spec (bN b) 224) as [E1|E1]; [|destruct (N.eqb_spec (bN b) 237) as [E2|E2]];
    rewrite in_range_iff; lia.
Qed.

Lemma second4_true b c1 :
  second4 b c1 = true <->
  128 <= bN c1 <= 191 /\ (bN b = 240 -> 144 <= bN c1) /\ (bN b = 244 -> bN c1 <= 143).
Proof.
  unfold second4, cont.
  destruct (N.eqb_spec (bN b) 240) as [E1|E1]; [|destruct (N.eqb_spec (bN b) 244) as [E2|E2]];
    rewrite in_range_iff; lia.
Qed.

(* the tests that hold in the context, as inequalities *)
Ltac hyps :=
  repeat match goal with
  | H : in_range _ _ _ = true |- _ => apply in_range_iff in H
  | H : in_range _ _ _ = false |- _ => apply in_range_false in H
  | H : cont _ = true |- _ => apply cont_iff in H
  | H : cont _ = false |- _ => apply cont_false in H
  | H : second3 _ _ = true |- _ => apply second3_true in H
  | H : second4 _ _ = true |- _ => apply second4_true in H
  | H : (_ <? _) = true |- _ => apply N.ltb_lt in H
  | H : (_ <? _) = false |- _ => apply N.ltb_ge in H
  | H : (_ && _) = true |- _ => apply andb_true_iff in H; destruct H
  end.

(* unicode.IsSpace: the regenerated tables denote this list of code points
   (a changed table breaks [is_space_rune_codes]) *)

Definition space_codes : list N :=
  [9; 10; 11; 12; 13; 32; 133; 160; 5760; 8192; 8193; 8194; 8195; 8196; 8197; 8198; 8199; 8200;
   8201; 8202; 8232; 8233; 8239; 8287; 12288].

(* the members of a range of a unicode.RangeTable: lo, lo + stride, ... up to hi *)
Definition range_points (x : N * N * N) : list N :=
  let '(lo, hi, stride) := x in
  map (fun k => lo + N.of_nat k * stride) (seq 0 (S (N.to_nat ((hi - lo) / stride)))).

Lemma in_ranges_points t r :
  Forall (fun x => snd x <> 0) t -> in_ranges t r = true -> In r (flat_map range_points t).
Proof.
  intros Ht H. apply existsb_exists in H. destruct H as ([[lo hi] st] & Hx & H).
  rewrite Forall_forall in Ht. specialize (Ht _ Hx). cbn [snd] in Ht. b2p. destruct H as [[H1 H2] H3].
  apply in_flat_map. exists (lo, hi, st). split; [exact Hx|]. apply in_map_iff.
  exists (N.to_nat ((r - lo) / st)). rewrite N2Nat.id, in_seq. split.
  - pose proof (N.div_mod (r - lo) st Ht) as H. rewrite H3, N.add_0_r, N.mul_comm in H.
    rewrite <- H. lia.
  - assert (Hq : (r - lo) / st <= (hi - lo) / st) by (apply N.div_le_mono; lia).
    revert Hq. generalize ((r - lo) / st), ((hi - lo) / st). lia.
Qed.

Lemma is_space_rune_codes r : is_space_rune r = true -> In r space_codes.
Proof.
  unfold is_space_rune. destruct (r <=? max_latin1).
  - rewrite existsb_eqb_In. intros H.
    assert (Hl : forallb (fun x => existsb (N.eqb x) space_codes) latin1_space = true) by reflexivity.
    rewrite forallb_forall in Hl. apply existsb_eqb_In, Hl, H.
  - apply (in_ranges_points white_space_ranges). repeat constructor; discriminate.
Qed.

Lemma rune_consts : rune_self = 128 /\ rune_error = 65533 /\ max_rune = 1114111.
Proof. repeat split. Qed.
