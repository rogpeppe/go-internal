(* Write succeeds on "good" names: a set of distinct, prefix-free relative paths made of
   real, NUL-free elements, written into a directory that exists and holds nothing.
   This is the file-system half of the txtar-c / txtar-x round trip (SavedirFacts.v).
   The directory may be named by any string (absolute or relative): the proofs are written
   against a "string builder" [mk] that gives, for a list q of elements below the
   directory, the string Write hands to the system calls for it; [mk_abs] and [mk_rel]
   at the end of the file are the two builders. *)
From Coq Require Import List Bool Arith Lia Permutation.
From Coq.Strings Require Import Byte.
From GI Require Import Lib.Bytes Lib.BytesFacts Txtar.Txtar
  TxtarWrite.Path TxtarWrite.TxtarWrite TxtarWrite.PathFacts TxtarWrite.WriteFacts
  TxtarWrite.NulFacts TxtarWrite.FuelFacts TxtarWrite.RelFacts.
Import ListNotations.

Definition proper (p q : path) : Prop := within p q /\ p <> q.

Lemma within_snoc_not (P : path) c : ~ within (P ++ [c]) P.
Proof. intros [r E]. apply (f_equal (@length _)) in E. rewrite !app_length in E. simpl in E. lia. Qed.

Lemma within_antisym p q : within p q -> within q p -> p = q.
Proof.
  intros [a Ha] [b Hb]. subst q. rewrite <- app_assoc in Hb.
  rewrite <- (app_nil_r p) in Hb at 1. apply app_inv_head in Hb.
  symmetry in Hb. apply app_eq_nil in Hb. destruct Hb as [-> _]. rewrite app_nil_r. reflexivity.
Qed.

Lemma within_snoc k Q c : within k (Q ++ [c]) -> k = Q ++ [c] \/ within k Q.
Proof.
  intros [r E]. destruct (snoc_cases r) as [->|[r' [x ->]]].
  - left. rewrite app_nil_r in E. auto.
  - right. rewrite app_assoc in E. apply app_inj_tail in E. destruct E as [E _]. exists r'. auto.
Qed.

Lemma proper_snoc k Q c : proper k (Q ++ [c]) -> within k Q.
Proof. intros [H N]. destruct (within_snoc _ _ _ H); [contradiction|auto]. Qed.

Lemma proper_trans k q p : proper k q -> within q p -> proper k p.
Proof.
  intros [H N] Hq. split; [eapply within_trans; eauto|].
  intros E. subst k. apply N. apply within_antisym; auto.
Qed.

Lemma within_nil p : within p [] -> p = [].
Proof. intros [r E]. symmetry in E. apply app_eq_nil in E. apply E. Qed.

Lemma within_app_inv D p q : within (D ++ p) (D ++ q) -> within p q.
Proof. intros [r E]. rewrite <- app_assoc in E. apply app_inv_head in E. exists r. auto. Qed.

Lemma within_split q D p : within q (D ++ p) -> within q D \/ beneath D q.
Proof.
  intros H. destruct (within_app_cases _ _ _ H) as [H1|[r E]]; auto.
  destruct r as [|c r]; [left; rewrite app_nil_r in E; subst; apply within_refl|].
  right. exists c, r. auto.
Qed.

Lemma length_render_true P : Forall real P -> length P <= length (render true P).
Proof. exact (render_true_longer P). Qed.

Lemma walk_parents_ok fs rest : forall pre,
  (forall k, proper k rest -> k <> [] -> get fs (pre ++ k) = Some Dir) ->
  walk_parents fs pre rest = None.
Proof.
  induction rest as [|c rest IH]; intros pre H; [reflexivity|].
  destruct rest as [|c' rest]; [reflexivity|].
  change (walk_parents fs pre (c :: c' :: rest)) with
    (match get fs (pre ++ [c]) with
     | Some Dir => walk_parents fs (pre ++ [c]) (c' :: rest)
     | Some (File _) => Some ENOTDIR
     | None => Some ENOENT
     end).
  rewrite (H [c]).
  - apply IH. intros k [Hk Nk] Hne. rewrite <- app_assoc. apply H; [|discriminate].
    split.
    + destruct Hk as [r E]. exists r. simpl. rewrite E. reflexivity.
    + intros E. inversion E. contradiction.
  - split; [exists (c' :: rest); reflexivity|discriminate].
  - discriminate.
Qed.

Section Dirs.
Variable cwd : path.

Lemma lookup_str fs s Q :
  has_nul s = false -> s <> [] -> resolve cwd s = Q ->
  lookup_path cwd fs s =
    match walk_parents fs [] Q with Some e => inl e | None => inr Q end.
Proof.
  intros HN Hne HR. unfold lookup_path. rewrite HN.
  destruct s as [|b s]; [contradiction|]. rewrite HR. reflexivity.
Qed.

Lemma lookup_str_ok fs s Q :
  has_nul s = false -> s <> [] -> resolve cwd s = Q ->
  (forall k, proper k Q -> get fs k = Some Dir) ->
  lookup_path cwd fs s = inr Q.
Proof.
  intros HN Hne HR H. rewrite (lookup_str fs s Q) by auto.
  rewrite walk_parents_ok; [reflexivity|]. intros k Hk _. simpl. auto.
Qed.

(* the directory written into, and the strings that name what lies below it *)
Variable D : path.
Variable mk : list bytes -> bytes.
Definition good_elems (q : list bytes) : Prop := Forall real q /\ Forall nul_free q.
Hypothesis mk_nul : forall q, good_elems q -> has_nul (mk q) = false.
Hypothesis mk_ne : forall q, good_elems q -> mk q <> [].
Hypothesis mk_res : forall q, good_elems q -> resolve cwd (mk q) = D ++ q.
Hypothesis mk_parent : forall q c, good_elems (q ++ [c]) ->
  parent_str (mk (q ++ [c])) = mk q \/ (parent_str (mk (q ++ [c])) = [] /\ q = []).
Hypothesis mk_dir : forall q c, good_elems (q ++ [c]) -> dir_of (mk (q ++ [c])) = mk q.

Lemma okq_snoc q c : good_elems (q ++ [c]) -> good_elems q.
Proof. intros [H1 H2]. apply Forall_app in H1. apply Forall_app in H2. split; tauto. Qed.

Lemma nonempty_true s : s <> [] -> nonempty s = true.
Proof. destruct s; [contradiction|reflexivity]. Qed.

Lemma within_D_app p q c : within p (D ++ q) -> within p (D ++ q ++ [c]).
Proof. rewrite app_assoc. intros H. exact (within_trans _ _ _ H (ex_intro _ [c] eq_refl)). Qed.

Lemma mkdir_all_good : forall q f fs,
  length (mk q) < f -> good_elems q -> dir_exists fs D ->
  (forall p, within p (D ++ q) -> get fs p <> None -> forall k, within k p -> get fs k = Some Dir) ->
  exists fs', mkdir_all f cwd fs (mk q) = (fs', WOk) /\
              (forall p, within p (D ++ q) -> get fs' p = Some Dir) /\
              ext (fun p n => n = Dir /\ within p (D ++ q)) fs fs'.
Proof.
  induction q as [|c q IH] using rev_ind; intros f fs Hf Hq HD HT.
  - rewrite app_nil_r in *. destruct f as [|f]; [lia|].
    exists fs. split; [|split; [auto|apply ext_refl]].
    cbn [mkdir_all]. unfold os_stat.
    assert (E0 : resolve cwd (mk []) = D) by (rewrite mk_res by auto; apply app_nil_r).
    rewrite (lookup_str_ok fs (mk []) D (mk_nul _ Hq) (mk_ne _ Hq) E0 (fun k Hk => HD k (proj1 Hk))).
    rewrite (HD D (within_refl D)). reflexivity.
  - destruct f as [|f]; [lia|].
    pose proof (okq_snoc _ _ Hq) as Hq'.
    set (Q := D ++ q ++ [c]) in *.
    assert (EQ : Q = (D ++ q) ++ [c]) by (unfold Q; rewrite app_assoc; reflexivity).
    assert (ER : resolve cwd (mk (q ++ [c])) = Q) by (apply mk_res; auto).
    destruct (get fs Q) as [x|] eqn:EG.
    + assert (HP : forall k, within k Q -> get fs k = Some Dir).
      { intros k Hk. eapply HT; [apply within_refl|congruence|exact Hk]. }
      exists fs. split; [|split; [exact HP|apply ext_refl]].
      cbn [mkdir_all]. unfold os_stat.
      rewrite (lookup_str_ok fs _ Q) by (auto; intros k Hk; apply HP, Hk).
      now rewrite (HP Q (within_refl Q)).
    + assert (ES : exists e, os_stat cwd fs (mk (q ++ [c])) = inl e).
      { unfold os_stat. rewrite (lookup_str fs _ Q) by auto.
        destruct (walk_parents fs [] Q); [eauto|]. rewrite EG. eauto. }
      destruct ES as [e ES].
      assert (HPAR : exists fs1,
        (if nonempty (parent_str (mk (q ++ [c]))) then mkdir_all f cwd fs (parent_str (mk (q ++ [c]))) else (fs, WOk))
          = (fs1, WOk) /\
        (forall p, within p (D ++ q) -> get fs1 p = Some Dir) /\
        ext (fun p n => n = Dir /\ within p (D ++ q)) fs fs1).
      { destruct (mk_parent q c Hq) as [EP|[EP Eq0]].
        - assert (HN : nonempty (parent_str (mk (q ++ [c]))) = true)
            by (rewrite EP; apply nonempty_true; auto).
          pose proof (parent_str_shorter _ HN) as HS. rewrite HN, EP in *.
          apply IH; auto; try lia.
          intros p Hp. apply HT, within_D_app, Hp.
        - rewrite EP. simpl. subst q. rewrite app_nil_r. exists fs. split; [reflexivity|].
          split; [|apply ext_refl]. intros p Hp. apply HD. exact Hp. }
      destruct HPAR as [fs1 [EM [HD1 HE1]]].
      assert (EG1 : get fs1 Q = None).
      { destruct (HE1 Q) as [E|[_ [x [_ [_ HW]]]]]; [congruence|].
        rewrite EQ in HW. now apply within_snoc_not in HW. }
      assert (HK : forall k, proper k Q -> get fs1 k = Some Dir).
      { intros k Hk. apply HD1. rewrite EQ in Hk. eapply proper_snoc; eauto. }
      exists ((Q, Dir) :: fs1). split; [|split].
      * cbn [mkdir_all]. rewrite ES. rewrite EM. unfold os_mkdir.
        rewrite (lookup_str_ok fs1 _ Q) by auto. rewrite EG1. reflexivity.
      * intros p Hp. pose proof (get_none_nonroot _ _ EG1) as HQ.
        rewrite EQ in Hp. destruct (within_snoc p (D ++ q) c Hp) as [E|HW].
        -- rewrite <- EQ in E. subst p. apply get_cons_same. auto.
        -- rewrite get_cons_other; auto. intros E. subst p. rewrite EQ in HW.
           now apply within_snoc_not in HW.
      * eapply ext_trans.
        -- eapply ext_weaken; [|exact HE1]. intros p x [-> HW]. split; auto.
           apply within_D_app. exact HW.
        -- apply ext_new; auto. split; [reflexivity|apply within_refl].
Qed.

Variables (g : guard) (fl : oflags) (dir : bytes).
Hypothesis Hpass : forall fp, is_abs fp = false -> fp <> dotdot -> has_prefix dotdot_sep fp = false ->
                              rejected g fp = false.
Hypothesis Hx : excl fl.
Hypothesis mk_join : forall p, p <> [] -> good_elems p -> join dir (join_sep p) = mk p.

Lemma write_one_good fs p s :
  p <> [] -> Forall real p -> Forall nul_free p -> dir_exists fs D ->
  (forall q, proper q (D ++ p) -> get fs q <> None -> forall k, within k q -> get fs k = Some Dir) ->
  get fs (D ++ p) = None ->
  exists fs', write_one g fl cwd fs dir (join_sep p, s) = (fs', WOk) /\
              get fs' (D ++ p) = Some (File s) /\
              (forall q, proper q (D ++ p) -> get fs' q = Some Dir) /\
              ext (fun q n => (q = D ++ p /\ n = File s) \/ (n = Dir /\ proper q (D ++ p))) fs fs'.
Proof.
  intros Hne HR HN HDe HT H3.
  assert (Hok : good_elems p) by (split; auto).
  destruct (snoc_cases p) as [->|[p' [c Ep]]]; [contradiction|].
  set (P := D ++ p) in *. set (Q := D ++ p').
  assert (EP : P = Q ++ [c]) by (unfold P, Q; rewrite Ep, app_assoc; reflexivity).
  assert (Hok' : good_elems p') by (apply (okq_snoc p' c); rewrite <- Ep; exact Hok).
  assert (HQP : forall k, within k Q -> proper k P).
  { intros k Hk. split.
    - rewrite EP. destruct Hk as [r ->]. exists (r ++ [c]). rewrite app_assoc. reflexivity.
    - intros E. subst k. rewrite EP in Hk. now apply within_snoc_not in Hk. }
  (* the name passes Clean and the guard unchanged *)
  pose proof (render_false_passes p HR) as [G1 [G2 G3]].
  assert (ERF : render false p = join_sep p) by (destruct p; [contradiction|reflexivity]).
  rewrite ERF in G1, G2, G3.
  unfold write_one. cbn [fst snd]. unfold from_slash.
  rewrite clean_render_false by auto. rewrite (Hpass _ G1 G2 G3).
  rewrite mk_join by auto.
  assert (EDir : dir_of (mk p) = mk p') by (rewrite Ep; apply mk_dir; rewrite <- Ep; exact Hok).
  rewrite EDir.
  destruct (mkdir_all_good p' (S (length (mk p'))) fs) as [fs1 [EM [HD1 HE1]]]; auto.
  { intros q Hq. apply HT, HQP, Hq. }
  fold Q in HD1, HE1. rewrite EM.
  assert (EG1 : get fs1 P = None).
  { destruct (HE1 P) as [E|[_ [x [_ [_ HW]]]]]; [congruence|].
    apply HQP in HW. destruct HW as [_ N]. contradiction. }
  assert (HK : forall k, proper k P -> get fs1 k = Some Dir).
  { intros k Hk. apply HD1. rewrite EP in Hk. eapply proper_snoc; eauto. }
  unfold os_open. rewrite (lookup_str_ok fs1 (mk p) P) by (auto; apply mk_res; auto).
  rewrite EG1.
  destruct Hx as [Hcr Hex]. rewrite Hcr.
  pose proof (get_none_nonroot _ _ EG1) as HPne.
  rewrite os_write_new by auto.
  exists ((P, File s) :: (P, File []) :: fs1). split; [reflexivity|]. split; [|split].
  - apply get_cons_same. auto.
  - intros q Hq. rewrite !get_cons_other; auto; apply Hq.
  - eapply ext_trans.
    + eapply ext_weaken; [|exact HE1]. intros q x [-> HW]. right. split; auto.
    + apply ext_create; auto.
Qed.

Definition good_paths (ps : list path) : Prop :=
  NoDup ps /\
  (forall p, In p ps -> p <> [] /\ Forall real p /\ Forall nul_free p) /\
  (forall p q, In p ps -> In q ps -> within p q -> p = q).

(* the state while extracting into D: D exists; whatever is beneath D is a file written
   for a finished entry or a directory on the way to one; and parents exist *)
Definition inv (done : list path) (fs : fsys) : Prop :=
  dir_exists fs D /\
  (forall q x, beneath D q -> get fs q = Some x ->
     exists p, In p done /\ ((q = D ++ p /\ exists s, x = File s) \/ (x = Dir /\ proper q (D ++ p)))) /\
  (forall q, beneath D q -> get fs q <> None -> forall k, proper k q -> get fs k = Some Dir).

Definition entry_of (ps : path * bytes) : bytes * bytes := (join_sep (fst ps), snd ps).

(* distinct things with a property each and a relation between any two: so is any arrangement of them *)
Lemma distinct_perm {X} (Q : X -> Prop) (R : X -> X -> Prop) a b :
  Permutation a b ->
  NoDup a /\ (forall p, In p a -> Q p) /\ (forall p q, In p a -> In q a -> R p q) ->
  NoDup b /\ (forall p, In p b -> Q p) /\ (forall p q, In p b -> In q b -> R p q).
Proof.
  intros HP [H1 [H2 H3]]. split; [eapply Permutation_NoDup; eauto|]. split.
  - intros p Hp. apply H2. eapply Permutation_in; [apply Permutation_sym; exact HP|auto].
  - intros p q Hp Hq. apply H3; eapply Permutation_in; try (apply Permutation_sym; exact HP); auto.
Qed.

Lemma good_paths_perm a b : Permutation a b -> good_paths a -> good_paths b.
Proof. intros HP. exact (distinct_perm _ _ a b HP). Qed.

Lemma write_gen_good : forall todo done fs,
  inv done fs -> good_paths (done ++ map fst todo) ->
  exists fs', write_gen g fl cwd fs dir (map entry_of todo) = (fs', WOk) /\
              inv (done ++ map fst todo) fs'.
Proof.
  induction todo as [|[p s] todo IH]; intros done fs HI HG.
  - exists fs. simpl. rewrite app_nil_r. auto.
  - simpl map in *. destruct HI as [I1 [I2 I3]].
    assert (HG' := HG). destruct HG' as [G1 [G2 G3]].
    assert (Hin : In p (done ++ p :: map fst todo)) by (apply in_or_app; right; left; auto).
    destruct (G2 p Hin) as [Pne [PR PN]].
    assert (Hnd : ~ In p done).
    { intros HIn. apply NoDup_remove_2 in G1. apply G1. apply in_or_app. left. auto. }
    assert (Hdone : forall p', In p' done -> In p' (done ++ p :: map fst todo))
      by (intros; apply in_or_app; left; auto).
    assert (C3 : get fs (D ++ p) = None).
    { destruct (get fs (D ++ p)) as [x|] eqn:EG; auto. exfalso.
      assert (HB : beneath D (D ++ p)) by (destruct p as [|c r]; [contradiction|exists c, r; auto]).
      destruct (I2 _ _ HB EG) as [p' [Hp' [[E _]|[_ HPr]]]].
      - apply app_inv_head in E. subst p'. contradiction.
      - assert (p = p').
        { apply G3; auto. destruct HPr as [HW _]. eapply within_app_inv; eauto. }
        subst p'. destruct HPr as [_ N]. contradiction. }
    assert (C1 : forall q, proper q (D ++ p) -> get fs q <> None ->
                 forall k, within k q -> get fs k = Some Dir).
    { intros q Hq Hg k Hk. destruct (within_split q D p (proj1 Hq)) as [HW|HB].
      - apply I1. eapply within_trans; eauto.
      - destruct Hk as [[|c r] ->].
        + rewrite app_nil_r in *. destruct (get fs k) as [x|] eqn:Gk; [|contradiction].
          destruct (I2 _ _ HB Gk) as [p' [Hp' [[-> _]|[-> _]]]]; [exfalso|reflexivity].
          assert (p' = p) by (apply G3; auto; eapply within_app_inv, Hq). subst p'. contradiction.
        + eapply I3; eauto. split; [eexists; reflexivity|]. intros E.
          apply (f_equal (@length _)) in E. rewrite app_length in E. simpl in E. lia. }
    destruct (write_one_good fs p s Pne PR PN I1 C1 C3) as [fs1 [E1 [F1 [F2 F3]]]].
    assert (HI1 : inv (p :: done) fs1).
    { split; [|split].
      - intros q Hq. eapply ext_preserves; [exact F3|]. apply I1. auto.
      - intros q x HB Hg. destruct (F3 q) as [E|[_ [y [Hy HA]]]].
        + rewrite E in Hg. destruct (I2 _ _ HB Hg) as [p' [Hp' Hc]]. exists p'. split; [right; auto|auto].
        + rewrite Hy in Hg. inversion Hg; subst y. exists p. split; [left; auto|].
          destruct HA as [[-> ->]|[-> HPr]]; [left; eauto|right; auto].
      - intros q HB Hg k Hk. destruct (F3 q) as [E|[_ [y [Hy HA]]]].
        + rewrite E in Hg. eapply ext_preserves; [exact F3|]. eapply I3; eauto.
        + apply F2. destruct HA as [[-> _]|[_ HPr]]; auto.
          eapply proper_trans; [exact Hk|apply HPr]. }
    assert (HG1 : good_paths ((p :: done) ++ map fst todo)).
    { eapply good_paths_perm; [|exact HG]. simpl. apply Permutation_sym, Permutation_middle. }
    destruct (IH (p :: done) fs1 HI1 HG1) as [fs' [E' HI']].
    exists fs'. split.
    + simpl. unfold entry_of at 1. cbn [fst snd]. rewrite E1. exact E'.
    + destruct HI' as [J1 [J2 J3]]. split; [auto|]. split; [|auto].
      intros q x HB Hg. destruct (J2 _ _ HB Hg) as [p' [Hp' Hc]]. exists p'. split; [|auto].
      simpl in Hp'. destruct Hp' as [->|Hp']; [apply in_or_app; right; left; auto|].
      apply in_app_or in Hp'. destruct Hp'; apply in_or_app; [left|right; right]; auto.
Qed.

End Dirs.

(* absolute directory string: "/d1/.../dn/q1/.../qm" *)
Definition mk_abs (D q : list bytes) : bytes := render true (D ++ q).
(* relative directory string whose cleaned form has the elements W0 *)
Definition mk_rel (W0 q : list bytes) : bytes := render false (W0 ++ q).

Lemma shape_app_real W q : rel_shape W -> Forall real q -> rel_shape (W ++ q).
Proof.
  intros [k [X [HX ->]]] Hq. exists k, (X ++ q). split; [apply Forall_app; auto|].
  rewrite app_assoc. reflexivity.
Qed.

Lemma render_true_nonempty P : render true P <> [].
Proof. discriminate. Qed.

Section Builders.
Variable cwd : path.

Section Abs.
Variable D : path.
Hypothesis HDr : Forall real D.
Hypothesis HDn : Forall nul_free D.

Lemma mk_abs_nul q : good_elems q -> has_nul (mk_abs D q) = false.
Proof. intros [_ H]. apply has_nul_render. apply Forall_app. auto. Qed.

Lemma mk_abs_ne q : good_elems q -> mk_abs D q <> [].
Proof. intros _. apply render_true_nonempty. Qed.

Lemma mk_abs_res q : good_elems q -> resolve cwd (mk_abs D q) = D ++ q.
Proof. intros [H _]. apply resolve_render_true. apply Forall_app. auto. Qed.

Lemma mk_abs_parent q c : good_elems (q ++ [c]) ->
  parent_str (mk_abs D (q ++ [c])) = mk_abs D q \/ (parent_str (mk_abs D (q ++ [c])) = [] /\ q = []).
Proof.
  intros [H _]. apply Forall_app in H. destruct H as [Hq Hc]. pose proof (Forall_inv Hc) as Hc1.
  unfold mk_abs. rewrite app_assoc. rewrite render_true by (destruct (D ++ q); discriminate).
  rewrite parent_str_render_snoc by auto.
  destruct (D ++ q) as [|x l] eqn:E.
  - right. split; [reflexivity|]. apply app_eq_nil in E. apply E.
  - left. rewrite render_true by discriminate. reflexivity.
Qed.

Lemma mk_abs_dir q c : good_elems (q ++ [c]) -> dir_of (mk_abs D (q ++ [c])) = mk_abs D q.
Proof.
  intros [H _]. apply Forall_app in H. destruct H as [Hq Hc]. pose proof (Forall_inv Hc) as Hc1.
  unfold mk_abs. rewrite app_assoc. apply dir_of_render_snoc; auto. apply Forall_app. auto.
Qed.
End Abs.

Section Rel.
Variable W0 : list bytes.
Hypothesis HW : rel_shape W0.
Hypothesis HWn : Forall nul_free W0.

Lemma rel_elems q : Forall real q -> Forall elem (W0 ++ q).
Proof. intros H. apply shape_elems, shape_app_real; auto. Qed.

Lemma mk_rel_nul q : good_elems q -> has_nul (mk_rel W0 q) = false.
Proof. intros [_ H]. apply has_nul_render. apply Forall_app. auto. Qed.

Lemma mk_rel_ne q : good_elems q -> mk_rel W0 q <> [].
Proof. intros [H _]. apply render_false_nonempty. apply rel_elems. auto. Qed.

Lemma mk_rel_res q : good_elems q -> resolve cwd (mk_rel W0 q) = resolve cwd (render false W0) ++ q.
Proof.
  intros [H _]. unfold mk_rel. induction q as [|c q IH] using rev_ind.
  - rewrite !app_nil_r. reflexivity.
  - apply Forall_app in H. destruct H as [Hq Hc]. rewrite app_assoc.
    rewrite resolve_rel_snoc_real by (try apply rel_elems; auto; apply (Forall_inv Hc)).
    rewrite IH by auto. rewrite <- app_assoc. reflexivity.
Qed.

Lemma mk_rel_parent q c : good_elems (q ++ [c]) ->
  parent_str (mk_rel W0 (q ++ [c])) = mk_rel W0 q \/ (parent_str (mk_rel W0 (q ++ [c])) = [] /\ q = []).
Proof.
  intros [H _]. apply Forall_app in H. destruct H as [Hq Hc]. pose proof (Forall_inv Hc) as Hc1.
  unfold mk_rel. rewrite app_assoc.
  assert (ER : render false ((W0 ++ q) ++ [c]) = join_sep ((W0 ++ q) ++ [c])) by (destruct (W0 ++ q); reflexivity).
  rewrite ER. rewrite parent_str_rel by (right; auto).
  destruct (W0 ++ q) as [|x l] eqn:E.
  - right. split; [reflexivity|]. apply app_eq_nil in E. apply E.
  - left. reflexivity.
Qed.

Lemma mk_rel_dir q c : good_elems (q ++ [c]) -> dir_of (mk_rel W0 (q ++ [c])) = mk_rel W0 q.
Proof.
  intros [H _]. unfold mk_rel. rewrite app_assoc. apply dir_of_rel.
  rewrite <- app_assoc. apply shape_app_real; auto.
Qed.
End Rel.

(* Join(dir, name) for a relative directory string: the elements of Clean(dir), then the
   name's *)
Lemma join_rel_shape dir :
  is_abs dir = false ->
  exists W0, rel_shape W0 /\
    (forall p, Forall real p -> join dir (render false p) = render false (W0 ++ p)) /\
    resolve cwd (render false W0) = resolve cwd dir /\
    (has_nul dir = false -> Forall nul_free W0).
Proof.
  intros Ha. destruct dir as [|b d].
  - exists []. split; [exists 0, []; auto|]. split; [|split; [reflexivity|constructor]].
    intros p Hp. unfold join. simpl app.
    destruct (render false p) eqn:E; [exfalso; eapply (render_false_nonempty p); eauto;
      exact (elems_shape 0 p Hp)|].
    rewrite <- E. destruct p as [|c p]; [reflexivity|]. apply (clean_render_false (c :: p)); [discriminate|auto].
  - pose proof (cinv_run false (split_sep (b :: d)) ([], 0) (split_sep_sep_free_all _) (cinv_init _))
      as [R [E [HR _]]].
    destruct (clean_run false (split_sep (b :: d)) ([], 0)) as [out dd] eqn:ER. simpl in E.
    exists (rev out).
    assert (HS : rel_shape (rev out)).
    { exists dd, (rev R). split; [apply Forall_rev; auto|]. subst out.
      rewrite rev_app_distr, rev_repeat. reflexivity. }
    split; [exact HS|]. split; [|split].
    + intros p Hp. now apply (join_run (b :: d) false out dd).
    + assert (EC : clean (b :: d) = render false (rev out)).
      { unfold clean. rewrite Ha, ER. reflexivity. }
      rewrite <- EC. apply resolve_clean.
    + intros HN. apply Forall_forall. intros x Hx. apply in_rev in Hx.
      assert (Hx' : In x (fst (clean_run false (split_sep (b :: d)) ([], 0)))) by (rewrite ER; exact Hx).
      destruct (clean_run_elems _ _ _ _ Hx') as [[]|H].
      intros HI. apply (proj1 (mem_byte_false NUL (b :: d)) HN). apply (split_sep_incl _ _ H). exact HI.
Qed.

(* the good-archive lemma for a directory named by ANY NUL-free string *)
Theorem write_gen_good_dir g fl dir :
  (forall fp, is_abs fp = false -> fp <> dotdot -> has_prefix dotdot_sep fp = false -> rejected g fp = false) ->
  excl fl -> Forall real cwd -> Forall nul_free cwd -> has_nul dir = false ->
  forall todo fs,
    inv (resolve cwd dir) [] fs -> good_paths (map fst todo) ->
    exists fs', write_gen g fl cwd fs dir (map entry_of todo) = (fs', WOk) /\
                inv (resolve cwd dir) (map fst todo) fs'.
Proof.
  intros Hpass Hx Hcr Hcn Hdn todo fs HI HG.
  set (D := resolve cwd dir) in *.
  assert (HDr : Forall real D) by (apply resolve_real; auto).
  assert (HDn : Forall nul_free D) by (apply resolve_nul_free; auto).
  destruct (is_abs dir) eqn:Ea.
  - apply (write_gen_good cwd D (mk_abs D)
             (mk_abs_nul D HDn) (mk_abs_ne D) (mk_abs_res D HDr) (mk_abs_parent D) (mk_abs_dir D HDr)
             g fl dir Hpass Hx) with (done := []); auto.
    intros p Hne [Hp _]. unfold mk_abs.
    replace (join_sep p) with (render false p) by (destruct p; [contradiction|reflexivity]).
    apply join_abs; auto.
  - destruct (join_rel_shape dir Ea) as [W0 [HS [HJ [HRes HNul]]]].
    assert (HWn : Forall nul_free W0) by auto.
    assert (ERes : forall q, good_elems q -> resolve cwd (mk_rel W0 q) = D ++ q).
    { intros q Hq. rewrite (mk_rel_res W0 HS q Hq). rewrite HRes. reflexivity. }
    apply (write_gen_good cwd D (mk_rel W0)
             (mk_rel_nul W0 HWn) (mk_rel_ne W0 HS) ERes (mk_rel_parent W0) (mk_rel_dir W0 HS)
             g fl dir Hpass Hx) with (done := []); auto.
    intros p Hne [Hp _]. unfold mk_rel.
    replace (join_sep p) with (render false p) by (destruct p; [contradiction|reflexivity]).
    apply HJ; auto.
Qed.

End Builders.
