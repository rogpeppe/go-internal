(* Concrete, non-trivial values satisfying the hypotheses of the C15 theorems, and the
   defect that the regenerated guard constants protect against. *)
From Coq Require Import List Bool String.
From Coq.Strings Require Import Byte.
From GI Require Import Lib.Bytes Gen.TxtarWriteConsts Txtar.Txtar
  TxtarWrite.Path TxtarWrite.TxtarWrite TxtarWrite.PathFacts TxtarWrite.WriteFacts
  TxtarWrite.NulFacts TxtarWrite.RelFacts TxtarWrite.RelWrite TxtarWrite.GoodWrite TxtarWrite.SavedirFacts
  TxtarWrite.NameFacts.
Import ListNotations.

Definition B (x : string) : bytes := list_byte_of_string x.

(* a file system: /s/p/t (the target) holds a; /s/p holds the sibling sib *)
Definition ex_fs : fsys :=
  [([B "s"], Dir); ([B "s"; B "p"], Dir); ([B "s"; B "p"; B "t"], Dir);
   ([B "s"; B "p"; B "t"; B "a"], File (B "old")); ([B "s"; B "p"; B "sib"], File (B "sibling"))].
Definition ex_dir : bytes := B "/s/p/./t/".

Example ex_dir_abs : is_abs ex_dir = true.
Proof. reflexivity. Qed.

Example ex_dir_exists : dir_exists ex_fs (resolve [] ex_dir).
Proof.
  intros p [q E]. change (resolve [] ex_dir) with [B "s"; B "p"; B "t"] in E.
  destruct p as [|a [|b [|c [|d p]]]]; simpl in E; inversion E; subst; reflexivity.
Qed.

(* names that stay inside, names the guard must refuse, "." and a duplicate *)
Example ex_write_ok :
  write [] ex_fs ex_dir {| comment := []; files := [(B "x//y/../z", B "Z"); (B "./b", B "B")] |}
  = ((([B "s"; B "p"; B "t"; B "b"], File (B "B")) :: ([B "s"; B "p"; B "t"; B "b"], File []) ::
      ([B "s"; B "p"; B "t"; B "x"; B "z"], File (B "Z")) :: ([B "s"; B "p"; B "t"; B "x"; B "z"], File []) ::
      ([B "s"; B "p"; B "t"; B "x"], Dir) :: ex_fs), WOk).
Proof. vm_compute. reflexivity. Qed.

Example ex_write_refuses :
  map (fun n => snd (write [] ex_fs ex_dir {| comment := []; files := [(B n, B "X")] |}))
      [".."; "a/../.."; "../sib"; "/abs"; "."; ""; "a"; "a/b"]%string
  = [WOutside; WOutside; WOutside; WOutside; WErr OpOpen EEXIST; WErr OpOpen EEXIST;
     WErr OpOpen EEXIST; WErr OpMkdir ENOTDIR].
Proof. vm_compute. reflexivity. Qed.

(* relative directory strings, resolved against the current directory /s/p *)
Example ex_cwd_ok : Forall real [B "s"; B "p"] /\ dir_exists ex_fs [B "s"; B "p"].
Proof.
  split; [repeat constructor; repeat split; try discriminate;
          intros H; simpl in H; repeat (destruct H as [H|H]; [discriminate H|]); exact H|].
  intros p [q E]. destruct p as [|a [|b [|c p]]]; simpl in E; inversion E; subst; reflexivity.
Qed.

Example ex_write_relative :
  map (fun dn => snd (write [B "s"; B "p"] ex_fs (B (fst dn)) {| comment := []; files := [(B (snd dn), B "X")] |}))
      [("t", "n"); ("../p/./t", "n"); (".", "sib"); ("t", "../sib"); ("..", "p/sib"); ("", "t/a")]%string
  = [WOk; WOk; WErr OpOpen EEXIST; WOutside; WErr OpOpen EEXIST; WErr OpOpen EEXIST].
Proof. vm_compute. reflexivity. Qed.

(* The guard as it was before the repair (no test for ".." itself): with a target whose
   parent does not exist yet, the name ".." creates a regular file at the parent path. *)
Example old_guard_escapes :
  write_gen {| g_abs := true; g_exact := []; g_prefix := [dotdot_sep] |} the_flags
            [] [([B "s"], Dir)] (B "/s/p/t") [(B "..", B "DATA")]
  = ([([B "s"; B "p"], File (B "DATA")); ([B "s"; B "p"], File []); ([B "s"], Dir)], WOk).
Proof. vm_compute. reflexivity. Qed.

(* a tree for the round trip: a plain file without final newline, a nested file that
   contains a marker line (quoted with -quote, skipped without), a dot file *)
Definition ex_tree : tree :=
  [([B "b"], B "hello");
   ([B "sub"; B "z"], B "-- x --" ++ [NL] ++ B "more");
   ([B ".hid"], B "h" ++ [NL])].

Ltac solve_real :=
  repeat split; try discriminate;
  try (intros HIn; simpl in HIn; repeat (destruct HIn as [HIn|HIn]; [discriminate HIn|]); exact HIn).

Example ex_tree_ok : tree_ok ex_tree.
Proof.
  split; [|split].
  - repeat constructor; simpl; intros H; repeat (destruct H as [H|H]; [discriminate H|]); exact H.
  - intros p H. simpl in H.
    destruct H as [<-|[<-|[<-|[]]]]; (split; [discriminate|]); (split; [|split]);
      try reflexivity; repeat constructor; solve_real.
  - intros p q Hp Hq [r E]. simpl in Hp, Hq.
    destruct Hp as [<-|[<-|[<-|[]]]]; destruct Hq as [<-|[<-|[<-|[]]]];
      try reflexivity; simpl in E; inversion E.
Qed.

Definition ex_empty_fs : fsys := [([B "s"], Dir); ([B "s"; B "p"], Dir); ([B "s"; B "q"], File (B "other"))].

(* current directory /s, directory string "./p" *)
Example ex_round_trip_hyps :
  Forall real [B "s"] /\ Forall nul_free [B "s"] /\ has_nul (B "./p") = false /\
  dir_exists ex_empty_fs (resolve [B "s"] (B "./p")) /\
  (forall q, beneath (resolve [B "s"] (B "./p")) q -> get ex_empty_fs q = None).
Proof.
  change (resolve [B "s"] (B "./p")) with [B "s"; B "p"].
  split; [repeat constructor; solve_real|]. split; [repeat constructor; solve_real|].
  split; [reflexivity|]. split.
  - intros p [q E]. destruct p as [|a [|b [|c p]]]; simpl in E; inversion E; subst; reflexivity.
  - intros q [c [r ->]]. reflexivity.
Qed.

(* what the model computes for it, with -quote *)
Example ex_round_trip :
  let fl := {| f_quote := true; f_all := false |} in
  txtar_c fl ex_tree =
    B "unquote sub/z" ++ [NL] ++ B "-- b --" ++ [NL] ++ B "hello" ++ [NL] ++
    B "-- sub/z --" ++ [NL] ++ B ">-- x --" ++ [NL] ++ B ">more" ++ [NL]
  /\ snd (extract [] ex_empty_fs (B "/s/p") (txtar_c fl ex_tree)) = WOk
  /\ restored (comment (parse (txtar_c fl ex_tree))) (B "sub/z") (B ">-- x --" ++ [NL] ++ B ">more" ++ [NL])
     = Some (B "-- x --" ++ [NL] ++ B "more" ++ [NL]).
Proof. vm_compute. repeat split; reflexivity. Qed.

(* `txtar-c /`: the names come out absolute and txtar-x refuses the archive *)
Example ex_root_dir_names :
  entry_name (clean (B "/")) [B "a"; B "b"] = B "/a/b" /\
  entry_name (clean (B "x/..")) [B "a"; B "b"] = B "a/b" /\
  snd (write [] [] (B "/s") {| comment := []; files := [(entry_name (clean (B "/")) [B "a"; B "b"], B "x")] |})
  = WOutside.
Proof. vm_compute. repeat split; reflexivity. Qed.

Definition ex_fl : sflags := {| f_quote := true; f_all := false |}.

(* a name with a leading space is not txtar-representable: the marker line is trimmed and
   the file comes back under another name *)
Example ex_leading_space_name :
  let t := [([B " a"], B "x" ++ [NL])] in
  wf_name (B " a") = false /\
  let r := extract [] ex_empty_fs (B "/s/p") (txtar_c ex_fl t) in
  snd r = WOk /\ get (fst r) [B "s"; B "p"; B " a"] = None /\
  get (fst r) [B "s"; B "p"; B "a"] = Some (File (B "x" ++ [NL])).
Proof. vm_compute. repeat split; reflexivity. Qed.

(* a name containing a newline breaks the marker line: another file appears *)
Example ex_newline_name :
  let n := B "x" ++ [NL] ++ B "-- y --" in
  let t := [([n], B "d" ++ [NL])] in
  wf_name n = false /\
  let r := extract [] ex_empty_fs (B "/s/p") (txtar_c ex_fl t) in
  snd r = WOk /\ get (fst r) [B "s"; B "p"; n] = None /\
  get (fst r) [B "s"; B "p"; B "y --"] = Some (File (B "d" ++ [NL])).
Proof. vm_compute. repeat split; reflexivity. Qed.

(* two names that differ by trailing white space collide: txtar-x fails on the second *)
Example ex_trailing_cr_name :
  let t := [([B "a" ++ [CR]], B "d" ++ [NL]); ([B "a"], B "e" ++ [NL])] in
  snd (extract [] ex_empty_fs (B "/s/p") (txtar_c ex_fl t)) = WErr OpOpen EEXIST.
Proof. vm_compute. reflexivity. Qed.
