(* Facts about the model of txtar.Write with descriptors and failing system calls (Fd.v). *)
From Coq Require Import List Bool Arith Lia NArith.
From Coq.Strings Require Import Byte.
From GI Require Import Lib.Bytes Gen.TxtarWriteConsts Txtar.Txtar
  TxtarWrite.Path TxtarWrite.TxtarWrite TxtarWrite.PathFacts TxtarWrite.WriteFacts TxtarWrite.Fd.
Import ListNotations.

(* the fault makes the named system call of the iteration fail *)
Definition strikes (ft : fault) (o : ioop) : bool :=
  match ft, o with
  | FMkdir, IoMkdir | FOpen, IoOpen | FShort _, IoWrite | FClose, IoClose => true
  | _, _ => false
  end.

(* what write(2) stores *)
Definition stored (ft : fault) (data : bytes) : bytes :=
  match ft with FShort k => firstn k data | _ => data end.

Lemma stored_prefix ft data : exists m, stored ft data = firstn m data.
Proof. destruct ft; try (exists (length data); symmetry; apply firstn_all). eexists; reflexivity. Qed.

(* the rest of the iteration once the file is open *)
Definition after_open (sh : shape) (fl : oflags) (ft : fault) (data : bytes) (fs2 : fsys) (h : path)
    : fsys * option fres * list ev * list path :=
  let fs3 := os_write fl fs2 h (stored ft data) in
  let evw := [EvOpen h; EvWrite h (length (stored ft data))] in
  if sh_defer sh then (fs3, if strikes ft IoWrite then Some (FFault IoWrite) else None, evw, [h])
  else if strikes ft IoWrite then
    (fs3, Some (FFault IoWrite), evw ++ (if sh_close_first sh then [EvClose h] else []), [])
  else (fs3, if strikes ft IoClose && sh_cerr sh then Some (FFault IoClose) else None, evw ++ [EvClose h], []).

Lemma after_open_fs sh fl ft data fs2 h :
  fst (fst (fst (after_open sh fl ft data fs2 h))) = os_write fl fs2 h (stored ft data).
Proof. unfold after_open. now destruct (sh_defer sh), (strikes ft IoWrite). Qed.

(* The iteration stage by stage, each fault at its own system call.  (In [write_one_f] the
   fault is matched on at every stage, which multiplies the cases of a proof by five each
   time; the proofs below go through this form.) *)
Lemma write_one_f_stages sh g fl cwd fs dir nd ft :
  write_one_f sh g fl cwd fs dir nd ft =
  if rejected g (clean (from_slash (fst nd))) then (fs, Some (FR WOutside), [], [])
  else
    let fp := join dir (clean (from_slash (fst nd))) in
    if strikes ft IoMkdir then (fs, Some (FFault IoMkdir), [], [])
    else
      match mkdir_all (S (length (dir_of fp))) cwd fs (dir_of fp) with
      | (fsm, WOk) =>
          if strikes ft IoOpen then (fsm, Some (FFault IoOpen), [], [])
          else
            match os_open fl cwd fsm fp with
            | inl e => (fsm, Some (FR (WErr OpOpen e)), [], [])
            | inr (fs2, h) => after_open sh fl ft (snd nd) fs2 h
            end
      | (fsm, r) => (fsm, Some (FR r), [], [])
      end.
Proof. unfold write_one_f, after_open. destruct ft, (sh_cerr sh); reflexivity. Qed.

(* going on means the entry was written as in the fault-free model; a verdict is never success *)
Lemma write_one_f_verdict sh g fl cwd fs dir nd ft fs1 v evs dfr :
  write_one_f sh g fl cwd fs dir nd ft = (fs1, v, evs, dfr) ->
  match v with
  | None => write_one g fl cwd fs dir nd = (fs1, WOk)
  | Some r => r <> FR WOk
  end.
Proof.
  rewrite write_one_f_stages. unfold write_one.
  destruct (rejected g (clean (from_slash (fst nd)))); [intros [= _ <- _ _]; discriminate|]. cbv zeta.
  destruct (strikes ft IoMkdir); [intros [= _ <- _ _]; discriminate|].
  destruct (mkdir_all _ cwd fs _) as [fsm rm].
  destruct rm; try (intros [= _ <- _ _]; discriminate).
  destruct (strikes ft IoOpen); [intros [= _ <- _ _]; discriminate|].
  destruct (os_open fl cwd fsm _) as [e|[fs2 h]]; [intros [= _ <- _ _]; discriminate|].
  unfold after_open. destruct ft, (sh_defer sh), (sh_cerr sh); intros [= <- <- _ _]; (reflexivity || discriminate).
Qed.

Lemma write_one_f_no_fault sh g fl cwd fs dir nd fs1 r evs dfr :
  write_one_f sh g fl cwd fs dir nd FNone = (fs1, Some r, evs, dfr) ->
  exists r', r = FR r' /\ write_one g fl cwd fs dir nd = (fs1, r').
Proof.
  rewrite write_one_f_stages. unfold write_one, after_open.
  destruct (rejected g (clean (from_slash (fst nd)))); [intros [= <- <- _ _]; eauto|]. cbv zeta. cbn [strikes].
  destruct (mkdir_all _ cwd fs _) as [fsm rm].
  destruct rm; try (intros [= <- <- _ _]; eauto).
  destruct (os_open fl cwd fsm _) as [e|[fs2 h]]; [intros [= <- <- _ _]; eauto|].
  destruct (sh_defer sh); discriminate.
Qed.

Lemma write_one_f_ext A sh g fl cwd fs dir nd ft fs1 v evs dfr :
  excl fl -> entry_adds A g cwd dir fs nd ->
  write_one_f sh g fl cwd fs dir nd ft = (fs1, v, evs, dfr) -> ext A fs fs1.
Proof.
  intros Hx HA. rewrite write_one_f_stages.
  destruct (rejected g (clean (from_slash (fst nd)))) eqn:ER; [intros [= <- _ _ _]; apply ext_refl|].
  destruct (HA ER) as [HM HF]. cbv zeta in *.
  destruct (strikes ft IoMkdir); [intros [= <- _ _ _]; apply ext_refl|].
  destruct (mkdir_all _ cwd fs _) as [fsm rm]. specialize (HM _ _ eq_refl).
  destruct rm; try (intros [= <- _ _ _]; exact HM).
  destruct (strikes ft IoOpen); [intros [= <- _ _ _]; exact HM|].
  destruct (os_open fl cwd fsm _) as [e|[fs2 h]] eqn:EO; [intros [= <- _ _ _]; exact HM|].
  destruct (os_open_excl _ _ _ _ _ _ Hx EO) as [Eh [HN ->]].
  destruct (stored_prefix ft (snd nd)) as [m Em]. intros H.
  assert (E : fs1 = os_write fl ((h, File []) :: fsm) h (firstn m (snd nd))).
  { rewrite <- Em, <- after_open_fs with (sh := sh). now rewrite H. }
  subst fs1. rewrite os_write_new by (eapply get_none_nonroot; eauto).
  eapply ext_trans; [exact HM|]. apply ext_create; auto. rewrite Eh. apply HF.
Qed.

(* what a failing iteration may leave behind: new directories, and the entry's file with a
   prefix of its data *)
Definition leftover (cwd : path) (dir : bytes) (nd : bytes * bytes) (p : path) (n : node) : Prop :=
  n = Dir \/
  (p = resolve cwd (join dir (clean (from_slash (fst nd)))) /\ exists m, n = File (firstn m (snd nd))).

Lemma entry_adds_leftover g cwd dir fs nd : entry_adds (leftover cwd dir nd) g cwd dir fs nd.
Proof.
  intros _ fp. split; [|intros m; right; eauto]. intros fsm rm EM.
  eapply ext_weaken; [|eapply (mkdir_all_ext (fun _ => True) cwd); [auto|exact I|exact EM]].
  intros p n [-> _]. left. reflexivity.
Qed.

(* the events of an iteration when Close is not deferred and comes before the error check *)
Lemma write_one_f_events sh g fl cwd fs dir nd ft fs1 v evs dfr :
  sh_defer sh = false -> sh_close_first sh = true ->
  write_one_f sh g fl cwd fs dir nd ft = (fs1, v, evs, dfr) ->
  dfr = [] /\ (evs = [] \/ exists h n, evs = [EvOpen h; EvWrite h n; EvClose h]).
Proof.
  intros Hd Hc. rewrite write_one_f_stages.
  destruct (rejected g (clean (from_slash (fst nd)))); [intros [= _ _ <- <-]; auto|]. cbv zeta.
  destruct (strikes ft IoMkdir); [intros [= _ _ <- <-]; auto|].
  destruct (mkdir_all _ cwd fs _) as [fsm rm].
  destruct rm; try (intros [= _ _ <- <-]; auto).
  destruct (strikes ft IoOpen); [intros [= _ _ <- <-]; auto|].
  destruct (os_open fl cwd fsm _) as [e|[fs2 h]]; [intros [= _ _ <- <-]; auto|].
  unfold after_open. rewrite Hd, Hc.
  destruct (strikes ft IoWrite); intros [= _ _ <- <-]; split; auto; right; eauto.
Qed.

Lemma write_one_f_deferred sh g fl cwd fs dir nd ft fs1 evs dfr :
  sh_defer sh = true ->
  write_one_f sh g fl cwd fs dir nd ft = (fs1, None, evs, dfr) ->
  exists h n, evs = [EvOpen h; EvWrite h n] /\ dfr = [h].
Proof.
  intros Hd. rewrite write_one_f_stages.
  destruct (rejected g (clean (from_slash (fst nd)))); [discriminate|]. cbv zeta.
  destruct (strikes ft IoMkdir); [discriminate|].
  destruct (mkdir_all _ cwd fs _) as [fsm rm].
  destruct rm; try discriminate.
  destruct (strikes ft IoOpen); [discriminate|].
  destruct (os_open fl cwd fsm _) as [e|[fs2 h]]; [discriminate|].
  unfold after_open. rewrite Hd. intros [= _ _ <- <-]. eauto.
Qed.

(* without faults write_gen_f is write_gen (for any shape: the shape only decides
   when descriptors are closed) *)
Theorem write_gen_f_no_faults sh g fl cwd dir files :
  forall fs i pending fs' r tr,
  write_gen_f sh g fl cwd fs dir files no_faults i pending = (fs', r, tr) ->
  r = FR (snd (write_gen g fl cwd fs dir files)) /\ fs' = fst (write_gen g fl cwd fs dir files).
Proof.
  induction files as [|nd rest IH]; intros fs i pending fs' r tr H; simpl in H.
  - injection H as <- <- _. auto.
  - destruct (write_one_f sh g fl cwd fs dir nd (no_faults i)) as [[[fs1 v] evs] dfr] eqn:E1.
    pose proof (write_one_f_verdict _ _ _ _ _ _ _ _ _ _ _ _ E1) as HC.
    destruct v as [r1|].
    + injection H as <- <- _. destruct (write_one_f_no_fault _ _ _ _ _ _ _ _ _ _ _ E1) as [r' [-> E]].
      simpl. rewrite E. destruct r'; auto. now elim HC.
    + destruct (write_gen_f sh g fl cwd fs1 dir rest no_faults (S i) (dfr ++ pending))
        as [[fs2 r2] evs2] eqn:E2.
      injection H as <- <- _. simpl. rewrite HC. exact (IH _ _ _ _ _ _ E2).
Qed.

(* success, under any world: everything was written as in the fault-free model *)
Theorem write_gen_f_ok sh g fl cwd dir files world :
  forall fs i pending fs' tr,
  write_gen_f sh g fl cwd fs dir files world i pending = (fs', FR WOk, tr) ->
  write_gen g fl cwd fs dir files = (fs', WOk).
Proof.
  induction files as [|nd rest IH]; intros fs i pending fs' tr H; simpl in H.
  - injection H as <- _. reflexivity.
  - destruct (write_one_f sh g fl cwd fs dir nd (world i)) as [[[fs1 v] evs] dfr] eqn:E1.
    pose proof (write_one_f_verdict _ _ _ _ _ _ _ _ _ _ _ _ E1) as HC.
    destruct v as [r1|]; [injection H as _ -> _; now elim HC|].
    destruct (write_gen_f sh g fl cwd fs1 dir rest world (S i) (dfr ++ pending))
      as [[fs2 r2] evs2] eqn:E2.
    injection H as <- -> _. simpl. rewrite HC. exact (IH _ _ _ _ _ E2).
Qed.

(* an error, under any world: the entries before the failing one were written as in the
   fault-free model, and beyond that there are only new directories and the failing
   entry's file holding a prefix of its data *)
Theorem write_gen_f_error_prefix sh g fl cwd dir files world :
  excl fl -> forall fs i pending fs' r tr,
  write_gen_f sh g fl cwd fs dir files world i pending = (fs', r, tr) -> r <> FR WOk ->
  exists k fsk, k < length files /\
    write_gen g fl cwd fs dir (firstn k files) = (fsk, WOk) /\
    ext (leftover cwd dir (nth k files ([], []))) fsk fs'.
Proof.
  intros Hx. induction files as [|nd rest IH]; intros fs i pending fs' r tr H Hr; simpl in H.
  - injection H as _ <- _. contradiction.
  - destruct (write_one_f sh g fl cwd fs dir nd (world i)) as [[[fs1 v] evs] dfr] eqn:E1.
    destruct v as [r1|].
    + injection H as <- _ _. exists 0, fs. simpl. split; [lia|]. split; [reflexivity|].
      exact (write_one_f_ext _ _ _ _ _ _ _ _ _ _ _ _ _ Hx (entry_adds_leftover _ _ _ _ _) E1).
    + destruct (write_gen_f sh g fl cwd fs1 dir rest world (S i) (dfr ++ pending))
        as [[fs2 r2] evs2] eqn:E2.
      injection H as <- <- _.
      destruct (IH _ _ _ _ _ _ E2 Hr) as [k [fsk [Hk [HW HE]]]].
      exists (S k), fsk. simpl. split; [lia|].
      rewrite (write_one_f_verdict _ _ _ _ _ _ _ _ _ _ _ _ E1). split; [exact HW|exact HE].
Qed.

Theorem write_gen_f_ext A sh g fl cwd dir files world :
  excl fl -> (forall fs nd, entry_adds A g cwd dir fs nd) ->
  forall fs i pending fs' r tr,
  write_gen_f sh g fl cwd fs dir files world i pending = (fs', r, tr) -> ext A fs fs'.
Proof.
  intros Hx HA. induction files as [|nd rest IH]; intros fs i pending fs' r tr H; simpl in H.
  - injection H as <- _ _. apply ext_refl.
  - destruct (write_one_f sh g fl cwd fs dir nd (world i)) as [[[fs1 v] evs] dfr] eqn:E1.
    pose proof (write_one_f_ext _ _ _ _ _ _ _ _ _ _ _ _ _ Hx (HA _ _) E1) as H1.
    destruct v as [r1|]; [injection H as <- _ _; exact H1|].
    destruct (write_gen_f sh g fl cwd fs1 dir rest world (S i) (dfr ++ pending))
      as [[fs2 r2] evs2] eqn:E2.
    injection H as <- _ _. eapply ext_trans; [exact H1|]. exact (IH _ _ _ _ _ _ E2).
Qed.

(* The discipline "one descriptor at a time", for any kind of event: [d e] says whether e opens
   (Some true) or closes (Some false) a descriptor, [count] is the reading of a trace that
   open_after (and fds_after of SrcWorld.v) is. *)
Section Discipline.
Variables (E : Type) (d : E -> option bool) (count : nat -> list E -> option nat).
Hypothesis count_nil : forall n, count n [] = Some n.
Hypothesis count_cons : forall n e r,
  count n (e :: r) =
  match d e with
  | Some true => count (S n) r
  | Some false => match n with 0 => None | S m => count m r end
  | None => count n r
  end.

(* with n descriptors open: an open only when none is, a close only of the one that is, none at the end *)
Fixpoint one_at_a_time (n : nat) (t : list E) : bool :=
  match t with
  | [] => Nat.eqb n 0
  | e :: r =>
      match d e with
      | Some true => Nat.eqb n 0 && one_at_a_time 1 r
      | Some false => Nat.eqb n 1 && one_at_a_time 0 r
      | None => one_at_a_time n r
      end
  end.

Lemma one_at_a_time_app t : forall n t',
  one_at_a_time n t = true -> one_at_a_time n (t ++ t') = one_at_a_time 0 t'.
Proof.
  induction t as [|e t IH]; intros n t' H; cbn [one_at_a_time app] in *.
  - apply Nat.eqb_eq in H. now subst.
  - destruct (d e) as [[]|]; auto; apply andb_true_iff in H; destruct H as [-> H]; cbn [andb]; auto.
Qed.

Lemma one_at_a_time_sound t : forall n, n <= 1 -> one_at_a_time n t = true ->
  count n t = Some 0 /\ forall t1 t2, t = t1 ++ t2 -> exists m, count n t1 = Some m /\ m <= 1.
Proof.
  induction t as [|e t IH]; intros n Hn H; cbn [one_at_a_time] in H.
  - apply Nat.eqb_eq in H. subst n. split; [apply count_nil|]. intros t1 t2 Eq.
    symmetry in Eq. apply app_eq_nil in Eq. destruct Eq as [-> _]. exists 0. now rewrite count_nil.
  - (* after e the count is some n' <= 1 *)
    assert (N : exists n', n' <= 1 /\ one_at_a_time n' t = true /\ forall x, count n (e :: x) = count n' x).
    { destruct (d e) as [[]|] eqn:De.
      - apply andb_true_iff in H. destruct H as [H0 H]. apply Nat.eqb_eq in H0. subst n.
        exists 1. repeat split; auto. intros x. now rewrite count_cons, De.
      - apply andb_true_iff in H. destruct H as [H0 H]. apply Nat.eqb_eq in H0. subst n.
        exists 0. repeat split; auto. intros x. now rewrite count_cons, De.
      - exists n. repeat split; auto. intros x. now rewrite count_cons, De. }
    destruct N as [n' [Hn' [H' C]]]. destruct (IH n' Hn' H') as [Z P].
    split; [now rewrite C|]. intros [|e1 t1] t2 Eq.
    + exists n. now rewrite count_nil.
    + injection Eq as <- ->. rewrite C. now apply (P t1 t2).
Qed.
End Discipline.

Definition ev_fd (e : ev) : option bool :=
  match e with EvOpen _ => Some true | EvClose _ => Some false | EvWrite _ _ => None end.

(* Close not deferred and before the error check: one descriptor at a time - on every path,
   under every world *)
Theorem write_gen_f_fd_bounded sh g fl cwd dir files world :
  sh_defer sh = false -> sh_close_first sh = true ->
  forall fs i fs' r tr,
  write_gen_f sh g fl cwd fs dir files world i [] = (fs', r, tr) ->
  one_at_a_time ev ev_fd 0 tr = true.
Proof.
  intros Hd Hc. induction files as [|nd rest IH]; intros fs i fs' r tr H; simpl in H.
  - now injection H as _ _ <-.
  - destruct (write_one_f sh g fl cwd fs dir nd (world i)) as [[[fs1 v] evs] dfr] eqn:E1.
    destruct (write_one_f_events _ _ _ _ _ _ _ _ _ _ _ _ Hd Hc E1) as [-> HE].
    assert (B : one_at_a_time ev ev_fd 0 evs = true) by (destruct HE as [->|[h [m ->]]]; reflexivity).
    destruct v as [r1|].
    + injection H as _ _ <-. now rewrite app_nil_r.
    + destruct (write_gen_f sh g fl cwd fs1 dir rest world (S i) ([] ++ [])) as [[fs2 r2] evs2] eqn:E2.
      injection H as _ _ <-. rewrite (one_at_a_time_app _ _ _ _ _ B). exact (IH _ _ _ _ _ E2).
Qed.

Lemma max_open_closes n (l : list path) : length l <= n -> max_open n (map EvClose l) = n.
Proof.
  revert n. induction l as [|p l IH]; intros n Hn; cbn [map max_open]; [reflexivity|].
  cbn [length] in Hn. destruct n as [|n]; [lia|]. cbn [Nat.pred]. rewrite IH by lia. lia.
Qed.

(* Were Close deferred, a successful Write would hold one descriptor per entry: all of
   them are open together just before it returns *)
Theorem write_gen_f_deferred_all_open sh g fl cwd dir files world :
  sh_defer sh = true ->
  forall fs i pending fs' tr,
  write_gen_f sh g fl cwd fs dir files world i pending = (fs', FR WOk, tr) ->
  max_open (length pending) tr = length pending + length files.
Proof.
  intros Hd. induction files as [|nd rest IH]; intros fs i pending fs' tr H; simpl in H.
  - injection H as _ <-. cbn [length]. rewrite max_open_closes by lia. lia.
  - destruct (write_one_f sh g fl cwd fs dir nd (world i)) as [[[fs1 v] evs] dfr] eqn:E1.
    destruct v as [r1|].
    + injection H as _ -> _. now elim (write_one_f_verdict _ _ _ _ _ _ _ _ _ _ _ _ E1).
    + destruct (write_one_f_deferred _ _ _ _ _ _ _ _ _ _ _ Hd E1) as [h [m [-> ->]]].
      destruct (write_gen_f sh g fl cwd fs1 dir rest world (S i) ([h] ++ pending))
        as [[fs2 r2] evs2] eqn:E2.
      injection H as _ -> <-. pose proof (IH _ _ _ _ _ E2) as HI. cbn [app length] in HI.
      cbn [app max_open length]. rewrite HI. lia.
Qed.

Corollary deferred_close_holds_all sh g fl cwd dir files fs fs' tr :
  sh_defer sh = true ->
  write_gen_f sh g fl cwd fs dir files no_faults 0 [] = (fs', FR WOk, tr) ->
  max_open 0 tr = length files.
Proof. intros Hd. exact (write_gen_f_deferred_all_open sh g fl cwd dir files no_faults Hd fs 0 [] fs' tr). Qed.

(* where the regenerated shape constants enter *)
Lemma the_shape_not_deferred : sh_defer the_shape = false.
Proof. reflexivity. Qed.
Lemma the_shape_close_first : sh_close_first the_shape = true.
Proof. reflexivity. Qed.

Theorem write_f_no_faults cwd fs dir a :
  fst (write_f no_faults cwd fs dir a) = (fst (write cwd fs dir a), FR (snd (write cwd fs dir a))).
Proof.
  unfold write_f, write.
  destruct (write_gen_f the_shape the_guard the_flags cwd fs dir (files a) no_faults 0 []) as [[fs' r] tr] eqn:E.
  destruct (write_gen_f_no_faults _ _ _ _ _ _ _ _ _ _ _ _ E) as [-> ->]. reflexivity.
Qed.

(* txtar.Write as it is written: at every moment of a call at most one descriptor is open,
   and none when it returns, whatever fails *)
Theorem write_fd_bounded world cwd fs dir a fs' r tr :
  write_f world cwd fs dir a = (fs', r, tr) ->
  open_after 0 tr = Some 0 /\
  forall t1 t2, tr = t1 ++ t2 -> exists n, open_after 0 t1 = Some n /\ n <= 1.
Proof.
  intros H. apply (one_at_a_time_sound ev ev_fd); [reflexivity|now destruct e|lia|].
  exact (write_gen_f_fd_bounded _ _ _ _ _ _ _ the_shape_not_deferred the_shape_close_first _ _ _ _ _ H).
Qed.

Theorem write_error_prefix world cwd fs dir a fs' r tr :
  write_f world cwd fs dir a = (fs', r, tr) -> r <> FR WOk ->
  exists k fsk, k < length (files a) /\
    write_gen the_guard the_flags cwd fs dir (firstn k (files a)) = (fsk, WOk) /\
    ext (leftover cwd dir (nth k (files a) ([], []))) fsk fs'.
Proof. apply write_gen_f_error_prefix, the_flags_excl. Qed.

Theorem write_f_ok world cwd fs dir a fs' tr :
  write_f world cwd fs dir a = (fs', FR WOk, tr) -> write cwd fs dir a = (fs', WOk).
Proof. apply write_gen_f_ok. Qed.

Theorem write_f_never_overwrites world cwd fs dir a fs' r tr :
  write_f world cwd fs dir a = (fs', r, tr) -> forall p x, get fs p = Some x -> get fs' p = Some x.
Proof.
  intros H p x. apply ext_preserves with (A := fun _ _ => True).
  exact (write_gen_f_ext _ _ _ _ _ _ _ _ the_flags_excl (entry_adds_any _ _ _) _ _ _ _ _ _ H).
Qed.

(* containment on every path: whatever system call fails, whatever differs afterwards did
   not exist before and is the directory, beneath it, or a directory on the way to it *)
Theorem write_f_contained world cwd fs dir a fs' r tr :
  is_abs dir = true -> write_f world cwd fs dir a = (fs', r, tr) ->
  forall p, get fs' p <> get fs p ->
    get fs p = None /\
    (within (resolve cwd dir) p \/ (get fs' p = Some Dir /\ within p (resolve cwd dir))).
Proof.
  intros Ha H. apply allowed_changed.
  refine (write_gen_f_ext _ _ _ _ _ _ _ _ the_flags_excl _ _ _ _ _ _ _ H).
  intros fs0 nd. apply entry_adds_allowed; [exact the_guard_guards|exact Ha].
Qed.
