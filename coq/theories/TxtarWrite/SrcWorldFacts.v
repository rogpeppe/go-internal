(* The translated txtar.Write, txtar.ParseFile and walk function of txtar-c (Gen/TxtarWriteWorldSrc.v)
   are the reference programs of SrcWorld.v, for every record of operations; over the logging
   operations Write makes the calls of write_trace, one descriptor at a time; over the file-system
   model it is the model's write, so the theorems of WriteFacts.v hold of it. *)
From Coq Require Import List Bool Arith NArith ZArith Lia.
From Coq.Strings Require Import Byte.
From GI Require Import Lib.Bytes Lib.BytesFacts Lib.GoSem Lib.GoSemExtFacts Lib.GoSemWorld Gen.TxtarWriteConsts Txtar.Txtar
  TxtarWrite.Path TxtarWrite.PathFacts TxtarWrite.TxtarWrite TxtarWrite.WriteFacts TxtarWrite.FuelFacts TxtarWrite.Fd TxtarWrite.FdFacts TxtarWrite.Cli
  TxtarWrite.SrcLib TxtarWrite.SrcWorld Gen.TxtarWriteWorldSrc.
Import ListNotations.

(* the flag numbers the generator evaluated the source with are the ones the model decodes *)
Lemma O_flags_agree :
  tw_O_WRONLY = O_WRONLY /\ tw_O_CREATE = O_CREATE /\ tw_O_EXCL = O_EXCL /\ tw_O_TRUNC = O_TRUNC /\ tw_O_APPEND = O_APPEND.
Proof. repeat split; reflexivity. Qed.

Lemma flags_of_Z_the_flags : flags_of_Z (flags_Z the_flags) = the_flags.
Proof. reflexivity. Qed.

Section Any.
Variable OS : fs_ops.

Theorem src_isAbs_eq p : tw_isAbs p = Ok (is_abs p).
Proof.
  unfold tw_isAbs, go_filepath_IsAbs, go_bytes_HasPrefix, is_abs. f_equal.
  destruct p as [|b r]; [reflexivity|]. cbn [has_prefix]. unfold is_sep, SEP.
  rewrite andb_true_r, (beq_sym x2f b). apply orb_diag.
Qed.

Lemma src_guard_eq fp :
  (is_abs fp || bytes_eqb fp [x2e; x2e] || go_bytes_HasPrefix fp [x2e; x2e; x2f]) = rejected the_guard fp.
Proof. symmetry. apply the_guard_exact. Qed.

(* how the loop function reports what the reference computes *)
Definition loop_outcome {L : Type} (x : World OS * werr) : res (outcome (World OS) L (World OS * werr)) :=
  if werr_is_nil (snd x) then Ok (Normal (fst x)) else Ok (Return x).

Lemma loop_outcome_if {L : Type} (x : World OS * werr) w1 e :
  loop_outcome (L := L) (if werr_is_nil e then x else (w1, e)) =
  if werr_is_nil e then loop_outcome x else Ok (Return (w1, e)).
Proof. unfold loop_outcome. destruct (werr_is_nil e) eqn:E; [reflexivity|]. cbn [snd]. now rewrite E. Qed.

Lemma src_Write_loop_eq (L : Type) dir : forall files w,
  tw_Write_loop1 OS (L := L) dir files w = loop_outcome (write_ops OS dir files w).
Proof.
  induction files as [|nd rest IH]; intros w; [reflexivity|].
  cbn [tw_Write_loop1 write_ops].
  destruct (write_entry_ops OS dir nd w) as [w' e'] eqn:EE. rewrite loop_outcome_if, <- IH.
  unfold write_entry_ops in EE. revert EE.
  rewrite src_isAbs_eq. cbn [bind]. unfold go_filepath_Clean, go_filepath_FromSlash.
  rewrite src_guard_eq.
  destruct (rejected the_guard (clean (from_slash (fst nd)))); [now intros [= <- <-]|].
  unfold go_filepath_Join, go_filepath_Dir. cbn [bind].
  (* the generator prints the permission bits 0777, 0666 and the flag word
     O_WRONLY|O_CREATE|O_EXCL as numerals *)
  change (Z.of_N write_dir_perm) with 511%Z. change (Z.of_N write_file_perm) with 438%Z.
  change (flags_Z the_flags) with 193%Z.
  destruct (op_mkdir_all OS w _ _) as [w1 e1].
  destruct (werr_is_nil e1) eqn:E1; cbn [negb]; [|intros [= <- <-]; now rewrite E1].
  destruct (op_open_file OS w1 _ _ _) as [[w2 h] e2].
  destruct (werr_is_nil e2) eqn:E2; cbn [negb]; [|intros [= <- <-]; now rewrite E2].
  destruct (op_write OS w2 h _) as [[w3 n] e3]. destruct (op_close OS w3 h) as [w4 e4].
  destruct (werr_is_nil e3) eqn:E3; cbn [negb]; [|intros [= <- <-]; now rewrite E3].
  intros [= <- <-]. now destruct (werr_is_nil e4).
Qed.

(* txtar.Write, whole: for every record of operations and every world, the translated function
   performs the reference program -- and a nil archive pointer is a panic, as in Go *)
Theorem src_Write_eq w a dir : tw_Write OS w (Some a) dir = Ok (write_ops OS dir (files a) w).
Proof.
  unfold tw_Write. cbn [go_deref bind]. rewrite (src_Write_loop_eq unit).
  unfold loop_outcome. destruct (write_ops OS dir (files a) w) as [w1 e]. cbn [fst snd].
  destruct e; reflexivity.
Qed.

Theorem src_Write_nil w dir : tw_Write OS w None dir = Panic.
Proof. reflexivity. Qed.

Theorem src_ParseFile_eq w file : tw_ParseFile OS w file = Ok (parse_file_ops OS file w).
Proof.
  unfold tw_ParseFile, parse_file_ops, go_txtar_Parse.
  destruct (op_read_file OS w file) as [[w1 d] e]. destruct (werr_is_nil e); reflexivity.
Qed.
End Any.

Section Trace.
Variable OS : fs_ops.

(* one entry over the logging operations: the same world and error as over OS itself, and the
   log grows by one of the four shapes *)
Lemma write_entry_traced dir nd w tr :
  exists t,
    write_entry_ops (traced OS) dir nd (w, tr) =
      ((fst (write_entry_ops OS dir nd w), tr ++ t), snd (write_entry_ops OS dir nd w)) /\
    entry_trace dir nd t (werr_is_nil (snd (write_entry_ops OS dir nd w))).
Proof.
  unfold write_entry_ops.
  destruct (rejected the_guard (clean (from_slash (fst nd)))) eqn:G.
  - exists []. rewrite app_nil_r. split; [reflexivity|]. now constructor.
  - cbn [traced op_mkdir_all op_open_file op_write op_close fst snd].
    destruct (op_mkdir_all OS w _ _) as [w1 e1]. destruct (werr_is_nil e1) eqn:E1; cbn [negb].
    2:{ eexists. split; [reflexivity|]. cbn [snd]. rewrite E1. now constructor. }
    cbn [fst snd].
    destruct (op_open_file OS w1 _ _ _) as [[w2 h] e2]. destruct (werr_is_nil e2) eqn:E2; cbn [negb].
    2:{ eexists. split; [rewrite <- app_assoc; reflexivity|]. cbn [snd]. rewrite E2.
        destruct e1; try discriminate E1. cbn [app]. now constructor. }
    cbn [fst snd].
    destruct (op_write OS w2 h _) as [[w3 n] e3]. cbn [fst snd].
    destruct (op_close OS w3 h) as [w4 e4].
    destruct e1; try discriminate E1. destruct e2; try discriminate E2.
    exists [EMkdirAll (dir_of (join dir (clean (from_slash (fst nd))))) (Z.of_N write_dir_perm) WNil;
            EOpenFile (join dir (clean (from_slash (fst nd)))) (flags_Z the_flags) (Z.of_N write_file_perm) h WNil;
            EWrite h (snd nd) n e3; EClose h e4].
    split.
    + rewrite <- !app_assoc. cbn [app]. destruct (werr_is_nil e3); reflexivity.
    + replace (werr_is_nil (snd (if negb (werr_is_nil e3) then (w4, e3) else (w4, e4))))
        with (werr_is_nil e3 && werr_is_nil e4).
      * now constructor.
      * destruct (werr_is_nil e3) eqn:E3; cbn [negb snd andb]; [reflexivity|now rewrite E3].
Qed.

(* Write over the logging operations: the same result as over OS itself, and the log is the
   entries' calls in order, up to the first entry that does not end well *)
Theorem write_ops_traced dir : forall files w tr,
  exists t,
    write_ops (traced OS) dir files (w, tr) =
      ((fst (write_ops OS dir files w), tr ++ t), snd (write_ops OS dir files w)) /\
    write_trace dir files t.
Proof.
  induction files as [|nd rest IH]; intros w tr.
  - exists []. rewrite app_nil_r. split; [reflexivity|constructor].
  - cbn [write_ops]. destruct (write_entry_traced dir nd w tr) as [t [Ht Et]]. rewrite Ht.
    destruct (write_entry_ops OS dir nd w) as [w1 e]. cbn [fst snd] in *.
    destruct (werr_is_nil e) eqn:E.
    + destruct (IH w1 (tr ++ t)) as [t' [Ht' Wt']]. exists (t ++ t'). rewrite Ht', app_assoc.
      split; [reflexivity|]. now apply WT_go.
    + exists t. split; [reflexivity|]. now apply WT_stop.
Qed.

(* the descriptor discipline of such a log (FdFacts.one_at_a_time): a successful OpenFile opens
   a descriptor, every Close closes one *)
Definition fs_ev_fd {H} (e : fs_ev H) : option bool :=
  match e with
  | EOpenFile _ _ _ _ e => if werr_is_nil e then Some true else None
  | EClose _ _ => Some false
  | _ => None
  end.

Lemma entry_trace_one_at_a_time dir nd (t : list (fs_ev (Handle OS))) ok :
  entry_trace dir nd t ok -> one_at_a_time _ fs_ev_fd 0 t = true.
Proof. intros [G|e G E|h e G E|h n e3 e4 G]; cbn; now rewrite ?E. Qed.

Theorem write_trace_fds dir files (t : list (fs_ev (Handle OS))) :
  write_trace dir files t ->
  fds_after 0 t = Some 0 /\
  forall t1 t2, t = t1 ++ t2 -> exists n, fds_after 0 t1 = Some n /\ n <= 1.
Proof.
  intros W. apply (one_at_a_time_sound _ fs_ev_fd); [reflexivity| |lia|].
  - intros n [] r; try reflexivity. cbn. now destruct (werr_is_nil e).
  - induction W as [|nd rest t E|nd rest t t' E W IH]; [reflexivity|exact (entry_trace_one_at_a_time _ _ _ _ E)|].
    now rewrite (one_at_a_time_app _ _ _ _ _ (entry_trace_one_at_a_time _ _ _ _ E)).
Qed.
End Trace.

Lemma mkdir_all_not_outside cwd : forall fuel fs s, snd (mkdir_all fuel cwd fs s) <> WOutside.
Proof. intros. apply mkdir_all_verdict; try discriminate. left. discriminate. Qed.

Lemma dec_enc r : r <> WOutside -> dec_werr (enc_wres r) = r.
Proof. destruct r as [| |o e|]; intros H; try reflexivity; try congruence. destruct o, e; reflexivity. Qed.

Lemma enc_nil r : werr_is_nil (enc_wres r) = match r with WOk => true | _ => false end.
Proof. destruct r; reflexivity. Qed.

(* one entry: the reference program over [model_fs cwd] is the model's write_one *)
Lemma write_entry_model cwd fs dir nd :
  fst (write_entry_ops (model_fs cwd) dir nd fs) = fst (write_one the_guard the_flags cwd fs dir nd) /\
  dec_werr (snd (write_entry_ops (model_fs cwd) dir nd fs)) = snd (write_one the_guard the_flags cwd fs dir nd).
Proof.
  unfold write_entry_ops, write_one.
  destruct (rejected the_guard (clean (from_slash (fst nd)))); [split; reflexivity|].
  cbn [model_fs op_mkdir_all op_open_file op_write op_close].
  set (fp := join dir (clean (from_slash (fst nd)))).
  pose proof (mkdir_all_not_outside cwd (S (length (dir_of fp))) fs (dir_of fp)) as NO.
  destruct (mkdir_all (S (length (dir_of fp))) cwd fs (dir_of fp)) as [fs1 r1]. cbn [snd] in NO.
  rewrite enc_nil. destruct r1; cbn [negb fst snd]; try (split; [reflexivity|now apply dec_enc]).
  rewrite flags_of_Z_the_flags.
  destruct (os_open the_flags cwd fs1 fp) as [e|[fs2 h]]; cbn [werr_is_nil enc_wres negb fst snd].
  - split; [reflexivity|]. destruct e; reflexivity.
  - split; reflexivity.
Qed.

Theorem write_ops_model cwd dir : forall files fs,
  fst (write_ops (model_fs cwd) dir files fs) = fst (write_gen the_guard the_flags cwd fs dir files) /\
  dec_werr (snd (write_ops (model_fs cwd) dir files fs)) = snd (write_gen the_guard the_flags cwd fs dir files).
Proof.
  induction files as [|nd rest IH]; intros fs; [split; reflexivity|].
  cbn [write_ops write_gen]. destruct (write_entry_model cwd fs dir nd) as [F D].
  destruct (write_entry_ops (model_fs cwd) dir nd fs) as [w1 e].
  destruct (write_one the_guard the_flags cwd fs dir nd) as [fs1 r]. cbn [fst snd] in F, D. subst w1.
  destruct e as [|n|ty strs inner]; cbn [werr_is_nil].
  - cbn [dec_werr] in D. subst r. apply IH.
  - subst r. cbn [dec_werr]. destruct n as [|o [|c [|? ?]]]; split; reflexivity.
  - subst r. split; reflexivity.
Qed.

(* The tie: txtar.Write as translated from the source, run over the file-system model, is the
   model's write -- the same file system afterwards, and the error value it returns decodes to
   the model's verdict *)
Theorem src_Write_model cwd fs dir a :
  exists e, tw_Write (model_fs cwd) fs (Some a) dir = Ok (fst (write cwd fs dir a), e) /\
            dec_werr e = snd (write cwd fs dir a).
Proof.
  rewrite src_Write_eq. destruct (write_ops_model cwd dir (files a) fs) as [F D].
  destruct (write_ops (model_fs cwd) dir (files a) fs) as [w1 e]. cbn [fst snd] in F, D.
  exists e. unfold write. now rewrite <- F, <- D.
Qed.

Corollary src_Write_model_inv cwd fs dir a fs' e :
  tw_Write (model_fs cwd) fs (Some a) dir = Ok (fs', e) -> write cwd fs dir a = (fs', dec_werr e).
Proof.
  destruct (src_Write_model cwd fs dir a) as [e0 [H D]]. rewrite H. intros [= <- <-].
  rewrite D. now destruct (write cwd fs dir a).
Qed.

Lemma dec_werr_ok e : dec_werr e = WOk <-> e = WNil.
Proof.
  split; [|now intros ->]. destruct e as [|n|]; [reflexivity| |discriminate].
  cbn [dec_werr]. destruct n as [|o [|c [|? ?]]]; discriminate.
Qed.

Lemma file_entry_named_eq fl p d : file_entry fl (p, d) = file_entry_named fl (join_sep p) d.
Proof. reflexivity. Qed.

(* strings.TrimPrefix never panics: it is the model's trim_prefix *)
Lemma go_TrimPrefix_eq s p : go_bytes_TrimPrefix s p = Ok (TxtarWrite.trim_prefix p s).
Proof.
  unfold go_bytes_TrimPrefix, GoSem.trim_prefix, TxtarWrite.trim_prefix.
  destruct (has_prefix p s) eqn:E; [|reflexivity].
  apply has_prefix_iff in E. destruct E as [x ->].
  change (len p) with (Z.of_nat (length p)).
  rewrite slice_z_from by (rewrite app_length; lia). reflexivity.
Qed.

(* if len(data) > 0 && !bytes.HasSuffix(data, "\n") { data = append(data, '\n') }  is fix_nl *)
Lemma fix_nl_as_written d :
  (if ((len d >? 0)%Z && negb (go_bytes_HasSuffix d [x0a])) then d ++ [x0a] else d) = fix_nl d.
Proof.
  destruct d as [|b r _] using rev_ind; [reflexivity|].
  unfold len. rewrite app_length. cbn [length].
  replace (Z.of_nat (length r + 1) >? 0)%Z with true by (symmetry; apply Z.gtb_lt; lia).
  cbn [andb]. unfold go_bytes_HasSuffix, has_suffix. rewrite rev_app_distr. cbn [rev app has_prefix].
  rewrite andb_true_r. unfold fix_nl. rewrite last_byte_snoc. rewrite (beq_sym x0a b). fold NL.
  destruct (beq b NL); reflexivity.
Qed.

Section Walk.
Variable OS : fs_ops.

Theorem src_walkfn_eq fl w a dir path info err :
  tc_main_walkfn OS (f_quote fl) (f_all fl) w (Some a) dir path info err =
  Ok (match walk_fn_ops OS fl w a dir path info err with (w', a', e) => (w', Some a', e) end).
Proof.
  unfold tc_main_walkfn, walk_fn_ops.
  destruct (werr_is_nil err); cbn [negb]; [|reflexivity].
  destruct (bytes_eqb path dir); [reflexivity|].
  unfold skip_name, go_bytes_HasPrefix. change savedir_dot_prefix with [x2e].   (* "." *)
  destruct (has_prefix [x2e] (fi_name OS info) && negb (f_all fl)).
  { destruct (fi_is_dir OS info); reflexivity. }
  destruct (fm_is_regular OS (fi_mode OS info)); cbn [negb]; [|reflexivity].
  destruct (op_read_file OS w path) as [[w1 data] e]. destruct (werr_is_nil e); cbn [negb]; [|reflexivity].
  unfold file_entry_named, go_utf8_Valid.
  destruct (utf8_valid data); cbn [negb]; [|reflexivity].
  (* the final-newline fix *)
  cbv zeta. rewrite bind_if, fix_nl_as_written.
  rewrite go_TrimPrefix_eq. cbn [bind]. change [x2f] with [SEP].
  unfold go_txtar_NeedsQuote, go_txtar_Quote, go_filepath_ToSlash.
  (* "unquote " and "\n", as the generator prints them *)
  change savedir_unquote_prefix with [x75; x6e; x71; x75; x6f; x74; x65; x20].
  change savedir_unquote_suffix with [x0a].
  destruct (needs_quote (fix_nl data)).
  2:{ cbn [bindT go_deref bind comment files]. now rewrite app_nil_r. }
  destruct (f_quote fl); cbn [negb]; [|reflexivity].
  destruct (quote (fix_nl data)) as [q|]; cbn [werr_is_nil negb bindT go_deref bind comment files];
    [|reflexivity].
  now rewrite <- app_assoc.
Qed.

End Walk.

(* the calls the translated Write makes: run over the logging operations *)
Theorem src_Write_calls (OS : fs_ops) w tr a dir :
  exists t,
    tw_Write (traced OS) (w, tr) (Some a) dir =
      Ok ((fst (write_ops OS dir (files a) w), tr ++ t), snd (write_ops OS dir (files a) w)) /\
    write_trace dir (files a) t.
Proof.
  rewrite src_Write_eq. destruct (write_ops_traced OS dir (files a) w tr) as [t [H W]].
  exists t. now rewrite H.
Qed.

(* logging changes nothing: the result over OS is the result over [traced OS] without the log *)
Theorem src_Write_traced_same (OS : fs_ops) w tr a dir w' tr' e :
  tw_Write (traced OS) (w, tr) (Some a) dir = Ok ((w', tr'), e) -> tw_Write OS w (Some a) dir = Ok (w', e).
Proof.
  destruct (src_Write_calls OS w tr a dir) as [t [H _]]. rewrite H. intros [= <- _ <-].
  rewrite src_Write_eq. now destruct (write_ops OS dir (files a) w).
Qed.

(* at every moment of a call of Write at most one descriptor is open, and none when it returns:
   for every archive, every behaviour of the operating system, on every path *)
Theorem src_Write_fd_bounded (OS : fs_ops) w a dir w' tr e :
  tw_Write (traced OS) (w, []) (Some a) dir = Ok ((w', tr), e) ->
  fds_after 0 tr = Some 0 /\
  forall t1 t2, tr = t1 ++ t2 -> exists n, fds_after 0 t1 = Some n /\ n <= 1.
Proof.
  destruct (src_Write_calls OS w [] a dir) as [t [H W]]. rewrite H. cbn [app]. intros [= _ <- _].
  exact (write_trace_fds OS dir (files a) t W).
Qed.

(* an entry whose cleaned name the guard rejects: the error, and no call at all -- whatever the
   operating system would have answered *)
Theorem src_Write_rejected_first (OS : fs_ops) w c n d rest dir :
  rejected the_guard (clean (from_slash n)) = true ->
  tw_Write OS w (Some {| comment := c; files := (n, d) :: rest |}) dir = Ok (w, outside_err n).
Proof.
  intros G. rewrite src_Write_eq. cbn [files write_ops]. unfold write_entry_ops. cbn [fst]. now rewrite G.
Qed.

Theorem src_Write_total (OS : fs_ops) w a dir : exists r, tw_Write OS w (Some a) dir = Ok r.
Proof. eexists. apply src_Write_eq. Qed.

(* C15's theorems restated on the translated function over the file-system model *)
Section OnModel.
Variable cwd : path.

Theorem src_Write_contained fs dir a fs' e :
  is_abs dir = true -> tw_Write (model_fs cwd) fs (Some a) dir = Ok (fs', e) ->
  forall p, get fs' p <> get fs p ->
    get fs p = None /\
    (within (resolve cwd dir) p \/ (get fs' p = Some Dir /\ within p (resolve cwd dir))).
Proof. intros A H. apply src_Write_model_inv in H. exact (write_contained cwd fs dir a fs' _ A H). Qed.

Theorem src_Write_never_overwrites fs dir a fs' e :
  tw_Write (model_fs cwd) fs (Some a) dir = Ok (fs', e) ->
  forall p x, get fs p = Some x -> get fs' p = Some x.
Proof. intros H. apply src_Write_model_inv in H. exact (never_overwrites cwd fs dir a fs' _ H). Qed.

Theorem src_Write_rejects fs dir a fs' :
  tw_Write (model_fs cwd) fs (Some a) dir = Ok (fs', WNil) ->
  forall n d, In (n, d) (files a) ->
    is_abs n = false /\ clean n <> dotdot /\ has_prefix dotdot_sep (clean n) = false.
Proof. intros H. apply src_Write_model_inv in H. exact (write_rejects cwd fs dir a fs' H). Qed.

Theorem src_Write_contents fs dir a fs' :
  tw_Write (model_fs cwd) fs (Some a) dir = Ok (fs', WNil) ->
  forall n d, In (n, d) (files a) -> get fs' (resolve cwd (join dir (clean n))) = Some (File d).
Proof. intros H. apply src_Write_model_inv in H. exact (write_contents cwd fs dir a fs' H). Qed.

Theorem src_Write_existing_is_error fs dir a fs' :
  tw_Write (model_fs cwd) fs (Some a) dir = Ok (fs', WNil) ->
  forall n d, In (n, d) (files a) -> get fs (resolve cwd (join dir (clean n))) = None.
Proof. intros H. apply src_Write_model_inv in H. exact (write_existing_is_error cwd fs dir a fs' H). Qed.

End OnModel.
