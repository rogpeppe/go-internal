(* The txtar-c / txtar-x round trip: what txtar-c prints for a tree of files, parsed and
   written by txtar-x into an empty directory, reproduces every archived file at the same
   path, with fix_nl contents, quoted files being restored by Unquote as the archive's
   "unquote NAME" comment lines direct.  Uses the txtar theorems of Txtar/TxtarFacts.v
   (parse_format_wf) and Txtar/QuoteFacts.v (quote_wf_text, unquote_quote). *)
From Coq Require Import List Bool Arith Lia Permutation.
From Coq.Strings Require Import Byte.
From GI Require Import Lib.Bytes Lib.BytesFacts Gen.TxtarConsts Gen.TxtarWriteConsts
  Txtar.Txtar Txtar.TxtarFacts Txtar.TxtarIndexFacts Txtar.QuoteFacts
  TxtarWrite.Path TxtarWrite.TxtarWrite TxtarWrite.PathFacts TxtarWrite.WriteFacts
  TxtarWrite.NulFacts TxtarWrite.RelFacts TxtarWrite.GoodWrite TxtarWrite.SortFacts.
Import ListNotations.

Local Arguments savedir_entry : simpl never.

(* names txtar can represent (wf_name of the slash path: non-empty, equal to its own
   TrimSpace, no newline), elements as a directory listing gives them (real, NUL-free),
   distinct paths, and files are leaves *)
Definition tree_ok (t : tree) : Prop :=
  NoDup (map fst t) /\
  (forall p, In p (map fst t) ->
     p <> [] /\ Forall real p /\ Forall nul_free p /\ wf_name (join_sep p) = true) /\
  (forall p q, In p (map fst t) -> In q (map fst t) -> within p q -> p = q).

(* what tree_ok demands of a name, spelled out: the names txtar cannot represent (empty,
   with leading or trailing white space, containing a newline) are excluded *)
Lemma tree_ok_names t p :
  tree_ok t -> In p (map fst t) ->
  join_sep p <> [] /\ trim_space (join_sep p) = join_sep p /\ ~ In NL (join_sep p).
Proof.
  intros [_ [H _]] Hp. destruct (H p Hp) as [_ [_ [_ Hw]]]. apply wf_name_iff. exact Hw.
Qed.

Lemma tree_ok_perm t t' : Permutation t t' -> tree_ok t -> tree_ok t'.
Proof. intros HP. exact (distinct_perm _ _ _ _ (Permutation_map fst HP)). Qed.

(* the facts about the regenerated constants of txtar-c that the proofs rely on *)
Lemma unquote_prefix_not_marker x : has_prefix marker (savedir_unquote_prefix ++ x) = false.
Proof. reflexivity. Qed.

Lemma unquote_prefix_no_nl : ~ In NL savedir_unquote_prefix.
Proof. apply mem_byte_false. reflexivity. Qed.

Lemma unquote_suffix_nl : savedir_unquote_suffix = [NL].
Proof. reflexivity. Qed.

Lemma unquote_prefix_nonempty : savedir_unquote_prefix <> [].
Proof. discriminate. Qed.

Definition uq_line (n : bytes) : bytes := savedir_unquote_prefix ++ n ++ savedir_unquote_suffix.

Lemma savedir_entry_Some fl p d cl n s :
  savedir_entry fl (p, d) = Some (cl, (n, s)) ->
  n = join_sep p /\
  ((cl = [] /\ needs_quote (fix_nl d) = false /\ s = fix_nl d) \/
   (cl = uq_line n /\ quote (fix_nl d) = Some s)).
Proof.
  unfold savedir_entry, file_entry, to_slash. cbn [fst].
  destruct (dot_skipped fl p); [discriminate|].
  destruct (negb (utf8_valid d)); [discriminate|].
  destruct (needs_quote (fix_nl d)) eqn:EN.
  - destruct (f_quote fl); [|discriminate].
    destruct (quote (fix_nl d)) as [q|] eqn:EQ; [|discriminate].
    intros H. inversion H; subst. split; auto.
  - intros H. inversion H; subst. split; auto.
Qed.

(* which files are archived *)
Lemma savedir_entry_None fl p d :
  savedir_entry fl (p, d) = None <->
  dot_skipped fl p = true \/ utf8_valid d = false \/
  (needs_quote (fix_nl d) = true /\ (f_quote fl = false \/ quote (fix_nl d) = None)).
Proof.
  unfold savedir_entry, file_entry. cbn [fst].
  destruct (dot_skipped fl p); [split; auto|].
  destruct (utf8_valid d); simpl; [|split; auto].
  destruct (needs_quote (fix_nl d)).
  - destruct (f_quote fl); [|split; auto].
    destruct (quote (fix_nl d)); split; auto; try discriminate.
    intros [H|[H|[_ [H|H]]]]; discriminate.
  - split; [discriminate|]. intros [H|[H|[H _]]]; discriminate.
Qed.

Lemma uq_line_tline n : ~ In NL n -> tline (uq_line n).
Proof.
  intros H. unfold uq_line. rewrite unquote_suffix_nl, app_assoc. constructor.
  intros HI. apply in_app_or in HI. destruct HI; [apply unquote_prefix_no_nl; auto|auto].
Qed.

Lemma uq_line_not_marker n : marker_line (uq_line n) = None.
Proof. apply no_prefix_no_marker, unquote_prefix_not_marker. Qed.

Lemma uq_line_nonempty n : uq_line n <> [].
Proof.
  unfold uq_line. intros E. apply app_eq_nil in E. destruct E as [E _].
  apply unquote_prefix_nonempty. auto.
Qed.

Lemma unquote_line_uq n : unquote_line (uq_line n) = Some n.
Proof.
  unfold unquote_line, uq_line.
  rewrite has_prefix_app. rewrite (app_assoc savedir_unquote_prefix n), has_suffix_app.
  rewrite <- app_assoc.
  assert (EL : length (savedir_unquote_prefix ++ n ++ savedir_unquote_suffix)
               = length savedir_unquote_prefix + length n + length savedir_unquote_suffix)
    by (rewrite !app_length; lia).
  rewrite EL.
  assert (EB : Nat.leb (length savedir_unquote_prefix + length savedir_unquote_suffix)
                 (length savedir_unquote_prefix + length n + length savedir_unquote_suffix) = true)
    by (apply Nat.leb_le; lia).
  rewrite EB. simpl andb. cbv iota.
  replace (length savedir_unquote_prefix + length n + length savedir_unquote_suffix
           - length savedir_unquote_prefix - length savedir_unquote_suffix) with (length n) by lia.
  rewrite skipn_length_app, firstn_length_app. reflexivity.
Qed.

(* the entries kept, with their paths *)
Definition kp (fl : sflags) (pd : path * bytes) : option (path * bytes) :=
  match savedir_entry fl pd with Some e => Some (fst pd, snd (snd e)) | None => None end.

Lemma filter_map_In {A B} (f : A -> option B) l x y : In x l -> f x = Some y -> In y (filter_map f l).
Proof.
  induction l as [|a l IH]; intros H E; [contradiction|]. destruct H as [->|H]; simpl.
  - rewrite E. left. reflexivity.
  - destruct (f a); [right|]; auto.
Qed.

Lemma filter_map_In_inv {A B} (f : A -> option B) l y :
  In y (filter_map f l) -> exists x, In x l /\ f x = Some y.
Proof.
  induction l as [|a l IH]; [intros []|]. simpl. destruct (f a) as [b|] eqn:E.
  - intros [<-|H]; [exists a; auto|]. destruct (IH H) as [x [H1 H2]]. exists x. auto.
  - intros H. destruct (IH H) as [x [H1 H2]]. exists x. auto.
Qed.

Lemma files_kp fl l :
  map snd (filter_map (savedir_entry fl) l) = map entry_of (filter_map (kp fl) l).
Proof.
  induction l as [|[p d] l IH]; [reflexivity|]. simpl. unfold kp at 1.
  destruct (savedir_entry fl (p, d)) as [[cl [n s]]|] eqn:E; [|exact IH].
  simpl. rewrite IH. f_equal. unfold entry_of. simpl.
  apply savedir_entry_Some in E. destruct E as [-> _]. reflexivity.
Qed.

Lemma kp_In fl l p s :
  In (p, s) (filter_map (kp fl) l) ->
  exists d cl n, In (p, d) l /\ savedir_entry fl (p, d) = Some (cl, (n, s)).
Proof.
  intros H. apply filter_map_In_inv in H. destruct H as [[p' d] [HI E]]. unfold kp in E.
  destruct (savedir_entry fl (p', d)) as [[cl [n s']]|] eqn:ES; [|discriminate].
  injection E as -> ->. exists d, cl, n. auto.
Qed.

Lemma kp_In_fst fl l p : In p (map fst (filter_map (kp fl) l)) -> In p (map fst l).
Proof.
  intros H. apply in_map_iff in H. destruct H as [[p' s] [E H]]. simpl in E. subst p'.
  apply kp_In in H. destruct H as [d [_ [_ [H _]]]]. apply in_map_iff. exists (p, d). auto.
Qed.

Lemma kp_NoDup fl l : NoDup (map fst l) -> NoDup (map fst (filter_map (kp fl) l)).
Proof.
  induction l as [|[p d] l IH]; intros H; [constructor|]. simpl in H. inversion H; subst.
  simpl. unfold kp at 1. destruct (savedir_entry fl (p, d)); [|auto].
  simpl. constructor; auto. intros HI. apply kp_In_fst in HI. contradiction.
Qed.

Lemma NoDup_fst_inj {A B} (l : list (A * B)) a b b' :
  NoDup (map fst l) -> In (a, b) l -> In (a, b') l -> b = b'.
Proof.
  induction l as [|[x y] l IH]; intros HN H1 H2; [contradiction|].
  simpl in HN. inversion HN; subst. destruct H1 as [H1|H1], H2 as [H2|H2].
  - congruence.
  - inversion H1; subst. exfalso. apply H3. apply in_map_iff. exists (a, b'). auto.
  - inversion H2; subst. exfalso. apply H3. apply in_map_iff. exists (a, b). auto.
  - eauto.
Qed.

(* the comment: one "unquote NAME" line per quoted entry *)
Definition cl_lines (es : list (bytes * (bytes * bytes))) : list bytes :=
  flat_map (fun e => match fst e with [] => [] | l => [l] end) es.

Lemma concat_cl_lines es : concat (map fst es) = concat (cl_lines es).
Proof.
  induction es as [|[cl e] es IH]; [reflexivity|]. simpl. rewrite IH.
  destruct cl; simpl; reflexivity.
Qed.

Definition es_ok (es : list (bytes * (bytes * bytes))) : Prop :=
  forall cl n s, In (cl, (n, s)) es -> ~ In NL n /\ (cl = [] \/ cl = uq_line n).

Lemma cl_lines_In es l : es_ok es -> In l (cl_lines es) -> exists n s, In (l, (n, s)) es /\ l = uq_line n /\ ~ In NL n.
Proof.
  intros Hok H. unfold cl_lines in H. apply in_flat_map in H. destruct H as [[cl [n s]] [HI Hl]].
  simpl in Hl. destruct (Hok _ _ _ HI) as [Hn [-> | ->]]; [contradiction|].
  destruct (uq_line n) eqn:E; [contradiction|]. destruct Hl as [<-|[]].
  exists n, s. rewrite E. auto.
Qed.

Lemma cl_lines_tline es : es_ok es -> Forall tline (cl_lines es).
Proof.
  intros Hok. apply Forall_forall. intros l Hl.
  destruct (cl_lines_In _ _ Hok Hl) as [n [s [_ [-> Hn]]]]. apply uq_line_tline. auto.
Qed.

(* terminated lines none of which is a marker line make a text that txtar stores as it is *)
Lemma concat_tlines_wf ls :
  Forall tline ls -> (forall l, In l ls -> marker_line l = None) -> wf_text (concat ls) = true.
Proof.
  intros HT HM. apply wf_text_iff. split; [now apply concat_tlines_fixed|].
  apply needs_quote_false_iff. now rewrite split_lines_concat by now apply Forall_tline_lines_ok.
Qed.

Lemma comment_wf es : es_ok es -> wf_text (concat (map fst es)) = true.
Proof.
  intros Hok. rewrite concat_cl_lines. apply concat_tlines_wf; [now apply cl_lines_tline|].
  intros l Hl. destruct (cl_lines_In _ _ Hok Hl) as [n [s [_ [-> _]]]]. apply uq_line_not_marker.
Qed.

Lemma unquote_names_comment es :
  es_ok es -> forall n, In n (unquote_names (concat (map fst es))) <->
                        exists s, In (uq_line n, (n, s)) es.
Proof.
  intros Hok n. unfold unquote_names. rewrite concat_cl_lines.
  rewrite split_lines_concat by (apply Forall_tline_lines_ok, cl_lines_tline; auto).
  split.
  - intros H. apply filter_map_In_inv in H. destruct H as [l [Hl E]].
    destruct (cl_lines_In _ _ Hok Hl) as [n' [s [HI [-> _]]]].
    rewrite unquote_line_uq in E. inversion E; subst. eauto.
  - intros [s HI]. eapply filter_map_In; [|apply unquote_line_uq].
    unfold cl_lines. apply in_flat_map. exists (uq_line n, (n, s)). split; auto.
    simpl. destruct (uq_line n) eqn:E; [exfalso; eapply uq_line_nonempty; eauto|left; auto].
Qed.

Lemma join_sep_inj p q :
  p <> [] -> q <> [] -> Forall real p -> Forall real q -> join_sep p = join_sep q -> p = q.
Proof.
  intros Hp Hq HRp HRq E.
  rewrite <- (split_sep_join_sep p), <- (split_sep_join_sep q); auto;
    try now apply reals_sep_free.
  rewrite E. reflexivity.
Qed.

Section RoundTrip.
Variables (fl : sflags) (t : tree) (cwd : path) (fs : fsys) (dir : bytes).
Hypothesis Hcr : Forall real cwd.
Hypothesis Hcn : Forall nul_free cwd.
Hypothesis Hdn : has_nul dir = false.
Hypothesis Ht : tree_ok t.
Let D := resolve cwd dir.
Hypothesis HDe : dir_exists fs D.
Hypothesis Hempty : forall q, beneath D q -> get fs q = None.

Let w := walk_order t.
Let es := filter_map (savedir_entry fl) w.
Let ks := filter_map (kp fl) w.

Lemma walk_order_ok : tree_ok w.
Proof. eapply tree_ok_perm; [apply Permutation_sym, walk_order_perm|exact Ht]. Qed.

Lemma kept_entry_In cl n s : In (cl, (n, s)) es -> exists p d, In (p, d) w /\ savedir_entry fl (p, d) = Some (cl, (n, s)).
Proof. intros H. apply filter_map_In_inv in H. destruct H as [[p d] H]. eauto. Qed.

Lemma kept_entries_ok : es_ok es.
Proof.
  intros cl n s H. destruct (kept_entry_In _ _ _ H) as [p [d [HI E]]].
  destruct walk_order_ok as [_ [W2 _]].
  destruct (W2 p) as [_ [_ [_ Hwf]]]; [apply in_map_iff; exists (p, d); auto|].
  apply savedir_entry_Some in E. destruct E as [-> E]. split.
  - apply wf_name_iff in Hwf. apply Hwf.
  - destruct E as [[-> _]|[-> _]]; auto.
Qed.

Lemma savedir_wf : wf_archive (savedir fl t) = true.
Proof.
  apply wf_archive_iff. unfold savedir. fold w. fold es. cbn [comment files].
  split; [exact (comment_wf es kept_entries_ok)|]. apply Forall_forall.
  intros [n s] H. apply in_map_iff in H. destruct H as [[cl [n' s']] [[= -> ->] H]].
  destruct (kept_entry_In _ _ _ H) as [p [d [HI ES]]].
  destruct walk_order_ok as [_ [W2 _]].
  destruct (W2 p) as [_ [_ [_ Hwf]]]; [apply in_map_iff; exists (p, d); auto|].
  apply savedir_entry_Some in ES. destruct ES as [-> ES]. split; [exact Hwf|]. cbn [snd].
  destruct ES as [[_ [HN ->]]|[_ HQ]]; [|exact (quote_wf_text _ _ HQ)].
  rewrite needs_quote_fix_nl in HN. now apply wf_text_fix_nl.
Qed.

Lemma parse_txtar_c : parse (txtar_c fl t) = savedir fl t.
Proof. unfold txtar_c. apply parse_format_wf. apply savedir_wf. Qed.

Lemma the_guard_pass fp :
  is_abs fp = false -> fp <> dotdot -> has_prefix dotdot_sep fp = false -> rejected the_guard fp = false.
Proof.
  intros H1 H2 H3. rewrite the_guard_exact, H1, H3.
  rewrite (bytes_eqb_neq fp dotdot) by auto. reflexivity.
Qed.

Lemma kept_paths_good : good_paths (map fst ks).
Proof.
  destruct walk_order_ok as [W1 [W2 W3]]. split; [apply kp_NoDup; auto|]. split.
  - intros p Hp. apply kp_In_fst in Hp. destruct (W2 p Hp) as [A [B [C _]]]. auto.
  - intros p q Hp Hq. apply W3; apply (kp_In_fst fl); auto.
Qed.

Lemma inv_init : inv D [] fs.
Proof.
  split; [exact HDe|]. split.
  - intros q x HB Hg. rewrite (Hempty q HB) in Hg. discriminate.
  - intros q HB Hg. rewrite (Hempty q HB) in Hg. contradiction.
Qed.

Lemma resolve_join_good p :
  p <> [] -> Forall real p -> resolve cwd (join dir (clean (from_slash (join_sep p)))) = D ++ p.
Proof.
  intros Hne HR. unfold from_slash. rewrite clean_render_false by auto.
  replace (join_sep p) with (render false p) by (destruct p; [contradiction|reflexivity]).
  apply resolve_join. auto.
Qed.

Theorem savedir_extract_main :
  exists fs',
    extract cwd fs dir (txtar_c fl t) = (fs', WOk) /\
    (forall p d cl n s, In (p, d) t -> savedir_entry fl (p, d) = Some (cl, (n, s)) ->
       get fs' (D ++ p) = Some (File s) /\
       restored (comment (parse (txtar_c fl t))) n s = Some (fix_nl d)) /\
    (forall q x, beneath D q -> get fs' q = Some x ->
       exists p d e, In (p, d) t /\ savedir_entry fl (p, d) = Some e /\
         ((q = D ++ p /\ exists s, x = File s) \/ (x = Dir /\ proper q (D ++ p)))).
Proof.
  unfold extract. rewrite parse_txtar_c.
  assert (EF : files (savedir fl t) = map entry_of ks).
  { unfold savedir. fold w. cbn [files]. apply files_kp. }
  unfold write. rewrite EF.
  destruct (write_gen_good_dir cwd the_guard the_flags dir the_guard_pass the_flags_excl Hcr Hcn Hdn
              ks fs inv_init kept_paths_good) as [fs' [EW [_ [K2 _]]]].
  exists fs'. split; [exact EW|]. split.
  - intros p d cl n s HI ES.
    assert (HIw : In (p, d) w) by (eapply Permutation_in; [apply Permutation_sym, walk_order_perm|auto]).
    destruct walk_order_ok as [W1 [W2 W3]].
    destruct (W2 p) as [Pne [PR [PN Pwf]]]; [apply in_map_iff; exists (p, d); auto|].
    assert (Hk : In (p, s) ks).
    { eapply filter_map_In; [exact HIw|]. unfold kp. rewrite ES. reflexivity. }
    split.
    + rewrite <- (resolve_join_good p Pne PR).
      eapply (write_gen_ok _ _ _ _ _ _ _ the_flags_excl EW).
      apply in_map_iff. exists (p, s). split; [reflexivity|exact Hk].
    + cbn [comment savedir]. fold w. fold es. unfold restored.
      assert (He : In (cl, (n, s)) es) by (eapply filter_map_In; eauto).
      pose proof (savedir_entry_Some _ _ _ _ _ _ ES) as [En EC].
      destruct EC as [[Ecl [HNq Es]]|[Ecl HQ]].
      * (* not quoted: no unquote line names it *)
        assert (HX : existsb (bytes_eqb n) (unquote_names (concat (map fst es))) = false).
        { destruct (existsb (bytes_eqb n) (unquote_names (concat (map fst es)))) eqn:EX; auto.
          exfalso. apply existsb_exists in EX. destruct EX as [n' [Hn' Eq]].
          apply BytesFacts.bytes_eqb_eq in Eq. subst n'.
          apply (unquote_names_comment es kept_entries_ok) in Hn'. destruct Hn' as [s' He'].
          destruct (kept_entry_In _ _ _ He') as [p' [d' [HI' ES']]].
          pose proof (savedir_entry_Some _ _ _ _ _ _ ES') as [En' _].
          destruct (W2 p') as [Pne' [PR' _]]; [apply in_map_iff; exists (p', d'); auto|].
          assert (p' = p) by (apply join_sep_inj; auto; congruence). subst p'.
          assert (d' = d) by (eapply NoDup_fst_inj; eauto). subst d'.
          rewrite ES in ES'. inversion ES' as [Ecl']. rewrite Ecl in Ecl'.
          symmetry in Ecl'. eapply uq_line_nonempty; eauto. }
        rewrite HX. rewrite Es. reflexivity.
      * (* quoted: its name is on an unquote line and Unquote inverts Quote *)
        assert (HX : existsb (bytes_eqb n) (unquote_names (concat (map fst es))) = true).
        { apply existsb_exists. exists n. split; [|apply BytesFacts.bytes_eqb_refl].
          apply (unquote_names_comment es kept_entries_ok). exists s. rewrite <- Ecl. exact He. }
        rewrite HX. eapply unquote_quote; eauto.
  - intros q x HB Hg. destruct (K2 q x HB Hg) as [p [Hp Hc]]. simpl in Hp.
    apply in_map_iff in Hp. destruct Hp as [[p' s] [E Hk]]. simpl in E. subst p'.
    apply kp_In in Hk. destruct Hk as [d [cl [n [HIw ES]]]].
    exists p, d, (cl, (n, s)). split; [|split; auto].
    eapply Permutation_in; [apply walk_order_perm|exact HIw].
Qed.

End RoundTrip.

(* the statement with every hypothesis visible: ANY NUL-free directory string, resolved
   against a current directory of real, NUL-free elements *)
Theorem savedir_extract : forall fl t cwd fs dir,
  Forall real cwd -> Forall nul_free cwd -> has_nul dir = false -> tree_ok t ->
  dir_exists fs (resolve cwd dir) ->
  (forall q, beneath (resolve cwd dir) q -> get fs q = None) ->
  exists fs',
    extract cwd fs dir (txtar_c fl t) = (fs', WOk) /\
    (forall p d cl n s, In (p, d) t -> savedir_entry fl (p, d) = Some (cl, (n, s)) ->
       get fs' (resolve cwd dir ++ p) = Some (File s) /\
       restored (comment (parse (txtar_c fl t))) n s = Some (fix_nl d)) /\
    (forall q x, beneath (resolve cwd dir) q -> get fs' q = Some x ->
       exists p d e, In (p, d) t /\ savedir_entry fl (p, d) = Some e /\
         ((q = resolve cwd dir ++ p /\ exists s, x = File s) \/
          (x = Dir /\ proper q (resolve cwd dir ++ p)))).
Proof. intros. apply savedir_extract_main; auto. Qed.
