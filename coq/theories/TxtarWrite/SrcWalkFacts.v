(* The txtar-c / txtar-x round trip on the TRANSLATED pieces (C15): the walk function of txtar-c as
   translated from cmd/txtar-c/savedir.go (Gen/TxtarWriteWorldSrc.v), called by the hand-modelled
   filepath.Walk (SrcWalk.walk_root) over a tree, builds exactly the model's archive
   [savedir_tree]; and what txtar.Write as translated from txtar/archive.go does with the parsed
   bytes of that archive is the model's extraction.  Hence the round-trip theorem
   (SavedirFacts.savedir_extract) holds of the translated functions.

   What stays hand-modelled here: filepath.Walk itself (SrcWalk.v: which calls, in which order,
   what it does with SkipDir), flag parsing and the glue of the two main functions (Cli.v),
   txtar.Format (x/tools), and the file system the functions run over (TxtarWrite.v). *)
From Coq Require Import List Bool Arith NArith ZArith Lia Sorted Permutation.
From Coq.Strings Require Import Byte.
From GI Require Import Lib.Bytes Lib.BytesFacts Lib.GoSem Lib.GoSemWorld Gen.TxtarWriteConsts Txtar.Txtar
  TxtarWrite.Path TxtarWrite.PathFacts TxtarWrite.TxtarWrite TxtarWrite.WriteFacts TxtarWrite.RelFacts
  TxtarWrite.NulFacts TxtarWrite.GoodWrite TxtarWrite.NameFacts TxtarWrite.SortFacts TxtarWrite.WalkFacts TxtarWrite.SavedirFacts
  TxtarWrite.Cli TxtarWrite.SrcLib TxtarWrite.SrcWorld Gen.TxtarWriteWorldSrc TxtarWrite.SrcWorldFacts
  TxtarWrite.SrcWalk.
Import ListNotations.

Lemma real_nonempty c : real c -> c <> [].
Proof. intros [H _]. exact H. Qed.

Lemma join_sep_real_nonempty c p : real c -> join_sep (c :: p) <> [].
Proof.
  intros Hc. destruct (join_sep_head c p Hc) as [b [t [E _]]]. rewrite E. discriminate.
Qed.

Lemma join_sep_real_not_dot p : p <> [] -> Forall real p -> join_sep p <> dot.
Proof.
  intros Hne Hp. destruct p as [|c p]; [contradiction|]. inversion Hp as [|? ? Hc Hr]; subst.
  destruct p as [|c' p].
  - cbn [join_sep]. destruct Hc as [_ [Hd _]]. exact Hd.
  - cbn [join_sep]. intros E. apply (f_equal (@length byte)) in E. rewrite app_length in E. unfold dot in E. cbn [length] in E.
    destruct c; [now apply (real_nonempty [] Hc)|]. cbn [length] in E. lia.
Qed.

(* Walk's path string for something below the directory is never the directory's own string *)
Lemma render_app_neq a W p :
  base_ok a W -> p <> [] -> Forall real p -> render a (W ++ p) <> render a W.
Proof.
  intros HW Hne Hp. destruct p as [|c p]; [contradiction|]. inversion Hp as [|? ? Hc Hr]; subst.
  assert (L : forall X, X <> [] -> length (join_sep (X ++ c :: p)) > length (join_sep X)).
  { intros X HX. rewrite join_sep_app by (auto; discriminate). rewrite app_length. cbn [length]. lia. }
  destruct W as [|w W].
  - cbn [app]. unfold render. destruct a.
    + intros E. injection E as E. now apply (join_sep_real_nonempty c p Hc).
    + apply join_sep_real_not_dot; [discriminate|exact Hp].
  - specialize (L (w :: W) ltac:(discriminate)). destruct a.
    + intros E. assert (E' : join_sep ((w :: W) ++ c :: p) = join_sep (w :: W))
        by (unfold render in E; now injection E).
      rewrite E' in L. lia.
    + change (render false ((w :: W) ++ c :: p)) with (join_sep ((w :: W) ++ c :: p)).
      change (render false (w :: W)) with (join_sep (w :: W)). intros E. rewrite E in L. lia.
Qed.

Lemma walk_path_neq d0 p : p <> [] -> Forall real p -> walk_path (clean d0) p <> clean d0.
Proof.
  intros Hne Hp. destruct (clean_base d0) as [W [B ->]].
  rewrite (walk_path_render _ p _ B Hp). now apply render_app_neq.
Qed.

Lemma walk_path_snoc d p n : walk_path d (p ++ [n]) = join (walk_path d p) n.
Proof. unfold walk_path. now rewrite fold_left_app. Qed.

(* every directory lists its entries in strictly increasing byte order of their names, and every
   name is a real directory entry *)
Definition entries_ok (es : list (bytes * rnode)) : Prop :=
  StronglySorted (klt bytes_cmp) es /\ Forall (fun e => real (fst e)) es.

Fixpoint rnode_walkable (nd : rnode) : Prop :=
  match nd with
  | RFile _ => True
  | RDir es =>
      entries_ok es /\
      (fix all (es : list (bytes * rnode)) : Prop :=
         match es with [] => True | e :: r => rnode_walkable (snd e) /\ all r end) es
  end.

Lemma rnode_walkable_dir es :
  rnode_walkable (RDir es) <-> entries_ok es /\ Forall (fun e => rnode_walkable (snd e)) es.
Proof.
  cbn [rnode_walkable]. split; intros [H1 H2]; split; auto.
  - clear H1. induction es as [|e r IH]; constructor; [apply H2|]. apply IH. apply H2.
  - clear H1. induction H2 as [|e r He Hr IH]; cbn; auto.
Qed.

(* sorting a sorted list of entries with any payload changes nothing *)
Lemma by_entry_sorted f es :
  StronglySorted (klt bytes_cmp) es -> by_entry f es = map (fun e => (fst e, f e)) es.
Proof.
  intros HS. unfold by_entry.
  apply (sort_by_of_perm bytes_cmp bytes_cmp_eq bytes_cmp_antisym bytes_cmp_trans); [|apply Permutation_refl].
  induction HS as [|e r HS IH HF]; cbn [map]; constructor; auto.
  rewrite Forall_forall in *. intros x Hx. apply in_map_iff in Hx. destruct Hx as [y [<- Hy]].
  exact (HF y Hy).
Qed.

Definition add_entries (a : archive) (es : list (bytes * (bytes * bytes))) : archive :=
  {| comment := comment a ++ concat (map fst es); files := files a ++ map snd es |}.

Lemma add_entries_nil a : add_entries a [] = a.
Proof. unfold add_entries. cbn. rewrite !app_nil_r. now destruct a. Qed.

Lemma add_entries_app a l1 l2 : add_entries (add_entries a l1) l2 = add_entries a (l1 ++ l2).
Proof. unfold add_entries. cbn [comment files]. now rewrite !map_app, concat_app, !app_assoc. Qed.

Lemma filter_map_app {A B} (f : A -> option B) l1 l2 : filter_map f (l1 ++ l2) = filter_map f l1 ++ filter_map f l2.
Proof. induction l1 as [|x l1 IH]; [reflexivity|]. cbn. destruct (f x); cbn; now rewrite IH. Qed.

Section WalkSpec.
Variable cwd : path.
Variable fl : sflags.
Variable d0 : bytes.
Variable fs : fsys.
Let dir := clean d0.
Hypothesis not_root : bytes_eqb dir [SEP] = false.

Let fn := src_walkfn_model cwd fl dir.

Lemma walk_node_dir pathstr name es s :
  walk_node _ fn pathstr name (RDir es) s =
  bind (fn s pathstr (name, true, false) WNil) (fun x =>
    if werr_is_nil (snd x) then walk_entries _ fn pathstr es (fst x) else Ok x).
Proof. reflexivity. Qed.

(* the translated walk function over the model, by cases (src_walkfn_eq) *)
Lemma walkfn_model_eq a pathstr info :
  fn (fs, Some a) pathstr info WNil =
  Ok (match walk_fn_ops (model_fs cwd) fl fs a dir pathstr info WNil with (w, a', e) => ((w, Some a'), e) end).
Proof.
  unfold fn, src_walkfn_model. cbn [fst snd]. rewrite src_walkfn_eq.
  now destruct (walk_fn_ops (model_fs cwd) fl fs a dir pathstr info WNil) as [[w a'] e].
Qed.

(* what a node contributes: the entries of the regular files the model's walk reaches in it *)
Definition node_entries (p : path) (nd : rnode) : list (bytes * (bytes * bytes)) :=
  filter_map (file_entry fl) (rwalk fl p nd).

(* reading a file of the tree at the path Walk hands over yields its contents *)
Definition readable (p : path) (nd : rnode) : Prop :=
  forall q d, In (q, d) (rfiles p nd) -> os_read_file cwd fs (walk_path dir q) = inr d.

Lemma readable_entry p es e : In e es -> readable p (RDir es) -> readable (p ++ [fst e]) (snd e).
Proof.
  intros He H q d Hq. apply H. rewrite rfiles_dir. apply in_concat.
  exists (rfiles (p ++ [fst e]) (snd e)). split; [|exact Hq].
  apply in_map_iff. exists (fst e, rfiles (p ++ [fst e]) (snd e)). split; [reflexivity|].
  eapply Permutation_in; [apply Permutation_sym, sort_by_perm|].
  apply in_map_iff. now exists e.
Qed.

(* what a node below the root does to the state: skipped by name, or its contribution appended *)
Definition walk_node_result (a : archive) (q : path) (e : bytes * rnode) : res ((fsys * option archive) * werr) :=
  if skip_name fl (fst e) then Ok ((fs, Some a), if rnode_is_dir (snd e) then werr_SkipDir else WNil)
  else Ok ((fs, Some (add_entries a (node_entries (q ++ [fst e]) (snd e)))), WNil).

(* the loop over a directory's entries, given what each of them does *)
Lemma walk_entries_spec q l :
  (forall e a, In e l -> walk_node _ fn (walk_path dir (q ++ [fst e])) (fst e) (snd e) (fs, Some a) = walk_node_result a q e) ->
  forall a,
  walk_entries _ fn (walk_path dir q) l (fs, Some a) =
  Ok ((fs, Some (add_entries a (filter_map (file_entry fl)
        (concat (map (fun e => if skip_name fl (fst e) then [] else rwalk fl (q ++ [fst e]) (snd e)) l))))), WNil).
Proof.
  induction l as [|e l IHl]; intros H a.
  - cbn. now rewrite add_entries_nil.
  - cbn [walk_entries map concat]. rewrite <- walk_path_snoc, (H e a) by now left.
    rewrite filter_map_app, <- add_entries_app. unfold walk_node_result.
    assert (IH' := fun a' => IHl (fun e' a'' He' => H e' a'' (or_intror He')) a').
    destruct (skip_name fl (fst e)); cbn [bind snd fst werr_is_nil orb]; [|apply IH'].
    cbn [filter_map]. rewrite add_entries_nil.
    destruct (rnode_is_dir (snd e)); cbn [werr_is_nil orb andb]; [|apply IH'].
    replace (is_skipdir werr_SkipDir) with true by reflexivity. apply IH'.
Qed.

Lemma walk_path_not_dir p : p <> [] -> Forall real p -> bytes_eqb (walk_path dir p) dir = false.
Proof.
  intros Hne HR. destruct (bytes_eqb (walk_path dir p) dir) eqn:E; [|reflexivity].
  apply bytes_eqb_eq in E. now apply walk_path_neq in E.
Qed.

Lemma walk_node_spec nd : forall p n a,
  rnode_walkable nd -> Forall real (p ++ [n]) -> readable (p ++ [n]) nd ->
  walk_node _ fn (walk_path dir (p ++ [n])) n nd (fs, Some a) = walk_node_result a p (n, nd).
Proof.
  unfold walk_node_result. cbn [fst snd].
  induction nd as [d|es IH] using rnode_ind'; intros p n a HW HR HRd.
  - (* a regular file *)
    cbn [walk_node]. rewrite walkfn_model_eq. unfold walk_fn_ops. cbn [werr_is_nil negb].
    rewrite walk_path_not_dir by (auto; now destruct p).
    cbn [model_fs fi_name fi_is_dir fi_mode fm_is_regular op_read_file fst snd rnode_is_dir].
    destruct (skip_name fl n); [reflexivity|]. cbn [Z.eqb negb].
    rewrite (HRd (p ++ [n]) d) by (cbn [rfiles]; now left). cbn [werr_is_nil negb].
    assert (N2 : TxtarWrite.trim_prefix (dir ++ [SEP]) (walk_path dir (p ++ [n])) = join_sep (p ++ [n])).
    { pose proof (entry_name_spec d0 (p ++ [n]) ltac:(now destruct p) HR) as E.
      fold dir in E. rewrite not_root in E. exact E. }
    rewrite N2, <- file_entry_named_eq. unfold node_entries. cbn [rwalk filter_map].
    match goal with |- context [file_entry ?x ?y] => destruct (file_entry x y) as [[cl ent]|] end.
    + unfold add_entries. cbn [map concat fst snd]. now rewrite app_nil_r.
    + now rewrite add_entries_nil.
  - (* a directory *)
    rewrite walk_node_dir, walkfn_model_eq. unfold walk_fn_ops. cbn [werr_is_nil negb bind].
    rewrite walk_path_not_dir by (auto; now destruct p).
    cbn [model_fs fi_name fi_is_dir fi_mode fm_is_regular fst snd rnode_is_dir].
    destruct (skip_name fl n); [reflexivity|]. cbn [Z.eqb negb werr_is_nil fst snd].
    apply rnode_walkable_dir in HW. destruct HW as [[HS HN] HWs].
    unfold node_entries. rewrite rwalk_dir, (by_entry_sorted _ es HS), map_map. cbn [snd].
    apply walk_entries_spec. intros e a0 He. rewrite Forall_forall in IH, HWs, HN.
    destruct e as [n' nd']. apply (IH _ He); [exact (HWs _ He)| |exact (readable_entry _ _ _ He HRd)].
    apply Forall_app. split; [exact HR|]. constructor; [exact (HN _ He)|constructor].
Qed.

(* the whole walk: main of txtar-c between flag.Parse and Format builds the model's archive *)
Theorem src_savedir_walk_eq rt :
  rnode_walkable (RDir rt) -> readable [] (RDir rt) ->
  src_savedir_walk cwd fl fs dir rt = Ok ((fs, Some (savedir_tree fl rt)), WNil).
Proof.
  intros HW HRd. unfold src_savedir_walk, walk_root. fold fn.
  rewrite walk_node_dir, walkfn_model_eq. unfold walk_fn_ops. cbn [werr_is_nil negb bind].
  rewrite bytes_eqb_refl. cbn [fst snd werr_is_nil].
  apply rnode_walkable_dir in HW. destruct HW as [[HS HN] HWs].
  rewrite (walk_entries_spec [] rt).
  - cbn [bind snd fst is_skipdir werr_eqb].
    unfold savedir_tree. rewrite rwalk_dir, (by_entry_sorted _ rt HS), map_map. cbn [snd app].
    unfold add_entries. cbn [comment files app]. reflexivity.
  - intros [n nd] a He. rewrite Forall_forall in HWs, HN.
    apply walk_node_spec; [exact (HWs _ He)| |exact (readable_entry _ _ _ He HRd)].
    constructor; [exact (HN _ He)|constructor].
Qed.

End WalkSpec.

Lemma rnode_walkable_ok nd : rnode_walkable nd -> rnode_ok nd.
Proof.
  induction nd as [d|es IH] using rnode_ind'; intros H; [exact I|].
  apply rnode_walkable_dir in H. destruct H as [[HS _] HW]. apply rnode_ok_dir. split; [now apply (sorted_nodup bytes_cmp bytes_cmp_antisym)|].
  rewrite Forall_forall in *. intros e He. apply IH; auto.
Qed.

(* txtar-c on a tree, then txtar-x on what it printed, BOTH as translated from the source: the
   translated walk function under the hand-modelled filepath.Walk builds an archive a; the
   translated Write, given Parse of Format a, succeeds over the file-system model and every
   archived file is at the same path beneath the directory, holding what was stored; obeying the
   archive's "unquote NAME" lines gives back fix_nl of the original contents; nothing else appears
   beneath the directory except the directories leading to those files.  (The conclusion of
   SavedirFacts.savedir_extract, about the translated functions.) *)
Theorem src_roundtrip fl rt cwdc fsc d0 cwd fs xdir :
  bytes_eqb (clean d0) [SEP] = false ->
  rnode_walkable (RDir rt) -> readable cwdc d0 fsc [] (RDir rt) ->
  Forall real cwd -> Forall nul_free cwd -> has_nul xdir = false -> tree_ok (rflat [] (RDir rt)) ->
  dir_exists fs (resolve cwd xdir) ->
  (forall q, beneath (resolve cwd xdir) q -> get fs q = None) ->
  exists a fs',
    src_savedir_walk cwdc fl fsc (clean d0) rt = Ok ((fsc, Some a), WNil) /\
    tw_Write (model_fs cwd) fs (go_txtar_Parse (format a)) xdir = Ok (fs', WNil) /\
    (forall p d cl n s, In (p, d) (rflat [] (RDir rt)) -> savedir_entry fl (p, d) = Some (cl, (n, s)) ->
       get fs' (resolve cwd xdir ++ p) = Some (File s) /\
       restored (comment (parse (format a))) n s = Some (fix_nl d)) /\
    (forall q x, beneath (resolve cwd xdir) q -> get fs' q = Some x ->
       exists p d e, In (p, d) (rflat [] (RDir rt)) /\ savedir_entry fl (p, d) = Some e /\
         ((q = resolve cwd xdir ++ p /\ exists s, x = File s) \/
          (x = Dir /\ proper q (resolve cwd xdir ++ p)))).
Proof.
  intros NR HW HRd Hc Hn Hx Ht Hd He.
  pose proof (src_savedir_walk_eq cwdc fl d0 fsc NR rt HW HRd) as EW.
  pose proof (savedir_tree_flat fl rt (rflat [] (RDir rt)) (rnode_walkable_ok _ HW) (Permutation_refl _)) as EF.
  destruct (savedir_extract fl (rflat [] (RDir rt)) cwd fs xdir Hc Hn Hx Ht Hd He) as [fs' [EX [P1 P2]]].
  exists (savedir_tree fl rt), fs'. split; [exact EW|].
  unfold extract, txtar_c in EX. rewrite <- EF in EX.
  destruct (src_Write_model cwd fs xdir (parse (format (savedir_tree fl rt)))) as [e [HWr D]].
  rewrite EX in HWr, D. cbn [fst snd] in HWr, D. apply dec_werr_ok in D. subst e.
  split; [exact HWr|]. unfold txtar_c in P1. rewrite <- EF in P1. split; [exact P1|exact P2].
Qed.
