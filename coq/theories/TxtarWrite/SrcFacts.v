(* Gen/TxtarWriteSrc.v is the pure part of txtar.Write (txtar/archive.go) translated to Gallina
   by harness/go2coq on every run: the function isAbs, and the statements of the loop body of
   Write in front of its first file-system call (os.MkdirAll) -- the cleaned name, the
   outside-directory guard, the joined path.  This file proves, for every directory string and
   every archive entry, that the translated statements never panic and decide and compute
   exactly what the first lines of the model's write_one do: they return the error iff the
   model's guard [rejected the_guard] rejects the cleaned name, and otherwise hand on the path
   [join dir (clean (from_slash name))].  The whole of Write, file-system calls and loop included, is the subject
   of SrcWorldFacts.v. *)
From Coq Require Import List Bool Arith ZArith Lia.
From Coq.Strings Require Import Byte.
From GI Require Import Lib.Bytes Lib.BytesFacts Lib.GoSem Gen.TxtarWriteConsts Txtar.Txtar
  TxtarWrite.Path TxtarWrite.PathFacts TxtarWrite.TxtarWrite TxtarWrite.WriteFacts TxtarWrite.SrcLib Gen.TxtarWriteSrc.
Import ListNotations.

(* isAbs: filepath.IsAbs(p) || strings.HasPrefix(p, "/") is the model's is_abs *)
Theorem src_isAbs_is_abs p : src_isAbs p = Ok (is_abs p).
Proof.
  unfold src_isAbs, go_filepath_IsAbs, go_bytes_HasPrefix, is_abs. f_equal.
  destruct p as [|b r]; [reflexivity|]. cbn [has_prefix]. unfold is_sep, SEP.
  rewrite andb_true_r, (beq_sym x2f b). apply orb_diag.
Qed.

(* what the statements in front of os.MkdirAll hand on *)
Definition guard_outcome (dir : bytes) (nd : bytes * bytes) : outcome bytes unit bool :=
  let fp := clean (from_slash (fst nd)) in
  if rejected the_guard fp then Return true else Normal (join dir fp).

Theorem src_Write_guard_eq dir nd :
  src_Write_before_os_MkdirAll dir nd = Ok (guard_outcome dir nd).
Proof.
  unfold src_Write_before_os_MkdirAll, guard_outcome, go_filepath_Clean, go_filepath_FromSlash, go_filepath_Join.
  rewrite src_isAbs_is_abs. cbn [bind]. rewrite <- the_guard_exact.
  destruct (rejected the_guard (clean (from_slash (fst nd)))); reflexivity.
Qed.

(* the model's write_one starts with exactly that decision: error "outside parent directory"
   without touching the file system, or the rest of the body run on the joined path *)
Theorem write_one_after_guard fl cwd fs dir nd :
  match guard_outcome dir nd with
  | Return _ => write_one the_guard fl cwd fs dir nd = (fs, WOutside)
  | Normal fp =>
      fp = join dir (clean (from_slash (fst nd))) /\
      write_one the_guard fl cwd fs dir nd =
        (let d := dir_of fp in
         match mkdir_all (S (length d)) cwd fs d with
         | (fs1, WOk) =>
             match os_open fl cwd fs1 fp with
             | inl e => (fs1, WErr OpOpen e)
             | inr (fs2, h) => (os_write fl fs2 h (snd nd), WOk)
             end
         | (fs1, r) => (fs1, r)
         end)
  | _ => False
  end.
Proof.
  unfold guard_outcome, write_one. destruct (rejected the_guard (clean (from_slash (fst nd)))); [reflexivity|].
  split; reflexivity.
Qed.

(* stated on the translated statements: they return the error exactly for the names the property
   excludes, and a name they let through contains no ".." element after cleaning *)
Theorem src_Write_guard_rejects dir nd :
  src_Write_before_os_MkdirAll dir nd = Ok (Return true) <->
  (is_abs (clean (fst nd)) = true \/ clean (fst nd) = dotdot \/ has_prefix dotdot_sep (clean (fst nd)) = true).
Proof.
  rewrite src_Write_guard_eq. unfold guard_outcome, from_slash. rewrite the_guard_exact.
  rewrite <- (bytes_eqb_eq (clean (fst nd)) dotdot), <- !orb_true_iff, orb_assoc.
  now destruct (_ || _ || _).
Qed.

Theorem src_Write_guard_passes dir nd fp :
  src_Write_before_os_MkdirAll dir nd = Ok (Normal fp) ->
  fp = join dir (clean (fst nd)) /\ exists R, Forall real R /\ clean (fst nd) = render false R.
Proof.
  rewrite src_Write_guard_eq. unfold guard_outcome, from_slash. rewrite the_guard_exact.
  destruct (is_abs (clean (fst nd))) eqn:Ea; [discriminate|].
  destruct (bytes_eqb (clean (fst nd)) dotdot) eqn:Ed; [discriminate|].
  destruct (has_prefix dotdot_sep (clean (fst nd))) eqn:Ep; [discriminate|]. cbn [orb].
  intros [= <-]. split; [reflexivity|]. apply clean_passes_guard; [exact Ea| |exact Ep].
  intros H. rewrite H, bytes_eqb_refl in Ed. discriminate.
Qed.

Example ex_src_guard :
  src_Write_before_os_MkdirAll [x64] ([x61; x2f; x2e; x2e; x2f; x62], []) = Ok (Normal [x64; x2f; x62])
  /\ src_Write_before_os_MkdirAll [x64] ([x61; x2f; x2e; x2e; x2f; x2e; x2e], []) = Ok (Return true)
  /\ src_Write_before_os_MkdirAll [x64] ([x2f; x61], []) = Ok (Return true)
  /\ go_filepath_Join [[x61]] = Panic.
Proof. vm_compute. repeat split; reflexivity. Qed.
