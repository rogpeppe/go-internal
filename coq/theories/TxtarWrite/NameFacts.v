(* The archive name txtar-c gives a file: strings.TrimPrefix(path, dir+"/") of the path
   filepath.Walk built with Join.  It is the file's elements joined by "/" for every
   directory argument except one that cleans to "/", where the names come out absolute
   (and txtar-x then refuses the archive). *)
From Coq Require Import List Bool Arith Lia.
From Coq.Strings Require Import Byte.
From GI Require Import Lib.Bytes Lib.BytesFacts TxtarWrite.Path TxtarWrite.PathFacts TxtarWrite.TxtarWrite
  TxtarWrite.RelFacts.
Import ListNotations.

Lemma run_false_shape W : rel_shape W -> exists k, clean_run false W ([], 0) = (rev W, k).
Proof.
  intros [k [X [HX ->]]]. exists k. rewrite clean_run_app.
  pose proof (run_false_dotdots k 0) as E. simpl repeat in E. rewrite Nat.add_0_r in E. rewrite E.
  rewrite clean_run_reals by auto. rewrite rev_app_distr, rev_repeat. reflexivity.
Qed.

Lemma join_render_false W c : rel_shape W -> real c -> join (render false W) c = render false (W ++ [c]).
Proof.
  intros HS Hc. pose proof (shape_elems _ HS) as HE.
  assert (ER : exists k, clean_run false (split_sep (render false W)) ([], 0) = (rev W, k)).
  { destruct W as [|w W]; [exists 0; reflexivity|].
    change (render false (w :: W)) with (join_sep (w :: W)).
    assert (HSf : Forall sep_free (w :: W)) by (eapply Forall_impl; [|exact HE]; apply elem_sep_free).
    rewrite split_sep_join_sep by (auto; discriminate).
    apply run_false_shape. auto. }
  destruct ER as [k ER]. change c with (render false [c]) at 1.
  rewrite (join_run _ _ _ _ [c] (render_false_nonempty W HE) (is_abs_render_false W HE) ER) by auto.
  now rewrite rev_involutive.
Qed.

Lemma join_render_true W c : Forall real W -> real c -> join (render true W) c = render true (W ++ [c]).
Proof.
  intros HW Hc. change c with (render false [c]).
  rewrite (join_abs [] (render true W) [c]) by (auto; reflexivity).
  rewrite resolve_render_true by auto. reflexivity.
Qed.

Definition base_ok (a : bool) (W : list bytes) : Prop := if a then Forall real W else rel_shape W.

Lemma base_ok_snoc a W c : base_ok a W -> real c -> base_ok a (W ++ [c]).
Proof.
  destruct a; simpl; intros H Hc.
  - apply Forall_app. auto.
  - destruct H as [k [X [HX ->]]]. exists k, (X ++ [c]). split; [apply Forall_app; auto|].
    rewrite app_assoc. reflexivity.
Qed.

Lemma walk_path_render a p : forall W,
  base_ok a W -> Forall real p -> walk_path (render a W) p = render a (W ++ p).
Proof.
  induction p as [|c p IH]; intros W HW Hp; [rewrite app_nil_r; reflexivity|].
  inversion Hp; subst. unfold walk_path in *. simpl fold_left.
  assert (EJ : join (render a W) c = render a (W ++ [c])).
  { destruct a; [apply join_render_true|apply join_render_false]; auto. }
  rewrite EJ. rewrite IH by (auto; apply base_ok_snoc; auto).
  rewrite <- app_assoc. reflexivity.
Qed.

Lemma trim_prefix_app x y : trim_prefix x (x ++ y) = y.
Proof.
  unfold trim_prefix. rewrite has_prefix_app.
  induction x as [|b x IH]; [reflexivity|]. simpl. exact IH.
Qed.

Lemma join_sep_head c p : real c -> exists b t, join_sep (c :: p) = b :: t /\ is_sep b = false.
Proof.
  intros Hc. destruct (real_head c Hc) as [b [t [-> Hb]]].
  destruct p as [|d p]; [exists b, t; auto|].
  rewrite join_sep_cons by discriminate. exists b, (t ++ render' (d :: p)). auto.
Qed.

Lemma real_no_dot_sep c t : real c -> has_prefix [DOT; SEP] (c ++ t) = false.
Proof.
  intros [H1 [H2 [_ H4]]]. destruct c as [|x c]; [contradiction|]. simpl.
  destruct (beq DOT x) eqn:Ex; [|reflexivity]. apply beq_eq in Ex. subst x. simpl.
  destruct c as [|y c]; [exfalso; apply H2; reflexivity|]. simpl.
  destruct (beq SEP y) eqn:Ey; [|reflexivity]. apply beq_eq in Ey. subst y.
  exfalso. apply H4. simpl. auto.
Qed.

(* a cleaned string is the rendering of such a list *)
Lemma clean_base d0 : exists W, base_ok (is_abs d0) W /\ clean d0 = render (is_abs d0) W.
Proof.
  destruct (clean_shape d0) as [k [R [HR [H0 E]]]]. exists (repeat dotdot k ++ R). split; [|exact E].
  destruct (is_abs d0); cbn [base_ok]; [now rewrite (H0 eq_refl)|now exists k, R].
Qed.

Theorem entry_name_spec d0 p :
  p <> [] -> Forall real p ->
  entry_name (clean d0) p = if bytes_eqb (clean d0) [SEP] then SEP :: join_sep p else join_sep p.
Proof.
  intros Hne Hp. destruct (clean_base d0) as [W [B ->]].
  destruct p as [|c p']; [contradiction|]. destruct (join_sep_head c p' (Forall_inv Hp)) as [b [t [EJ Hb]]].
  unfold entry_name. rewrite (walk_path_render _ (c :: p') W B Hp).
  destruct W as [|w W'].
  - (* the directory is "/" or ".": no such prefix *)
    unfold trim_prefix. destruct (is_abs d0); cbn [app render].
    + rewrite EJ. simpl. unfold is_sep in Hb. now rewrite (beq_sym SEP b), Hb.
    + change (dot ++ [SEP]) with [DOT; SEP]. simpl bytes_eqb.
      replace (has_prefix [DOT; SEP] (join_sep (c :: p'))) with false; [reflexivity|].
      symmetry. destruct p' as [|d p']; [rewrite <- (app_nil_r c)|rewrite join_sep_cons by discriminate];
        apply real_no_dot_sep, (Forall_inv Hp).
  - (* otherwise the path is the directory, a separator, the name *)
    assert (EB : bytes_eqb (render (is_abs d0) (w :: W')) [SEP] = false).
    { destruct (is_abs d0); cbn [base_ok] in B.
      - unfold render. destruct (join_sep_head w W' (Forall_inv B)) as [b' [t' [-> _]]]. reflexivity.
      - pose proof (is_abs_render_false (w :: W') (shape_elems _ B)) as HA.
        destruct (render false (w :: W')) as [|b' t']; [reflexivity|]. cbn in HA |- *.
        unfold is_sep in HA. now rewrite HA. }
    rewrite EB.
    replace (render (is_abs d0) ((w :: W') ++ c :: p'))
      with ((render (is_abs d0) (w :: W') ++ [SEP]) ++ join_sep (c :: p')); [apply trim_prefix_app|].
    rewrite <- app_assoc. destruct (is_abs d0).
    + unfold render. now rewrite join_sep_app.
    + change (render false ((w :: W') ++ c :: p')) with (join_sep ((w :: W') ++ c :: p')).
      now rewrite join_sep_app.
Qed.
