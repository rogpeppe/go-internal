(* C15: containment of the TRANSLATED txtar.Write (Gen/TxtarWriteWorldSrc.v) over the file-system
   model for relative directory strings (RelWrite.write_contained_any_dir through SrcWorldFacts.src_Write_model_inv). *)
From Coq Require Import List Bool.
From Coq.Strings Require Import Byte.
From GI Require Import Lib.Bytes Lib.GoSem Lib.GoSemWorld Txtar.Txtar TxtarWrite.Path TxtarWrite.PathFacts TxtarWrite.TxtarWrite
  TxtarWrite.WriteFacts TxtarWrite.RelFacts TxtarWrite.RelWrite TxtarWrite.SrcWorld Gen.TxtarWriteWorldSrc TxtarWrite.SrcWorldFacts.
Theorem src_Write_contained_any_dir cwd fs dir a fs' e :
  Forall real cwd -> dir_exists fs cwd -> tw_Write (model_fs cwd) fs (Some a) dir = Ok (fs', e) ->
  forall p, get fs' p <> get fs p ->
    get fs p = None /\
    (within (resolve cwd dir) p \/ (get fs' p = Some Dir /\ within p (resolve cwd dir))).
Proof. intros R D H. apply src_Write_model_inv in H. exact (write_contained_any_dir cwd fs dir a fs' _ R D H). Qed.
