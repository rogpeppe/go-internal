(* os.MkdirAll's recursion is on ever shorter strings: the fuel the model gives it
   (length of the string + 1) is never exhausted, so WOutOfFuel is not a possible result
   of mkdir_all, write_one, write_gen, write or extract. *)
From Coq Require Import List Bool Arith Lia.
From Coq.Strings Require Import Byte.
From GI Require Import Lib.Bytes Txtar.Txtar TxtarWrite.Path TxtarWrite.TxtarWrite.
Import ListNotations.

Lemma drop_while_length f l : length (drop_while f l) <= length l.
Proof. induction l as [|b l IH]; simpl; [lia|]. destruct (f b); simpl; lia. Qed.

Lemma parent_str_shorter s : nonempty (parent_str s) = true -> length (parent_str s) < length s.
Proof.
  unfold parent_str.
  pose proof (drop_while_length (fun b => negb (is_sep b)) (drop_while is_sep (rev s))) as H1.
  pose proof (drop_while_length is_sep (rev s)) as H2. rewrite rev_length in H2.
  destruct (drop_while (fun b => negb (is_sep b)) (drop_while is_sep (rev s))) as [|x r].
  - discriminate.
  - intros _. rewrite rev_length. simpl in H1. lia.
Qed.

(* the verdicts of MkdirAll: success, an error of mkdir, and out of fuel only if the fuel is
   not more than the length of the string *)
Lemma mkdir_all_verdict (P : wres -> Prop) cwd :
  P WOk -> (forall e, P (WErr OpMkdir e)) ->
  forall f fs s, P WOutOfFuel \/ length s < f -> P (snd (mkdir_all f cwd fs s)).
Proof.
  intros Pok Perr. induction f as [|f IH]; intros fs s HF; [destruct HF; [assumption|lia]|].
  cbn [mkdir_all].
  destruct (os_stat cwd fs s) as [e|[d|]]; cbn [snd]; auto.
  assert (HP : P (snd (if nonempty (parent_str s) then mkdir_all f cwd fs (parent_str s) else (fs, WOk)))).
  { destruct (nonempty (parent_str s)) eqn:EN; [|exact Pok].
    apply IH. pose proof (parent_str_shorter s EN). destruct HF; [auto|right; lia]. }
  destruct (if nonempty (parent_str s) then _ else _) as [fs1 r1]. cbn [snd] in HP.
  destruct r1; cbn [snd]; auto.
  destruct (os_mkdir cwd fs1 s) as [fs2 [e2|]]; cbn [snd]; auto.
  destruct (os_stat cwd fs2 s) as [?|[?|]]; cbn [snd]; auto.
Qed.

Lemma mkdir_all_fuel cwd f fs s : length s < f -> snd (mkdir_all f cwd fs s) <> WOutOfFuel.
Proof. intros H. apply mkdir_all_verdict; auto; discriminate. Qed.

Lemma write_one_fuel g fl cwd fs dir nd : snd (write_one g fl cwd fs dir nd) <> WOutOfFuel.
Proof.
  unfold write_one. destruct (rejected g (clean (from_slash (fst nd)))); [discriminate|].
  match goal with |- context [mkdir_all ?f cwd fs ?s] =>
    pose proof (mkdir_all_fuel cwd f fs s ltac:(lia)) as H;
    destruct (mkdir_all f cwd fs s) as [fs1 r1] end.
  cbn [snd] in H. destruct r1; cbn [snd]; try discriminate; try contradiction.
  match goal with |- context [os_open fl cwd fs1 ?s] => destruct (os_open fl cwd fs1 s) as [e|[fs2 h]] end;
    cbn [snd]; discriminate.
Qed.

Lemma write_gen_fuel g fl cwd dir files : forall fs, snd (write_gen g fl cwd fs dir files) <> WOutOfFuel.
Proof.
  induction files as [|nd rest IH]; intros fs; [discriminate|].
  cbn [write_gen]. pose proof (write_one_fuel g fl cwd fs dir nd) as H.
  destruct (write_one g fl cwd fs dir nd) as [fs1 r1]. cbn [snd] in H.
  destruct r1; try exact H; try discriminate. apply IH.
Qed.

Theorem write_never_out_of_fuel cwd fs dir a : snd (write cwd fs dir a) <> WOutOfFuel.
Proof. apply write_gen_fuel. Qed.

Theorem extract_never_out_of_fuel cwd fs dir input : snd (extract cwd fs dir input) <> WOutOfFuel.
Proof. apply write_never_out_of_fuel. Qed.
