(* Concrete, non-trivial values satisfying the hypotheses of the theorems about the TRANSLATED
   txtar.Write and txtar-c walk function (SrcWorldFacts.v, SrcWalkFacts.v), and what the
   translated functions compute on them. *)
From Coq Require Import List Bool String ZArith Sorted.
From Coq.Strings Require Import Byte.
From GI Require Import Lib.Bytes Lib.GoSem Lib.GoSemWorld Gen.TxtarWriteConsts Txtar.Txtar
  TxtarWrite.Path TxtarWrite.TxtarWrite TxtarWrite.PathFacts TxtarWrite.WriteFacts
  TxtarWrite.NulFacts TxtarWrite.RelFacts TxtarWrite.GoodWrite TxtarWrite.SortFacts TxtarWrite.WalkFacts
  TxtarWrite.SavedirFacts TxtarWrite.Cli TxtarWrite.SrcLib TxtarWrite.SrcWorld Gen.TxtarWriteWorldSrc
  TxtarWrite.SrcWorldFacts TxtarWrite.SrcWalk TxtarWrite.SrcWalkFacts TxtarWrite.Examples.
From Coq Require Import Permutation.
Import ListNotations.

Definition B (x : string) : bytes := list_byte_of_string x.

(* /t exists and holds a; the archive: a new file in a new subdirectory, then the existing a *)
Definition ex_fs : fsys := [([B "t"], Dir); ([B "t"; B "a"], File (B "old"))].
Definition ex_arch : archive := {| comment := []; files := [(B "sub/n", B "new"); (B "a", B "again"); (B "never", B "x")] |}.

(* over the logging operations: MkdirAll, OpenFile, Write, Close for the first entry, MkdirAll and
   the refused exclusive create for the second, nothing for the third; no descriptor left open *)
Example ex_src_write_calls :
  match tw_Write (traced (model_fs [])) (ex_fs, []) (Some ex_arch) (B "/t") with
  | Ok ((fs', tr), e) =>
      dec_werr e = WErr OpOpen EEXIST /\
      get fs' [B "t"; B "sub"; B "n"] = Some (File (B "new")) /\
      get fs' [B "t"; B "a"] = Some (File (B "old")) /\ get fs' [B "t"; B "never"] = None /\
      map (fun ev => match ev with
                     | EMkdirAll p perm _ => (B "mkdirall", p, perm)
                     | EOpenFile p flag _ _ _ => (B "openfile", p, flag)
                     | EWrite _ d n _ => (B "write", d, n)
                     | EClose _ _ => (B "close", [], 0%Z)
                     | EReadFile p _ _ => (B "readfile", p, 0%Z)
                     end) tr =
        [(B "mkdirall", B "/t/sub", 511%Z); (B "openfile", B "/t/sub/n", 193%Z); (B "write", B "new", 3%Z);
         (B "close", [], 0%Z); (B "mkdirall", B "/t", 511%Z); (B "openfile", B "/t/a", 193%Z)] /\
      fds_after 0 tr = Some 0
  | _ => False
  end.
Proof. vm_compute. repeat split; reflexivity. Qed.

(* an entry that climbs out: the error, and not a single call *)
Example ex_src_write_outside :
  tw_Write (traced (model_fs [])) (ex_fs, []) (Some {| comment := []; files := [(B "x/../../y", B "d")] |}) (B "/t")
  = Ok ((ex_fs, []), outside_err (B "x/../../y")).
Proof. vm_compute. reflexivity. Qed.

Example ex_src_write_nil : tw_Write (model_fs []) ex_fs None (B "/t") = Panic.
Proof. reflexivity. Qed.

(* the tree of TxtarWrite/Examples.v as a rose tree in Walk's order (".hid" < "b" < "sub"): a dot
   file, a plain file without final newline, a nested file containing a marker line *)
Definition ex_rt : rtree :=
  [(B ".hid", RFile (B "h" ++ [NL]));
   (B "b", RFile (B "hello"));
   (B "sub", RDir [(B "z", RFile (B "-- x --" ++ [NL] ++ B "more"))])].

(* the file system txtar-c reads from: the tree at /d *)
Definition ex_fsc : fsys :=
  [([B "d"], Dir); ([B "d"; B ".hid"], File (B "h" ++ [NL])); ([B "d"; B "b"], File (B "hello"));
   ([B "d"; B "sub"], Dir); ([B "d"; B "sub"; B "z"], File (B "-- x --" ++ [NL] ++ B "more"))].

Example ex_rt_walkable : rnode_walkable (RDir ex_rt).
Proof.
  apply rnode_walkable_dir. split; [split|].
  - repeat constructor.
  - repeat constructor; solve_real.
  - constructor; [exact I|]. constructor; [exact I|]. constructor; [|constructor].
    apply rnode_walkable_dir. split; [split|].
    + repeat constructor.
    + repeat constructor; solve_real.
    + constructor; [exact I|constructor].
Qed.

Example ex_rt_readable : readable [] (B "/d") ex_fsc [] (RDir ex_rt).
Proof.
  intros q d H. vm_compute in H.
  destruct H as [H|[H|[H|[]]]]; injection H as <- <-; reflexivity.
Qed.

Example ex_rt_tree_ok : tree_ok (rflat [] (RDir ex_rt)).
Proof.
  (* the files of ex_rt are those of Examples.ex_tree, rotated *)
  apply (tree_ok_perm Examples.ex_tree); [|exact Examples.ex_tree_ok].
  exact (Permutation_sym (Permutation_cons_append [_; _] _)).
Qed.

Definition ex_empty_fs : fsys := [([B "s"], Dir); ([B "s"; B "p"], Dir); ([B "s"; B "q"], File (B "other"))].

(* what the translated functions compute, with -quote: the translated walk function under Walk
   builds the archive the model's txtar-c prints; the translated Write extracts it *)
Example ex_src_round_trip :
  let fl := {| f_quote := true; f_all := false |} in
  match src_savedir_walk [] fl ex_fsc (clean (B "/d")) ex_rt with
  | Ok ((_, Some a), WNil) =>
      format a =
        B "unquote sub/z" ++ [NL] ++ B "-- b --" ++ [NL] ++ B "hello" ++ [NL] ++
        B "-- sub/z --" ++ [NL] ++ B ">-- x --" ++ [NL] ++ B ">more" ++ [NL]
      /\ match tw_Write (model_fs []) ex_empty_fs (go_txtar_Parse (format a)) (B "/s/p") with
         | Ok (fs', WNil) =>
             get fs' [B "s"; B "p"; B "b"] = Some (File (B "hello" ++ [NL])) /\
             get fs' [B "s"; B "p"; B "sub"; B "z"] = Some (File (B ">-- x --" ++ [NL] ++ B ">more" ++ [NL])) /\
             get fs' [B "s"; B "q"] = Some (File (B "other"))
         | _ => False
         end
  | _ => False
  end.
Proof. vm_compute. repeat split; reflexivity. Qed.
