(* Concrete, non-trivial instances of the theorems about descriptors, failing system calls
   and the command-line layer (FdFacts.v, CliFacts.v). *)
From Coq Require Import List Bool String NArith.
From Coq.Strings Require Import Byte.
From GI Require Import Lib.Bytes Gen.TxtarWriteConsts Txtar.Txtar
  TxtarWrite.Path TxtarWrite.TxtarWrite TxtarWrite.PathFacts TxtarWrite.WriteFacts
  TxtarWrite.NulFacts TxtarWrite.RelFacts TxtarWrite.GoodWrite TxtarWrite.SavedirFacts
  TxtarWrite.Fd TxtarWrite.FdFacts TxtarWrite.Cli TxtarWrite.CliFacts TxtarWrite.Examples.
Import ListNotations.

Definition ex_arch : archive :=
  {| comment := []; files := [(B "x/one", B "ONE"); (B "two", B "TWOTWO"); (B "three", B "3")] |}.

(* the event trace of the current source: one file at a time *)
Example ex_trace :
  write_f no_faults [] ex_fs ex_dir ex_arch =
  (fst (write [] ex_fs ex_dir ex_arch), FR WOk,
   [EvOpen [B "s"; B "p"; B "t"; B "x"; B "one"]; EvWrite [B "s"; B "p"; B "t"; B "x"; B "one"] 3;
    EvClose [B "s"; B "p"; B "t"; B "x"; B "one"];
    EvOpen [B "s"; B "p"; B "t"; B "two"]; EvWrite [B "s"; B "p"; B "t"; B "two"] 6;
    EvClose [B "s"; B "p"; B "t"; B "two"];
    EvOpen [B "s"; B "p"; B "t"; B "three"]; EvWrite [B "s"; B "p"; B "t"; B "three"] 1;
    EvClose [B "s"; B "p"; B "t"; B "three"]]).
Proof. vm_compute. reflexivity. Qed.

(* a short write in the second entry: the first file is complete, the second holds the
   first two bytes, the third does not exist, and the descriptor was closed *)
Example ex_short_write :
  let '(fs', r, tr) := write_f (fault_at 1 (FShort 2)) [] ex_fs ex_dir ex_arch in
  r = FFault IoWrite /\
  get fs' [B "s"; B "p"; B "t"; B "x"; B "one"] = Some (File (B "ONE")) /\
  get fs' [B "s"; B "p"; B "t"; B "two"] = Some (File (B "TW")) /\
  get fs' [B "s"; B "p"; B "t"; B "three"] = None /\
  open_after 0 tr = Some 0 /\ max_open 0 tr = 1.
Proof. vm_compute. repeat split; reflexivity. Qed.

(* the other failures *)
Example ex_other_faults :
  map (fun ft => snd (fst (write_f (fault_at 1 ft) [] ex_fs ex_dir ex_arch))) [FMkdir; FOpen; FClose; FNone]
  = [FFault IoMkdir; FFault IoOpen; FFault IoClose; FR WOk].
Proof. vm_compute. reflexivity. Qed.

(* the shape the constants protect against: with `defer out.Close()` in the loop all three
   files are open together when Write returns *)
Definition deferred_shape : shape := {| sh_defer := true; sh_close_first := true; sh_cerr := false |}.
Example ex_deferred_trace :
  let '(_, r, tr) := write_gen_f deferred_shape the_guard the_flags [] ex_fs ex_dir (files ex_arch) no_faults 0 [] in
  r = FR WOk /\ max_open 0 tr = 3 /\ open_after 0 tr = Some 0.
Proof. vm_compute. repeat split; reflexivity. Qed.

(* a loop body that checks the write error before closing leaks the descriptor *)
Example ex_leak_on_error :
  let sh := {| sh_defer := false; sh_close_first := false; sh_cerr := true |} in
  let '(_, r, tr) := write_gen_f sh the_guard the_flags [] ex_fs ex_dir (files ex_arch) (fault_at 0 (FShort 1)) 0 [] in
  r = FFault IoWrite /\ open_after 0 tr = Some 1.
Proof. vm_compute. repeat split; reflexivity. Qed.

Example ex_x_cmdlines :
  map x_cmdline [[B "-C"; B "out"; B "a.txtar"]; [B "--C=out"; B "a.txtar"]; [B "-C"; B "out"]; [];
                 [B "a.txtar"]; [B "--"; B "-odd"]; [B "a"; B "b"]; [B "-x"]; [B "-C"]; [B "-C"; B "a"; B "-C=b"]]
  = [XRun (B "out") (XFile (B "a.txtar")); XRun (B "out") (XFile (B "a.txtar")); XRun (B "out") XStdin;
     XRun (B ".") XStdin; XRun (B ".") (XFile (B "a.txtar")); XRun (B ".") (XFile (B "-odd"));
     XUsage; XUsage; XUsage; XRun (B "b") XStdin].
Proof. vm_compute. reflexivity. Qed.

Example ex_c_cmdlines :
  map c_cmdline [[B "src"]; [B "-quote"; B "src"]; [B "--a"; B "-quote=false"; B "src"];
                 [B "-a=T"; B "-quote"; B "--quote=0"; B "-quote=1"; B "src"]; []; [B "a"; B "b"];
                 [B "-quote=maybe"; B "src"]; [B "-q"; B "src"]]
  = [CRun {| f_quote := false; f_all := false |} (B "src"); CRun {| f_quote := true; f_all := false |} (B "src");
     CRun {| f_quote := false; f_all := true |} (B "src"); CRun {| f_quote := true; f_all := true |} (B "src");
     CUsage; CUsage; CUsage; CUsage].
Proof. vm_compute. reflexivity. Qed.

(* the spelling lemma on a concrete mix *)
Example ex_c_flags :
  map cflag_arg [CA true 1; CQ true 0; CQ false 2; CQ true 2] ++ [B "src"]
  = [B "--a"; B "-quote"; B "-quote=false"; B "-quote=true"; B "src"].
Proof. reflexivity. Qed.

(* the hypotheses of cli_roundtrip, through the file argument: the archive printed by
   txtar-c -quote sits in /s/a.txtar, txtar-x -C ./p a.txtar runs in /s *)
Definition ex_cli_fs : fsys :=
  ([B "s"; B "a.txtar"], File (txtar_c {| f_quote := true; f_all := false |} ex_tree)) :: ex_empty_fs.

Example ex_cli_roundtrip_hyps :
  c_cmdline [B "-quote"; B "src"] = CRun {| f_quote := true; f_all := false |} (B "src") /\
  x_cmdline [B "-C"; B "./p"; B "a.txtar"] = XRun (B "./p") (XFile (B "a.txtar")) /\
  os_read_file [B "s"] ex_cli_fs (B "a.txtar") = inr (txtar_c {| f_quote := true; f_all := false |} ex_tree) /\
  dir_exists ex_cli_fs (resolve [B "s"] (B "./p")) /\
  (forall q, beneath (resolve [B "s"] (B "./p")) q -> get ex_cli_fs q = None).
Proof.
  split; [reflexivity|]. split; [reflexivity|]. split; [vm_compute; reflexivity|].
  change (resolve [B "s"] (B "./p")) with [B "s"; B "p"]. split.
  - intros p [q E]. destruct p as [|a [|b [|c p]]]; simpl in E; inversion E; subst; reflexivity.
  - intros q [c [r ->]]. reflexivity.
Qed.

Example ex_cli_both_routes :
  let arc := txtar_c {| f_quote := true; f_all := false |} ex_tree in
  snd (txtar_x_main [B "s"] ex_cli_fs [B "-C"; B "./p"; B "a.txtar"] []) = XR WOk /\
  snd (txtar_x_main [B "s"] ex_empty_fs [B "--C=p"] arc) = XR WOk /\
  get (fst (txtar_x_main [B "s"] ex_empty_fs [B "--C=p"] arc)) [B "s"; B "p"; B "sub"; B "z"]
    = Some (File (B ">-- x --" ++ [NL] ++ B ">more" ++ [NL])) /\
  snd (txtar_x_main [B "s"] ex_empty_fs [B "missing.txtar"] arc) = XReadErr ENOENT.
Proof. vm_compute. repeat split; reflexivity. Qed.

(* what a bound on standard input would do (the constant extract_stdin_limit is None): the
   archive is cut and the last file comes back short, with exit status 0 *)
Example ex_limited_stdin :
  let arc := txtar_c {| f_quote := false; f_all := false |} [([B "a"], B "0123456789" ++ [NL])] in
  let '(fs', r) := extract [] ex_empty_fs (B "/s/p") (read_stdin (Some 12%N) arc) in
  r = WOk /\ get fs' [B "s"; B "p"; B "a"] = Some (File (B "0123" ++ [NL])).
Proof. vm_compute. repeat split; reflexivity. Qed.

(* a textual prefix is not containment: the sibling /s/p/tx of the directory /s/p/t has the
   directory's path as a prefix of its own; the names that lead there are refused, and so
   are names that come back into the directory after leaving it *)
Example ex_prefix_sibling :
  has_prefix (B "/s/p/t") (join (B "/s/p/t") (B "../tx")) = true /\
  map (fun n => snd (write [] ex_fs ex_dir {| comment := []; files := [(B n, B "X")] |}))
      ["../tx"; "../t.bak/f"; "a/../../tx"; "../t/f"; "../../p/t/f"]%string
  = [WOutside; WOutside; WOutside; WOutside; WOutside].
Proof. vm_compute. split; reflexivity. Qed.
