(* What txtar.Write does when the target directory already contains a symbolic link
   (model Symlink.v).  The containment statement of C15 is REFUTED in that setting: a link
   inside the directory that points outside lets an entry "link/x" create a file outside.
   What survives: nothing that exists is ever modified (O_CREAT|O_EXCL and mkdir only
   create), and a link in the LAST component is never followed (EEXIST). *)
From Coq Require Import List Bool Arith Lia String.
From Coq.Strings Require Import Byte.
From GI Require Import Lib.Bytes Gen.TxtarWriteConsts Txtar.Txtar TxtarWrite.Path TxtarWrite.TxtarWrite
  TxtarWrite.PathFacts TxtarWrite.WriteFacts TxtarWrite.Symlink TxtarWrite.SymlinkPlain.
Import ListNotations.

(* the model hard-wires O_CREAT|O_EXCL; this is where it is tied to the regenerated flags *)
Lemma symlink_model_flags : o_create the_flags && o_excl the_flags = true.
Proof. reflexivity. Qed.

Definition Bs (x : string) : bytes := list_byte_of_string x.

(* /s/t is the target; it contains links to a directory outside (relative and absolute),
   a dangling link, a link to a file outside and a link to itself *)
Definition sl_fs : sfsys :=
  [([Bs "s"], SDir); ([Bs "s"; Bs "t"], SDir); ([Bs "s"; Bs "out"], SDir);
   ([Bs "s"; Bs "sib"], SFile (Bs "sibling"));
   ([Bs "s"; Bs "t"; Bs "link"], SLink (Bs "../out"));
   ([Bs "s"; Bs "t"; Bs "abs"], SLink (Bs "/s/out"));
   ([Bs "s"; Bs "t"; Bs "dangling"], SLink (Bs "nowhere"));
   ([Bs "s"; Bs "t"; Bs "lf"], SLink (Bs "../sib"));
   ([Bs "s"; Bs "t"; Bs "loop"], SLink (Bs "loop"))].

Example symlink_escape :
  s_write [] sl_fs (Bs "/s/t") [(Bs "link/x", Bs "DATA")]
  = (([Bs "s"; Bs "out"; Bs "x"], SFile (Bs "DATA")) :: sl_fs, SOk).
Proof. vm_compute. reflexivity. Qed.

Example symlink_escape_abs_and_deep :
  s_write [] sl_fs (Bs "/s/t") [(Bs "abs/sub/y", Bs "D2")]
  = (([Bs "s"; Bs "out"; Bs "sub"; Bs "y"], SFile (Bs "D2")) :: ([Bs "s"; Bs "out"; Bs "sub"], SDir) :: sl_fs, SOk).
Proof. vm_compute. reflexivity. Qed.

(* a link in the last component is not followed: the file it points to is not touched *)
Example symlink_last_component :
  map (fun n => s_write [] sl_fs (Bs "/s/t") [(Bs n, Bs "X")])
      ["lf"; "link"; "dangling"; "dangling/z"; "lf/x"; "loop/x"]%string
  = [(sl_fs, SErrOpen S_EEXIST); (sl_fs, SErrOpen S_EEXIST); (sl_fs, SErrOpen S_EEXIST);
     (sl_fs, SErrMkdir S_EEXIST); (sl_fs, SErrMkdir S_ENOTDIR); (sl_fs, SErrMkdir S_EEXIST)].
Proof. vm_compute. reflexivity. Qed.

Definition sl_link_name : bytes := Bs "link".
Definition sl_link_target : bytes := Bs "../out".

(* CONTAINMENT IS REFUTED when the directory contains a link that leads outside *)
Theorem symlink_containment_refuted :
  exists fs dir files fs' p,
    sget fs (resolve [] dir ++ [sl_link_name]) = Some (SLink sl_link_target) /\
    s_write [] fs dir files = (fs', SOk) /\
    sget fs p = None /\ sget fs' p <> None /\ ~ within (resolve [] dir) p.
Proof.
  exists sl_fs, (Bs "/s/t"), [(Bs "link/x", Bs "DATA")],
         (([Bs "s"; Bs "out"; Bs "x"], SFile (Bs "DATA")) :: sl_fs), [Bs "s"; Bs "out"; Bs "x"].
  split; [reflexivity|]. split; [apply symlink_escape|]. split; [reflexivity|].
  split; [discriminate|]. intros [q E]. vm_compute in E. inversion E.
Qed.

Definition spreserves (fs fs' : sfsys) : Prop := forall p x, sget fs p = Some x -> sget fs' p = Some x.

Lemma spreserves_refl fs : spreserves fs fs.
Proof. intros p x H. exact H. Qed.

Lemma spreserves_trans a b c : spreserves a b -> spreserves b c -> spreserves a c.
Proof. intros H1 H2 p x H. auto. Qed.

Lemma spreserves_new fs P n : sget fs P = None -> spreserves fs ((P, n) :: fs).
Proof.
  intros HN p x H. assert (HP : P <> []) by (intros E; subst; discriminate).
  rewrite sget_cons by auto. destruct (path_eqb p P) eqn:E; [|exact H].
  apply path_eqb_eq in E. subst. congruence.
Qed.

Lemma s_mkdir_preserves cwd fs s fs' r : s_mkdir cwd fs s = (fs', r) -> spreserves fs fs'.
Proof.
  unfold s_mkdir. destruct (slookup cwd fs s false) as [e|P]; [intros [= <- _]; apply spreserves_refl|].
  destruct (sget fs P) eqn:E; intros [= <- _]; [apply spreserves_refl|apply spreserves_new; auto].
Qed.

Lemma s_create_preserves cwd fs s d fs' r : s_create_excl cwd fs s d = (fs', r) -> spreserves fs fs'.
Proof.
  unfold s_create_excl. destruct (slookup cwd fs s false) as [e|P]; [intros [= <- _]; apply spreserves_refl|].
  destruct (sget fs P) eqn:E; intros [= <- _]; [apply spreserves_refl|apply spreserves_new; auto].
Qed.

Lemma s_mkdir_all_preserves cwd : forall f fs s fs' r, s_mkdir_all f cwd fs s = (fs', r) -> spreserves fs fs'.
Proof.
  induction f as [|f IH]; intros fs s fs' r H; simpl in H; [injection H as <- _; apply spreserves_refl|].
  destruct (s_stat cwd fs s) as [e|[d| |t]]; try (injection H as <- _; apply spreserves_refl).
  destruct (if nonempty (parent_str s) then s_mkdir_all f cwd fs (parent_str s) else (fs, SOk))
    as [fs1 r1] eqn:EP.
  assert (H1 : spreserves fs fs1).
  { destruct (nonempty (parent_str s)); [exact (IH _ _ _ _ EP)|injection EP as <- _; apply spreserves_refl]. }
  destruct r1; try (injection H as <- _; exact H1).
  destruct (s_mkdir cwd fs1 s) as [fs2 r2] eqn:EK.
  assert (H2 : spreserves fs fs2) by (eapply spreserves_trans; [exact H1|exact (s_mkdir_preserves _ _ _ _ _ EK)]).
  destruct r2; [|injection H as <- _; exact H2].
  destruct (slookup cwd fs2 s false) as [?|P]; [|destruct (sget fs2 P) as [[?| |?]|]];
    injection H as <- _; exact H2.
Qed.

Lemma s_write_one_preserves cwd fs dir nd fs' r : s_write_one cwd fs dir nd = (fs', r) -> spreserves fs fs'.
Proof.
  unfold s_write_one. destruct (rejected the_guard (clean (from_slash (fst nd)))); [intros H; inversion H; apply spreserves_refl|].
  match goal with |- context [s_mkdir_all ?f cwd fs ?s] => destruct (s_mkdir_all f cwd fs s) as [fs1 r1] eqn:EM end.
  pose proof (s_mkdir_all_preserves _ _ _ _ _ _ EM) as H1.
  destruct r1; try (intros H; inversion H; subst; exact H1).
  match goal with |- context [s_create_excl cwd fs1 ?s ?d] => destruct (s_create_excl cwd fs1 s d) as [fs2 [e|]] eqn:EC end;
    pose proof (s_create_preserves _ _ _ _ _ _ EC) as H2; intros H; inversion H; subst; eapply spreserves_trans; eauto.
Qed.

(* even with symbolic links in the way, nothing that exists (file, directory or link) is
   ever changed: Write only creates *)
Theorem symlink_never_overwrites cwd dir files : forall fs fs' r,
  s_write cwd fs dir files = (fs', r) -> forall p x, sget fs p = Some x -> sget fs' p = Some x.
Proof.
  induction files as [|nd rest IH]; intros fs fs' r H; simpl in H; [inversion H; apply spreserves_refl|].
  destruct (s_write_one cwd fs dir nd) as [fs1 r1] eqn:E1.
  pose proof (s_write_one_preserves _ _ _ _ _ _ E1) as H1.
  destruct r1; try (inversion H; subst; exact H1).
  eapply spreserves_trans; [exact H1|]. exact (IH _ _ _ H).
Qed.
