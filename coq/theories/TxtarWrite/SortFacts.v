(* The insertion sort of the model: a permutation of its input; for a comparison that is a
   strict total order on keys and distinct keys, the strictly sorted one, which is unique. *)
From Coq Require Import List Bool Arith Lia Permutation Sorted.
From Coq.Strings Require Import Byte.
From GI Require Import Lib.Bytes TxtarWrite.Path TxtarWrite.TxtarWrite.
Import ListNotations.

Section Sort.
Context {K A : Type}.
Variable cmp : K -> K -> comparison.

Lemma insert_by_perm (x : K * A) l : Permutation (insert_by cmp x l) (x :: l).
Proof.
  induction l as [|y l IH]; simpl; [apply Permutation_refl|].
  destruct (cmp (fst x) (fst y)); try apply Permutation_refl.
  eapply Permutation_trans; [apply perm_skip; exact IH|apply perm_swap].
Qed.

Lemma sort_by_perm (l : list (K * A)) : Permutation (sort_by cmp l) l.
Proof.
  induction l as [|x l IH]; simpl; [constructor|].
  eapply Permutation_trans; [apply insert_by_perm|apply perm_skip; exact IH].
Qed.

(* the payload does not influence the order *)
Lemma insert_by_map {B} (f : A -> B) (x : K * A) l :
  map (fun kv => (fst kv, f (snd kv))) (insert_by cmp x l)
  = insert_by cmp (fst x, f (snd x)) (map (fun kv => (fst kv, f (snd kv))) l).
Proof.
  induction l as [|y l IH]; [reflexivity|]. simpl.
  destruct (cmp (fst x) (fst y)); simpl; try reflexivity. rewrite IH. reflexivity.
Qed.

Lemma sort_by_map {B} (f : A -> B) (l : list (K * A)) :
  map (fun kv => (fst kv, f (snd kv))) (sort_by cmp l)
  = sort_by cmp (map (fun kv => (fst kv, f (snd kv))) l).
Proof.
  induction l as [|x l IH]; [reflexivity|]. simpl. rewrite insert_by_map, IH. reflexivity.
Qed.

(* a strict total order on keys *)
Hypothesis cmp_eq : forall x y, cmp x y = Eq -> x = y.
Hypothesis cmp_antisym : forall x y, cmp y x = CompOpp (cmp x y).
Hypothesis cmp_trans : forall x y z, cmp x y = Lt -> cmp y z = Lt -> cmp x z = Lt.

Definition klt (a b : K * A) : Prop := cmp (fst a) (fst b) = Lt.

Lemma insert_by_sorted x l :
  StronglySorted klt l -> ~ In (fst x) (map fst l) -> StronglySorted klt (insert_by cmp x l).
Proof.
  induction l as [|y l IH]; intros HS HN; simpl; [repeat constructor|].
  inversion HS as [|? ? HS' HF]; subst.
  destruct (cmp (fst x) (fst y)) eqn:E.
  - exfalso. apply HN. left. symmetry. apply cmp_eq. exact E.
  - constructor; [exact HS|]. constructor; [exact E|].
    eapply Forall_impl; [|exact HF]. intros z Hz. unfold klt in *. eapply cmp_trans; eauto.
  - constructor.
    + apply IH; auto. intros HI. apply HN. right. exact HI.
    + eapply Permutation_Forall; [apply Permutation_sym, insert_by_perm|].
      constructor; [|exact HF]. unfold klt. rewrite cmp_antisym, E. reflexivity.
Qed.

Lemma sort_by_sorted (l : list (K * A)) : NoDup (map fst l) -> StronglySorted klt (sort_by cmp l).
Proof.
  induction l as [|x l IH]; intros HN; simpl; [constructor|]. inversion HN; subst.
  apply insert_by_sorted; auto. intros HI. apply H1.
  eapply Permutation_in; [apply Permutation_map, sort_by_perm|exact HI].
Qed.

Lemma klt_irrefl a : ~ klt a a.
Proof.
  unfold klt. intros H. pose proof (cmp_antisym (fst a) (fst a)) as HA. rewrite H in HA. discriminate.
Qed.

Lemma klt_asym a b : klt a b -> ~ klt b a.
Proof. unfold klt. intros H1 H2. rewrite cmp_antisym, H1 in H2. discriminate. Qed.

(* strictly sorted lists with the same elements are equal *)
Lemma sorted_perm_eq (l1 : list (K * A)) : forall l2,
  StronglySorted klt l1 -> StronglySorted klt l2 -> Permutation l1 l2 -> l1 = l2.
Proof.
  induction l1 as [|x l1 IH]; intros l2 H1 H2 HP.
  - apply Permutation_nil in HP. auto.
  - destruct l2 as [|y l2]; [apply Permutation_sym, Permutation_nil in HP; discriminate|].
    inversion H1 as [|? ? H1' F1]; subst. inversion H2 as [|? ? H2' F2]; subst.
    assert (x = y).
    { assert (Hx : In x (y :: l2)) by (eapply Permutation_in; [exact HP|left; auto]).
      assert (Hy : In y (x :: l1)) by (eapply Permutation_in; [apply Permutation_sym; exact HP|left; auto]).
      destruct Hx as [->|Hx]; [reflexivity|]. destruct Hy as [->|Hy]; [reflexivity|].
      rewrite Forall_forall in F1, F2. exfalso. eapply klt_asym; [apply F1; exact Hy|apply F2; exact Hx]. }
    subst y. f_equal. apply IH; auto. eapply Permutation_cons_inv; eauto.
Qed.

Lemma sorted_nodup (s : list (K * A)) : StronglySorted klt s -> NoDup (map fst s).
Proof.
  induction 1 as [|a s HS IH HF]; simpl; constructor; auto.
  intros HI. apply in_map_iff in HI. destruct HI as [b [Eb Hb]].
  rewrite Forall_forall in HF. specialize (HF b Hb). unfold klt in HF. rewrite Eb in HF.
  now apply (klt_irrefl a).
Qed.

(* hence sorting any arrangement of a strictly sorted list gives it back *)
Lemma sort_by_of_perm (l s : list (K * A)) :
  StronglySorted klt s -> Permutation l s -> sort_by cmp l = s.
Proof.
  intros HS HP. apply sorted_perm_eq; auto.
  - apply sort_by_sorted. eapply Permutation_NoDup; [apply Permutation_map, Permutation_sym; exact HP|].
    now apply sorted_nodup.
  - eapply Permutation_trans; [apply sort_by_perm|exact HP].
Qed.

End Sort.

Lemma walk_order_perm t : Permutation (walk_order t) t.
Proof. apply sort_by_perm. Qed.
