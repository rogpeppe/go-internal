(* NUL bytes: the path a NUL-free string denotes (from a NUL-free current directory) has
   NUL-free elements, and renderings of NUL-free element lists are NUL-free strings. *)
From Coq Require Import List Bool Arith Lia.
From Coq.Strings Require Import Byte.
From GI Require Import Lib.Bytes Lib.BytesFacts TxtarWrite.Path TxtarWrite.PathFacts TxtarWrite.TxtarWrite.
Import ListNotations.

Definition nul_free (c : bytes) : Prop := ~ In NUL c.

(* a byte of a joined string is the separator or a byte of one of the elements *)
Lemma in_join_sep b P : In b (join_sep P) -> b = SEP \/ exists c, In c P /\ In b c.
Proof.
  induction P as [|c P IH]; [intros []|]. destruct P as [|d P].
  - intros H. right. exists c. split; [now left|exact H].
  - change (join_sep (c :: d :: P)) with (c ++ SEP :: join_sep (d :: P)). intros H.
    apply in_app_or in H. destruct H as [H|[H|H]]; [right; exists c; split; [now left|exact H]|now left|].
    destruct (IH H) as [E|[x [Hx Hb]]]; [now left|right; exists x; split; [now right|exact Hb]].
Qed.

Lemma has_nul_render a P : Forall nul_free P -> has_nul (render a P) = false.
Proof.
  intros H. apply mem_byte_false. intros HI.
  assert (HJ : In NUL (join_sep P)).
  { destruct a; [destruct HI as [E|HI]; [discriminate E|exact HI]|].
    destruct P; [destruct HI as [E|[]]; discriminate E|exact HI]. }
  destruct (in_join_sep _ _ HJ) as [E|[c [Hc Hn]]]; [discriminate E|].
  rewrite Forall_forall in H. exact (H c Hc Hn).
Qed.

Lemma dotdot_nul_free : nul_free dotdot.
Proof. intros H. simpl in H. destruct H as [H|[H|[]]]; discriminate. Qed.

(* elements of the output of the loop of Clean come from the state or from the input *)
Lemma clean_step_elems r st c x :
  In x (fst (clean_step r st c)) -> In x (fst st) \/ x = c.
Proof.
  destruct st as [out dd]. unfold clean_step. cbn [fst].
  destruct (bytes_eqb c []); [auto|]. destruct (bytes_eqb c dot); [auto|].
  destruct (bytes_eqb c dotdot) eqn:E.
  - apply bytes_eqb_eq in E. subst c. destruct (Nat.ltb dd (length out)).
    + cbn [fst]. intros H. left. destruct out; simpl in *; auto.
    + destruct r; cbn [fst]; [auto|]. intros [H|H]; auto.
  - cbn [fst]. intros [H|H]; auto.
Qed.

Lemma clean_run_elems r cs : forall st x,
  In x (fst (clean_run r cs st)) -> In x (fst st) \/ In x cs.
Proof.
  induction cs as [|c cs IH]; intros st x H; [auto|]. rewrite clean_run_cons in H.
  destruct (IH _ _ H) as [H1|H1]; [|right; right; auto].
  destruct (clean_step_elems _ _ _ _ H1) as [H2|H2]; [auto|right; left; auto].
Qed.

Lemma resolve_elems cwd p x : In x (resolve cwd p) -> In x cwd \/ In x (split_sep p).
Proof.
  unfold resolve. intros H. apply in_rev in H. destruct (clean_run_elems _ _ _ _ H) as [H1|H1]; auto.
  cbn [fst] in H1. destruct (is_abs p); [contradiction|]. left. apply in_rev. auto.
Qed.

Lemma split_sep_incl p : forall c, In c (split_sep p) -> incl c p.
Proof.
  induction p as [|b p IH]; intros c H.
  - simpl in H. destruct H as [<-|[]]. intros x [].
  - simpl in H. destruct (is_sep b).
    + destruct H as [<-|H]; [intros x []|]. intros x Hx. right. apply (IH c H x Hx).
    + destruct (split_sep p) as [|c0 cs] eqn:E.
      * destruct H as [<-|[]]. intros x [->|[]]. left. auto.
      * destruct H as [<-|H].
        -- intros x [->|Hx]; [left; auto|]. right. apply (IH c0 (or_introl eq_refl) x Hx).
        -- intros x Hx. right. apply (IH c (or_intror H) x Hx).
Qed.

(* what a NUL-free string denotes *)
Lemma resolve_nul_free cwd p :
  Forall nul_free cwd -> has_nul p = false -> Forall nul_free (resolve cwd p).
Proof.
  intros Hc Hp. apply Forall_forall. intros x Hx.
  destruct (resolve_elems _ _ _ Hx) as [H|H].
  - rewrite Forall_forall in Hc. auto.
  - intros HN. apply (proj1 (mem_byte_false NUL p) Hp). apply (split_sep_incl p x H). exact HN.
Qed.
