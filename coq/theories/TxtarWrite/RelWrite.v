(* Containment of txtar.Write for ANY directory string (relative ones included), resolved
   against a current directory that exists. *)
From Coq Require Import List Bool Arith Lia.
From Coq.Strings Require Import Byte.
From GI Require Import Lib.Bytes Gen.TxtarWriteConsts Txtar.Txtar
  TxtarWrite.Path TxtarWrite.TxtarWrite TxtarWrite.PathFacts TxtarWrite.WriteFacts
  TxtarWrite.RelFacts.
Import ListNotations.

Lemma dir_exists_ext A fs fs' D : ext A fs fs' -> dir_exists fs D -> dir_exists fs' D.
Proof. intros HE HD p Hp. eapply ext_preserves; eauto. Qed.

(* MkdirAll(Dir(fp)) for a cleaned path fp: new directories only at prefixes of what fp
   denotes *)
Lemma mkdir_all_dir_of_clean cwd fs q fuel fs1 r1 :
  dir_exists fs cwd ->
  mkdir_all fuel cwd fs (dir_of (clean q)) = (fs1, r1) ->
  ext (fun p n => n = Dir /\ within p (resolve cwd (clean q))) fs fs1.
Proof.
  intros Hex H.
  destruct (clean_shape q) as [k [R [HR [H0 E]]]].
  set (F := resolve cwd (clean q)) in *.
  destruct (is_abs q) eqn:Ea.
  - rewrite (H0 eq_refl) in E. simpl app in E. rewrite E in H.
    assert (EF : F = R) by (unfold F; rewrite E; apply resolve_render_true; auto).
    destruct (dir_of_render_true R HR) as [Q [HQ [[q' EQ'] EQ]]]. rewrite EQ in H.
    eapply ext_weaken; [|exact (mkdir_all_abs cwd fuel fs Q fs1 r1 HQ H)].
    intros p n [-> [x ->]]. split; auto. rewrite EF, EQ'. exists (x ++ q'). now rewrite app_assoc.
  - set (V := repeat dotdot k ++ R) in *.
    assert (HV : rel_shape V) by (exists k, R; auto).
    assert (EF : F = resolve cwd (render false V)) by (unfold F; rewrite E; reflexivity).
    pose (good := fun p : path => within p cwd \/ within p F).
    pose (Strs := fun s => exists W, rel_shape W /\ s = render false W /\ good (resolve cwd s)).
    assert (Hcl : forall s, Strs s -> nonempty (parent_str s) = true -> Strs (parent_str s)).
    { intros s [W [HW [-> HG]]] HN.
      destruct (snoc_cases W) as [->|[W' [c EW]]]; [discriminate HN|]. subst W.
      assert (Hce : elem c).
      { pose proof (shape_elems _ HW) as HE. apply Forall_app in HE. apply (Forall_inv (proj2 HE)). }
      assert (ER : render false (W' ++ [c]) = join_sep (W' ++ [c])) by (destruct W'; reflexivity).
      rewrite ER in HN |- *. rewrite parent_str_rel in HN |- * by auto.
      destruct W' as [|w W']; [discriminate HN|].
      assert (HW' := shape_unsnoc _ _ HW).
      exists (w :: W'). split; auto. split; [reflexivity|].
      change (join_sep (w :: W')) with (render false (w :: W')).
      unfold good. eapply good_down; [exact HW|]. exact HG. }
    assert (HS0 : Strs (dir_of (clean q))).
    { rewrite E. destruct (snoc_cases V) as [EV|[W [c EV]]].
      - rewrite EV. change (render false []) with dot. rewrite dir_of_dot.
        exists []. split; [exists 0, []; auto|]. split; [reflexivity|].
        left. change dot with (render false (repeat dotdot 0)). apply resolve_dotdots_within.
      - rewrite EV in *. rewrite dir_of_rel by auto.
        assert (HW := shape_unsnoc _ _ HV).
        exists W. split; auto. split; [reflexivity|].
        unfold good. eapply good_down; [exact HV|]. right. rewrite EF. apply within_refl. }
    pose proof (mkdir_all_ext Strs cwd Hcl fuel fs _ fs1 r1 HS0 H) as HX.
    eapply ext_weaken_existing; [|exact HX].
    intros p n [-> [s' [[W [_ [_ HG]]] ->]]] HN. split; auto.
    destruct HG as [HG|HG]; [|exact HG]. rewrite (Hex _ HG) in HN. discriminate.
Qed.

Lemma join_is_clean dir R : Forall real R -> exists q, join dir (render false R) = clean q.
Proof.
  intros HR. unfold join. destruct dir.
  - destruct (render false R) eqn:E; [|eexists; reflexivity].
    now destruct (render_false_nonempty R (elems_shape 0 R HR)).
  - eexists; reflexivity.
Qed.

Lemma entry_adds_allowed_any g cwd dir fs nd :
  guards g -> dir_exists fs cwd ->
  entry_adds (allowed (resolve cwd dir)) g cwd dir fs nd.
Proof.
  intros Hg Hex ER fp. subst fp.
  destruct (not_rejected _ _ Hg ER) as [N1 [N2 N3]].
  destruct (clean_passes_guard _ N1 N2 N3) as [R [HR ->]].
  set (D := resolve cwd dir).
  assert (EF : resolve cwd (join dir (render false R)) = D ++ R) by (apply resolve_join; auto).
  destruct (join_is_clean dir R HR) as [q Eq]. rewrite Eq in EF |- *. rewrite EF.
  split; [|intros m; left; exists R; reflexivity]. intros fsm rm EM.
  pose proof (mkdir_all_dir_of_clean _ _ _ _ _ _ Hex EM) as H1. rewrite EF in H1.
  eapply ext_weaken; [|exact H1]. intros p n [-> Hp].
  destruct (within_app_cases p D R Hp); [right|left]; auto.
Qed.

Theorem write_gen_contained_any g fl cwd fs dir files fs' r :
  guards g -> excl fl -> dir_exists fs cwd ->
  write_gen g fl cwd fs dir files = (fs', r) ->
  ext (allowed (resolve cwd dir)) fs fs'.
Proof.
  intros Hg Hx. apply (write_gen_ext _ (fun fs => dir_exists fs cwd)); auto.
  - intros fs0 fs1 Hex HE. exact (dir_exists_ext _ _ _ _ HE Hex).
  - intros fs0 nd. apply entry_adds_allowed_any; auto.
Qed.

(* the current directory exists, with everything above it ([Forall real cwd] is not used) *)
Theorem write_contained_any_dir cwd fs dir a fs' r :
  Forall real cwd -> dir_exists fs cwd -> write cwd fs dir a = (fs', r) ->
  forall p, get fs' p <> get fs p ->
    get fs p = None /\
    (within (resolve cwd dir) p \/ (get fs' p = Some Dir /\ within p (resolve cwd dir))).
Proof.
  intros _ Hex H. apply allowed_changed.
  exact (write_gen_contained_any _ _ _ _ _ _ _ _ the_guard_guards the_flags_excl Hex H).
Qed.

Theorem write_contained_any_dir_strict cwd fs dir a fs' r :
  Forall real cwd -> dir_exists fs cwd -> dir_exists fs (resolve cwd dir) ->
  write cwd fs dir a = (fs', r) ->
  forall p, get fs' p <> get fs p -> get fs p = None /\ beneath (resolve cwd dir) p.
Proof.
  intros Hcwd Hex HD H. exact (changed_beneath _ _ _ HD (write_contained_any_dir _ _ _ _ _ _ Hcwd Hex H)).
Qed.
