(* filepath.Walk on the archived directory as a tree ([rwalk], TxtarWrite.v) against the
   flat model ([savedir] on a list of files): the walk visits the regular files in the
   lexicographic order of their entry lists, skipping exactly the files that have a dot
   entry below the root, so txtar-c on the tree is [savedir] on the list of its files. *)
From Coq Require Import List Bool Arith Lia Permutation Sorted NArith.
From Coq.Strings Require Import Byte.
From GI Require Import Lib.Bytes Lib.BytesFacts Gen.TxtarWriteConsts Txtar.Txtar
  TxtarWrite.Path TxtarWrite.PathFacts TxtarWrite.TxtarWrite TxtarWrite.SortFacts.
Import ListNotations.

Section Lex.
Context {A : Type}.
Variable cmp : A -> A -> comparison.

Fixpoint lex (a b : list A) : comparison :=
  match a, b with
  | [], [] => Eq
  | [], _ :: _ => Lt
  | _ :: _, [] => Gt
  | x :: a', y :: b' => match cmp x y with Eq => lex a' b' | c => c end
  end.

Hypothesis cmp_eq : forall x y, cmp x y = Eq -> x = y.
Hypothesis cmp_refl : forall x, cmp x x = Eq.
Hypothesis cmp_antisym : forall x y, cmp y x = CompOpp (cmp x y).
Hypothesis cmp_trans : forall x y z, cmp x y = Lt -> cmp y z = Lt -> cmp x z = Lt.

Lemma lex_eq a : forall b, lex a b = Eq -> a = b.
Proof.
  induction a as [|x a IH]; destruct b as [|y b]; simpl; intros H; try discriminate; auto.
  destruct (cmp x y) eqn:E; try discriminate. apply cmp_eq in E. subst. f_equal. auto.
Qed.

Lemma lex_refl a : lex a a = Eq.
Proof. induction a as [|x a IH]; simpl; auto. rewrite cmp_refl. auto. Qed.

Lemma lex_antisym a : forall b, lex b a = CompOpp (lex a b).
Proof.
  induction a as [|x a IH]; destruct b as [|y b]; simpl; auto.
  rewrite (cmp_antisym x y). destruct (cmp x y); simpl; auto.
Qed.

Lemma lex_trans a : forall b c, lex a b = Lt -> lex b c = Lt -> lex a c = Lt.
Proof.
  induction a as [|x a IH]; destruct b as [|y b]; destruct c as [|z c]; simpl; intros H1 H2;
    try discriminate; auto.
  destruct (cmp x y) eqn:E1; try discriminate.
  - apply cmp_eq in E1. subst y. destruct (cmp x z) eqn:E2; try discriminate; auto. eapply IH; eauto.
  - destruct (cmp y z) eqn:E2; try discriminate.
    + apply cmp_eq in E2. subst z. rewrite E1. reflexivity.
    + rewrite (cmp_trans _ _ _ E1 E2). reflexivity.
Qed.

Lemma lex_app_same p a b : lex (p ++ a) (p ++ b) = lex a b.
Proof. induction p as [|x p IH]; simpl; auto. rewrite cmp_refl. auto. Qed.
End Lex.

Definition cmpB (x y : byte) : comparison := N.compare (bN x) (bN y).

Lemma cmpB_eq x y : cmpB x y = Eq -> x = y.
Proof. unfold cmpB. intros H. apply N.compare_eq in H. apply bN_inj. auto. Qed.
Lemma cmpB_refl x : cmpB x x = Eq.
Proof. apply N.compare_refl. Qed.
Lemma cmpB_antisym x y : cmpB y x = CompOpp (cmpB x y).
Proof. apply N.compare_antisym. Qed.
Lemma cmpB_trans x y z : cmpB x y = Lt -> cmpB y z = Lt -> cmpB x z = Lt.
Proof. unfold cmpB. rewrite !N.compare_lt_iff. apply N.lt_trans. Qed.

Lemma bytes_cmp_lex a : forall b, bytes_cmp a b = lex cmpB a b.
Proof.
  induction a as [|x a IH]; destruct b as [|y b]; simpl; auto;
    try (unfold cmpB; destruct (N.compare (bN x) (bN y)); auto).
Qed.

Lemma bytes_cmp_eq a b : bytes_cmp a b = Eq -> a = b.
Proof. rewrite bytes_cmp_lex. apply lex_eq. apply cmpB_eq. Qed.
Lemma bytes_cmp_refl a : bytes_cmp a a = Eq.
Proof. rewrite bytes_cmp_lex. apply lex_refl. apply cmpB_refl. Qed.
Lemma bytes_cmp_antisym a b : bytes_cmp b a = CompOpp (bytes_cmp a b).
Proof. rewrite !bytes_cmp_lex. apply lex_antisym. apply cmpB_antisym. Qed.
Lemma bytes_cmp_trans a b c : bytes_cmp a b = Lt -> bytes_cmp b c = Lt -> bytes_cmp a c = Lt.
Proof.
  rewrite !bytes_cmp_lex. apply lex_trans; [apply cmpB_eq|apply cmpB_trans].
Qed.

Lemma path_cmp_lex a : forall b, path_cmp a b = lex bytes_cmp a b.
Proof.
  induction a as [|x a IH]; destruct b as [|y b]; simpl; auto;
    try (destruct (bytes_cmp x y); auto).
Qed.

Lemma path_cmp_eq a b : path_cmp a b = Eq -> a = b.
Proof. rewrite path_cmp_lex. apply lex_eq. apply bytes_cmp_eq. Qed.
Lemma path_cmp_antisym a b : path_cmp b a = CompOpp (path_cmp a b).
Proof. rewrite !path_cmp_lex. apply lex_antisym. apply bytes_cmp_antisym. Qed.
Lemma path_cmp_trans a b c : path_cmp a b = Lt -> path_cmp b c = Lt -> path_cmp a c = Lt.
Proof.
  rewrite !path_cmp_lex. apply lex_trans; [apply bytes_cmp_eq|apply bytes_cmp_trans].
Qed.
Lemma path_cmp_app_same p a b : path_cmp (p ++ a) (p ++ b) = path_cmp a b.
Proof. rewrite !path_cmp_lex. apply lex_app_same. apply bytes_cmp_refl. Qed.

Section RInd.
Variable P : rnode -> Prop.
Hypothesis HF : forall d, P (RFile d).
Hypothesis HD : forall es, Forall (fun e => P (snd e)) es -> P (RDir es).
Fixpoint rnode_ind' (nd : rnode) : P nd :=
  match nd with
  | RFile d => HF d
  | RDir es =>
      HD es ((fix go (es : list (bytes * rnode)) : Forall (fun e => P (snd e)) es :=
                match es with
                | [] => Forall_nil _
                | e :: r => Forall_cons e (rnode_ind' (snd e)) (go r)
                end) es)
  end.
End RInd.

(* names are distinct within every directory *)
Fixpoint rnode_ok (nd : rnode) : Prop :=
  match nd with
  | RFile _ => True
  | RDir es =>
      NoDup (map fst es) /\
      (fix all (es : list (bytes * rnode)) : Prop :=
         match es with [] => True | e :: r => rnode_ok (snd e) /\ all r end) es
  end.

Lemma rnode_ok_dir es :
  rnode_ok (RDir es) <-> NoDup (map fst es) /\ Forall (fun e => rnode_ok (snd e)) es.
Proof.
  simpl. split; intros [H1 H2]; split; auto.
  - induction es as [|e r IH]; constructor; [apply H2|]. apply IH; [inversion H1; auto|apply H2].
  - induction H2 as [|e r He Hr IH]; simpl; auto. split; auto. apply IH. inversion H1; auto.
Qed.

(* the files of the tree in no particular order *)
Fixpoint rflat (p : path) (nd : rnode) {struct nd} : list (path * bytes) :=
  match nd with
  | RFile d => [(p, d)]
  | RDir es => concat (map (fun e => rflat (p ++ [fst e]) (snd e)) es)
  end.

Lemma concat_snd_perm {K B} (L L' : list (K * list B)) :
  Permutation L L' -> Permutation (concat (map snd L)) (concat (map snd L')).
Proof. intros H. rewrite <- !flat_map_concat_map. now apply Permutation_flat_map. Qed.

Lemma concat_map_perm {E B} (f g : E -> list B) es :
  (forall e, In e es -> Permutation (f e) (g e)) ->
  Permutation (concat (map f es)) (concat (map g es)).
Proof.
  induction es as [|e es IH]; intros H; simpl; auto.
  apply Permutation_app; [apply H; left; auto|apply IH; intros; apply H; right; auto].
Qed.

Lemma SS_app {B} (R : B -> B -> Prop) l1 l2 :
  StronglySorted R l1 -> StronglySorted R l2 ->
  (forall a b, In a l1 -> In b l2 -> R a b) -> StronglySorted R (l1 ++ l2).
Proof.
  induction l1 as [|x l1 IH]; intros H1 H2 H; simpl; auto.
  inversion H1 as [|? ? H1' HF]; subst. constructor.
  - apply IH; auto. intros a b Ha Hb. apply H; [right|]; auto.
  - apply Forall_app. split; auto. apply Forall_forall. intros b Hb. apply H; [left|]; auto.
Qed.

Lemma SS_concat {K B} (RK : K * list B -> K * list B -> Prop) (R : B -> B -> Prop) L :
  StronglySorted RK L ->
  (forall kv, In kv L -> StronglySorted R (snd kv)) ->
  (forall kv1 kv2, In kv1 L -> In kv2 L -> RK kv1 kv2 ->
     forall a b, In a (snd kv1) -> In b (snd kv2) -> R a b) ->
  StronglySorted R (concat (map snd L)).
Proof.
  induction L as [|kv L IH]; intros HS H1 H2; simpl; [constructor|].
  inversion HS as [|? ? HS' HF]; subst. apply SS_app.
  - apply H1. left. auto.
  - apply IH; auto.
    + intros kv' Hk. apply H1. right. auto.
    + intros kv1 kv2 Hk1 Hk2. apply H2; right; auto.
  - intros a b Ha Hb. apply in_concat in Hb. destruct Hb as [l [Hl Hb]].
    apply in_map_iff in Hl. destruct Hl as [kv2 [<- Hk2]].
    rewrite Forall_forall in HF. eapply (H2 kv kv2); eauto; [left; auto|right; auto].
Qed.

Definition by_entry (f : bytes * rnode -> list (path * bytes)) (es : list (bytes * rnode)) :=
  sort_by bytes_cmp (map (fun e => (fst e, f e)) es).

Lemma by_entry_in f es kv : In kv (by_entry f es) -> exists e, In e es /\ kv = (fst e, f e).
Proof.
  intros H. eapply Permutation_in in H; [|apply sort_by_perm].
  apply in_map_iff in H. destruct H as [e [E He]]. exists e. auto.
Qed.

Lemma rfiles_dir p es :
  rfiles p (RDir es) = concat (map snd (by_entry (fun e => rfiles (p ++ [fst e]) (snd e)) es)).
Proof. reflexivity. Qed.

Lemma rwalk_dir fl p es :
  rwalk fl p (RDir es) =
  concat (map snd (by_entry (fun e => if skip_name fl (fst e) then [] else rwalk fl (p ++ [fst e]) (snd e)) es)).
Proof. reflexivity. Qed.

Lemma rfiles_prefix nd : forall p pd, In pd (rfiles p nd) -> exists q, fst pd = p ++ q.
Proof.
  induction nd as [d|es IH] using rnode_ind'; intros p pd H.
  - simpl in H. destruct H as [<-|[]]. exists []. simpl. rewrite app_nil_r. reflexivity.
  - rewrite rfiles_dir in H. apply in_concat in H. destruct H as [l [Hl H]].
    apply in_map_iff in Hl. destruct Hl as [kv [<- Hk]].
    apply by_entry_in in Hk. destruct Hk as [e [He ->]]. simpl in H.
    rewrite Forall_forall in IH. destruct (IH e He _ _ H) as [q Eq].
    exists (fst e :: q). rewrite Eq, <- app_assoc. reflexivity.
Qed.

Lemma rfiles_perm nd : forall p, Permutation (rflat p nd) (rfiles p nd).
Proof.
  induction nd as [d|es IH] using rnode_ind'; intros p; [apply Permutation_refl|].
  rewrite rfiles_dir. simpl rflat.
  eapply Permutation_trans;
    [|apply concat_snd_perm, Permutation_sym, sort_by_perm].
  rewrite map_map. simpl. apply concat_map_perm. intros e He.
  rewrite Forall_forall in IH. apply IH. auto.
Qed.

Definition plt (a b : path * bytes) : Prop := path_cmp (fst a) (fst b) = Lt.

Lemma rfiles_sorted nd : forall p, rnode_ok nd -> StronglySorted plt (rfiles p nd).
Proof.
  induction nd as [d|es IH] using rnode_ind'; intros p Hok; [repeat constructor|].
  apply rnode_ok_dir in Hok. destruct Hok as [HN HA].
  rewrite rfiles_dir. rewrite Forall_forall in IH, HA.
  apply (SS_concat (klt bytes_cmp) plt).
  - apply sort_by_sorted.
    + apply bytes_cmp_eq.
    + apply bytes_cmp_antisym.
    + apply bytes_cmp_trans.
    + rewrite map_map. simpl. exact HN.
  - intros kv Hk. apply by_entry_in in Hk. destruct Hk as [e [He ->]]. simpl. apply IH; auto.
  - intros kv1 kv2 Hk1 Hk2 HL a b Ha Hb.
    apply by_entry_in in Hk1. destruct Hk1 as [e1 [He1 ->]].
    apply by_entry_in in Hk2. destruct Hk2 as [e2 [He2 ->]].
    unfold klt in HL. simpl in HL, Ha, Hb.
    destruct (rfiles_prefix _ _ _ Ha) as [q1 E1]. destruct (rfiles_prefix _ _ _ Hb) as [q2 E2].
    unfold plt. rewrite E1, E2, <- !app_assoc, path_cmp_app_same. simpl. rewrite HL. reflexivity.
Qed.

(* what the dot test of the walk function amounts to on the list of files *)
Definition keep (fl : sflags) (k : nat) (pd : path * bytes) : bool :=
  negb (negb (f_all fl) && existsb (has_prefix savedir_dot_prefix) (skipn k (fst pd))).

Lemma rwalk_filter fl nd : forall p, rwalk fl p nd = filter (keep fl (length p)) (rfiles p nd).
Proof.
  induction nd as [d|es IH] using rnode_ind'; intros p.
  - simpl. unfold keep. simpl fst. rewrite skipn_all. simpl.
    rewrite andb_false_r. reflexivity.
  - rewrite rwalk_dir, rfiles_dir, <- concat_filter_map. unfold by_entry.
    rewrite map_map.
    rewrite <- (map_map (fun kv : bytes * list (path * bytes) => (fst kv, filter (keep fl (length p)) (snd kv))) snd).
    rewrite (sort_by_map bytes_cmp (filter (keep fl (length p)))). rewrite map_map. simpl.
    f_equal. f_equal. f_equal. apply map_ext_in. intros e He. f_equal.
    rewrite Forall_forall in IH.
    destruct (skip_name fl (fst e)) eqn:ES.
    + (* a dot entry: every file below it is filtered out *)
      assert (HF : forall pd, In pd (rfiles (p ++ [fst e]) (snd e)) -> keep fl (length p) pd = false).
      { intros pd Hpd. destruct (rfiles_prefix _ _ _ Hpd) as [q Eq]. unfold keep. rewrite Eq, <- app_assoc.
        rewrite skipn_length_app. cbn [app existsb]. unfold skip_name in ES. apply andb_true_iff in ES. destruct ES as [E1 E2].
        rewrite E1, E2. reflexivity. }
      induction (rfiles (p ++ [fst e]) (snd e)) as [|x l IHl]; [reflexivity|].
      simpl. rewrite HF by (left; auto). apply IHl. intros pd Hpd. apply HF. right. auto.
    + rewrite (IH e He). apply filter_ext_in. intros pd Hpd.
      destruct (rfiles_prefix _ _ _ Hpd) as [q Eq]. unfold keep. rewrite Eq.
      rewrite skipn_length_app. rewrite <- app_assoc. rewrite skipn_length_app. cbn [app existsb].
      unfold skip_name in ES. destruct (has_prefix savedir_dot_prefix (fst e)); cbn [andb orb] in *; [|reflexivity].
      rewrite ES. reflexivity.
Qed.

Lemma keep0 fl pd : keep fl 0 pd = negb (dot_skipped fl (fst pd)).
Proof. reflexivity. Qed.

Lemma filter_map_entry fl L :
  filter_map (savedir_entry fl) L = filter_map (file_entry fl) (filter (keep fl 0) L).
Proof.
  induction L as [|pd L IH]; [reflexivity|]. simpl. rewrite keep0. unfold savedir_entry at 1.
  destruct (dot_skipped fl (fst pd)); simpl; [exact IH|]. rewrite IH. reflexivity.
Qed.

(* the files of the tree, in any arrangement, come into Walk's order when sorted by path *)
Lemma walk_order_rfiles rt t :
  rnode_ok (RDir rt) -> Permutation t (rflat [] (RDir rt)) -> walk_order t = rfiles [] (RDir rt).
Proof.
  intros Hok HP.
  apply (sort_by_of_perm path_cmp path_cmp_eq path_cmp_antisym path_cmp_trans);
    [now apply rfiles_sorted|]. eapply Permutation_trans; [exact HP|apply rfiles_perm].
Qed.

(* txtar-c on the tree is the flat model on the list of the tree's files, in any order *)
Theorem savedir_tree_flat fl rt t :
  rnode_ok (RDir rt) -> Permutation t (rflat [] (RDir rt)) ->
  savedir_tree fl rt = savedir fl t.
Proof.
  intros Hok HP. unfold savedir_tree, savedir.
  now rewrite (walk_order_rfiles rt t Hok HP), filter_map_entry, (rwalk_filter fl (RDir rt) []).
Qed.

(* the walk on a tree with distinct names per directory: the files of the tree sorted by
   path, those under a dot entry left out *)
Theorem rwalk_order fl rt :
  rnode_ok (RDir rt) ->
  rwalk fl [] (RDir rt) = filter (fun pd => negb (dot_skipped fl (fst pd))) (walk_order (rflat [] (RDir rt))).
Proof.
  intros Hok. now rewrite (rwalk_filter fl (RDir rt) []), (walk_order_rfiles rt _ Hok (Permutation_refl _)).
Qed.
