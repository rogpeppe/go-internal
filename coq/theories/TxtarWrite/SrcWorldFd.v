(* C15: the model of Write with descriptors and failing system calls (Fd.v: write_f) as an
   INSTANCE of the abstract operations the translated txtar.Write runs over.  [fault_os world cwd]
   interprets the operations by the file-system model, lets the fault of the current iteration
   (world i) make them fail the way Fd.v describes, and logs the open / write / close events; the
   translated Write (Gen/TxtarWriteWorldSrc.v) run over it IS write_f: the same file system, the
   same verdict, the same events.  So the theorems of FdFacts.v (descriptor bound, what an error
   leaves behind, containment under every failure) are theorems about the translated function --
   and the close discipline that Fd.v reads from the regenerated shape flags is here a
   consequence of the translation (C15_source_write_eq), not a hand-reading. *)
From Coq Require Import List Bool Arith NArith ZArith Lia.
From Coq.Strings Require Import Byte.
From GI Require Import Lib.Bytes Lib.GoSem Lib.GoSemWorld Gen.TxtarWriteConsts Txtar.Txtar
  TxtarWrite.Path TxtarWrite.PathFacts TxtarWrite.TxtarWrite TxtarWrite.WriteFacts TxtarWrite.Fd TxtarWrite.FdFacts TxtarWrite.Cli TxtarWrite.SrcLib TxtarWrite.SrcWorld
  Gen.TxtarWriteWorldSrc TxtarWrite.SrcWorldFacts.
Import ListNotations.

(* an injected failure as an error value *)
Definition io_byte (o : ioop) : byte :=
  match o with IoMkdir => x6d | IoOpen => x6f | IoWrite => x77 | IoClose => x63 end.
Definition fault_err (o : ioop) : werr := WVal [x66; x61; io_byte o].   (* three bytes: not a verdict of enc_wres *)
Definition dec_fres (e : werr) : fres :=
  match e with
  | WVal [a; b; c] =>
      if beq a x66 && beq b x61 then
        FFault (if beq c x6d then IoMkdir else if beq c x6f then IoOpen else if beq c x77 then IoWrite else IoClose)
      else FR (dec_werr e)
  | _ => FR (dec_werr e)
  end.

Definition is_short (ft : fault) : bool := match ft with FShort _ => true | _ => false end.

(* the world: the file system, the index of the current entry, the events so far *)
Definition fault_os (world : nat -> fault) (cwd : path) : fs_ops :=
  {| World := fsys * nat * list ev;
     Handle := path * oflags;
     FileInfo := bytes * bool * bool;
     nil_handle := ([], flags_of_Z 0);
     op_mkdir_all := fun w d _ =>
       match w with (fs, i, tr) =>
         match world i with
         | FMkdir => (w, fault_err IoMkdir)
         | _ => match mkdir_all (S (length d)) cwd fs d with (fs1, r) => ((fs1, i, tr), enc_wres r) end
         end
       end;
     op_open_file := fun w p flag _ =>
       match w with (fs, i, tr) =>
         match world i with
         | FOpen => (w, ([], flags_of_Z 0), fault_err IoOpen)
         | _ =>
             match os_open (flags_of_Z flag) cwd fs p with
             | inl e => (w, ([], flags_of_Z 0), enc_wres (WErr OpOpen e))
             | inr (fs2, h) => ((fs2, i, tr ++ [EvOpen h]), (h, flags_of_Z flag), WNil)
             end
         end
       end;
     op_write := fun w h d =>
       match w with (fs, i, tr) =>
         let stored := match world i with FShort k => firstn k d | _ => d end in
         ((os_write (snd h) fs (fst h) stored, i, tr ++ [EvWrite (fst h) (length stored)]), len stored,
          if is_short (world i) then fault_err IoWrite else WNil)
       end;
     op_close := fun w h =>
       match w with (fs, i, tr) =>
         ((fs, S i, tr ++ [EvClose (fst h)]), match world i with FClose => fault_err IoClose | _ => WNil end)
       end;
     op_read_file := fun w p =>
       match w with (fs, i, tr) =>
         match os_read_file cwd fs p with
         | inl e => (w, [], enc_errno e)
         | inr d => (w, d, WNil)
         end
       end;
     fi_name := fun fi => fst (fst fi);
     fi_is_dir := fun fi => snd (fst fi);
     fi_mode := fun fi => if snd fi then 0%Z else 1%Z;
     fm_is_regular := fun m => (m =? 0)%Z |}.

Lemma dec_fres_enc r : r <> WOutside -> dec_fres (enc_wres r) = FR r.
Proof.
  intros H. destruct r as [| |o e|]; try reflexivity; try congruence. destruct o, e; reflexivity.
Qed.

Lemma dec_fres_fault o : dec_fres (fault_err o) = FFault o.
Proof. destruct o; reflexivity. Qed.

Lemma fault_err_not_nil o : werr_is_nil (fault_err o) = false.
Proof. reflexivity. Qed.

(* the operations of [fault_os], each failing when the fault of the current iteration strikes it *)
Section Ops.
Variables (world : nat -> fault) (cwd : path) (fs : fsys) (i : nat) (tr : list ev).

Lemma fault_mkdir_all d perm :
  op_mkdir_all (fault_os world cwd) (fs, i, tr) d perm =
  if strikes (world i) IoMkdir then ((fs, i, tr), fault_err IoMkdir)
  else let (fs1, r) := mkdir_all (S (length d)) cwd fs d in ((fs1, i, tr), enc_wres r).
Proof. cbn. destruct (world i); reflexivity. Qed.

Lemma fault_open_file p flag perm :
  op_open_file (fault_os world cwd) (fs, i, tr) p flag perm =
  if strikes (world i) IoOpen then ((fs, i, tr), ([], flags_of_Z 0), fault_err IoOpen)
  else match os_open (flags_of_Z flag) cwd fs p with
       | inl e => ((fs, i, tr), ([], flags_of_Z 0), enc_wres (WErr OpOpen e))
       | inr (fs2, h) => ((fs2, i, tr ++ [EvOpen h]), (h, flags_of_Z flag), WNil)
       end.
Proof. cbn. destruct (world i); reflexivity. Qed.

Lemma fault_write h d :
  op_write (fault_os world cwd) (fs, i, tr) h d =
  ((os_write (snd h) fs (fst h) (stored (world i) d), i, tr ++ [EvWrite (fst h) (length (stored (world i) d))]),
   len (stored (world i) d), if strikes (world i) IoWrite then fault_err IoWrite else WNil).
Proof. cbn. destruct (world i); reflexivity. Qed.

Lemma fault_close h :
  op_close (fault_os world cwd) (fs, i, tr) h =
  ((fs, S i, tr ++ [EvClose (fst h)]), if strikes (world i) IoClose then fault_err IoClose else WNil).
Proof. cbn. destruct (world i); reflexivity. Qed.
End Ops.

(* one entry: the reference program over [fault_os] is the model's write_one_f for the shape
   of the current source (nothing pending: the close is not deferred) *)
Lemma write_entry_fault world cwd dir nd fs i tr :
  match write_one_f the_shape the_guard the_flags cwd fs dir nd (world i) with
  | (fs1, v, evs, dfr) =>
      dfr = [] /\
      match v with
      | Some r =>
          exists i' e, write_entry_ops (fault_os world cwd) dir nd (fs, i, tr) = ((fs1, i', tr ++ evs), e) /\
                       werr_is_nil e = false /\ dec_fres e = r
      | None =>
          write_entry_ops (fault_os world cwd) dir nd (fs, i, tr) = ((fs1, S i, tr ++ evs), WNil)
      end
  end.
Proof.
  (* an iteration that stops before the file is open: error e, no event *)
  assert (STOP : forall (fs1 : fsys) e r, werr_is_nil e = false -> dec_fres e = r ->
            @nil path = [] /\ exists i' e', ((fs1, i, tr), e) = ((fs1, i', tr ++ []), e') /\
                                       werr_is_nil e' = false /\ dec_fres e' = r).
  { intros fs1 e r N D. split; [reflexivity|]. exists i, e. now rewrite app_nil_r. }
  rewrite write_one_f_stages. unfold write_entry_ops.
  destruct (rejected the_guard (clean (from_slash (fst nd)))); [now apply STOP|].
  cbv zeta. set (fp := join dir (clean (from_slash (fst nd)))).
  rewrite fault_mkdir_all. destruct (strikes (world i) IoMkdir); [now apply STOP|].
  pose proof (mkdir_all_not_outside cwd (S (length (dir_of fp))) fs (dir_of fp)) as NO.
  destruct (mkdir_all (S (length (dir_of fp))) cwd fs (dir_of fp)) as [fsm rm]. cbn [snd] in NO.
  rewrite enc_nil. destruct rm; try (apply STOP; [reflexivity|now apply dec_fres_enc]).
  cbn [negb]. rewrite fault_open_file, flags_of_Z_the_flags.
  destruct (strikes (world i) IoOpen); [now apply STOP|].
  destruct (os_open the_flags cwd fsm fp) as [e|[fs2 h]]; [apply STOP; [reflexivity|now destruct e]|].
  cbn [werr_is_nil negb]. rewrite fault_write, fault_close. cbn [fst snd]. rewrite <- !app_assoc.
  unfold after_open. change (sh_defer the_shape) with false. change (sh_close_first the_shape) with true.
  change (sh_cerr the_shape) with true. cbv iota. rewrite andb_true_r.
  destruct (strikes (world i) IoWrite).
  { split; [reflexivity|]. exists (S i), (fault_err IoWrite). repeat split. }
  destruct (strikes (world i) IoClose); split; try reflexivity.
  exists (S i), (fault_err IoClose). repeat split.
Qed.

Theorem write_ops_fault world cwd dir : forall files fs i tr,
  match write_gen_f the_shape the_guard the_flags cwd fs dir files world i [] with
  | (fs', r, evs) =>
      exists i' e, write_ops (fault_os world cwd) dir files (fs, i, tr) = ((fs', i', tr ++ evs), e) /\ dec_fres e = r
  end.
Proof.
  induction files as [|nd rest IH]; intros fs i tr.
  - cbn. exists i, WNil. now rewrite app_nil_r.
  - cbn [write_gen_f write_ops]. pose proof (write_entry_fault world cwd dir nd fs i tr) as H.
    destruct (write_one_f the_shape the_guard the_flags cwd fs dir nd (world i)) as [[[fs1 v] evs] dfr].
    destruct H as [-> H]. destruct v as [r|].
    + destruct H as [i' [e [E [N D]]]]. rewrite E, N. exists i', e. cbn [app map]. rewrite app_nil_r. now split.
    + rewrite H. cbn [werr_is_nil app]. specialize (IH fs1 (S i) (tr ++ evs)).
      destruct (write_gen_f the_shape the_guard the_flags cwd fs1 dir rest world (S i) []) as [[fs2 r] evs2].
      destruct IH as [i' [e [E D]]]. exists i', e. rewrite E, app_assoc. now split.
Qed.

(* The tie: the translated Write over [fault_os world cwd] is write_f world *)
Theorem src_Write_fault world cwd fs dir a :
  match write_f world cwd fs dir a with
  | (fs', r, evs) =>
      exists i' e, tw_Write (fault_os world cwd) (fs, 0, []) (Some a) dir = Ok ((fs', i', evs), e) /\ dec_fres e = r
  end.
Proof.
  unfold write_f. pose proof (write_ops_fault world cwd dir (files a) fs 0 []) as H.
  destruct (write_gen_f the_shape the_guard the_flags cwd fs dir (files a) world 0 []) as [[fs' r] evs].
  destruct H as [i' [e [E D]]]. exists i', e. rewrite src_Write_eq, E. now split.
Qed.

Corollary src_Write_fault_inv world cwd fs dir a fs' i' tr e :
  tw_Write (fault_os world cwd) (fs, 0, []) (Some a) dir = Ok ((fs', i', tr), e) ->
  write_f world cwd fs dir a = (fs', dec_fres e, tr).
Proof.
  pose proof (src_Write_fault world cwd fs dir a) as H.
  destruct (write_f world cwd fs dir a) as [[fs1 r] evs].
  destruct H as [i1 [e1 [-> <-]]]. now intros [= <- _ <- <-].
Qed.

(* hence, on the translated function under every fault world of Fd.v: at most one descriptor open
   at every moment and none at the end, *)
Theorem src_Write_fault_fd_bounded world cwd fs dir a fs' i' tr e :
  tw_Write (fault_os world cwd) (fs, 0, []) (Some a) dir = Ok ((fs', i', tr), e) ->
  open_after 0 tr = Some 0 /\
  forall t1 t2, tr = t1 ++ t2 -> exists n, open_after 0 t1 = Some n /\ n <= 1.
Proof. intros H. exact (write_fd_bounded _ _ _ _ _ _ _ _ (src_Write_fault_inv _ _ _ _ _ _ _ _ _ H)). Qed.

(* what an error leaves on disk: the entries before the failing one were written exactly as a
   successful Write of them writes them; beyond that only new directories and possibly the failing
   entry's file holding a prefix of its data, *)
Theorem src_Write_fault_error_prefix world cwd fs dir a fs' i' tr e :
  tw_Write (fault_os world cwd) (fs, 0, []) (Some a) dir = Ok ((fs', i', tr), e) -> dec_fres e <> FR WOk ->
  exists k fsk, k < length (files a) /\
    write_gen the_guard the_flags cwd fs dir (firstn k (files a)) = (fsk, WOk) /\
    ext (leftover cwd dir (nth k (files a) ([], []))) fsk fs'.
Proof. intros H. exact (write_error_prefix _ _ _ _ _ _ _ _ (src_Write_fault_inv _ _ _ _ _ _ _ _ _ H)). Qed.

(* and containment and never-overwrites on every failure path *)
Theorem src_Write_fault_contained world cwd fs dir a fs' i' tr e :
  is_abs dir = true -> tw_Write (fault_os world cwd) (fs, 0, []) (Some a) dir = Ok ((fs', i', tr), e) ->
  forall p, get fs' p <> get fs p ->
    get fs p = None /\
    (within (resolve cwd dir) p \/ (get fs' p = Some Dir /\ within p (resolve cwd dir))).
Proof. intros A H. exact (write_f_contained _ _ _ _ _ _ _ _ A (src_Write_fault_inv _ _ _ _ _ _ _ _ _ H)). Qed.

Theorem src_Write_fault_never_overwrites world cwd fs dir a fs' i' tr e :
  tw_Write (fault_os world cwd) (fs, 0, []) (Some a) dir = Ok ((fs', i', tr), e) ->
  forall p x, get fs p = Some x -> get fs' p = Some x.
Proof. intros H. exact (write_f_never_overwrites _ _ _ _ _ _ _ _ (src_Write_fault_inv _ _ _ _ _ _ _ _ _ H)). Qed.
