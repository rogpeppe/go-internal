(* Facts about the path model (Path.v): what Clean produces, when the guard of txtar.Write
   lets a cleaned name through, and what Join / Dir / the parent string of MkdirAll do
   with the names that pass. *)
From Coq Require Import List Bool Arith Lia.
From Coq.Strings Require Import Byte.
From GI Require Import Lib.Bytes Lib.BytesFacts TxtarWrite.Path.
Import ListNotations.

Lemma beq_neq a b : beq a b = false -> a <> b.
Proof. exact (BytesFacts.beq_neq a b). Qed.

Definition sep_free (c : bytes) : Prop := ~ In SEP c.

(* a real path element: what the default case of Clean's loop copies *)
Definition real (c : bytes) : Prop := c <> [] /\ c <> dot /\ c <> dotdot /\ sep_free c.

Lemma is_sep_true b : is_sep b = true -> b = SEP.
Proof. apply beq_eq. Qed.

Lemma sep_free_cons b c : sep_free (b :: c) <-> is_sep b = false /\ sep_free c.
Proof.
  unfold sep_free, is_sep. simpl. split.
  - intros H. split.
    + destruct (beq b SEP) eqn:E; auto. apply beq_eq in E. exfalso. apply H. left. auto.
    + intros HI. apply H. right. auto.
  - intros [H1 H2] [E|HI]; [subst; rewrite beq_refl in H1; discriminate | auto].
Qed.

Lemma split_sep_nonempty p : exists c cs, split_sep p = c :: cs.
Proof.
  induction p as [|b p IH]; simpl; eauto.
  destruct (is_sep b); eauto. destruct IH as [c [cs E]]. rewrite E. eauto.
Qed.

Lemma split_sep_app a b : split_sep (a ++ SEP :: b) = split_sep a ++ split_sep b.
Proof.
  induction a as [|x a IH]; simpl.
  - reflexivity.
  - destruct (is_sep x); rewrite IH; [reflexivity|].
    destruct (split_sep_nonempty a) as [c [cs E]]. rewrite E. reflexivity.
Qed.

Lemma split_sep_sep_free c : sep_free c -> split_sep c = [c].
Proof.
  induction c as [|b c IH]; intros H; simpl; auto.
  apply sep_free_cons in H. destruct H as [H1 H2]. rewrite H1, IH; auto.
Qed.

(* "/e1/e2/.../en" *)
Definition render' (P : list bytes) : bytes := concat (map (cons SEP) P).

Lemma render'_app P Q : render' (P ++ Q) = render' P ++ render' Q.
Proof. unfold render'. rewrite map_app, concat_app. reflexivity. Qed.

Lemma join_sep_cons c P : P <> [] -> join_sep (c :: P) = c ++ render' P.
Proof.
  revert c. induction P as [|d P IH]; intros c H; [contradiction|].
  destruct P as [|e P].
  - unfold render'. simpl. rewrite app_nil_r. reflexivity.
  - change (join_sep (c :: d :: e :: P)) with (c ++ SEP :: join_sep (d :: e :: P)).
    rewrite IH by discriminate. reflexivity.
Qed.

Lemma render_true P : P <> [] -> render true P = render' P.
Proof.
  intros H. unfold render. destruct P as [|c P]; [contradiction|].
  destruct P as [|d P]; [unfold render'; simpl; rewrite app_nil_r; reflexivity|].
  rewrite join_sep_cons by discriminate. reflexivity.
Qed.

Lemma render_true_nil : render true [] = [SEP].
Proof. reflexivity. Qed.

Lemma split_sep_join_sep P : P <> [] -> Forall sep_free P -> split_sep (join_sep P) = P.
Proof.
  induction P as [|c P IH]; intros HP H; [contradiction|]. inversion H; subst.
  destruct P as [|d P]; [now apply split_sep_sep_free|].
  change (join_sep (c :: d :: P)) with (c ++ SEP :: join_sep (d :: P)).
  now rewrite split_sep_app, split_sep_sep_free, IH.
Qed.

Lemma split_sep_render' P : Forall sep_free P -> split_sep (render' P) = [] :: P.
Proof.
  intros H. destruct P as [|c P]; [reflexivity|]. rewrite <- render_true by discriminate.
  change (render true (c :: P)) with ([] ++ SEP :: join_sep (c :: P)).
  now rewrite split_sep_app, split_sep_join_sep.
Qed.

Lemma real_sep_free c : real c -> sep_free c.
Proof. intros H. apply H. Qed.

Lemma reals_sep_free P : Forall real P -> Forall sep_free P.
Proof. apply Forall_impl, real_sep_free. Qed.

Lemma clean_step_real r out dd c : real c -> clean_step r (out, dd) c = (c :: out, dd).
Proof.
  intros [H1 [H2 [H3 _]]]. unfold clean_step.
  rewrite (bytes_eqb_neq c []), (bytes_eqb_neq c dot), (bytes_eqb_neq c dotdot); auto.
Qed.

Lemma clean_step_empty r st : clean_step r st [] = st.
Proof. destruct st. reflexivity. Qed.

Lemma clean_step_dot r st : clean_step r st dot = st.
Proof. destruct st. reflexivity. Qed.

Lemma clean_run_app r A B st : clean_run r (A ++ B) st = clean_run r B (clean_run r A st).
Proof. apply fold_left_app. Qed.

Lemma clean_run_cons r c cs st : clean_run r (c :: cs) st = clean_run r cs (clean_step r st c).
Proof. reflexivity. Qed.

Lemma clean_run_reals r R out dd :
  Forall real R -> clean_run r R (out, dd) = (rev R ++ out, dd).
Proof.
  revert out. induction R as [|c R IH]; intros out H; [reflexivity|].
  inversion H; subst. rewrite clean_run_cons, clean_step_real by auto.
  rewrite IH by auto. simpl. rewrite <- app_assoc. reflexivity.
Qed.

(* the invariant of the loop: the output is [dd] ".." elements (none when rooted)
   followed by real elements *)
Definition cinv (rooted : bool) (st : list bytes * nat) : Prop :=
  exists R, fst st = R ++ repeat dotdot (snd st) /\ Forall real R /\ (rooted = true -> snd st = 0).

Lemma rev_repeat {A} (x : A) n : rev (repeat x n) = repeat x n.
Proof. induction n; simpl; auto. rewrite IHn. symmetry. apply repeat_cons. Qed.

Lemma split_sep_sep_free_all p : Forall sep_free (split_sep p).
Proof.
  induction p as [|b p IH]; simpl.
  - constructor; [intros []|constructor].
  - destruct (is_sep b) eqn:E.
    + constructor; [intros []|auto].
    + destruct (split_sep p) as [|c cs]; [constructor; [|constructor]|].
      * apply sep_free_cons. split; auto. intros [].
      * inversion IH; subst. constructor; auto. apply sep_free_cons. auto.
Qed.

Lemma cinv_step rooted st c : sep_free c -> cinv rooted st -> cinv rooted (clean_step rooted st c).
Proof.
  intros Hc [R [E [HR H0]]]. destruct st as [out dd]. simpl in *. subst out.
  unfold clean_step.
  destruct (bytes_eqb c []) eqn:E1; [exists R; auto|].
  destruct (bytes_eqb c dot) eqn:E2; [exists R; auto|].
  destruct (bytes_eqb c dotdot) eqn:E3.
  - rewrite app_length, repeat_length.
    destruct (Nat.ltb dd (length R + dd)) eqn:EL.
    + apply Nat.ltb_lt in EL. destruct R as [|x R]; [simpl in EL; lia|].
      inversion HR; subst. exists R. simpl. auto.
    + apply Nat.ltb_ge in EL. assert (R = []) by (destruct R; simpl in EL; [auto|lia]). subst R.
      destruct rooted.
      * exists []. simpl. auto.
      * exists []. simpl. split; [reflexivity|]. split; [constructor|discriminate].
  - exists (c :: R). simpl. split; [reflexivity|]. split; [|auto].
    constructor; auto. repeat split; auto; intros ->; discriminate.
Qed.

Lemma cinv_run rooted cs st :
  Forall sep_free cs -> cinv rooted st -> cinv rooted (clean_run rooted cs st).
Proof.
  revert st. induction cs as [|c cs IH]; intros st H Hi; [exact Hi|].
  inversion H; subst. rewrite clean_run_cons. apply IH; auto. apply cinv_step; auto.
Qed.

Lemma cinv_init rooted : cinv rooted ([], 0).
Proof. exists []. simpl. auto. Qed.

(* Clean of "X/Y": the loop runs over the elements of X, then over those of Y *)
Lemma clean_snoc_sep X Y :
  clean (X ++ SEP :: Y) =
  render (is_abs (X ++ SEP :: Y))
    (rev (fst (clean_run (is_abs (X ++ SEP :: Y)) (split_sep Y)
                 (clean_run (is_abs (X ++ SEP :: Y)) (split_sep X) ([], 0))))).
Proof.
  unfold clean. destruct (X ++ SEP :: Y) eqn:E; [destruct X; discriminate|].
  now rewrite <- E, split_sep_app, clean_run_app.
Qed.

Lemma clean_shape p :
  exists k R, Forall real R /\ (is_abs p = true -> k = 0) /\
              clean p = render (is_abs p) (repeat dotdot k ++ R).
Proof.
  destruct p as [|b p].
  - exists 0, []. simpl. auto.
  - unfold clean.
    pose proof (cinv_run (is_abs (b :: p)) (split_sep (b :: p)) ([], 0)
                  (split_sep_sep_free_all _) (cinv_init _)) as [R [E [HR H0]]].
    destruct (clean_run (is_abs (b :: p)) (split_sep (b :: p)) ([], 0)) as [out dd]. simpl in *.
    exists dd, (rev R). split; [apply Forall_rev; auto|]. split; [auto|].
    subst out. rewrite rev_app_distr, rev_repeat. reflexivity.
Qed.

Lemma real_head c : real c -> exists b t, c = b :: t /\ is_sep b = false.
Proof.
  intros [H1 [_ [_ H4]]]. destruct c as [|b t]; [contradiction|]. exists b, t. split; auto.
  apply sep_free_cons in H4. apply H4.
Qed.

(* elements of a cleaned relative path: ".." or real *)
Definition elem (c : bytes) : Prop := c = dotdot \/ real c.

Lemma elems_shape k R : Forall real R -> Forall elem (repeat dotdot k ++ R).
Proof.
  intros H. apply Forall_app. split.
  - apply Forall_forall. intros x Hx. apply repeat_spec in Hx. left. auto.
  - eapply Forall_impl; [|exact H]. intros c Hc. right. auto.
Qed.

(* the first byte of such an element is not a separator *)
Lemma is_abs_render_false cs : Forall elem cs -> is_abs (render false cs) = false.
Proof.
  intros H. unfold render. destruct cs as [|c cs]; [reflexivity|].
  assert (Hb : exists b t, c = b :: t /\ is_sep b = false).
  { destruct (Forall_inv H) as [->|Hc]; [exists DOT, [DOT]; auto|exact (real_head c Hc)]. }
  destruct Hb as [b [t [-> Hb]]].
  destruct cs; simpl; auto.
Qed.

Lemma clean_is_abs p : is_abs (clean p) = is_abs p.
Proof.
  destruct (clean_shape p) as [k [R [HR [H0 E]]]]. rewrite E.
  destruct (is_abs p) eqn:Ea; [reflexivity|]. now apply is_abs_render_false, elems_shape.
Qed.

Definition dotdot_sep : bytes := dotdot ++ [SEP].

Lemma real_no_dotdot_sep c t : real c -> has_prefix dotdot_sep (c ++ t) = false.
Proof.
  intros [H1 [H2 [H3 H4]]]. unfold dotdot_sep, dotdot. simpl.
  destruct c as [|x c]; [contradiction|]. simpl.
  destruct (beq DOT x) eqn:Ex; [|reflexivity]. apply beq_eq in Ex. subst x. simpl.
  destruct c as [|y c]; [exfalso; apply H2; reflexivity|]. simpl.
  destruct (beq DOT y) eqn:Ey; [|reflexivity]. apply beq_eq in Ey. subst y. simpl.
  destruct c as [|z c]; [exfalso; apply H3; reflexivity|]. simpl.
  destruct (beq SEP z) eqn:Ez; [|reflexivity]. apply beq_eq in Ez. subst z.
  exfalso. apply H4. simpl. auto.
Qed.

Lemma real_join_not_dotdot c P : real c -> join_sep (c :: P) <> dotdot.
Proof.
  intros Hc. destruct P as [|d P].
  - simpl. apply Hc.
  - rewrite join_sep_cons by discriminate.
    change (render' (d :: P)) with (SEP :: (d ++ render' P)).
    destruct Hc as [H1 [H2 [H3 H4]]]. intros E.
    destruct c as [|x c]; [contradiction|]. destruct c as [|y c].
    + simpl in E. inversion E.
    + destruct c as [|z c]; simpl in E; inversion E.
Qed.

(* The key lemma: a cleaned name that is not absolute, is not ".." and does not begin
   with "../" is "." or consists of real elements only: it contains no ".." element. *)
Lemma clean_passes_guard p :
  is_abs (clean p) = false -> clean p <> dotdot -> has_prefix dotdot_sep (clean p) = false ->
  exists R, Forall real R /\ clean p = render false R.
Proof.
  intros Ha Hd Hp. destruct (clean_shape p) as [k [R [HR [H0 E]]]].
  rewrite clean_is_abs in Ha. rewrite Ha in E.
  destruct k as [|k]; [exists R; auto|]. exfalso.
  rewrite E in Hd, Hp. simpl in Hd, Hp.
  destruct (repeat dotdot k ++ R) as [|d P] eqn:EP.
  - apply Hd. reflexivity.
  - rewrite !beq_refl in Hp. discriminate.
Qed.

(* and conversely such names pass *)
Lemma render_false_passes R :
  Forall real R ->
  is_abs (render false R) = false /\ render false R <> dotdot /\
  has_prefix dotdot_sep (render false R) = false.
Proof.
  intros HR. split; [|split].
  - exact (is_abs_render_false R (elems_shape 0 R HR)).
  - destruct R as [|c P]; [discriminate|]. inversion HR; subst. apply real_join_not_dotdot; auto.
  - destruct R as [|c P]; [reflexivity|]. inversion HR; subst. unfold render.
    destruct P as [|d P]; [rewrite <- (app_nil_r c); apply real_no_dotdot_sep; auto|].
    rewrite join_sep_cons by discriminate. apply real_no_dotdot_sep; auto.
Qed.

Lemma clean_render_false R : R <> [] -> Forall real R -> clean (join_sep R) = join_sep R.
Proof.
  intros HN HR.
  pose proof (render_false_passes R HR) as [Ha _].
  assert (HS := reals_sep_free _ HR).
  unfold render in Ha. destruct R as [|c P]; [contradiction|].
  unfold clean. destruct (join_sep (c :: P)) as [|b t] eqn:EJ.
  - exfalso. inversion HR; subst. destruct H1 as [H1 _].
    destruct P; [simpl in EJ; contradiction|]. rewrite join_sep_cons in EJ by discriminate.
    destruct c; [contradiction|discriminate].
  - rewrite Ha. rewrite <- EJ. rewrite split_sep_join_sep by (auto; discriminate).
    rewrite clean_run_reals by auto. cbn [fst]. rewrite app_nil_r, rev_involutive. reflexivity.
Qed.

Lemma rooted_run_real cs out :
  Forall sep_free cs -> Forall real out ->
  exists out', clean_run true cs (out, 0) = (out', 0) /\ Forall real out'.
Proof.
  intros Hcs Ho.
  assert (Hi : cinv true (out, 0)) by (exists out; simpl; rewrite app_nil_r; auto).
  pose proof (cinv_run true cs (out, 0) Hcs Hi) as [R [E [HR H0]]].
  destruct (clean_run true cs (out, 0)) as [out' dd]. simpl in *.
  rewrite (H0 eq_refl) in *. simpl in E. rewrite app_nil_r in E. subst. eauto.
Qed.

Lemma resolve_real_gen cwd p : (is_abs p = false -> Forall real cwd) -> Forall real (resolve cwd p).
Proof.
  intros H. unfold resolve.
  destruct (rooted_run_real (split_sep p) (if is_abs p then [] else rev cwd)
              (split_sep_sep_free_all p)) as [out' [E HR]].
  - destruct (is_abs p); [constructor|apply Forall_rev; auto].
  - rewrite E. simpl. apply Forall_rev. auto.
Qed.

Lemma resolve_real cwd p : Forall real cwd -> Forall real (resolve cwd p).
Proof. intros H. now apply resolve_real_gen. Qed.

Lemma resolve_abs_real cwd p : is_abs p = true -> Forall real (resolve cwd p).
Proof. intros Ha. apply resolve_real_gen. congruence. Qed.

Lemma is_abs_app_abs a t : is_abs a = true -> is_abs (a ++ t) = true.
Proof. destruct a; simpl; auto; discriminate. Qed.

Lemma is_abs_app_nonempty a t : a <> [] -> is_abs (a ++ t) = is_abs a.
Proof. destruct a; [contradiction|reflexivity]. Qed.

Lemma resolve_render_true cwd P : Forall real P -> resolve cwd (render true P) = P.
Proof.
  intros HR. assert (HS := reals_sep_free _ HR).
  destruct P as [|c P]; [reflexivity|].
  rewrite render_true by discriminate. unfold resolve.
  assert (Ea : is_abs (render' (c :: P)) = true) by (simpl; unfold is_sep; apply beq_refl).
  rewrite Ea, split_sep_render' by auto.
  change ([] :: c :: P) with ([[]] ++ (c :: P)). rewrite clean_run_app.
  change (clean_run true [[]] ([], 0)) with (@nil bytes, 0).
  rewrite clean_run_reals by auto. cbn [fst]. rewrite app_nil_r, rev_involutive. reflexivity.
Qed.

(* Join(dir, name) for a name that passed the guard, given what the loop of Clean makes of dir *)
Lemma join_run dir a out dd p :
  dir <> [] -> is_abs dir = a -> clean_run a (split_sep dir) ([], 0) = (out, dd) ->
  Forall real p -> join dir (render false p) = render a (rev out ++ p).
Proof.
  intros Hne Ha ER Hp. unfold join. destruct dir as [|b d]; [contradiction|].
  rewrite clean_snoc_sep, is_abs_app_nonempty, Ha, ER by discriminate.
  destruct p as [|c p]; [simpl render at 1; now rewrite app_nil_r|].
  change (render false (c :: p)) with (join_sep (c :: p)).
  rewrite split_sep_join_sep by (try discriminate; now apply reals_sep_free).
  rewrite clean_run_reals by auto. cbn [fst]. now rewrite rev_app_distr, rev_involutive.
Qed.

Lemma join_abs cwd dir R :
  is_abs dir = true -> Forall real R ->
  join dir (render false R) = render true (resolve cwd dir ++ R).
Proof.
  intros Ha HR. unfold resolve. rewrite Ha.
  destruct (clean_run true (split_sep dir) ([], 0)) as [out dd] eqn:ER.
  apply (join_run dir true out dd); auto. now destruct dir.
Qed.

Lemma drop_while_sep_free l m :
  sep_free l -> drop_while (fun b => negb (is_sep b)) (l ++ SEP :: m) = SEP :: m.
Proof.
  induction l as [|x l IH]; intros H; simpl.
  - reflexivity.
  - apply sep_free_cons in H. destruct H as [H1 H2]. rewrite H1. simpl. auto.
Qed.

Lemma sep_free_rev c : sep_free c -> sep_free (rev c).
Proof. unfold sep_free. intros H HI. apply H. apply in_rev. auto. Qed.

(* Dir cuts the last element off and cleans what is left, final separator included *)
Lemma dir_of_snoc x c : sep_free c -> dir_of (x ++ SEP :: c) = clean (x ++ [SEP]).
Proof.
  intros H. unfold dir_of. rewrite rev_app_distr. cbn [rev]. rewrite <- app_assoc. cbn [app].
  rewrite drop_while_sep_free by now apply sep_free_rev. cbn [rev]. now rewrite rev_involutive.
Qed.

Lemma dir_of_render_snoc P c :
  Forall real P -> real c -> dir_of (render true (P ++ [c])) = render true P.
Proof.
  intros HP Hc. assert (HS := reals_sep_free _ HP).
  rewrite render_true by (destruct P; discriminate).
  rewrite render'_app. unfold render' at 2. cbn [map concat]. rewrite app_nil_r.
  rewrite dir_of_snoc by now apply real_sep_free.
  assert (Ea : is_abs (render' P ++ [SEP]) = true).
  { destruct P; simpl; unfold is_sep; apply beq_refl. }
  rewrite clean_snoc_sep, Ea, split_sep_render' by auto.
  change (clean_run true ([] :: P) ([], 0)) with (clean_run true P ([], 0)).
  rewrite clean_run_reals by auto. simpl. rewrite app_nil_r, rev_involutive. reflexivity.
Qed.

Lemma dir_of_root : dir_of (render true []) = render true [].
Proof. reflexivity. Qed.

Lemma snoc_cases {A} (l : list A) : l = [] \/ exists P c, l = P ++ [c].
Proof.
  destruct (rev l) as [|c r] eqn:E.
  - left. rewrite <- (rev_involutive l), E. reflexivity.
  - right. exists (rev r), c. rewrite <- (rev_involutive l), E. reflexivity.
Qed.

(* the string MkdirAll recurses on: the last element and ONE separator before it go *)
Lemma parent_str_snoc x c : c <> [] -> sep_free c -> parent_str (x ++ SEP :: c) = x.
Proof.
  intros Hn Hs. unfold parent_str. rewrite rev_app_distr. cbn [rev]. rewrite <- app_assoc. cbn [app].
  destruct (rev c) as [|b t] eqn:E; [destruct Hn; now rewrite <- (rev_involutive c), E|].
  apply sep_free_rev in Hs. rewrite E in Hs.
  cbn [app drop_while]. rewrite (proj1 (proj1 (sep_free_cons b t) Hs)).
  change (b :: t ++ SEP :: rev x) with ((b :: t) ++ SEP :: rev x).
  rewrite drop_while_sep_free by exact Hs. apply rev_involutive.
Qed.

Lemma parent_str_render_snoc P c : real c -> parent_str (render' (P ++ [c])) = render' P.
Proof.
  intros [H1 [_ [_ H4]]]. rewrite render'_app. unfold render' at 2. cbn [map concat].
  rewrite app_nil_r. now apply parent_str_snoc.
Qed.

Lemma parent_str_root : parent_str [SEP] = [].
Proof. reflexivity. Qed.

Lemma nonempty_render' P : (match render' P with [] => false | _ => true end) = (match P with [] => false | _ => true end).
Proof. destruct P; reflexivity. Qed.

Lemma length_render' P : Forall real P -> length P <= length (render' P).
Proof.
  induction P as [|c P IH]; intros H; [simpl; lia|]. inversion H; subst.
  change (render' (c :: P)) with (SEP :: c ++ render' P). simpl. rewrite app_length.
  specialize (IH H3). lia.
Qed.

Lemma render_true_longer P : Forall real P -> length P <= length (render true P).
Proof.
  intros H. destruct P as [|c P]; [simpl; lia|]. rewrite render_true by discriminate.
  apply length_render'. auto.
Qed.

Definition within (D p : path) : Prop := exists q, p = D ++ q.
Definition beneath (D p : path) : Prop := exists c q, p = D ++ c :: q.

Lemma within_refl D : within D D.
Proof. exists []. rewrite app_nil_r. reflexivity. Qed.

Lemma within_trans p q r : within p q -> within q r -> within p r.
Proof. intros [a ->] [b ->]. exists (a ++ b). rewrite app_assoc. reflexivity. Qed.

Lemma dir_of_render_true P :
  Forall real P -> exists Q, Forall real Q /\ within Q P /\ dir_of (render true P) = render true Q.
Proof.
  intros HP. destruct (snoc_cases P) as [->|[Q [c ->]]].
  - exists []. split; [constructor|]. split; [apply within_refl|reflexivity].
  - apply Forall_app in HP. destruct HP as [HQ Hc].
    exists Q. split; [exact HQ|]. split; [exists [c]; reflexivity|].
    apply dir_of_render_snoc; [exact HQ|exact (Forall_inv Hc)].
Qed.

Lemma within_app_cases (p D R : path) :
  within p (D ++ R) -> within p D \/ within D p.
Proof.
  revert D. induction p as [|x p IH]; intros D [q E].
  - left. exists D. reflexivity.
  - destruct D as [|y D].
    + right. exists (x :: p). reflexivity.
    + simpl in E. inversion E; subst.
      destruct (IH D) as [[q' H]|[q' H]]; [exists q; auto| |].
      * left. exists q'. simpl. rewrite H. reflexivity.
      * right. exists q'. simpl. rewrite H. reflexivity.
Qed.
