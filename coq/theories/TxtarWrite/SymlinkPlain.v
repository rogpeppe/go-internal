(* On a file system WITHOUT symbolic links the symlink variant of the model (Symlink.v:
   physical, component-by-component resolution) and the plain model (TxtarWrite.v: lexical
   resolution, then the check that every directory on the way exists) agree on everything
   txtar.Write does, for a directory named by an absolute string: same result, same
   resulting file system.  So the containment theorems proved for the plain model are
   theorems about the symlink model restricted to link-free states, and the refutation in
   SymlinkFacts.v needs the link. *)
From Coq Require Import List Bool Arith Lia.
From Coq.Strings Require Import Byte.
From GI Require Import Lib.Bytes Lib.BytesFacts Gen.TxtarWriteConsts Txtar.Txtar TxtarWrite.Path TxtarWrite.TxtarWrite
  TxtarWrite.PathFacts TxtarWrite.WriteFacts TxtarWrite.Symlink.
Import ListNotations.

Definition emb (n : node) : snode := match n with File d => SFile d | Dir => SDir end.

(* the two states hold the same objects (no links on the symlink side) *)
Definition sim (fs : fsys) (sfs : sfsys) : Prop := forall p, sget sfs p = option_map emb (get fs p).

(* EISDIR is not produced under O_CREAT|O_EXCL; it is mapped somewhere to keep [ce] total *)
Definition ce (e : errno) : serrno :=
  match e with EEXIST => S_EEXIST | ENOENT => S_ENOENT | ENOTDIR => S_ENOTDIR | EINVAL => S_EINVAL
             | EISDIR => S_EINVAL end.
Definition cr (r : wres) : swres :=
  match r with
  | WOk => SOk | WOutside => SOutside | WOutOfFuel => SOutOfFuel
  | WErr OpMkdir e => SErrMkdir (ce e) | WErr OpOpen e => SErrOpen (ce e)
  end.

Lemma sget_cons P n fs p :
  P <> [] -> sget ((P, n) :: fs) p = if path_eqb p P then Some n else sget fs p.
Proof.
  intros HP. destruct p as [|c p]; [destruct P; [contradiction|reflexivity]|reflexivity].
Qed.

Lemma sim_cons fs sfs P n : P <> [] -> sim fs sfs -> sim ((P, n) :: fs) ((P, emb n) :: sfs).
Proof.
  intros HP H p. rewrite (get_cons P n fs p HP), (sget_cons P _ sfs p HP).
  destruct (path_eqb p P); [reflexivity|apply H].
Qed.

Lemma sim_cons2 fs sfs P d : P <> [] -> sim fs sfs ->
  sim ((P, File d) :: (P, File []) :: fs) ((P, SFile d) :: sfs).
Proof.
  intros HP H p. rewrite !(get_cons P _ _ p HP), (sget_cons P _ sfs p HP).
  destruct (path_eqb p P); [reflexivity|apply H].
Qed.

Lemma real_not_special c : real c -> bytes_eqb c [] || bytes_eqb c dot = false /\ bytes_eqb c dotdot = false.
Proof.
  intros [H1 [H2 [H3 _]]]. rewrite (bytes_eqb_neq c []), (bytes_eqb_neq c dot), (bytes_eqb_neq c dotdot); auto.
Qed.

Lemma swalk_reals fs sfs b : sim fs sfs -> forall Q pre steps,
  length Q < steps -> Forall real Q ->
  swalk steps sfs pre Q b =
    match walk_parents fs pre Q with Some e => inl (ce e) | None => inr (pre ++ Q) end.
Proof.
  intros HS. induction Q as [|c Q IH]; intros pre steps HL HR.
  - destruct steps; [simpl in HL; lia|]. simpl. rewrite app_nil_r. reflexivity.
  - destruct steps as [|st]; [simpl in HL; lia|]. inversion HR; subst.
    destruct (real_not_special c H1) as [E1 E2].
    cbn [swalk]. rewrite E1, E2. rewrite (HS (pre ++ [c])).
    destruct Q as [|c' Q].
    + (* last component *)
      simpl walk_parents. destruct (get fs (pre ++ [c])) as [[d|]|]; simpl; try reflexivity.
      destruct st; [simpl in HL; lia|]. reflexivity.
    + change (walk_parents fs pre (c :: c' :: Q)) with
        (match get fs (pre ++ [c]) with
         | Some Dir => walk_parents fs (pre ++ [c]) (c' :: Q)
         | Some (File _) => Some ENOTDIR
         | None => Some ENOENT
         end).
      destruct (get fs (pre ++ [c])) as [[d|]|]; simpl option_map; cbv iota; try reflexivity.
      rewrite IH by (auto; simpl in *; lia). rewrite <- app_assoc. reflexivity.
Qed.

Lemma swalk_skip_empty st sfs cur rest b : swalk (S st) sfs cur ([] :: rest) b = swalk st sfs cur rest b.
Proof. reflexivity. Qed.

Lemma slookup_render fs sfs cwd Q b :
  sim fs sfs -> Forall real Q ->
  slookup cwd sfs (render true Q) b =
    match lookup_path cwd fs (render true Q) with inl e => inl (ce e) | inr P => inr P end.
Proof.
  intros HS HR. unfold slookup, lookup_path.
  destruct (has_nul (render true Q)); [reflexivity|].
  destruct (render true Q) as [|x t] eqn:ER; [destruct Q; discriminate|]. rewrite <- ER.
  rewrite resolve_render_true by auto.
  assert (Ea : is_abs (render true Q) = true) by reflexivity. rewrite Ea.
  assert (HSf := reals_sep_free _ HR).
  pose proof (render_true_longer Q HR) as HL.
  set (n := length (render true Q)) in *.
  assert (Hn : 1 <= n) by (unfold n; rewrite ER; simpl; lia).
  assert (Hst : exists st, S n * S link_fuel = S (S (S st)) /\ length Q < S (S st)).
  { exists (S n * S link_fuel - 3). unfold link_fuel. split; lia. }
  destruct Hst as [st [Est Hlt]]. rewrite Est.
  destruct Q as [|c Q].
  - simpl. reflexivity.
  - rewrite render_true by discriminate. rewrite split_sep_render' by auto.
    rewrite swalk_skip_empty.
    rewrite (swalk_reals fs sfs b HS (c :: Q) [] (S (S st))) by auto.
    destruct (walk_parents fs [] (c :: Q)); reflexivity.
Qed.

Lemma s_stat_render fs sfs cwd Q :
  sim fs sfs -> Forall real Q ->
  s_stat cwd sfs (render true Q) =
    match os_stat cwd fs (render true Q) with inl e => inl (ce e) | inr n => inr (emb n) end.
Proof.
  intros HS HR. unfold s_stat, os_stat. rewrite (slookup_render fs sfs cwd Q true HS HR).
  destruct (lookup_path cwd fs (render true Q)) as [e|P]; [reflexivity|].
  rewrite (HS P). destruct (get fs P) as [[d|]|]; reflexivity.
Qed.

Lemma s_mkdir_render fs sfs cwd Q :
  sim fs sfs -> Forall real Q ->
  exists sfs', s_mkdir cwd sfs (render true Q) = (sfs', option_map ce (snd (os_mkdir cwd fs (render true Q)))) /\
               sim (fst (os_mkdir cwd fs (render true Q))) sfs'.
Proof.
  intros HS HR. unfold s_mkdir, os_mkdir. rewrite (slookup_render fs sfs cwd Q false HS HR).
  destruct (lookup_path cwd fs (render true Q)) as [e|P]; [exists sfs; auto|].
  rewrite (HS P). destruct (get fs P) as [n|] eqn:EG; simpl; [exists sfs; auto|].
  exists ((P, SDir) :: sfs). split; [reflexivity|].
  apply (sim_cons fs sfs P Dir); auto. eapply get_none_nonroot; eauto.
Qed.

Lemma s_create_render fs sfs cwd Q data :
  sim fs sfs -> Forall real Q ->
  match os_open the_flags cwd fs (render true Q) with
  | inl e => s_create_excl cwd sfs (render true Q) data = (sfs, Some (ce e))
  | inr (fs2, h) => exists sfs', s_create_excl cwd sfs (render true Q) data = (sfs', None) /\
                                 sim (os_write the_flags fs2 h data) sfs'
  end.
Proof.
  intros HS HR. unfold s_create_excl, os_open. rewrite (slookup_render fs sfs cwd Q false HS HR).
  destruct (lookup_path cwd fs (render true Q)) as [e|P]; [reflexivity|].
  rewrite (HS P). destruct (the_flags_excl) as [Hc He]. rewrite Hc, He. simpl andb. cbv iota.
  destruct (get fs P) as [n|] eqn:EG; simpl option_map; cbv iota; [reflexivity|].
  pose proof (get_none_nonroot _ _ EG) as HP.
  exists ((P, SFile data) :: sfs). split; [reflexivity|].
  rewrite os_write_new by auto. apply sim_cons2; auto.
Qed.

Lemma parent_of_render Q c : Forall real Q -> real c ->
  parent_str (render true (Q ++ [c])) = render' Q /\
  (Q <> [] -> render' Q = render true Q) /\ (Q = [] -> render' Q = []).
Proof.
  intros HQ Hc. rewrite render_true by (destruct Q; discriminate).
  split; [apply parent_str_render_snoc; auto|]. split.
  - intros H. symmetry. apply render_true. auto.
  - intros ->. reflexivity.
Qed.

Lemma mkdir_all_sim cwd : forall f fs sfs Q,
  sim fs sfs -> Forall real Q ->
  exists sfs', s_mkdir_all f cwd sfs (render true Q) = (sfs', cr (snd (mkdir_all f cwd fs (render true Q)))) /\
               sim (fst (mkdir_all f cwd fs (render true Q))) sfs'.
Proof.
  induction f as [|f IH]; intros fs sfs Q HS HR; [exists sfs; auto|].
  cbn [s_mkdir_all mkdir_all]. rewrite (s_stat_render fs sfs cwd Q HS HR).
  destruct (os_stat cwd fs (render true Q)) as [e|[d|]] eqn:ES; [|exists sfs; auto|exists sfs; auto].
  (* the parent *)
  set (par := parent_str (render true Q)).
  set (m := if nonempty par then mkdir_all f cwd fs par else (fs, WOk)).
  assert (HPAR : exists sfs1,
    (if nonempty par then s_mkdir_all f cwd sfs par else (sfs, SOk)) = (sfs1, cr (snd m)) /\ sim (fst m) sfs1).
  { subst m par. destruct (snoc_cases Q) as [->|[Q' [c ->]]]; [exists sfs; auto|].
    apply Forall_app in HR. destruct HR as [HQ' Hc].
    destruct (parent_of_render Q' c HQ' (Forall_inv Hc)) as [-> [E1 E2]].
    destruct Q' as [|x Q']; [rewrite (E2 eq_refl); exists sfs; auto|].
    rewrite (E1 ltac:(discriminate)). now apply IH. }
  destruct HPAR as [sfs1 [-> HS1]]. destruct m as [fs1 r1]. cbn [fst snd] in *.
  destruct r1 as [| |op e1|]; cbn [cr]; try (destruct op); try (exists sfs1; split; [reflexivity|exact HS1]).
  destruct (s_mkdir_render fs1 sfs1 cwd Q HS1 HR) as [sfs2 [EK HS2]]. rewrite EK.
  destruct (os_mkdir cwd fs1 (render true Q)) as [fs2 [e2|]] eqn:EO; cbn [fst snd option_map] in *.
  - rewrite (slookup_render fs2 sfs2 cwd Q false HS2 HR).
    unfold os_stat. destruct (lookup_path cwd fs2 (render true Q)) as [e3|P]; [exists sfs2; auto|].
    rewrite (HS2 P). destruct (get fs2 P) as [[d|]|]; simpl; exists sfs2; auto.
  - exists sfs2. auto.
Qed.

Lemma write_one_sim cwd fs sfs dir nd :
  sim fs sfs -> is_abs dir = true ->
  exists sfs', s_write_one cwd sfs dir nd = (sfs', cr (snd (write_one the_guard the_flags cwd fs dir nd))) /\
               sim (fst (write_one the_guard the_flags cwd fs dir nd)) sfs'.
Proof.
  intros HS Ha. unfold s_write_one, write_one.
  destruct (rejected the_guard (clean (from_slash (fst nd)))) eqn:ER; [exists sfs; auto|].
  destruct (not_rejected _ _ the_guard_guards ER) as [N1 [N2 N3]].
  destruct (clean_passes_guard _ N1 N2 N3) as [R [HR EC]].
  rewrite EC. rewrite (join_abs cwd) by auto.
  set (D := resolve cwd dir).
  assert (HDR : Forall real (D ++ R)) by (apply Forall_app; split; [apply resolve_abs_real|]; auto).
  destruct (dir_of_render_true _ HDR) as [Q [HQ [_ ->]]].
  destruct (mkdir_all_sim cwd (S (length (render true Q))) fs sfs Q HS HQ) as [sfs1 [EM HS1]].
  rewrite EM.
  destruct (mkdir_all (S (length (render true Q))) cwd fs (render true Q)) as [fs1 r1] eqn:EM1.
  cbn [fst snd] in *.
  destruct r1 as [| |op e1|]; cbn [cr]; try (destruct op); try (exists sfs1; split; [reflexivity|exact HS1]).
  pose proof (s_create_render fs1 sfs1 cwd (D ++ R) (snd nd) HS1 HDR) as HC.
  destruct (os_open the_flags cwd fs1 (render true (D ++ R))) as [e|[fs2 h]].
  - rewrite HC. exists sfs1. auto.
  - destruct HC as [sfs2 [EC2 HS2]]. rewrite EC2. exists sfs2. auto.
Qed.

(* The coincidence: on link-free states, for a directory named by an absolute string *)
Theorem symlink_model_agrees cwd dir files : forall fs sfs,
  sim fs sfs -> is_abs dir = true ->
  exists sfs', s_write cwd sfs dir files = (sfs', cr (snd (write_gen the_guard the_flags cwd fs dir files))) /\
               sim (fst (write_gen the_guard the_flags cwd fs dir files)) sfs'.
Proof.
  induction files as [|nd rest IH]; intros fs sfs HS Ha; [exists sfs; auto|].
  cbn [s_write write_gen].
  destruct (write_one_sim cwd fs sfs dir nd HS Ha) as [sfs1 [E1 HS1]]. rewrite E1.
  destruct (write_one the_guard the_flags cwd fs dir nd) as [fs1 r1]. cbn [fst snd] in *.
  destruct r1 as [| |op e1|]; cbn [cr]; try (destruct op); try (exists sfs1; split; [reflexivity|exact HS1]).
  apply IH; auto.
Qed.

(* the embedding of a plain state is such a state *)
Lemma sim_emb fs : sim fs (map (fun pn => (fst pn, emb (snd pn))) fs).
Proof.
  intros p. destruct p as [|c p]; [reflexivity|]. simpl sget. simpl get.
  induction fs as [|[q n] fs IH]; [reflexivity|]. simpl.
  destruct q as [|y q']; [exact IH|].
  destruct (bytes_eqb c y && path_eqb p q'); [reflexivity|exact IH].
Qed.

Theorem symlink_model_agrees_write cwd fs sfs dir a :
  sim fs sfs -> is_abs dir = true ->
  exists sfs', s_write cwd sfs dir (files a) = (sfs', cr (snd (write cwd fs dir a))) /\
               sim (fst (write cwd fs dir a)) sfs'.
Proof. intros HS Ha. apply symlink_model_agrees; auto. Qed.
