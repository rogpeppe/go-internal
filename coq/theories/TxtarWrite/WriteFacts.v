(* Facts about the model of txtar.Write (TxtarWrite.v): containment, rejection, no
   overwriting, contents.  The theorems about [write_gen] are stated for any guard and
   any open flags satisfying what the proofs need; the corollaries about [write] (the
   guard and flags read from the source) discharge those conditions by computation on
   Gen/TxtarWriteConsts.v, so they stop compiling when the source stops satisfying them. *)
From Coq Require Import List Bool Arith Lia NArith.
From Coq.Strings Require Import Byte.
From GI Require Import Lib.Bytes Lib.BytesFacts Gen.TxtarWriteConsts Txtar.Txtar
  TxtarWrite.Path TxtarWrite.TxtarWrite TxtarWrite.PathFacts.
Import ListNotations.

Lemma path_eqb_eq a b : path_eqb a b = true <-> a = b.
Proof.
  revert b. induction a as [|x a IH]; destruct b as [|y b]; simpl; split; intros H; try discriminate; auto.
  - apply andb_true_iff in H. destruct H as [H1 H2]. apply bytes_eqb_eq in H1. apply IH in H2. congruence.
  - inversion H; subst. rewrite bytes_eqb_refl. simpl. apply IH. reflexivity.
Qed.

Lemma path_eqb_refl a : path_eqb a a = true.
Proof. apply path_eqb_eq. reflexivity. Qed.

Lemma get_cons P n fs p :
  P <> [] -> get ((P, n) :: fs) p = if path_eqb p P then Some n else get fs p.
Proof.
  intros HP. destruct p as [|c p].
  - destruct P; [contradiction|reflexivity].
  - reflexivity.
Qed.

Lemma get_cons_same P n fs : P <> [] -> get ((P, n) :: fs) P = Some n.
Proof. intros H. rewrite get_cons by auto. rewrite path_eqb_refl. reflexivity. Qed.

Lemma get_cons_other P n fs p : P <> [] -> p <> P -> get ((P, n) :: fs) p = get fs p.
Proof.
  intros H Hp. rewrite get_cons by auto. destruct (path_eqb p P) eqn:E; auto.
  apply path_eqb_eq in E. contradiction.
Qed.

Lemma get_none_nonroot fs P : get fs P = None -> P <> [].
Proof. intros H E. subst. discriminate. Qed.

(* [ext A fs fs']: fs' is fs plus new objects, each at a path where fs had nothing and
   each satisfying A; everything that existed is unchanged *)
Definition ext (A : path -> node -> Prop) (fs fs' : fsys) : Prop :=
  forall p, get fs' p = get fs p \/ (get fs p = None /\ exists n, get fs' p = Some n /\ A p n).

Lemma ext_refl (A : path -> node -> Prop) fs : ext A fs fs.
Proof. intros p. left. reflexivity. Qed.

Lemma ext_trans (A : path -> node -> Prop) fs fs1 fs2 : ext A fs fs1 -> ext A fs1 fs2 -> ext A fs fs2.
Proof.
  intros H1 H2 p. destruct (H1 p) as [E1|[N1 [n1 [G1 A1]]]]; destruct (H2 p) as [E2|[N2 [n2 [G2 A2]]]].
  - left. congruence.
  - right. split; [congruence|]. eauto.
  - right. split; auto. exists n1. split; [congruence|auto].
  - congruence.
Qed.

Lemma ext_weaken_existing (A B : path -> node -> Prop) fs fs' :
  (forall p n, A p n -> get fs p = None -> B p n) -> ext A fs fs' -> ext B fs fs'.
Proof.
  intros HAB H p. destruct (H p) as [E|[N [n [G HA]]]]; [left; auto|].
  right. split; auto. exists n. auto.
Qed.

Lemma ext_weaken (A B : path -> node -> Prop) fs fs' :
  (forall p n, A p n -> B p n) -> ext A fs fs' -> ext B fs fs'.
Proof. intros H. apply ext_weaken_existing. auto. Qed.

Lemma ext_new (A : path -> node -> Prop) fs P n : get fs P = None -> A P n -> ext A fs ((P, n) :: fs).
Proof.
  intros HN HA p. pose proof (get_none_nonroot _ _ HN) as HP.
  rewrite get_cons by auto. destruct (path_eqb p P) eqn:E.
  - apply path_eqb_eq in E. subst p. right. split; auto. exists n. auto.
  - left. reflexivity.
Qed.

(* the reading used in the property statements *)
Lemma ext_changed (A : path -> node -> Prop) fs fs' p :
  ext A fs fs' -> get fs' p <> get fs p -> get fs p = None /\ exists n, get fs' p = Some n /\ A p n.
Proof. intros H Hc. destruct (H p) as [E|H']; [contradiction|auto]. Qed.

Lemma ext_preserves (A : path -> node -> Prop) fs fs' p x : ext A fs fs' -> get fs p = Some x -> get fs' p = Some x.
Proof. intros H Hx. destruct (H p) as [E|[N _]]; congruence. Qed.

Lemma lookup_path_inr cwd fs s P : lookup_path cwd fs s = inr P -> P = resolve cwd s.
Proof.
  unfold lookup_path. destruct (has_nul s); [discriminate|]. destruct s; [discriminate|].
  destruct (walk_parents fs [] (resolve cwd (b :: s))); [discriminate|]. intros H. inversion H. reflexivity.
Qed.

Lemma os_mkdir_ext cwd fs s fs' r :
  os_mkdir cwd fs s = (fs', r) -> ext (fun p n => p = resolve cwd s /\ n = Dir) fs fs'.
Proof.
  unfold os_mkdir. destruct (lookup_path cwd fs s) as [e|P] eqn:EL.
  - intros H. inversion H. apply ext_refl.
  - apply lookup_path_inr in EL. destruct (get fs P) eqn:EG; intros H; inversion H; subst.
    + apply ext_refl.
    + apply ext_new; auto.
Qed.

Definition excl (fl : oflags) : Prop := o_create fl = true /\ o_excl fl = true.

(* O_CREATE|O_EXCL: open succeeds only by creating a new, empty file *)
Lemma os_open_excl fl cwd fs s fs2 h :
  excl fl -> os_open fl cwd fs s = inr (fs2, h) ->
  h = resolve cwd s /\ get fs h = None /\ fs2 = (h, File []) :: fs.
Proof.
  intros [Hc He]. unfold os_open. destruct (lookup_path cwd fs s) as [e|P] eqn:EL; [discriminate|].
  apply lookup_path_inr in EL. rewrite Hc, He. simpl.
  destruct (get fs P) eqn:EG; [discriminate|]. intros H. inversion H. subst. auto.
Qed.

Lemma os_write_new fl fs h data :
  h <> [] -> os_write fl ((h, File []) :: fs) h data = (h, File data) :: (h, File []) :: fs.
Proof.
  intros Hh. unfold os_write. rewrite get_cons_same by auto.
  destruct (o_append fl); simpl; [reflexivity|].
  rewrite skipn_nil, app_nil_r. reflexivity.
Qed.

Lemma ext_create (A : path -> node -> Prop) fs h data :
  get fs h = None -> A h (File data) -> ext A fs ((h, File data) :: (h, File []) :: fs).
Proof.
  intros HN HA p. pose proof (get_none_nonroot _ _ HN) as HP.
  rewrite get_cons by auto. destruct (path_eqb p h) eqn:E.
  - apply path_eqb_eq in E. subst p. right. split; auto. exists (File data). auto.
  - left. rewrite get_cons by auto. rewrite E. reflexivity.
Qed.

(* MkdirAll only ever makes directories, at the paths denoted by the strings it recurses
   on; [Strs] is any set of strings closed under that recursion *)
Lemma mkdir_all_ext (Strs : bytes -> Prop) cwd :
  (forall s, Strs s -> nonempty (parent_str s) = true -> Strs (parent_str s)) ->
  forall fuel fs s fs' r, Strs s -> mkdir_all fuel cwd fs s = (fs', r) ->
  ext (fun p n => n = Dir /\ exists s', Strs s' /\ p = resolve cwd s') fs fs'.
Proof.
  intros Hcl. induction fuel as [|f IH]; intros fs s fs' r HS H; simpl in H.
  - injection H as <- _. apply ext_refl.
  - destruct (os_stat cwd fs s) as [e|[d|]]; try (injection H as <- _; apply ext_refl).
    destruct (if nonempty (parent_str s) then mkdir_all f cwd fs (parent_str s) else (fs, WOk))
      as [fs1 r1] eqn:EP.
    assert (H1 : ext (fun p n => n = Dir /\ exists s', Strs s' /\ p = resolve cwd s') fs fs1).
    { destruct (nonempty (parent_str s)) eqn:EN; [exact (IH _ _ _ _ (Hcl _ HS EN) EP)|].
      injection EP as <- _. apply ext_refl. }
    destruct r1; try (injection H as <- _; exact H1).
    destruct (os_mkdir cwd fs1 s) as [fs2 r2] eqn:EK.
    assert (H2 : ext (fun p n => n = Dir /\ exists s', Strs s' /\ p = resolve cwd s') fs fs2).
    { eapply ext_trans; [exact H1|]. eapply ext_weaken; [|exact (os_mkdir_ext _ _ _ _ _ EK)].
      intros p n [-> ->]. eauto. }
    destruct r2; [destruct (os_stat cwd fs2 s) as [?|[?|]]|]; injection H as <- _; exact H2.
Qed.

Lemma mkdir_all_abs cwd fuel fs Q fs' r :
  Forall real Q -> mkdir_all fuel cwd fs (render true Q) = (fs', r) ->
  ext (fun p n => n = Dir /\ within p Q) fs fs'.
Proof.
  intros HQ H.
  pose (Strs := fun s => exists Q', Forall real Q' /\ within Q' Q /\ s = render true Q').
  assert (Hcl : forall s, Strs s -> nonempty (parent_str s) = true -> Strs (parent_str s)).
  { intros s [Q' [HR [[q Eq] ->]]] HN.
    destruct (snoc_cases Q') as [->|[P [c EQ]]].
    - discriminate.
    - rewrite EQ in HR, HN |- *. apply Forall_app in HR. destruct HR as [HP Hc].
      pose proof (Forall_inv Hc) as Hc1.
      assert (EN : P ++ [c] <> []) by (destruct P; discriminate).
      rewrite (render_true _ EN) in HN |- *. rewrite parent_str_render_snoc in HN |- * by auto.
      exists P. split; auto. split.
      + exists ([c] ++ q). rewrite Eq, EQ, <- app_assoc. reflexivity.
      + destruct P; [discriminate|]. rewrite render_true by discriminate. reflexivity. }
  eapply ext_weaken; [|eapply (mkdir_all_ext Strs cwd Hcl); [|exact H]].
  - intros p n [-> [s' [[Q' [HR [HW ->]]] ->]]]. split; auto.
    rewrite resolve_render_true by auto. exact HW.
  - exists Q. split; auto. split; [apply within_refl|reflexivity].
Qed.

Lemma mkdir_all_any cwd fuel fs s fs' r :
  mkdir_all fuel cwd fs s = (fs', r) -> ext (fun _ _ => True) fs fs'.
Proof.
  intros H. eapply ext_weaken; [|eapply (mkdir_all_ext (fun _ => True) cwd); [auto|exact I|exact H]].
  auto.
Qed.

(* what the proofs need from the guard: it rejects absolute names, "..", and "../" prefixes *)
Definition guards (g : guard) : Prop :=
  g_abs g = true /\ In dotdot (g_exact g) /\ In dotdot_sep (g_prefix g).

Lemma existsb_In_eqb fp l : In fp l -> existsb (bytes_eqb fp) l = true.
Proof. intros H. apply existsb_exists. exists fp. split; auto. apply bytes_eqb_refl. Qed.

Lemma not_rejected g fp :
  guards g -> rejected g fp = false ->
  is_abs fp = false /\ fp <> dotdot /\ has_prefix dotdot_sep fp = false.
Proof.
  intros [Ha [He Hp]] H. unfold rejected in H. rewrite Ha in H.
  apply orb_false_iff in H. destruct H as [H H3]. apply orb_false_iff in H. destruct H as [H1 H2].
  simpl in H1. split; auto. split.
  - intros E. subst fp. rewrite existsb_In_eqb in H2 by auto. discriminate.
  - destruct (has_prefix dotdot_sep fp) eqn:E; auto.
    assert (existsb (fun p => has_prefix p fp) (g_prefix g) = true)
      by (apply existsb_exists; eauto). congruence.
Qed.

(* the objects one entry may add when [dir] denotes D: anything within D, and
   directories on the way from the root to D *)
Definition allowed (D : path) (p : path) (n : node) : Prop :=
  within D p \/ (n = Dir /\ within p D).

Lemma removelast_snoc {A} (l : list A) x : removelast (l ++ [x]) = l.
Proof. apply removelast_last. Qed.

(* What one entry may add, as far as a predicate A on new objects goes: MkdirAll of the entry's
   parent adds only objects satisfying A, and the entry's file, holding any prefix of its data,
   satisfies A. *)
Definition entry_adds (A : path -> node -> Prop) (g : guard) (cwd : path) (dir : bytes) (fs : fsys)
    (nd : bytes * bytes) : Prop :=
  rejected g (clean (from_slash (fst nd))) = false ->
  let fp := join dir (clean (from_slash (fst nd))) in
  (forall fsm rm, mkdir_all (S (length (dir_of fp))) cwd fs (dir_of fp) = (fsm, rm) -> ext A fs fsm) /\
  forall m, A (resolve cwd fp) (File (firstn m (snd nd))).

Lemma write_one_ext A g fl cwd fs dir nd fs' r :
  excl fl -> entry_adds A g cwd dir fs nd -> write_one g fl cwd fs dir nd = (fs', r) -> ext A fs fs'.
Proof.
  intros Hx HA H. unfold write_one in H.
  destruct (rejected g (clean (from_slash (fst nd)))) eqn:ER; [injection H as <- _; apply ext_refl|].
  destruct (HA ER) as [HM HF]. cbv zeta in *.
  destruct (mkdir_all _ cwd fs _) as [fs1 r1] eqn:EM. specialize (HM _ _ eq_refl).
  destruct r1; try (injection H as <- _; exact HM).
  destruct (os_open fl cwd fs1 _) as [e|[fs2 h]] eqn:EO; [injection H as <- _; exact HM|].
  destruct (os_open_excl _ _ _ _ _ _ Hx EO) as [-> [HN ->]].
  rewrite os_write_new in H by (eapply get_none_nonroot; eauto). injection H as <- _.
  eapply ext_trans; [exact HM|]. apply ext_create; [exact HN|].
  rewrite <- (firstn_all (snd nd)). apply HF.
Qed.

Lemma entry_adds_any g cwd dir fs nd : entry_adds (fun _ _ => True) g cwd dir fs nd.
Proof. intros _ fp. split; [intros fsm rm; apply mkdir_all_any|exact (fun _ => I)]. Qed.

Lemma entry_adds_allowed g cwd dir fs nd :
  guards g -> is_abs dir = true -> entry_adds (allowed (resolve cwd dir)) g cwd dir fs nd.
Proof.
  intros Hg Ha ER fp. subst fp.
  destruct (not_rejected _ _ Hg ER) as [N1 [N2 N3]].
  destruct (clean_passes_guard _ N1 N2 N3) as [R [HR ->]].
  rewrite (join_abs cwd) by auto.
  set (D := resolve cwd dir).
  assert (HDR : Forall real (D ++ R)) by (apply Forall_app; split; [apply resolve_abs_real|]; auto).
  rewrite resolve_render_true by auto. split; [|intros m; left; exists R; reflexivity].
  destruct (dir_of_render_true _ HDR) as [Q [HQ [[q' Eq'] ->]]]. intros fsm rm EM.
  eapply ext_weaken; [|exact (mkdir_all_abs _ _ _ _ _ _ HQ EM)]. intros p n [-> [q Eq]].
  destruct (within_app_cases p D R) as [Hc|Hc]; [|right; auto|left; auto].
  exists (q ++ q'). rewrite Eq', Eq, app_assoc. reflexivity.
Qed.

Lemma write_one_ok g fl cwd fs dir nd fs' :
  excl fl -> write_one g fl cwd fs dir nd = (fs', WOk) ->
  rejected g (clean (from_slash (fst nd))) = false /\
  get fs' (resolve cwd (join dir (clean (from_slash (fst nd))))) = Some (File (snd nd)) /\
  get fs (resolve cwd (join dir (clean (from_slash (fst nd))))) = None.
Proof.
  intros Hx H. unfold write_one in H.
  destruct (rejected g (clean (from_slash (fst nd)))); [discriminate|]. split; auto.
  match type of H with context [mkdir_all ?f cwd fs ?s] =>
    destruct (mkdir_all f cwd fs s) as [fs1 r1] eqn:EM end.
  pose proof (mkdir_all_any _ _ _ _ _ _ EM) as H1.
  destruct r1; try discriminate.
  match type of H with context [os_open fl cwd fs1 ?s] =>
    destruct (os_open fl cwd fs1 s) as [e|[fs2 h]] eqn:EO end; [discriminate|].
  destruct (os_open_excl _ _ _ _ _ _ Hx EO) as [Eh [HN E2]].
  subst fs2. pose proof (get_none_nonroot _ _ HN) as Hh.
  rewrite os_write_new in H by auto. inversion H; subst. split.
  - rewrite get_cons_same by auto. reflexivity.
  - destruct (get fs (resolve cwd (join dir (clean (from_slash (fst nd)))))) as [x|] eqn:EG; auto.
    rewrite (ext_preserves _ _ _ _ _ H1 EG) in HN. discriminate.
Qed.

(* the loop adds what its entries add; [I] is whatever must be known of the state at each entry *)
Theorem write_gen_ext A (I : fsys -> Prop) g fl cwd dir files :
  excl fl -> (forall fs fs', I fs -> ext A fs fs' -> I fs') ->
  (forall fs nd, I fs -> entry_adds A g cwd dir fs nd) ->
  forall fs fs' r, I fs -> write_gen g fl cwd fs dir files = (fs', r) -> ext A fs fs'.
Proof.
  intros Hx HI HA. induction files as [|nd rest IH]; intros fs fs' r Hi H; simpl in H.
  - injection H as <- _. apply ext_refl.
  - destruct (write_one g fl cwd fs dir nd) as [fs1 r1] eqn:E1.
    pose proof (write_one_ext A _ _ _ _ _ _ _ _ Hx (HA _ _ Hi) E1) as H1.
    destruct r1; try (injection H as <- _; exact H1).
    eapply ext_trans; [exact H1|]. eapply IH; [|exact H]. eauto.
Qed.

Theorem write_gen_contained g fl cwd fs dir files fs' r :
  guards g -> excl fl -> is_abs dir = true ->
  write_gen g fl cwd fs dir files = (fs', r) ->
  ext (allowed (resolve cwd dir)) fs fs'.
Proof.
  intros Hg Hx Ha. apply (write_gen_ext _ (fun _ => True)); auto.
  intros fs0 nd _. apply entry_adds_allowed; auto.
Qed.

Theorem write_gen_preserves g fl cwd fs dir files fs' r :
  excl fl -> write_gen g fl cwd fs dir files = (fs', r) -> ext (fun _ _ => True) fs fs'.
Proof.
  intros Hx. apply (write_gen_ext _ (fun _ => True)); auto. intros fs0 nd _. apply entry_adds_any.
Qed.

Theorem write_gen_ok g fl cwd fs dir files fs' :
  excl fl -> write_gen g fl cwd fs dir files = (fs', WOk) ->
  forall n d, In (n, d) files ->
    rejected g (clean (from_slash n)) = false /\
    get fs' (resolve cwd (join dir (clean (from_slash n)))) = Some (File d) /\
    get fs (resolve cwd (join dir (clean (from_slash n)))) = None.
Proof.
  intros Hx. revert fs. induction files as [|nd rest IH]; intros fs H n d HI; [contradiction|].
  simpl in H. destruct (write_one g fl cwd fs dir nd) as [fs1 r1] eqn:E1.
  destruct r1; try discriminate.
  destruct HI as [->|HI].
  - destruct (write_one_ok _ _ _ _ _ _ _ Hx E1) as [R [G N]]. repeat split; auto.
    exact (ext_preserves _ _ _ _ _ (write_gen_preserves _ _ _ _ _ _ _ _ Hx H) G).
  - destruct (IH _ H n d HI) as [R [G N]]. repeat split; auto.
    destruct (get fs (resolve cwd (join dir (clean (from_slash n))))) as [x|] eqn:EG; auto.
    rewrite (ext_preserves _ _ _ _ _ (write_one_ext _ _ _ _ _ _ _ _ _ Hx (entry_adds_any _ _ _ _ _) E1) EG) in N.
    discriminate.
Qed.

(* These two lemmas are where the regenerated constants enter: they hold by computation
   exactly as long as the guard of Write tests isAbs, == ".." and the prefix "../", and
   the file is opened with O_CREATE|O_EXCL. *)
Lemma the_guard_guards : guards the_guard.
Proof. unfold guards, the_guard. simpl. repeat split; auto. Qed.

Lemma the_flags_excl : excl the_flags.
Proof. split; reflexivity. Qed.

(* and the guard rejects nothing else *)
Lemma the_guard_exact fp :
  rejected the_guard fp = is_abs fp || bytes_eqb fp dotdot || has_prefix dotdot_sep fp.
Proof. unfold rejected, the_guard. simpl. rewrite !orb_false_r. reflexivity. Qed.

(* [ext (allowed D)] as the property statements read it *)
Lemma allowed_changed D fs fs' :
  ext (allowed D) fs fs' ->
  forall p, get fs' p <> get fs p ->
    get fs p = None /\ (within D p \/ (get fs' p = Some Dir /\ within p D)).
Proof.
  intros HE p Hc. destruct (ext_changed _ _ _ _ HE Hc) as [HN [n [HG [HA|[-> HA]]]]]; auto.
Qed.

Theorem write_contained cwd fs dir a fs' r :
  is_abs dir = true -> write cwd fs dir a = (fs', r) ->
  forall p, get fs' p <> get fs p ->
    get fs p = None /\
    (within (resolve cwd dir) p \/ (get fs' p = Some Dir /\ within p (resolve cwd dir))).
Proof.
  intros Ha H. apply allowed_changed.
  exact (write_gen_contained _ _ _ _ _ _ _ _ the_guard_guards the_flags_excl Ha H).
Qed.

(* a directory and everything above it exist *)
Definition dir_exists (fs : fsys) (D : path) : Prop := forall p, within p D -> get fs p = Some Dir.

Lemma changed_beneath D fs fs' :
  dir_exists fs D ->
  (forall p, get fs' p <> get fs p ->
     get fs p = None /\ (within D p \/ (get fs' p = Some Dir /\ within p D))) ->
  forall p, get fs' p <> get fs p -> get fs p = None /\ beneath D p.
Proof.
  intros HD HC p Hc. destruct (HC p Hc) as [HN [[q Eq]|[_ HW]]].
  - split; auto. destruct q as [|c q].
    + rewrite app_nil_r in Eq. subst p. rewrite (HD _ (within_refl _)) in HN. discriminate.
    + exists c, q. exact Eq.
  - rewrite (HD _ HW) in HN. discriminate.
Qed.

Theorem write_contained_strict cwd fs dir a fs' r :
  is_abs dir = true -> dir_exists fs (resolve cwd dir) -> write cwd fs dir a = (fs', r) ->
  forall p, get fs' p <> get fs p -> get fs p = None /\ beneath (resolve cwd dir) p.
Proof. intros Ha HD H. exact (changed_beneath _ _ _ HD (write_contained _ _ _ _ _ _ Ha H)). Qed.

Theorem never_overwrites cwd fs dir a fs' r :
  write cwd fs dir a = (fs', r) -> forall p x, get fs p = Some x -> get fs' p = Some x.
Proof.
  intros H p x Hx. eapply ext_preserves; [|exact Hx].
  eapply write_gen_preserves; [apply the_flags_excl|exact H].
Qed.

Theorem write_rejects cwd fs dir a fs' :
  write cwd fs dir a = (fs', WOk) ->
  forall n d, In (n, d) (files a) ->
    is_abs n = false /\ clean n <> dotdot /\ has_prefix dotdot_sep (clean n) = false.
Proof.
  intros H n d HI. destruct (write_gen_ok _ _ _ _ _ _ _ the_flags_excl H n d HI) as [HF _].
  destruct (not_rejected _ _ the_guard_guards HF) as [H1 H2].
  rewrite clean_is_abs in H1. auto.
Qed.

Theorem write_contents cwd fs dir a fs' :
  write cwd fs dir a = (fs', WOk) ->
  forall n d, In (n, d) (files a) -> get fs' (resolve cwd (join dir (clean n))) = Some (File d).
Proof. intros H n d HI. apply (write_gen_ok _ _ _ _ _ _ _ the_flags_excl H n d HI). Qed.

(* an entry whose file exists before the call (as a file or as a directory) makes Write
   return an error: on success nothing was at any entry's path *)
Theorem write_existing_is_error cwd fs dir a fs' :
  write cwd fs dir a = (fs', WOk) ->
  forall n d, In (n, d) (files a) -> get fs (resolve cwd (join dir (clean n))) = None.
Proof. intros H n d HI. apply (write_gen_ok _ _ _ _ _ _ _ the_flags_excl H n d HI). Qed.

(* permission bits (regenerated constants write_dir_perm / write_file_perm): with the
   umask 022 the harness runs under, a created directory can be searched and written by
   its owner (so the files of later entries can be created in it) and a created file can
   be read and written by its owner *)
Lemma created_dir_usable : N.land (created_mode 18 Dir) 448 = 448%N.
Proof. reflexivity. Qed.

Lemma created_file_usable d : N.land (created_mode 18 (File d)) 384 = 384%N.
Proof. reflexivity. Qed.

Lemma created_modes_usable :
  N.land (created_mode 18 Dir) 448 = 448%N /\ forall d, N.land (created_mode 18 (File d)) 384 = 384%N.
Proof. exact (conj created_dir_usable created_file_usable). Qed.
