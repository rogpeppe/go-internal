(* Facts about the command-line layer (Cli.v): the spellings of the flags, and the round
   trip txtar-c | txtar-x through either input route, for trees of any size. *)
From Coq Require Import List Bool Arith Lia NArith.
From Coq.Strings Require Import Byte.
From GI Require Import Lib.Bytes Gen.TxtarWriteConsts Txtar.Txtar
  TxtarWrite.Path TxtarWrite.TxtarWrite TxtarWrite.PathFacts TxtarWrite.WriteFacts
  TxtarWrite.NulFacts TxtarWrite.RelFacts TxtarWrite.GoodWrite TxtarWrite.SavedirFacts TxtarWrite.Cli.
Import ListNotations.

(* an argument the flag package takes for a flag: at least two bytes, the first a dash *)
Definition flaglike (s : bytes) : bool :=
  match s with b0 :: _ :: _ => beq b0 DASH | _ => false end.

Lemma parse_flags_positional fset s rest vals :
  flaglike s = false -> parse_flags fset (s :: rest) vals = POk vals (s :: rest).
Proof.
  intros H. destruct s as [|b0 [|b1 more]]; try reflexivity.
  simpl in H. simpl. rewrite H. reflexivity.
Qed.

(* flags, then one file argument *)
Lemma x_cmdline_flags_file args vals f :
  flaglike f = false -> parse_flags x_flagset (args ++ [f]) [] = parse_flags x_flagset [f] vals ->
  x_cmdline (args ++ [f]) =
  XRun (match flag_lookup extract_dir_flag vals with Some d => d | None => extract_dir_default end) (XFile f).
Proof. intros Hf E. unfold x_cmdline. now rewrite E, parse_flags_positional. Qed.

Lemma x_cmdline_two_files f1 f2 :
  flaglike f1 = false -> x_cmdline [f1; f2] = XUsage.
Proof. intros H. unfold x_cmdline. rewrite parse_flags_positional by auto. reflexivity. Qed.

Lemma x_cmdline_forms d f :
  flaglike f = false ->
  x_cmdline [] = XRun extract_dir_default XStdin /\
  x_cmdline [DASH :: extract_dir_flag; d] = XRun d XStdin /\
  x_cmdline [DASH :: extract_dir_flag; d; f] = XRun d (XFile f) /\
  x_cmdline [DASH :: DASH :: extract_dir_flag; d; f] = XRun d (XFile f) /\
  x_cmdline [DASH :: extract_dir_flag ++ EQS :: d; f] = XRun d (XFile f) /\
  x_cmdline [f] = XRun extract_dir_default (XFile f).
Proof.
  intros Hf. split; [reflexivity|]. split; [reflexivity|].
  split; [now apply (x_cmdline_flags_file [_; _] [(extract_dir_flag, d)])|].
  split; [now apply (x_cmdline_flags_file [_; _] [(extract_dir_flag, d)])|].
  split; [now apply (x_cmdline_flags_file [_] [(extract_dir_flag, d)])|now apply (x_cmdline_flags_file [] [])].
Qed.

(* all of standard input is read *)
Lemma read_stdin_all stdin : read_stdin extract_stdin_limit stdin = stdin.
Proof. reflexivity. Qed.

Definition TRUE_ : bytes := [x74; x72; x75; x65].
Definition FALSE_ : bytes := [x66; x61; x6c; x73; x65].

Lemma c_cmdline_plain d :
  flaglike d = false -> c_cmdline [d] = CRun {| f_quote := false; f_all := false |} d.
Proof. intros H. unfold c_cmdline. rewrite parse_flags_positional by auto. reflexivity. Qed.

(* any mix of the two flags, each spelled -x, --x, -x=true or -x=false, before the
   directory: the last setting of each flag counts *)
Inductive cflag := CQ (v : bool) (spelling : nat) | CA (v : bool) (spelling : nat).

Definition spell (name : bytes) (v : bool) (sp : nat) : bytes :=
  match sp with
  | 0 => if v then DASH :: name else DASH :: name ++ EQS :: FALSE_
  | 1 => if v then DASH :: DASH :: name else DASH :: DASH :: name ++ EQS :: FALSE_
  | _ => DASH :: name ++ EQS :: (if v then TRUE_ else FALSE_)
  end.

Definition cflag_arg (c : cflag) : bytes :=
  match c with
  | CQ v sp => spell savedir_quote_flag v sp
  | CA v sp => spell savedir_all_flag v sp
  end.

Fixpoint cflags_apply (cs : list cflag) (fl : sflags) : sflags :=
  match cs with
  | [] => fl
  | CQ v _ :: r => cflags_apply r {| f_quote := v; f_all := f_all fl |}
  | CA v _ :: r => cflags_apply r {| f_quote := f_quote fl; f_all := v |}
  end.

Definition vals_flags (vals : list (bytes * bytes)) : sflags :=
  {| f_quote := flag_true savedir_quote_flag vals; f_all := flag_true savedir_all_flag vals |}.

Definition cflag_val (c : cflag) : bytes * bytes :=
  match c with
  | CQ v _ => (savedir_quote_flag, if v then TRUE_ else FALSE_)
  | CA v _ => (savedir_all_flag, if v then TRUE_ else FALSE_)
  end.

Lemma parse_flags_cflag c r vals :
  parse_flags c_flagset (cflag_arg c :: r) vals = parse_flags c_flagset r (cflag_val c :: vals).
Proof. destruct c as [v sp|v sp]; destruct sp as [|[|sp]]; destruct v; reflexivity. Qed.

Lemma vals_flags_cflag c vals :
  vals_flags (cflag_val c :: vals) = cflags_apply [c] (vals_flags vals).
Proof. destruct c as [v sp|v sp]; destruct v; reflexivity. Qed.

Lemma parse_flags_cflags cs : forall d vals,
  flaglike d = false ->
  exists vals', parse_flags c_flagset (map cflag_arg cs ++ [d]) vals = POk vals' [d] /\
                vals_flags vals' = cflags_apply cs (vals_flags vals).
Proof.
  induction cs as [|c cs IH]; intros d vals Hd.
  - exists vals. split; [apply parse_flags_positional; auto|reflexivity].
  - cbn [map app]. rewrite parse_flags_cflag.
    destruct (IH d (cflag_val c :: vals) Hd) as [vals' [H1 H2]].
    exists vals'. split; [exact H1|]. rewrite H2, vals_flags_cflag.
    destruct c; reflexivity.
Qed.

(* txtar-c [flags...] dir *)
Theorem c_cmdline_flags cs d :
  flaglike d = false ->
  c_cmdline (map cflag_arg cs ++ [d]) = CRun (cflags_apply cs {| f_quote := false; f_all := false |}) d.
Proof.
  intros Hd. unfold c_cmdline.
  destruct (parse_flags_cflags cs d [] Hd) as [vals' [H1 H2]]. rewrite H1.
  cbn [length N.of_nat]. change (N.eqb (N.pos (Pos.of_succ_nat 0)) savedir_nargs) with true. cbv iota.
  fold (vals_flags vals'). rewrite H2. reflexivity.
Qed.

(* Whatever the spelling of the flags, through either input route of txtar-x (the file
   named by the argument, holding what txtar-c printed; or standard input, however long),
   for every tree of files with txtar-representable names, of any size: the conclusion of
   savedir_extract. *)
Theorem cli_roundtrip fl t cwd fs dir cargs d0 xargs inp stdin :
  Forall real cwd -> Forall nul_free cwd -> has_nul dir = false -> tree_ok t ->
  dir_exists fs (resolve cwd dir) ->
  (forall q, beneath (resolve cwd dir) q -> get fs q = None) ->
  c_cmdline cargs = CRun fl d0 ->
  x_cmdline xargs = XRun dir inp ->
  (inp = XStdin /\ Some stdin = txtar_c_main cargs t) \/
  (exists f out, inp = XFile f /\ Some out = txtar_c_main cargs t /\ os_read_file cwd fs f = inr out) ->
  exists fs',
    txtar_x_main cwd fs xargs stdin = (fs', XR WOk) /\
    (forall p d cl n s, In (p, d) t -> savedir_entry fl (p, d) = Some (cl, (n, s)) ->
       get fs' (resolve cwd dir ++ p) = Some (File s) /\
       restored (comment (parse (txtar_c fl t))) n s = Some (fix_nl d)) /\
    (forall q x, beneath (resolve cwd dir) q -> get fs' q = Some x ->
       exists p d e, In (p, d) t /\ savedir_entry fl (p, d) = Some e /\
         ((q = resolve cwd dir ++ p /\ exists s, x = File s) \/
          (x = Dir /\ proper q (resolve cwd dir ++ p)))).
Proof.
  intros Hc Hn Hd Ht He Hb HC HX Hin.
  destruct (savedir_extract fl t cwd fs dir Hc Hn Hd Ht He Hb) as [fs' [H1 [H2 H3]]].
  exists fs'. split; [|split; assumption].
  unfold txtar_x_main. rewrite HX. unfold txtar_x_run, txtar_c_main in *. rewrite HC in Hin.
  destruct Hin as [[-> Hs]|[f [out [-> [Ho Hr]]]]].
  - inversion Hs; subst. rewrite read_stdin_all, H1. reflexivity.
  - inversion Ho; subst. rewrite Hr, H1. reflexivity.
Qed.
