(* Path facts needed when the directory given to Write is a relative string: resolving a
   cleaned string gives what resolving the string gives, Join(dir, name) denotes the
   directory's path extended by the name's elements, and what Dir / MkdirAll's parent
   strings of a cleaned relative path denote. *)
From Coq Require Import List Bool Arith Lia.
From Coq.Strings Require Import Byte.
From GI Require Import Lib.Bytes Lib.BytesFacts TxtarWrite.Path TxtarWrite.PathFacts.
Import ListNotations.

Lemma rooted_dd cs stk : snd (clean_run true cs (stk, 0)) = 0.
Proof.
  revert stk. induction cs as [|c cs IH]; intros stk; [reflexivity|].
  rewrite clean_run_cons. unfold clean_step.
  destruct (bytes_eqb c []); [apply IH|]. destruct (bytes_eqb c dot); [apply IH|].
  destruct (bytes_eqb c dotdot); [|apply IH].
  destruct (Nat.ltb 0 (length stk)); apply IH.
Qed.

Lemma run_true_state cs stk : clean_run true cs (stk, 0) = (fst (clean_run true cs (stk, 0)), 0).
Proof.
  pose proof (rooted_dd cs stk) as H. destruct (clean_run true cs (stk, 0)) as [o d].
  simpl in H. subst d. reflexivity.
Qed.

(* feed the elements a non-rooted run has written into the rooted machine *)
Definition feed (stk out : list bytes) : list bytes := fst (clean_run true (rev out) (stk, 0)).

Lemma feed_cons stk c out : feed stk (c :: out) = fst (clean_step true (feed stk out, 0) c).
Proof.
  unfold feed. simpl rev. rewrite clean_run_app. rewrite (run_true_state (rev out) stk).
  reflexivity.
Qed.

Lemma feed_step stk st c :
  cinv false st -> feed stk (fst (clean_step false st c)) = fst (clean_step true (feed stk (fst st), 0) c).
Proof.
  intros [R [E [HR _]]]. destruct st as [out dd]. simpl in E. subst out. cbn [fst].
  unfold clean_step at 1.
  destruct (bytes_eqb c []) eqn:E1.
  { apply bytes_eqb_eq in E1. subst c. rewrite clean_step_empty. reflexivity. }
  destruct (bytes_eqb c dot) eqn:E2.
  { apply bytes_eqb_eq in E2. subst c. rewrite clean_step_dot. reflexivity. }
  destruct (bytes_eqb c dotdot) eqn:E3.
  - apply bytes_eqb_eq in E3. subst c. rewrite app_length, repeat_length.
    destruct (Nat.ltb dd (length R + dd)) eqn:EL.
    + apply Nat.ltb_lt in EL. destruct R as [|x R]; [simpl in EL; lia|].
      inversion HR; subst. cbn [fst tl app].
      rewrite (feed_cons stk x). rewrite (clean_step_real true _ 0 x) by auto. cbn [fst].
      unfold clean_step. simpl. reflexivity.
    + cbn [fst]. apply feed_cons.
  - cbn [fst]. apply feed_cons.
Qed.

Lemma feed_run stk cs : forall st,
  cinv false st -> Forall sep_free cs ->
  feed stk (fst (clean_run false cs st)) = fst (clean_run true cs (feed stk (fst st), 0)).
Proof.
  induction cs as [|c cs IH]; intros st Hi Hs; [reflexivity|].
  inversion Hs; subst. rewrite !clean_run_cons. rewrite IH by (auto; apply cinv_step; auto).
  rewrite feed_step by auto.
  destruct (clean_step true (feed stk (fst st), 0) c) as [o d] eqn:E.
  assert (d = 0).
  { pose proof (rooted_dd [c] (feed stk (fst st))) as H.
    change (clean_run true [c] (feed stk (fst st), 0)) with (clean_step true (feed stk (fst st), 0) c) in H.
    rewrite E in H. exact H. }
  subst d. reflexivity.
Qed.

Lemma elem_sep_free c : elem c -> sep_free c.
Proof.
  intros [->|H]; [|apply H]. intros HI. simpl in HI. destruct HI as [H|[H|[]]]; discriminate.
Qed.

Lemma elem_nonempty c : elem c -> c <> [].
Proof. intros [->|H]; [discriminate|apply H]. Qed.

Lemma run_true_render_false P st :
  Forall elem P ->
  clean_run true (split_sep (render false P)) st = clean_run true P st.
Proof.
  intros H. destruct P as [|c P]; [destruct st; reflexivity|].
  change (render false (c :: P)) with (join_sep (c :: P)).
  rewrite split_sep_join_sep; [reflexivity|discriminate|].
  eapply Forall_impl; [|exact H]. apply elem_sep_free.
Qed.

(* Clean is idempotent enough: a cleaned string denotes what the string denotes *)
Lemma resolve_clean cwd q : resolve cwd (clean q) = resolve cwd q.
Proof.
  destruct q as [|b q]; [reflexivity|].
  unfold resolve at 1. rewrite clean_is_abs.
  unfold clean.
  pose proof (cinv_run (is_abs (b :: q)) (split_sep (b :: q)) ([], 0)
                (split_sep_sep_free_all _) (cinv_init _)) as [R [E [HR H0]]].
  destruct (is_abs (b :: q)) eqn:Ea.
  - (* rooted: the same run *)
    unfold resolve. rewrite Ea.
    destruct (clean_run true (split_sep (b :: q)) ([], 0)) as [out dd] eqn:ER. simpl in E, H0.
    rewrite (H0 eq_refl) in E. simpl in E. rewrite app_nil_r in E. subst out. cbn [fst].
    assert (HRr : Forall real (rev R)) by (apply Forall_rev; auto).
    pose proof (resolve_render_true [] (rev R) HRr) as HX. unfold resolve in HX.
    assert (Eabs : is_abs (render true (rev R)) = true) by reflexivity.
    rewrite Eabs in HX. exact HX.
  - (* not rooted: simulate *)
    unfold resolve. rewrite Ea.
    destruct (clean_run false (split_sep (b :: q)) ([], 0)) as [out dd] eqn:ER. simpl in E.
    cbn [fst].
    assert (HP : Forall elem (rev out)).
    { subst out. rewrite rev_app_distr, rev_repeat. apply elems_shape. apply Forall_rev. auto. }
    rewrite run_true_render_false by auto.
    pose proof (feed_run (rev cwd) (split_sep (b :: q)) ([], 0) (cinv_init _) (split_sep_sep_free_all _)) as HF.
    rewrite ER in HF. cbn [fst] in HF. unfold feed in HF at 1. rewrite HF.
    unfold feed. reflexivity.
Qed.

(* Join(dir, name) for ANY directory string and a name that passed the guard *)
Lemma resolve_join cwd dir R :
  Forall real R -> resolve cwd (join dir (render false R)) = resolve cwd dir ++ R.
Proof.
  intros HR. assert (HE := elems_shape 0 R HR).
  assert (Hne : render false R <> []) by (destruct R as [|c [|d R]]; simpl; try discriminate;
    [inversion HR; subst; apply H1|destruct c; discriminate]).
  unfold join. destruct dir as [|b dir].
  - assert (E0 : resolve cwd [] = cwd) by (unfold resolve; simpl; apply rev_involutive).
    rewrite E0.
    destruct (render false R) eqn:EF; [contradiction|]. rewrite <- EF. rewrite resolve_clean.
    unfold resolve. rewrite (proj1 (render_false_passes R HR)).
    rewrite run_true_render_false by auto.
    rewrite clean_run_reals by auto. cbn [fst]. rewrite rev_app_distr, !rev_involutive. reflexivity.
  - rewrite resolve_clean. unfold resolve.
    rewrite is_abs_app_nonempty by discriminate.
    rewrite split_sep_app, clean_run_app.
    rewrite (run_true_state (split_sep (b :: dir))).
    rewrite run_true_render_false by auto.
    rewrite clean_run_reals by auto. cbn [fst]. rewrite rev_app_distr, rev_involutive. reflexivity.
Qed.

(* the element lists Clean produces for a non-rooted path: ".." elements, then real ones *)
Definition rel_shape (W : list bytes) : Prop := exists k X, Forall real X /\ W = repeat dotdot k ++ X.

Lemma shape_elems W : rel_shape W -> Forall elem W.
Proof. intros [k [X [HX ->]]]. apply elems_shape. auto. Qed.

Lemma real_not_dotdot c : real c -> c <> dotdot.
Proof. intros H. apply H. Qed.

Lemma shape_snoc W c : rel_shape (W ++ [c]) ->
  (real c /\ rel_shape W) \/ (c = dotdot /\ exists k, W = repeat dotdot k).
Proof.
  intros [k [X [HX E]]]. destruct (snoc_cases X) as [->|[X' [x ->]]].
  - rewrite app_nil_r in E. destruct k as [|k]; [destruct W; discriminate|].
    simpl repeat in E. rewrite repeat_cons in E. apply app_inj_tail in E. destruct E as [-> ->].
    right. split; auto. exists k. reflexivity.
  - rewrite app_assoc in E. apply app_inj_tail in E. destruct E as [-> ->].
    apply Forall_app in HX. destruct HX as [HX' Hx]. left. split; [apply (Forall_inv Hx)|].
    exists k, X'. auto.
Qed.

Lemma shape_dotdots k : rel_shape (repeat dotdot k).
Proof. exists k, []. rewrite app_nil_r. auto. Qed.

Lemma shape_unsnoc W c : rel_shape (W ++ [c]) -> rel_shape W.
Proof. intros HS. destruct (shape_snoc _ _ HS) as [[_ H]|[_ [k ->]]]; [auto|apply shape_dotdots]. Qed.

Lemma join_sep_app W p : W <> [] -> p <> [] -> join_sep (W ++ p) = join_sep W ++ SEP :: join_sep p.
Proof.
  intros HW Hp. induction W as [|w W IH]; [contradiction|].
  destruct W as [|w' W].
  - simpl app. destruct p as [|c p]; [contradiction|]. reflexivity.
  - change (join_sep ((w :: w' :: W) ++ p)) with (w ++ SEP :: join_sep ((w' :: W) ++ p)).
    rewrite IH by discriminate.
    change (join_sep (w :: w' :: W)) with (w ++ SEP :: join_sep (w' :: W)).
    rewrite <- app_assoc. reflexivity.
Qed.

Lemma join_sep_snoc W c : W <> [] -> join_sep (W ++ [c]) = join_sep W ++ SEP :: c.
Proof. intros H. now apply join_sep_app. Qed.

Lemma run_false_dotdots j : forall i,
  clean_run false (repeat dotdot j) (repeat dotdot i, i) = (repeat dotdot (j + i), j + i).
Proof.
  induction j as [|j IH]; intros i; [reflexivity|].
  simpl repeat. rewrite clean_run_cons.
  assert (E : clean_step false (repeat dotdot i, i) dotdot = (repeat dotdot (S i), S i)).
  { unfold clean_step. simpl bytes_eqb. rewrite repeat_length, Nat.ltb_irrefl. reflexivity. }
  rewrite E, IH. replace (j + S i) with (S j + i) by lia. reflexivity.
Qed.

Lemma is_abs_join_sep W : W <> [] -> Forall elem W -> is_abs (join_sep W) = false.
Proof.
  intros HN H. destruct W as [|c W]; [contradiction|].
  apply (is_abs_render_false (c :: W)). exact H.
Qed.

Lemma join_sep_nonempty W : W <> [] -> Forall elem W -> join_sep W <> [].
Proof.
  intros HN H. destruct W as [|c W]; [contradiction|]. inversion H; subst.
  pose proof (elem_nonempty _ H2). destruct W; simpl; [auto|]. destruct c; [contradiction|discriminate].
Qed.

Lemma render_false_nonempty W : Forall elem W -> render false W <> [].
Proof.
  intros H. destruct W as [|c W]; [discriminate|]. apply (join_sep_nonempty (c :: W)); [discriminate|auto].
Qed.

Lemma clean_rel_slash W : W <> [] -> rel_shape W -> clean (join_sep W ++ [SEP]) = render false W.
Proof.
  intros HN HS. pose proof (shape_elems _ HS) as HE. destruct HS as [k [X [HX EW]]].
  rewrite clean_snoc_sep, is_abs_app_nonempty, is_abs_join_sep by (auto; apply join_sep_nonempty; auto).
  assert (HSf : Forall sep_free W) by (eapply Forall_impl; [|exact HE]; apply elem_sep_free).
  rewrite split_sep_join_sep by auto. rewrite EW at 1. rewrite clean_run_app.
  pose proof (run_false_dotdots k 0) as E1. simpl repeat in E1. rewrite E1. rewrite Nat.add_0_r.
  rewrite clean_run_reals by auto. simpl split_sep. rewrite clean_run_cons, clean_step_empty.
  cbn [clean_run fold_left fst]. rewrite rev_app_distr, rev_involutive, rev_repeat. rewrite <- EW.
  reflexivity.
Qed.

Lemma drop_while_all l : sep_free l -> drop_while (fun b => negb (is_sep b)) l = [].
Proof.
  induction l as [|x l IH]; intros H; [reflexivity|]. apply sep_free_cons in H. destruct H as [H1 H2].
  simpl. rewrite H1. simpl. auto.
Qed.

Lemma dir_of_rel W c : rel_shape (W ++ [c]) -> dir_of (render false (W ++ [c])) = render false W.
Proof.
  intros HS. pose proof (shape_elems _ HS) as HE. apply Forall_app in HE. destruct HE as [HEW HEc].
  pose proof (Forall_inv HEc) as Hc.
  assert (HSW := shape_unsnoc _ _ HS).
  assert (ER : render false (W ++ [c]) = join_sep (W ++ [c])) by (destruct W; reflexivity).
  rewrite ER. destruct W as [|w W].
  - unfold dir_of. cbn [app join_sep]. now rewrite drop_while_all by (apply sep_free_rev, elem_sep_free; auto).
  - rewrite join_sep_snoc, dir_of_snoc by (try discriminate; now apply elem_sep_free).
    apply clean_rel_slash; [discriminate|exact HSW].
Qed.

Lemma dir_of_dot : dir_of dot = dot.
Proof. reflexivity. Qed.

Lemma parent_str_rel W c : elem c -> parent_str (join_sep (W ++ [c])) = join_sep W.
Proof.
  intros Hc. pose proof (elem_sep_free _ Hc) as Hs. destruct W as [|w W].
  - apply sep_free_rev in Hs. unfold parent_str. cbn [app join_sep].
    destruct (rev c) as [|b t]; [reflexivity|]. cbn [drop_while].
    rewrite (proj1 (proj1 (sep_free_cons b t) Hs)). now rewrite drop_while_all.
  - rewrite join_sep_snoc by discriminate. apply parent_str_snoc; [now apply elem_nonempty|exact Hs].
Qed.

Lemma parent_str_dot : parent_str dot = [].
Proof. reflexivity. Qed.

Lemma resolve_rel_snoc_real cwd W c :
  Forall elem W -> real c ->
  resolve cwd (render false (W ++ [c])) = resolve cwd (render false W) ++ [c].
Proof.
  intros HW Hc.
  assert (HWc : Forall elem (W ++ [c])) by (apply Forall_app; split; auto; constructor; [right; auto|constructor]).
  unfold resolve.
  rewrite (is_abs_render_false (W ++ [c])) by exact HWc.
  rewrite (is_abs_render_false W) by exact HW.
  rewrite !run_true_render_false by auto.
  rewrite clean_run_app. rewrite (run_true_state W (rev cwd)).
  rewrite clean_run_cons, clean_step_real by auto. cbn [clean_run fold_left fst].
  reflexivity.
Qed.

Lemma run_true_dotdots k stk : clean_run true (repeat dotdot k) (stk, 0) = (skipn k stk, 0).
Proof.
  revert stk. induction k as [|k IH]; intros stk; [reflexivity|].
  simpl repeat. rewrite clean_run_cons.
  destruct stk as [|x stk].
  - change (clean_step true ([], 0) dotdot) with (@nil bytes, 0). rewrite IH.
    rewrite !skipn_nil. reflexivity.
  - change (clean_step true (x :: stk, 0) dotdot) with (stk, 0). apply IH.
Qed.

Lemma resolve_dotdots_within cwd k : within (resolve cwd (render false (repeat dotdot k))) cwd.
Proof.
  unfold resolve. rewrite (is_abs_render_false (repeat dotdot k))
    by (apply Forall_forall; intros x Hx; apply repeat_spec in Hx; left; auto).
  rewrite run_true_render_false by (apply shape_elems, shape_dotdots).
  rewrite run_true_dotdots. cbn [fst].
  exists (rev (firstn k (rev cwd))).
  rewrite <- rev_app_distr, firstn_skipn, rev_involutive. reflexivity.
Qed.

Lemma within_snoc_l p c Z : within (p ++ [c]) Z -> within p Z.
Proof. exact (within_trans p (p ++ [c]) Z (ex_intro _ [c] eq_refl)). Qed.

(* going from a cleaned relative path to its Dir / parent string keeps "is a prefix of the
   current directory or of Z" *)
Lemma good_down cwd Z W c :
  rel_shape (W ++ [c]) ->
  (within (resolve cwd (render false (W ++ [c]))) cwd \/ within (resolve cwd (render false (W ++ [c]))) Z) ->
  (within (resolve cwd (render false W)) cwd \/ within (resolve cwd (render false W)) Z).
Proof.
  intros HS HG. destruct (shape_snoc _ _ HS) as [[Hc HW]|[-> [k ->]]].
  - rewrite resolve_rel_snoc_real in HG by (auto; apply shape_elems; auto).
    destruct HG as [H|H]; [left|right]; eapply within_snoc_l; eauto.
  - left. apply resolve_dotdots_within.
Qed.
