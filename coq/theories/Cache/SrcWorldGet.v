(* Cache.get, Get, GetFile, GetBytes as translated in world mode (Gen/CacheWorldSrc.v) equal
   SrcWorld.run_prog of the model's get_prog, get_file_prog, get_bytes_prog, for every world and
   every behaviour of the operations that keeps the contract of os.File.Read (read_contract)
   and reports fresh modification times (always_fresh); the iteration bound fuel >= 21 covers
   the two padding loops.  The proofs unfold the translated function and rewrite its checked
   expressions in evaluation order; they mention no generated variable names. *)
From Coq Require Import List Bool Arith ZArith Lia ZifyBool.
From Coq.Strings Require Import Byte.
From GI Require Import Lib.Bytes Lib.GoSem Lib.GoSemSeg Lib.GoSemWorld Lib.GoSemWorldVal Lib.GoSemWorldValFacts.
From GI Require Import Gen.CacheConsts Cache.CacheEntry Cache.CacheEntryFacts Cache.Cache Cache.SrcLib Cache.SrcWorldLemmas
  Cache.SrcWorld Gen.CacheWorldSrc Cache.SrcWorldFacts.
From GI Require CacheTrim.CacheTrim TxtarWrite.Path.
Import ListNotations.
Local Open Scope Z_scope.

Section Get.
Variable OS : os_ops.
Variable H : bytes -> bytes.
Hypothesis Hread : read_contract OS.
Hypothesis Hfresh : always_fresh OS.

Notation dir_of c := (cw_Cache_dir c).

(* the Read calls of io.ReadFull are those of the model's read_full *)
Lemma read_full_run {A} dir p (k : bytes -> prog A) : forall fuel need acc off w h o,
  (need < fuel)%nat ->
  run_prog OS dir (read_full fuel p off need acc k) (w, h, o) =
  match read_full_ops OS fuel w h (Z.of_nat need) acc with
  | (w1, got, e) => run_prog OS dir (k got) (w1, h, o)
  end.
Proof.
  induction fuel as [|fuel IH]; intros need acc off w h o Hn; [lia|].
  cbn [read_full read_full_ops].
  destruct (Nat.eqb_spec need 0) as [->|Hne].
  - cbn [Z.of_nat Z.leb Z.compare]. reflexivity.
  - replace (Z.of_nat need <=? 0) with false by lia.
    cbn [run_prog do_op]. pose proof (Hread w h (Z.of_nat need) ltac:(lia)) as C.
    destruct (op_read OS w h (Z.of_nat need)) as [[w1 b] e]. destruct C as (Cl & Cn & Ce).
    destruct (werr_is_nil e) eqn:E; cbn [negb].
    + unfold len in *. destruct (Nat.eqb_spec (length b) 0) as [L0|L0].
      * replace (Z.of_nat (length b) =? 0) with true by lia. reflexivity.
      * replace (Z.of_nat (length b) =? 0) with false by lia.
        rewrite IH by lia. rewrite Nat2Z.inj_sub by lia.
        reflexivity.
    + destruct (Ce eq_refl) as [-> _]. now rewrite app_nil_r.
Qed.

Lemma read_full_ops_spec : forall fuel w f need acc, 0 <= need -> (Z.to_nat need < fuel)%nat ->
  match read_full_ops OS fuel w f need acc with
  | (w1, got, e) => exists d, got = acc ++ d /\ ((e = WNil /\ len d = need) \/ (e = werr_EOF /\ len d < need))
  end.
Proof.
  induction fuel as [|fuel IH]; intros w f need acc H0 Hn; [lia|].
  cbn [read_full_ops]. destruct (Z.leb_spec need 0) as [Hle|Hgt].
  - exists []. rewrite app_nil_r. split; [reflexivity|]. left. split; [reflexivity|]. unfold len. cbn [length]. lia.
  - pose proof (Hread w f need Hgt) as C. destruct (op_read OS w f need) as [[w1 b] e]. destruct C as (Cl & Cn & Ce).
    destruct (werr_is_nil e) eqn:E; cbn [negb].
    + assert (len b <> 0) by (unfold len; destruct b; [now specialize (Cn eq_refl)|cbn [length]; lia]).
      replace (len b =? 0) with false by lia.
      specialize (IH w1 f (need - len b) (acc ++ b) ltac:(lia) ltac:(unfold len in *; lia)).
      destruct (read_full_ops OS fuel w1 f (need - len b) (acc ++ b)) as [[w2 got] e2].
      destruct IH as (d & -> & Hd). exists (b ++ d). rewrite app_assoc. split; [reflexivity|].
      unfold len in *. rewrite app_length. destruct Hd as [[-> Hd]|[-> Hd]]; [left|right]; (split; [reflexivity|lia]).
    + destruct (Ce eq_refl) as [-> ->]. exists []. split; [reflexivity|]. right. unfold len. cbn [length]. split; [reflexivity|lia].
Qed.

Definition zero_entry : cw_Entry := cw_mk_Entry (go_zero_array 32) 0 go_time_zero.

(* what a lookup hands back, against the model's result: a hit is the decoded entry with
   time.Unix(0, tm) and a nil error; a miss is the zero Entry and an entryNotFoundError *)
Definition get_rel (r : option (bytes * Z * Z)) (entry : cw_Entry) (err : werr) : Prop :=
  match r with
  | Some (out, size, tm) => entry = cw_mk_Entry out size (go_time_Unix 0 tm) /\ err = WNil
  | None => entry = zero_entry /\ is_not_found err = true
  end.

Lemma byte_Z_eqb_c b c z : z = byte_Z c -> (byte_Z b =? z) = beq b c.
Proof. intros ->. apply byte_Z_eqb. Qed.

Lemma parse_entry_len e id : length e <> 175%nat -> parse_entry e id = None.
Proof.
  intros E. unfold parse_entry. change entry_size_n with 175%nat.
  destruct (Nat.eqb_spec (length e) 175); [contradiction|reflexivity].
Qed.

Lemma space_test c : (byte_Z c =? 32) = beq c SP.
Proof. apply (byte_Z_eqb_c c x20). reflexivity. Qed.

Lemma hex_w_ok dst src d : hex_decode src = Some d -> length dst = length d ->
  go_hex_Decode_w dst 0 (len dst) src = Ok (d, len d, WNil).
Proof.
  intros Hd Hl. unfold go_hex_Decode_w. rewrite go_slice_all, (go_hex_Decode_ok _ _ _ Hd Hl).
  unfold len. rewrite splice_all by lia. reflexivity.
Qed.

Lemma hex_w_err dst src : hex_decode src = None -> (length src <= 2 * length dst)%nat ->
  exists dst' k, go_hex_Decode_w dst 0 (len dst) src = Ok (dst', k, werr_hex).
Proof.
  intros Hd Hl. unfold go_hex_Decode_w. rewrite go_slice_all.
  destruct (go_hex_Decode_err dst src Hd Hl) as (d' & k & ->). eauto.
Qed.

(* a branch that reports a miss: the deferred Close, then the model's Ret None *)
Ltac miss f w2 :=
  cbn [GoSem.bind negb werr_is_nil werr_hex werr_parse_int]; cbn [run_prog do_op];
  destruct (op_close OS w2 f) as [?w ?e];
  eexists; eexists; (split; [reflexivity|split; [split; reflexivity|exact I]]).

Theorem cw_get_eq fuel w c id h o :
  length id = 32%nat -> (21 <= fuel)%nat ->
  match run_prog OS (dir_of c) (get_prog id) (w, h, o) with
  | (st, r) =>
      exists entry err,
        cw_Cache_get OS fuel w c id = Ok (st_world OS st, c, entry, err) /\ get_rel r entry err
        /\ match r with Some (out, _, _) => length out = 32%nat | None => True end
  end.
Proof.
  intros Hid Hf. assert (Hne : id <> []) by (destruct id; [discriminate|congruence]).
  unfold cw_Cache_get, get_prog.
  (* the type name in the entryNotFoundError of every miss: a long literal the term holds 15 times *)
  match goal with |- context [WMade ?l [] _] => set (not_found := l) end.
  rewrite (cw_fileName_idx c id Hne). cbn [GoSem.bind].
  cbn [run_prog do_op orb].
  destruct (op_open OS w (file_name (dir_of c) (IdxP id))) as [[w1 f] e1]. unfold res_of_err.
  destruct (werr_is_nil e1) eqn:E1; cbn [negb].
  2:{ cbn [run_prog]. eexists; eexists. split; [reflexivity|split; [split; reflexivity|exact I]]. }
  change (S (S entry_size_n)) with 177%nat. change (S entry_size_n) with 176%nat.
  rewrite read_full_run by lia.
  change (go_make_bytes 176) with (Ok (repeat x00 176) : GoSem.res bytes). cbn [GoSem.bind].
  set (x := repeat x00 176). assert (Lx : len x = 176) by reflexivity.
  unfold io_read_full. rewrite Lx. change (176 - 0) with 176. change (S (Z.to_nat 176)) with 177%nat.
  change (Z.of_nat 176) with 176.
  pose proof (read_full_ops_spec 177 w1 f 176 [] ltac:(lia) ltac:(lia)) as Sp.
  destruct (read_full_ops OS 177 w1 f 176 []) as [[w2 got] e]. destruct Sp as (d & -> & Sp).
  cbn [app]. change (Z.to_nat 0) with O. cbn [firstn app].
  destruct Sp as [[-> Ld]|[-> Ld]].
  - (* the buffer is full: too long *)
    rewrite Ld. cbn [Z.geb Z.gtb Z.compare Pos.compare Pos.compare_cont].
    rewrite (parse_entry_len d id) by (unfold len in Ld; lia).
    miss f w2.
  - replace (len d >=? 176) with false by lia.
    change (werr_eqb werr_EOF werr_EOF) with true. rewrite andb_true_r.
    destruct (Z.gtb_spec (len d) 0) as [Hpos|Hzero].
    2:{ (* nothing was read: file is empty *)
      change (negb (werr_eqb werr_EOF werr_ErrUnexpectedEOF)) with true.
      change (werr_eqb werr_EOF werr_EOF) with true.
      replace (len d >? 175) with false by lia.
      rewrite (parse_entry_len d id) by (unfold len in *; lia).
      miss f w2. }
    change (negb (werr_eqb werr_ErrUnexpectedEOF werr_ErrUnexpectedEOF)) with false.
    replace (len d >? 175) with false by lia.
    destruct (Z.ltb_spec (len d) 175) as [Hlt|Hge].
    { rewrite (parse_entry_len d id) by (unfold len in *; lia). miss f w2. }
    assert (Ld' : len d = 175) by lia. assert (He : length d = 175%nat) by (unfold len in Ld'; lia).
    rewrite Ld'. change (Z.to_nat (0 + 175)) with 175%nat. change (skipn 175 x) with [x00].
    rewrite (parse_entry_num d id He).
    destruct (entry_cuts d He) as (Hl1 & Hl2 & Hl3 & L1 & L2).
    rewrite (header_checks d [x00] _ _ _ _ _ _ _ _ x76 x31 x20 x20 x20 x20 x0a)
      by ((intros b; apply byte_Z_eqb_c; reflexivity) || lia).
    norm_nat. change SP with x20; change NL with x0a.
    match goal with |- context [if negb ?hd then None else _] => destruct hd end; cbn [negb]; [|miss f w2].
    do 4 (rewrite slice_cut by lia; cbv beta iota; norm_nat). cbn [Nat.sub].
    assert (Lz : length (go_zero_array 32) = 32%nat) by reflexivity.
    destruct (hex_decode (firstn 64 (skipn 3 d))) as [buf|] eqn:D1.
    2:{ destruct (hex_w_err (go_zero_array 32) _ D1) as (d' & k & ->); [rewrite L1, Lz; lia|]. miss f w2. }
    pose proof (hex_decode_length _ _ D1) as Lb. rewrite L1 in Lb.
    rewrite (hex_w_ok _ _ _ D1) by (rewrite Lz; lia). cbn [GoSem.bind werr_is_nil negb].
    destruct (bytes_eqb buf id); cbn [negb]; [|miss f w2].
    destruct (hex_decode (firstn 64 (skipn 1 (skipn 67 d)))) as [out|] eqn:D2.
    2:{ destruct (hex_w_err buf _ D2) as (d' & k & ->); [rewrite L2; lia|]. miss f w2. }
    pose proof (hex_decode_length _ _ D2) as Lo. rewrite L2 in Lo.
    rewrite (hex_w_ok _ _ _ D2) by lia. cbn [GoSem.bind werr_is_nil negb].
    pose proof (lead_firstn 20 (skipn 1 (skipn 65 (skipn 67 d)))) as LS1.
    pose proof (lead_firstn 20 (skipn 1 (skipn 21 (skipn 65 (skipn 67 d))))) as LS2.
    set (S1 := firstn 20 (skipn 1 (skipn 65 (skipn 67 d)))) in *.
    set (S2 := firstn 20 (skipn 1 (skipn 21 (skipn 65 (skipn 67 d))))) in *.
    rewrite (skip_loop_eq (cw_Cache_get_loop1 OS fuel) _ space_test) by (reflexivity || lia). cbn [bindT].
    rewrite go_slice_lead. cbn [GoSem.bind].
    unfold go_strconv_ParseInt_w, go_strconv_ParseInt. cbn [Z.eqb Pos.eqb andb].
    destruct (parse_int (skip_spaces S1)) as [size|]; cbn [GoSem.bind werr_is_nil negb]; [|miss f w2].
    destruct (size <? 0); [miss f w2|].
    rewrite (skip_loop_eq (cw_Cache_get_loop2 OS fuel) _ space_test) by (reflexivity || lia). cbn [bindT].
    rewrite go_slice_lead. cbn [GoSem.bind].
    destruct (parse_int (skip_spaces S2)) as [tm|]; cbn [GoSem.bind werr_is_nil negb]; [|miss f w2].
    destruct (tm <? 0); [miss f w2|].
    (* a hit: the refresh of the entry file, the deferred Close *)
    rewrite (cw_fileName_idx c id Hne). cbn [GoSem.bind]. rewrite (cw_used_eq OS Hfresh). cbn [GoSem.bind].
    rewrite run_used. cbn [run_prog do_op]. destruct (op_close OS _ f) as [w3 e3].
    eexists; eexists. split; [reflexivity|split; [split; reflexivity|lia]].
Qed.

Theorem cw_Get_eq fuel w c id h o :
  length id = 32%nat -> (21 <= fuel)%nat ->
  match run_prog OS (dir_of c) (get_prog id) (w, h, o) with
  | (st, r) =>
      exists entry err,
        cw_Cache_Get OS false fuel w c id = Ok (st_world OS st, c, entry, err) /\ get_rel r entry err
        /\ match r with Some (out, _, _) => length out = 32%nat | None => True end
  end.
Proof.
  intros Hid Hf. pose proof (cw_get_eq fuel w c id h o Hid Hf) as G. unfold cw_Cache_Get.
  destruct (run_prog OS (dir_of c) (get_prog id) (w, h, o)) as [st r].
  destruct G as (entry & err & -> & R). cbn [GoSem.bind]. eauto.
Qed.

(* FileInfo.Size() of a file is not negative (the model's RSize carries a nat) *)
Definition size_nonneg : Prop := forall fi, 0 <= fi_size OS fi.

Definition get_file_rel dir (r : lookup path) (file : bytes) (entry : cw_Entry) (err : werr) : Prop :=
  match r with
  | Found p out size tm =>
      file = file_name dir p /\ entry = cw_mk_Entry out size (go_time_Unix 0 tm) /\ err = WNil
  | NotFound => file = [] /\ entry = zero_entry /\ is_not_found err = true
  end.

Theorem cw_GetFile_eq fuel w c id h o :
  size_nonneg -> length id = 32%nat -> (21 <= fuel)%nat ->
  match run_prog OS (dir_of c) (get_file_prog id) (w, h, o) with
  | (st, r) =>
      exists file entry err,
        cw_Cache_GetFile OS false fuel w c id = Ok (st_world OS st, c, file, entry, err)
        /\ get_file_rel (dir_of c) r file entry err
  end.
Proof.
  intros Hsz Hid Hf. pose proof (cw_Get_eq fuel w c id h o Hid Hf) as G.
  unfold cw_Cache_GetFile, get_file_prog. rewrite run_prog_bind.
  destruct (run_prog OS (dir_of c) (get_prog id) (w, h, o)) as [[[w1 h1] o1] r].
  destruct G as (entry & err & -> & R & L). cbn [GoSem.bind st_world fst].
  destruct r as [[[out size] tm]|]; cbn [get_rel] in R.
  2:{ destruct R as [-> R]. destruct err; [discriminate R| |]; cbn [werr_is_nil negb run_prog];
      eexists; eexists; eexists; (split; [reflexivity|repeat split; assumption]). }
  destruct R as [-> ->]. cbn [werr_is_nil negb cw_Entry_OutputID cw_Entry_Size].
  assert (Hne : out <> []) by (destruct out; [discriminate L|congruence]).
  rewrite (cw_OutputFile_eq OS Hfresh w1 c out h1 o1 Hne). rewrite run_prog_bind.
  destruct (run_prog OS (dir_of c) (output_file_prog out) (w1, h1, o1)) as [[[w2 h2] o2] p].
  cbn [GoSem.bind st_world fst run_prog do_op].
  destruct (op_stat OS w2 (file_name (dir_of c) p)) as [[w3 fi] e3].
  destruct (werr_is_nil e3) eqn:E3; cbn [negb run_prog].
  2:{ eexists; eexists; eexists. split; [reflexivity|repeat split]. }
  rewrite Z2Nat.id by apply Hsz.
  destruct (fi_size OS fi =? size); cbn [negb run_prog];
    eexists; eexists; eexists; (split; [reflexivity|repeat split]).
Qed.

Definition get_bytes_rel (r : lookup bytes) (data : bytes) (entry : cw_Entry) (err : werr) : Prop :=
  match r with
  | Found d out size tm => data = d /\ entry = cw_mk_Entry out size (go_time_Unix 0 tm) /\ err = WNil
  | NotFound => data = [] /\ is_not_found err = true
  end.

Theorem cw_GetBytes_eq fuel w c id h o :
  length id = 32%nat -> (21 <= fuel)%nat ->
  match run_prog OS (dir_of c) (get_bytes_prog H id) (w, h, o) with
  | (st, r) =>
      exists data entry err,
        cw_Cache_GetBytes OS H false fuel w c id = Ok (st_world OS st, c, data, entry, err)
        /\ get_bytes_rel r data entry err
  end.
Proof.
  intros Hid Hf. pose proof (cw_Get_eq fuel w c id h o Hid Hf) as G.
  unfold cw_Cache_GetBytes, get_bytes_prog. rewrite run_prog_bind.
  destruct (run_prog OS (dir_of c) (get_prog id) (w, h, o)) as [[[w1 h1] o1] r].
  destruct G as (entry & err & -> & R & L). cbn [GoSem.bind st_world fst].
  destruct r as [[[out size] tm]|]; cbn [get_rel] in R.
  2:{ destruct R as [-> R]. destruct err; [discriminate R| |]; cbn [werr_is_nil negb run_prog];
      eexists; eexists; eexists; (split; [reflexivity|repeat split; assumption]). }
  destruct R as [-> ->]. cbn [werr_is_nil negb cw_Entry_OutputID cw_Entry_Size].
  assert (Hne : out <> []) by (destruct out; [discriminate L|congruence]).
  rewrite (cw_OutputFile_eq OS Hfresh w1 c out h1 o1 Hne). rewrite run_prog_bind.
  destruct (run_prog OS (dir_of c) (output_file_prog out) (w1, h1, o1)) as [[[w2 h2] o2] p].
  cbn [GoSem.bind st_world fst run_prog do_op].
  destruct (op_read_file OS w2 (file_name (dir_of c) p)) as [[w3 data] e3].
  destruct (bytes_eqb (H data) out); cbn [negb run_prog];
    eexists; eexists; eexists; (split; [reflexivity|repeat split]).
Qed.

(* C05 on the translated GetBytes, for EVERY behaviour of the operating system (within the two
   contracts): bytes handed back with a nil error hash to the output id of the entry handed back
   with them -- the cache never returns other bytes than those whose hash the index entry names *)
Theorem cw_GetBytes_sound fuel w c id w' c' data entry err :
  length id = 32%nat -> (21 <= fuel)%nat ->
  cw_Cache_GetBytes OS H false fuel w c id = Ok (w', c', data, entry, err) ->
  werr_is_nil err = true -> H data = cw_Entry_OutputID entry.
Proof.
  intros Hid Hf. pose proof (cw_Get_eq fuel w c id (nil_handle OS) false Hid Hf) as G.
  unfold cw_Cache_GetBytes.
  destruct (run_prog OS (dir_of c) (get_prog id) (w, nil_handle OS, false)) as [[[w1 h1] o1] r].
  destruct G as (entry0 & err0 & -> & R & L). cbn [GoSem.bind st_world fst].
  destruct r as [[[out size] tm]|]; cbn [get_rel] in R.
  2:{ destruct R as [-> R]. destruct err0; [discriminate R| |]; cbn [werr_is_nil negb];
      intros [= <- <- <- <- <-]; discriminate. }
  destruct R as [-> ->]. cbn [werr_is_nil negb cw_Entry_OutputID cw_Entry_Size].
  assert (Hne : out <> []) by (destruct out; [discriminate L|congruence]).
  rewrite (cw_OutputFile_eq OS Hfresh w1 c out h1 o1 Hne).
  destruct (run_prog OS (dir_of c) (output_file_prog out) (w1, h1, o1)) as [[[w2 h2] o2] p].
  cbn [GoSem.bind st_world fst].
  destruct (op_read_file OS w2 (file_name (dir_of c) p)) as [[w3 d] e3].
  destruct (bytes_eqb (H d) out) eqn:E; cbn [negb].
  - intros [= <- <- <- <- <-] _. cbn [cw_Entry_OutputID]. now apply bytes_eqb_eq.
  - intros [= <- <- <- <- <-]. discriminate.
Qed.

End Get.

(* a value of the record satisfying the three premises: the empty disk (every lookup by name
   reports an error, a Read delivers nothing and io.EOF) *)
Definition werr_ENOENT : werr := WVal [x45; x4e; x4f; x45; x4e; x54].
Definition empty_disk : os_ops :=
  {| World := unit; Handle := unit; FileInfo := unit; nil_handle := tt; nil_fileinfo := tt;
     fi_size := fun _ => 0; fi_modtime := fun _ => go_time_zero;
     op_now := fun _ => go_time_zero; op_time_now := fun _ => go_time_zero;
     op_stat := fun w _ => (w, tt, werr_ENOENT);
     op_open := fun w _ => (w, tt, werr_ENOENT);
     op_open_file := fun w _ _ _ => (w, tt, werr_ENOENT);
     op_read_file := fun w _ => (w, [], werr_ENOENT);
     op_remove := fun w _ => (w, werr_ENOENT);
     op_chtimes := fun w _ _ _ => (w, werr_ENOENT);
     op_close := fun w _ => (w, WNil);
     op_read := fun w _ _ => (w, [], werr_EOF);
     op_write := fun w _ b => (w, len b, WNil);
     op_truncate := fun w _ _ => (w, WNil) |}.

Example ex_premises : read_contract empty_disk /\ always_fresh empty_disk /\ size_nonneg empty_disk.
Proof.
  split; [|split].
  - intros w f n Hn. cbn. repeat split; try discriminate. unfold len. cbn [length]. lia.
  - intros w name E. discriminate E.
  - intros fi. cbn. lia.
Qed.

(* the translated GetBytes runs: on the empty disk it is a miss after one failed Open *)
Example ex_get_bytes_miss :
  match cw_Cache_GetBytes empty_disk (fun d => d) false 21 tt (cw_mk_Cache [x2f; x63] (fun _ => go_time_zero)) (repeat xab 32) with
  | Ok (_, _, data, _, err) => data = [] /\ is_not_found err = true
  | _ => False
  end.
Proof. vm_compute. split; reflexivity. Qed.
