(* Facts about the interleaved semantics (C11): a rely/guarantee argument.
   J is an invariant of the shared state, G what a single step of any client may do to it;
   [valid P Q p] says that program p, started in a state satisfying the (interference-stable)
   assertion P, performs only G-steps, and returns values a with Q a holding. *)
From Coq Require Import List Bool Arith NArith ZArith Lia.
From Coq.Strings Require Import Byte.
From GI Require Import Lib.Bytes Gen.CacheConsts Cache.CacheEntry Cache.CacheEntryFacts Cache.Cache
  Cache.CacheSeqFacts Cache.CacheFault Cache.CacheFaultFacts Cache.CacheConc.
Import ListNotations.

Lemma nth_error_firstn_some : forall (l : bytes) n k b, nth_error (firstn n l) k = Some b -> nth_error l k = Some b.
Proof.
  intros l n k b Hn. assert (k < length (firstn n l))%nat as Lk by (apply nth_error_Some; congruence).
  rewrite firstn_length in Lk. rewrite nth_error_firstn_lt in Hn by lia. exact Hn.
Qed.

Section RG.
Variable J : sys -> Prop.
Variable G : sys -> sys -> Prop.
Hypothesis G_refl : forall s, G s s.
Hypothesis G_J : forall s s', J s -> G s s' -> J s'.

Definition stable (P : sys -> Prop) : Prop := forall s s', J s -> P s -> G s s' -> P s'.

Inductive valid {A} : (sys -> Prop) -> (A -> sys -> Prop) -> prog A -> Prop :=
| v_ret : forall (P : sys -> Prop) (Q : A -> sys -> Prop) a,
    stable P -> (forall s, J s -> P s -> Q a s) -> valid P Q (Ret a)
| v_op : forall (P : sys -> Prop) (Q : A -> sys -> Prop) o k (R : res -> sys -> Prop),
    stable P ->
    (forall s torn, J s -> P s -> G s (fst (cstep o torn s)) /\ R (snd (cstep o torn s)) (fst (cstep o torn s))) ->
    (forall r, valid (R r) Q (k r)) ->
    valid P Q (Op o k).

Lemma valid_weaken : forall A (P P' : sys -> Prop) (Q : A -> sys -> Prop) p,
  valid P Q p -> stable P' -> (forall s, J s -> P' s -> P s) -> valid P' Q p.
Proof.
  intros A P P' Q p Hv Hst Himp. destruct Hv as [P Q a Hs Hq|P Q o k R Hs Hstep Hk].
  - apply v_ret; [exact Hst|]. intros s Js Ps. apply Hq; [exact Js|apply Himp; assumption].
  - apply (v_op _ _ _ _ R); [exact Hst| |exact Hk].
    intros s torn Js Ps. apply Hstep; [exact Js|apply Himp; assumption].
Qed.

Lemma valid_stable : forall A (P : sys -> Prop) (Q : A -> sys -> Prop) p, valid P Q p -> stable P.
Proof. intros A P Q p Hv. destruct Hv; assumption. Qed.

Lemma valid_op_inv : forall A (P : sys -> Prop) (Q : A -> sys -> Prop) o k,
  valid P Q (Op o k) ->
  exists R : res -> sys -> Prop,
    (forall s torn, J s -> P s -> G s (fst (cstep o torn s)) /\ R (snd (cstep o torn s)) (fst (cstep o torn s))) /\
    (forall r, valid (R r) Q (k r)).
Proof. intros A P Q o k Hv. inversion Hv; subst. eexists; split; eassumption. Qed.

Lemma valid_ret_inv : forall A (P : sys -> Prop) (Q : A -> sys -> Prop) a,
  valid P Q (Ret a) -> forall s, J s -> P s -> Q a s.
Proof. intros A P Q a Hv. inversion Hv; subst. assumption. Qed.

Lemma Forall2_mono : forall A B (R R' : A -> B -> Prop) l1 l2,
  (forall a b, R a b -> R' a b) -> Forall2 R l1 l2 -> Forall2 R' l1 l2.
Proof. intros A B R R' l1 l2 Hm Hf. induction Hf; constructor; auto. Qed.

Lemma valid_bind : forall A B (P : sys -> Prop) (Q1 : A -> sys -> Prop) (Q : B -> sys -> Prop) (p : prog A) (f : A -> prog B),
  valid P Q1 p -> (forall a, valid (Q1 a) Q (f a)) -> valid P Q (bind p f).
Proof.
  intros A B P Q1 Q p f Hv Hf. induction Hv as [P Q' a Hs Hq|P Q' o k R Hs Hstep Hk IH]; cbn.
  - eapply valid_weaken; [apply Hf|exact Hs|exact Hq].
  - apply (v_op _ _ _ _ R); auto.
Qed.

Lemma valid_post_mono : forall A (P : sys -> Prop) (Q Q' : A -> sys -> Prop) (p : prog A),
  valid P Q p -> (forall a s, Q a s -> Q' a s) -> valid P Q' p.
Proof.
  intros A P Q Q' p Hv Hq. induction Hv as [P Q0 a Hs Hr|P Q0 o k R Hs Hstep Hk IH].
  - apply v_ret; [exact Hs|]. intros s Js Ps. apply Hq. apply Hr; assumption.
  - apply (v_op _ _ _ _ R); [exact Hs|exact Hstep|]. intros r. apply IH. exact Hq.
Qed.

Lemma valid_absurd : forall A (P : sys -> Prop) (Q : A -> sys -> Prop) p,
  stable P -> (forall s, P s -> False) -> valid P Q p.
Proof.
  intros A P Q p Hs Hf. revert P Hs Hf. induction p as [a|o k IH]; intros P Hs Hf.
  - apply v_ret; [exact Hs|]. intros s _ Ps. destruct (Hf s Ps).
  - apply (v_op _ _ _ _ (fun _ _ => False)); [exact Hs| |].
    + intros s torn _ Ps. destruct (Hf s Ps).
    + intros r. apply IH; [intros s s' _ []|intros s []].
Qed.

Lemma and_stable : forall (P Q : sys -> Prop), stable P -> stable Q -> stable (fun s => P s /\ Q s).
Proof. intros P Q HP HQ s s' Js [Hp Hq] Hg. split; [eapply HP|eapply HQ]; eassumption. Qed.

Lemma pure_stable : forall (X : Prop), stable (fun _ => X).
Proof. intros X s s' _ Hx _. exact Hx. Qed.

Lemma impl_stable : forall (X : Prop) (P : sys -> Prop), stable P -> stable (fun s => X -> P s).
Proof. intros X P HP s s' Js Hx Hg x. eapply HP; [exact Js|apply Hx; exact x|exact Hg]. Qed.

(* a fact that does not depend on the state may be taken out of the precondition *)
Lemma valid_pure_pre : forall A (X : Prop) (P : sys -> Prop) (Q : A -> sys -> Prop) (p : prog A),
  (X -> valid P Q p) -> valid (fun s => X /\ P s) Q p.
Proof.
  intros A X P Q p. revert P. induction p as [a|o k IH]; intros P Hx.
  - apply v_ret.
    + intros s s' Js [x Ps] Hg. split; [exact x|]. exact (valid_stable _ _ _ _ (Hx x) s s' Js Ps Hg).
    + intros s Js [x Ps]. exact (valid_ret_inv _ _ _ _ (Hx x) s Js Ps).
  - (* the strongest intermediate assertion: what every derivation asserts after the step *)
    set (good := fun R : res -> sys -> Prop =>
           (forall s torn, J s -> P s -> G s (fst (cstep o torn s)) /\ R (snd (cstep o torn s)) (fst (cstep o torn s))) /\
           (forall r, valid (R r) Q (k r))).
    apply (v_op _ _ _ _ (fun r s => X /\ forall R, good R -> R r s)).
    + intros s s' Js [x Ps] Hg. split; [exact x|]. exact (valid_stable _ _ _ _ (Hx x) s s' Js Ps Hg).
    + intros s torn Js [x Ps]. destruct (valid_op_inv _ _ _ _ _ (Hx x)) as (R0 & H0 & _).
      split; [apply (H0 s torn Js Ps)|]. split; [exact x|]. intros R [HR _]. apply (HR s torn Js Ps).
    + intros r. apply IH. intros x. destruct (valid_op_inv _ _ _ _ _ (Hx x)) as (R0 & H0 & H1).
      eapply valid_weaken; [apply (H1 r)| |intros s _ Hs; apply Hs; split; assumption].
      intros s s' Js Hs Hg R HR. exact (valid_stable _ _ _ _ (proj2 HR r) s s' Js (Hs R HR) Hg).
Qed.

Lemma valid_pure : forall A (X : Prop) (Q : A -> sys -> Prop) (p : prog A),
  (X -> valid (fun _ => True) Q p) -> valid (fun _ => X) Q p.
Proof.
  intros A X Q p Hx. eapply valid_weaken; [apply (valid_pure_pre _ X _ _ _ Hx)|apply pure_stable|intros s _ x; exact (conj x I)].
Qed.

(* an operation of whose result something is known beforehand *)
Lemma valid_op_res : forall A (P P' : sys -> Prop) (Q : A -> sys -> Prop) o k (Phi : res -> Prop),
  stable P ->
  (forall s torn, J s -> P s ->
     G s (fst (cstep o torn s)) /\ Phi (snd (cstep o torn s)) /\ P' (fst (cstep o torn s))) ->
  (forall r, Phi r -> valid P' Q (k r)) -> valid P Q (Op o k).
Proof.
  intros A P P' Q o k Phi Hs Hstep Hk.
  apply (v_op _ _ _ _ (fun r s => Phi r /\ P' s)); [exact Hs|exact Hstep|].
  intros r. apply valid_pure_pre, Hk.
Qed.

Lemma valid_op_det : forall A (P P' : sys -> Prop) (Q : A -> sys -> Prop) o k r0,
  stable P ->
  (forall s torn, J s -> P s ->
     G s (fst (cstep o torn s)) /\ snd (cstep o torn s) = r0 /\ P' (fst (cstep o torn s))) ->
  valid P' Q (k r0) -> valid P Q (Op o k).
Proof.
  intros A P P' Q o k r0 Hs Hstep Hk. apply (valid_op_res _ _ P' _ _ _ (fun r => r = r0)); [exact Hs|exact Hstep|].
  intros r ->. exact Hk.
Qed.

Variable H : bytes -> bytes.
Variable post : call -> cres -> sys -> Prop.
Hypothesis post_stable : forall c r, stable (post c r).
Variable call_ok : call -> Prop.
Hypothesis call_valid : forall c, call_ok c -> valid (fun _ => True) (post c) (call_prog H c).

Definition cinv (calls : list call) (cl : client) (s : sys) : Prop :=
  Forall call_ok calls /\
  exists done, Forall2 (fun c r => post c r s) done (results cl) /\
    match cur cl with
    | None => calls = done /\ todo cl = []
    | Some p => exists c P, calls = done ++ c :: todo cl /\ P s /\ valid P (post c) p
    end.

Lemma cinv_stable : forall calls cl s s', J s -> cinv calls cl s -> G s s' -> cinv calls cl s'.
Proof.
  intros calls cl s s' Js (Hok & done & Hres & Hcur) Hg. split; [exact Hok|]. exists done. split.
  - eapply Forall2_mono; [|exact Hres]. intros c r Hp. eapply post_stable; eassumption.
  - destruct (cur cl) as [p|]; [|exact Hcur].
    destruct Hcur as (c & P & Ec & Ps & Hv). exists c, P. split; [exact Ec|]. split; [|exact Hv].
    eapply (valid_stable _ _ _ _ Hv); eassumption.
Qed.

Lemma cinv_norm : forall td calls p rs done c (P : sys -> Prop) s,
  J s -> Forall call_ok calls -> calls = done ++ c :: td -> P s -> valid P (post c) p ->
  Forall2 (fun c r => post c r s) done rs ->
  cinv calls (norm H p td rs) s.
Proof.
  induction td as [|c' t IH]; intros calls p rs done c P s Js Hok Ec Ps Hv Hres.
  - destruct p as [r|o k]; cbn [norm].
    + split; [exact Hok|]. exists (done ++ [c]). cbn [results cur todo]. split.
      * apply Forall2_app; [exact Hres|]. repeat constructor. eapply valid_ret_inv; eassumption.
      * split; [exact Ec|reflexivity].
    + split; [exact Hok|]. exists done. cbn [results cur todo]. split; [exact Hres|]. exists c, P. auto.
  - destruct p as [r|o k]; cbn [norm].
    + apply (IH calls (call_prog H c') (rs ++ [r]) (done ++ [c]) c' (fun _ => True) s); auto.
      * rewrite <- app_assoc. exact Ec.
      * apply call_valid. rewrite Ec in Hok. apply Forall_app in Hok. destruct Hok as [_ Hok].
        inversion Hok as [|? ? _ Hok']; subst. inversion Hok'; subst. assumption.
      * apply Forall2_app; [exact Hres|]. repeat constructor. eapply valid_ret_inv; eassumption.
    + split; [exact Hok|]. exists done. cbn [results cur todo]. split; [exact Hres|]. exists c, P. auto.
Qed.

Lemma cinv_start : forall calls s, J s -> Forall call_ok calls -> cinv calls (start H calls) s.
Proof.
  intros calls s Js Hok. destruct calls as [|c t]; cbn [start].
  - split; [exact Hok|]. exists []. cbn. split; [constructor|auto].
  - apply (cinv_norm t (c :: t) (call_prog H c) [] [] c (fun _ => True) s); auto.
    apply call_valid. inversion Hok; assumption.
Qed.

Lemma client_step_sound : forall calls cl torn s,
  J s -> cinv calls cl s ->
  let '(cl', s') := client_step H cl torn s in G s s' /\ J s' /\ cinv calls cl' s'.
Proof.
  intros calls cl torn s Js Hc. unfold client_step.
  destruct (cur cl) as [[r|o k]|] eqn:Ecur.
  - split; [apply G_refl|]. split; assumption.
  - destruct Hc as (Hok & done & Hres & Hcur). rewrite Ecur in Hcur. destruct Hcur as (c & P & Ec & Ps & Hv).
    destruct (valid_op_inv _ _ _ _ _ Hv) as (R & Hstep & Hk).
    destruct (cstep o torn s) as [s' r] eqn:Es.
    destruct (Hstep s torn Js Ps) as [Hg Hr]. rewrite Es in Hg, Hr. cbn [fst snd] in Hg, Hr.
    assert (J s') as Js' by (eapply G_J; eassumption).
    split; [exact Hg|]. split; [exact Js'|].
    apply (cinv_norm (todo cl) calls (k r) (results cl) done c (R r) s' Js' Hok Ec Hr (Hk r)).
    eapply Forall2_mono; [|exact Hres]. intros c0 r0 Hp. exact (post_stable c0 r0 s s' Js Hp Hg).
  - split; [apply G_refl|]. split; assumption.
Qed.

Lemma Forall2_set_nth : forall A B (R R' : A -> B -> Prop) l1 l2 i x x',
  Forall2 R l1 l2 -> nth_error l2 i = Some x ->
  (forall a b, R a b -> R' a b) ->
  (forall a, nth_error l1 i = Some a -> R a x -> R' a x') ->
  Forall2 R' l1 (set_nth i x' l2).
Proof.
  intros A B R R' l1 l2 i x x' Hf. revert i. induction Hf as [|a b l1 l2 Hab Hf IH]; intros i Hn Hm Hx.
  - destruct i; discriminate.
  - destruct i as [|i]; cbn in *.
    + inversion Hn; subst. constructor; [apply Hx; [reflexivity|exact Hab]|]. eapply Forall2_mono; eassumption.
    + constructor; [apply Hm; exact Hab|]. apply IH; assumption.
Qed.

Lemma Forall2_nth_r : forall A B (R : A -> B -> Prop) l1 l2 i x,
  Forall2 R l1 l2 -> nth_error l2 i = Some x -> exists a, nth_error l1 i = Some a /\ R a x.
Proof.
  intros A B R l1 l2 i x Hf. revert i. induction Hf as [|a b l1 l2 Hab Hf IH]; intros i Hn.
  - destruct i; discriminate.
  - destruct i as [|i]; cbn in *; [inversion Hn; subst; eauto|apply IH; exact Hn].
Qed.

Definition sinv (callss : list (list call)) (st : list client * sys) : Prop :=
  J (snd st) /\ Forall2 (fun calls cl => cinv calls cl (snd st)) callss (fst st).

Lemma sched_step_sound : forall callss e st, sinv callss st -> sinv callss (sched_step H e st) /\ G (snd st) (snd (sched_step H e st)).
Proof.
  intros callss [i torn] [cls s] [Js Hall]. cbn [fst snd] in *. unfold sched_step. cbn [fst snd].
  destruct (nth_error cls i) as [cl|] eqn:En; [|split; [split; assumption|apply G_refl]].
  destruct (Forall2_nth_r _ _ _ _ _ _ _ Hall En) as (calls & Ecalls & Hc).
  pose proof (client_step_sound calls cl torn s Js Hc) as Hstep.
  destruct (client_step H cl torn s) as [cl' s'] eqn:Es. destruct Hstep as (Hg & Js' & Hc').
  split; [|exact Hg]. split; [exact Js'|]. cbn [fst snd].
  eapply Forall2_set_nth; [exact Hall|exact En| |].
  - intros a b Hab. exact (cinv_stable a b s s' Js Hab Hg).
  - intros a Ea _. rewrite Ecalls in Ea. inversion Ea; subst. exact Hc'.
Qed.

Lemma run_conc_sound : forall callss sched st, sinv callss st -> sinv callss (run_conc H sched st).
Proof.
  intros callss sched. induction sched as [|e t IH]; intros st Hs; cbn; [exact Hs|].
  apply IH. apply sched_step_sound. exact Hs.
Qed.

Lemma run_conc_stable : forall callss sched st (P : sys -> Prop),
  sinv callss st -> stable P -> P (snd st) -> P (snd (run_conc H sched st)).
Proof.
  intros callss sched. induction sched as [|e t IH]; intros st P Hs Hst Hp; cbn; [exact Hp|].
  destruct (sched_step_sound callss e st Hs) as [Hs' Hg].
  apply (IH (sched_step H e st) P Hs' Hst). eapply Hst; [apply Hs|exact Hp|exact Hg].
Qed.

Lemma sinv_init : forall callss s, J s -> Forall (Forall call_ok) callss -> sinv callss (map (start H) callss, s).
Proof.
  intros callss s Js Hok. split; [exact Js|]. cbn [fst snd].
  induction Hok as [|calls t Hc _ IH]; cbn; constructor; [apply cinv_start; assumption|exact IH].
Qed.

Lemma run_init_sound : forall callss s sched, J s -> Forall (Forall call_ok) callss ->
  sinv callss (run_conc H sched (map (start H) callss, s)).
Proof. intros. apply run_conc_sound, sinv_init; assumption. Qed.

Lemma sinv_result : forall callss st i calls cl k c r,
  sinv callss st -> nth_error callss i = Some calls -> nth_error (fst st) i = Some cl ->
  nth_error calls k = Some c -> nth_error (results cl) k = Some r -> post c r (snd st).
Proof.
  intros callss st i calls cl k c r [_ Hall] Ecalls Ecl Ecall Eres.
  destruct (Forall2_nth_error _ _ _ _ _ _ Hall Ecalls Ecl) as (_ & done & Hres & Hcur).
  destruct (Forall2_nth_r _ _ _ _ _ _ _ Hres Eres) as (c0 & E0 & Hp).
  assert (k < length done)%nat as Lk by (apply nth_error_Some; congruence).
  replace c with c0; [exact Hp|].
  destruct (cur cl) as [p|]; [destruct Hcur as (c1 & P & -> & _); rewrite nth_error_app1 in Ecall by exact Lk|destruct Hcur as [-> _]];
    congruence.
Qed.

End RG.
Arguments valid_op_det {J G A P} P' {Q o k} r0.
Arguments sinv_result {J G post call_ok callss st i calls cl k c r}.
Arguments run_init_sound {J G} G_refl G_J H {post} post_stable {call_ok} call_valid callss s sched.
Arguments valid_op_res {J G A P} P' {Q o k} Phi.

Lemma valid_strengthen : forall (J J' : sys -> Prop) (G : sys -> sys -> Prop) A
  (P : sys -> Prop) (Q : A -> sys -> Prop) (p : prog A),
  (forall s, J' s -> J s) -> valid J G P Q p -> valid J' G P Q p.
Proof.
  intros J J' G A P Q p Hj Hv. induction Hv as [P Q a Hs Hq|P Q o k R Hs Hstep Hk IH].
  - apply v_ret; [intros s s' Js Ps Hg; eapply Hs; [apply Hj; exact Js|exact Ps|exact Hg]|].
    intros s Js Ps. apply Hq; [apply Hj; exact Js|exact Ps].
  - apply (v_op _ _ _ _ _ _ R); [intros s s' Js Ps Hg; eapply Hs; [apply Hj; exact Js|exact Ps|exact Hg]| |exact IH].
    intros s torn Js Ps. apply Hstep; [apply Hj; exact Js|exact Ps].
Qed.

Lemma mix_prefix : forall j (c o : bytes), is_prefix o c -> is_prefix (mix j c o) c /\ is_prefix o (mix j c o).
Proof.
  intros j c o [t Ht]. unfold mix. subst c.
  destruct (le_lt_dec j (length o)) as [L|L].
  - rewrite firstn_app. replace (j - length o)%nat with 0%nat by lia. cbn. rewrite app_nil_r, firstn_skipn.
    split; [exists t; reflexivity|apply prefix_refl].
  - rewrite skipn_all2 by lia. rewrite app_nil_r. split; [apply firstn_prefix|].
    rewrite firstn_app. rewrite firstn_all2 by lia. exists (firstn (j - length o) t). reflexivity.
Qed.

Lemma pwrite_chunk : forall c d off x, is_prefix c d -> (off <= length c)%nat -> is_prefix (firstn off d ++ x) d ->
  is_prefix (pwrite c off x) d /\ is_prefix c (pwrite c off x) /\ (off + length x <= length (pwrite c off x))%nat.
Proof.
  intros c d off x Hc Hoff Hx.
  assert (firstn off c = firstn off d) as Ew.
  { rewrite (prefix_firstn c d Hc). rewrite firstn_firstn. f_equal. lia. }
  assert (length (firstn off d) = off) as Lw by (rewrite <- Ew, firstn_length; lia).
  assert (pwrite c off x = pwrite c 0 (firstn off d ++ x)) as E.
  { rewrite !pwrite_le by lia. cbn [firstn app Nat.add]. rewrite Ew, app_length, Lw, <- app_assoc. reflexivity. }
  rewrite E. split; [apply pwrite_prefix_is_prefix; assumption|]. split.
  - rewrite (pwrite_prefix c _ d Hc Hx). destruct (Nat.leb (length c) (length (firstn off d ++ x))) eqn:El; [|apply prefix_refl].
    apply Nat.leb_le in El. apply (prefix_total c _ d Hc Hx El).
  - rewrite pwrite_length by lia. rewrite app_length, Lw. lia.
Qed.

Section CacheRG.
Variable H : bytes -> bytes.
Variable U : bytes -> Prop.
Hypothesis H_len : forall x, length (H x) = hash_size_n.
Hypothesis H_inj : H_inj_on H U.
(* the Puts of the system (and of whatever built the initial store): id, content, timestamp *)
Variable PS : bytes -> bytes -> Z -> Prop.
Hypothesis PS_ok : forall id d tm, PS id d tm ->
  U d /\ length id = hash_size_n /\ (0 <= tm < int64_lim)%Z /\ (Z.of_nat (length d) < int64_lim)%Z.

Definition entry (id d : bytes) (tm : Z) : bytes := encode_entry id (H d) (Z.of_nat (length d)) tm.

Lemma entry_length : forall id d tm, PS id d tm -> length (entry id d tm) = entry_size_n.
Proof.
  intros id d tm Hp. destruct (PS_ok _ _ _ Hp) as (_ & Li & Ht & Hs).
  unfold entry. apply encode_entry_length; [exact Li|apply H_len| |exact Ht].
  split; [apply Nat2Z.is_nonneg|exact Hs].
Qed.

Lemma entry_nonempty : forall id d tm, entry id d tm <> [].
Proof. intros id d tm. unfold entry. destruct (encode_entry_prefix id (H d) (Z.of_nat (length d)) tm) as [X ->]. discriminate. Qed.

(* an index file is empty (just created) or holds exactly the entry of a Put whose output is complete *)
Definition good_idx (fs : files) (id c : bytes) : Prop :=
  c = [] \/ exists d tm, PS id d tm /\ c = entry id d tm /\ fs (DatP (H d)) = Some d.

Definition Jc (s : sys) : Prop :=
  I1 H U (sfiles s) /\
  (forall out o, slast s (DatP out) = Some o -> exists c, sfiles s (DatP out) = Some c /\ is_prefix o c) /\
  (forall id c, sfiles s (IdxP id) = Some c -> good_idx (sfiles s) id c) /\
  (forall id o, slast s (IdxP id) = Some o -> good_idx (sfiles s) id o) /\
  (forall id o, slast s (IdxP id) = Some o -> exists c, sfiles s (IdxP id) = Some c /\ c <> []).

(* the content remembered as "before the most recent write" of a file is left alone, forgotten, or
   becomes the content the file has just had *)
Definition last_rel (s s' : sys) (p : path) (c : bytes) : Prop :=
  slast s' p = slast s p \/ slast s' p = None \/ slast s' p = Some c.

(* no file disappears, output files only grow, a non-empty index file stays non-empty *)
Definition grows (s s' : sys) : Prop :=
  forall p c, sfiles s p = Some c ->
    exists c', sfiles s' p = Some c' /\
      match p with DatP _ => is_prefix c c' | IdxP _ => c <> [] -> c' <> [] end /\
      last_rel s s' p c.

Definition Gc (s s' : sys) : Prop := grows s s' /\ (Jc s -> Jc s').

Lemma Jc_idx : forall s id c, Jc s -> sfiles s (IdxP id) = Some c -> good_idx (sfiles s) id c.
Proof. intros s id c (_ & _ & Hj3 & _). apply Hj3. Qed.

(* an output file named by the hash of a content of U holds a prefix of that content *)
Lemma Jc_dat : forall s d c, Jc s -> U d -> sfiles s (DatP (H d)) = Some c -> is_prefix c d.
Proof.
  intros s d c (Hi1 & _) Ud Ec. destruct (Hi1 _ _ Ec) as (d0 & Ud0 & Hh & Hp).
  assert (d0 = d) by (apply H_inj; assumption). subst d0. exact Hp.
Qed.

Lemma grows_same_files : forall s s', sfiles s' = sfiles s ->
  (forall p, slast s' p = slast s p \/ slast s' p = None) -> grows s s'.
Proof.
  intros s s' E El p c Hc. exists c. rewrite E. split; [exact Hc|].
  split; [destruct p; [auto|apply prefix_refl]|]. destruct (El p) as [L|L]; [left; exact L|right; left; exact L].
Qed.

Lemma Gc_refl : forall s, Gc s s.
Proof.
  intros s. split; [apply grows_same_files; [reflexivity|intros p; left; reflexivity]|auto].
Qed.

Lemma Gc_J : forall s s', Jc s -> Gc s s' -> Jc s'.
Proof. intros s s' Js [_ Hj]. auto. Qed.

Lemma updl_same : forall l p v, updl l p v p = v.
Proof. intros. unfold updl. rewrite path_eqb_refl. reflexivity. Qed.
Lemma updl_other : forall l p v q, q <> p -> updl l p v q = l q.
Proof. intros. unfold updl. rewrite path_eqb_neq by assumption. reflexivity. Qed.

Lemma complete_stable : forall d, U d -> stable Jc Gc (fun s => sfiles s (DatP (H d)) = Some d).
Proof.
  intros d Ud s s' Js Hc [Hg Hj]. destruct (Hg _ _ Hc) as (c' & Hc' & Hp & _). cbn in Hp.
  pose proof (Jc_dat _ _ _ (Hj Js) Ud Hc') as Hp0.
  rewrite Hc'. f_equal. apply prefix_full; [exact Hp0|].
  apply prefix_length in Hp. apply prefix_length in Hp0. lia.
Qed.

Definition at_least (d : bytes) (off : nat) (s : sys) : Prop :=
  exists c, sfiles s (DatP (H d)) = Some c /\ is_prefix c d /\ (off <= length c)%nat.

Lemma at_least_stable : forall d off, U d -> stable Jc Gc (at_least d off).
Proof.
  intros d off Ud s s' Js (c & Hc & Hp & Hl) [Hg Hj]. destruct (Hg _ _ Hc) as (c' & Hc' & Hp' & _). cbn in Hp'.
  pose proof (Jc_dat _ _ _ (Hj Js) Ud Hc') as Hp0.
  exists c'. split; [exact Hc'|]. split; [exact Hp0|]. apply prefix_length in Hp'. lia.
Qed.

Definition idx_exists (id : bytes) (s : sys) : Prop := exists c, sfiles s (IdxP id) = Some c.
Definition idx_nonempty (id : bytes) (s : sys) : Prop := exists c, sfiles s (IdxP id) = Some c /\ c <> [].

Lemma idx_exists_stable : forall id, stable Jc Gc (idx_exists id).
Proof. intros id s s' _ (c & Hc) [Hg _]. destruct (Hg _ _ Hc) as (c' & Hc' & _). exists c'. exact Hc'. Qed.

Lemma idx_nonempty_stable : forall id, stable Jc Gc (idx_nonempty id).
Proof.
  intros id s s' _ (c & Hc & Hn) [Hg _]. destruct (Hg _ _ Hc) as (c' & Hc' & Hp & _). exists c'. split; [exact Hc'|]. apply Hp. exact Hn.
Qed.

Lemma good_idx_ext : forall fs fs' id c, (forall out, fs' (DatP out) = fs (DatP out)) -> good_idx fs id c -> good_idx fs' id c.
Proof.
  intros fs fs' id c He [Hn|(d & tm & Hp & Hc & Hf)]; [left; exact Hn|right].
  exists d, tm. rewrite He. auto.
Qed.

Lemma Jc_upd_dat : forall s d c' lastv,
  Jc s -> U d -> is_prefix c' d ->
  (forall c, sfiles s (DatP (H d)) = Some c -> is_prefix c c') ->
  (forall o, lastv = Some o -> is_prefix o c') ->
  Jc {| sfiles := upd (sfiles s) (DatP (H d)) (Some c'); slast := updl (slast s) (DatP (H d)) lastv |}.
Proof.
  intros s d c' lastv (Hi1 & Hj2 & Hj3 & Hj4 & Hj5) Ud Hp Hold Hlast. unfold Jc. cbn [sfiles slast].
  assert (forall id c, good_idx (sfiles s) id c -> good_idx (upd (sfiles s) (DatP (H d)) (Some c')) id c) as Hgood.
  { intros id c [Hn|(d1 & tm & Hps & Hc & Hf)]; [left; exact Hn|right]. exists d1, tm. split; [exact Hps|]. split; [exact Hc|].
    destruct (path_eq_dec (DatP (H d1)) (DatP (H d))) as [E|N].
    - rewrite E, upd_same. inversion E as [Eh]. destruct (PS_ok _ _ _ Hps) as (Ud1 & _).
      assert (d1 = d) by (apply H_inj; assumption). subst d1. f_equal.
      apply prefix_full; [exact Hp|]. pose proof (prefix_length _ _ (Hold _ Hf)). apply prefix_length in Hp. lia.
    - rewrite upd_other by exact N. exact Hf. }
  split; [|split; [|split; [|split]]].
  - intros out c Hc. destruct (path_eq_dec (DatP out) (DatP (H d))) as [E|N].
    + inversion E; subst out. rewrite upd_same in Hc. inversion Hc; subst. exists d. auto.
    + rewrite upd_other in Hc by exact N. apply Hi1. exact Hc.
  - intros out o Ho. destruct (path_eq_dec (DatP out) (DatP (H d))) as [E|N].
    + inversion E; subst out. rewrite updl_same in Ho. rewrite upd_same. exists c'. split; [reflexivity|apply Hlast; exact Ho].
    + rewrite updl_other in Ho by exact N. rewrite upd_other by exact N. apply Hj2. exact Ho.
  - intros id c Hc. rewrite upd_other in Hc by discriminate. apply Hgood. apply Hj3. exact Hc.
  - intros id o Ho. rewrite updl_other in Ho by discriminate. apply Hgood. apply Hj4. exact Ho.
  - intros id o Ho. rewrite updl_other in Ho by discriminate. rewrite upd_other by discriminate. apply (Hj5 id o Ho).
Qed.

Lemma Jc_upd_idx : forall s id c' lastv,
  Jc s -> good_idx (sfiles s) id c' -> (forall o, lastv = Some o -> good_idx (sfiles s) id o /\ c' <> []) ->
  Jc {| sfiles := upd (sfiles s) (IdxP id) (Some c'); slast := updl (slast s) (IdxP id) lastv |}.
Proof.
  intros s id c' lastv (Hi1 & Hj2 & Hj3 & Hj4 & Hj5) Hg Hlast. unfold Jc. cbn [sfiles slast].
  assert (forall out, upd (sfiles s) (IdxP id) (Some c') (DatP out) = sfiles s (DatP out)) as He
    by (intros out; apply upd_other; discriminate).
  split; [|split; [|split; [|split]]].
  - intros out c Hc. rewrite He in Hc. apply Hi1. exact Hc.
  - intros out o Ho. rewrite updl_other in Ho by discriminate. rewrite He. apply Hj2. exact Ho.
  - intros id' c Hc. apply (good_idx_ext (sfiles s)); [exact He|].
    destruct (path_eq_dec (IdxP id') (IdxP id)) as [E|N].
    + inversion E; subst id'. rewrite upd_same in Hc. inversion Hc; subst. exact Hg.
    + rewrite upd_other in Hc by exact N. apply Hj3. exact Hc.
  - intros id' o Ho. apply (good_idx_ext (sfiles s)); [exact He|].
    destruct (path_eq_dec (IdxP id') (IdxP id)) as [E|N].
    + inversion E; subst id'. rewrite updl_same in Ho. apply Hlast. exact Ho.
    + rewrite updl_other in Ho by exact N. apply Hj4. exact Ho.
  - intros id' o Ho. destruct (path_eq_dec (IdxP id') (IdxP id)) as [E|N].
    + inversion E; subst id'. rewrite updl_same in Ho. rewrite upd_same. exists c'. split; [reflexivity|apply (Hlast o Ho)].
    + rewrite updl_other in Ho by exact N. rewrite upd_other by exact N. apply (Hj5 id' o Ho).
Qed.

Lemma updl_none_some : forall l p q o, updl l p None q = Some o -> l q = Some o.
Proof. intros l p q o. unfold updl. destruct (path_eqb q p); [discriminate|auto]. Qed.

Lemma Jc_reset_last : forall s p, Jc s -> Jc {| sfiles := sfiles s; slast := updl (slast s) p None |}.
Proof.
  intros s p (Hi1 & Hj2 & Hj3 & Hj4 & Hj5). unfold Jc. cbn [sfiles slast].
  repeat split; auto; intros x o Ho; apply updl_none_some in Ho; eauto.
Qed.

Lemma grows_upd : forall s p c' lastv,
  (forall c, sfiles s p = Some c ->
     match p with DatP _ => is_prefix c c' | IdxP _ => c <> [] -> c' <> [] end /\ (lastv = None \/ lastv = Some c)) ->
  grows s {| sfiles := upd (sfiles s) p (Some c'); slast := updl (slast s) p lastv |}.
Proof.
  intros s p c' lastv Hp q c Hc. unfold last_rel. cbn [sfiles slast]. destruct (path_eq_dec q p) as [->|N].
  - rewrite upd_same, updl_same. destruct (Hp c Hc) as [H1 H2]. exists c'. split; [reflexivity|]. split; [exact H1|right; exact H2].
  - rewrite upd_other, updl_other by exact N. exists c. split; [exact Hc|].
    split; [destruct q; [auto|apply prefix_refl]|left; reflexivity].
Qed.

Lemma Gc_reset_last : forall s p, Gc s {| sfiles := sfiles s; slast := updl (slast s) p None |}.
Proof.
  intros s p. split; [apply grows_same_files; [reflexivity|intros q]|apply Jc_reset_last].
  destruct (path_eq_dec q p) as [->|N]; [right; apply updl_same|left; apply updl_other; exact N].
Qed.

Definition observing (o : op) : Prop :=
  match o with OStat _ | ORead _ _ _ | OReadAll _ | OClose _ | OChtimes _ | OOpen _ false false => True | _ => False end.

Lemma cstep_observing : forall o torn s, observing o -> Gc s (fst (cstep o torn s)).
Proof.
  intros o torn s Ho. destruct o as [p|p [|] [|]|p off n|p|p off b|p n|p|p|p]; try contradiction;
    cbn [cstep step op_path fst]; try apply Gc_refl.
  - destruct (sfiles s p); apply Gc_reset_last.
  - destruct s; apply Gc_refl.
  - destruct s; apply Gc_refl.
Qed.

Lemma cstep_open_dat : forall d torn s, U d -> Jc s ->
  let s' := fst (cstep (OOpen (DatP (H d)) true false) torn s) in
  Gc s s' /\ snd (cstep (OOpen (DatP (H d)) true false) torn s) = ROk /\ at_least d 0 s'.
Proof.
  intros d torn s Ud Js. cbn [cstep step op_path].
  destruct (sfiles s (DatP (H d))) as [c|] eqn:Ec; cbn [fst snd]; (split; [|split; [reflexivity|]]).
  - apply Gc_reset_last.
  - exists c. split; [exact Ec|]. split; [exact (Jc_dat _ _ _ Js Ud Ec)|lia].
  - split; [apply grows_upd; intros c Hc; congruence|intros _].
    apply (Jc_upd_dat s d [] None Js Ud (prefix_nil d)); [intros c Hc; congruence|intros o Ho; discriminate].
  - exists []. cbn [sfiles]. rewrite upd_same. split; [reflexivity|]. split; [apply prefix_nil|cbn; lia].
Qed.

Lemma cstep_open_idx : forall id torn s, Jc s ->
  let s' := fst (cstep (OOpen (IdxP id) true false) torn s) in
  Gc s s' /\ snd (cstep (OOpen (IdxP id) true false) torn s) = ROk /\ idx_exists id s'.
Proof.
  intros id torn s Js. cbn [cstep step op_path].
  destruct (sfiles s (IdxP id)) as [c|] eqn:Ec; cbn [fst snd]; (split; [|split; [reflexivity|]]).
  - apply Gc_reset_last.
  - exists c; exact Ec.
  - split; [apply grows_upd; intros c Hc; congruence|intros _].
    apply (Jc_upd_idx s id [] None Js); [left; reflexivity|intros o Ho; discriminate].
  - exists []. apply upd_same.
Qed.

Lemma cstep_write_dat : forall d off x torn s, U d -> Jc s -> at_least d off s ->
  is_prefix (firstn off d ++ x) d ->
  let s' := fst (cstep (OWrite (DatP (H d)) off x) torn s) in
  Gc s s' /\ snd (cstep (OWrite (DatP (H d)) off x) torn s) = RWrote (length x) /\ at_least d (off + length x) s'.
Proof.
  intros d off x torn s Ud Js (c & Ec & Hp & Hl) Hx. cbn [cstep]. rewrite Ec. cbn [fst snd].
  destruct (pwrite_chunk c d off x Hp Hl Hx) as (P1 & P2 & P3).
  split; [|split; [reflexivity|]].
  - split; [apply grows_upd; intros c0 Hc0; rewrite Ec in Hc0; injection Hc0 as <-; auto|intros _].
    apply (Jc_upd_dat s d _ (Some c) Js Ud P1).
    + intros c0 Hc0. rewrite Ec in Hc0. injection Hc0 as <-. exact P2.
    + intros o Ho. injection Ho as <-. exact P2.
  - eexists. cbn [sfiles]. rewrite upd_same. split; [reflexivity|]. split; [exact P1|exact P3].
Qed.

Lemma cstep_write_idx : forall id d tm torn s, PS id d tm -> Jc s ->
  sfiles s (DatP (H d)) = Some d -> idx_exists id s ->
  let s' := fst (cstep (OWrite (IdxP id) 0 (entry id d tm)) torn s) in
  Gc s s' /\ snd (cstep (OWrite (IdxP id) 0 (entry id d tm)) torn s) = RWrote (length (entry id d tm)) /\
  idx_nonempty id s' /\ sfiles s' (DatP (H d)) = Some d.
Proof.
  intros id d tm torn s Hps Js Hd (c & Ec). cbn [cstep]. rewrite Ec. cbn [fst snd].
  assert (good_idx (sfiles s) id c) as Hgc by exact (Jc_idx s id c Js Ec).
  assert (pwrite c 0 (entry id d tm) = entry id d tm) as Ew.
  { apply pwrite_all. rewrite (entry_length _ _ _ Hps).
    destruct Hgc as [->|(d1 & t1 & Hp1 & -> & _)]; [cbn; lia|rewrite (entry_length _ _ _ Hp1); lia]. }
  rewrite Ew.
  split; [|split; [reflexivity|split]].
  - split; [apply grows_upd; intros c0 Hc0; rewrite Ec in Hc0; injection Hc0 as <-|intros _].
    + split; [intros _; apply entry_nonempty|right; reflexivity].
    + apply (Jc_upd_idx s id _ (Some c) Js).
      * right. exists d, tm. auto.
      * intros o Ho. injection Ho as <-. split; [exact Hgc|apply entry_nonempty].
  - eexists. cbn [sfiles]. rewrite upd_same. split; [reflexivity|apply entry_nonempty].
  - cbn [sfiles]. rewrite upd_other by discriminate. exact Hd.
Qed.

(* the truncation after the write: a no-op on a non-empty (hence entry-sized) index file *)
Lemma cstep_trunc_idx : forall id torn s, Jc s -> idx_nonempty id s ->
  let s' := fst (cstep (OTruncate (IdxP id) entry_size_n) torn s) in
  Gc s s' /\ snd (cstep (OTruncate (IdxP id) entry_size_n) torn s) = ROk.
Proof.
  intros id torn s Js (c & Ec & Hn). cbn [cstep step op_path]. rewrite Ec. cbn [fst snd].
  assert (good_idx (sfiles s) id c) as Hgc by exact (Jc_idx s id c Js Ec).
  destruct Hgc as [->|(d1 & t1 & Hp1 & E1 & Hf1)]; [contradiction|].
  assert (ftruncate c entry_size_n = c) as Et.
  { unfold ftruncate. rewrite pad_to_le by (rewrite E1, (entry_length _ _ _ Hp1); lia).
    apply firstn_all2. rewrite E1, (entry_length _ _ _ Hp1). lia. }
  rewrite Et. split; [|reflexivity].
  split; [apply grows_upd; intros c0 Hc0; rewrite Ec in Hc0; injection Hc0 as <-; auto|intros _].
  apply (Jc_upd_idx s id c None Js); [right; exists d1, t1; auto|intros o Ho; discriminate].
Qed.

Notation validc := (valid Jc Gc).
Notation stablec := (stable Jc Gc).

(* an observing operation whose result is not used for anything the proof needs; under any invariant *)
Lemma valid_observe : forall J A (P : sys -> Prop) (Q : A -> sys -> Prop) o k,
  observing o -> stable J Gc P -> (forall r, valid J Gc P Q (k r)) -> valid J Gc P Q (Op o k).
Proof.
  intros J A P Q o k Ho Hs Hk. apply (v_op _ _ _ _ _ _ (fun _ => P)); [exact Hs| |exact Hk].
  intros s torn Js Ps. pose proof (cstep_observing o torn s Ho) as Hg. split; [exact Hg|].
  eapply Hs; eassumption.
Qed.

Lemma valid_observe_det : forall J A (P : sys -> Prop) (Q : A -> sys -> Prop) o k r0,
  observing o -> stable J Gc P -> (forall s torn, snd (cstep o torn s) = r0) ->
  valid J Gc P Q (k r0) -> valid J Gc P Q (Op o k).
Proof.
  intros J A P Q o k r0 Ho Hs Hr Hk. apply (valid_op_det P r0); [exact Hs| |exact Hk].
  intros s torn Js Ps. pose proof (cstep_observing o torn s Ho) as Hg.
  split; [exact Hg|]. split; [apply Hr|eapply Hs; eassumption].
Qed.

Lemma valid_used : forall J A (P : sys -> Prop) (Q : A -> sys -> Prop) p (k : prog A),
  stable J Gc P -> valid J Gc P Q k -> valid J Gc P Q (used_prog p k).
Proof.
  intros J A P Q p k St Hk. unfold used_prog. apply valid_observe; [exact I|exact St|]. intros r.
  destruct r; try exact Hk; (apply valid_observe; [exact I|exact St|]; intros _; exact Hk).
Qed.

Lemma valid_output_file : forall J A (P : sys -> Prop) (Q : A -> sys -> Prop) out (k : path -> prog A),
  stable J Gc P -> valid J Gc P Q (k (DatP out)) -> valid J Gc P Q (bind (output_file_prog out) k).
Proof.
  intros J A P Q out k St Hk. unfold output_file_prog, used_prog. cbn [bind].
  apply valid_observe; [exact I|exact St|]. intros r.
  destruct r; cbn [bind]; try exact Hk; (apply valid_observe; [exact I|exact St|]; intros _; exact Hk).
Qed.

Inductive readonly {A} : prog A -> Prop :=
| ro_ret : forall a, readonly (Ret a)
| ro_op : forall o k, observing o -> (forall r, readonly (k r)) -> readonly (Op o k).

Lemma valid_readonly : forall A (p : prog A), readonly p -> validc (fun _ => True) (fun _ _ => True) p.
Proof.
  intros A p Hr. induction Hr as [a|o k Ho _ IH].
  - apply v_ret; [apply pure_stable|auto].
  - apply valid_observe; [exact Ho|apply pure_stable|exact IH].
Qed.

Lemma readonly_bind : forall A B (p : prog A) (f : A -> prog B), readonly p -> (forall a, readonly (f a)) -> readonly (bind p f).
Proof. intros A B p f Hp Hf. induction Hp as [a|o k Ho _ IH]; cbn; [apply Hf|apply ro_op; assumption]. Qed.

Lemma readonly_read_full : forall A fuel p off need acc (k : bytes -> prog A),
  (forall b, readonly (k b)) -> readonly (read_full fuel p off need acc k).
Proof.
  intros A fuel. induction fuel as [|f IH]; intros p off need acc k Hk; cbn; [apply Hk|].
  destruct (Nat.eqb need 0); [apply Hk|]. apply ro_op; [exact I|].
  intros r. destruct r; try apply Hk. destruct (Nat.eqb (length b) 0); [apply Hk|apply IH; exact Hk].
Qed.

Lemma readonly_used : forall A p (k : prog A), readonly k -> readonly (used_prog p k).
Proof.
  intros A p k Hk. unfold used_prog. apply ro_op; [exact I|]. intros r.
  destruct r; try exact Hk; apply ro_op; try exact I; intros _; exact Hk.
Qed.

Lemma readonly_get : forall id, readonly (get_prog id).
Proof.
  intros id. unfold get_prog. apply ro_op; [exact I|]. intros r. destruct r; try apply ro_ret.
  apply readonly_read_full. intros e. destruct (parse_entry e id).
  - apply readonly_used. apply ro_op; [exact I|]. intros _. apply ro_ret.
  - apply ro_op; [exact I|]. intros _. apply ro_ret.
Qed.

Lemma readonly_get_file : forall id, readonly (get_file_prog id).
Proof.
  intros id. unfold get_file_prog. apply readonly_bind; [apply readonly_get|].
  intros [[[out size] tm]|]; [|apply ro_ret]. apply readonly_bind.
  - unfold output_file_prog. apply readonly_used. apply ro_ret.
  - intros file. apply ro_op; [exact I|]. intros r. destruct r; try apply ro_ret. destruct (Z.eqb _ _); apply ro_ret.
Qed.

Lemma readonly_get_bytes : forall id, readonly (get_bytes_prog H id).
Proof.
  intros id. unfold get_bytes_prog. apply readonly_bind; [apply readonly_get|].
  intros [[[out size] tm]|]; [|apply ro_ret]. apply readonly_bind.
  - unfold output_file_prog. apply readonly_used. apply ro_ret.
  - intros file. apply ro_op; [exact I|]. intros r. destruct (bytes_eqb _ _); apply ro_ret.
Qed.

(* stability of a conjunction of the assertions of this file *)
Ltac stab :=
  repeat first [ apply and_stable | apply pure_stable
               | apply idx_exists_stable | apply idx_nonempty_stable
               | (apply complete_stable; assumption) | (apply at_least_stable; assumption) ].

Lemma valid_index : forall id d tm, PS id d tm ->
  validc (fun s => sfiles s (DatP (H d)) = Some d) (fun ok s => ok = true /\ idx_nonempty id s)
         (put_index_prog id (H d) (length d) tm).
Proof.
  intros id d tm Hps. destruct (PS_ok _ _ _ Hps) as (Ud & _).
  rewrite put_index_prog_eq; unfold put_index_body. rewrite open_index. fold (entry id d tm).
  apply (valid_op_det (fun s => sfiles s (DatP (H d)) = Some d /\ idx_exists id s) ROk); [stab| |].
  { intros s torn Js Pc. destruct (cstep_open_idx id torn s Js) as (Hg & Hr & He).
    exact (conj Hg (conj Hr (conj (complete_stable d Ud _ _ Js Pc Hg) He))). }
  apply (valid_op_det (idx_nonempty id) (RWrote (length (entry id d tm)))); [stab| |].
  { intros s torn Js (Pc & Pe). destruct (cstep_write_idx id d tm torn s Hps Js Pc Pe) as (Hg & Hr & Hn & _). auto. }
  cbn [wrote_all]. rewrite Nat.eqb_refl, (entry_length _ _ _ Hps).
  apply (valid_op_det (idx_nonempty id) ROk); [stab| |].
  { intros s torn Js Pn. destruct (cstep_trunc_idx id torn s Js Pn) as (Hg & Hr).
    exact (conj Hg (conj Hr (idx_nonempty_stable id _ _ Js Pn Hg))). }
  apply (valid_observe_det _ _ _ _ _ _ ROk); [exact I|stab|reflexivity|].
  apply valid_observe; [exact I|stab|]. intros _.
  apply v_ret; [stab|]. intros s _ Pn. split; [reflexivity|exact Pn].
Qed.

Lemma at_least_full : forall d s, at_least d (length d) s -> sfiles s (DatP (H d)) = Some d.
Proof.
  intros d s (c & Ec & Hp & Hl). rewrite Ec. f_equal. apply prefix_full; [exact Hp|].
  apply prefix_length in Hp. lia.
Qed.

Lemma valid_write_chunks : forall A (Q : A -> sys -> Prop) d cs w (K : bool -> prog A),
  U d -> is_prefix (w ++ concat cs) d ->
  validc (at_least d (length (w ++ concat cs))) Q (K true) ->
  validc (at_least d (length w)) Q (write_chunks (DatP (H d)) cs (length w) K).
Proof.
  intros A Q d cs. induction cs as [|x r IH]; intros w K Ud Hpre Hk; cbn [write_chunks concat] in *.
  - rewrite app_nil_r in Hk. exact Hk.
  - rewrite app_assoc in Hpre, Hk.
    assert (is_prefix (w ++ x) d) as Hx by (eapply prefix_trans; [|exact Hpre]; eexists; reflexivity).
    assert (firstn (length w) d = w) as Ew.
    { symmetry. apply prefix_firstn. eapply prefix_trans; [|exact Hx]. eexists; reflexivity. }
    apply (valid_op_det (at_least d (length w + length x)) (RWrote (length x))); [stab| |].
    { intros s torn Js Pa. rewrite <- Ew in Hx. exact (cstep_write_dat d (length w) x torn s Ud Js Pa Hx). }
    cbn [wrote_all]. rewrite Nat.eqb_refl, <- app_length. apply IH; assumption.
Qed.

Definition copied (d : bytes) (ok : bool) (s : sys) : Prop := ok = true /\ sfiles s (DatP (H d)) = Some d.

Lemma valid_copy_rewrite : forall chunks,
  let d := concat chunks in U d ->
  validc (fun _ => True) (copied d) (copy_rewrite H (honest_reader chunks) (H d) (length d) false).
Proof.
  intros chunks d Ud. rewrite copy_rewrite_eq; unfold copy_rewrite_body. rewrite (open_copy _ false).
  set (pd := DatP (H d)).
  assert (forall K : prog bool, validc (fun s => sfiles s pd = Some d) (copied d) K ->
            validc (fun s => sfiles s pd = Some d) (copied d) (Op (OClose pd) (fun _ => K))) as Hclose
    by (intros K HK; apply valid_observe; [exact I|stab|intros _; exact HK]).
  assert (validc (fun s => sfiles s pd = Some d) (copied d) (Ret true)) as Hret
    by (apply v_ret; [stab|intros s _ Pc; split; [reflexivity|exact Pc]]).
  apply (valid_op_det (at_least d 0) ROk); [stab| |].
  { intros s torn Js _. exact (cstep_open_dat d torn s Ud Js). }
  destruct (Nat.eqb (length d) 0) eqn:E0.
  - apply Nat.eqb_eq in E0. eapply valid_weaken; [apply Hclose, Hret|stab|].
    intros s _ Pa. apply at_least_full. rewrite E0. exact Pa.
  - apply Nat.eqb_neq in E0. cbn [honest_reader rd_seek2 rd_pass2 negb]. fold d.
    destruct (firstn_pred_last d) as (b & Eb & Ed); [lia|].
    apply (valid_write_chunks _ _ d _ [] _ Ud); cbn [app]; rewrite cut_chunks_concat; [apply firstn_prefix|].
    fold d. cbn [negb].
    replace (Nat.ltb (length d) (length d - 1)) with false by (symmetry; apply Nat.ltb_ge; lia).
    rewrite Eb, Ed, bytes_eqb_refl. cbn [negb].
    assert (length (firstn (length d - 1) d) = length d - 1)%nat as Lw by (rewrite firstn_length; lia).
    rewrite Lw.
    apply (valid_op_det (fun s => sfiles s pd = Some d) (RWrote 1)); [stab| |].
    { intros s torn Js Pa.
      assert (is_prefix (firstn (length d - 1) d ++ [b]) d) as Hx by (rewrite Ed; apply prefix_refl).
      destruct (cstep_write_dat d (length d - 1) [b] torn s Ud Js Pa Hx) as (Hg & Hr & Ha).
      split; [exact Hg|]. split; [exact Hr|]. apply at_least_full.
      cbn [length] in Ha. replace (length d - 1 + 1)%nat with (length d) in Ha by lia. exact Ha. }
    cbn [wrote_all length Nat.eqb].
    apply (valid_observe_det _ _ _ _ _ _ ROk); [exact I|stab|reflexivity|]. cbn [is_err].
    apply valid_observe; [exact I|stab|]. intros _. apply Hclose, Hret.
Qed.

Lemma view_prefix : forall s out torn v, Jc s -> view s (DatP out) torn = Some v ->
  exists c, sfiles s (DatP out) = Some c /\ is_prefix v c.
Proof.
  intros s out torn v (_ & Hj2 & _) Hv. unfold view in Hv.
  destruct (sfiles s (DatP out)) as [c|] eqn:Ec; [|discriminate]. exists c. split; [reflexivity|].
  destruct torn as [j|]; [|injection Hv as <-; apply prefix_refl].
  destruct (slast s (DatP out)) as [o|] eqn:Eo; [|injection Hv as <-; apply prefix_refl].
  injection Hv as <-. destruct (Hj2 _ _ Eo) as (c' & Ec' & Ho). rewrite Ec in Ec'. injection Ec' as <-.
  apply (mix_prefix j c o Ho).
Qed.

Lemma view_dat : forall s d torn v, Jc s -> U d -> view s (DatP (H d)) torn = Some v ->
  exists c, sfiles s (DatP (H d)) = Some c /\ is_prefix v c /\ is_prefix c d.
Proof.
  intros s d torn v Js Ud Hv. destruct (view_prefix s _ torn v Js Hv) as (c & Ec & Hp).
  exists c. split; [exact Ec|]. split; [exact Hp|].
  exact (Jc_dat _ _ _ Js Ud Ec).
Qed.

Lemma valid_copy_file : forall chunks,
  let d := concat chunks in U d ->
  validc (fun _ => True) (copied d) (copy_file_prog H (honest_reader chunks) (H d) (length d)).
Proof.
  intros chunks d Ud. unfold copy_file_prog. set (pd := DatP (H d)).
  assert (forall P, stablec P -> validc P (copied d) (copy_rewrite H (honest_reader chunks) (H d) (length d) false)) as Hrw.
  { intros P HP. eapply valid_weaken; [exact (valid_copy_rewrite chunks Ud)|exact HP|intros; exact I]. }
  (* Stat: the size of a prefix of d; the full size means the file is complete *)
  set (sized := fun (n : nat) (s : sys) => (n <= length d)%nat /\ (n = length d -> sfiles s pd = Some d)).
  assert (forall n, stablec (sized n)) as Hst
    by (intros n; apply and_stable; [apply pure_stable|apply impl_stable; apply complete_stable; exact Ud]).
  apply (v_op _ _ _ _ _ _ (fun r s => match r with RSize n => sized n s | _ => True end)); [stab| |].
  { intros s torn Js _. split; [apply (cstep_observing (OStat pd) torn s I)|].
    cbn [cstep fst snd]. destruct (sfiles s pd) as [c|] eqn:Ec; [|exact I].
    pose proof (Jc_dat _ _ _ Js Ud Ec) as Hc.
    pose proof (prefix_length _ _ Hc). split; [lia|].
    intros E. cbn [fst]. rewrite Ec. f_equal. apply prefix_full; [exact Hc|lia]. }
  intros r. destruct r; try (apply Hrw; stab).
  destruct (Nat.eqb n (length d)) eqn:En.
  - apply Nat.eqb_eq in En. subst n.
    apply (v_op _ _ _ _ _ _ (fun _ s => sfiles s pd = Some d)); [apply Hst| |].
    { intros s torn Js (_ & Pc). pose proof (cstep_observing (OOpen pd false false) torn s I) as Hg.
      split; [exact Hg|]. exact (complete_stable d Ud _ _ Js (Pc eq_refl) Hg). }
    intros r2. destruct r2; try (apply Hrw; stab).
    apply valid_observe; [exact I|stab|]. intros r3.
    apply valid_observe; [exact I|stab|]. intros _.
    destruct (bytes_eqb _ _); [|apply Hrw; stab].
    assert (validc (fun s => sfiles s pd = Some d) (copied d) (Ret true)) as Hret
      by (apply v_ret; [stab|intros s _ Pc; split; [reflexivity|exact Pc]]).
    destruct copy_reuse_refreshes; [apply valid_used; [stab|]|]; exact Hret.
  - apply Nat.eqb_neq in En. destruct (Nat.ltb (length d) n) eqn:El; [|apply Hrw, Hst].
    apply Nat.ltb_lt in El. apply valid_absurd; [apply Hst|intros s (Hle & _); lia].
Qed.

Definition call_ok (c : call) : Prop :=
  match c with CPut id chunks tm => PS id (concat chunks) tm | CPutR _ _ _ => False | _ => True end.

(* a completed Put has succeeded, and from then on the index file of its id is never empty *)
Definition post (c : call) (r : cres) (s : sys) : Prop :=
  match c, r with
  | CPut id chunks tm, XPut pr => pr = PutOk (H (concat chunks)) (length (concat chunks)) /\ idx_nonempty id s
  | CPut _ _ _, _ => False
  | _, _ => True
  end.

Lemma post_stable : forall c r, stablec (post c r).
Proof. intros c r. destruct c, r; cbn [post]; stab. Qed.

Lemma valid_bind_ret : forall J A B (P : sys -> Prop) (Q : B -> sys -> Prop) (g : A -> B) (p : prog A),
  valid J Gc P (fun a s => Q (g a) s) p -> (forall b, stable J Gc (Q b)) ->
  valid J Gc P Q (bind p (fun a => Ret (g a))).
Proof.
  intros J A B P Q g p Hv Hst. eapply valid_bind; [exact Hv|].
  intros a. apply v_ret; [apply Hst|auto].
Qed.

Lemma call_valid : forall c, call_ok c -> validc (fun _ => True) (post c) (call_prog H c).
Proof.
  intros c Hok. destruct c as [id chunks tm|id rd tm|id|id|id]; cbn [call_prog]; [|destruct Hok| | |];
    (apply valid_bind_ret; [|intros b; apply post_stable]).
  - cbn [call_ok] in Hok. destruct (PS_ok _ _ _ Hok) as (Ud & _).
    rewrite put_prog_eq; unfold put_prog_body. cbn [honest_reader rd_seek1 rd_ok1 rd_pass1 negb orb].
    eapply valid_bind; [apply (valid_copy_file chunks Ud)|].
    intros ok. destruct ok; [|apply valid_absurd; [unfold copied; stab|intros s (E & _); discriminate]].
    eapply valid_weaken; [|unfold copied; stab|intros s _ (_ & Pc); exact Pc].
    eapply valid_bind; [apply (valid_index id (concat chunks) tm Hok)|].
    intros ok2. apply v_ret; [stab|]. intros s _ (-> & Pn). cbn [post]. auto.
  - eapply valid_weaken; [apply valid_readonly; apply readonly_get|stab|intros; exact I].
  - eapply valid_weaken; [apply valid_readonly; apply readonly_get_bytes|stab|intros; exact I].
  - eapply valid_weaken; [apply valid_readonly; apply readonly_get_file|stab|intros; exact I].
Qed.

(* GetBytes hashes the empty data when its ReadAll fails (data := []), hence U []; a prefix of a content
   of U must not hash like the whole, since a torn view of an output file is a prefix *)
Definition lookup_hyps : Prop :=
  no_hybrid H U /\ (forall d c, U d -> is_prefix c d -> H c = H d -> c = d) /\ U [].

(* every byte of e is, at its position, a byte of the entry of some Put of id whose output is complete:
   CacheFaultFacts.covered with the Puts of PS in place of the contents of U, stable under Gc *)
Definition pwc (id e : bytes) (s : sys) : Prop :=
  forall i b, nth_error e i = Some b ->
    exists d tm, PS id d tm /\ sfiles s (DatP (H d)) = Some d /\ nth_error (entry id d tm) i = Some b.

Lemma pwc_stable : forall id e, stablec (pwc id e).
Proof.
  intros id e s s' Js Hp Hg i b Hn. destruct (Hp i b Hn) as (d & tm & Hps & Hf & He).
  exists d, tm. split; [exact Hps|]. split; [|exact He].
  destruct (PS_ok _ _ _ Hps) as (Ud & _). exact (complete_stable d Ud s s' Js Hf Hg).
Qed.

Lemma pwc_nil : forall id s, pwc id [] s.
Proof. intros id s i b Hn. destruct i; discriminate. Qed.

Lemma pwc_good : forall s id c, good_idx (sfiles s) id c -> pwc id c s.
Proof. intros s id c [->|(d & tm & Hps & -> & Hf)]; [apply pwc_nil|]. intros i b Hn. exists d, tm. auto. Qed.

Lemma pwc_mix : forall id j c o s, pwc id c s -> pwc id o s -> (length o <= length c)%nat -> pwc id (mix j c o) s.
Proof.
  intros id j c o s Hc Ho Hl i b Hn. unfold mix in Hn.
  destruct (le_lt_dec (length c) j) as [L|L].
  - rewrite firstn_all2 in Hn by exact L. rewrite skipn_all2 in Hn by lia. rewrite app_nil_r in Hn. apply Hc. exact Hn.
  - assert (length (firstn j c) = j) as Lf by (rewrite firstn_length; lia).
    destruct (lt_dec i j) as [Li|Li].
    + rewrite nth_error_app1 in Hn by lia. apply Hc. eapply nth_error_firstn_some; exact Hn.
    + rewrite nth_error_app2 in Hn by lia. rewrite Lf, nth_error_skipn_add in Hn.
      replace (j + (i - j))%nat with i in Hn by lia. apply Ho. exact Hn.
Qed.

Lemma view_idx_pwc : forall s id torn v, Jc s -> view s (IdxP id) torn = Some v -> pwc id v s.
Proof.
  intros s id torn v (_ & _ & Hj3 & Hj4 & Hj5) Hv. unfold view in Hv.
  destruct (sfiles s (IdxP id)) as [c|] eqn:Ec; [|discriminate].
  pose proof (Hj3 _ _ Ec) as Hgc.
  destruct torn as [j|]; [|injection Hv as <-; apply pwc_good; exact Hgc].
  destruct (slast s (IdxP id)) as [o|] eqn:Eo; [|injection Hv as <-; apply pwc_good; exact Hgc].
  injection Hv as <-. pose proof (Hj4 _ _ Eo) as Hgo.
  destruct (Hj5 _ _ Eo) as (c' & Ec' & Hn). rewrite Ec in Ec'. injection Ec' as <-.
  apply pwc_mix; [apply pwc_good; exact Hgc|apply pwc_good; exact Hgo|].
  destruct Hgc as [->|(d & tm & Hps & -> & _)]; [contradiction|]. rewrite (entry_length _ _ _ Hps).
  destruct Hgo as [->|(d' & tm' & Hps' & -> & _)]; [cbn; lia|rewrite (entry_length _ _ _ Hps'); lia].
Qed.

Lemma pwc_app_read : forall id acc v need s, pwc id acc s -> pwc id v s ->
  pwc id (acc ++ firstn need (skipn (length acc) v)) s.
Proof.
  intros id acc v need s Ha Hv i b Hn. destruct (lt_dec i (length acc)) as [L|L].
  - rewrite nth_error_app1 in Hn by exact L. apply Ha. exact Hn.
  - rewrite nth_error_app2 in Hn by lia. apply nth_error_firstn_some in Hn. rewrite nth_error_skipn_add in Hn.
    replace (length acc + (i - length acc))%nat with i in Hn by lia. apply Hv. exact Hn.
Qed.

Lemma valid_read_full_pwc : forall A (Q : A -> sys -> Prop) id fuel need acc (k : bytes -> prog A),
  (forall e, validc (pwc id e) Q (k e)) ->
  validc (pwc id acc) Q (read_full fuel (IdxP id) (length acc) need acc k).
Proof.
  intros A Q id fuel. induction fuel as [|f IH]; intros need acc k Hk; cbn [read_full]; [apply Hk|].
  destruct (Nat.eqb need 0); [apply Hk|].
  apply (v_op _ _ _ _ _ _ (fun r => match r with RBytes b => pwc id (acc ++ b) | _ => pwc id acc end)); [apply pwc_stable| |].
  { intros s torn Js Ha. pose proof (cstep_observing (ORead (IdxP id) (length acc) need) torn s I) as Hg.
    split; [exact Hg|]. cbn [cstep fst snd]. destruct (view s (IdxP id) torn) as [v|] eqn:Ev; [|exact Ha].
    apply pwc_app_read; [exact Ha|]. eapply view_idx_pwc; eassumption. }
  intros r. destruct r as [| |n|b|n]; try apply Hk.
  destruct (Nat.eqb (length b) 0) eqn:Eb.
  - apply Nat.eqb_eq in Eb. destruct b; [|discriminate]. rewrite app_nil_r. apply Hk.
  - rewrite <- app_length. apply IH. exact Hk.
Qed.

(* what is known of the output an assembled entry names: if it is the hash of a content of U,
   that content was stored for this id by a Put and its file is complete *)
Definition out_ok (id out : bytes) (s : sys) : Prop :=
  forall d0, U d0 -> H d0 = out -> (exists tm, PS id d0 tm) /\ sfiles s (DatP out) = Some d0.

Lemma out_ok_stable : forall id out, stablec (out_ok id out).
Proof.
  intros id out s s' Js Ho Hg d0 Ud0 Hh. destruct (Ho d0 Ud0 Hh) as [Hp Hf]. split; [exact Hp|].
  subst out. exact (complete_stable d0 Ud0 s s' Js Hf Hg).
Qed.

Lemma pwc_parse_out : forall id e out size tm s,
  no_hybrid H U -> pwc id e s -> parse_entry e id = Some (out, size, tm) -> out_ok id out s.
Proof.
  intros id e out size tm s Hnh Hpw Ep d0 Ud0 Hh. subst out.
  apply (piecewise_parse_out H U H_len (fun d => (exists t, PS id d t) /\ sfiles s (DatP (H d)) = Some d)
           id e (H d0) size tm Hnh); auto.
  intros i b Hn. destruct (Hpw i b Hn) as (d & t & Hps & Hf & He). destruct (PS_ok _ _ _ Hps) as (Ud & _).
  exists d, t. eauto.
Qed.

Lemma valid_get_pwc : forall id, no_hybrid H U ->
  validc (fun _ => True) (fun e s => match e with Some (out, _, _) => out_ok id out s | None => True end) (get_prog id).
Proof.
  intros id Hnh. unfold get_prog.
  apply valid_observe; [exact I|stab|]. intros r.
  destruct r; try (apply v_ret; [stab|auto]).
  eapply valid_weaken; [|stab|intros s _ _; apply (pwc_nil id s)].
  apply (valid_read_full_pwc _ _ id _ _ []).
  intros e. destruct (parse_entry e id) as [[[out size] tm]|] eqn:Ep.
  - apply valid_used; [apply pwc_stable|]. apply valid_observe; [exact I|apply pwc_stable|]. intros _.
    apply v_ret; [apply pwc_stable|]. intros s _ Hpw. eapply pwc_parse_out; eassumption.
  - apply valid_observe; [exact I|apply pwc_stable|]. intros _. apply v_ret; [apply pwc_stable|auto].
Qed.

Lemma view_dat_any : forall s out torn v, Jc s -> view s (DatP out) torn = Some v ->
  exists d0, U d0 /\ H d0 = out /\ is_prefix v d0.
Proof.
  intros s out torn v Js Hv. destruct (view_prefix s out torn v Js Hv) as (c & Ec & Hp).
  destruct Js as (Hi1 & _). destruct (Hi1 _ _ Ec) as (d0 & Ud0 & Hh & Hp0).
  exists d0. split; [exact Ud0|]. split; [exact Hh|eapply prefix_trans; eassumption].
Qed.

Definition bytes_post (id : bytes) (l : lookup bytes) : Prop :=
  match l with Found d out _ _ => out = H d /\ exists tm, PS id d tm | NotFound => True end.

Lemma valid_get_bytes_strong : forall id, no_hybrid H U ->
  validc (fun _ => True) (fun l _ => lookup_hyps -> bytes_post id l) (get_bytes_prog H id).
Proof.
  intros id Hnh. unfold get_bytes_prog.
  eapply valid_bind; [apply (valid_get_pwc id Hnh)|].
  intros [[[out size] tm]|]; [|apply v_ret; [stab|intros; exact I]].
  apply valid_output_file; [apply out_ok_stable|].
  set (seen := fun r => match r with RBytes v => exists d0, U d0 /\ H d0 = out /\ is_prefix v d0 | _ => True end).
  assert (forall r, stablec (fun s => out_ok id out s /\ seen r)) as St
    by (intros r; apply and_stable; [apply out_ok_stable|apply pure_stable]).
  apply (v_op _ _ _ _ _ _ (fun r s => out_ok id out s /\ seen r)); [apply out_ok_stable| |].
  { intros s torn Js Hpo. pose proof (cstep_observing (OReadAll (DatP out)) torn s I) as Hg.
    split; [exact Hg|]. split; [exact (out_ok_stable id out _ _ Js Hpo Hg)|].
    cbn [cstep fst snd seen]. destruct (view s (DatP out) torn) as [v|] eqn:Ev; [|exact I].
    eapply view_dat_any; eassumption. }
  intros r. cbv zeta.
  match goal with |- context [bytes_eqb ?a ?b] => destruct (bytes_eqb a b) eqn:Eh end;
    [|apply v_ret; [apply St|intros; exact I]].
  apply bytes_eqb_eq in Eh.
  apply v_ret; [apply St|]. intros s _ (Hpo & Hr) (_ & Hpc & Unil). cbn [bytes_post].
  destruct r as [| |n|v|n]; try (split; [symmetry; exact Eh|apply (Hpo _ Unil Eh)]).
  destruct Hr as (d0 & Ud0 & Hh & Hp). assert (v = d0) by (apply (Hpc d0 v Ud0 Hp); congruence). subst v.
  split; [symmetry; exact Eh|apply (Hpo _ Ud0 Hh)].
Qed.

(* what GetFile guarantees under concurrency: the named file holds exactly a content that a Put
   stored for that very id, whose hash is the reported OutputID and whose length the reported size *)
Definition file_post (id : bytes) (l : lookup path) (s : sys) : Prop :=
  match l with
  | Found p out size _ =>
      exists d, (exists tm, PS id d tm) /\ out = H d /\ p = DatP (H d) /\ size = Z.of_nat (length d) /\ sfiles s p = Some d
  | NotFound => True
  end.

Lemma file_post_stable : forall id l, stablec (file_post id l).
Proof.
  intros id l. destruct l as [|p out size tm]; [stab|].
  intros s s' Js (d & (t & Hps) & -> & -> & -> & Hf) Hg. exists d. repeat split; eauto.
  destruct (PS_ok _ _ _ Hps) as (Ud & _). exact (complete_stable d Ud s s' Js Hf Hg).
Qed.

Lemma valid_get_file_strong : forall id, no_hybrid H U ->
  validc (fun _ => True) (file_post id) (get_file_prog id).
Proof.
  intros id Hnh. unfold get_file_prog.
  eapply valid_bind; [apply (valid_get_pwc id Hnh)|].
  intros [[[out size] tm]|]; [|apply v_ret; [stab|intros; exact I]].
  apply valid_output_file; [apply out_ok_stable|].
  set (sized := fun r s => match r with
                           | RSize n => Z.of_nat n = size -> file_post id (Found (DatP out) out size tm) s
                           | _ => True end).
  assert (forall r, stablec (sized r)) as St
    by (intros r; destruct r; try apply pure_stable; apply impl_stable, file_post_stable).
  apply (v_op _ _ _ _ _ _ sized); [apply out_ok_stable| |].
  - intros s torn Js Ho. split; [apply (cstep_observing (OStat (DatP out)) torn s I)|].
    cbn [cstep fst snd]. destruct (sfiles s (DatP out)) as [c|] eqn:Ec; [|exact I].
    pose proof Js as (Hi1 & _). destruct (Hi1 _ _ Ec) as (d0 & Ud0 & Hh & Hp).
    destruct (Ho d0 Ud0 Hh) as [Hps Hf]. rewrite Ec in Hf. injection Hf as ->.
    intros En. exists d0. subst out. auto.
  - intros r. destruct r as [| |n|b|n]; try (apply v_ret; [apply St|intros; exact I]).
    destruct (Z.eqb (Z.of_nat n) size) eqn:En; [|apply v_ret; [apply St|intros; exact I]].
    apply Z.eqb_eq in En. apply v_ret; [apply St|]. intros s _ Hs. exact (Hs En).
Qed.

Definition post3 (c : call) (r : cres) (s : sys) : Prop :=
  post c r s /\ match c, r with
                | CGetFile id, XFile l => file_post id l s
                | CGetBytes id, XBytes l => lookup_hyps -> bytes_post id l
                | _, _ => True
                end.

Lemma post3_stable : forall c r, stablec (post3 c r).
Proof.
  intros c r. apply and_stable; [apply post_stable|]. destruct c, r; try stab. apply file_post_stable.
Qed.

Lemma call_valid3 : no_hybrid H U -> forall c, call_ok c -> validc (fun _ => True) (post3 c) (call_prog H c).
Proof.
  intros Hnh c Hok. destruct c as [id chunks tm|id rd tm|id|id|id];
    try (eapply valid_post_mono; [apply (call_valid _ Hok)|intros a s Hp; split; [exact Hp|destruct a; exact I]]).
  - cbn [call_prog]. apply valid_bind_ret; [|intros b; apply (post3_stable (CGetBytes id) b)].
    eapply valid_post_mono; [apply (valid_get_bytes_strong id Hnh)|].
    intros l s Hb. split; [exact I|exact Hb].
  - cbn [call_prog]. apply valid_bind_ret; [|intros b; apply (post3_stable (CGetFile id) b)].
    eapply valid_post_mono; [apply (valid_get_file_strong id Hnh)|].
    intros l s Hb. split; [exact I|exact Hb].
Qed.

(* a GetFile interleaved operation by operation with any writers, its entry reads
   possibly torn, names only a file that holds exactly a content some Put stored for that very
   id, with the reported OutputID its hash and the reported size its length -- and that file
   keeps holding it in every later state *)
Theorem get_file_conc : no_hybrid H U ->
  forall callss fs0 sched,
  Jc (init_sys fs0) -> Forall (Forall call_ok) callss ->
  forall i calls cl k id l,
  nth_error callss i = Some calls ->
  nth_error (fst (run_conc H sched (map (start H) callss, init_sys fs0))) i = Some cl ->
  nth_error calls k = Some (CGetFile id) -> nth_error (results cl) k = Some (XFile l) ->
  file_post id l (snd (run_conc H sched (map (start H) callss, init_sys fs0))).
Proof.
  intros Hnh callss fs0 sched J0 Hok i calls cl k id l Ecalls Ecl Ecall Eres.
  pose proof (run_init_sound Gc_refl Gc_J H post3_stable (call_valid3 Hnh) callss _ sched J0 Hok) as S.
  exact (proj2 (sinv_result S Ecalls Ecl Ecall Eres)).
Qed.

(* re-storing: an id whose Puts all carry the same content, stored before the clients start *)
Section Restore.
Variable rid d0 : bytes.
Hypothesis Hsingle : forall d tm, PS rid d tm -> d = d0 /\ (10 ^ 18 <= tm < 2 * 10 ^ 18)%Z.

(* the entry is in place (and was, before the most recent write), the output is complete (and was) *)
Definition rest (s : sys) : Prop :=
  (exists c, sfiles s (IdxP rid) = Some c /\ c <> []) /\
  (forall o, slast s (IdxP rid) = Some o -> o <> []) /\
  sfiles s (DatP (H d0)) = Some d0 /\
  (slast s (DatP (H d0)) = None \/ slast s (DatP (H d0)) = Some d0).

Hypothesis Ud0 : U d0.

Lemma rest_stable : stablec rest.
Proof.
  intros s s' Js ((c & Ec & Hn) & Ho & Hd & Hl) Hg. pose proof Hg as [Hgr Hj].
  destruct (Hgr _ _ Ec) as (c' & Ec' & Hp & Hr). destruct (Hgr _ _ Hd) as (x & Ex & _ & Hrd).
  pose proof (complete_stable d0 Ud0 s s' Js Hd Hg) as Hd'.
  split; [exists c'; split; [exact Ec'|apply Hp; exact Hn]|]. split; [|split; [exact Hd'|]].
  - intros o Eo. destruct Hr as [E|[E|E]]; rewrite E in Eo; [apply Ho; exact Eo|discriminate|inversion Eo; subst; exact Hn].
  - destruct Hrd as [E|[E|E]]; rewrite E; auto.
Qed.

Definition Jr (s : sys) : Prop := Jc s /\ rest s.

Lemma Gc_Jr : forall s s', Jr s -> Gc s s' -> Jr s'.
Proof. intros s s' [Js Hr] Hg. split; [eapply Gc_J; eassumption|eapply rest_stable; eassumption]. Qed.

Notation validr := (valid Jr Gc).

Lemma stable_r : forall P, stablec P -> stable Jr Gc P.
Proof. intros P HP s s' [Js _] Ps Hg. eapply HP; eassumption. Qed.

Definition good_view (v : bytes) : Prop :=
  length v = entry_size_n /\ exists t', parse_entry v rid = Some (H d0, Z.of_nat (length d0), t').

Lemma entry_single : forall fs c, good_idx fs rid c -> c <> [] ->
  exists tm, PS rid d0 tm /\ c = entry rid d0 tm /\ fs (DatP (H d0)) = Some d0.
Proof.
  intros fs c [->|(d & tm & Hps & -> & Hf)] Hn; [contradiction|].
  destruct (Hsingle _ _ Hps) as [-> _]. exists tm. auto.
Qed.

Lemma mix_good : forall j t1 t0, PS rid d0 t1 -> PS rid d0 t0 -> good_view (mix j (entry rid d0 t1) (entry rid d0 t0)).
Proof.
  intros j t1 t0 H1 H0. destruct (PS_ok _ _ _ H1) as (_ & Li & _ & Hs).
  destruct (Hsingle _ _ H1) as [_ R1]. destruct (Hsingle _ _ H0) as [_ R0].
  split.
  - unfold mix. rewrite app_length, firstn_length, skipn_length, (entry_length _ _ _ H1), (entry_length _ _ _ H0). lia.
  - change mix with mixb. destruct (mix_entries_parse rid (H d0) (Z.of_nat (length d0)) t1 t0 j Li (H_len d0)) as (t' & _ & Hp); try assumption.
    + split; [apply Nat2Z.is_nonneg|exact Hs].
    + exists t'. exact Hp.
Qed.

Lemma view_idx_rest : forall s torn, Jr s -> exists v, view s (IdxP rid) torn = Some v /\ good_view v.
Proof.
  intros s torn [(_ & _ & Hj3 & Hj4 & _) ((c & Ec & Hn) & Ho & _)]. unfold view. rewrite Ec.
  destruct (entry_single _ c (Hj3 _ _ Ec) Hn) as (t1 & P1 & -> & _).
  assert (good_view (entry rid d0 t1)) as Hplain.
  { pose proof (mix_good (length (entry rid d0 t1)) t1 t1 P1 P1) as Hm. unfold mix in Hm. rewrite firstn_skipn in Hm. exact Hm. }
  destruct torn as [j|]; [|eauto].
  destruct (slast s (IdxP rid)) as [o|] eqn:Eo; [|eauto].
  destruct (entry_single _ o (Hj4 _ _ Eo) (Ho _ eq_refl)) as (t0 & P0 & -> & _).
  eexists. split; [reflexivity|]. apply mix_good; assumption.
Qed.

Lemma view_dat_rest : forall s torn, Jr s -> view s (DatP (H d0)) torn = Some d0.
Proof.
  intros s torn [_ (_ & _ & Hd & Hl)]. unfold view. rewrite Hd.
  destruct torn as [j|]; [|reflexivity].
  destruct Hl as [E|E]; rewrite E; [reflexivity|]. unfold mix. rewrite firstn_skipn. reflexivity.
Qed.

(* Get of the re-stored id: always an entry for d0.  The first Read delivers a whole view, the
   second (for the one byte behind entrySize) nothing *)
Lemma valid_get_rest :
  validr (fun _ => True) (fun e _ => exists t', e = Some (H d0, Z.of_nat (length d0), t')) (get_prog rid).
Proof.
  unfold get_prog.
  apply (valid_op_det (fun _ => True) ROk); [apply pure_stable| |].
  { intros s torn [Js Hr] _. split; [apply (cstep_observing (OOpen (IdxP rid) false false) torn s I)|].
    cbn [cstep step op_path]. destruct Hr as ((c & Ec & _) & _). rewrite Ec. auto. }
  cbn [read_full Nat.eqb].
  apply (valid_op_res (fun _ => True) (fun r => exists v, r = RBytes v /\ good_view v)); [apply pure_stable| |].
  { intros s torn Js _. split; [apply (cstep_observing (ORead (IdxP rid) 0 (S entry_size_n)) torn s I)|].
    cbn [cstep fst snd]. destruct (view_idx_rest s torn Js) as (v & -> & Hg). split; [|exact I].
    exists v. split; [|exact Hg]. cbn [skipn]. f_equal. apply firstn_all2. destruct Hg as [L _]. lia. }
  intros r (v & -> & L & t' & Hp). rewrite L.
  change (Nat.eqb entry_size_n 0) with false. replace (S entry_size_n - entry_size_n)%nat with 1%nat by lia.
  cbn [Nat.eqb].
  apply (valid_op_det (fun _ => True) (RBytes [])); [apply pure_stable| |].
  { intros s torn Js _. split; [apply (cstep_observing (ORead (IdxP rid) (0 + entry_size_n) 1) torn s I)|].
    cbn [cstep fst snd]. destruct (view_idx_rest s torn Js) as (v2 & -> & L2 & _). split; [|exact I].
    rewrite skipn_all2 by (rewrite L2; lia). reflexivity. }
  cbn [length Nat.eqb app]. rewrite Hp.
  apply valid_used; [apply pure_stable|]. apply valid_observe; [exact I|apply pure_stable|]. intros _.
  apply v_ret; [apply pure_stable|]. intros s _ _. exists t'. reflexivity.
Qed.

Lemma valid_used_r : forall A (X : Prop) (Q : A -> sys -> Prop) p (k : prog A),
  validr (fun _ => X) Q k -> validr (fun _ => X) Q (used_prog p k).
Proof. intros A X Q p k. apply valid_used, pure_stable. Qed.

Definition found_bytes (l : lookup bytes) : Prop := exists t', l = Found d0 (H d0) (Z.of_nat (length d0)) t'.
Definition found_file (l : lookup path) : Prop := exists t', l = Found (DatP (H d0)) (H d0) (Z.of_nat (length d0)) t'.

Lemma valid_get_bytes_rest : validr (fun _ => True) (fun l _ => found_bytes l) (get_bytes_prog H rid).
Proof.
  unfold get_bytes_prog. eapply valid_bind; [apply valid_get_rest|].
  intros e. cbv beta. apply valid_pure. intros (tm & ->).
  apply valid_output_file; [apply pure_stable|].
  apply (valid_op_det (fun _ => True) (RBytes d0)); [apply pure_stable| |].
  { intros s torn Js _. split; [apply (cstep_observing (OReadAll (DatP (H d0))) torn s I)|].
    cbn [cstep fst snd]. rewrite (view_dat_rest s torn Js). auto. }
  cbv zeta. rewrite bytes_eqb_refl.
  apply v_ret; [apply pure_stable|]. intros s _ _. exists tm. reflexivity.
Qed.

Lemma valid_get_file_rest : validr (fun _ => True) (fun l _ => found_file l) (get_file_prog rid).
Proof.
  unfold get_file_prog. eapply valid_bind; [apply valid_get_rest|].
  intros e. cbv beta. apply valid_pure. intros (tm & ->).
  apply valid_output_file; [apply pure_stable|].
  apply (valid_op_det (fun _ => True) (RSize (length d0))); [apply pure_stable| |].
  { intros s torn Js _. split; [apply (cstep_observing (OStat (DatP (H d0))) torn s I)|].
    cbn [cstep fst snd]. destruct Js as [_ (_ & _ & -> & _)]. auto. }
  rewrite Z.eqb_refl.
  apply v_ret; [apply pure_stable|]. intros s _ _. exists tm. reflexivity.
Qed.

Definition rpost (c : call) (r : cres) : Prop :=
  match c with
  | CGetBytes i => i = rid -> exists l, r = XBytes l /\ found_bytes l
  | CGetFile i => i = rid -> exists l, r = XFile l /\ found_file l
  | _ => True
  end.

Definition post_r (c : call) (r : cres) (s : sys) : Prop := post c r s /\ rpost c r.

Lemma post_r_stable : forall c r, stable Jr Gc (post_r c r).
Proof. intros c r. apply stable_r. apply and_stable; [apply post_stable|apply pure_stable]. Qed.

Lemma call_valid_r : forall c, call_ok c -> validr (fun _ => True) (post_r c) (call_prog H c).
Proof.
  intros c Hok.
  assert (validr (fun _ => True) (post c) (call_prog H c)) as Hbase.
  { apply (valid_strengthen Jc Jr Gc); [intros s [Js _]; exact Js|apply call_valid; exact Hok]. }
  destruct c as [id chunks tm|id rd tm|id|id|id];
    try (eapply valid_post_mono; [exact Hbase|intros a s Hp; split; [exact Hp|exact I]]).
  - (* GetBytes *) destruct (bytes_eqb id rid) eqn:Ei.
    + apply bytes_eqb_eq in Ei. subst id. cbn [call_prog].
      eapply valid_bind; [apply valid_get_bytes_rest|]. intros l.
      apply v_ret; [apply stable_r; stab|]. intros s _ Hf. split; [exact I|]. intros _. exists l. auto.
    + eapply valid_post_mono; [exact Hbase|]. intros a s Hp. split; [exact Hp|].
      cbn [rpost]. intros E. subst id. rewrite bytes_eqb_refl in Ei. discriminate.
  - (* GetFile *) destruct (bytes_eqb id rid) eqn:Ei.
    + apply bytes_eqb_eq in Ei. subst id. cbn [call_prog].
      eapply valid_bind; [apply valid_get_file_rest|]. intros l.
      apply v_ret; [apply stable_r; stab|]. intros s _ Hf. split; [exact I|]. intros _. exists l. auto.
    + eapply valid_post_mono; [exact Hbase|]. intros a s Hp. split; [exact Hp|].
      cbn [rpost]. intros E. subst id. rewrite bytes_eqb_refl in Ei. discriminate.
Qed.

(* however the lookups of the re-stored id are interleaved, operation by
   operation, with any writers, and whatever torn views they are served, every GetBytes and
   every GetFile of that id finds the content *)
Theorem restore_invisible : forall callss fs0 sched,
  Jc (init_sys fs0) -> Forall (Forall call_ok) callss ->
  idx_nonempty rid (init_sys fs0) ->
  forall i calls cl k r,
  nth_error callss i = Some calls -> nth_error (fst (run_conc H sched (map (start H) callss, init_sys fs0))) i = Some cl ->
  nth_error (results cl) k = Some r ->
  (nth_error calls k = Some (CGetBytes rid) -> exists l, r = XBytes l /\ found_bytes l) /\
  (nth_error calls k = Some (CGetFile rid) -> exists l, r = XFile l /\ found_file l).
Proof.
  intros callss fs0 sched J0 Hok (c & Ec & Hn) i calls cl k r Ecalls Ecl Eres.
  assert (Jr (init_sys fs0)) as Jr0.
  { split; [exact J0|]. pose proof J0 as (_ & _ & Hj3 & _).
    destruct (entry_single _ c (Hj3 _ _ Ec) Hn) as (tm & Hps & -> & Hf).
    split; [exists (entry rid d0 tm); split; [exact Ec|exact Hn]|]. split; [intros o Ho; discriminate|].
    split; [exact Hf|left; reflexivity]. }
  pose proof (run_init_sound Gc_refl Gc_Jr H post_r_stable call_valid_r callss _ sched Jr0 Hok) as S.
  split; intros Ecall; destruct (sinv_result S Ecalls Ecl Ecall Eres) as [_ Hb]; apply Hb; reflexivity.
Qed.

End Restore.

Definition conc_run (callss : list (list call)) (fs0 : files) (sched : list (nat * option nat)) : list client * sys :=
  run_conc H sched (map (start H) callss, init_sys fs0).

Lemma Jc_init : forall fs, I1 H U fs -> (forall id c, fs (IdxP id) = Some c -> good_idx fs id c) -> Jc (init_sys fs).
Proof.
  intros fs Hi1 Hidx. unfold Jc, init_sys. cbn [sfiles slast].
  split; [exact Hi1|]. split; [intros out o Ho; discriminate|]. split; [exact Hidx|split; intros id o Ho; discriminate].
Qed.

Theorem conc_sound : forall callss fs0 sched,
  Jc (init_sys fs0) -> Forall (Forall call_ok) callss ->
  sinv Jc Gc post call_ok callss (conc_run callss fs0 sched).
Proof.
  intros. apply (run_init_sound Gc_refl Gc_J H post_stable call_valid); assumption.
Qed.

(* whatever the interleaving, every output file holds a prefix of the content its name
   hashes, and every index file is empty or holds exactly the entry of a Put whose output is complete *)
Theorem conc_I1 : forall callss fs0 sched,
  Jc (init_sys fs0) -> Forall (Forall call_ok) callss ->
  let s := snd (conc_run callss fs0 sched) in
  I1 H U (sfiles s) /\ (forall id c, sfiles s (IdxP id) = Some c -> good_idx (sfiles s) id c).
Proof.
  intros callss fs0 sched J0 Hok s. destruct (conc_sound callss fs0 sched J0 Hok) as [(Hi1 & _ & Hj3 & _) _].
  split; [exact Hi1|exact Hj3].
Qed.

Lemma good_idx_lookup : forall fs id c, fs (IdxP id) = Some c -> c <> [] -> good_idx fs id c ->
  exists d tm, PS id d tm /\
    get_bytes H fs id = Found d (H d) (Z.of_nat (length d)) tm /\
    get_file fs id = Found (DatP (H d)) (H d) (Z.of_nat (length d)) tm.
Proof.
  intros fs id c Ec Hn [->|(d & tm & Hps & -> & Hf)]; [contradiction|].
  destruct (PS_ok _ _ _ Hps) as (Ud & Li & Ht & Hs).
  exists d, tm. split; [exact Hps|].
  assert (entry_of fs id = Some (H d, Z.of_nat (length d), tm)) as Ee.
  { unfold entry_of. rewrite Ec. unfold entry. apply entry_roundtrip; [exact Li|apply H_len| |exact Ht].
    split; [apply Nat2Z.is_nonneg|exact Hs]. }
  unfold get_bytes, get_file. rewrite run_get_bytes, run_get_file. cbn [snd]. rewrite Ee.
  cbn [bytes_lookup file_lookup]. rewrite Hf, bytes_eqb_refl, Z.eqb_refl. auto.
Qed.

Lemma Forall2_In_l : forall A B (R : A -> B -> Prop) l1 l2 a,
  Forall2 R l1 l2 -> In a l1 -> exists b, In b l2 /\ R a b.
Proof.
  intros A B R l1 l2 a Hf. induction Hf as [|x y l1 l2 Hxy Hf IH]; intros Hin; [contradiction|].
  destruct Hin as [->|Hin]; [exists y; split; [left; reflexivity|exact Hxy]|].
  destruct (IH Hin) as (b & H1 & H2). exists b. split; [right; exact H1|exact H2].
Qed.

(* when every client has finished, every id that some client stored is
   readable, and what is read is the content of some Put of that id *)
Theorem quiescent_all_readable : forall callss fs0 sched,
  Jc (init_sys fs0) -> Forall (Forall call_ok) callss ->
  let st := conc_run callss fs0 sched in
  finished (fst st) = true ->
  forall calls id chunks tm, In calls callss -> In (CPut id chunks tm) calls ->
  exists d tm', PS id d tm' /\
    get_bytes H (sfiles (snd st)) id = Found d (H d) (Z.of_nat (length d)) tm' /\
    get_file (sfiles (snd st)) id = Found (DatP (H d)) (H d) (Z.of_nat (length d)) tm'.
Proof.
  intros callss fs0 sched J0 Hok st Hfin calls id chunks tm Hin Hput.
  destruct (conc_sound callss fs0 sched J0 Hok) as [Js Hall]. fold st in Js, Hall.
  destruct (Forall2_In_l _ _ _ _ _ _ Hall Hin) as (cl & Hcl & Hc).
  assert (cur cl = None) as Ecur.
  { unfold finished in Hfin. rewrite forallb_forall in Hfin. specialize (Hfin cl Hcl). destruct (cur cl); [discriminate|reflexivity]. }
  destruct Hc as (_ & done & Hres & Hcur). rewrite Ecur in Hcur. destruct Hcur as [-> _].
  destruct (Forall2_In_l _ _ _ _ _ _ Hres Hput) as (r & _ & Hp).
  destruct r; cbn [post] in Hp; try contradiction. destruct Hp as (_ & c & Ec & Hn).
  exact (good_idx_lookup _ id c Ec Hn (Jc_idx _ id c Js Ec)).
Qed.

(* an id whose entry is in place when the clients start is
   readable in every state any schedule reaches (whatever is being re-stored, by whomever), and
   what is read is the content of a Put of that id *)
Theorem stored_id_readable : forall callss fs0 sched id,
  Jc (init_sys fs0) -> Forall (Forall call_ok) callss ->
  idx_nonempty id (init_sys fs0) ->
  let s := snd (conc_run callss fs0 sched) in
  exists d tm', PS id d tm' /\
    get_bytes H (sfiles s) id = Found d (H d) (Z.of_nat (length d)) tm' /\
    get_file (sfiles s) id = Found (DatP (H d)) (H d) (Z.of_nat (length d)) tm'.
Proof.
  intros callss fs0 sched id J0 Hok Hne s.
  destruct (conc_sound callss fs0 sched J0 Hok) as [Js _]. fold s in Js.
  assert (idx_nonempty id s) as (c & Ec & Hn).
  { unfold s, conc_run. apply (run_conc_stable Jc Gc Gc_refl Gc_J H post post_stable call_ok call_valid callss).
    - apply (sinv_init Jc Gc H post call_ok call_valid); assumption.
    - apply idx_nonempty_stable.
    - exact Hne. }
  exact (good_idx_lookup _ id c Ec Hn (Jc_idx _ id c Js Ec)).
Qed.

(* in every state any schedule reaches, a lookup (performed
   without interference) finds only bytes that a Put stored for that very id, with matching
   hash and size *)
Theorem lookup_in_state_is_some_put : forall callss fs0 sched id d out size tm,
  Jc (init_sys fs0) -> Forall (Forall call_ok) callss ->
  let s := snd (conc_run callss fs0 sched) in
  get_bytes H (sfiles s) id = Found d out size tm ->
  exists tm', PS id d tm' /\ out = H d /\ size = Z.of_nat (length d).
Proof.
  intros callss fs0 sched id d out size tm J0 Hok s Hg.
  destruct (conc_sound callss fs0 sched J0 Hok) as [(_ & _ & Hj3 & _) _]. fold s in Hj3.
  pose proof Hg as Hg'. unfold get_bytes in Hg'. rewrite run_get_bytes in Hg'. cbn [snd] in Hg'.
  unfold entry_of in Hg'. destruct (sfiles s (IdxP id)) as [c|] eqn:Ec; [|discriminate].
  assert (c <> []) as Hn by (intros ->; vm_compute in Hg'; discriminate).
  destruct (good_idx_lookup _ id c Ec Hn (Hj3 _ _ Ec)) as (d0 & t0 & Hps & Hb & _).
  rewrite Hb in Hg. inversion Hg; subst. eexists. split; [eassumption|split; reflexivity].
Qed.

(* a GetBytes interleaved operation by operation with any writers, and served
   torn views, returns only bytes that a Put of the system stored for that very id, with matching hash *)
Theorem lookup_is_some_put : lookup_hyps ->
  forall callss fs0 sched,
  Jc (init_sys fs0) -> Forall (Forall call_ok) callss ->
  forall i calls cl k id d out size tm,
  nth_error callss i = Some calls -> nth_error (fst (conc_run callss fs0 sched)) i = Some cl ->
  nth_error calls k = Some (CGetBytes id) -> nth_error (results cl) k = Some (XBytes (Found d out size tm)) ->
  out = H d /\ exists tm', PS id d tm'.
Proof.
  intros Hl callss fs0 sched J0 Hok i calls cl k id d out size tm Ecalls Ecl Ecall Eres.
  pose proof (run_init_sound Gc_refl Gc_J H post3_stable (call_valid3 (proj1 Hl)) callss _ sched J0 Hok) as S.
  exact (proj2 (sinv_result S Ecalls Ecl Ecall Eres) Hl).
Qed.

End CacheRG.

(* the hypotheses of the C11 theorems, bundled *)
Section Statements.
Variable H : bytes -> bytes.
Variable U : bytes -> Prop.
Variable PS : bytes -> bytes -> Z -> Prop.
Definition C11_hyps : Prop :=
  (forall x, length (H x) = hash_size_n) /\ H_inj_on H U /\
  (forall id d tm, PS id d tm ->
     U d /\ length id = hash_size_n /\ (0 <= tm < int64_lim)%Z /\ (Z.of_nat (length d) < int64_lim)%Z).
End Statements.
