(* Lemmas about the checked expressions of Lib/GoSem.v and the library denotations of Cache/SrcLib.v,
   shared by the proofs about the pure segments (Cache/SrcFacts.v, Gen/CacheSrc.v) and about the
   functions translated in world mode (Cache/SrcWorldFacts.v, Cache/SrcWorldGet.v, Gen/CacheWorldSrc.v);
   this file depends on neither translation. *)
From Coq Require Import List Bool Arith ZArith Lia ZifyBool.
From Coq.Strings Require Import Byte.
From GI Require Export Lib.GoSemExtFacts.
From GI Require Import Lib.Bytes Lib.GoSem Lib.GoSemSeg Gen.CacheConsts Cache.CacheEntry Cache.CacheEntryFacts
  Cache.SrcLib.
Import ListNotations.
Local Open Scope Z_scope.

Lemma firstn_S_mid {A} (l1 l2 : list A) v i : length l1 = i -> firstn (S i) (l1 ++ v :: l2) = l1 ++ [v].
Proof.
  intros <-. rewrite firstn_app. replace (S (length l1) - length l1)%nat with 1%nat by lia.
  rewrite firstn_all2 by lia. reflexivity.
Qed.

Lemma skipn_S_mid {A} (l1 l2 : list A) v i n : length l1 = i -> skipn (S i + n) (l1 ++ v :: l2) = skipn n l2.
Proof.
  intros <-. rewrite skipn_app. rewrite skipn_all2 by lia.
  replace (S (length l1) + n - length l1)%nat with (S n) by lia. reflexivity.
Qed.

Lemma hex_decode_into_ok : forall src dst i d,
  hex_decode src = Some d -> (i + length d <= length dst)%nat ->
  hex_decode_into dst src i = Ok (firstn i dst ++ d ++ skipn (i + length d) dst, (Z.of_nat (i + length d), false)).
Proof.
  fix IH 1. intros [|p [|q r]] dst i d Hd Hl.
  - injection Hd as <-. cbn [hex_decode_into length app]. rewrite Nat.add_0_r, firstn_skipn. reflexivity.
  - discriminate Hd.
  - cbn [hex_decode] in Hd. cbn [hex_decode_into].
    destruct (from_hex_char p) as [a|]; [|discriminate Hd]. destruct (from_hex_char q) as [b|]; [|discriminate Hd].
    destruct (hex_decode r) as [d'|] eqn:Er; [|discriminate Hd]. injection Hd as <-. cbn [length] in Hl.
    unfold go_store, len. replace ((0 <=? Z.of_nat i) && (Z.of_nat i <? Z.of_nat (length dst))) with true by lia.
    rewrite Nat2Z.id. rewrite (IH r _ (S i) d' Er).
    + assert (Li : length (firstn i dst) = i) by (rewrite firstn_length; lia).
      rewrite (firstn_S_mid _ _ _ _ Li), (skipn_S_mid _ _ _ _ _ Li), skipn_skipn'.
      rewrite <- !app_assoc. cbn [app].
      cbn [length]. replace (i + S (length d'))%nat with (S i + length d')%nat by lia. reflexivity.
    + rewrite app_length, firstn_length. cbn [length]. rewrite skipn_length. lia.
Qed.

Lemma go_hex_Decode_ok dst src d :
  hex_decode src = Some d -> length dst = length d -> go_hex_Decode dst src = Ok (d, (len d, false)).
Proof.
  intros Hd Hl. unfold go_hex_Decode. rewrite (hex_decode_into_ok src dst 0 d Hd) by lia.
  cbn [firstn app Nat.add]. rewrite skipn_all2 by lia. now rewrite app_nil_r.
Qed.

Lemma hex_decode_into_err : forall src dst i,
  hex_decode src = None -> (2 * i + length src <= 2 * length dst)%nat ->
  exists dst' k, hex_decode_into dst src i = Ok (dst', (k, true)).
Proof.
  fix IH 1. intros [|p [|q r]] dst i Hd Hl.
  - discriminate Hd.
  - cbn [hex_decode_into]. eauto.
  - cbn [hex_decode] in Hd. cbn [hex_decode_into].
    destruct (from_hex_char p) as [a|]; [|eauto]. destruct (from_hex_char q) as [b|]; [|eauto].
    cbn [length] in Hl. unfold go_store, len.
    replace ((0 <=? Z.of_nat i) && (Z.of_nat i <? Z.of_nat (length dst))) with true by lia.
    destruct (hex_decode r) eqn:Er; [discriminate Hd|].
    apply (IH r); [exact Er|]. rewrite app_length, firstn_length. cbn [length]. rewrite skipn_length. lia.
Qed.

Lemma go_hex_Decode_err dst src :
  hex_decode src = None -> (length src <= 2 * length dst)%nat ->
  exists dst' k, go_hex_Decode dst src = Ok (dst', (k, true)).
Proof. intros Hd Hl. apply hex_decode_into_err; [exact Hd|lia]. Qed.

(* the number of leading spaces *)
Fixpoint lead (s : bytes) : nat :=
  match s with
  | c :: r => if beq c SP then S (lead r) else O
  | [] => O
  end.

Lemma lead_le s : (lead s <= length s)%nat.
Proof. induction s as [|c r IH]; cbn [lead length]; [lia|]. destruct (beq c SP); lia. Qed.

Lemma lead_firstn n s : (lead (firstn n s) <= n)%nat.
Proof. pose proof (lead_le (firstn n s)). pose proof (firstn_le_length n s). lia. Qed.

Lemma skipn_lead s : skipn (lead s) s = skip_spaces s.
Proof. induction s as [|c r IH]; [reflexivity|]. cbn [lead skip_spaces]. destruct (beq c SP); [exact IH|reflexivity]. Qed.

Lemma skipn_cons_nth (s : bytes) i : (i < length s)%nat -> skipn i s = nth i s x00 :: skipn (S i) s.
Proof.
  revert s. induction i as [|i IH]; intros [|c r] H; cbn [length] in H; try lia; [reflexivity|].
  cbn [skipn nth]. apply IH. lia.
Qed.

(* for i < len(s) && s[i] == ' ' { i++ }: the four padding loops of the two translations of get have
   this unfolding (by reflexivity), with [isp] the translation's test for a space; started at 0 with
   a bound above the number of leading spaces, such a loop stops behind them *)
Lemma skip_loop_eq {L R : Type} (loop : nat -> bytes -> Z -> res (outcome Z L R)) (isp : byte -> bool) :
  (forall c, isp c = beq c SP) ->
  (forall n s i, loop (S n) s i =
     bind (if i <? len s then bind (go_index s i) (fun c => Ok (isp c)) else Ok false)
       (fun t => if t then bindL (Ok (Normal (i + 1))) (fun i => loop n s i) else Ok (Normal i))) ->
  forall s n, (lead s < n)%nat -> loop n s 0 = Ok (Normal (Z.of_nat (lead s))).
Proof.
  intros Hisp Hstep s n Hn.
  enough (forall n i, (i <= length s)%nat -> (lead (skipn i s) < n)%nat ->
            loop n s (Z.of_nat i) = Ok (Normal (Z.of_nat (i + lead (skipn i s))))) as G
    by (apply (G n 0%nat); [lia|exact Hn]).
  clear n Hn. induction n as [|n IH]; intros i Hi Hn; [lia|]. rewrite Hstep. unfold len.
  destruct (Nat.eq_dec i (length s)) as [->|Ne].
  - rewrite Z.ltb_irrefl, skipn_all. cbn [bind lead]. now rewrite Nat.add_0_r.
  - replace (Z.of_nat i <? Z.of_nat (length s)) with true by lia.
    rewrite go_index_ok by (unfold len; lia). rewrite Nat2Z.id. cbn [bind].
    rewrite (skipn_cons_nth s i) in Hn |- * by lia. cbn [lead] in Hn |- *. rewrite Hisp.
    destruct (beq (nth i s x00) SP).
    + cbn [bindL]. replace (Z.of_nat i + 1) with (Z.of_nat (S i)) by lia.
      rewrite IH by lia. do 3 f_equal. lia.
    + now rewrite Nat.add_0_r.
Qed.

(* the fragments of get's parser, each with its continuation K abstract *)

(* if entry[i0] != c0 || entry[i1] != c1 || ... (seven bytes): [pk] is the translation's test for ck *)
Section Header.
Context {A : Type} (x tail : bytes) (K : bool -> res A).
Variables (i0 i1 i2 i3 i4 i5 i6 : Z) (c0 c1 c2 c3 c4 c5 c6 : byte) (p0 p1 p2 p3 p4 p5 p6 : byte -> bool).
Hypotheses (Hi0 : 0 <= i0 < len x) (Hi1 : 0 <= i1 < len x) (Hi2 : 0 <= i2 < len x) (Hi3 : 0 <= i3 < len x)
  (Hi4 : 0 <= i4 < len x) (Hi5 : 0 <= i5 < len x) (Hi6 : 0 <= i6 < len x).
Hypotheses (Hp0 : forall b, p0 b = beq b c0) (Hp1 : forall b, p1 b = beq b c1) (Hp2 : forall b, p2 b = beq b c2)
  (Hp3 : forall b, p3 b = beq b c3) (Hp4 : forall b, p4 b = beq b c4) (Hp5 : forall b, p5 b = beq b c5)
  (Hp6 : forall b, p6 b = beq b c6).

Lemma header_checks :
  bind (go_index (x ++ tail) i0) (fun t0 =>
  bind (if negb (p0 t0) then Ok true else bind (go_index (x ++ tail) i1) (fun t => Ok (negb (p1 t)))) (fun r1 =>
  bind (if r1 then Ok true else bind (go_index (x ++ tail) i2) (fun t => Ok (negb (p2 t)))) (fun r2 =>
  bind (if r2 then Ok true else bind (go_index (x ++ tail) i3) (fun t => Ok (negb (p3 t)))) (fun r3 =>
  bind (if r3 then Ok true else bind (go_index (x ++ tail) i4) (fun t => Ok (negb (p4 t)))) (fun r4 =>
  bind (if r4 then Ok true else bind (go_index (x ++ tail) i5) (fun t => Ok (negb (p5 t)))) (fun r5 =>
  bind (if r5 then Ok true else bind (go_index (x ++ tail) i6) (fun t => Ok (negb (p6 t)))) K))))))
  = K (negb (beq (nth (Z.to_nat i0) x x00) c0 && beq (nth (Z.to_nat i1) x x00) c1 && beq (nth (Z.to_nat i2) x x00) c2
             && beq (nth (Z.to_nat i3) x x00) c3 && beq (nth (Z.to_nat i4) x x00) c4 && beq (nth (Z.to_nat i5) x x00) c5
             && beq (nth (Z.to_nat i6) x x00) c6)).
Proof.
  rewrite !go_index_app by assumption. cbn [bind]. rewrite Hp0, Hp1, Hp2, Hp3, Hp4, Hp5, Hp6.
  destruct (beq _ c0); [|reflexivity]. destruct (beq _ c1); [|reflexivity]. destruct (beq _ c2); [|reflexivity].
  destruct (beq _ c3); [|reflexivity]. destruct (beq _ c4); [|reflexivity]. destruct (beq _ c5); reflexivity.
Qed.
End Header.

(* v[lo:hi], v[hi:] of v = x ++ tail: a field and what is behind it *)
Lemma slice_cut {A} (x tail : bytes) lo hi (K : bytes -> bytes -> res A) :
  0 <= lo <= hi -> hi <= len x ->
  bind (go_slice (x ++ tail) lo hi) (fun a => bind (go_slice (x ++ tail) hi (len (x ++ tail))) (fun b => K a b))
  = K (firstn (Z.to_nat hi - Z.to_nat lo) (skipn (Z.to_nat lo) x)) (skipn (Z.to_nat hi) x ++ tail).
Proof. intros H1 H2. rewrite go_slice_app, go_slice_app_end by lia. reflexivity. Qed.

(* s[i:] behind the leading spaces *)
Lemma go_slice_lead (s : bytes) : go_slice s (Z.of_nat (lead s)) (len s) = Ok (skip_spaces s).
Proof.
  pose proof (lead_le s). rewrite go_slice_end by (unfold len; lia). rewrite Nat2Z.id, skipn_lead. reflexivity.
Qed.

Lemma parse_entry_num e id : length e = 175%nat ->
  parse_entry e id =
  if negb (beq (nth 0 e x00) x76 && beq (nth 1 e x00) x31 && beq (nth 2 e x00) SP && beq (nth 67 e x00) SP
           && beq (nth 132 e x00) SP && beq (nth 153 e x00) SP && beq (nth 174 e x00) NL) then None else
  match hex_decode (firstn 64 (skipn 3 e)) with
  | None => None
  | Some buf =>
      if negb (bytes_eqb buf id) then None else
      match hex_decode (firstn 64 (skipn 1 (skipn 67 e))) with
      | None => None
      | Some out =>
          match parse_int (skip_spaces (firstn 20 (skipn 1 (skipn 65 (skipn 67 e))))) with
          | None => None
          | Some size =>
              if size <? 0 then None else
              match parse_int (skip_spaces (firstn 20 (skipn 1 (skipn 21 (skipn 65 (skipn 67 e)))))) with
              | None => None
              | Some tm => if tm <? 0 then None else Some (out, size, tm)
              end
          end
      end
  end.
Proof. intros E. unfold parse_entry. rewrite E. reflexivity. Qed.

(* the lengths of what is left behind each field, and of the two hex fields *)
Lemma entry_cuts (e : bytes) : length e = 175%nat ->
  len (skipn 67 e) = 108 /\ len (skipn 65 (skipn 67 e)) = 43 /\ len (skipn 21 (skipn 65 (skipn 67 e))) = 22 /\
  length (firstn 64 (skipn 3 e)) = 64%nat /\ length (firstn 64 (skipn 1 (skipn 67 e))) = 64%nat.
Proof. intros He. unfold len. rewrite !firstn_length, !skipn_length, He. repeat split. Qed.

(* Z.to_nat of a literal, as a literal *)
Ltac norm_nat :=
  repeat match goal with
  | |- context [Z.to_nat (Zpos ?p)] =>
      let n := eval vm_compute in (Z.to_nat (Zpos p)) in change (Z.to_nat (Zpos p)) with n
  end; change (Z.to_nat 0) with O.

Lemma sprintf_x (b : bytes) : go_sprintf None [x25; x78] [GoAnyBytes b] = Some (hex b).
Proof.
  cbn [go_sprintf beq Byte.eqb digit_val bZ Byte.to_N Z.of_N Z.leb Z.compare Pos.compare Pos.compare_cont andb option_map pad_left Nat.sub repeat app].
  now rewrite app_nil_r.
Qed.

(* %02x of a byte below 16 is its one digit behind a padding 0: the digit 0 of its two-digit form *)
Lemma sprintf_02x b : go_sprintf None [x25; x30; x32; x78] [GoAnyByte b] = Some (hex [b]).
Proof.
  change (go_sprintf None [x25; x30; x32; x78] [GoAnyByte b]) with (Some (pad_zero 2 (hex_min b) ++ [])).
  unfold hex_min, hex, hex_byte. cbn [flat_map]. pose proof (bZ_range b). destruct (Z.ltb_spec (bZ b) 16).
  - rewrite Z.div_small, Z.mod_small by lia. reflexivity.
  - reflexivity.
Qed.
