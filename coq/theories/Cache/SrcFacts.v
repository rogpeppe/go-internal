(* Gen/CacheSrc.v holds the pure segments of cache/cache.go translated to Gallina by
   harness/go2coq on every run (table: harness/cmd/genconsts/gen_cache_src.go).  This file
   proves, for every input and every sufficient iteration bound, that the segments of get,
   putIndexEntry and fileName return Ok of exactly what the hand-written codec of
   Cache/CacheEntry.v computes (never Panic, never OutOfFuel):

   - src_Cache_get_parse, the statements of the method get of Cache between io.ReadFull and c.used: on the
     buffer entry = e ++ tail, where e are the entrySize bytes read and tail is what is behind
     them in the buffer (one zero byte in the code), with any bound fuel >= 21 on the two
     padding loops, it returns missing(...) exactly when parse_entry e id = None and otherwise
     hands on the decoded output id, size and time of parse_entry (src_get_parse_eq);
   - src_Cache_get_result, the final return: Entry{buf, size, time.Unix(0, tm)}, nil;
   - src_Cache_putIndexEntry_entry, the fmt.Sprintf of putIndexEntry: encode_entry, with the
     clock read time.Now() as a parameter (src_put_entry_eq);
   - src_Cache_fileName_body: filepath.Join(dir, two hex digits of id[0], hex(id) + "-" + key),
     (src_fileName_eq); for the keys "a" and "d" the last element is Cache.v's path_name.

   What stays hand-read in get is the statement  if n, err := io.ReadFull(f, entry); ...  that
   compares n with entrySize (the model's  length e = entry_size_n): it tests io's sentinel
   errors, which the translator's reading of error values (nil or not) cannot express.

   The proofs do not mention generated hypothesis or bound-variable names: a segment is
   unfolded and its checked index and slice expressions are rewritten, in evaluation order,
   by the lemmas of Cache/SrcWorldLemmas.v about go_index / go_slice on e ++ tail and about the
   padding loops. *)
From Coq Require Import List Bool Arith ZArith Lia ZifyBool.
From Coq.Strings Require Import Byte.
From GI Require Import Lib.Bytes Lib.GoSem Lib.GoSemSeg Gen.CacheConsts Cache.CacheEntry Cache.CacheEntryFacts
  Cache.SrcLib Cache.SrcWorldLemmas Gen.CacheSrc.
From GI Require CacheTrim.CacheTrim CacheTrim.CacheTrimTimeFacts TxtarWrite.Path.
Import ListNotations.
Local Open Scope Z_scope.

Definition missing_result : go_entry * bool := (mkEntry (go_zero_array HashSize) 0 go_time_zero, true).

Definition parse_outcome (e tail id : bytes) : outcome (bool * bytes * bytes * Z * Z) unit (go_entry * bool) :=
  match parse_entry e id with
  | None => Return missing_result
  | Some (out, size, tm) => Normal (false, skipn (entry_size_n - 1) e ++ tail, out, size, tm)
  end.

Theorem src_get_parse_eq fuel id err e tail :
  length e = entry_size_n -> (21 <= fuel)%nat ->
  src_Cache_get_parse fuel id err (e ++ tail) = Ok (parse_outcome e tail id).
Proof.
  intros He Hf. change entry_size_n with 175%nat in He.
  assert (Hl : len e = 175) by (unfold len; rewrite He; reflexivity).
  destruct (entry_cuts e He) as (Hl1 & Hl2 & Hl3 & L1 & L2).
  unfold parse_outcome. rewrite (parse_entry_num e id He).
  unfold src_Cache_get_parse.
  rewrite (header_checks e tail _ _ _ _ _ _ _ _ x76 x31 x20 x20 x20 x20 x0a) by (reflexivity || lia).
  norm_nat. change SP with x20; change NL with x0a.
  match goal with |- context [if negb ?h then None else _] => destruct h end; cbn [negb]; [|reflexivity].
  do 4 (rewrite slice_cut by lia; cbv beta iota; norm_nat). cbn [Nat.sub].
  (* the two ids *)
  assert (Lz : length (go_zero_array 32) = 32%nat) by reflexivity.
  destruct (hex_decode (firstn 64 (skipn 3 e))) as [buf|] eqn:E1.
  2:{ destruct (go_hex_Decode_err (go_zero_array 32) _ E1) as (d' & k & ->); [rewrite L1, Lz; lia|]. reflexivity. }
  pose proof (hex_decode_length _ _ E1) as Lb. rewrite L1 in Lb.
  rewrite (go_hex_Decode_ok _ _ _ E1) by (rewrite Lz; lia). cbn [bind].
  destruct (bytes_eqb buf id); cbn [negb]; [|reflexivity].
  destruct (hex_decode (firstn 64 (skipn 1 (skipn 67 e)))) as [out|] eqn:E2.
  2:{ destruct (go_hex_Decode_err buf _ E2) as (d' & k & ->); [rewrite L2; lia|]. reflexivity. }
  pose proof (hex_decode_length _ _ E2) as Lo. rewrite L2 in Lo.
  rewrite (go_hex_Decode_ok _ _ _ E2) by lia. cbn [bind].
  (* the two numbers *)
  pose proof (lead_firstn 20 (skipn 1 (skipn 65 (skipn 67 e)))) as LS1.
  pose proof (lead_firstn 20 (skipn 1 (skipn 21 (skipn 65 (skipn 67 e))))) as LS2.
  set (S1 := firstn 20 (skipn 1 (skipn 65 (skipn 67 e)))) in *.
  set (S2 := firstn 20 (skipn 1 (skipn 21 (skipn 65 (skipn 67 e))))) in *.
  rewrite (skip_loop_eq (src_Cache_get_parse_loop1 fuel) (fun c => beq c x20)) by (reflexivity || lia). cbn [bindO].
  rewrite go_slice_lead. cbn [bind]. unfold go_strconv_ParseInt. cbn [Z.eqb Pos.eqb andb].
  destruct (parse_int (skip_spaces S1)) as [size|]; cbn [bind]; [|reflexivity].
  destruct (size <? 0); [reflexivity|].
  rewrite (skip_loop_eq (src_Cache_get_parse_loop2 fuel) (fun c => beq c x20)) by (reflexivity || lia). cbn [bindO].
  rewrite go_slice_lead. cbn [bind].
  destruct (parse_int (skip_spaces S2)) as [tm|]; cbn [bind]; [|reflexivity].
  destruct (tm <? 0); [reflexivity|].
  rewrite !skipn_skipn'. reflexivity.
Qed.

(* what the parser hands on is a well-formed entry, and nothing else gets through *)
Theorem src_get_parse_strict fuel id err e tail b r out size tm :
  length e = entry_size_n -> (21 <= fuel)%nat ->
  src_Cache_get_parse fuel id err (e ++ tail) = Ok (Normal (b, r, out, size, tm)) ->
  entry_wf e id out size tm /\ b = false /\ r = skipn (entry_size_n - 1) e ++ tail.
Proof.
  intros He Hf. rewrite (src_get_parse_eq fuel id err e tail He Hf). unfold parse_outcome.
  destruct (parse_entry e id) as [[[o s] t]|] eqn:E; [|discriminate].
  intros Heq. replace out with o by congruence. replace size with s by congruence. replace tm with t by congruence.
  split; [exact (parse_entry_strict _ _ _ _ _ E)|split; congruence].
Qed.

Theorem src_get_parse_rejects fuel id err e tail :
  length e = entry_size_n -> (21 <= fuel)%nat -> parse_entry e id = None ->
  src_Cache_get_parse fuel id err (e ++ tail) = Ok (Return missing_result).
Proof. intros He Hf E. rewrite (src_get_parse_eq fuel id err e tail He Hf). unfold parse_outcome. now rewrite E. Qed.

Lemma go_time_Unix_ns tm : 0 <= tm < int64_lim -> go_time_Unix 0 tm = CacheTrim.time_of_ns tm.
Proof.
  intros H. unfold go_time_Unix, CacheTrim.time_of_ns, int64_lim in *.
  change (2 ^ 63) with 9223372036854775808 in H.
  replace (tm <? 0) with false by lia. cbn [orb].
  destruct (tm >=? CacheTrim.nano) eqn:G; unfold CacheTrim.nano in *.
  - rewrite Z.quot_div_nonneg by lia. cbn [Z.add].
    assert (Q : 0 <= tm / 1000000000 <= tm) by (split; [apply Z.div_pos; lia|apply Z.div_le_upper_bound; lia]).
    rewrite (CacheTrimTimeFacts.wrap64_id (tm / 1000000000)) by (unfold CacheTrimTimeFacts.i64, CacheTrim.two63; lia).
    replace (tm - tm / 1000000000 * 1000000000) with (tm mod 1000000000)
      by (rewrite Z.mod_eq by lia; lia).
    pose proof (Z.mod_pos_bound tm 1000000000) as M.
    replace (tm mod 1000000000 <? 0) with false by lia. reflexivity.
  - rewrite Z.div_small, Z.mod_small by lia. reflexivity.
Qed.

Theorem src_get_result_eq buf size tm : 0 <= tm < int64_lim ->
  src_Cache_get_result buf size tm = Ok (Return (mkEntry buf size (CacheTrim.time_of_ns tm), false)).
Proof. intros H. unfold src_Cache_get_result. now rewrite go_time_Unix_ns. Qed.

Theorem src_put_entry_eq id out size now :
  src_Cache_putIndexEntry_entry id out size now = Ok (Normal (encode_entry id out size (go_time_UnixNano now))).
Proof. reflexivity. Qed.

(* the translated parser reads back what the translated formatter writes *)
Theorem src_entry_roundtrip fuel id out size now err e tail :
  length id = hash_size_n -> length out = hash_size_n ->
  0 <= size < int64_lim -> 0 <= go_time_UnixNano now < int64_lim -> (21 <= fuel)%nat ->
  src_Cache_putIndexEntry_entry id out size now = Ok (Normal e) ->
  src_Cache_get_parse fuel id err (e ++ tail) =
    Ok (Normal (false, [NL] ++ tail, out, size, go_time_UnixNano now)).
Proof.
  intros Li Lo Hs Ht Hf. rewrite src_put_entry_eq. intros [= <-].
  rewrite src_get_parse_eq by (try apply encode_entry_length; assumption).
  unfold parse_outcome. rewrite entry_roundtrip by assumption.
  do 3 f_equal. f_equal. f_equal.
  pose proof (encode_entry_length id out size (go_time_UnixNano now) Li Lo Hs Ht) as Le.
  pose proof (entry_roundtrip id out size (go_time_UnixNano now) Li Lo Hs Ht) as R.
  rewrite (parse_entry_num _ _ Le) in R. change SP with x20 in R.
  destruct (beq (nth 174 (encode_entry id out size (go_time_UnixNano now)) x00) NL) eqn:B;
    [|rewrite !andb_false_r in R; discriminate R].
  apply beq_eq in B. change (entry_size_n - 1)%nat with 174%nat.
  change entry_size_n with 175%nat in Le.
  rewrite (skipn_cons_nth _ 174) by (rewrite Le; lia). rewrite B.
  rewrite skipn_all2 by (rewrite Le; lia). reflexivity.
Qed.

Theorem src_fileName_eq c b0 idr key :
  src_Cache_fileName_body c (b0 :: idr) key =
    Ok (Return (Path.join (Path.join (cache_dir c) (hex [b0])) (hex (b0 :: idr) ++ name_sep ++ key))).
Proof.
  unfold src_Cache_fileName_body. rewrite go_index_ok by (unfold len; cbn [length]; lia).
  cbn [bind Z.to_nat nth]. unfold go_fmt_Sprintf. rewrite sprintf_02x, sprintf_x. cbn [bind].
  cbn [bind go_filepath_Join]. now rewrite <- app_assoc.
Qed.

Definition ex_id : bytes := repeat xab 32.
Definition ex_out : bytes := repeat x01 32.
Definition ex_now : go_time := CacheTrim.time_of_ns 1700000000123456789.
Definition ex_entry : bytes := encode_entry ex_id ex_out 42 1700000000123456789.

(* the hypotheses of src_entry_roundtrip / src_get_parse_eq are satisfiable, a damaged entry is
   refused, and the iteration bound is real *)
Example ex_src_roundtrip :
  length ex_id = hash_size_n /\ length ex_entry = entry_size_n
  /\ go_time_UnixNano ex_now = 1700000000123456789
  /\ src_Cache_putIndexEntry_entry ex_id ex_out 42 ex_now = Ok (Normal ex_entry)
  /\ src_Cache_get_parse 21 ex_id true (ex_entry ++ [x00]) = Ok (Normal (false, [NL; x00], ex_out, 42, 1700000000123456789))
  /\ src_Cache_get_parse 21 ex_out true (ex_entry ++ [x00]) = Ok (Return missing_result)
  /\ src_Cache_get_parse 21 ex_id true (firstn 100 ex_entry ++ x2d :: skipn 101 ex_entry ++ [x00]) = Ok (Return missing_result)
  /\ src_Cache_get_parse 17 ex_id true (ex_entry ++ [x00]) = OutOfFuel
  /\ src_Cache_get_result ex_out 42 1700000000123456789 = Ok (Return (mkEntry ex_out 42 ex_now, false))
  /\ src_Cache_fileName_body (mkCache [x2f; x74] tt) [x0a; xbc] [x61] =
       Ok (Return [x2f; x74; x2f; x30; x61; x2f; x30; x61; x62; x63; x2d; x61]).
Proof. vm_compute. repeat split; reflexivity. Qed.

(* hex.Decode as denoted: what is written when it stops, and the panic of a short destination *)
Example ex_hex_decode :
  go_hex_Decode [x00; x00] [x34; x31; x7a; x31] = Ok ([x41; x00], (1, true))
  /\ go_hex_Decode [x00; x00] [x34; x31; x34] = Ok ([x41; x00], (1, true))
  /\ go_hex_Decode [x00] [x34; x31; x34; x32] = Panic
  /\ go_strconv_ParseInt [x2d; x39; x39] 10 64 = Ok (-99, false)
  /\ go_strconv_ParseInt [x39; x32; x32; x33; x33; x37; x32; x30; x33; x36; x38; x35; x34; x37; x37; x35; x38; x30; x38] 10 64 = Ok (9223372036854775807, true)
  /\ go_strconv_ParseInt [x31; x5f; x30] 10 64 = Ok (0, true)
  /\ go_strconv_ParseInt [x31] 16 64 = Panic.
Proof. vm_compute. repeat split; reflexivity. Qed.
