(* Histories of faulty Puts (C12): a cache value carries no state beside the files, so a history
   of calls is a fold of the faulty semantics over the file map.  From an undamaged store every
   history of Puts, each with at most one fault (a file operation faults and the source behaves,
   or the source misbehaves and no operation faults), keeps the invariant, keeps every complete
   output file exactly as it is -- also when it is the very output the faulty Put is storing,
   shared with other ids -- and keeps the lookups of every id the history does not store. *)
From Coq Require Import List Bool Arith NArith ZArith Lia.
From Coq.Strings Require Import Byte.
From GI Require Import Lib.Bytes Gen.CacheConsts Cache.CacheEntry Cache.CacheEntryFacts Cache.Cache
  Cache.CacheSeqFacts Cache.CacheExamples Cache.CacheFault Cache.CacheFaultFacts Cache.CacheFaultExamples.
Import ListNotations.

(* one call of a history: Put(id, source) at time tm under a fault budget *)
Record fput := { fp_id : bytes; fp_rd : reader; fp_tm : Z; fp_b : budget }.

Section Hist.
Variable H : bytes -> bytes.
Variable U : bytes -> Prop.
Hypothesis H_len : forall x, length (H x) = hash_size_n.
Hypothesis H_inj : H_inj_on H U.

Definition fput_run (s : fput) (fs : files) : files :=
  fst (fst (run_f (fp_b s) (put_prog H (fp_id s) (fp_rd s) (fp_tm s)) fs)).

Definition fhistory_run (l : list fput) (fs : files) : files := fold_left (fun s x => fput_run x s) l fs.

Definition fput_ok (s : fput) : Prop :=
  length (fp_id s) = hash_size_n /\ U (rd_pass1 (fp_rd s)) /\ one_fault H (fp_b s) (fp_rd s).

(* a faulty Put whose output is ALREADY stored leaves that output's bytes unchanged, at every fault
   point; so does a faulty Put of any other content *)
Theorem failed_put_preserves_shared_output : forall fs s d,
  I1 H U fs -> fput_ok s -> U d -> fs (DatP (H d)) = Some d -> fput_run s fs (DatP (H d)) = Some d.
Proof.
  intros fs [id rd tm b] d Hi1 (Li & Ud0 & Hone) Ud Hf. unfold fput_run. cbn [fp_id fp_rd fp_tm fp_b] in *.
  destruct (put_faulty_post H U H_len H_inj fs id rd tm b Li Hi1 Ud0 Hone) as (Hfr & _ & Hkeep & _).
  exact (post_complete H U fs _ id _ H_inj Ud0 Hfr Hkeep d Ud Hf).
Qed.

Lemma fput_inv : forall s fs, Inv H U fs -> fput_ok s -> Inv H U (fput_run s fs).
Proof. intros [id rd tm b] fs Hinv (Li & Ud & Hone). apply inv_put_faulty; assumption. Qed.

Theorem faulty_history_inv : forall l fs, Inv H U fs -> Forall fput_ok l -> Inv H U (fhistory_run l fs).
Proof.
  induction l as [|s l IH]; intros fs Hinv Hall; cbn [fhistory_run fold_left]; [exact Hinv|].
  inversion Hall as [|? ? Hs Hl]; subst. apply IH; [apply fput_inv; assumption|exact Hl].
Qed.

Theorem faulty_history_preserves_outputs : forall l fs d,
  Inv H U fs -> Forall fput_ok l -> U d -> fs (DatP (H d)) = Some d -> fhistory_run l fs (DatP (H d)) = Some d.
Proof.
  induction l as [|s l IH]; intros fs d Hinv Hall Ud Hf; cbn [fhistory_run fold_left]; [exact Hf|].
  inversion Hall as [|? ? Hs Hl]; subst. apply IH; [apply fput_inv; assumption|exact Hl|exact Ud|].
  apply failed_put_preserves_shared_output; [apply Hinv|exact Hs|exact Ud|exact Hf].
Qed.

(* every id the history does not store keeps its lookups, whatever the faults, whatever outputs are shared *)
Theorem faulty_history_frame : forall l fs id',
  Inv H U fs -> Forall fput_ok l -> Forall (fun s => fp_id s <> id') l ->
  let fs' := fhistory_run l fs in
  get fs' id' = get fs id' /\ get_bytes H fs' id' = get_bytes H fs id' /\ get_file fs' id' = get_file fs id'.
Proof.
  induction l as [|s l IH]; intros fs id' Hinv Hall Hne; cbn zeta; [cbn; auto|].
  change (fhistory_run (s :: l) fs) with (fhistory_run l (fput_run s fs)).
  inversion Hall as [|? ? Hs Hl]; subst. inversion Hne as [|? ? Hn Hnl]; subst.
  destruct (IH (fput_run s fs) id' (fput_inv s fs Hinv Hs) Hl Hnl) as (E1 & E2 & E3).
  rewrite E1, E2, E3.
  destruct s as [id rd tm b]. destruct Hs as (Li & Ud & Hone). unfold fput_run. cbn [fp_id fp_rd fp_tm fp_b] in *.
  apply (failed_put_frame H U H_len H_inj fs id rd tm b id' Hinv Li Ud Hone). intros E. apply Hn. symmetry. exact E.
Qed.

(* PutBytes: the source cannot misbehave, so every single file fault of regime (a) is covered *)
Theorem put_bytes_faulty_post : forall chunks fs id tm b,
  let d := concat chunks in
  length id = hash_size_n -> I1 H U fs -> U d -> regime_a b ->
  put_post H id d fs (fst (fst (run_f b (put_bytes_prog H id chunks tm) fs))).
Proof.
  intros chunks fs id tm b d Li Hi1 Ud Hr. unfold put_bytes_prog.
  replace put_bytes_via_put with true by reflexivity.
  apply (put_faulty_post H U H_len H_inj fs id (honest_reader chunks) tm b Li Hi1 Ud).
  left. split; [|exact Hr]. repeat split.
Qed.

End Hist.

(* non-vacuity: on the store holding id1 -> "hello", three Puts of the SAME content "hello" under
   id2 -- a failing file operation, a source that lies on the second pass, a stop in mid-run --
   satisfy the hypotheses; id1 still reads "hello" and its output file is untouched.  (With the
   pre-state's output shared, none of the three even reaches the second pass of the source.) *)
Definition ex_hist : list fput :=
  [ {| fp_id := id2; fp_rd := honest_reader [d1]; fp_tm := 8%Z; fp_b := Some (3%nat, FFail) |};
    {| fp_id := id2; fp_rd := liar; fp_tm := 9%Z; fp_b := None |};
    {| fp_id := id2; fp_rd := honest_reader [d1]; fp_tm := 10%Z; fp_b := Some (6%nat, FStopAfter) |} ].

Example ex_hist_ok : Forall (fput_ok toyH U2) ex_hist /\ Forall (fun s => fp_id s <> id1) ex_hist.
Proof.
  split.
  - constructor; [|constructor; [|constructor; [|constructor]]].
    + split; [reflexivity|]. split; [left; reflexivity|]. left. split; [apply ex_honest|exact I].
    + split; [reflexivity|]. split; [left; reflexivity|]. right. split; [reflexivity|].
      intros E. vm_compute in E. discriminate.
    + split; [reflexivity|]. split; [left; reflexivity|]. left. split; [apply ex_honest|exact I].
  - repeat constructor; intros E; vm_compute in E; discriminate.
Qed.

Example ex_hist_keeps :
  get_bytes toyH (fhistory_run toyH ex_hist store0) id1 = Found d1 (toyH d1) 5 7 /\
  fhistory_run toyH ex_hist store0 (DatP (toyH d1)) = Some d1.
Proof.
  destruct ex_hist_ok as [Hok Hne]. split.
  - destruct (faulty_history_frame toyH U2 toyH_len ex_inj ex_hist store0 id1 ex_inv_store0 Hok Hne) as (_ & -> & _).
    apply ex_store0.
  - apply (faulty_history_preserves_outputs toyH U2 toyH_len ex_inj ex_hist store0 d1 ex_inv_store0 Hok); [left; reflexivity|].
    vm_compute. reflexivity.
Qed.

(* two faults at once are outside the statement, and for a reason: a source that lies on the second
   pass AND a failing Stat make Put rewrite the complete, shared output in place, and its failure
   exit truncates it: id1 is lost *)
Example ex_two_faults_damage :
  fst (fst (run_f (Some (0%nat, FFail)) (put_prog toyH id2 liar 9%Z) store0)) (DatP (toyH d1)) = Some [] /\
  get_bytes toyH (fst (fst (run_f (Some (0%nat, FFail)) (put_prog toyH id2 liar 9%Z) store0))) id1 = NotFound.
Proof. vm_compute. auto. Qed.
