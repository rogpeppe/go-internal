(* Facts about re-entrant lookups and positioned sources (CacheReent.v). *)
From Coq Require Import List Bool Arith NArith ZArith Lia.
From Coq.Strings Require Import Byte.
From GI Require Import Lib.Bytes Gen.CacheConsts Cache.CacheEntry Cache.CacheEntryFacts Cache.Cache Cache.CacheSeqFacts
  Cache.CacheExamples Cache.CacheConc Cache.CacheReent.
Import ListNotations.

Lemma run_cb_none : forall A B (p : prog A) (q : prog B) fs,
  run_cb p q None fs = (fst (run_seq p fs), snd (run_seq p fs), None).
Proof.
  induction p as [a|o k IH]; intros q fs; cbn.
  - reflexivity.
  - destruct (step o fs) as [fs2 r]. apply IH.
Qed.

Lemma run_cb_pure : forall A B (p : prog A) (q : prog B),
  (forall fs, fst (run_seq q fs) = fs) ->
  forall n fs, fst (run_cb p q n fs) = run_seq p fs.
Proof.
  induction p as [a|o k IH]; intros q Hq n fs; cbn.
  - destruct n; reflexivity.
  - destruct n as [m|].
    + destruct (is_data_write o).
      * destruct m as [|m'].
        -- pose proof (Hq fs) as E. destruct (run_seq q fs) as [fs1 b]. cbn [fst] in E. subst fs1.
           destruct (step o fs) as [fs2 r]. rewrite run_cb_none. cbn [fst].
           destruct (run_seq (k r) fs2); reflexivity.
        -- destruct (step o fs) as [fs2 r]. apply IH, Hq.
      * destruct (step o fs) as [fs2 r]. apply IH, Hq.
    + destruct (step o fs) as [fs2 r]. rewrite run_cb_none. cbn [fst].
      destruct (run_seq (k r) fs2); reflexivity.
Qed.

Lemma run_cb_inner : forall A B (p : prog A) (q : prog B) n fs b,
  snd (run_cb p q n fs) = Some b -> exists fs1, b = snd (run_seq q fs1).
Proof.
  induction p as [a|o k IH]; intros q n fs b; cbn.
  - discriminate.
  - destruct n as [m|].
    + destruct (is_data_write o).
      * destruct m as [|m'].
        -- destruct (run_seq q fs) as [fs1 b1] eqn:E. destruct (step o fs1) as [fs2 r].
           destruct (run_cb (k r) q None fs2) as [[fs3 a] x]. cbn [snd]. intros E2. injection E2 as <-.
           exists fs. rewrite E. reflexivity.
        -- destruct (step o fs) as [fs2 r]. apply IH.
      * destruct (step o fs) as [fs2 r]. apply IH.
    + destruct (step o fs) as [fs2 r]. rewrite run_cb_none. cbn [snd]. discriminate.
Qed.

Lemma run_lookup_call : forall H c fs, is_lookup c = true ->
  run_seq (call_prog H c) fs =
  (fs, match c with
       | CGet id => XGet (get fs id)
       | CGetBytes id => XBytes (get_bytes H fs id)
       | CGetFile id => XFile (get_file fs id)
       | _ => XGet None
       end).
Proof.
  intros H c fs Hc. destruct c as [id ch tm|id rd tm|id|id|id]; try discriminate; cbn [call_prog]; rewrite run_seq_bind.
  - unfold get. rewrite (run_get fs id). reflexivity.
  - unfold get_bytes. rewrite (run_get_bytes H fs id). reflexivity.
  - unfold get_file. rewrite (run_get_file fs id). reflexivity.
Qed.

Lemma lookup_call_pure : forall H c, is_lookup c = true -> forall fs, fst (run_seq (call_prog H c) fs) = fs.
Proof. intros H c Hc fs. rewrite run_lookup_call by exact Hc. reflexivity. Qed.

(* a lookup made by the source in the middle of a Put does not disturb the Put *)
Theorem put_cb_transparent : forall H id chunks tm c w fs,
  is_lookup c = true ->
  fst (put_cb H id chunks tm c w fs) = put H fs id (honest_reader chunks) tm.
Proof.
  intros H id chunks tm c w fs Hc. unfold put_cb, put. destruct w as [| |n].
  - destruct (run_seq (put_prog H id (honest_reader chunks) tm) fs); reflexivity.
  - pose proof (lookup_call_pure H c Hc fs) as E. destruct (run_seq (call_prog H c) fs) as [fs1 b].
    cbn [fst] in E. subst fs1. destruct (run_seq (put_prog H id (honest_reader chunks) tm) fs); reflexivity.
  - apply run_cb_pure, lookup_call_pure, Hc.
Qed.

Theorem put_cb_get : forall (H : bytes -> bytes),
  (forall x, length (H x) = hash_size_n) ->
  forall chunks fs id tm c w,
  let d := concat chunks in
  is_lookup c = true ->
  length id = hash_size_n ->
  (0 <= tm < int64_lim)%Z -> (Z.of_nat (length d) < int64_lim)%Z ->
  (forall c0, fs (DatP (H d)) = Some c0 -> H c0 = H d -> c0 = d) ->
  exists fs',
    fst (put_cb H id chunks tm c w fs) = (fs', PutOk (H d) (length d)) /\
    get_bytes H fs' id = Found d (H d) (Z.of_nat (length d)) tm /\
    get_file fs' id = Found (DatP (H d)) (H d) (Z.of_nat (length d)) tm /\
    fs' (DatP (H d)) = Some d.
Proof.
  intros H Hlen chunks fs id tm c w d Hc Li Ht Hs Hcol.
  destruct (put_get H Hlen chunks fs id tm Li Ht Hs Hcol) as (fs' & E & R).
  exists fs'. split; [|exact R]. rewrite put_cb_transparent by exact Hc. exact E.
Qed.

(* ... and what it is told is sound, whatever the Put has written so far *)
Theorem put_cb_inner_sound : forall H id chunks tm c w fs b,
  is_lookup c = true ->
  snd (put_cb H id chunks tm c w fs) = Some b ->
  match b with
  | XBytes (Found d out _ _) => H d = out
  | XFile (Found p out size _) => p = DatP out /\ exists (fs1 : files) (c0 : bytes), fs1 p = Some c0 /\ Z.of_nat (length c0) = size
  | _ => True
  end.
Proof.
  intros H id chunks tm c w fs b Hc E.
  assert (exists fs1, b = snd (run_seq (call_prog H c) fs1)) as (fs1 & ->).
  { unfold put_cb in E. destruct w as [| |n].
    - destruct (run_seq (put_prog H id (honest_reader chunks) tm) fs); discriminate.
    - destruct (run_seq (call_prog H c) fs) as [fs1 b1] eqn:E1.
      destruct (run_seq (put_prog H id (honest_reader chunks) tm) fs1). cbn [snd] in E. injection E as <-.
      exists fs. rewrite E1. reflexivity.
    - eapply run_cb_inner, E. }
  rewrite run_lookup_call by exact Hc. cbn [snd].
  destruct c as [id0 ch tm0|id0 rd tm0|id0|id0|id0]; try discriminate; try exact I.
  - pose proof (get_bytes_sound H fs1 id0) as S. destruct (get_bytes H fs1 id0); [exact I|]. apply S.
  - pose proof (get_file_sound fs1 id0) as S. destruct (get_file fs1 id0) as [|p out size tm1]; [exact I|].
    destruct S as (Ep & _ & c0 & Ec & El). split; [exact Ep|].
    destruct (lookups_pure H fs1 id0) as (_ & Ef & _). rewrite Ef in Ec. exists fs1, c0. split; assumption.
Qed.

(* positioned sources: Put rewinds, so the position does not matter *)
Lemma reader_of_memsrc_honest : forall s cut,
  concat (cut (ms_data s)) = ms_data s ->
  reader_of_memsrc s cut = honest_reader (cut (ms_data s)).
Proof.
  intros s cut E. unfold reader_of_memsrc, honest_reader, ms_pass.
  change put_order_ok with true. change copy_commit_ok with true. cbv iota. rewrite E. reflexivity.
Qed.

Theorem put_src_get : forall (H : bytes -> bytes),
  (forall x, length (H x) = hash_size_n) ->
  forall cut s fs id tm,
  let d := ms_data s in
  concat (cut d) = d ->
  length id = hash_size_n ->
  (0 <= tm < int64_lim)%Z -> (Z.of_nat (length d) < int64_lim)%Z ->
  (forall c0, fs (DatP (H d)) = Some c0 -> H c0 = H d -> c0 = d) ->
  exists fs',
    put_src H fs id s cut tm = (fs', PutOk (H d) (length d)) /\
    get_bytes H fs' id = Found d (H d) (Z.of_nat (length d)) tm /\
    get_file fs' id = Found (DatP (H d)) (H d) (Z.of_nat (length d)) tm /\
    fs' (DatP (H d)) = Some d.
Proof.
  intros H Hlen cut s fs id tm d Ec Li Ht Hs Hcol. unfold put_src.
  rewrite reader_of_memsrc_honest by exact Ec. fold d.
  pose proof (put_get H Hlen (cut d) fs id tm) as P. cbv zeta in P. rewrite Ec in P.
  exact (P Li Ht Hs Hcol).
Qed.

(* the reader a Put has used (left at its end) given to Put again, for any id: the whole data again *)
Theorem put_src_reuse : forall (H : bytes -> bytes),
  (forall x, length (H x) = hash_size_n) ->
  forall cut s fs id tm id' tm',
  let d := ms_data s in
  concat (cut d) = d ->
  length id = hash_size_n -> length id' = hash_size_n ->
  (0 <= tm < int64_lim)%Z -> (0 <= tm' < int64_lim)%Z -> (Z.of_nat (length d) < int64_lim)%Z ->
  (forall c0, fs (DatP (H d)) = Some c0 -> H c0 = H d -> c0 = d) ->
  exists fs' fs'',
    put_src H fs id s cut tm = (fs', PutOk (H d) (length d)) /\
    put_src H fs' id' (ms_after_put s) cut tm' = (fs'', PutOk (H d) (length d)) /\
    get_bytes H fs'' id' = Found d (H d) (Z.of_nat (length d)) tm' /\
    get_file fs'' id' = Found (DatP (H d)) (H d) (Z.of_nat (length d)) tm'.
Proof.
  intros H Hlen cut s fs id tm id' tm' d Ec Li Li' Ht Ht' Hs Hcol.
  destruct (put_src_get H Hlen cut s fs id tm Ec Li Ht Hs Hcol) as (fs' & E1 & _ & _ & Hd).
  assert (forall c0, fs' (DatP (H d)) = Some c0 -> H c0 = H d -> c0 = d) as Hcol'.
  { intros c0 E0 _. fold d in Hd. rewrite Hd in E0. injection E0 as <-. reflexivity. }
  destruct (put_src_get H Hlen cut (ms_after_put s) fs' id' tm' Ec Li' Ht' Hs Hcol') as (fs'' & E2 & G & F & _).
  exists fs', fs''. split; [exact E1|]. split; [exact E2|]. split; [exact G|exact F].
Qed.

(* in the interleaved semantics a Put from a positioned in-memory source IS the Put of its whole data:
   every C11 theorem about CPut covers sources handed over at any position, and reused readers *)
Lemma call_put_positioned : forall H id cut s tm,
  concat (cut (ms_data s)) = ms_data s ->
  call_prog H (CPutR id (reader_of_memsrc s cut) tm) = call_prog H (CPut id (cut (ms_data s)) tm).
Proof. intros H id cut s tm E. cbn [call_prog]. rewrite reader_of_memsrc_honest by exact E. reflexivity. Qed.

(* histories: inner lookups and source positions leave no trace in the files, so every theorem
   about histories (history_sound, put_get_persists) carries over to histories containing them *)
Lemma xhop_erase : forall H o fs, xhop_ok o -> xhop_run H o fs = hop_run H (xerase o) fs.
Proof.
  intros H o fs Ho. destruct o as [o|id chunks tm c w|id s cut tm]; cbn [xhop_run xerase hop_run].
  - reflexivity.
  - rewrite put_cb_transparent by exact Ho. reflexivity.
  - unfold put_src. rewrite reader_of_memsrc_honest by exact Ho. reflexivity.
Qed.

Theorem xhistory_erase : forall H ops fs,
  Forall xhop_ok ops -> xhistory_run H ops fs = history_run H (map xerase ops) fs.
Proof.
  intros H ops. induction ops as [|o r IH]; intros fs Hok; [reflexivity|].
  inversion Hok as [|? ? Ho Hr]; subst. unfold xhistory_run, history_run. cbn [fold_left map].
  rewrite xhop_erase by exact Ho. apply IH, Hr.
Qed.

Theorem xhistory_sound : forall H ops fs n id,
  Forall xhop_ok ops ->
  let s := xhistory_run H (firstn n ops) fs in bytes_ok H s id /\ file_ok s id.
Proof.
  intros H ops fs n id Hok. cbv zeta.
  rewrite <- (firstn_skipn n ops) in Hok. apply Forall_app in Hok as [Hok _].
  rewrite xhistory_erase by exact Hok. rewrite <- firstn_map.
  exact (history_sound H (map xerase ops) fs n id).
Qed.

Local Open Scope Z_scope.

(* the output of id1 is damaged (bit flip, same length); a Put of the same content under id2 whose
   source looks id1 up just before the first write to the output: the lookup is told not-found (bad
   checksum), the Put succeeds all the same, and afterwards id1 reads d1 again.  Just before the
   committing write the same lookup already hits: the file is rewritten in place, and the four
   bytes written so far, followed by the old last byte, are the content. *)
Example ex_put_cb :
  let r := put_cb toyH id2 [firstn 4 d1; skipn 4 d1] 9 (CGetBytes id1) (CbWrite 0) damaged in
  snd r = Some (XBytes NotFound) /\ snd (fst r) = PutOk (toyH d1) 5 /\
  get_bytes toyH (fst (fst r)) id1 = Found d1 (toyH d1) 5 7 /\
  get_bytes toyH (fst (fst r)) id2 = Found d1 (toyH d1) 5 9 /\
  snd (put_cb toyH id2 [firstn 4 d1; skipn 4 d1] 9 (CGetBytes id1) (CbWrite 1) damaged) = Some (XBytes (Found d1 (toyH d1) 5 7)).
Proof. vm_compute. auto 6. Qed.

(* the same lookup made in the hash pass sees the damaged file; made where no write follows, never *)
Example ex_put_cb_points :
  snd (put_cb toyH id2 [firstn 4 d1; skipn 4 d1] 9 (CGetFile id1) CbBefore damaged)
    = Some (XFile (Found (DatP (toyH d1)) (toyH d1) 5 7)) /\
  snd (put_cb toyH id2 [firstn 4 d1; skipn 4 d1] 9 (CGetFile id1) (CbWrite 2) damaged) = None.
Proof. vm_compute. auto. Qed.

(* a source left at its end by a first Put, given to a second one *)
Example ex_call_put_positioned :
  let cut := fun d : bytes => [firstn 4 d; skipn 4 d] in
  call_prog toyH (CPutR id1 (reader_of_memsrc {| ms_data := d1; ms_pos := 5 |} cut) 7) = call_prog toyH (CPut id1 (cut d1) 7).
Proof. apply call_put_positioned. reflexivity. Qed.

Example ex_put_src_reuse :
  let s := {| ms_data := d1; ms_pos := 3 |} in
  let cut := fun d : bytes => [firstn 4 d; skipn 4 d] in
  let fs' := fst (put_src toyH no_files id1 s cut 7) in
  let fs'' := fst (put_src toyH fs' id2 (ms_after_put s) cut 9) in
  concat (cut d1) = d1 /\ ms_pos (ms_after_put s) = 5%nat /\
  get_bytes toyH fs'' id1 = Found d1 (toyH d1) 5 7 /\ get_bytes toyH fs'' id2 = Found d1 (toyH d1) 5 9.
Proof. vm_compute. auto. Qed.

(* a history mixing a plain Put, damage, a Put whose source looks the damaged id up, and a Put from a
   reader left at its end *)
Example ex_xhistory :
  let cut := fun d : bytes => [firstn 4 d; skipn 4 d] in
  let ops := [XPlain (HPut id1 (honest_reader [d1]) 7); XPlain (HDamage (dmg_flip (DatP (toyH d1)) 1));
              XPutCb id2 (cut d1) 9 (CGetBytes id1) (CbWrite 0);
              XPutSrc id1 {| ms_data := d1; ms_pos := 5 |} cut 11] in
  Forall xhop_ok ops /\
  get_bytes toyH (xhistory_run toyH ops no_files) id1 = Found d1 (toyH d1) 5 11 /\
  get_bytes toyH (xhistory_run toyH ops no_files) id2 = Found d1 (toyH d1) 5 9.
Proof. split; [repeat constructor|vm_compute; auto]. Qed.
