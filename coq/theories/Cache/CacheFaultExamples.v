(* Concrete instances for the C12 theorems (non-vacuity of their hypotheses). *)
From Coq Require Import List Bool Arith NArith ZArith Lia ZifyBool.
From Coq.Strings Require Import Byte.
From GI Require Import Lib.Bytes Gen.CacheConsts Cache.CacheEntry Cache.CacheEntryFacts Cache.Cache
  Cache.CacheSeqFacts Cache.CacheExamples Cache.CacheFault Cache.CacheFaultFacts.
Import ListNotations.
Local Open Scope Z_scope.

Definition U2 (d : bytes) : Prop := d = d1 \/ d = d2.

Example ex_inj : H_inj_on toyH U2.
Proof. intros a b [-> | ->] [-> | ->] E; try reflexivity; vm_compute in E; discriminate. Qed.

Example ex_honest : honest (honest_reader [d1]).
Proof. repeat split. Qed.

(* every kind of single fault is an instance of one_fault *)
Example ex_one_fault :
  one_fault toyH None (honest_reader [d1]) /\ one_fault toyH (Some (5%nat, FFail)) (honest_reader [d1]) /\
  one_fault toyH (Some (2%nat, FShort 3)) (honest_reader [d1]) /\ one_fault toyH (Some (8%nat, FStopAfter)) (honest_reader [d1]) /\
  one_fault toyH None liar.
Proof.
  repeat split; try (left; split; [apply ex_honest|exact I]).
  right. split; [reflexivity|]. intros E. vm_compute in E. discriminate.
Qed.

Lemma store0_as_run_f : store0 = fst (fst (run_f None (put_prog toyH id1 (honest_reader [d1]) 7) no_files)).
Proof. rewrite run_f_none. reflexivity. Qed.

(* the store built by one Put satisfies the invariant (by the theorems, from the empty store) *)
Example ex_inv_store0 : Inv toyH U2 store0.
Proof.
  rewrite store0_as_run_f.
  apply (inv_put_faulty toyH U2 toyH_len ex_inj no_files id1 (honest_reader [d1]) 7 None).
  - apply inv_init.
  - reflexivity.
  - left; reflexivity.
  - left. split; [apply ex_honest|exact I].
Qed.

(* overwriting id1's entry (for "hello") by an entry for "hello!": the index write is operation 8;
   a torn write of its first 75 bytes followed by a stop leaves a hybrid entry: it names a
   mixture of the two output hashes and is rejected by both lookups, the data stay intact *)
Definition torn_store : files :=
  fst (fst (run_f (Some (8%nat, FTorn 75)) (put_prog toyH id1 (honest_reader [d2]) 9) store0)).

Example ex_torn_store :
  (exists c, torn_store (IdxP id1) = Some c /\ c <> encode_entry id1 (toyH d1) 5 7 /\ c <> encode_entry id1 (toyH d2) 6 9
             /\ exists out, parse_entry c id1 = Some (out, 5, 7) /\ out <> toyH d1 /\ out <> toyH d2) /\
  get_bytes toyH torn_store id1 = NotFound /\ get_file torn_store id1 = NotFound /\
  torn_store (DatP (toyH d1)) = Some d1 /\ torn_store (DatP (toyH d2)) = Some d2.
Proof.
  split.
  - eexists. split; [vm_compute; reflexivity|]. split; [intros E; vm_compute in E; discriminate|].
    split; [intros E; vm_compute in E; discriminate|]. eexists. split; [vm_compute; reflexivity|].
    split; intros E; vm_compute in E; discriminate.
  - vm_compute. auto.
Qed.

Example ex_invb_torn : InvB toyH U2 torn_store.
Proof.
  apply (invb_put_faulty toyH U2 ex_inj).
  - rewrite store0_as_run_f.
    apply (invb_put_faulty toyH U2 ex_inj); [apply invb_init|left; reflexivity|left; apply ex_honest].
  - right; reflexivity.
  - left. repeat split.
Qed.

(* a stop in the middle of the data leaves a prefix; the next Put completes it *)
Definition partial_store : files :=
  fst (fst (run_f (Some (2%nat, FTorn 3)) (put_prog toyH id1 (honest_reader [d2]) 9) no_files)).
Example ex_partial :
  partial_store (DatP (toyH d2)) = Some (firstn 3 d2) /\ partial_store (IdxP id1) = None /\
  get_bytes toyH (fst (put toyH partial_store id2 (honest_reader [d2]) 11)) id2 = Found d2 (toyH d2) 6 11.
Proof. vm_compute. auto. Qed.

(* no_hybrid for a one-content universe *)
Example ex_no_hybrid : no_hybrid toyH (fun d => d = d1).
Proof.
  intros S s d0 -> Hs Hk. destruct s as [|a s].
  - vm_compute in Hs. discriminate.
  - destruct (Hk 0%nat a eq_refl) as (d & -> & Sd & _). exact Sd.
Qed.

(* no_hybrid for a universe of two contents whose hashes differ in their second hex digit *)
Lemma bZ_byte_of_Z : forall z, 0 <= z <= 255 -> bZ (byte_of_Z z) = z.
Proof.
  intros z Hz. unfold bZ, byte_of_Z. destruct (Byte.of_N (Z.to_N z)) as [b|] eqn:E.
  - apply Byte.to_of_N in E. rewrite E. lia.
  - apply Byte.of_N_None_iff in E. lia.
Qed.

Lemma from_hex_char_range : forall c x, from_hex_char c = Some x -> 0 <= x <= 15.
Proof.
  intros c x. unfold from_hex_char.
  destruct ((48 <=? bZ c) && (bZ c <=? 57)) eqn:E1;
    [|destruct ((97 <=? bZ c) && (bZ c <=? 102)) eqn:E2;
       [|destruct ((65 <=? bZ c) && (bZ c <=? 70)) eqn:E3; [|discriminate]]];
    intros [= <-]; lia.
Qed.

Lemma hex_decode_second_digit : forall s b0 rest, hex_decode s = Some (b0 :: rest) ->
  exists a b r, s = a :: b :: r /\ exists y, from_hex_char b = Some y /\ y = bZ b0 mod 16.
Proof.
  intros s b0 rest E. destruct s as [|a [|b r]]; cbn in E; try discriminate.
  destruct (from_hex_char a) as [x|] eqn:Ea; [|discriminate].
  destruct (from_hex_char b) as [y|] eqn:Eb; [|discriminate].
  destruct (hex_decode r); [|discriminate]. inversion E; subst.
  exists a, b, r. split; [reflexivity|]. exists y. split; [exact Eb|].
  pose proof (from_hex_char_range _ _ Ea). pose proof (from_hex_char_range _ _ Eb).
  rewrite bZ_byte_of_Z by lia. rewrite Z.add_comm, Z.mod_add by lia. symmetry. apply Z.mod_small. lia.
Qed.

Example ex_no_hybrid2 : no_hybrid toyH U2.
Proof.
  intros S s d0 Ud0 Hs Hk.
  assert (exists a b r, s = a :: b :: r /\ exists y, from_hex_char b = Some y /\ y = bZ (byte_of_Z (Z.of_nat (length d0) mod 256)) mod 16) as (a & b & r & -> & y & Hb & Hy).
  { unfold toyH in Hs. eapply hex_decode_second_digit. exact Hs. }
  destruct (Hk 1%nat b eq_refl) as (d & Ud & Sd & Hd).
  assert (d = d0); [|subst; exact Sd].
  destruct Ud0 as [-> | ->]; destruct Ud as [-> | ->]; try reflexivity; exfalso;
    vm_compute in Hd; inversion Hd as [Eb']; rewrite <- Eb' in Hb; vm_compute in Hb; vm_compute in Hy; congruence.
Qed.
