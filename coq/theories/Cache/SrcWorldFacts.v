(* Cache.fileName, used, OutputFile and putIndexEntry as translated in world mode (Gen/CacheWorldSrc.v)
   against SrcWorld.run_prog of the model's programs, for every world and every behaviour of the
   operating-system operations; Cache/SrcWorldGet.v continues with the lookups. *)
From Coq Require Import List Bool Arith ZArith Lia ZifyBool.
From Coq.Strings Require Import Byte.
From GI Require Import Lib.Bytes Lib.GoSem Lib.GoSemSeg Lib.GoSemWorld Lib.GoSemWorldVal Lib.GoSemWorldValFacts.
From GI Require Import Gen.CacheConsts Cache.CacheEntry Cache.CacheEntryFacts Cache.Cache Cache.SrcLib Cache.SrcWorldLemmas
  Cache.SrcWorld Gen.CacheWorldSrc.
From GI Require CacheTrim.CacheTrim TxtarWrite.Path.
Import ListNotations.
Local Open Scope Z_scope.

(* the flag values the generator evaluated the source with are the ones run_prog uses *)
Lemma flag_values :
  cw_O_RDONLY = O_RDONLY /\ cw_O_WRONLY = O_WRONLY /\ cw_O_RDWR = O_RDWR /\ cw_O_CREATE = O_CREATE /\ cw_O_TRUNC = O_TRUNC.
Proof. repeat split; reflexivity. Qed.

Section Facts.
Variable OS : os_ops.
Variable rh : bytes -> bytes.

Notation dir_of c := (cw_Cache_dir c).

Lemma run_prog_bind {A B} dir (p : prog A) (f : A -> prog B) st :
  run_prog OS dir (bind p f) st = let '(st1, a) := run_prog OS dir p st in run_prog OS dir (f a) st1.
Proof.
  revert st. induction p as [a|o k IH]; intros st; cbn [bind run_prog]; [reflexivity|].
  destruct (do_op OS dir o st) as [st1 r]. apply IH.
Qed.

Lemma cw_fileName_gen c b0 idr key :
  cw_Cache_fileName c (b0 :: idr) key =
  Ok (c, Path.join (Path.join (dir_of c) (hex [b0])) (hex (b0 :: idr) ++ name_sep ++ key)).
Proof.
  unfold cw_Cache_fileName. rewrite go_index_ok by (unfold len; cbn [length]; lia).
  cbn [GoSem.bind Z.to_nat nth]. rewrite Z_byte_byte_Z.
  unfold go_fmt_Sprintf_w. cbn [wany_values option_map]. unfold go_fmt_Sprintf. rewrite sprintf_02x, sprintf_x.
  cbn [GoSem.bind go_filepath_Join]. now rewrite <- app_assoc.
Qed.

Theorem cw_fileName_idx c id : id <> [] ->
  cw_Cache_fileName c id [x61] = Ok (c, file_name (dir_of c) (IdxP id)).
Proof. destruct id as [|b0 idr]; [congruence|]. intros _. apply cw_fileName_gen. Qed.

Theorem cw_fileName_dat c out : out <> [] ->
  cw_Cache_fileName c out [x64] = Ok (c, file_name (dir_of c) (DatP out)).
Proof. destruct out as [|b0 idr]; [congruence|]. intros _. apply cw_fileName_gen. Qed.

(* the world after c.used(file_name p) *)
Definition used_w dir (p : path) (w : World OS) : World OS :=
  st_world OS (fst (run_prog OS dir (used_prog p (Ret tt)) (w, nil_handle OS, false))).

Lemma run_used {A} dir p (k : prog A) w h o :
  run_prog OS dir (used_prog p k) (w, h, o) = run_prog OS dir k (used_w dir p w, h, o).
Proof.
  unfold used_w, used_prog. cbn [run_prog do_op].
  destruct (op_stat OS w (file_name dir p)) as [[w1 fi] e].
  destruct (werr_is_nil e); cbn [run_prog do_op st_world fst]; [reflexivity|].
  destruct (op_chtimes OS w1 (file_name dir p) (op_now OS w1) (op_now OS w1)) as [w2 e2]. reflexivity.
Qed.

Theorem cw_used_eq : always_fresh OS -> forall w c p,
  cw_Cache_used OS w c (file_name (dir_of c) p) = Ok (used_w (dir_of c) p w, c).
Proof.
  intros Hfresh w c p. unfold cw_Cache_used, used_w, used_prog. cbn [run_prog do_op].
  specialize (Hfresh w (file_name (dir_of c) p)).
  destruct (op_stat OS w (file_name (dir_of c) p)) as [[w1 fi] e].
  destruct (werr_is_nil e) eqn:E; cbn [run_prog do_op st_world fst GoSem.bind].
  - change 3600000000000 with mtime_interval. rewrite (Hfresh eq_refl). reflexivity.
  - destruct (op_chtimes OS w1 (file_name (dir_of c) p) (op_now OS w1) (op_now OS w1)) as [w2 e2]. reflexivity.
Qed.

Theorem cw_OutputFile_eq : always_fresh OS -> forall w c out h o, out <> [] ->
  cw_Cache_OutputFile OS w c out =
  match run_prog OS (dir_of c) (output_file_prog out) (w, h, o) with
  | (st, p) => Ok (st_world OS st, c, file_name (dir_of c) p)
  end.
Proof.
  intros Hfresh w c out h o Hne. unfold cw_Cache_OutputFile, output_file_prog.
  rewrite (cw_fileName_dat c out Hne). cbn [GoSem.bind].
  rewrite (cw_used_eq Hfresh). cbn [GoSem.bind]. rewrite run_used. reflexivity.
Qed.

Lemma sprintf_entry id out size tm :
  go_fmt_Sprintf_w [x76; x31; x20; x25; x78; x20; x25; x78; x20; x25; x32; x30; x64; x20; x25; x32; x30; x64; x0a]
    [WAnyV (GoAnyBytes id); WAnyV (GoAnyBytes out); WAnyV (GoAnyInt size); WAnyV (GoAnyInt tm)]
  = Ok (encode_entry id out size tm).
Proof. reflexivity. Qed.

(* verify mode off.  The entry written is the model's encode_entry with the clock read of
   time.Now(); the operations are those of put_index_body, in its order, with its decisions:
   OpenFile(O_WRONLY|O_CREATE, 0666); Write of the whole entry; Truncate to its length only after a
   successful Write; Close always; Remove when any of them failed, else Chtimes; the error
   returned is nil exactly when the model says true. *)
Theorem cw_putIndexEntry_eq fuel w c id out size allow h o :
  id <> [] -> 0 <= size ->
  let tm := go_time_UnixNano (op_time_now OS w) in
  match run_prog OS (dir_of c) (put_index_body id out (Z.to_nat size) tm) (w, h, o) with
  | (st, ok) =>
      exists err,
        cw_Cache_putIndexEntry OS false rh fuel w c id out size allow = Ok (st_world OS st, c, err)
        /\ werr_is_nil err = ok
  end.
Proof.
  intros Hid Hsize tm. unfold cw_Cache_putIndexEntry, put_index_body.
  rewrite sprintf_entry. cbn [GoSem.bind andb]. rewrite (cw_fileName_idx c id Hid). cbn [GoSem.bind].
  rewrite Z2Nat.id by exact Hsize. fold tm.
  set (entry := encode_entry id out size tm).
  change (open_with (IdxP id) index_open_flags) with (OOpen (IdxP id) true false).
  cbn [run_prog do_op orb]. change (open_flags (IdxP id) true false) with 65. change file_perm with 438.
  destruct (op_open_file OS w (file_name (dir_of c) (IdxP id)) 65 438) as [[w1 f] e1].
  unfold res_of_err.
  destruct (werr_is_nil e1) eqn:E1; cbn [negb run_prog].
  2:{ exists e1. split; [reflexivity|exact E1]. }
  cbn [do_op]. destruct (op_write OS w1 f entry) as [[w2 n] e2].
  destruct (werr_is_nil e2) eqn:E2.
  - unfold wrote_all. rewrite Nat.eqb_refl. cbn [run_prog do_op GoSem.bind].
    unfold len. destruct (op_truncate OS w2 f (Z.of_nat (length entry))) as [w3 e3].
    cbn [GoSem.bind run_prog do_op]. destruct (op_close OS w3 f) as [w4 e4].
    unfold res_of_err, is_err.
    destruct (werr_is_nil e3) eqn:E3; cbn [GoSem.bind orb].
    + destruct (werr_is_nil e4) eqn:E4; cbn [negb run_prog do_op].
      * destruct (op_chtimes OS w4 _ _ _) as [w5 e5]. exists WNil. split; reflexivity.
      * destruct (op_remove OS w4 _) as [w5 e5]. exists e4. split; [reflexivity|exact E4].
    + rewrite E3. cbn [negb run_prog do_op]. destruct (op_remove OS w4 _) as [w5 e5].
      exists e3. split; [reflexivity|exact E3].
  - cbn [wrote_all run_prog do_op GoSem.bind]. destruct (op_close OS w2 f) as [w4 e4].
    rewrite ?E2. cbn [GoSem.bind orb negb run_prog do_op]. rewrite ?E2. cbn [GoSem.bind negb].
    destruct (op_remove OS w4 _) as [w5 e5].
    exists e2. split; [reflexivity|exact E2].
Qed.

End Facts.
