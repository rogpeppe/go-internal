(* Facts about descriptors: every program of the cache API closes what it opens on
   every path, faulty ones included. *)
From Coq Require Import List Bool Arith NArith ZArith Lia.
From Coq.Strings Require Import Byte.
From GI Require Import Lib.Bytes Gen.CacheConsts Cache.CacheEntry Cache.CacheEntryFacts Cache.Cache
  Cache.CacheSeqFacts Cache.CacheExamples Cache.CacheFault Cache.CacheFd.
Import ListNotations.

Lemma closes_all_fds_f : forall A (p : prog A) open, closes_all open p ->
  forall b fs, match fds_f b p fs open with Some l => l = [] | None => True end.
Proof.
  intros A p open Hc. induction Hc as [a|o k open Hk IH]; intros b fs; cbn [fds_f].
  - reflexivity.
  - destruct b as [[[|n] f]|].
    + destruct f; try exact I.
      * cbn [fail_step]. apply IH.
      * destruct (short_step j o fs) as [fs' r]. apply IH.
    + destruct (step o fs) as [fs' r]. apply IH.
    + destruct (step o fs) as [fs' r]. apply IH.
Qed.

Lemma fds_f_none_stopped : forall A (p : prog A) b fs open,
  fds_f b p fs open = None <-> snd (fst (run_f b p fs)) = Stopped.
Proof.
  induction p as [a|o k IH]; intros b fs open; cbn [fds_f run_f].
  - cbn. split; discriminate.
  - destruct b as [[[|n] f]|].
    + destruct f; cbn [fail_step].
      * apply IH.
      * destruct (short_step j o fs) as [fs' r]. apply IH.
      * cbn. split; reflexivity.
      * cbn. split; reflexivity.
      * cbn. split; reflexivity.
    + destruct (step o fs) as [fs' r]. apply IH.
    + destruct (step o fs) as [fs' r]. apply IH.
Qed.

Theorem closes_all_balanced : forall A (p : prog A), closes_all [] p ->
  forall b fs, (fd_leak b p fs = Some 0%nat /\ exists a, snd (fst (run_f b p fs)) = Done a) \/
               (fd_leak b p fs = None /\ snd (fst (run_f b p fs)) = Stopped).
Proof.
  intros A p Hc b fs. unfold fd_leak.
  pose proof (closes_all_fds_f A p [] Hc b fs) as Hs.
  pose proof (fds_f_none_stopped A p b fs []) as Hn.
  destruct (fds_f b p fs []) as [l|].
  - left. subst l. split; [reflexivity|].
    destruct (snd (fst (run_f b p fs))) as [a|] eqn:E; [exists a; reflexivity|].
    destruct Hn as [_ Hn]. specialize (Hn eq_refl). discriminate.
  - right. split; [reflexivity|]. apply Hn. reflexivity.
Qed.

Lemma closes_all_bind : forall A B (p : prog A) (f : A -> prog B) open,
  closes_all open p -> (forall a, closes_all [] (f a)) -> closes_all open (bind p f).
Proof.
  intros A B p f open Hc Hf. induction Hc as [a|o k open Hk IH]; cbn [bind].
  - apply Hf.
  - apply ca_op. intros r. apply IH.
Qed.

Lemma closes_all_write_chunks : forall A p cs off (k : bool -> prog A) open,
  (forall b, closes_all open (k b)) -> closes_all open (write_chunks p cs off k).
Proof.
  intros A p cs. induction cs as [|c r IH]; intros off k open Hk; cbn [write_chunks].
  - apply Hk.
  - apply ca_op. intros w. cbn [fd_step]. destruct (wrote_all w c); [apply IH; exact Hk|apply Hk].
Qed.

Lemma closes_all_read_full : forall A fuel p off need acc (k : bytes -> prog A) open,
  (forall e, closes_all open (k e)) -> closes_all open (read_full fuel p off need acc k).
Proof.
  intros A fuel. induction fuel as [|f IH]; intros p off need acc k open Hk; cbn [read_full].
  - apply Hk.
  - destruct (Nat.eqb need 0); [apply Hk|]. apply ca_op. intros r. cbn [fd_step].
    destruct r; try apply Hk. destruct (Nat.eqb (length b) 0); [apply Hk|apply IH; exact Hk].
Qed.

Lemma closes_all_used : forall A p (k : prog A) open, closes_all open k -> closes_all open (used_prog p k).
Proof.
  intros A p k open Hk. unfold used_prog. apply ca_op. intros r. cbn [fd_step].
  destruct r; try (apply ca_op; intros r2; cbn [fd_step]); exact Hk.
Qed.

(* one operation of a program: its effect on the open descriptors, for every result *)
Ltac ca_step := apply ca_op; intros ?; cbn [fd_step op_path remove_one]; rewrite ?path_eqb_refl.

Lemma closes_trunc_fail : forall p, closes_all [p] (trunc_fail p).
Proof. intros p. unfold trunc_fail. ca_step. ca_step. apply ca_ret. Qed.

Lemma closes_copy_rewrite : forall H rd out size bigger, closes_all [] (copy_rewrite H rd out size bigger).
Proof.
  intros H rd out size bigger. rewrite copy_rewrite_eq. unfold copy_rewrite_body.
  set (p := DatP out). unfold open_with. ca_step.
  destruct r; try apply ca_ret.
  destruct (Nat.eqb size 0); [ca_step; apply ca_ret|].
  destruct (negb (rd_seek2 rd)); [apply closes_trunc_fail|].
  apply closes_all_write_chunks. intros ok.
  destruct (negb ok); [apply closes_trunc_fail|].
  destruct (Nat.ltb _ _); [apply closes_trunc_fail|].
  destruct (nth_error _ _) as [b|]; [|apply closes_trunc_fail].
  destruct (negb _); [apply closes_trunc_fail|].
  ca_step. destruct (wrote_all _ _); [|apply closes_trunc_fail].
  ca_step. destruct (is_err _).
  - ca_step. ca_step. apply ca_ret.
  - ca_step. ca_step. apply ca_ret.
Qed.

Lemma closes_copy_file : forall H rd out size, closes_all [] (copy_file_prog H rd out size).
Proof.
  intros H rd out size. unfold copy_file_prog. ca_step.
  destruct r; try apply closes_copy_rewrite.
  destruct (Nat.eqb n size); [|apply closes_copy_rewrite].
  ca_step. destruct r; try apply closes_copy_rewrite.
  ca_step. ca_step.
  destruct (bytes_eqb _ _); [|apply closes_copy_rewrite].
  destruct copy_reuse_refreshes; [apply closes_all_used|]; apply ca_ret.
Qed.

Lemma closes_put_index : forall id out size tm, closes_all [] (put_index_prog id out size tm).
Proof.
  intros id out size tm. rewrite put_index_prog_eq. unfold put_index_body, open_with. ca_step.
  destruct r; try apply ca_ret.
  assert (forall err, closes_all [IdxP id]
            (Op (OClose (IdxP id)) (fun c => if err || is_err c then Op (ORemove (IdxP id)) (fun _ => Ret false)
                                              else Op (OChtimes (IdxP id)) (fun _ => Ret true)))) as Hfin.
  { intros err. ca_step. destruct (err || is_err _); ca_step; apply ca_ret. }
  ca_step. destruct (wrote_all _ _); [ca_step|]; apply Hfin.
Qed.

Theorem closes_put : forall H id rd tm, closes_all [] (put_prog H id rd tm).
Proof.
  intros H id rd tm. rewrite put_prog_eq. unfold put_prog_body.
  destruct (negb (rd_seek1 rd) || negb (rd_ok1 rd)); [apply ca_ret|].
  apply closes_all_bind; [apply closes_copy_file|]. intros ok. destruct ok; [|apply ca_ret].
  apply closes_all_bind; [apply closes_put_index|]. intros ok2. apply ca_ret.
Qed.

Theorem closes_put_bytes : forall H id chunks tm, closes_all [] (put_bytes_prog H id chunks tm).
Proof. intros H id chunks tm. unfold put_bytes_prog. destruct put_bytes_via_put; [apply closes_put|apply ca_ret]. Qed.

Theorem closes_get : forall id, closes_all [] (get_prog id).
Proof.
  intros id. unfold get_prog. ca_step. destruct r; try apply ca_ret.
  apply closes_all_read_full. intros e.
  destruct (parse_entry e id); [apply closes_all_used|]; ca_step; apply ca_ret.
Qed.

Theorem closes_output_file : forall out, closes_all [] (output_file_prog out).
Proof. intros out. unfold output_file_prog. apply closes_all_used. apply ca_ret. Qed.

Theorem closes_get_file : forall id, closes_all [] (get_file_prog id).
Proof.
  intros id. unfold get_file_prog. apply closes_all_bind; [apply closes_get|].
  intros [[[out size] tm]|]; [|apply ca_ret].
  apply closes_all_bind; [apply closes_output_file|]. intros file. ca_step.
  destruct r; try apply ca_ret. destruct (Z.eqb _ _); apply ca_ret.
Qed.

Theorem closes_get_bytes : forall H id, closes_all [] (get_bytes_prog H id).
Proof.
  intros H id. unfold get_bytes_prog. apply closes_all_bind; [apply closes_get|].
  intros [[[out size] tm]|]; [|apply ca_ret].
  apply closes_all_bind; [apply closes_output_file|]. intros file. ca_step.
  destruct (bytes_eqb _ _); apply ca_ret.
Qed.

(* under every fault budget, a call that returns has no descriptor left *)
Theorem put_fd_balanced : forall H id rd tm b fs,
  (fd_leak b (put_prog H id rd tm) fs = Some 0%nat /\ exists a, snd (fst (run_f b (put_prog H id rd tm) fs)) = Done a) \/
  (fd_leak b (put_prog H id rd tm) fs = None /\ snd (fst (run_f b (put_prog H id rd tm) fs)) = Stopped).
Proof. intros. apply closes_all_balanced. apply closes_put. Qed.

Theorem lookups_fd_balanced : forall H id b fs,
  (fd_leak b (get_prog id) fs = Some 0%nat \/ fd_leak b (get_prog id) fs = None) /\
  (fd_leak b (get_file_prog id) fs = Some 0%nat \/ fd_leak b (get_file_prog id) fs = None) /\
  (fd_leak b (get_bytes_prog H id) fs = Some 0%nat \/ fd_leak b (get_bytes_prog H id) fs = None).
Proof.
  intros H id b fs.
  pose proof (closes_all_balanced _ _ (closes_get id) b fs) as H1.
  pose proof (closes_all_balanced _ _ (closes_get_file id) b fs) as H2.
  pose proof (closes_all_balanced _ _ (closes_get_bytes H id) b fs) as H3.
  repeat split; [destruct H1 as [[E _]|[E _]]|destruct H2 as [[E _]|[E _]]|destruct H3 as [[E _]|[E _]]]; auto.
Qed.

(* the shape flags the statement rests on are those of the checked source *)
Lemma fd_shape_current : copy_closes_ok = true /\ get_defers_close = true /\ put_bytes_via_put = true.
Proof. repeat split; reflexivity. Qed.

(* non-vacuity: the predicate rejects a program that forgets a Close, the count sees it, and
   a concrete faulty Put (toy hash of CacheExamples) returns with nothing open *)
Definition leaky (p : path) : prog bool :=
  Op (OOpen p true false) (fun r => match r with ROk => Op (OReadAll p) (fun _ => Ret true) | _ => Ret false end).

Example leaky_not_closing : forall p, ~ closes_all [] (leaky p) /\ fd_leak None (leaky p) no_files = Some 1%nat.
Proof.
  intros p. split; [|reflexivity]. intros Hc.
  pose proof (closes_all_fds_f _ _ _ Hc None no_files) as Hs. cbn in Hs. discriminate.
Qed.

Example ex_put_fault_balanced :
  fd_leak (Some (3%nat, FFail)) (put_prog toyH id1 (honest_reader [d1]) 7%Z) no_files = Some 0%nat /\
  fd_leak (Some (2%nat, FShort 1)) (put_prog toyH id1 (honest_reader [d2]) 9%Z) store0 = Some 0%nat /\
  fd_leak (Some (4%nat, FStopAfter)) (put_prog toyH id1 (honest_reader [d1]) 7%Z) no_files = None /\
  fd_leak None (put_prog toyH id1 liar 7%Z) store0 = Some 0%nat.
Proof. vm_compute. auto. Qed.
