(* Facts about the index-entry codec (C05: entry_roundtrip, parse_entry_strict). *)
From Coq Require Import List Bool Arith NArith ZArith Lia.
From Coq.Strings Require Import Byte.
From GI Require Export Lib.BytesFacts.
From GI Require Import Lib.Bytes Gen.CacheConsts Cache.CacheEntry.
Import ListNotations.
Local Open Scope Z_scope.

Lemma firstn_app_len : forall (x y : bytes) n, length x = n -> firstn n (x ++ y) = x.
Proof. intros x y n <-. apply firstn_length_app. Qed.

Lemma skipn_app_len : forall (x y : bytes) n, length x = n -> skipn n (x ++ y) = y.
Proof. intros x y n <-. apply skipn_length_app. Qed.

Lemma split_at : forall n (l : bytes), (n <= length l)%nat ->
  exists x y, l = x ++ y /\ length x = n.
Proof.
  intros n l Hn. exists (firstn n l), (skipn n l). split.
  - symmetry; apply firstn_skipn.
  - apply firstn_length_le; exact Hn.
Qed.

Lemma bZ_range : forall b, 0 <= bZ b < 256.
Proof. intros b. pose proof (Byte.to_N_bounded b). unfold bZ. lia. Qed.

Lemma byte_of_bZ : forall b, byte_of_Z (bZ b) = b.
Proof. intros b. unfold byte_of_Z, bZ. rewrite N2Z.id, Byte.of_to_N. reflexivity. Qed.

Lemma from_hex_digit : forall v, 0 <= v < 16 -> from_hex_char (hex_digit v) = Some v.
Proof.
  intros v Hv.
  assert (In v [0; 1; 2; 3; 4; 5; 6; 7; 8; 9; 10; 11; 12; 13; 14; 15]) as C by (cbn; lia).
  repeat (destruct C as [<-|C]; [reflexivity|]). destruct C.
Qed.

(* the two digits of b are its quotient and remainder by 16 *)
Lemma hex_byte_decode : forall b r,
  hex_decode (hex_byte b ++ r) = match hex_decode r with Some d => Some (b :: d) | None => None end.
Proof.
  intros b r. pose proof (bZ_range b) as Hb. cbn [hex_byte app hex_decode].
  rewrite (from_hex_digit (bZ b / 16)) by (split; [apply Z.div_pos|apply Z.div_lt_upper_bound]; lia).
  rewrite (from_hex_digit (bZ b mod 16)) by (apply Z.mod_pos_bound; lia).
  rewrite Z.mul_comm, <- Z.div_mod, byte_of_bZ by lia. reflexivity.
Qed.

Lemma hex_decode_hex : forall d, hex_decode (hex d) = Some d.
Proof.
  induction d as [|b d IH]; [reflexivity|].
  cbn [hex flat_map]. fold (hex d). rewrite hex_byte_decode, IH. reflexivity.
Qed.

Lemma hex_length : forall d, length (hex d) = (2 * length d)%nat.
Proof.
  induction d as [|b d IH]; [reflexivity|].
  cbn [hex flat_map]. fold (hex d). rewrite app_length, IH. cbn. lia.
Qed.

Lemma hex_decode_length : forall s d, hex_decode s = Some d -> length s = (2 * length d)%nat.
Proof.
  fix IH 1. intros s d. destruct s as [|a [|b r]]; cbn.
  - intros E; inversion E; reflexivity.
  - discriminate.
  - destruct (from_hex_char a); [|discriminate]. destruct (from_hex_char b); [|discriminate].
    destruct (hex_decode r) as [d'|] eqn:E; [|discriminate].
    intros E'; inversion E'; subst. apply IH in E. cbn. lia.
Qed.

Lemma hex_inj : forall a b, hex a = hex b -> a = b.
Proof.
  intros a b E. assert (Some a = Some b) as E' by (rewrite <- !hex_decode_hex, E; reflexivity).
  congruence.
Qed.

Definition all_digits (s : bytes) : Prop := Forall (fun c => exists v, digit_val c = Some v) s.
Definition dval (c : byte) : Z := match digit_val c with Some v => v | None => 0 end.
Definition val (s : bytes) : Z := fold_left (fun a c => a * 10 + dval c) s 0.

Lemma digit_char : forall v, 0 <= v <= 9 -> digit_val (byte_of_Z (48 + v)) = Some v.
Proof.
  intros v Hv.
  assert (In v [0; 1; 2; 3; 4; 5; 6; 7; 8; 9]) as C by (cbn; lia).
  repeat (destruct C as [<-|C]; [reflexivity|]). destruct C.
Qed.

Lemma digit_val_range : forall c v, digit_val c = Some v -> 0 <= v <= 9.
Proof.
  intros c v E. unfold digit_val in E.
  destruct ((48 <=? bZ c) && (bZ c <=? 57)) eqn:Eb; [|discriminate].
  apply andb_true_iff in Eb as [E1 E2]. apply Z.leb_le in E1, E2. inversion E; lia.
Qed.

Lemma digit_not_sign : forall c v, digit_val c = Some v -> beq c x2b = false /\ beq c x2d = false /\ beq c SP = false.
Proof. intros c v E. repeat split; apply beq_false; intros ->; discriminate E. Qed.

Lemma fold_val : forall s a, fold_left (fun a c => a * 10 + dval c) s a = a * 10 ^ Z.of_nat (length s) + val s.
Proof.
  unfold val. induction s as [|c s IH]; intros a.
  - cbn. lia.
  - cbn [fold_left length]. rewrite IH. rewrite (IH (0 * 10 + dval c)).
    rewrite Nat2Z.inj_succ, Z.pow_succ_r by lia. ring.
Qed.

Lemma val_app : forall s t, val (s ++ t) = val s * 10 ^ Z.of_nat (length t) + val t.
Proof. intros. unfold val at 1. rewrite fold_left_app. fold (val s). apply fold_val. Qed.

Lemma val_cons : forall c s, val (c :: s) = dval c * 10 ^ Z.of_nat (length s) + val s.
Proof. intros c s. apply (val_app [c] s). Qed.

Lemma val_digit : forall c v, digit_val c = Some v -> val [c] = v.
Proof. intros c v E. unfold val, dval. cbn [fold_left]. rewrite E. reflexivity. Qed.

Lemma val_bound : forall s, all_digits s -> 0 <= val s < 10 ^ Z.of_nat (length s).
Proof.
  induction s as [|c s IH] using rev_ind; intros Hd.
  - cbn. lia.
  - apply Forall_app in Hd as [Hs Hc]. inversion Hc as [|? ? (v & Hv) _]; subst.
    rewrite val_app, (val_digit c v Hv), app_length, Nat2Z.inj_add, Z.pow_add_r by lia.
    apply digit_val_range in Hv. specialize (IH Hs). cbn [length]. change (10 ^ Z.of_nat 1) with 10. lia.
Qed.

Lemma parse_digits_val : forall s a, all_digits s -> parse_digits a s = Some (a * 10 ^ Z.of_nat (length s) + val s).
Proof.
  induction s as [|c s IH]; intros a Hd.
  - cbn. f_equal. lia.
  - inversion Hd as [|? ? [v Hv] Hd']; subst. cbn [parse_digits]. rewrite Hv, IH by exact Hd'.
    f_equal. rewrite val_cons. unfold dval. rewrite Hv. cbn [length]. rewrite Nat2Z.inj_succ, Z.pow_succ_r by lia. ring.
Qed.

Lemma parse_int_digit_string : forall c s, all_digits (c :: s) -> val (c :: s) < int64_lim ->
  parse_int (c :: s) = Some (val (c :: s)).
Proof.
  intros c s Hd Hlt. inversion Hd as [|? ? (v & Hv) _]; subst.
  unfold parse_int. destruct (digit_not_sign c v Hv) as (E1 & E2 & _). rewrite E1, E2. cbn [orb].
  rewrite parse_digits_val by exact Hd. apply Z.ltb_lt in Hlt. rewrite Z.mul_0_l, Z.add_0_l, Hlt. reflexivity.
Qed.

Lemma skip_spaces_digits : forall k c s, all_digits (c :: s) -> skip_spaces (repeat SP k ++ c :: s) = c :: s.
Proof.
  intros k c s Hd. inversion Hd as [|? ? (v & Hv) _]; subst. induction k as [|k IH].
  - cbn. destruct (digit_not_sign c v Hv) as (_ & _ & E). rewrite E. reflexivity.
  - cbn [repeat app skip_spaces]. rewrite beq_refl. exact IH.
Qed.

(* the digits of n: a non-empty all-digit string of value n, without a leading zero *)
Lemma digits_fuel_spec : forall f n acc, 0 <= n < 2 ^ Z.of_nat f ->
  exists pre, digits_fuel f n acc = pre ++ acc /\ all_digits pre /\ val pre = n /\
              pre <> [] /\ (n = 0 \/ 10 ^ (Z.of_nat (length pre) - 1) <= n).
Proof.
  assert (forall m, 0 <= m <= 9 ->
            all_digits [byte_of_Z (48 + m)] /\ val [byte_of_Z (48 + m)] = m) as Hone.
  { intros m Hm. pose proof (digit_char m Hm) as Hd. split; [repeat constructor; eauto|exact (val_digit _ _ Hd)]. }
  induction f as [|f IH]; intros n acc Hn; cbn [digits_fuel].
  - assert (n = 0) by (cbn in Hn; lia). subst. destruct (Hone 0) as [H1 H2]; [lia|].
    exists [byte_of_Z (48 + 0 mod 10)]. repeat split; auto; discriminate.
  - destruct (n <? 10) eqn:E.
    + apply Z.ltb_lt in E. destruct (Hone n) as [H1 H2]; [lia|].
      exists [byte_of_Z (48 + n)]. repeat split; auto; [discriminate|]. cbn. lia.
    + apply Z.ltb_ge in E.
      assert (0 <= n / 10 < 2 ^ Z.of_nat f) as Hq.
      { rewrite Nat2Z.inj_succ, Z.pow_succ_r in Hn by lia. split; [apply Z.div_pos; lia|].
        apply Z.div_lt_upper_bound; lia. }
      destruct (IH (n / 10) (byte_of_Z (48 + n mod 10) :: acc) Hq) as (pre & E1 & Hd & Hv & Hl & Hlo).
      pose proof (Z.div_mod n 10) as Hdiv. pose proof (Z.mod_pos_bound n 10) as Hm.
      destruct (Hone (n mod 10)) as [H1 H2]; [lia|].
      exists (pre ++ [byte_of_Z (48 + n mod 10)]). repeat split.
      * rewrite E1, <- app_assoc. reflexivity.
      * apply Forall_app; split; assumption.
      * rewrite val_app, Hv, H2. change (10 ^ Z.of_nat (length [byte_of_Z (48 + n mod 10)])) with 10. lia.
      * destruct pre; discriminate.
      * right. rewrite app_length. cbn [length].
        replace (Z.of_nat (length pre + 1) - 1) with (Z.succ (Z.of_nat (length pre) - 1)) by lia.
        rewrite Z.pow_succ_r by (destruct pre; [contradiction|cbn [length]; lia]).
        destruct Hlo; lia.
Qed.

Lemma digits_spec : forall n, 0 <= n ->
  all_digits (digits n) /\ val (digits n) = n /\ digits n <> [] /\
  (n = 0 \/ 10 ^ (Z.of_nat (length (digits n)) - 1) <= n).
Proof.
  intros n Hn. unfold digits.
  assert (0 <= n < 2 ^ Z.of_nat (Z.to_nat (Z.log2_up (n + 1)))) as Hf.
  { rewrite Z2Nat.id by apply Z.log2_up_nonneg.
    pose proof (Z.log2_log2_up_spec (n + 1)). lia. }
  destruct (digits_fuel_spec _ n [] Hf) as (pre & E & H1).
  rewrite app_nil_r in E. rewrite E. exact H1.
Qed.

(* 2^63 < 10^19 *)
Lemma digits_length_int64 : forall n, 0 <= n < int64_lim -> (length (digits n) <= 19)%nat.
Proof.
  intros n [Hn Hlt]. destruct (digits_spec n Hn) as (Hd & Hv & _ & _).
  pose proof (val_bound _ Hd) as Hb. rewrite Hv in Hb.
  destruct (digits_spec n Hn) as (_ & _ & _ & Hlo).
  destruct (le_lt_dec (length (digits n)) 19) as [L|L]; [exact L|exfalso].
  destruct Hlo as [Hz|Hlo].
  - subst n. revert L. vm_compute. lia.
  - assert (10 ^ 19 <= 10 ^ (Z.of_nat (length (digits n)) - 1)) by (apply Z.pow_le_mono_r; lia).
    unfold int64_lim in Hlt. assert (2 ^ 63 < 10 ^ 19) by reflexivity. lia.
Qed.

Lemma fmt_int_nonneg : forall n, 0 <= n -> fmt_int n = digits n.
Proof. intros n Hn. unfold fmt_int. destruct (n <? 0) eqn:E; [apply Z.ltb_lt in E; lia|reflexivity]. Qed.

Lemma pad_left_length : forall w s, (length s <= w)%nat -> length (pad_left w s) = w.
Proof. intros. unfold pad_left. rewrite app_length, repeat_length. lia. Qed.

Lemma parse_padded : forall w n, 0 <= n < int64_lim ->
  parse_int (skip_spaces (pad_left w (fmt_int n))) = Some n.
Proof.
  intros w n Hn. rewrite fmt_int_nonneg by lia. unfold pad_left.
  destruct (digits_spec n (proj1 Hn)) as (Hd & Hv & Hne & _).
  destruct (digits n) as [|c r]; [contradiction|].
  rewrite skip_spaces_digits, parse_int_digit_string, Hv by (exact Hd || lia). reflexivity.
Qed.

Lemma cut_field : forall (p x r : bytes) k n, length p = k -> length x = n ->
  slice k (k + n) (p ++ x ++ r) = x /\ skipn (k + n) (p ++ x ++ r) = r.
Proof.
  intros p x r k n <- <-. unfold slice. rewrite Nat.add_comm, Nat.add_sub. split.
  - rewrite skipn_app_len by reflexivity. apply firstn_app_len; reflexivity.
  - rewrite Nat.add_comm, app_assoc. apply skipn_app_len, app_length.
Qed.

Lemma byte_at_skipn : forall i j (e : bytes), byte_at (i + j) e = byte_at j (skipn i e).
Proof.
  unfold byte_at. induction i as [|i IH]; intros j [|b e]; cbn [Nat.add skipn nth]; auto. destruct j; reflexivity.
Qed.

Lemma consts_layout :
  entry_size_n = (3 + hex_size_n + 1 + hex_size_n + 1 + size_width_n + 1 + time_width_n + 1)%nat.
Proof. reflexivity. Qed.

Lemma hex_size_hash : hex_size_n = (2 * hash_size_n)%nat.
Proof. reflexivity. Qed.

Definition entry_shape (b0 b1 b2 : byte) (hid : bytes) (s1 : byte) (hout : bytes) (s2 : byte)
  (ss : bytes) (s3 : byte) (st : bytes) (s4 : byte) : bytes :=
  b0 :: b1 :: b2 :: hid ++ s1 :: hout ++ s2 :: ss ++ s3 :: st ++ [s4].

Definition parse_fields (hid hout ss st id : bytes) : option (bytes * Z * Z) :=
  match hex_decode hid with
  | None => None
  | Some buf =>
      if negb (bytes_eqb buf id) then None else
      match hex_decode hout with
      | None => None
      | Some out =>
          match parse_int (skip_spaces ss) with
          | None => None
          | Some size =>
              if size <? 0 then None else
              match parse_int (skip_spaces st) with
              | None => None
              | Some tm => if tm <? 0 then None else Some (out, size, tm)
              end
          end
      end
  end.

Lemma parse_entry_shape : forall b0 b1 b2 hid s1 hout s2 ss s3 st s4 id,
  length hid = hex_size_n -> length hout = hex_size_n ->
  length ss = size_width_n -> length st = time_width_n ->
  parse_entry (entry_shape b0 b1 b2 hid s1 hout s2 ss s3 st s4) id =
  if beq b0 x76 && beq b1 x31 && beq b2 SP && beq s1 SP && beq s2 SP && beq s3 SP && beq s4 NL
  then parse_fields hid hout ss st id else None.
Proof.
  intros b0 b1 b2 hid s1 hout s2 ss s3 st s4 id Lh Lo Ls Lt.
  pose proof consts_layout as LAY. unfold parse_entry, header_ok.
  set (a := hex_size_n) in *. set (c := size_width_n) in *. set (d := time_width_n) in *.
  set (N := entry_size_n) in *.
  (* what is left of the entry behind each field *)
  set (R3 := s3 :: st ++ [s4]). set (R2 := s2 :: ss ++ R3). set (R1 := s1 :: hout ++ R2).
  set (e := entry_shape b0 b1 b2 hid s1 hout s2 ss s3 st s4).
  destruct (cut_field [b0; b1; b2] hid R1 3 a eq_refl Lh) as [S1 E1]. change ([b0; b1; b2] ++ hid ++ R1) with e in S1, E1.
  destruct (cut_field [s1] hout R2 1 a eq_refl Lo) as [S2 E2]. change ([s1] ++ hout ++ R2) with R1 in S2, E2.
  destruct (cut_field [s2] ss R3 1 c eq_refl Ls) as [S3 E3]. change ([s2] ++ ss ++ R3) with R2 in S3, E3.
  destruct (cut_field [s3] st [s4] 1 d eq_refl Lt) as [S4 E4]. change ([s3] ++ st ++ [s4]) with R3 in S4, E4.
  assert (length e = N) as Le by (unfold e, entry_shape; cbn [length]; repeat (rewrite app_length; cbn [length]); lia).
  rewrite Le, Nat.eqb_refl. cbn [negb].
  replace (3 + a + 1 + a)%nat with ((3 + a) + ((1 + a) + 0))%nat by lia.
  replace (3 + a + ((1 + a) + 0) + 1 + c)%nat with ((3 + a) + ((1 + a) + ((1 + c) + 0)))%nat by lia.
  replace (N - 1)%nat with ((3 + a) + ((1 + a) + ((1 + c) + ((1 + d) + 0))))%nat by lia.
  rewrite <- (Nat.add_0_r (3 + a)) at 1. rewrite !byte_at_skipn, !E1, !E2, !E3, E4, S1, S2, S3, S4.
  change (byte_at 0 e) with b0; change (byte_at 1 e) with b1; change (byte_at 2 e) with b2.
  change (byte_at 0 R1) with s1; change (byte_at 0 R2) with s2; change (byte_at 0 R3) with s3; change (byte_at 0 [s4]) with s4.
  destruct (_ && _); reflexivity.
Qed.

Lemma encode_entry_eq : forall id out size tm,
  encode_entry id out size tm =
  entry_shape x76 x31 SP (hex id) SP (hex out) SP (pad_left size_width_n (fmt_int size)) SP
              (pad_left time_width_n (fmt_int tm)) NL.
Proof. intros. reflexivity. Qed.

(* a field of 19 or more bytes has room for an int64 *)
Lemma padded_int_length : forall w n, (19 <= w)%nat -> 0 <= n < int64_lim -> length (pad_left w (fmt_int n)) = w.
Proof.
  intros w n Hw Hn. apply pad_left_length. rewrite fmt_int_nonneg by lia.
  pose proof (digits_length_int64 n Hn). lia.
Qed.

Lemma number_widths : (19 <= size_width_n)%nat /\ (19 <= time_width_n)%nat.
Proof. vm_compute. lia. Qed.

Lemma parse_entry_time_field : forall id out size st t',
  length id = hash_size_n -> length out = hash_size_n -> 0 <= size < int64_lim ->
  length st = time_width_n -> parse_int (skip_spaces st) = Some t' -> 0 <= t' ->
  parse_entry (entry_shape x76 x31 SP (hex id) SP (hex out) SP (pad_left size_width_n (fmt_int size)) SP st NL) id
  = Some (out, size, t').
Proof.
  intros id out size st t' Li Lo Hs Lst Hp Ht.
  rewrite parse_entry_shape.
  - rewrite !beq_refl. cbn [andb]. unfold parse_fields.
    rewrite !hex_decode_hex, bytes_eqb_refl. cbn [negb].
    rewrite parse_padded by assumption. rewrite Hp.
    destruct (size <? 0) eqn:E1; [apply Z.ltb_lt in E1; lia|].
    destruct (t' <? 0) eqn:E2; [apply Z.ltb_lt in E2; lia|]. reflexivity.
  - rewrite hex_length, Li. symmetry; apply hex_size_hash.
  - rewrite hex_length, Lo. symmetry; apply hex_size_hash.
  - apply padded_int_length; [apply number_widths|exact Hs].
  - exact Lst.
Qed.

Lemma entry_roundtrip : forall id out size tm,
  length id = hash_size_n -> length out = hash_size_n ->
  0 <= size < int64_lim -> 0 <= tm < int64_lim ->
  parse_entry (encode_entry id out size tm) id = Some (out, size, tm).
Proof.
  intros id out size tm Li Lo Hs Ht. rewrite encode_entry_eq.
  apply parse_entry_time_field; try assumption; [apply padded_int_length; [apply number_widths|exact Ht]|apply parse_padded; exact Ht|lia].
Qed.

Lemma encode_entry_length : forall id out size tm,
  length id = hash_size_n -> length out = hash_size_n ->
  0 <= size < int64_lim -> 0 <= tm < int64_lim ->
  length (encode_entry id out size tm) = entry_size_n.
Proof.
  intros id out size tm Li Lo Hs Ht.
  pose proof (entry_roundtrip id out size tm Li Lo Hs Ht) as R.
  unfold parse_entry in R.
  destruct (Nat.eqb (length (encode_entry id out size tm)) entry_size_n) eqn:E; [apply Nat.eqb_eq; exact E|discriminate].
Qed.

Lemma shape_inversion : forall e, length e = entry_size_n ->
  exists b0 b1 b2 hid s1 hout s2 ss s3 st s4,
    e = entry_shape b0 b1 b2 hid s1 hout s2 ss s3 st s4 /\
    length hid = hex_size_n /\ length hout = hex_size_n /\ length ss = size_width_n /\ length st = time_width_n.
Proof.
  intros e Le. pose proof consts_layout as LAY.
  set (a := hex_size_n) in *. set (c := size_width_n) in *. set (d := time_width_n) in *.
  set (N := entry_size_n) in *.
  destruct e as [|b0 [|b1 [|b2 r0]]]; cbn [length] in Le; try lia.
  destruct (split_at a r0) as (hid & r1 & -> & Lh); [lia|]. rewrite app_length in Le.
  destruct r1 as [|s1 r1]; cbn [length] in Le; [lia|].
  destruct (split_at a r1) as (hout & r2 & -> & Lo); [lia|]. rewrite app_length in Le.
  destruct r2 as [|s2 r2]; cbn [length] in Le; [lia|].
  destruct (split_at c r2) as (ss & r3 & -> & Ls); [lia|]. rewrite app_length in Le.
  destruct r3 as [|s3 r3]; cbn [length] in Le; [lia|].
  destruct (split_at d r3) as (st & r4 & -> & Lt); [lia|]. rewrite app_length in Le.
  destruct r4 as [|s4 [|x r5]]; cbn [length] in Le; try lia.
  exists b0, b1, b2, hid, s1, hout, s2, ss, s3, st, s4. unfold entry_shape. auto.
Qed.

Lemma parse_digits_nonneg : forall s a z, parse_digits a s = Some z -> 0 <= a -> 0 <= z.
Proof.
  induction s as [|c s IH]; intros a z E Ha.
  - cbn in E. inversion E; lia.
  - cbn in E. destruct (digit_val c) as [v|] eqn:Ev; [|discriminate].
    apply digit_val_range in Ev. eapply IH; [exact E|lia].
Qed.

(* strconv.ParseInt(s, 10, 64) only ever yields an int64 *)
Lemma parse_int_range : forall s z, parse_int s = Some z -> - int64_lim <= z < int64_lim.
Proof.
  intros s z E. unfold parse_int in E. destruct s as [|c r]; [discriminate|].
  destruct (if beq c x2b || beq c x2d then r else c :: r) as [|c' r'] eqn:Ed; [discriminate|].
  destruct (parse_digits 0 (c' :: r')) as [u|] eqn:Eu; [|discriminate].
  apply parse_digits_nonneg in Eu; [|lia].
  destruct (beq c x2d).
  - destruct (u <=? int64_lim) eqn:El; [|discriminate]. apply Z.leb_le in El. inversion E; subst.
    unfold int64_lim in *. lia.
  - destruct (u <? int64_lim) eqn:El; [|discriminate]. apply Z.ltb_lt in El. inversion E; subst.
    unfold int64_lim in *. lia.
Qed.

(* what Cache.get accepts: exactly entrySize bytes of the form
   "v1 <hex id> <hex out> <size> <time>\n" with fields of the fixed widths, the id equal to the
   one looked up (hex of either case), numbers that strconv.ParseInt accepts after the leading
   spaces, both non-negative int64 *)
Definition entry_wf (e id out : bytes) (size tm : Z) : Prop :=
  length e = entry_size_n /\
  exists hid hout ss st,
    e = entry_shape x76 x31 SP hid SP hout SP ss SP st NL /\
    length hid = hex_size_n /\ length hout = hex_size_n /\
    length ss = size_width_n /\ length st = time_width_n /\
    hex_decode hid = Some id /\ hex_decode hout = Some out /\ length out = hash_size_n /\
    parse_int (skip_spaces ss) = Some size /\ 0 <= size < int64_lim /\
    parse_int (skip_spaces st) = Some tm /\ 0 <= tm < int64_lim.

Lemma parse_entry_strict : forall e id out size tm,
  parse_entry e id = Some (out, size, tm) -> entry_wf e id out size tm.
Proof.
  intros e id out size tm E.
  assert (length e = entry_size_n) as Le.
  { unfold parse_entry in E. destruct (Nat.eqb (length e) entry_size_n) eqn:El; [apply Nat.eqb_eq; exact El|discriminate]. }
  split; [exact Le|].
  destruct (shape_inversion e Le) as (b0 & b1 & b2 & hid & s1 & hout & s2 & ss & s3 & st & s4 & -> & Lh & Lo & Ls & Lt).
  rewrite parse_entry_shape in E by assumption.
  destruct (beq b0 x76) eqn:E0; [|discriminate]. destruct (beq b1 x31) eqn:E1; [|discriminate].
  destruct (beq b2 SP) eqn:E2; [|discriminate]. destruct (beq s1 SP) eqn:E3; [|discriminate].
  destruct (beq s2 SP) eqn:E4; [|discriminate]. destruct (beq s3 SP) eqn:E5; [|discriminate].
  destruct (beq s4 NL) eqn:E6; [|discriminate]. cbn [andb] in E.
  apply beq_eq in E0, E1, E2, E3, E4, E5, E6. subst.
  unfold parse_fields in E.
  destruct (hex_decode hid) as [buf|] eqn:Hi; [|discriminate].
  destruct (bytes_eqb buf id) eqn:Eb; [|discriminate]. apply bytes_eqb_eq in Eb; subst buf. cbn [negb] in E.
  destruct (hex_decode hout) as [o|] eqn:Ho; [|discriminate].
  destruct (parse_int (skip_spaces ss)) as [sz|] eqn:Ps; [|discriminate].
  destruct (sz <? 0) eqn:Sn; [discriminate|].
  destruct (parse_int (skip_spaces st)) as [t|] eqn:Pt; [|discriminate].
  destruct (t <? 0) eqn:Tn; [discriminate|]. inversion E; subst.
  apply Z.ltb_ge in Sn, Tn. pose proof (parse_int_range _ _ Ps). pose proof (parse_int_range _ _ Pt).
  exists hid, hout, ss, st. repeat split; auto; try lia.
  apply hex_decode_length in Ho. pose proof hex_size_hash. lia.
Qed.

(* the two hex fields of an accepted entry *)
Lemma parse_entry_ids : forall e id out size tm, parse_entry e id = Some (out, size, tm) ->
  exists hid hout X, e = x76 :: x31 :: SP :: hid ++ SP :: hout ++ X /\
    length hid = hex_size_n /\ length hout = hex_size_n /\ hex_decode hid = Some id /\ hex_decode hout = Some out.
Proof.
  intros e id out size tm Ep.
  destruct (parse_entry_strict _ _ _ _ _ Ep) as (_ & hid & hout & ss & st & Es & Lh & Lo & _ & _ & Hi & Ho & _).
  exists hid, hout, (SP :: ss ++ SP :: st ++ [NL]). auto.
Qed.

Lemma parse_entry_out_length : forall e id out size tm,
  parse_entry e id = Some (out, size, tm) -> length out = hash_size_n /\ 0 <= size.
Proof.
  intros e id out size tm E. apply parse_entry_strict in E.
  destruct E as (_ & hid & hout & ss & st & _ & _ & _ & _ & _ & _ & _ & L & _ & R & _). split; [exact L|lia].
Qed.

Lemma digit_one : forall c, digit_val c = Some 1 -> c = x31.
Proof.
  intros c E. unfold digit_val in E. destruct (_ && _); [|discriminate E]. injection E as E.
  pose proof (Byte.of_to_N c) as R. replace (Byte.to_N c) with 49%N in R by (unfold bZ in E; lia).
  injection R as <-. reflexivity.
Qed.

Lemma digits_t19 : forall t, 10 ^ 18 <= t < 2 * 10 ^ 18 ->
  exists ds, digits t = x31 :: ds /\ length ds = 18%nat /\ all_digits ds.
Proof.
  intros t Ht. destruct (digits_spec t) as (Hd & Hv & Hne & Hlo); [lia|].
  pose proof (val_bound _ Hd) as Hb. rewrite Hv in Hb.
  assert (length (digits t) = 19%nat) as L19.
  { destruct Hlo as [Hz|Hlo]; [lia|].
    destruct (lt_eq_lt_dec (length (digits t)) 19) as [[L|L]|L]; [|exact L|].
    - assert (10 ^ Z.of_nat (length (digits t)) <= 10 ^ 18) by (apply Z.pow_le_mono_r; lia). lia.
    - assert (10 ^ 19 <= 10 ^ (Z.of_nat (length (digits t)) - 1)) by (apply Z.pow_le_mono_r; lia).
      assert (10 ^ 19 = 10 * 10 ^ 18) by reflexivity. lia. }
  destruct (digits t) as [|c r]; [contradiction|].
  inversion Hd as [|x l (v & Hc) Hds]; subst x l.
  assert (length r = 18%nat) as L18 by (cbn [length] in L19; lia).
  pose proof (val_bound _ Hds) as Hbr. pose proof (digit_val_range _ _ Hc).
  rewrite val_cons in Hv. unfold dval in Hv. rewrite Hc, L18 in *. change (Z.of_nat 18) with 18 in *.
  assert (v = 1) by nia. subst v. apply digit_one in Hc. subst c.
  exists r. auto.
Qed.

(* the out field of an entry that starts like a well-formed one *)
Lemma app_inv_length : forall (a a' b b' : bytes), length a = length a' -> a ++ b = a' ++ b' -> a = a' /\ b = b'.
Proof.
  intros a a' b b' L E. pose proof (f_equal (firstn (length a)) E) as F.
  rewrite firstn_length_app, L, firstn_length_app in F.
  subst a'. split; [reflexivity|exact (app_inv_head _ _ _ E)].
Qed.

Lemma parse_entry_out_field : forall e id o X r,
  length id = hash_size_n -> length o = hash_size_n ->
  e = x76 :: x31 :: SP :: hex id ++ SP :: hex o ++ X ->
  parse_entry e id = Some r -> fst (fst r) = o.
Proof.
  intros e id o X [[out size] tm] Li Lo Ee Ep. cbn [fst].
  destruct (parse_entry_ids _ _ _ _ _ Ep) as (hid & hout & Y & Es & Lh & Lho & _ & Ho).
  rewrite Es in Ee. inversion Ee as [E1].
  apply app_inv_length in E1; [|rewrite hex_length, Li, Lh; apply hex_size_hash].
  destruct E1 as [_ E2]. inversion E2 as [E3].
  apply app_inv_length in E3; [|rewrite hex_length, Lo, Lho; apply hex_size_hash].
  destruct E3 as [E4 _]. subst hout. rewrite hex_decode_hex in Ho. congruence.
Qed.

Lemma encode_entry_prefix : forall id o size tm, exists X,
  encode_entry id o size tm = x76 :: x31 :: SP :: hex id ++ SP :: hex o ++ X.
Proof. intros. rewrite encode_entry_eq. unfold entry_shape. eexists. reflexivity. Qed.

Lemma nth_error_entry_out : forall (b0 b1 b2 s1 : byte) hid hout X k,
  length hid = hex_size_n -> (k < length hout)%nat ->
  nth_error (b0 :: b1 :: b2 :: hid ++ s1 :: hout ++ X) (3 + hex_size_n + 1 + k) = nth_error hout k.
Proof.
  intros b0 b1 b2 s1 hid hout X k Lh Lk.
  change (3 + hex_size_n + 1 + k)%nat with (S (S (S (hex_size_n + 1 + k)))). cbn [nth_error].
  rewrite nth_error_app2 by lia. replace (hex_size_n + 1 + k - length hid)%nat with (S k) by lia.
  cbn [nth_error]. apply nth_error_app1. exact Lk.
Qed.

(* the torn view CacheConc.mix (the same term; that file is not imported here) *)
Definition mixb (j : nat) (cur old : bytes) : bytes := firstn j cur ++ skipn j old.

Lemma mixb_prefix : forall j (P A B : bytes), mixb j (P ++ A) (P ++ B) = P ++ mixb (j - length P) A B.
Proof.
  intros j P A B. unfold mixb. destruct (le_lt_dec j (length P)) as [L|L].
  - replace (j - length P)%nat with 0%nat by lia. cbn [firstn skipn app].
    rewrite firstn_app, skipn_app. replace (j - length P)%nat with 0%nat by lia. cbn [firstn skipn].
    rewrite app_nil_r, app_assoc, firstn_skipn. reflexivity.
  - rewrite firstn_app, skipn_app. rewrite firstn_all2 by lia. rewrite skipn_all2 by lia.
    cbn [app]. rewrite <- app_assoc. reflexivity.
Qed.

Lemma mixb_suffix : forall j (A B S : bytes), length A = length B ->
  mixb j (A ++ S) (B ++ S) = mixb j A B ++ S.
Proof.
  intros j A B S Hl. unfold mixb. destruct (le_lt_dec j (length A)) as [L|L].
  - rewrite firstn_app, skipn_app. replace (j - length A)%nat with 0%nat by lia.
    replace (j - length B)%nat with 0%nat by lia. cbn [firstn skipn]. rewrite app_nil_r, <- app_assoc. reflexivity.
  - rewrite firstn_app, skipn_app. rewrite !(firstn_all2 A) by lia. rewrite !(skipn_all2 B) by lia.
    cbn [app]. rewrite Hl. rewrite app_nil_r, <- app_assoc, firstn_skipn. reflexivity.
Qed.

Lemma mixb_digits : forall j a b, all_digits a -> all_digits b -> length a = length b ->
  all_digits (mixb j a b) /\ length (mixb j a b) = length a.
Proof.
  intros j a b Ha Hb Hl. unfold mixb, all_digits in *. split.
  - rewrite <- (firstn_skipn j a) in Ha. rewrite <- (firstn_skipn j b) in Hb.
    apply Forall_app in Ha, Hb. apply Forall_app. tauto.
  - rewrite app_length, firstn_length, skipn_length. lia.
Qed.

Lemma mix_entries_parse : forall id out size t1 t0 j,
  length id = hash_size_n -> length out = hash_size_n -> 0 <= size < int64_lim ->
  10 ^ 18 <= t1 < 2 * 10 ^ 18 -> 10 ^ 18 <= t0 < 2 * 10 ^ 18 ->
  exists t', 10 ^ 18 <= t' < 2 * 10 ^ 18 /\
    parse_entry (mixb j (encode_entry id out size t1) (encode_entry id out size t0)) id = Some (out, size, t').
Proof.
  intros id out size t1 t0 j Li Lo Hs H1 H0.
  destruct (digits_t19 t1 H1) as (d1 & E1 & L1 & A1). destruct (digits_t19 t0 H0) as (d0 & E0 & L0 & A0).
  assert (forall t ds, 0 <= t -> digits t = x31 :: ds -> length ds = 18%nat ->
            pad_left time_width_n (fmt_int t) = SP :: x31 :: ds) as Hpad.
  { intros t ds Ht E L. rewrite fmt_int_nonneg by exact Ht. rewrite E. unfold pad_left. cbn [length]. rewrite L. reflexivity. }
  rewrite !encode_entry_eq. rewrite (Hpad t1 d1), (Hpad t0 d0) by (assumption || lia).
  set (P := x76 :: x31 :: SP :: hex id ++ SP :: hex out ++ SP :: pad_left size_width_n (fmt_int size) ++ [SP; SP; x31]).
  assert (forall ds, entry_shape x76 x31 SP (hex id) SP (hex out) SP (pad_left size_width_n (fmt_int size)) SP (SP :: x31 :: ds) NL
                     = P ++ ds ++ [NL]) as Esh.
  { intros ds. unfold entry_shape, P. cbn [app]. repeat (rewrite <- app_assoc; cbn [app]). reflexivity. }
  rewrite !Esh. rewrite mixb_prefix. rewrite mixb_suffix by congruence.
  destruct (mixb_digits (j - length P) d1 d0 A1 A0) as [Am Lm]; [congruence|].
  set (m := mixb (j - length P) d1 d0) in *.
  rewrite <- Esh.
  assert (all_digits (x31 :: m)) as Ad.
  { constructor; [exists 1; reflexivity|exact Am]. }
  assert (val (x31 :: m) = 10 ^ 18 + val m) as Ev.
  { rewrite val_cons, Lm, L1. change (dval x31) with 1. lia. }
  pose proof (val_bound _ Am) as Hb. rewrite Lm, L1 in Hb. change (Z.of_nat 18) with 18 in Hb.
  exists (val (x31 :: m)). split; [lia|].
  apply parse_entry_time_field; auto.
  - cbn [length]. rewrite Lm, L1. reflexivity.
  - cbn [skip_spaces]. rewrite beq_refl. change (beq x31 SP) with false. cbv iota.
    apply parse_int_digit_string; [exact Ad|]. unfold int64_lim. lia.
  - lia.
Qed.
