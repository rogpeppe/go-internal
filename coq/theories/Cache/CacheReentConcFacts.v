(* A call made by the source reader of a Put in the middle of that Put (CacheReent.v) IS a run of the
   interleaved semantics (CacheConc.v): two clients, the Put and the inner call, under the schedule
   "the Put up to its n-th write to the output file, the inner call to completion, the rest of the
   Put", with untorn views.  Every C11 theorem therefore covers re-entrant use. *)
From Coq Require Import List Bool Arith NArith ZArith Lia.
From Coq.Strings Require Import Byte.
From GI Require Import Lib.Bytes Gen.CacheConsts Cache.CacheEntry Cache.Cache Cache.CacheSeqFacts
  Cache.CacheExamples Cache.CacheConc Cache.CacheReent Cache.CacheReentFacts.
Import ListNotations.

(* with an untorn view an operation of the interleaved semantics is the sequential one *)
Lemma cstep_none : forall o s,
  sfiles (fst (cstep o None s)) = fst (step o (sfiles s)) /\ snd (cstep o None s) = snd (step o (sfiles s)).
Proof.
  intros o s. destruct o as [p|p c t|p off n|p|p off b|p n|p|p|p]; cbn [cstep step]; unfold view.
  - split; reflexivity.
  - destruct (sfiles s p); [destruct t|destruct c]; cbn; split; reflexivity.
  - destruct (sfiles s p); cbn; split; reflexivity.
  - destruct (sfiles s p); cbn; split; reflexivity.
  - destruct (sfiles s p); cbn; split; reflexivity.
  - destruct (sfiles s p); cbn; split; reflexivity.
  - split; reflexivity.
  - destruct (sfiles s p); cbn; split; reflexivity.
  - destruct (sfiles s p); cbn; split; reflexivity.
Qed.

Lemma run_conc_app : forall H a b st, run_conc H (a ++ b) st = run_conc H b (run_conc H a st).
Proof. intros. unfold run_conc. apply fold_left_app. Qed.

Definition done_client (rs : list cres) : client := {| cur := None; todo := []; results := rs |}.

Section Two.
Variable H : bytes -> bytes.

(* client i of a system, as a hole in the list of clients: [ctx c] is the list with c at position i *)
Section Hole.
Variable i : nat.
Variable ctx : client -> list client.
Hypothesis ctx_nth : forall c, nth_error (ctx c) i = Some c.
Hypothesis ctx_set : forall c c', set_nth i c' (ctx c) = ctx c'.

Lemma turn : forall o k rs s,
  sched_step H (i, None) (ctx (norm H (Op o k) [] rs), s) =
  (ctx (norm H (k (snd (cstep o None s))) [] rs), fst (cstep o None s)).
Proof.
  intros. unfold sched_step. cbn [fst snd]. rewrite ctx_nth. cbn [norm client_step cur todo results].
  destruct (cstep o None s) as [s1 r]. rewrite ctx_set. reflexivity.
Qed.

(* a client left alone runs its program to completion as the sequential semantics does *)
Lemma alone : forall (p : prog cres) rs s,
  exists m s', run_conc H (repeat (i, None) m) (ctx (norm H p [] rs), s) =
               (ctx (done_client (rs ++ [snd (run_seq p (sfiles s))])), s') /\
               sfiles s' = fst (run_seq p (sfiles s)).
Proof.
  induction p as [a|o k IH]; intros rs s.
  - exists 0%nat, s. split; reflexivity.
  - destruct (IH (snd (cstep o None s)) rs (fst (cstep o None s))) as (m & s' & E & F).
    exists (S m), s'. cbn [repeat]. change ((i, @None nat) :: repeat (i, None) m) with ([(i, @None nat)] ++ repeat (i, None) m).
    rewrite run_conc_app. unfold run_conc at 2. cbn [fold_left]. rewrite turn. fold (run_conc H (repeat (i, None) m)).
    destruct (cstep_none o s) as [Ef Er]. cbn [run_seq]. destruct (step o (sfiles s)) as [fs1 r] eqn:Es. cbn [fst snd] in Ef, Er.
    rewrite Er in *. rewrite Ef in *. split; [exact E|exact F].
Qed.

End Hole.

Lemma alone0 : forall (p : prog cres) rs c1 s,
  exists m s', run_conc H (repeat (0%nat, None) m) ([norm H p [] rs; c1], s) =
               ([done_client (rs ++ [snd (run_seq p (sfiles s))]); c1], s') /\
               sfiles s' = fst (run_seq p (sfiles s)).
Proof. intros p rs c1. exact (alone 0 (fun c => [c; c1]) (fun _ => eq_refl) (fun _ _ => eq_refl) p rs). Qed.

Lemma alone1 : forall (p : prog cres) rs c0 s,
  exists m s', run_conc H (repeat (1%nat, None) m) ([c0; norm H p [] rs], s) =
               ([c0; done_client (rs ++ [snd (run_seq p (sfiles s))])], s') /\
               sfiles s' = fst (run_seq p (sfiles s)).
Proof. intros p rs c0. exact (alone 1 (fun c => [c0; c]) (fun _ => eq_refl) (fun _ _ => eq_refl) p rs). Qed.

Definition untorn (sched : list (nat * option nat)) : Prop := Forall (fun e => snd e = None) sched.

Lemma untorn_repeat : forall i m, untorn (repeat (i, None) m).
Proof. intros i m. apply Forall_forall. intros e He. apply repeat_spec in He. subst. reflexivity. Qed.

Lemma run_cb_schedule : forall (p q : prog cres) n rs0 rs1 s fs' a b,
  run_cb p q (Some n) (sfiles s) = (fs', a, Some b) ->
  exists sched s', untorn sched /\
    run_conc H sched ([norm H p [] rs0; norm H q [] rs1], s) = ([done_client (rs0 ++ [a]); done_client (rs1 ++ [b])], s') /\
    sfiles s' = fs'.
Proof.
  induction p as [a0|o k IH]; intros q n rs0 rs1 s fs' a b E; cbn [run_cb] in E; [discriminate|].
  (* a step of the Put before the inner call: client 0 takes a turn *)
  assert (forall n', (let '(fs2, r) := step o (sfiles s) in run_cb (k r) q (Some n') fs2) = (fs', a, Some b) ->
            exists sched s', untorn sched /\
              run_conc H sched ([norm H (Op o k) [] rs0; norm H q [] rs1], s) =
                ([done_client (rs0 ++ [a]); done_client (rs1 ++ [b])], s') /\ sfiles s' = fs') as Hturn.
  { intros n' E'. destruct (cstep_none o s) as [Ef Er]. destruct (step o (sfiles s)) as [fs2 r]. cbn [fst snd] in Ef, Er.
    rewrite <- Ef, <- Er in E'.
    destruct (IH _ q n' rs0 rs1 _ fs' a b E') as (sched & s' & U & R & F).
    exists ((0%nat, None) :: sched), s'. split; [constructor; [reflexivity|exact U]|].
    split; [|exact F]. change ((0%nat, @None nat) :: sched) with ([(0%nat, @None nat)] ++ sched).
    rewrite run_conc_app. unfold run_conc at 2. cbn [fold_left]. rewrite (turn 0 (fun c => [c; norm H q [] rs1]) (fun _ => eq_refl) (fun _ _ => eq_refl)). exact R. }
  destruct (is_data_write o) eqn:Ew; [destruct n as [|n']|]; [|apply (Hturn n' E)|apply (Hturn n E)].
  (* the inner call runs now *)
  destruct (alone1 q rs1 (norm H (Op o k) [] rs0) s) as (m1 & s1 & E1 & F1).
  destruct (run_seq q (sfiles s)) as [fs1 b1] eqn:Eq. cbn [fst snd] in E1, F1.
  destruct (alone0 (Op o k) rs0 (done_client (rs1 ++ [b1])) s1) as (m0 & s0 & E0 & F0).
  rewrite F1 in E0, F0. cbn [run_seq] in E0, F0.
  destruct (step o fs1) as [fs2 r] eqn:Es. rewrite run_cb_none in E. cbn [fst snd] in E.
  injection E as <- <- <-.
  exists (repeat (1%nat, None) m1 ++ repeat (0%nat, None) m0), s0.
  split; [apply Forall_app; split; apply untorn_repeat|]. rewrite run_conc_app, E1, E0. split; [reflexivity|exact F0].
Qed.

Lemma run_cb_bind_ret : forall A B C (p : prog A) (g : A -> C) (q : prog B) n fs,
  run_cb (bind p (fun r => Ret (g r))) q n fs =
  let '(fs', a, b) := run_cb p q n fs in (fs', g a, b).
Proof.
  induction p as [a|o k IH]; intros g q n fs; cbn [bind run_cb].
  - destruct n; reflexivity.
  - destruct n as [m|].
    + destruct (is_data_write o).
      * destruct m as [|m'].
        -- destruct (run_seq q fs) as [fs1 b]. destruct (step o fs1) as [fs2 r].
           rewrite IH. destruct (run_cb (k r) q None fs2) as [[fs3 a] x]. reflexivity.
        -- destruct (step o fs) as [fs2 r]. apply IH.
      * destruct (step o fs) as [fs2 r]. apply IH.
    + destruct (step o fs) as [fs2 r]. apply IH.
Qed.

(* a call made by the source before the n-th write of a Put is a schedule of the
   two-client system (Put, inner call) with untorn views *)
Theorem put_cb_is_a_schedule : forall id chunks tm c n fs fs' r b,
  put_cb H id chunks tm c (CbWrite n) fs = (fs', r, Some b) ->
  exists sched, untorn sched /\
    let st := run_conc H sched ([start H [CPut id chunks tm]; start H [c]], init_sys fs) in
    finished (fst st) = true /\ sfiles (snd st) = fs' /\ map results (fst st) = [[XPut r]; [b]].
Proof.
  intros id chunks tm c n fs fs' r b E. unfold put_cb in E.
  assert (run_cb (call_prog H (CPut id chunks tm)) (call_prog H c) (Some n) (sfiles (init_sys fs)) = (fs', XPut r, Some b)) as E'.
  { cbn [call_prog init_sys sfiles]. rewrite run_cb_bind_ret. rewrite E. reflexivity. }
  destruct (run_cb_schedule _ _ n [] [] (init_sys fs) fs' (XPut r) b E') as (sched & s' & U & R & F).
  exists sched. split; [exact U|]. cbn [start]. rewrite R. cbn [fst snd]. split; [reflexivity|]. split; [exact F|reflexivity].
Qed.

(* in the hash pass: the inner call to completion, then the Put *)
Theorem put_cb_before_is_a_schedule : forall id chunks tm c fs fs' r b,
  put_cb H id chunks tm c CbBefore fs = (fs', r, Some b) ->
  exists sched, untorn sched /\
    let st := run_conc H sched ([start H [CPut id chunks tm]; start H [c]], init_sys fs) in
    finished (fst st) = true /\ sfiles (snd st) = fs' /\ map results (fst st) = [[XPut r]; [b]].
Proof.
  intros id chunks tm c fs fs' r b E. unfold put_cb in E.
  destruct (run_seq (call_prog H c) fs) as [fs1 b1] eqn:Eq.
  destruct (run_seq (put_prog H id (honest_reader chunks) tm) fs1) as [fs2 r2] eqn:Ep. injection E as <- <- <-.
  destruct (alone1 (call_prog H c) [] (norm H (call_prog H (CPut id chunks tm)) [] []) (init_sys fs)) as (m1 & s1 & E1 & F1).
  cbn [init_sys sfiles] in E1, F1. rewrite Eq in E1, F1. cbn [fst snd] in E1, F1.
  destruct (alone0 (call_prog H (CPut id chunks tm)) [] (done_client ([] ++ [b1])) s1) as (m0 & s0 & E0 & F0).
  rewrite F1 in E0, F0. cbn [call_prog] in E0, F0. rewrite run_seq_bind in E0, F0. rewrite Ep in E0, F0. cbn [run_seq fst snd] in E0, F0.
  exists (repeat (1%nat, None) m1 ++ repeat (0%nat, None) m0). split; [apply Forall_app; split; apply untorn_repeat|].
  cbn [start]. rewrite run_conc_app, E1. cbn [call_prog]. rewrite E0. cbn [fst snd]. split; [reflexivity|]. split; [exact F0|reflexivity].
Qed.

End Two.

(* instance: the re-entrant run of CacheReentFacts.ex_put_cb is the run of a schedule *)
Example ex_put_cb_schedule :
  exists sched, untorn sched /\
    map results (fst (run_conc toyH sched ([start toyH [CPut id2 [firstn 4 d1; skipn 4 d1] 9%Z]; start toyH [CGetBytes id1]], init_sys damaged)))
    = [[XPut (PutOk (toyH d1) 5)]; [XBytes NotFound]].
Proof.
  destruct (put_cb toyH id2 [firstn 4 d1; skipn 4 d1] 9%Z (CGetBytes id1) (CbWrite 0) damaged) as [[fs' r] b] eqn:E.
  assert (r = PutOk (toyH d1) 5 /\ b = Some (XBytes NotFound)) as [-> ->].
  { pose proof (f_equal (fun x => (snd (fst x), snd x)) E) as E2. cbn [fst snd] in E2. vm_compute in E2. injection E2 as <- <-. split; reflexivity. }
  destruct (put_cb_is_a_schedule toyH _ _ _ _ _ _ _ _ _ E) as (sched & U & _ & _ & R).
  exists sched. split; [exact U|exact R].
Qed.
