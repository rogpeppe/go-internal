(* Facts about the sequential semantics of the cache programs (C05). *)
From Coq Require Import List Bool Arith NArith ZArith Lia.
From Coq.Strings Require Import Byte.
From GI Require Import Lib.Bytes Gen.CacheConsts Cache.CacheEntry Cache.CacheEntryFacts Cache.Cache.
Import ListNotations.

Lemma path_eqb_eq : forall p q, path_eqb p q = true <-> p = q.
Proof.
  intros [a|a] [b|b]; cbn; split; intros E; try discriminate; try (apply bytes_eqb_eq in E; congruence);
    inversion E; apply bytes_eqb_refl.
Qed.

Lemma path_eqb_refl : forall p, path_eqb p p = true.
Proof. intros; apply path_eqb_eq; reflexivity. Qed.

Lemma path_eqb_neq : forall p q, p <> q -> path_eqb p q = false.
Proof. intros p q N. destruct (path_eqb p q) eqn:E; [apply path_eqb_eq in E; contradiction|reflexivity]. Qed.

Lemma path_eq_dec : forall p q : path, {p = q} + {p <> q}.
Proof.
  intros p q. destruct (path_eqb p q) eqn:E; [left; apply path_eqb_eq; exact E|right].
  intros ->. rewrite path_eqb_refl in E. discriminate.
Qed.

Lemma upd_same : forall fs p v, upd fs p v p = v.
Proof. intros. unfold upd. rewrite path_eqb_refl. reflexivity. Qed.

Lemma upd_other : forall fs p v q, q <> p -> upd fs p v q = fs q.
Proof. intros. unfold upd. rewrite path_eqb_neq by assumption. reflexivity. Qed.

Definition agree_except (p : path) (fs fs' : files) : Prop := forall q, q <> p -> fs' q = fs q.

Lemma agree_refl : forall p fs, agree_except p fs fs.
Proof. intros p fs q _. reflexivity. Qed.

Lemma agree_trans : forall p a b c, agree_except p a b -> agree_except p b c -> agree_except p a c.
Proof. intros p a b c H1 H2 q N. rewrite H2, H1 by exact N. reflexivity. Qed.

Lemma agree_upd : forall p fs v, agree_except p fs (upd fs p v).
Proof. intros p fs v q N. apply upd_other; exact N. Qed.

Lemma step_agree : forall o fs, agree_except (op_path o) fs (fst (step o fs)).
Proof.
  intros o fs. destruct o; cbn; try apply agree_refl;
    repeat match goal with |- context [match ?x with _ => _ end] => destruct x; cbn end;
    try apply agree_refl; try apply agree_upd.
Qed.

Lemma run_seq_bind : forall A B (p : prog A) (f : A -> prog B) fs,
  run_seq (bind p f) fs = let '(fs', a) := run_seq p fs in run_seq (f a) fs'.
Proof.
  induction p as [a|o k IH]; intros f fs; cbn.
  - destruct (run_seq (f a) fs); reflexivity.
  - destruct (step o fs) as [fs' r]. apply IH.
Qed.

Definition is_prefix (c d : bytes) : Prop := exists t, d = c ++ t.

Lemma pad_to_le : forall n c, (n <= length c)%nat -> pad_to n c = c.
Proof. intros. unfold pad_to. replace (n - length c)%nat with 0%nat by lia. apply app_nil_r. Qed.

Lemma pwrite_le : forall c off b, (off <= length c)%nat ->
  pwrite c off b = firstn off c ++ b ++ skipn (off + length b) c.
Proof. intros. unfold pwrite. rewrite pad_to_le by assumption. reflexivity. Qed.

Lemma pwrite_length : forall c off b, (off <= length c)%nat ->
  length (pwrite c off b) = Nat.max (length c) (off + length b).
Proof.
  intros. rewrite pwrite_le by assumption. rewrite !app_length, firstn_length, skipn_length. lia.
Qed.

Lemma pwrite_nil : forall c off, (off <= length c)%nat -> pwrite c off [] = c.
Proof. intros. rewrite pwrite_le by assumption. cbn. rewrite Nat.add_0_r. apply firstn_skipn. Qed.

Lemma pwrite_app : forall c off a b, (off <= length c)%nat ->
  pwrite (pwrite c off a) (off + length a) b = pwrite c off (a ++ b).
Proof.
  intros c off a b Hle.
  assert (off + length a <= length (pwrite c off a))%nat as L by (rewrite pwrite_length by assumption; lia).
  rewrite (pwrite_le _ _ b L), !(pwrite_le c off) by assumption.
  rewrite app_length.
  assert (firstn (off + length a) (firstn off c ++ a ++ skipn (off + length a) c) = firstn off c ++ a) as F.
  { rewrite app_assoc. apply firstn_app_len. rewrite app_length, firstn_length. lia. }
  rewrite F.
  assert (skipn (off + length a + length b) (firstn off c ++ a ++ skipn (off + length a) c) = skipn (off + (length a + length b)) c) as S.
  { rewrite app_assoc. rewrite skipn_app.
    assert (length (firstn off c ++ a) = off + length a)%nat as L2 by (rewrite app_length, firstn_length; lia).
    rewrite L2. rewrite skipn_all2 by lia. cbn [app].
    replace (off + length a + length b - (off + length a))%nat with (length b) by lia.
    rewrite skipn_skipn'. f_equal. lia. }
  rewrite S. rewrite <- !app_assoc. reflexivity.
Qed.

Lemma pwrite_all : forall c d, (length c <= length d)%nat -> pwrite c 0 d = d.
Proof.
  intros c d Hl. rewrite pwrite_le by lia. cbn. rewrite skipn_all2 by lia. apply app_nil_r.
Qed.

Lemma cut_chunks_concat : forall cs n, concat (cut_chunks cs n) = firstn n (concat cs).
Proof.
  induction cs as [|c r IH]; intros n; cbn [cut_chunks concat].
  - rewrite firstn_nil. reflexivity.
  - destruct (Nat.eqb n 0) eqn:E0.
    + apply Nat.eqb_eq in E0; subst. reflexivity.
    + destruct (Nat.eqb (length c) 0) eqn:Ec.
      * apply Nat.eqb_eq in Ec. destruct c; [|discriminate]. cbn. apply IH.
      * destruct (Nat.leb (length c) n) eqn:El.
        -- apply Nat.leb_le in El. cbn [concat]. rewrite IH, firstn_app.
           rewrite (firstn_all2 c El). reflexivity.
        -- apply Nat.leb_gt in El. cbn. rewrite app_nil_r, firstn_app.
           replace (n - length c)%nat with 0%nat by lia. cbn. rewrite app_nil_r. reflexivity.
Qed.

Lemma nth_error_firstn_snoc : forall (d : bytes) n b, nth_error d n = Some b -> firstn n d ++ [b] = firstn (S n) d.
Proof.
  induction d as [|x d IH]; intros n b E.
  - destruct n; discriminate.
  - destruct n as [|n]; cbn in *.
    + inversion E; reflexivity.
    + f_equal. apply IH; exact E.
Qed.

Lemma seq_write_chunks : forall A p cs off fs c (k : bool -> prog A),
  fs p = Some c -> (off <= length c)%nat ->
  exists fs', run_seq (write_chunks p cs off k) fs = run_seq (k true) fs' /\
              fs' p = Some (pwrite c off (concat cs)) /\ agree_except p fs fs'.
Proof.
  induction cs as [|x r IH]; intros off fs c k Hc Hoff.
  - exists fs. cbn. rewrite pwrite_nil by assumption. split; [reflexivity|split; [exact Hc|apply agree_refl]].
  - cbn [write_chunks run_seq step]. rewrite Hc. unfold wrote_all. rewrite Nat.eqb_refl.
    destruct (IH (off + length x)%nat (upd fs p (Some (pwrite c off x))) (pwrite c off x) k) as (fs' & E & Hp & Ha).
    + apply upd_same.
    + rewrite pwrite_length by assumption. lia.
    + exists fs'. split; [exact E|]. split.
      * rewrite Hp, pwrite_app by assumption. reflexivity.
      * eapply agree_trans; [apply agree_upd|exact Ha].
Qed.

Lemma seq_read_full : forall A fuel p off need acc fs c (k : bytes -> prog A),
  fs p = Some c -> (need < fuel)%nat ->
  run_seq (read_full fuel p off need acc k) fs = run_seq (k (acc ++ firstn need (skipn off c))) fs.
Proof.
  induction fuel as [|f IH]; intros p off need acc fs c k Hc Hf; [lia|].
  cbn [read_full]. destruct (Nat.eqb need 0) eqn:E0.
  - apply Nat.eqb_eq in E0; subst. cbn. rewrite app_nil_r. reflexivity.
  - apply Nat.eqb_neq in E0. cbn [run_seq step]. rewrite Hc.
    set (b := firstn need (skipn off c)).
    destruct (Nat.eqb (length b) 0) eqn:Eb.
    + apply Nat.eqb_eq in Eb. destruct b; [|discriminate]. rewrite app_nil_r. reflexivity.
    + apply Nat.eqb_neq in Eb. rewrite (IH p _ _ _ fs c k Hc) by lia.
      f_equal. f_equal. rewrite <- app_assoc. f_equal.
      unfold b. destruct (le_lt_dec need (length (skipn off c))) as [L|L].
      * rewrite firstn_length_le by exact L. rewrite Nat.sub_diag. cbn. apply app_nil_r.
      * rewrite (firstn_all2 (n := need)) by lia.
        rewrite <- skipn_skipn', skipn_all, firstn_nil. apply app_nil_r.
Qed.

Lemma parse_entry_firstn : forall c id, parse_entry (firstn (S entry_size_n) c) id = parse_entry c id.
Proof.
  intros c id. destruct (le_lt_dec (length c) (S entry_size_n)) as [L|L].
  - rewrite firstn_all2 by exact L. reflexivity.
  - unfold parse_entry. rewrite firstn_length_le by lia.
    replace (Nat.eqb (S entry_size_n) entry_size_n) with false by (symmetry; apply Nat.eqb_neq; lia).
    replace (Nat.eqb (length c) entry_size_n) with false by (symmetry; apply Nat.eqb_neq; lia).
    reflexivity.
Qed.

Section Seq.
Variable H : bytes -> bytes.

Definition entry_of (fs : files) (id : bytes) : option (bytes * Z * Z) :=
  match fs (IdxP id) with Some c => parse_entry c id | None => None end.

Definition file_lookup (fs : files) (e : option (bytes * Z * Z)) : lookup path :=
  match e with
  | None => NotFound
  | Some (out, size, tm) =>
      match fs (DatP out) with
      | Some c => if Z.eqb (Z.of_nat (length c)) size then Found (DatP out) out size tm else NotFound
      | None => NotFound
      end
  end.

Definition bytes_lookup (fs : files) (e : option (bytes * Z * Z)) : lookup bytes :=
  match e with
  | None => NotFound
  | Some (out, size, tm) =>
      let data := match fs (DatP out) with Some c => c | None => [] end in
      if bytes_eqb (H data) out then Found data out size tm else NotFound
  end.

Lemma run_used : forall A p (k : prog A) fs, run_seq (used_prog p k) fs = run_seq k fs.
Proof. intros. unfold used_prog. cbn [run_seq step]. destruct (fs p); reflexivity. Qed.

Lemma run_get : forall fs id, run_seq (get_prog id) fs = (fs, entry_of fs id).
Proof.
  intros fs id. unfold get_prog, entry_of. cbn [run_seq step].
  destruct (fs (IdxP id)) as [c|] eqn:E; [|reflexivity].
  rewrite (seq_read_full _ _ _ _ _ _ fs c) by (exact E || lia).
  cbn [app skipn]. rewrite parse_entry_firstn.
  destruct (parse_entry c id) as [ent|]; [rewrite run_used|]; reflexivity.
Qed.

Lemma run_output_file : forall fs out, run_seq (output_file_prog out) fs = (fs, DatP out).
Proof. intros. unfold output_file_prog. rewrite run_used. reflexivity. Qed.

Lemma run_get_file : forall fs id, run_seq (get_file_prog id) fs = (fs, file_lookup fs (entry_of fs id)).
Proof.
  intros fs id. unfold get_file_prog. rewrite run_seq_bind, run_get.
  destruct (entry_of fs id) as [[[out size] tm]|]; [|reflexivity].
  rewrite run_seq_bind, run_output_file. cbn [run_seq step file_lookup].
  destruct (fs (DatP out)) as [c|]; [|reflexivity].
  destruct (Z.eqb (Z.of_nat (length c)) size); reflexivity.
Qed.

Lemma run_get_bytes : forall fs id, run_seq (get_bytes_prog H id) fs = (fs, bytes_lookup fs (entry_of fs id)).
Proof.
  intros fs id. unfold get_bytes_prog. rewrite run_seq_bind, run_get.
  destruct (entry_of fs id) as [[[out size] tm]|]; [|reflexivity].
  rewrite run_seq_bind, run_output_file. cbn [run_seq step bytes_lookup].
  destruct (fs (DatP out)) as [c|];
    match goal with |- context [bytes_eqb ?a ?b] => destruct (bytes_eqb a b) end; reflexivity.
Qed.

(* C05: soundness of the lookups in ANY file-system state *)
Theorem get_bytes_sound : forall fs id,
  match get_bytes H fs id with
  | NotFound => True
  | Found d out size tm => H d = out /\ get fs id = Some (out, size, tm)
  end.
Proof.
  intros fs id. unfold get_bytes, get. rewrite run_get_bytes, run_get. cbn [snd].
  destruct (entry_of fs id) as [[[out size] tm]|]; cbn [bytes_lookup]; [|exact I].
  match goal with |- context [bytes_eqb ?a ?b] => destruct (bytes_eqb a b) eqn:E end; [|exact I].
  apply bytes_eqb_eq in E. split; [exact E|reflexivity].
Qed.

Theorem get_file_sound : forall fs id,
  match get_file fs id with
  | NotFound => True
  | Found p out size tm =>
      p = DatP out /\ get fs id = Some (out, size, tm) /\
      exists c, fst (run_seq (get_file_prog id) fs) p = Some c /\ Z.of_nat (length c) = size
  end.
Proof.
  intros fs id. unfold get_file, get. rewrite run_get_file, run_get. cbn [snd fst].
  destruct (entry_of fs id) as [[[out size] tm]|]; cbn [file_lookup]; [|exact I].
  destruct (fs (DatP out)) as [c|] eqn:Ec; [|exact I].
  destruct (Z.eqb (Z.of_nat (length c)) size) eqn:E; [|exact I].
  apply Z.eqb_eq in E. split; [reflexivity|]. split; [reflexivity|]. exists c. split; [exact Ec|exact E].
Qed.

(* lookups leave every file as it is (contents; times are not modelled) *)
Lemma lookups_pure : forall fs id,
  fst (run_seq (get_prog id) fs) = fs /\ fst (run_seq (get_file_prog id) fs) = fs /\
  fst (run_seq (get_bytes_prog H id) fs) = fs.
Proof. intros. rewrite run_get, run_get_file, run_get_bytes. auto. Qed.

End Seq.

(* the structural flags read from the source hold: the guarded programs are their bodies *)
Lemma copy_rewrite_eq : forall H rd out size bigger,
  copy_rewrite H rd out size bigger = copy_rewrite_body H rd out size bigger.
Proof. reflexivity. Qed.
Lemma put_index_prog_eq : forall id out size tm, put_index_prog id out size tm = put_index_body id out size tm.
Proof. reflexivity. Qed.
Lemma put_prog_eq : forall H id rd tm, put_prog H id rd tm = put_prog_body H id rd tm.
Proof. reflexivity. Qed.

Lemma open_copy : forall p (bigger : bool),
  open_with p (copy_open_flags ++ (if bigger then copy_open_flags_big else [])) = OOpen p true bigger.
Proof. intros p []; reflexivity. Qed.
Lemma open_index : forall p, open_with p index_open_flags = OOpen p true false.
Proof. reflexivity. Qed.

Lemma firstn_pred_last : forall (d : bytes), (0 < length d)%nat ->
  exists b, nth_error d (length d - 1) = Some b /\ firstn (length d - 1) d ++ [b] = d.
Proof.
  intros d Hd. destruct (nth_error d (length d - 1)) as [b|] eqn:E.
  - exists b. split; [reflexivity|]. rewrite (nth_error_firstn_snoc _ _ _ E).
    replace (S (length d - 1)) with (length d) by lia. apply firstn_all.
  - apply nth_error_None in E. lia.
Qed.

(* opening for writing: the file exists afterwards, emptied if O_TRUNC was given *)
Definition opened (co : option bytes) (trunc : bool) : bytes :=
  match co with Some c => if trunc then [] else c | None => [] end.

Lemma step_open_create : forall fs p trunc,
  exists fs1, step (OOpen p true trunc) fs = (fs1, ROk) /\ fs1 p = Some (opened (fs p) trunc) /\ agree_except p fs fs1.
Proof.
  intros fs p trunc. cbn [step]. unfold opened.
  destruct (fs p) as [c|] eqn:E; [destruct trunc|]; eexists; (split; [reflexivity|]); split;
    try apply upd_same; try exact E; try apply agree_upd; apply agree_refl.
Qed.

Section SeqPut.
Variable H : bytes -> bytes.

(* copyFile's rewrite path, for any source: it succeeds and leaves exactly the data, or -- only when
   the second pass fails or delivers other bytes than the first -- it fails and leaves the file empty *)
Lemma seq_copy_rewrite : forall rd fs bigger,
  let d := rd_pass1 rd in
  let p := DatP (H d) in
  (H (firstn (length d) (concat (rd_pass2 rd))) = H d -> firstn (length d) (concat (rd_pass2 rd)) = d) ->
  (length (opened (fs p) bigger) <= length d)%nat ->
  exists fs' r, run_seq (copy_rewrite H rd (H d) (length d) bigger) fs = (fs', r) /\ agree_except p fs fs' /\
    ((r = true /\ fs' p = Some d) \/
     (r = false /\ fs' p = Some [] /\ ~ (rd_seek2 rd = true /\ concat (rd_pass2 rd) = d))).
Proof.
  intros rd fs bigger d p Hcol Hlen. rewrite copy_rewrite_eq; unfold copy_rewrite_body. fold p. rewrite open_copy.
  destruct (step_open_create fs p bigger) as (fs1 & Eopen & H1 & A1). set (c1 := opened (fs p) bigger) in *.
  cbn [run_seq]. rewrite Eopen.
  set (flat := concat (rd_pass2 rd)) in *.
  assert (forall fsx cx, agree_except p fs fsx -> fsx p = Some cx -> ~ (rd_seek2 rd = true /\ flat = d) ->
            exists fs' r, run_seq (trunc_fail p) fsx = (fs', r) /\ agree_except p fs fs' /\
              ((r = true /\ fs' p = Some d) \/
               (r = false /\ fs' p = Some [] /\ ~ (rd_seek2 rd = true /\ flat = d)))) as Htf.
  { intros fsx cx Ha Hc Hbad. unfold trunc_fail. cbn [run_seq step]. rewrite Hc. cbn [run_seq step].
    eexists _, _. split; [reflexivity|]. split; [eapply agree_trans; [exact Ha|apply agree_upd]|].
    right. split; [reflexivity|]. split; [apply upd_same|exact Hbad]. }
  destruct (Nat.eqb (length d) 0) eqn:E0.
  - apply Nat.eqb_eq in E0. cbn [run_seq step]. exists fs1, true. split; [reflexivity|]. split; [exact A1|].
    left. split; [reflexivity|]. rewrite H1. destruct d; [|discriminate]. destruct c1; [reflexivity|cbn in Hlen; lia].
  - apply Nat.eqb_neq in E0.
    destruct (rd_seek2 rd) eqn:Es; cbn [negb]; [|apply (Htf fs1 c1 A1 H1); intros [? _]; discriminate].
    match goal with |- context [write_chunks p ?cs 0 ?K] =>
      destruct (seq_write_chunks _ p cs 0 fs1 c1 K H1 (Nat.le_0_l _)) as (fs2 & E2 & Hp2 & Ha2) end.
    rewrite E2. cbn [negb]. rewrite cut_chunks_concat in Hp2. fold flat in Hp2.
    assert (agree_except p fs fs2) as A2 by (eapply agree_trans; eassumption).
    destruct (Nat.ltb (length flat) (length d - 1)) eqn:Elt.
    { apply Nat.ltb_lt in Elt. apply (Htf fs2 _ A2 Hp2). intros [_ E]. rewrite E in Elt. lia. }
    destruct (nth_error flat (length d - 1)) as [b|] eqn:Eb.
    2:{ apply nth_error_None in Eb. apply (Htf fs2 _ A2 Hp2). intros [_ E]. rewrite E in Eb. lia. }
    assert (firstn (length d - 1) flat ++ [b] = firstn (length d) flat) as Ef.
    { rewrite (nth_error_firstn_snoc _ _ _ Eb). f_equal. lia. }
    rewrite Ef.
    destruct (bytes_eqb (H (firstn (length d) flat)) (H d)) eqn:Eh; cbn [negb].
    2:{ apply (Htf fs2 _ A2 Hp2). intros [_ E]. rewrite E, firstn_all, bytes_eqb_refl in Eh. discriminate. }
    apply bytes_eqb_eq in Eh. pose proof (Hcol Eh) as Ex.
    cbn [run_seq step]. rewrite Hp2. cbn [wrote_all length Nat.eqb run_seq step is_err].
    eexists _, true. split; [reflexivity|]. split; [eapply agree_trans; [exact A2|apply agree_upd]|].
    left. split; [reflexivity|]. rewrite upd_same. f_equal.
    replace (length d - 1)%nat with (0 + length (firstn (length d - 1) flat))%nat at 2
      by (apply Nat.ltb_ge in Elt; rewrite firstn_length; lia).
    rewrite pwrite_app by lia. rewrite Ef, Ex. apply pwrite_all. exact Hlen.
Qed.

Lemma seq_copy_rewrite_honest : forall chunks fs bigger,
  let d := concat chunks in
  let p := DatP (H d) in
  (length (opened (fs p) bigger) <= length d)%nat ->
  exists fs', run_seq (copy_rewrite H (honest_reader chunks) (H d) (length d) bigger) fs = (fs', true)
              /\ fs' p = Some d /\ agree_except p fs fs'.
Proof.
  intros chunks fs bigger d p Hlen.
  destruct (seq_copy_rewrite (honest_reader chunks) fs bigger) as (fs' & r & E & Ha & [[-> Hd]|(_ & _ & N)]);
    [intros _; apply firstn_all|exact Hlen|eauto|contradiction N; split; reflexivity].
Qed.

Lemma seq_copy_file_honest : forall chunks fs,
  let d := concat chunks in
  let p := DatP (H d) in
  (forall c, fs p = Some c -> H c = H d -> c = d) ->
  exists fs', run_seq (copy_file_prog H (honest_reader chunks) (H d) (length d)) fs = (fs', true)
              /\ fs' p = Some d /\ agree_except p fs fs'.
Proof.
  intros chunks fs d p Hcol. subst d p. unfold copy_file_prog. cbn [run_seq step].
  destruct (fs (DatP (H (concat chunks)))) as [c|] eqn:Ec.
  - destruct (Nat.eqb (length c) (length (concat chunks))) eqn:El.
    + apply Nat.eqb_eq in El. cbn [run_seq step]. rewrite Ec. cbn [run_seq step]. rewrite Ec.
      destruct (bytes_eqb (H c) (H (concat chunks))) eqn:Eh.
      * apply bytes_eqb_eq in Eh. assert (c = concat chunks) by (apply Hcol; [reflexivity|exact Eh]). subst c.
        exists fs. split; [|split; [exact Ec|apply agree_refl]].
        destruct copy_reuse_refreshes; cbv iota; [rewrite run_used|]; reflexivity.
      * apply seq_copy_rewrite_honest. rewrite Ec. cbn. lia.
    + apply Nat.eqb_neq in El. apply seq_copy_rewrite_honest. rewrite Ec. unfold opened.
      destruct (Nat.ltb (length (concat chunks)) (length c)) eqn:Eb; [cbn; lia|]. apply Nat.ltb_ge in Eb. lia.
  - apply seq_copy_rewrite_honest. rewrite Ec. cbn. lia.
Qed.

Lemma ftruncate_pwrite : forall c e, ftruncate (pwrite c 0 e) (length e) = e.
Proof.
  intros c e. rewrite pwrite_le by lia. cbn [firstn app Nat.add]. unfold ftruncate.
  rewrite pad_to_le by (rewrite app_length; lia). apply firstn_app_len. reflexivity.
Qed.

Lemma seq_put_index : forall fs id out size tm,
  exists fs', run_seq (put_index_prog id out size tm) fs = (fs', true)
              /\ fs' (IdxP id) = Some (encode_entry id out (Z.of_nat size) tm)
              /\ agree_except (IdxP id) fs fs'.
Proof.
  intros fs id out size tm. rewrite put_index_prog_eq; unfold put_index_body. rewrite open_index.
  set (p := IdxP id). set (e := encode_entry id out (Z.of_nat size) tm).
  destruct (step_open_create fs p false) as (fs1 & E1 & Hp1 & Ha1).
  cbn [run_seq]. rewrite E1. cbn [run_seq step]. rewrite Hp1. unfold wrote_all. rewrite Nat.eqb_refl.
  cbn [run_seq step]. rewrite upd_same. cbn [run_seq step is_err orb].
  eexists. split; [reflexivity|]. split.
  - rewrite upd_same, ftruncate_pwrite. reflexivity.
  - eapply agree_trans; [exact Ha1|]. eapply agree_trans; apply agree_upd.
Qed.

Lemma seq_put_ok : forall chunks fs id tm,
  let d := concat chunks in
  (forall c, fs (DatP (H d)) = Some c -> H c = H d -> c = d) ->
  exists fs', put H fs id (honest_reader chunks) tm = (fs', PutOk (H d) (length d))
              /\ fs' (DatP (H d)) = Some d
              /\ fs' (IdxP id) = Some (encode_entry id (H d) (Z.of_nat (length d)) tm)
              /\ (forall q, q <> DatP (H d) -> q <> IdxP id -> fs' q = fs q).
Proof.
  intros chunks fs id tm d Hcol. unfold put; rewrite put_prog_eq; unfold put_prog_body. cbn [honest_reader rd_seek1 rd_ok1 rd_pass1 negb orb].
  fold d. rewrite run_seq_bind.
  destruct (seq_copy_file_honest chunks fs Hcol) as (fs1 & E1 & Hd1 & Ha1). fold d in E1, Hd1, Ha1.
  rewrite E1. rewrite run_seq_bind.
  destruct (seq_put_index fs1 id (H d) (length d) tm) as (fs2 & E2 & Hi2 & Ha2).
  rewrite E2. cbn [run_seq]. exists fs2. split; [reflexivity|]. split; [|split; [exact Hi2|]].
  - rewrite Ha2 by discriminate. exact Hd1.
  - intros q N1 N2. rewrite Ha2, Ha1 by assumption. reflexivity.
Qed.

End SeqPut.

(* frame: which files a program can touch at all (any semantics executes only these ops) *)
Inductive only_paths {A} (S : path -> Prop) : prog A -> Prop :=
| only_ret : forall a, only_paths S (Ret a)
| only_op : forall o k, S (op_path o) -> (forall r, only_paths S (k r)) -> only_paths S (Op o k).

Lemma only_paths_bind : forall A B S (p : prog A) (f : A -> prog B),
  only_paths S p -> (forall a, only_paths S (f a)) -> only_paths S (bind p f).
Proof.
  intros A B S p f Hp Hf. induction Hp as [a|o k Ho _ IH]; cbn.
  - apply Hf.
  - apply only_op; [exact Ho|exact IH].
Qed.

Lemma only_paths_run_seq : forall A S (p : prog A), only_paths S p ->
  forall fs q, ~ S q -> fst (run_seq p fs) q = fs q.
Proof.
  intros A S p Hp. induction Hp as [a|o k Ho _ IH]; intros fs q Nq; cbn.
  - reflexivity.
  - destruct (step o fs) as [fs' r] eqn:E. rewrite IH by exact Nq.
    pose proof (step_agree o fs q) as Hs. rewrite E in Hs. apply Hs. intros ->. contradiction.
Qed.

Lemma only_paths_write_chunks : forall A (S : path -> Prop) p cs off (k : bool -> prog A),
  S p -> (forall b, only_paths S (k b)) -> only_paths S (write_chunks p cs off k).
Proof.
  intros A S p cs. induction cs as [|c r IH]; intros off k Hp Hk; cbn.
  - apply Hk.
  - apply only_op; [exact Hp|]. intros w. destruct (wrote_all w c); [apply IH; assumption|apply Hk].
Qed.

Lemma only_paths_read_full : forall A (S : path -> Prop) fuel p off need acc (k : bytes -> prog A),
  S p -> (forall b, only_paths S (k b)) -> only_paths S (read_full fuel p off need acc k).
Proof.
  intros A S fuel. induction fuel as [|f IH]; intros p off need acc k Hp Hk; cbn.
  - apply Hk.
  - destruct (Nat.eqb need 0); [apply Hk|]. apply only_op; [exact Hp|].
    intros r. destruct r; try apply Hk. destruct (Nat.eqb (length b) 0); [apply Hk|apply IH; assumption].
Qed.

Lemma only_paths_used : forall A (S : path -> Prop) p (k : prog A),
  S p -> only_paths S k -> only_paths S (used_prog p k).
Proof.
  intros A S p k Hp Hk. unfold used_prog. apply only_op; [exact Hp|].
  intros r. destruct r; try exact Hk; apply only_op; try exact Hp; intros _; exact Hk.
Qed.

(* walks a program term: every operation names a path of S, every continuation is walked in turn *)
Ltac only_tac :=
  repeat first
    [ apply only_ret
    | apply only_paths_used; [solve [auto]|]
    | apply only_paths_write_chunks; [solve [auto]|intros ?]
    | apply only_paths_read_full; [solve [auto]|intros ?]
    | apply only_op; [solve [cbn; auto]|intros ?]
    | match goal with
      | |- only_paths _ (match ?x with _ => _ end) => destruct x
      | |- only_paths _ (if ?x then _ else _) => destruct x
      end ].

Section Frame.
Variable H : bytes -> bytes.

Lemma only_paths_trunc_fail : forall (S : path -> Prop) p, S p -> only_paths S (trunc_fail p).
Proof. intros S p Hp. unfold trunc_fail. only_tac. Qed.

Lemma only_paths_copy_rewrite : forall (S : path -> Prop) rd out size bigger,
  S (DatP out) -> only_paths S (copy_rewrite H rd out size bigger).
Proof.
  intros S rd out size bigger Hp. rewrite copy_rewrite_eq; unfold copy_rewrite_body, open_with.
  pose proof (only_paths_trunc_fail S (DatP out) Hp) as Ht.
  apply only_op; [exact Hp|]. intros r. destruct r; try apply only_ret.
  destruct (Nat.eqb size 0); [only_tac|]. destruct (negb (rd_seek2 rd)); [exact Ht|].
  apply only_paths_write_chunks; [exact Hp|]. intros ok.
  destruct (negb ok); [exact Ht|].
  destruct (Nat.ltb _ _); [exact Ht|]. destruct (nth_error _ _); [|exact Ht].
  destruct (negb _); [exact Ht|]. apply only_op; [exact Hp|]. intros w.
  destruct (wrote_all w [b]); [|exact Ht]. only_tac.
Qed.

Lemma only_paths_copy_file : forall (S : path -> Prop) rd out size,
  S (DatP out) -> only_paths S (copy_file_prog H rd out size).
Proof.
  intros S rd out size Hp. unfold copy_file_prog.
  pose proof (fun b => only_paths_copy_rewrite S rd out size b Hp) as Hr.
  apply only_op; [exact Hp|]. intros r. destruct r; try apply Hr.
  destruct (Nat.eqb n size); [|apply Hr].
  apply only_op; [exact Hp|]. intros r2. destruct r2; try apply Hr.
  apply only_op; [exact Hp|]. intros r3. apply only_op; [exact Hp|]. intros _.
  destruct (bytes_eqb _ _); [|apply Hr]. destruct copy_reuse_refreshes; only_tac.
Qed.

Lemma only_paths_put_index : forall (S : path -> Prop) id out size tm,
  S (IdxP id) -> only_paths S (put_index_prog id out size tm).
Proof. intros S id out size tm Hp. rewrite put_index_prog_eq; unfold put_index_body, open_with. only_tac. Qed.

Definition put_paths (id out : bytes) (q : path) : Prop := q = DatP out \/ q = IdxP id.

Lemma only_paths_put : forall id rd tm,
  only_paths (put_paths id (H (rd_pass1 rd))) (put_prog H id rd tm).
Proof.
  intros id rd tm. rewrite put_prog_eq; unfold put_prog_body. destruct (negb (rd_seek1 rd) || negb (rd_ok1 rd)); [apply only_ret|].
  apply only_paths_bind.
  - apply only_paths_copy_file. left; reflexivity.
  - intros ok. destruct ok; [|apply only_ret]. apply only_paths_bind.
    + apply only_paths_put_index. right; reflexivity.
    + intros ok2. apply only_ret.
Qed.

Lemma only_paths_get : forall id, only_paths (fun q => q = IdxP id) (get_prog id).
Proof. intros id. unfold get_prog. only_tac. Qed.

Lemma put_frame : forall fs id rd tm q,
  q <> DatP (H (rd_pass1 rd)) -> q <> IdxP id -> fst (put H fs id rd tm) q = fs q.
Proof.
  intros fs id rd tm q N1 N2. unfold put.
  apply (only_paths_run_seq _ _ _ (only_paths_put id rd tm)). unfold put_paths. tauto.
Qed.

End Frame.

Section PutGet.
Variable H : bytes -> bytes.
Hypothesis H_len : forall x, length (H x) = hash_size_n.

(* the lookups of id as functions of the two files they read *)
Lemma lookups_depend : forall fs fs' id,
  fs' (IdxP id) = fs (IdxP id) ->
  (forall out size tm, entry_of fs id = Some (out, size, tm) -> fs' (DatP out) = fs (DatP out)) ->
  get fs' id = get fs id /\ get_bytes H fs' id = get_bytes H fs id /\ get_file fs' id = get_file fs id.
Proof.
  intros fs fs' id Hi Hd. unfold get, get_bytes, get_file.
  rewrite !run_get, !run_get_bytes, !run_get_file. cbn [snd].
  assert (entry_of fs' id = entry_of fs id) as Ee by (unfold entry_of; rewrite Hi; reflexivity).
  rewrite Ee. split; [reflexivity|].
  destruct (entry_of fs id) as [[[out size] tm]|] eqn:E; [|split; reflexivity].
  cbn [bytes_lookup file_lookup]. rewrite (Hd out size tm eq_refl). split; reflexivity.
Qed.

Theorem put_get : forall chunks fs id tm,
  let d := concat chunks in
  length id = hash_size_n ->
  (0 <= tm < int64_lim)%Z -> (Z.of_nat (length d) < int64_lim)%Z ->
  (forall c, fs (DatP (H d)) = Some c -> H c = H d -> c = d) ->
  exists fs',
    put H fs id (honest_reader chunks) tm = (fs', PutOk (H d) (length d)) /\
    get_bytes H fs' id = Found d (H d) (Z.of_nat (length d)) tm /\
    get_file fs' id = Found (DatP (H d)) (H d) (Z.of_nat (length d)) tm /\
    fs' (DatP (H d)) = Some d.
Proof.
  intros chunks fs id tm d Li Ht Hs Hcol.
  destruct (seq_put_ok H chunks fs id tm Hcol) as (fs' & E & Hd & Hi & _). fold d in E, Hd, Hi.
  exists fs'. split; [exact E|].
  assert (entry_of fs' id = Some (H d, Z.of_nat (length d), tm)) as Ee.
  { unfold entry_of. rewrite Hi. apply entry_roundtrip; auto. lia. }
  unfold get_bytes, get_file. rewrite run_get_bytes, run_get_file. cbn [snd]. rewrite Ee.
  cbn [bytes_lookup file_lookup]. rewrite Hd, bytes_eqb_refl, Z.eqb_refl. auto.
Qed.

(* a Put of another id whose output is not the one id's entry names leaves every lookup of
   id as it was: "until overwritten" *)
Theorem lookup_frame : forall fs id id' rd tm,
  id' <> id ->
  (forall out size tm0, get fs id = Some (out, size, tm0) -> out <> H (rd_pass1 rd)) ->
  let fs' := fst (put H fs id' rd tm) in
  get fs' id = get fs id /\ get_bytes H fs' id = get_bytes H fs id /\ get_file fs' id = get_file fs id.
Proof.
  intros fs id id' rd tm Nid Nout fs'. apply lookups_depend.
  - apply put_frame; [discriminate|]. intros E; inversion E; congruence.
  - intros out size tm0 E. apply put_frame; [|discriminate].
    intros E'; inversion E'; subst. eapply Nout; [|reflexivity].
    unfold get. rewrite run_get. exact E.
Qed.

Definition bytes_ok (fs : files) (id : bytes) : Prop :=
  match get_bytes H fs id with NotFound => True | Found d out _ _ => H d = out end.
Definition file_ok (fs : files) (id : bytes) : Prop :=
  match get_file fs id with
  | NotFound => True
  | Found p out size _ => exists c, fs p = Some c /\ Z.of_nat (length c) = size
  end.

Theorem history_sound : forall ops fs n id,
  let s := history_run H (firstn n ops) fs in bytes_ok s id /\ file_ok s id.
Proof.
  intros ops fs n id s. split.
  - unfold bytes_ok. pose proof (get_bytes_sound H s id) as B. destruct (get_bytes H s id); [exact I|tauto].
  - unfold file_ok. pose proof (get_file_sound s id) as F. destruct (get_file s id) as [|p out size tm]; [exact I|].
    destruct F as (_ & _ & c & Hc & Hl). rewrite run_get_file in Hc. exists c. split; assumption.
Qed.

(* operations that neither overwrite id's entry or output nor damage anything *)
Definition harmless (id out : bytes) (o : hop) : Prop :=
  match o with
  | HPut id' rd _ => id' <> id /\ H (rd_pass1 rd) <> out
  | HDamage _ => False
  | _ => True
  end.

Theorem put_get_persists : forall ops fs id d out size tm,
  get_bytes H fs id = Found d out size tm ->
  Forall (harmless id out) ops ->
  let fs' := history_run H ops fs in
  get_bytes H fs' id = Found d out size tm /\ get_file fs' id = get_file fs id.
Proof.
  induction ops as [|o ops IH]; intros fs id d out size tm Hb Hh; [split; [exact Hb|reflexivity]|].
  inversion Hh as [|? ? Ho Hops]; subst. cbn [history_run fold_left].
  fold (history_run H ops (hop_run H o fs)).
  assert (get_bytes H (hop_run H o fs) id = get_bytes H fs id /\ get_file (hop_run H o fs) id = get_file fs id) as [E1 E2].
  { destruct o; cbn [hop_run harmless] in *.
    - destruct Ho as [N1 N2].
      assert (get fs id = Some (out, size, tm)) as G.
      { pose proof (get_bytes_sound H fs id) as S. rewrite Hb in S. tauto. }
      destruct (lookup_frame fs id id0 rd tm0 N1) as (_ & B & F); [|split; assumption].
      intros o s t E. rewrite G in E. inversion E; subst. auto.
    - rewrite run_get. split; reflexivity.
    - rewrite run_get_file. split; reflexivity.
    - rewrite run_get_bytes. split; reflexivity.
    - rewrite run_output_file. split; reflexivity.
    - contradiction. }
  destruct (IH (hop_run H o fs) id d out size tm) as [R1 R2]; [rewrite E1; exact Hb|exact Hops|].
  split; [exact R1|]. rewrite R2. exact E2.
Qed.

End PutGet.

(* distinct ids / outputs are distinct files: the index and data suffixes differ *)
Lemma path_name_inj : forall p q, path_name p = path_name q -> p = q.
Proof.
  intros [a|a] [b|b]; unfold path_name; intros E.
  - apply app_inv_tail in E. apply hex_inj in E. congruence.
  - exfalso. change (name_sep ++ index_key) with ([x2d] ++ [x61]) in E.
    change (name_sep ++ data_key) with ([x2d] ++ [x64]) in E.
    rewrite !app_assoc in E. apply app_inj_tail in E. destruct E as [_ E]; discriminate.
  - exfalso. change (name_sep ++ index_key) with ([x2d] ++ [x61]) in E.
    change (name_sep ++ data_key) with ([x2d] ++ [x64]) in E.
    rewrite !app_assoc in E. apply app_inj_tail in E. destruct E as [_ E]; discriminate.
  - apply app_inv_tail in E. apply hex_inj in E. congruence.
Qed.

(* the code reads and writes an entry / an output under the same key *)
Lemma keys_agree : index_key_get = index_key /\ data_key_get = data_key.
Proof. split; reflexivity. Qed.
