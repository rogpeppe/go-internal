(* Facts about cache/hash.go's model. *)
From Coq Require Import List Bool Arith NArith ZArith Lia.
From Coq.Strings Require Import Byte.
From GI Require Import Lib.Bytes Lib.BytesFacts Gen.CacheConsts Cache.CacheHash.
Import ListNotations.

Section Facts.
Variable H : bytes -> bytes.

(* however the data is cut into Write calls, Sum is the hash of the whole *)
Lemma fold_hash_write : forall chunks h, fold_left hash_write chunks h = h ++ concat chunks.
Proof.
  induction chunks as [|c r IH]; intros h; cbn [fold_left concat].
  - symmetry. apply app_nil_r.
  - rewrite IH. unfold hash_write. rewrite app_assoc. reflexivity.
Qed.

Theorem hash_sum_chunks : forall chunks, hash_sum H (fold_left hash_write chunks new_hash) = H (concat chunks).
Proof. intros chunks. unfold hash_sum, new_hash. rewrite fold_hash_write. reflexivity. Qed.

Corollary hash_sum_rechunk : forall c1 c2, concat c1 = concat c2 ->
  hash_sum H (fold_left hash_write c1 new_hash) = hash_sum H (fold_left hash_write c2 new_hash).
Proof. intros c1 c2 E. rewrite !hash_sum_chunks, E. reflexivity. Qed.

(* Subkey is unambiguous: action ids have a fixed length, so parent and description can be read
   back from what is hashed; with H injective on the preimages in play, equal subkeys have equal
   parents and equal descriptions *)
Theorem subkey_preimage_inj : forall p d p' d', length p = length p' ->
  subkey_preimage p d = subkey_preimage p' d' -> p = p' /\ d = d'.
Proof.
  intros p d p' d' L E. unfold subkey_preimage in E. apply app_inv_head in E.
  pose proof (f_equal (firstn (length p)) E) as F. rewrite firstn_length_app, L, firstn_length_app in F.
  subst p'. split; [reflexivity|exact (app_inv_head _ _ _ E)].
Qed.

Theorem subkey_inj : forall (U : bytes -> Prop),
  (forall a b, U a -> U b -> H a = H b -> a = b) ->
  forall p d p' d', length p = length p' ->
  U (subkey_preimage p d) -> U (subkey_preimage p' d') ->
  subkey H p d = subkey H p' d' -> p = p' /\ d = d'.
Proof.
  intros U Hinj p d p' d' L U1 U2 E. apply subkey_preimage_inj; [exact L|]. apply Hinj; assumption.
Qed.

(* a subkey is never confused with the hash of a plain input that does not start with the prefix *)
Theorem subkey_preimage_prefix : forall p d, firstn (length subkey_prefix) (subkey_preimage p d) = subkey_prefix.
Proof. intros p d. unfold subkey_preimage. rewrite firstn_app, Nat.sub_diag, firstn_all. cbn [firstn]. apply app_nil_r. Qed.

Lemma file_hash_eq : forall t disk name, file_hash H t disk name = file_hash_body H t disk name.
Proof. reflexivity. Qed.

Theorem file_hash_fresh : forall t disk name c,
  fh_lookup t name = None -> disk name = Some c ->
  file_hash H t disk name = (set_file_hash t name (H c), Some (H c)).
Proof. intros t disk name c E1 E2. rewrite file_hash_eq. unfold file_hash_body. rewrite E1, E2. reflexivity. Qed.

Theorem file_hash_failure_not_remembered : forall t disk name,
  fh_lookup t name = None -> disk name = None -> file_hash H t disk name = (t, None).
Proof. intros t disk name E1 E2. rewrite file_hash_eq. unfold file_hash_body. rewrite E1, E2. reflexivity. Qed.

Lemma fh_lookup_set_same : forall t name s, fh_lookup (set_file_hash t name s) name = Some s.
Proof. intros. cbn. rewrite bytes_eqb_refl. reflexivity. Qed.

Lemma fh_lookup_set_other : forall t name n2 s, n2 <> name -> fh_lookup (set_file_hash t n2 s) name = fh_lookup t name.
Proof.
  intros t name n2 s N. cbn. destruct (bytes_eqb n2 name) eqn:E; [|reflexivity].
  apply bytes_eqb_eq in E. contradiction.
Qed.

(* once a name has a sum -- computed or set -- FileHash answers it whatever the disk holds then, and
   changes nothing (the documented caching) *)
Theorem file_hash_memo : forall t disk name s,
  fh_lookup t name = Some s -> file_hash H t disk name = (t, Some s).
Proof. intros t disk name s E. rewrite file_hash_eq. unfold file_hash_body. rewrite E. reflexivity. Qed.

Theorem file_hash_twice : forall t disk disk' name t1 s,
  file_hash H t disk name = (t1, Some s) -> file_hash H t1 disk' name = (t1, Some s).
Proof.
  intros t disk disk' name t1 s E. apply file_hash_memo.
  rewrite file_hash_eq in E. unfold file_hash_body in E.
  destruct (fh_lookup t name) as [s0|] eqn:E0.
  - inversion E; subst. exact E0.
  - destruct (disk name) as [c|]; [|discriminate]. inversion E; subst. apply fh_lookup_set_same.
Qed.

Theorem set_then_file_hash : forall t disk name s,
  file_hash H (set_file_hash t name s) disk name = (set_file_hash t name s, Some s).
Proof. intros. apply file_hash_memo. apply fh_lookup_set_same. Qed.

(* FileHash of one name never changes what another name answers *)
Theorem file_hash_frame : forall t disk name other,
  other <> name -> fh_lookup (fst (file_hash H t disk name)) other = fh_lookup t other.
Proof.
  intros t disk name other N. rewrite file_hash_eq. unfold file_hash_body.
  destruct (fh_lookup t name); [reflexivity|]. destruct (disk name); [|reflexivity].
  cbn [fst]. apply fh_lookup_set_other. intros E. apply N. symmetry. exact E.
Qed.

End Facts.

Example ex_subkey_prefix : subkey_prefix <> [].
Proof. discriminate. Qed.

Example ex_hash_chunks :
  fold_left hash_write [[x61]; []; [x62; x63]] new_hash = [x61; x62; x63] /\
  fold_left hash_write [[x61; x62]; [x63]] new_hash = [x61; x62; x63].
Proof. split; reflexivity. Qed.

Example ex_file_hash_memo :
  let H := fun b : bytes => rev b in
  let disk1 := fun _ : bytes => Some [x01; x02] in
  let disk2 := fun _ : bytes => Some [x09] in
  let '(t1, r1) := file_hash H [] disk1 [x66] in
  let '(t2, r2) := file_hash H t1 disk2 [x66] in
  r1 = Some [x02; x01] /\ r2 = Some [x02; x01] /\ t2 = t1 /\
  file_hash H [] (fun _ => None) [x66] = ([], None).
Proof. vm_compute. auto. Qed.
