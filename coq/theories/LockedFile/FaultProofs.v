(* C07 (faults): a fault that hits an executed operation forces an error return
   (Transform and Write); whole write-locking calls under a fault plan, as instances of
   PolicyCall.excl_call_pol; what a failed Write leaves behind. *)
From Coq Require Import List NArith Arith Bool Lia.
From Coq.Strings Require Import Byte.
From GI Require Import Gen.LockedFileConsts LockedFile.LockedFile LockedFile.LockBasics
  LockedFile.LockProofs LockedFile.TransformProofs.
From GI Require Import LockedFile.Policy LockedFile.PolicyProofs LockedFile.PolicyTransform
  LockedFile.PolicyCall.
Import ListNotations.

(* number of operations a body executes *)
Fixpoint body_steps (p : prog) (plan : nat -> fault) (n : nat) (b : bytes) (fd : fdesc) : nat :=
  match p with
  | Ret _ => 0
  | Do o k | Retry o k =>
      match io_step o (plan n) b fd with
      | (r, b', fd') => S (body_steps (k r) plan (S n) b' fd')
      end
  end.

Definition result_of (x : result * bytes * fdesc) : result := fst (fst x).

(* whatever happens, the program reports an error *)
Definition always_err (p : prog) : Prop :=
  forall plan n X fd, result_of (run_body p plan n X fd) = ResErr.

(* every operation's failure leads to an error return *)
Inductive strict : prog -> Prop :=
| strict_ret r : strict (Ret r)
| strict_do o k : is_io o = true -> always_err (k RErr) -> (forall r, strict (k r)) -> strict (Do o k).

Definition rw (fd : fdesc) : Prop :=
  acc_writable (fd_acc fd) = true /\ acc_readable (fd_acc fd) = true.

Lemma io_step_fault o flt X fd :
  is_io o = true -> rw fd -> flt <> FNone -> fst (fst (io_step o flt X fd)) = RErr.
Proof.
  intros Hio [Hw Hr] Hf. destruct o; try discriminate Hio; simpl; rewrite ?Hw, ?Hr;
    destruct flt; try reflexivity; now elim Hf.
Qed.

Lemma io_step_rw o flt X fd : rw fd -> rw (snd (io_step o flt X fd)).
Proof.
  intros [Hw Hr]. unfold rw. now rewrite io_step_acc.
Qed.

Lemma strict_fault p : strict p -> forall plan n X fd k,
  rw fd -> n <= k < n + body_steps p plan n X fd -> plan k <> FNone ->
  result_of (run_body p plan n X fd) = ResErr.
Proof.
  induction 1 as [r|o k0 Hio Herr Hk IH]; intros plan n X fd k Hrw Hk' Hf; simpl in *; [lia|].
  destruct (Nat.eq_dec k n) as [->|Hne].
  - pose proof (io_step_fault o (plan n) X fd Hio Hrw Hf) as E.
    destruct (io_step o (plan n) X fd) as [[r b'] fd']. simpl in E. subst r. apply Herr.
  - pose proof (io_step_rw o (plan n) X fd Hrw) as Hrw'.
    destruct (io_step o (plan n) X fd) as [[r b'] fd']. simpl in Hrw'.
    apply (IH r plan (S n) b' fd' k Hrw'); [lia|exact Hf].
Qed.

Lemma always_err_ret : always_err (Ret ResErr).
Proof. intros plan n X fd. reflexivity. Qed.

Lemma always_err_do o k : (forall r, always_err (k r)) -> always_err (Do o k).
Proof.
  intros H plan n X fd. unfold result_of. simpl.
  destruct (io_step o (plan n) X fd) as [[r b'] fd']. apply H.
Qed.

Lemma always_err_pwrite off d k : (forall r, always_err (k r)) -> always_err (pwrite_prog off d k).
Proof. intros H. destruct d; simpl; [apply H|now apply always_err_do]. Qed.

Lemma always_err_rollback old : always_err (rollback old).
Proof.
  apply always_err_pwrite. intros []; try apply always_err_ret.
  apply always_err_do. intros _. apply always_err_ret.
Qed.

Lemma strict_pwrite off d k :
  always_err (k RErr) -> (forall r, strict (k r)) -> strict (pwrite_prog off d k).
Proof. intros He Hs. destruct d; simpl; [apply Hs|now constructor]. Qed.

Lemma strict_of_always_err_leaf : strict (Ret ResErr).
Proof. constructor. Qed.

Lemma strict_rollback old : strict (rollback old).
Proof.
  apply strict_pwrite; [apply always_err_ret|].
  intros []; try constructor; try reflexivity; try apply always_err_ret. intros; constructor.
Qed.

Lemma strict_transform_main old new : strict (transform_main old new).
Proof.
  unfold transform_main. destruct (_ <=? _).
  - apply strict_pwrite; [apply always_err_rollback|].
    intros []; try apply strict_rollback. constructor.
  - apply strict_pwrite; [apply always_err_rollback|].
    intros []; try apply strict_rollback.
    constructor; [reflexivity|apply always_err_rollback|].
    intros []; try apply strict_rollback. constructor.
Qed.

Lemma strict_transform t : strict (transform_body t).
Proof.
  constructor; [reflexivity|apply always_err_ret|].
  intros []; try constructor. destruct (t b) as [new|]; [|constructor].
  unfold transform_write. destruct (_ <? _); [|apply strict_transform_main].
  apply strict_pwrite.
  - apply always_err_do. intros _. apply always_err_ret.
  - intros []; try apply strict_transform_main;
      (constructor; [reflexivity|apply always_err_ret|intros; constructor]).
Qed.

Lemma strict_write d : strict (write_body d).
Proof.
  unfold write_body, write_prog. destruct d; [constructor|].
  constructor; [reflexivity|apply always_err_ret|]. intros []; constructor.
Qed.

(* a fault among the operations Transform executes makes it return an error *)
Theorem transform_fault_errs t old plan fd k :
  acc_writable (fd_acc fd) = true -> acc_readable (fd_acc fd) = true ->
  k < body_steps (transform_body t) plan 0 old fd -> plan k <> FNone ->
  result_of (run_body (transform_body t) plan 0 old fd) = ResErr.
Proof.
  intros Hw Hr Hk Hf. apply (strict_fault _ (strict_transform t) plan 0 old fd k); [split; auto|lia|exact Hf].
Qed.

Theorem write_fault_errs d plan X fd k :
  acc_writable (fd_acc fd) = true -> acc_readable (fd_acc fd) = true ->
  k < body_steps (write_body d) plan 0 X fd -> plan k <> FNone ->
  result_of (run_body (write_body d) plan 0 X fd) = ResErr.
Proof.
  intros Hw Hr Hk Hf. apply (strict_fault _ (strict_write d) plan 0 X fd k); [split; auto|lia|exact Hf].
Qed.

(* what the file holds / what the caller gets after a write-locking call with body b on an
   existing file holding old, operation number j of the run suffering plan j:
     0 openat, 1 flock, [2 ftruncate when the flags carry O_TRUNC,] mark, body ..., unlock, close *)
Theorem excl_call_faulty fl b old plan :
  io_only b -> lock_mode_of_flags fl = Some LEx ->
  has_flag (strip fl openfile_strip_mask) sys_O_CREATE && has_flag (strip fl openfile_strip_mask) sys_O_EXCL = false ->
  match run_seq 0 0 (client_prog fl b) plan 0 (os_with (Some old)) with
  | (_, out, s') =>
      ltab s' 0 = [] /\ fds s' 0 = None /\
      if has_flag fl truncate_cond_mask then
        match plan 2 with
        | FNone => match run_body b plan 4 (start_contents fl old) (fresh_fd fl) with
                   | (r, X', _) => out = Finished r /\ content_of (files s' 0) = X' end
        | _ => out = Finished ResErr /\ content_of (files s' 0) = old
        end
      else match run_body b plan 3 old (fresh_fd fl) with
           | (r, X', _) => out = Finished r /\ content_of (files s' 0) = X' end
  end.
Proof.
  intros Hio Hm Hx.
  pose proof (excl_call_pol fl b old (pol_of_plan plan) Hio Hm Hx (pol_of_plan_io plan)) as H.
  cbv zeta in H. rewrite run_pol_plan, !run_body_pol_plan in H. cbn [pol_of_plan is_io length] in H.
  destruct (run_seq 0 0 (client_prog fl b) plan 0 (os_with (Some old))) as [[tr out] s']. exact H.
Qed.

(* Transform: under any plan with at most one fault the call is all-or-nothing *)
Theorem transform_call_fault_atomic t old plan :
  single_fault plan ->
  match run_seq 0 0 (prog_of_call (CTransform t)) plan 0 (os_with (Some old)) with
  | (_, out, s') =>
      ltab s' 0 = [] /\ fds s' 0 = None /\
      ((out = Finished ResOk /\ t old = Some (content_of (files s' 0))) \/
       (out = Finished ResErr /\ content_of (files s' 0) = old))
  end.
Proof.
  intros Hsf.
  pose proof (excl_call_faulty edit_flags (transform_body t) old plan (io_only_transform t)
                eq_refl eq_refl) as H.
  change (has_flag edit_flags truncate_cond_mask) with false in H. cbv iota in H.
  pose proof (transform_fault_atomic t old (fun j => plan (3 + j)) (fresh_fd edit_flags)
                eq_refl eq_refl eq_refl (single_fault_shift plan 3 Hsf)) as Hb.
  rewrite <- run_body_shift in Hb.
  change (prog_of_call (CTransform t)) with (client_prog edit_flags (transform_body t)).
  destruct (run_seq 0 0 (client_prog edit_flags (transform_body t)) plan 0 (os_with (Some old)))
    as [[tr out] s'].
  destruct (run_body (transform_body t) plan 3 old (fresh_fd edit_flags)) as [[r X'] fd'].
  destruct H as (Hl & Hf & -> & ->). split; [exact Hl|]. split; [exact Hf|].
  destruct Hb as [[-> Ht]|[-> [-> _]]]; [left|right]; auto.
Qed.

(* the body of Write on the freshly truncated file *)
Lemma write_body_on_empty d plan n fd :
  acc_writable (fd_acc fd) = true -> fd_off fd = 0 ->
  match run_body (write_body d) plan n [] fd with
  | (r, X', _) => (r = ResOk /\ X' = d) \/ (r = ResErr /\ exists m, X' = firstn m d)
  end.
Proof.
  intros Hw Hoff. unfold write_body, write_prog. destruct d as [|x d'] eqn:Ed.
  - simpl. left. auto.
  - rewrite <- Ed. cbn [run_body]. simpl io_step. rewrite Hw, Hoff.
    destruct (plan n); simpl.
    + left. split; [reflexivity|]. rewrite write_at_0. destruct (length d); simpl; apply app_nil_r.
    + right. split; [reflexivity|]. exists 0. reflexivity.
    + right. split; [reflexivity|]. exists n0. rewrite write_at_0.
      destruct (length (firstn n0 d)); simpl; apply app_nil_r.
Qed.

Definition trunc_write_outcome (old d : bytes) (out : outcome) (X : bytes) : Prop :=
  (out = Finished ResOk /\ X = d) \/
  (out = Finished ResErr /\ (X = old \/ exists m, X = firstn m d)).

(* a truncating write-locking call whose body is that of Write *)
Lemma trunc_write_call_faulty fl d old plan :
  lock_mode_of_flags fl = Some LEx ->
  has_flag (strip fl openfile_strip_mask) sys_O_CREATE && has_flag (strip fl openfile_strip_mask) sys_O_EXCL = false ->
  has_flag fl truncate_cond_mask = true ->
  match run_seq 0 0 (client_prog fl (write_body d)) plan 0 (os_with (Some old)) with
  | (_, out, s') =>
      ltab s' 0 = [] /\ fds s' 0 = None /\ trunc_write_outcome old d out (content_of (files s' 0))
  end.
Proof.
  intros Hm Hx Ht.
  pose proof (excl_call_faulty fl (write_body d) old plan (io_only_write_body d) Hm Hx) as H.
  destruct (run_seq 0 0 (client_prog fl (write_body d)) plan 0 (os_with (Some old))) as [[tr out] s'].
  destruct H as [Hl [Hf H]]. split; [exact Hl|]. split; [exact Hf|].
  rewrite Ht in H. destruct (plan 2); [|right; destruct H as [-> ->]; auto ..].
  unfold start_contents in H. rewrite Ht in H.
  change (resize (N.to_nat truncate_size) old) with (@nil byte) in H.
  pose proof (write_body_on_empty d plan 4 (fresh_fd fl) (exclusive_writable fl Hm) eq_refl) as Hb.
  destruct (run_body (write_body d) plan 4 [] (fresh_fd fl)) as [[r X'] fd'].
  destruct H as [-> ->]. destruct Hb as [[-> ->]|[-> Hb]]; [left|right]; auto.
Qed.

(* Write: success leaves exactly the new content; a failure leaves the old content (the
   truncate failed) or a prefix of the new content, possibly empty (the write failed) — never
   a mixture of old and new, but NOT necessarily the old content: only Transform rolls back *)
Theorem write_call_faulty d old plan :
  match run_seq 0 0 (prog_of_call (CWrite d)) plan 0 (os_with (Some old)) with
  | (_, out, s') =>
      ltab s' 0 = [] /\ fds s' 0 = None /\ trunc_write_outcome old d out (content_of (files s' 0))
  end.
Proof. exact (trunc_write_call_faulty write_flags d old plan eq_refl eq_refl eq_refl). Qed.

Theorem create_write_call_faulty d old plan :
  match run_seq 0 0 (prog_of_call (CCreate (write_body d))) plan 0 (os_with (Some old)) with
  | (_, out, s') =>
      ltab s' 0 = [] /\ fds s' 0 = None /\ trunc_write_outcome old d out (content_of (files s' 0))
  end.
Proof. exact (trunc_write_call_faulty create_flags d old plan eq_refl eq_refl eq_refl). Qed.

(* Edit with any I/O body: no truncation, the file ends as the body left it *)
Theorem edit_call_faulty b old plan :
  io_only b ->
  match run_seq 0 0 (prog_of_call (CEdit b)) plan 0 (os_with (Some old)),
        run_body b plan 3 old (fresh_fd edit_flags) with
  | (_, out, s'), (r, X', _) =>
      ltab s' 0 = [] /\ fds s' 0 = None /\ out = Finished r /\ content_of (files s' 0) = X'
  end.
Proof.
  intros Hio.
  pose proof (excl_call_faulty edit_flags b old plan Hio eq_refl eq_refl) as H.
  unfold prog_of_call. cbn [flags_of_call body_of_call].
  destruct (run_seq 0 0 (client_prog edit_flags b) plan 0 (os_with (Some old))) as [[tr out] s'].
  change (has_flag edit_flags truncate_cond_mask) with false in H. cbv iota in H.
  destruct (run_body b plan 3 old (fresh_fd edit_flags)) as [[r X'] fd'].
  destruct H as [Hl [Hf [Ho HX]]]. auto.
Qed.

(* Write has no rollback: a single failing write loses the old content *)
Example write_has_no_rollback :
  exists old d plan, single_fault plan /\
    match run_seq 0 0 (prog_of_call (CWrite d)) plan 0 (os_with (Some old)) with
    | (_, out, s') => out = Finished ResErr /\ content_of (files s' 0) <> old
    end.
Proof.
  exists [x61; x62; x63], [x78; x79], (fault_at 4 FFail). split; [apply single_fault_at|].
  vm_compute. split; [reflexivity|discriminate].
Qed.
