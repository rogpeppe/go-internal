(* Basic facts about the lockedfile OS model: flags, maps, the flock table, frame properties
   of os_step. *)
From Coq Require Import List NArith Arith Bool Lia.
From Coq.Strings Require Import Byte.
From GI Require Import Gen.LockedFileConsts LockedFile.LockedFile.
Import ListNotations.

Lemma upd_same {A} (m : nat -> A) c v : upd m c v c = v.
Proof. unfold upd. now rewrite Nat.eqb_refl. Qed.

Lemma upd_other {A} (m : nat -> A) c d v : d <> c -> upd m c v d = m d.
Proof. intros Hd. unfold upd. destruct (Nat.eqb_spec d c); [contradiction|reflexivity]. Qed.

(* what every step preserves holds after a run (runs are folds of the step function) *)
Lemma fold_left_invariant {A B} (f : A -> B -> A) (P : A -> Prop) :
  (forall a b, P a -> P (f a b)) -> forall l a, P a -> P (fold_left f l a).
Proof. intros H l. induction l as [|b l IH]; intros a Ha; [exact Ha|]. apply IH, H, Ha. Qed.

Lemma strip_has_flag flags m : m <> 0%N -> has_flag (strip flags m) m = false.
Proof.
  intros Hm. unfold has_flag, strip. rewrite N.land_ldiff.
  apply N.eqb_neq. congruence.
Qed.

Lemma strip_keeps_disjoint flags m x :
  N.land x m = 0%N -> N.land (strip flags m) x = N.land flags x.
Proof.
  intros Hx. unfold strip. apply N.bits_inj. intros n.
  rewrite !N.land_spec, N.ldiff_spec.
  assert (Hb : N.testbit (N.land x m) n = false) by (rewrite Hx; apply N.bits_0).
  rewrite N.land_spec in Hb.
  destruct (N.testbit flags n), (N.testbit m n), (N.testbit x n); simpl in *; congruence.
Qed.

Lemma lock_arg_cases flags :
  lock_arg_of_flags flags = filelock_lock_arg \/ lock_arg_of_flags flags = filelock_rlock_arg.
Proof.
  unfold lock_arg_of_flags.
  destruct (existsb _ _); [left|right]; reflexivity.
Qed.

Lemma lock_mode_total flags :
  exists k, lock_mode_of_flags flags = Some k /\ flock_req_of (lock_arg_of_flags flags) = FReq k.
Proof.
  unfold lock_mode_of_flags.
  destruct (lock_arg_cases flags) as [H|H]; rewrite H.
  - exists LEx. split; reflexivity.
  - exists LSh. split; reflexivity.
Qed.

Definition locked (c : nat) (l : list (nat * lkind)) : option lkind :=
  match find (fun h => Nat.eqb (fst h) c) l with Some h => Some (snd h) | None => None end.

Definition ltab_ok (l : list (nat * lkind)) : Prop :=
  NoDup (map fst l) /\ forall c d k, In (c, LEx) l -> In (d, k) l -> d = c.

Lemma locked_nil c : locked c [] = None.
Proof. reflexivity. Qed.

Lemma locked_cons_same c k l : locked c ((c, k) :: l) = Some k.
Proof. unfold locked. simpl. now rewrite Nat.eqb_refl. Qed.

Lemma locked_cons_other c d k l : d <> c -> locked d ((c, k) :: l) = locked d l.
Proof.
  intros Hd. unfold locked. simpl.
  destruct (Nat.eqb_spec c d); [congruence|reflexivity].
Qed.

Lemma locked_drop_same c l : locked c (drop c l) = None.
Proof.
  unfold locked, drop. induction l as [|[a k] l IH]; simpl; [reflexivity|].
  destruct (Nat.eqb_spec a c); simpl; [exact IH|].
  destruct (Nat.eqb_spec a c); [contradiction|exact IH].
Qed.

Lemma locked_drop_other c d l : d <> c -> locked d (drop c l) = locked d l.
Proof.
  intros Hd. unfold locked, drop. induction l as [|[a k] l IH]; simpl; [reflexivity|].
  destruct (Nat.eqb_spec a c) as [->|Hac]; simpl.
  - destruct (Nat.eqb_spec c d); [congruence|exact IH].
  - destruct (Nat.eqb_spec a d); [reflexivity|exact IH].
Qed.

Lemma locked_In c k l : locked c l = Some k -> In (c, k) l.
Proof.
  unfold locked. destruct (find _ l) as [[a k']|] eqn:Hf; [|discriminate].
  intros [= <-]. apply find_some in Hf. destruct Hf as [Hin He]. simpl in He.
  apply Nat.eqb_eq in He. now subst a.
Qed.

Lemma In_locked c k l : NoDup (map fst l) -> In (c, k) l -> locked c l = Some k.
Proof.
  unfold locked. induction l as [|[a k'] l IH]; simpl; [tauto|].
  intros Hnd [Hin|Hin].
  - injection Hin as -> ->. now rewrite Nat.eqb_refl.
  - inversion Hnd as [|? ? Hni Hnd']; subst.
    destruct (Nat.eqb_spec a c) as [->|Hac].
    + exfalso. apply Hni. change c with (fst (c, k)). now apply in_map.
    + now apply IH.
Qed.

Lemma locked_None_not_In c k l : locked c l = None -> ~ In (c, k) l.
Proof.
  unfold locked. destruct (find _ l) eqn:Hf; [discriminate|]. intros _ Hin.
  apply (find_none _ _ Hf) in Hin. simpl in Hin. now rewrite Nat.eqb_refl in Hin.
Qed.

Lemma holds_locked c k l : NoDup (map fst l) -> (holds c k l = true <-> locked c l = Some k).
Proof.
  intros Hnd. unfold holds. rewrite existsb_exists. split.
  - intros [[a k'] [Hin He]]. simpl in He. apply andb_true_iff in He. destruct He as [Ha Hk].
    apply Nat.eqb_eq in Ha. subst a.
    assert (k' = k) by (destruct k', k; simpl in Hk; congruence). subst k'.
    now apply In_locked.
  - intros Hl. exists (c, k). split; [now apply locked_In|]. simpl.
    rewrite Nat.eqb_refl. destruct k; reflexivity.
Qed.

Lemma drop_In d k c l : In (d, k) (drop c l) <-> In (d, k) l /\ d <> c.
Proof.
  unfold drop. rewrite filter_In. simpl. rewrite negb_true_iff, Nat.eqb_neq. tauto.
Qed.

Lemma drop_drop c l : drop c (drop c l) = drop c l.
Proof.
  unfold drop. induction l as [|[a k] l IH]; simpl; [reflexivity|].
  destruct (Nat.eqb a c) eqn:E; simpl; [exact IH|]. rewrite E. simpl. now rewrite IH.
Qed.

Lemma NoDup_map_filter {A B} (g : A -> B) (p : A -> bool) l :
  NoDup (map g l) -> NoDup (map g (filter p l)).
Proof.
  induction l as [|a l IH]; simpl; intros H; [constructor|].
  inversion H as [|? ? Hni Hnd]; subst. destruct (p a); simpl; [|now apply IH].
  constructor; [|now apply IH]. intros Hin. apply Hni.
  apply in_map_iff in Hin. destruct Hin as [a' [E Hin]]. apply filter_In in Hin.
  apply in_map_iff. exists a'. tauto.
Qed.

Lemma drop_NoDup c l : NoDup (map fst l) -> NoDup (map fst (drop c l)).
Proof. apply NoDup_map_filter. Qed.

Lemma drop_fst_notin c l : ~ In c (map fst (drop c l)).
Proof.
  intros Hin. apply in_map_iff in Hin. destruct Hin as [[a k] [He Hin]].
  simpl in He. subst a. apply drop_In in Hin. tauto.
Qed.

Lemma ltab_ok_nil : ltab_ok [].
Proof. split; [constructor|intros c d k []]. Qed.

Lemma ltab_ok_drop c l : ltab_ok l -> ltab_ok (drop c l).
Proof.
  intros [Hnd Hex]. split; [now apply drop_NoDup|].
  intros a d k Ha Hd. apply drop_In in Ha. apply drop_In in Hd.
  now apply (Hex a d k).
Qed.

(* a grant means: whoever else is in the table holds a shared lock, and so will the grantee *)
Lemma can_grant_others k c l d kd :
  can_grant k c l = true -> In (d, kd) l -> d <> c -> k = LSh /\ kd = LSh.
Proof.
  intros Hg Hin Hd.
  destruct k; simpl in Hg; unfold others_shared, others_none in Hg;
    rewrite forallb_forall in Hg; specialize (Hg _ Hin); simpl in Hg.
  - apply orb_true_iff in Hg. destruct Hg as [Hg|Hg]; [apply Nat.eqb_eq in Hg; contradiction|].
    now destruct kd.
  - apply Nat.eqb_eq in Hg. contradiction.
Qed.

Lemma ltab_ok_grant k c l :
  ltab_ok l -> can_grant k c l = true -> ltab_ok ((c, k) :: drop c l).
Proof.
  intros Hok Hg. pose proof (ltab_ok_drop c l Hok) as [Hnd _].
  assert (Hsh : forall d kd, In (d, kd) (drop c l) -> k = LSh /\ kd = LSh).
  { intros d kd Hd. apply drop_In in Hd. now apply (can_grant_others k c l d kd). }
  split.
  - simpl. constructor; [apply drop_fst_notin|exact Hnd].
  - intros x d k' [Hx|Hx] Hd; [|now destruct (Hsh _ _ Hx)].
    injection Hx as <- ->. destruct Hd as [Hd|Hd]; [now injection Hd|now destruct (Hsh _ _ Hd)].
Qed.

Lemma can_grant_no_ex k c l d :
  can_grant k c l = true -> d <> c -> locked d l <> Some LEx.
Proof.
  intros Hg Hd Hl. now destruct (can_grant_others k c l d LEx Hg (locked_In _ _ _ Hl) Hd).
Qed.

Lemma locked_None_holds c k l : locked c l = None -> holds c k l = false.
Proof.
  intros Hl. apply not_true_is_false. intros Hh. unfold holds in Hh.
  apply existsb_exists in Hh. destruct Hh as [[a k'] [Hin He]]. simpl in He.
  apply andb_true_iff in He. destruct He as [Ha _]. apply Nat.eqb_eq in Ha. subst a.
  eapply locked_None_not_In; eassumption.
Qed.

Lemma holds_eq_locked c k l :
  NoDup (map fst l) ->
  holds c k l = match locked c l with Some k' => lkind_eqb k' k | None => false end.
Proof.
  intros Hnd. destruct (locked c l) as [k'|] eqn:Hl; [|now apply locked_None_holds].
  destruct (lkind_eqb k' k) eqn:Hk.
  - apply holds_locked; [exact Hnd|]. destruct k', k; try discriminate; exact Hl.
  - apply not_true_is_false. intros Hh. apply (holds_locked _ _ _ Hnd) in Hh.
    rewrite Hh in Hl. injection Hl as <-. destruct k; discriminate.
Qed.

Lemma io_step_acc o flt X fd : fd_acc (snd (io_step o flt X fd)) = fd_acc fd.
Proof.
  destruct o; simpl; try reflexivity.
  - destruct (acc_writable _); [destruct flt|]; reflexivity.
  - destruct (acc_readable _); [destruct flt|]; reflexivity.
  - destruct (acc_writable _); [destruct flt|]; reflexivity.
  - destruct (acc_writable _); [destruct flt|]; reflexivity.
Qed.

(* H : os_step ... = Some (r, s') with os_step unfolded: split on every test os_step makes, keep
   the tests as equations, and read r and s' off the branch *)
Ltac os_inv H :=
  repeat match type of H with
  | context [match ?x with _ => _ end] => destruct x eqn:?
  end; try discriminate H; injection H as <- <-.

(* everything a step of client c on inode i leaves alone, and what it can do to the flock table
   of i: nothing, remove c, or grant c a lock *)
Lemma os_step_effect i c o flt e s r s' :
  os_step i c o flt e s = Some (r, s') ->
  refs s' = refs s /\
  (forall d, d <> c -> fds s' d = fds s d) /\
  (forall j, j <> i -> ltab s' j = ltab s j /\ files s' j = files s j) /\
  (files s i <> None -> files s' i <> None) /\
  (ltab s' i = ltab s i \/ ltab s' i = drop c (ltab s i) \/
   exists k, can_grant k c (ltab s i) = true /\ ltab s' i = (c, k) :: drop c (ltab s i)).
Proof.
  intros H. unfold os_step in H.
  destruct o; os_inv H; simpl; rewrite ?upd_same;
  (split; [reflexivity|]); (split; [intros x Hx; now rewrite ?upd_other by assumption|]);
  (split; [intros y Hy; now rewrite ?upd_other by assumption|]);
  (split; [congruence|]); eauto.
Qed.

Lemma os_step_fds_other i c o flt e s r s' d :
  os_step i c o flt e s = Some (r, s') -> d <> c -> fds s' d = fds s d.
Proof. intros H. apply (os_step_effect _ _ _ _ _ _ _ _ H). Qed.

Lemma os_step_refs i c o flt e s r s' :
  os_step i c o flt e s = Some (r, s') -> refs s' = refs s.
Proof. intros H. now apply os_step_effect in H. Qed.

Lemma os_step_ltab_other_inode i c o flt e s r s' j :
  os_step i c o flt e s = Some (r, s') -> j <> i -> ltab s' j = ltab s j.
Proof. intros H. apply (os_step_effect _ _ _ _ _ _ _ _ H). Qed.

Lemma os_step_files_other_inode i c o flt e s r s' j :
  os_step i c o flt e s = Some (r, s') -> j <> i -> files s' j = files s j.
Proof. intros H. apply (os_step_effect _ _ _ _ _ _ _ _ H). Qed.

(* no operation unlinks, renames or replaces a file *)
Lemma os_step_keeps_file i c o flt e s r s' j :
  os_step i c o flt e s = Some (r, s') -> files s j <> None -> files s' j <> None.
Proof.
  intros H. destruct (Nat.eq_dec j i) as [->|Hj]; [apply (os_step_effect _ _ _ _ _ _ _ _ H)|].
  now rewrite (os_step_files_other_inode _ _ _ _ _ _ _ _ j H Hj).
Qed.

Lemma os_step_ltab_shape i c o flt e s r s' :
  os_step i c o flt e s = Some (r, s') ->
  ltab s' i = ltab s i \/ ltab s' i = drop c (ltab s i) \/
  exists k, can_grant k c (ltab s i) = true /\ ltab s' i = (c, k) :: drop c (ltab s i).
Proof. intros H. now apply os_step_effect in H. Qed.

Lemma os_step_locked_other i c o flt e s r s' d :
  os_step i c o flt e s = Some (r, s') -> d <> c ->
  locked d (ltab s' i) = locked d (ltab s i).
Proof.
  intros H Hd. destruct (os_step_ltab_shape _ _ _ _ _ _ _ _ H) as [E|[E|[k [_ E]]]]; rewrite E.
  - reflexivity.
  - now apply locked_drop_other.
  - rewrite locked_cons_other by assumption. now apply locked_drop_other.
Qed.

Lemma os_step_ltab_ok i c o flt e s r s' :
  os_step i c o flt e s = Some (r, s') -> ltab_ok (ltab s i) -> ltab_ok (ltab s' i).
Proof.
  intros H Hok. destruct (os_step_ltab_shape _ _ _ _ _ _ _ _ H) as [E|[E|[k [Hg E]]]]; rewrite E.
  - exact Hok.
  - now apply ltab_ok_drop.
  - now apply ltab_ok_grant.
Qed.
