(* lockedfile (C07): Transform under fault POLICIES (Policy.v) — persistent faults next to
   the single fault of TransformProofs.v.

   What the property text demands: "if the function or any SINGLE write step reports an error,
   the previous contents remain in place" — that is transform_fault_atomic (TransformProofs.v).
   What the code guarantees beyond that, and what it does not:

     transform_limit_atomic        under a size limit L (every write stores what fits below L and
                                   then fails, the rollback's writes too): all-or-nothing, for
                                   every L and every length relation;
     transform_no_write_atomic     when every write fails outright: all-or-nothing, whatever the
                                   truncations do;
     transform_err_keeps_old_tail  under ANY policy an error return never loses bytes: the file is
                                   at least as long as before and the old bytes beyond the new
                                   length are intact (write first, truncate last);
     transform_persistent_not_atomic   but all-or-nothing does NOT hold for arbitrary persistent
                                   faults (witness: the tail is written, then every write fails:
                                   the file is left as old ++ tail of new);
     transform_publishes_any_result    without faults the file holds t(old), for every result
                                   value, the empty one included. *)
From Coq Require Import List NArith Arith Bool Lia.
From Coq.Strings Require Import Byte.
From GI Require Import Gen.LockedFileConsts LockedFile.LockedFile LockedFile.LockBasics
  LockedFile.LockProofs LockedFile.TransformProofs.
From GI Require Import LockedFile.Policy LockedFile.PolicyProofs.
Import ListNotations.

Lemma nth_zeros i k : nth i (zeros k) x00 = x00.
Proof. apply nth_repeat. Qed.

Lemma nth_firstn_lt {A} (l : list A) d : forall n i, i < n -> nth i (firstn n l) d = nth i l d.
Proof.
  induction l as [|a l IH]; intros [|n] [|i] H; simpl; auto; try lia. apply IH. lia.
Qed.

Lemma nth_skipn_add {A} (l : list A) d : forall n i, nth i (skipn n l) d = nth (n + i) l d.
Proof.
  induction l as [|a l IH]; intros [|n] i; simpl; auto. now destruct i.
Qed.

Lemma nth_pad i b k : nth i (b ++ zeros k) x00 = nth i b x00.
Proof.
  destruct (Nat.lt_ge_cases i (length b)) as [H|H].
  - now apply app_nth1.
  - rewrite app_nth2 by lia. rewrite nth_zeros. symmetry. now apply nth_overflow.
Qed.

Lemma length_write_at_ge off d b : length b <= length (write_at off d b).
Proof.
  unfold write_at. destruct d as [|x d]; [lia|].
  rewrite !app_length, firstn_length, app_length, skipn_length. unfold zeros. rewrite repeat_length.
  simpl length. lia.
Qed.

Lemma length_write_at off d b :
  d <> [] -> length (write_at off d b) = Nat.max (length b) (off + length d).
Proof.
  intros Hd. unfold write_at. destruct d as [|x d]; [now elim Hd|].
  rewrite !app_length, firstn_length, app_length, skipn_length. unfold zeros. rewrite repeat_length.
  simpl length. lia.
Qed.

Lemma nth_write_at off d b i :
  nth i (write_at off d b) x00 =
  if (off <=? i) && (i <? off + length d) then nth (i - off) d x00 else nth i b x00.
Proof.
  unfold write_at. destruct d as [|x d].
  - simpl length. destruct (off <=? i) eqn:E1, (i <? off + 0) eqn:E2; simpl; auto.
    apply Nat.leb_le in E1. apply Nat.ltb_lt in E2. lia.
  - set (dd := x :: d).
    assert (Hl : length (firstn off (b ++ zeros (off - length b))) = off).
    { rewrite firstn_length, app_length. unfold zeros. rewrite repeat_length. lia. }
    destruct (Nat.leb_spec off i) as [H1|H1]; cbn [andb].
    + rewrite app_nth2 by lia. rewrite Hl.
      destruct (Nat.ltb_spec i (off + length dd)) as [H2|H2].
      * now rewrite app_nth1 by lia.
      * rewrite app_nth2 by lia. rewrite nth_skipn_add. f_equal. lia.
    + rewrite app_nth1 by lia. rewrite nth_firstn_lt by lia. apply nth_pad.
Qed.

Lemma length_resize n b : length (resize n b) = n.
Proof.
  unfold resize. rewrite app_length, firstn_length. unfold zeros. rewrite repeat_length. lia.
Qed.

Lemma nth_resize n b i : nth i (resize n b) x00 = if i <? n then nth i b x00 else x00.
Proof.
  unfold resize. destruct (Nat.ltb_spec i n) as [H|H].
  - destruct (Nat.lt_ge_cases i (length b)) as [H2|H2].
    + rewrite app_nth1 by (rewrite firstn_length; lia). now apply nth_firstn_lt.
    + rewrite app_nth2 by (rewrite firstn_length; lia). rewrite nth_zeros.
      symmetry. now apply nth_overflow.
  - apply nth_overflow. rewrite app_length, firstn_length. unfold zeros. rewrite repeat_length. lia.
Qed.

Lemma run_body_pol_pwrite off d k pol h b fd :
  run_body_pol (pwrite_prog off d k) pol h b fd =
  match d with
  | [] => run_body_pol (k ROk) pol h b fd
  | _ => match io_step (OPWrite off d) (pol h (OPWrite off d) b (Some fd)) b fd with
         | (r, b', fd') => run_body_pol (k r) pol ((OPWrite off d, r) :: h) b' fd' end
  end.
Proof. destruct d; reflexivity. Qed.

Lemma run_body_pol_ext p : forall pol1 pol2 h b fd,
  (forall h' o b' fd', pol1 h' o b' fd' = pol2 h' o b' fd') ->
  run_body_pol p pol1 h b fd = run_body_pol p pol2 h b fd.
Proof.
  induction p as [r|o k IH|o k IH]; intros pol1 pol2 h b fd He; simpl; [reflexivity| |];
  rewrite He; destruct (io_step o _ b fd) as [[r b'] fd']; now apply IH.
Qed.

(* the policy semantics extends the position plans: same results for every program *)
Lemma run_body_pol_plan p plan : forall h b fd,
  run_body_pol p (pol_of_plan plan) h b fd = run_body p plan (length h) b fd.
Proof.
  induction p as [r|o k IH|o k IH]; intros h b fd; simpl; [reflexivity| |];
  unfold pol_of_plan at 1;
  (destruct (is_io o) eqn:Hio;
   [|assert (E : forall f, io_step o f b fd = (RErr, b, fd)) by (destruct o; try discriminate Hio; reflexivity);
     rewrite !E]);
  try (destruct (io_step o (plan (length h)) b fd) as [[r b'] fd']); apply (IH _ (_ :: h)).
Qed.

Lemma run_pol_plan i c p plan : forall h s,
  run_pol i c p (pol_of_plan plan) h s =
  match run_seq i c p plan (length h) s with
  | (tr, out, s') => (rev tr ++ h, out, s')
  end.
Proof.
  assert (Hstep : forall o h s,
    os_step_f i c o (pol_of_plan plan h o (content_of (files s i)) (fds s c)) false s =
    os_step i c o (plan (length h)) false s).
  { intros o h s. unfold pol_of_plan. destruct (is_io o) eqn:Hio.
    - now apply osf_io.
    - simpl. symmetry. now apply os_step_nonio_flt. }
  induction p as [r|o k IH|o k IH]; intros h s; cbn [run_pol run_seq]; [reflexivity| |];
  rewrite Hstep; destruct (os_step i c o (plan (length h)) false s) as [[r s1]|]; try reflexivity.
  - rewrite (IH r ((o, r) :: h) s1). simpl length.
    destruct (run_seq i c (k r) plan (S (length h)) s1) as [[tr out] s2].
    simpl rev. now rewrite <- app_assoc.
  - destruct r; try reflexivity;
    rewrite (IH _ ((o, _) :: h) s1); simpl length;
    destruct (run_seq i c (k _) plan (S (length h)) s1) as [[tr out] s2];
    simpl rev; now rewrite <- app_assoc.
Qed.

Section Writable.
Variable fd : fdesc.
Hypothesis Hw : acc_writable (fd_acc fd) = true.

(* what a write leaves is the write of SOME prefix of its data *)
Lemma pwrite_effect off d flt b :
  exists m, io_step (OPWrite off d) flt b fd =
            (match flt with FNone => ROk | _ => RErr end, write_at off (firstn m d) b, fd).
Proof.
  rewrite (io_pwrite fd Hw). destruct flt.
  - exists (length d). now rewrite firstn_all.
  - exists 0. reflexivity.
  - exists n. reflexivity.
Qed.

Section Keeps.
Variables old new : bytes.

Definition tail_kept (X : bytes) : Prop :=
  length old <= length X /\
  forall i, length new <= i -> i < length old -> nth i X x00 = nth i old x00.

(* the writes Transform makes: the tail beyond the old length, a head no longer than the new
   contents, or the old contents themselves *)
Definition safe_write (off : nat) (d : bytes) : Prop :=
  length old <= off \/ (off = 0 /\ length d <= length new) \/ (off = 0 /\ d = old).

Lemma tail_kept_write off d m X : safe_write off d -> tail_kept X -> tail_kept (write_at off (firstn m d) X).
Proof.
  intros Hs [Hl Hn]. split.
  - pose proof (length_write_at_ge off (firstn m d) X). lia.
  - intros i H1 H2. rewrite nth_write_at.
    assert (Hfl : length (firstn m d) <= length d) by (rewrite firstn_length; lia).
    destruct (Nat.leb_spec off i) as [Ha|Ha]; cbn [andb]; [|now apply Hn].
    destruct (Nat.ltb_spec i (off + length (firstn m d))) as [Hb|Hb]; [|now apply Hn].
    destruct Hs as [Hs|[[-> Hs]|[-> ->]]]; try lia.
    rewrite Nat.sub_0_r. apply nth_firstn_lt. rewrite firstn_length in Hb. lia.
Qed.

Lemma tail_kept_resize X : tail_kept X -> tail_kept (resize (length old) X).
Proof.
  intros [Hl Hn]. split; [now rewrite length_resize|].
  intros i H1 H2. rewrite nth_resize. destruct (Nat.ltb_spec i (length old)); [now apply Hn|lia].
Qed.

(* an error return carries the invariant *)
Definition keeps (p : prog) : Prop :=
  forall pol h X fd', fd_acc fd' = fd_acc fd -> tail_kept X ->
    match run_body_pol p pol h X fd' with
    | (ResErr, X', _) => tail_kept X'
    | _ => True
    end.

Lemma keeps_ret r : keeps (Ret r).
Proof. intros pol h X fd' _ HI. simpl. now destruct r. Qed.

Lemma io_step_fd_acc o flt X fd' : fd_acc (snd (io_step o flt X fd')) = fd_acc fd'.
Proof. apply io_step_acc. Qed.

Lemma keeps_pwrite off d k : safe_write off d -> (forall r, keeps (k r)) -> keeps (pwrite_prog off d k).
Proof.
  intros Hs Hk pol h X fd' Hacc HI. rewrite run_body_pol_pwrite. destruct d as [|x d]; [now apply Hk|].
  set (dd := x :: d) in *.
  assert (Hw' : acc_writable (fd_acc fd') = true) by now rewrite Hacc.
  rewrite (io_pwrite fd' Hw').
  destruct (pol h (OPWrite off dd) X (Some fd')); apply Hk; auto.
  - rewrite <- (firstn_all dd). now apply tail_kept_write.
  - now apply tail_kept_write.
Qed.

Lemma keeps_trunc_old k : (forall r, keeps (k r)) -> keeps (Do (OFtruncate (length old)) k).
Proof.
  intros Hk pol h X fd' Hacc HI. cbn [run_body_pol].
  assert (Hw' : acc_writable (fd_acc fd') = true) by now rewrite Hacc.
  rewrite (io_ftruncate fd' Hw').
  destruct (pol h (OFtruncate (length old)) X (Some fd')); apply Hk; auto. now apply tail_kept_resize.
Qed.

(* the forward truncation: when it works the call succeeds; when it fails nothing changed *)
Lemma keeps_trunc_new n k : k ROk = Ret ResOk -> (forall r, keeps (k r)) -> keeps (Do (OFtruncate n) k).
Proof.
  intros Hok Hk pol h X fd' Hacc HI. cbn [run_body_pol].
  assert (Hw' : acc_writable (fd_acc fd') = true) by now rewrite Hacc.
  rewrite (io_ftruncate fd' Hw').
  destruct (pol h (OFtruncate n) X (Some fd')); [rewrite Hok; exact I| |]; apply Hk; auto.
Qed.

Lemma keeps_rollback : keeps (rollback old).
Proof.
  unfold rollback. apply keeps_pwrite; [right; right; auto|].
  intros []; try apply keeps_ret. apply keeps_trunc_old. intros _. apply keeps_ret.
Qed.

Lemma keeps_main : keeps (transform_main old new).
Proof.
  unfold transform_main. destruct (Nat.leb_spec (length old) (length new)) as [Hle|Hgt].
  - apply keeps_pwrite.
    + right. left. split; [reflexivity|]. rewrite firstn_length. lia.
    + intros []; try apply keeps_rollback. apply keeps_ret.
  - apply keeps_pwrite.
    + right. left. split; [reflexivity|lia].
    + intros []; try apply keeps_rollback.
      apply keeps_trunc_new; [reflexivity|]. intros []; try apply keeps_rollback. apply keeps_ret.
Qed.

Lemma keeps_write : keeps (transform_write old new).
Proof.
  unfold transform_write. destruct (length old <? length new); [|apply keeps_main].
  apply keeps_pwrite; [left; lia|].
  intros []; try apply keeps_main; (apply keeps_trunc_old; intros _; apply keeps_ret).
Qed.

End Keeps.

Lemma tail_kept_refl old new : tail_kept old new old.
Proof. split; auto. Qed.

End Writable.

Definition rwfd (fd : fdesc) : Prop :=
  acc_writable (fd_acc fd) = true /\ acc_readable (fd_acc fd) = true /\ fd_off fd = 0.

(* Under ANY fault policy: when Transform reports an error the file is at least as long as
   before, and every old byte beyond the length of the new contents is still in place. *)
Theorem transform_err_keeps_old_tail t old pol h fd :
  rwfd fd ->
  match run_body_pol (transform_body t) pol h old fd with
  | (ResErr, X, _) =>
      length old <= length X /\
      forall new, t old = Some new ->
        forall i, length new <= i -> i < length old -> nth i X x00 = nth i old x00
  | _ => True
  end.
Proof.
  intros [Hw [Hr Hoff]]. unfold transform_body. cbn [run_body_pol]. simpl io_step. rewrite Hr.
  destruct (pol h OReadAll old (Some fd)); try (simpl; split; [lia|auto]).
  rewrite Hoff. simpl skipn.
  destruct (t old) as [new|] eqn:Et; [|simpl; split; [lia|auto]].
  pose proof (keeps_write fd Hw old new pol ((OReadAll, RData old) :: h) old
                {| fd_acc := fd_acc fd; fd_off := Nat.max 0 (length old) |} eq_refl (tail_kept_refl old new)) as H.
  destruct (run_body_pol (transform_write old new) pol _ old _) as [[r X] fd'].
  destruct r; auto. destruct H as [Hl Hn]. split; [exact Hl|].
  intros new' [= <-]. exact Hn.
Qed.

Theorem transform_no_write_atomic t old pol h fd :
  rwfd fd -> writes_always_fail pol ->
  match run_body_pol (transform_body t) pol h old fd with
  | (r, X, _) => (r = ResOk /\ t old = Some X) \/ (r = ResErr /\ X = old)
  end.
Proof.
  intros [Hw [Hr Hoff]] Hwf. unfold transform_body. cbn [run_body_pol]. simpl io_step. rewrite Hr.
  destruct (pol h OReadAll old (Some fd)); try (simpl; now right).
  rewrite Hoff. simpl skipn. destruct (t old) as [new|] eqn:Et; [|simpl; now right].
  set (fd1 := {| fd_acc := fd_acc fd; fd_off := Nat.max 0 (length old) |}).
  assert (Hw1 : acc_writable (fd_acc fd1) = true) by exact Hw.
  set (h1 := (OReadAll, RData old) :: h).
  (* the rollback after nothing was written *)
  assert (Hrb : forall h2, run_body_pol (rollback old) pol h2 old fd1 = (ResErr, old, fd1)).
  { intros h2. unfold rollback. rewrite run_body_pol_pwrite. destruct old as [|x o'] eqn:Eo.
    - cbn [run_body_pol]. rewrite (io_ftruncate fd1 Hw1).
      destruct (pol h2 _ _ _); reflexivity.
    - rewrite (io_pwrite fd1 Hw1), Hwf. reflexivity. }
  assert (Hmain : match run_body_pol (transform_main old new) pol h1 old fd1 with
                  | (r, X, _) => length new <= length old ->
                      (r = ResOk /\ X = new) \/ (r = ResErr /\ X = old) end).
  { unfold transform_main. destruct (Nat.leb_spec (length old) (length new)) as [Hle|Hgt].
    - rewrite run_body_pol_pwrite. destruct (firstn (length old) new) as [|x hd] eqn:Eh.
      + simpl. intros Hl. left. split; [reflexivity|].
        assert (length old = 0) by (rewrite <- (firstn_length_le new Hle), Eh; reflexivity).
        destruct old; [|discriminate]. destruct new; [reflexivity|simpl in Hl; lia].
      + rewrite <- Eh. rewrite (io_pwrite fd1 Hw1), Hwf. rewrite Hrb. intros _. now right.
    - rewrite run_body_pol_pwrite. destruct new as [|x n'] eqn:En.
      + cbn [run_body_pol]. rewrite (io_ftruncate fd1 Hw1).
        destruct (pol h1 _ _ _); [simpl; intros _; left; split; reflexivity| |];
          rewrite Hrb; intros _; now right.
      + rewrite (io_pwrite fd1 Hw1), Hwf. rewrite Hrb. intros _. now right. }
  unfold transform_write. destruct (Nat.ltb_spec (length old) (length new)) as [Hlt|Hge].
  - rewrite run_body_pol_pwrite. destruct (skipn (length old) new) as [|x tl] eqn:Es.
    + now elim (skipn_nonnil _ _ Hlt).
    + rewrite <- Es. rewrite (io_pwrite fd1 Hw1), Hwf. cbn [run_body_pol].
      rewrite (io_ftruncate fd1 Hw1). destruct (pol _ _ _ _); simpl; right; split; auto.
      apply resize_self.
  - fold h1. destruct (run_body_pol (transform_main old new) pol h1 old fd1) as [[r X] fd'].
    destruct (Hmain Hge) as [[-> ->]|[-> ->]]; [left|right]; auto.
Qed.

Lemma firstn_firstn_old L (o n : bytes) :
  L <= length n -> L <= length o ->
  firstn L o ++ skipn L (firstn L n ++ skipn L o) = o.
Proof.
  intros H1 H2. rewrite skipn_app_exact by (rewrite firstn_length; lia). apply firstn_skipn.
Qed.

Theorem transform_limit_atomic t old L h fd :
  rwfd fd ->
  match run_body_pol (transform_body t) (limit_pol L) h old fd with
  | (r, X, _) => (r = ResOk /\ t old = Some X) \/ (r = ResErr /\ X = old)
  end.
Proof.
  intros [Hw [Hr Hoff]]. unfold transform_body. cbn [run_body_pol]. simpl io_step. rewrite Hr.
  change (limit_pol L h OReadAll old (Some fd)) with FNone. cbv iota.
  rewrite Hoff. simpl skipn. destruct (t old) as [new|] eqn:Et; [|simpl; now right].
  set (fd1 := {| fd_acc := fd_acc fd; fd_off := Nat.max 0 (length old) |}).
  assert (Hw1 : acc_writable (fd_acc fd1) = true) by exact Hw.
  (* a write of d at 0 over X under the limit *)
  assert (Hpw : forall h2 d X, d <> [] ->
            io_step (OPWrite 0 d) (limit_pol L h2 (OPWrite 0 d) X (Some fd1)) X fd1 =
            if length d <=? L then (ROk, d ++ skipn (length d) X, fd1)
            else (RErr, firstn L d ++ skipn L X, fd1)).
  { intros h2 d X Hd. rewrite (io_pwrite fd1 Hw1). unfold limit_pol. simpl plus.
    destruct (Nat.leb_spec (length d) L) as [Hle|Hgt].
    - now rewrite write_at_0.
    - rewrite Nat.sub_0_r, write_at_0, firstn_length. now replace (Nat.min L (length d)) with L by lia. }
  (* the rollback when the forward write was cut at L < length old, X agreeing with old from L on *)
  assert (Hrb : forall h2 X, L < length old -> skipn L X = skipn L old ->
            run_body_pol (rollback old) (limit_pol L) h2 X fd1 = (ResErr, old, fd1)).
  { intros h2 X HL HX. unfold rollback. rewrite run_body_pol_pwrite.
    destruct old as [|x o'] eqn:Eo; [simpl in HL; lia|]. rewrite <- Eo in *.
    rewrite Hpw by (rewrite Eo; discriminate).
    destruct (Nat.leb_spec (length old) L); [lia|]. rewrite HX, firstn_skipn. reflexivity. }
  unfold transform_write. destruct (Nat.ltb_spec (length old) (length new)) as [Hlt|Hge].
  - (* growing: the tail first *)
    rewrite run_body_pol_pwrite. destruct (skipn (length old) new) as [|x tl] eqn:Es.
    { now elim (skipn_nonnil _ _ Hlt). }
    rewrite <- Es. rewrite (io_pwrite fd1 Hw1). unfold limit_pol at 1.
    assert (Hsl : length (skipn (length old) new) = length new - length old) by apply skipn_length.
    rewrite Hsl. destruct (Nat.leb_spec (length old + (length new - length old)) L) as [Hfit|Hcut].
    + (* everything fits below the limit: no fault anywhere *)
      rewrite write_at_end. unfold transform_main.
      destruct (Nat.leb_spec (length old) (length new)) as [_|]; [|lia].
      rewrite run_body_pol_pwrite. destruct (firstn (length old) new) as [|y hd] eqn:Eh.
      * simpl. left. split; [reflexivity|].
        assert (length old = 0) by (rewrite <- (firstn_length_le new (Nat.lt_le_incl _ _ Hlt)), Eh; reflexivity).
        destruct old; [|discriminate]. simpl. reflexivity.
      * rewrite <- Eh. rewrite Hpw by (rewrite Eh; discriminate).
        assert (Hfl : length (firstn (length old) new) = length old) by (apply firstn_length_le; lia).
        rewrite Hfl. destruct (Nat.leb_spec (length old) L); [|lia].
        simpl. left. split; [reflexivity|]. rewrite skipn_app_exact by reflexivity.
        now rewrite firstn_skipn.
    + (* the tail write is cut: remove the incomplete tail *)
      rewrite write_at_end. cbn [run_body_pol]. rewrite (io_ftruncate fd1 Hw1).
      unfold limit_pol. rewrite app_length.
      replace (length old <=? length old + length (firstn (L - length old) (skipn (length old) new)))
        with true by (symmetry; apply Nat.leb_le; lia).
      simpl orb. simpl. right. split; [reflexivity|]. apply resize_app.
  - (* not growing *)
    unfold transform_main. destruct (Nat.leb_spec (length old) (length new)) as [Hle|Hgt].
    + assert (Heq : length old = length new) by lia.
      rewrite run_body_pol_pwrite. rewrite Heq, firstn_all.
      destruct new as [|y n'] eqn:En.
      * simpl. left. split; [reflexivity|]. destruct old; [reflexivity|discriminate].
      * rewrite <- En in *. rewrite Hpw by (rewrite En; discriminate).
        destruct (Nat.leb_spec (length new) L) as [Hfit|Hcut].
        -- simpl. left. split; [reflexivity|]. rewrite <- Heq, skipn_all. now rewrite app_nil_r.
        -- rewrite Hrb; [now right|lia|]. rewrite skipn_app_exact by (rewrite firstn_length; lia).
           reflexivity.
    + rewrite run_body_pol_pwrite. destruct new as [|y n'] eqn:En.
      * cbn [run_body_pol]. rewrite (io_ftruncate fd1 Hw1). unfold limit_pol. simpl. left. split; reflexivity.
      * rewrite <- En in *. rewrite Hpw by (rewrite En; discriminate).
        destruct (Nat.leb_spec (length new) L) as [Hfit|Hcut].
        -- cbn [run_body_pol]. rewrite (io_ftruncate fd1 Hw1). unfold limit_pol at 1.
           rewrite app_length, skipn_length.
           replace (length new <=? length new + (length old - length new)) with true
             by (symmetry; apply Nat.leb_le; lia).
           simpl orb. simpl. left. split; [reflexivity|]. now rewrite resize_app.
        -- rewrite Hrb; [now right|lia|]. rewrite skipn_app_exact by (rewrite firstn_length; lia).
           reflexivity.
Qed.

Theorem transform_publishes_any_result t old new h fd :
  rwfd fd -> t old = Some new ->
  match run_body_pol (transform_body t) no_fault_pol h old fd with
  | (r, X, _) => r = ResOk /\ X = new
  end.
Proof.
  intros Hfd Ht.
  (* the fault-free policy is the fault-free plan *)
  destruct Hfd as [Hw [Hr Hoff]].
  assert (E : run_body_pol (transform_body t) no_fault_pol h old fd =
              run_body (transform_body t) no_faults (length h) old fd).
  { rewrite <- run_body_pol_plan. apply run_body_pol_ext. intros a b c d. unfold no_fault_pol, pol_of_plan, no_faults. now destruct (is_io b). }
  rewrite E, run_body_index. exact (transform_ok t old new fd Hw Hr Hoff Ht).
Qed.

(* the tail of a growing Transform is written, then every write fails (the rollback's too):
   an error is reported and the file holds neither the old nor the new contents *)
Example transform_persistent_not_atomic :
  exists t old pol, rwfd (fresh_fd edit_flags) /\
    match run_body_pol (transform_body t) pol [] old (fresh_fd edit_flags) with
    | (r, X, _) => r = ResErr /\ X <> old /\ t old <> Some X /\
                   X = old ++ [x7a; x77]
    end.
Proof.
  exists (fun _ => Some [x78; x79; x7a; x77]), [x61; x62],
         (class_pol (fun k => match k with KWrite => {| cs_first := 2; cs_all := true |} | _ => cs_never end)).
  split; [repeat split|]. vm_compute. repeat split; discriminate.
Qed.

(* non-vacuity of the limit theorem: a shrinking Transform cut by the limit restores the old
   contents although its rollback write fails as well *)
Example transform_limit_shrink_rolls_back :
  run_body_pol (transform_body (fun _ => Some [x51; x52; x53; x54])) (limit_pol 2) []
               [x61; x62; x63; x64; x65; x66] (fresh_fd edit_flags)
  = (ResErr, [x61; x62; x63; x64; x65; x66], {| fd_acc := 2; fd_off := 6 |}).
Proof. vm_compute. reflexivity. Qed.

Example transform_publishes_empty_result :
  run_body_pol (transform_body (fun _ => Some [])) no_fault_pol [] [x61; x62; x63] (fresh_fd edit_flags)
  = (ResOk, [], {| fd_acc := 2; fd_off := 3 |}).
Proof. vm_compute. reflexivity. Qed.
