(* lockedfile (C06): one invariant (hinv) ties the File values of a process to its descriptors and
   flock-table entries; every event preserves it; held until Close, released by Close, exclusion,
   the prober's view and the Mutex cycle are read off it. *)
From Coq Require Import List NArith Arith Bool Lia.
From Coq.Strings Require Import Byte.
From GI Require Import Gen.LockedFileConsts LockedFile.LockedFile LockedFile.LockBasics LockedFile.LockProofs.
From GI Require Import LockedFile.Handles.
Import ListNotations.

Definition frame (i c : nat) (s s' : os) : Prop :=
  (forall d, d <> c -> fds s' d = fds s d) /\
  (forall d j, d <> c -> locked d (ltab s' j) = locked d (ltab s j)) /\
  (forall j, ltab_ok (ltab s j) -> ltab_ok (ltab s' j)) /\
  refs s' = refs s /\
  (forall j, j <> i -> ltab s' j = ltab s j).

Lemma frame_refl i c s : frame i c s s.
Proof. unfold frame. split; [|split; [|split; [|split]]]; intros; auto. Qed.

Lemma frame_trans i c s1 s2 s3 : frame i c s1 s2 -> frame i c s2 s3 -> frame i c s1 s3.
Proof.
  intros (A1 & B1 & C1 & D1 & E1) (A2 & B2 & C2 & D2 & E2). split; [|split; [|split; [|split]]].
  - intros d Hd. now rewrite A2, A1.
  - intros d j Hd. now rewrite B2, B1.
  - auto.
  - now rewrite D2.
  - intros j Hj. now rewrite E2, E1.
Qed.

Lemma os_step_frame i c o flt e s r s' :
  os_step i c o flt e s = Some (r, s') -> frame i c s s'.
Proof.
  intros H. split; [|split; [|split; [|split]]].
  - intros d Hd. eapply os_step_fds_other; eassumption.
  - intros d j Hd. destruct (Nat.eq_dec j i) as [->|Hj].
    + eapply os_step_locked_other; eassumption.
    + now rewrite (os_step_ltab_other_inode _ _ _ _ _ _ _ _ j H Hj).
  - intros j Hok. destruct (Nat.eq_dec j i) as [->|Hj].
    + eapply os_step_ltab_ok; eassumption.
    + now rewrite (os_step_ltab_other_inode _ _ _ _ _ _ _ _ j H Hj).
  - eapply os_step_refs; eassumption.
  - intros j Hj. eapply os_step_ltab_other_inode; eassumption.
Qed.

Lemma run_seq_frame i c p : forall plan n s tr out s',
  run_seq i c p plan n s = (tr, out, s') -> frame i c s s'.
Proof.
  induction p as [r|o k IH|o k IH]; intros plan n s tr out s' H; cbn [run_seq] in H.
  - injection H as <- <- <-. apply frame_refl.
  - destruct (os_step i c o (plan n) false s) as [[r s1]|] eqn:Hs.
    + destruct (run_seq i c (k r) plan (S n) s1) as [[tr1 out1] s2] eqn:Hr.
      injection H as <- <- <-.
      eapply frame_trans; [eapply os_step_frame; eassumption|eapply IH; eassumption].
    + injection H as <- <- <-. apply frame_refl.
  - destruct (os_step i c o (plan n) false s) as [[r s1]|] eqn:Hs.
    + destruct r; try (injection H as <- <- <-; apply frame_refl);
      (destruct (run_seq i c (k _) plan (S n) s1) as [[tr1 out1] s2] eqn:Hr;
       injection H as <- <- <-;
       eapply frame_trans; [eapply os_step_frame; eassumption|eapply IH; eassumption]).
    + injection H as <- <- <-. apply frame_refl.
Qed.

Lemma kind_of_mode fl k : lock_mode_of_flags fl = Some k -> kind_of fl = k.
Proof. unfold kind_of. now intros ->. Qed.

(* closeFile (unlock_first = closefile_unlock_first) and the error path of openFile after a failed
   Truncate (truncate_failure_unlocks_first), read from the outcome of the run *)
Lemma unlock_close_run (unlock_first : bool) i c k s tr out s' x :
  isopen (fds s c) = true -> refs s c = 0 ->
  run_seq i c (if unlock_first
               then Do (OFlock filelock_unlock_arg) (fun _ => Do OClose (fun _ => Ret x))
               else Do OClose (fun _ => Do (OFlock filelock_unlock_arg) (fun _ => Ret x))) no_faults k s
  = (tr, out, s') ->
  out = Finished x /\ fds s' c = None /\ locked c (ltab s' i) = None /\ files s' = files s.
Proof.
  intros Ho Hr H.
  destruct (unlock_close_seq unlock_first i c x no_faults k s Ho Hr) as (tr1 & s1 & E & Hf & Hd & _ & Hl & _).
  rewrite E in H. injection H as <- <- <-. now rewrite Hd, Hl, upd_same, locked_drop_same.
Qed.

Definition kret : bool -> prog := fun ok => Ret (if ok then ResOk else ResErr).

(* the truncate stage, entered with the descriptor open and the lock l *)
Lemma trunc_stage_seq i c fl k s tr out s' l :
  isopen (fds s c) = true -> refs s c = 0 -> locked c (ltab s i) = Some l ->
  run_seq i c (trunc_stage fl kret) no_faults k s = (tr, out, s') ->
  (out = Finished ResOk /\ isopen (fds s' c) = true /\ locked c (ltab s' i) = Some l) \/
  (out = Finished ResErr /\ fds s' c = None /\ locked c (ltab s' i) = None).
Proof.
  intros Ho Hr Hl H. unfold trunc_stage in H. destruct (has_flag fl truncate_cond_mask).
  - cbn [run_seq] in H.
    destruct (os_io i c (OFtruncate (N.to_nat truncate_size)) s false (no_faults k) eq_refl Ho)
      as [r [s1 [Hs [Ho1 Hl1]]]].
    rewrite Hs in H.
    assert (Hr1 : refs s1 c = 0) by (now rewrite (os_step_refs _ _ _ _ _ _ _ _ Hs)).
    destruct r;
      [cbn [run_seq kret] in H; injection H as <- <- <-; left; rewrite Hl1; auto
      |(destruct (run_seq i c (trunc_fail_prog (kret false)) no_faults (S k) s1) as [[tr1 out1] s2] eqn:Hf;
        injection H as <- <- <-; right;
        destruct (unlock_close_run truncate_failure_unlocks_first _ _ _ _ _ _ _ _ Ho1 Hr1 Hf) as (A & B & C & _);
        auto) ..].
  - cbn [run_seq kret] in H. injection H as <- <- <-. left. auto.
Qed.

Lemma open_only_seq i c fl s tr out s' :
  fds s c = None -> locked c (ltab s i) = None -> refs s c = 0 ->
  run_seq i c (open_only fl) no_faults 0 s = (tr, out, s') ->
  match out with
  | Finished ResOk => isopen (fds s' c) = true /\ locked c (ltab s' i) = Some (kind_of fl)
  | Finished _ => fds s' c = None /\ locked c (ltab s' i) = None
  | Blocked => True
  end.
Proof.
  intros Hf Hl Hr H. unfold open_only, open_file_prog in H. cbn [run_seq] in H.
  destruct (os_step i c (OOpen (strip fl openfile_strip_mask)) (no_faults 0) false s) as [[r s1]|] eqn:Hs;
    [|injection H as <- <- <-; exact I].
  assert (Hr1 : refs s1 c = 0) by (now rewrite (os_step_refs _ _ _ _ _ _ _ _ Hs)).
  apply os_open_result in Hs; [|now rewrite Hf].
  destruct Hs as [(-> & Ho1 & Hlt & _)|(-> & ->)].
  2:{ cbn [run_seq] in H. injection H as <- <- <-. auto. }
  unfold truncate_after_lock, lock_stage, flock_step, lock_retries_eintr in H. cbn [run_seq] in H.
  destruct (lock_mode_total fl) as [k [Hm Hreq]].
  rewrite (os_flock_req i c _ k s1 false _ Hreq Ho1) in H.
  destruct (negb (lockable (fds s1 c))).
  - (* flock refused: close, return the error *)
    cbn [run_seq] in H. rewrite (os_close i c s1 false _ Ho1) in H. rewrite Hr1 in H.
    cbn [run_seq] in H. injection H as <- <- <-. simpl. rewrite !upd_same. split; auto.
    apply locked_drop_same.
  - destruct (can_grant k c (ltab s1 i)); [|injection H as <- <- <-; exact I].
    set (s2 := {| files := files s1; fds := fds s1; refs := refs s1;
                  ltab := upd (ltab s1) i ((c, k) :: drop c (ltab s1 i)) |}) in *.
    destruct (run_seq i c (trunc_stage fl (fun ok : bool => Ret (if ok then ResOk else ResErr))) no_faults 2 s2)
      as [[tr2 out2] s3] eqn:Ht.
    injection H as <- <- <-.
    assert (Ho2 : isopen (fds s2 c) = true) by exact Ho1.
    assert (Hr2 : refs s2 c = 0) by exact Hr1.
    assert (Hl2 : locked c (ltab s2 i) = Some k) by (apply locked_upd_grant).
    destruct (trunc_stage_seq i c fl 2 s2 tr2 out2 s3 k Ho2 Hr2 Hl2 Ht) as [(-> & A & B)|(-> & A & B)].
    + rewrite (kind_of_mode _ _ Hm). auto.
    + auto.
Qed.

Lemma upd_nth_length {A} (g : A -> A) l : forall n, length (upd_nth n g l) = length l.
Proof. induction l as [|x r IH]; intros [|n]; simpl; auto. Qed.

Lemma upd_nth_same {A} (g : A -> A) l : forall n, nth_error (upd_nth n g l) n = option_map g (nth_error l n).
Proof. induction l as [|x r IH]; intros [|n]; simpl; auto. Qed.

Lemma upd_nth_other {A} (g : A -> A) l : forall n m, m <> n -> nth_error (upd_nth n g l) m = nth_error l m.
Proof.
  induction l as [|x r IH]; intros [|n] [|m] Hm; simpl; auto; try congruence.
Qed.

Lemma nth_error_snoc {A} (l : list A) x h :
  nth_error (l ++ [x]) h = if h <? length l then nth_error l h else if h =? length l then Some x else None.
Proof.
  destruct (Nat.ltb_spec h (length l)) as [Hlt|Hge].
  - now apply nth_error_app1.
  - rewrite nth_error_app2 by assumption. destruct (Nat.eqb_spec h (length l)) as [->|Hne].
    + now rewrite Nat.sub_diag.
    + destruct (h - length l) as [|k] eqn:Hk; [lia|]. simpl. now destruct k.
Qed.

Record hinv4 (o : os) (fl : list hfile) (fr : list nat) (nx : nat) : Prop := {
  iv_refs : forall c, refs o c = 0;
  iv_ltab : forall j, ltab_ok (ltab o j);
  iv_free : forall x, In x fr -> x < nx;
  iv_free_nd : NoDup fr;
  iv_open : forall h f, nth_error fl h = Some f -> open_handle f = true ->
      isopen (fds o (hf_fd f)) = true /\ hf_fd f < nx /\ ~ In (hf_fd f) fr /\
      locked (hf_fd f) (ltab o (hf_ino f)) = Some (hf_kind f);
  iv_distinct : forall h1 h2 f1 f2, nth_error fl h1 = Some f1 -> nth_error fl h2 = Some f2 ->
      open_handle f1 = true -> open_handle f2 = true -> hf_fd f1 = hf_fd f2 -> h1 = h2;
  iv_fd_owned : forall c, isopen (fds o c) = true ->
      exists h f, nth_error fl h = Some f /\ open_handle f = true /\ hf_fd f = c;
  iv_lock_owned : forall j c, locked c (ltab o j) <> None ->
      exists h f, nth_error fl h = Some f /\ open_handle f = true /\ hf_fd f = c /\ hf_ino f = j;
  iv_nok : forall h f, nth_error fl h = Some f -> hf_ok f = false -> hf_closed f = true
}.

Definition hinv (s : hstate) : Prop := hinv4 (h_os s) (h_files s) (h_free s) (h_next s).

Lemma hinv_init f : hinv (hinit f).
Proof.
  constructor; simpl.
  - reflexivity.
  - intros j. apply ltab_ok_nil.
  - intros x [].
  - constructor.
  - intros h g Hg. destruct h; discriminate Hg.
  - intros h1 h2 g1 g2 Hg. destruct h1; discriminate Hg.
  - intros c Hc. discriminate Hc.
  - intros j c Hc. now elim Hc.
  - intros h g Hg. destruct h; discriminate Hg.
Qed.

(* the number the next open gets is not in use *)
Lemma alloc_unused s : hinv s ->
  fds (h_os s) (alloc s) = None /\ (forall j, locked (alloc s) (ltab (h_os s) j) = None) /\
  (forall h f, nth_error (h_files s) h = Some f -> open_handle f = true -> hf_fd f <> alloc s).
Proof.
  intros I.
  assert (Hno : forall h f, nth_error (h_files s) h = Some f -> open_handle f = true -> hf_fd f <> alloc s).
  { intros h f Hg Ho He. destruct (iv_open _ _ _ _ I h f Hg Ho) as (_ & Hlt & Hni & _).
    unfold alloc in He. destruct (h_free s) as [|x r]; [lia|]. apply Hni. left. congruence. }
  split; [|split]; auto.
  - destruct (fds (h_os s) (alloc s)) eqn:E; [|reflexivity]. exfalso.
    destruct (iv_fd_owned _ _ _ _ I (alloc s)) as (h & g & Hg & Ho & He); [now rewrite E|].
    eapply Hno; eassumption.
  - intros j. destruct (locked (alloc s) (ltab (h_os s) j)) eqn:E; [|reflexivity]. exfalso.
    destruct (iv_lock_owned _ _ _ _ I j (alloc s)) as (h & g & Hg & Ho & He & _); [now rewrite E|].
    eapply Hno; eassumption.
Qed.

Lemma nth_error_snoc_old {A} (l : list A) x h f :
  nth_error l h = Some f -> nth_error (l ++ [x]) h = Some f.
Proof.
  intros H. rewrite nth_error_app1; [exact H|]. apply nth_error_Some. congruence.
Qed.

Lemma nth_error_snoc_inv {A} (l : list A) x h f :
  nth_error (l ++ [x]) h = Some f -> nth_error l h = Some f \/ (h = length l /\ f = x).
Proof.
  rewrite nth_error_snoc. destruct (h <? length l); [auto|].
  destruct (Nat.eqb_spec h (length l)); [|discriminate]. intros [= <-]. auto.
Qed.

Lemma nth_error_snoc_new {A} (l : list A) x : nth_error (l ++ [x]) (length l) = Some x.
Proof. rewrite nth_error_snoc, Nat.ltb_irrefl, Nat.eqb_refl. reflexivity. Qed.

Lemma alloc_lt_next s : hinv s -> alloc s < next_after_alloc s.
Proof.
  intros I. unfold alloc, next_after_alloc. destruct (h_free s) as [|x r] eqn:E; [lia|].
  apply (iv_free _ _ _ _ I). rewrite E. now left.
Qed.

Lemma next_mono s : h_next s <= next_after_alloc s.
Proof. unfold next_after_alloc. destruct (h_free s); lia. Qed.

Lemma free_after_sub s x : In x (free_after_alloc s) -> In x (h_free s).
Proof. unfold free_after_alloc. destruct (h_free s); [tauto|now right]. Qed.

Lemma alloc_not_in_rest s : hinv s -> ~ In (alloc s) (free_after_alloc s).
Proof.
  intros I. pose proof (iv_free_nd _ _ _ _ I) as Hnd. unfold alloc, free_after_alloc.
  destruct (h_free s) as [|x r]; [tauto|]. now inversion Hnd.
Qed.

Lemma free_after_nd s : hinv s -> NoDup (free_after_alloc s).
Proof.
  intros I. pose proof (iv_free_nd _ _ _ _ I) as Hnd. unfold free_after_alloc.
  destruct (h_free s) as [|x r]; [constructor|]. now inversion Hnd.
Qed.

Lemma hinv_open i fl mx s : hinv s -> hinv (h_open i fl mx s).
Proof.
  intros I. unfold h_open.
  destruct (run_seq i (alloc s) (open_only fl) no_faults 0 (h_os s)) as [[tr out] o'] eqn:Hrun.
  destruct (alloc_unused s I) as (Hfd & Hlk & Hno).
  pose proof (run_seq_frame _ _ _ _ _ _ _ _ _ Hrun) as (FA & FB & FC & FD & FE).
  pose proof (open_only_seq i (alloc s) fl _ _ _ _ Hfd (Hlk i) (iv_refs _ _ _ _ I (alloc s)) Hrun) as Hres.
  set (c := alloc s) in *.
  destruct out as [r|]; [|exact I].
  (* a File nf is appended whose descriptor, if it is open, is c on inode i; free list fr', next nx' *)
  assert (Hgen : forall nf fr' nx',
            (forall x, In x fr' -> In x (h_free s)) -> NoDup fr' -> h_next s <= nx' ->
            (open_handle nf = true ->
               hf_fd nf = c /\ hf_ino nf = i /\ isopen (fds o' c) = true /\ c < nx' /\ ~ In c fr' /\
               locked c (ltab o' i) = Some (hf_kind nf)) ->
            (open_handle nf = false -> fds o' c = None /\ locked c (ltab o' i) = None) ->
            (hf_ok nf = false -> hf_closed nf = true) ->
            hinv4 o' (h_files s ++ [nf]) fr' nx').
  { intros nf fr' nx' Hsub Hnd Hnx Hop Hcl Hnok.
    assert (Hold : forall h f, nth_error (h_files s) h = Some f -> open_handle f = true ->
              isopen (fds o' (hf_fd f)) = true /\ hf_fd f < nx' /\ ~ In (hf_fd f) fr' /\
              locked (hf_fd f) (ltab o' (hf_ino f)) = Some (hf_kind f) /\ hf_fd f <> c).
    { intros h f Hg Ho. destruct (iv_open _ _ _ _ I h f Hg Ho) as (A & B & C & D).
      pose proof (Hno h f Hg Ho) as Hne. rewrite (FA _ Hne), (FB _ _ Hne).
      repeat split; auto. lia. }
    assert (Hnew : forall d, d = c -> (isopen (fds o' d) = true \/ locked d (ltab o' i) <> None) ->
              open_handle nf = true /\ nth_error (h_files s ++ [nf]) (length (h_files s)) = Some nf).
    { intros d -> Hd. split; [|apply nth_error_snoc_new].
      destruct (open_handle nf) eqn:E; [reflexivity|]. destruct (Hcl eq_refl) as [E1 E2].
      rewrite E1, E2 in Hd. destruct Hd as [Hd|Hd]; [discriminate Hd|now elim Hd]. }
    constructor.
    - intros d. rewrite FD. apply (iv_refs _ _ _ _ I).
    - intros j. apply FC, (iv_ltab _ _ _ _ I).
    - intros x Hx. pose proof (iv_free _ _ _ _ I x (Hsub x Hx)). lia.
    - exact Hnd.
    - intros h f Hg Ho. apply nth_error_snoc_inv in Hg. destruct Hg as [Hg|[_ ->]].
      + destruct (Hold h f Hg Ho) as (A & B & C & D & _). auto.
      + destruct (Hop Ho) as (-> & -> & A & B & C & D). auto.
    - intros h1 h2 f1 f2 H1 H2 O1 O2 E. apply nth_error_snoc_inv in H1, H2.
      destruct H1 as [H1|[-> ->]], H2 as [H2|[-> ->]]; auto.
      + eapply (iv_distinct _ _ _ _ I); eassumption.
      + exfalso. destruct (Hold h1 f1 H1 O1) as (_ & _ & _ & _ & Hne). destruct (Hop O2) as [E2 _]. congruence.
      + exfalso. destruct (Hold h2 f2 H2 O2) as (_ & _ & _ & _ & Hne). destruct (Hop O1) as [E1 _]. congruence.
    - intros d Hd. destruct (Nat.eq_dec d c) as [Hdc|Hne].
      + destruct (Hnew d Hdc (or_introl Hd)) as [O G]. exists (length (h_files s)), nf.
        destruct (Hop O) as [E _]. split; [exact G|]. split; [exact O|congruence].
      + rewrite (FA _ Hne) in Hd. destruct (iv_fd_owned _ _ _ _ I d Hd) as (h & f & Hg & Ho & He).
        exists h, f. split; [now apply nth_error_snoc_old|auto].
    - intros j d Hd. destruct (Nat.eq_dec d c) as [Hdc|Hne].
      + destruct (Nat.eq_dec j i) as [->|Hj];
          [|exfalso; apply Hd; subst d; rewrite (FE _ Hj); apply Hlk].
        destruct (Hnew d Hdc (or_intror Hd)) as [O G]. exists (length (h_files s)), nf.
        destruct (Hop O) as (E1 & E2 & _). split; [exact G|]. split; [exact O|]. split; congruence.
      + rewrite (FB _ _ Hne) in Hd. destruct (iv_lock_owned _ _ _ _ I j d Hd) as (h & f & Hg & Ho & He).
        exists h, f. split; [now apply nth_error_snoc_old|auto].
    - intros h f Hg Hn. apply nth_error_snoc_inv in Hg. destruct Hg as [Hg|[_ ->]]; [|now apply Hnok].
      eapply (iv_nok _ _ _ _ I); eassumption. }
  assert (Herr : fds o' c = None /\ locked c (ltab o' i) = None ->
            forall nf, open_handle nf = false -> hf_closed nf = true ->
            hinv4 o' (h_files s ++ [nf]) (h_free s) (h_next s)).
  { intros Hc nf Hnf Hnc. apply Hgen; auto; [apply (iv_free_nd _ _ _ _ I)|congruence]. }
  destruct r as [| |b0]; [|now apply Herr ..].
  (* a File is returned *)
  destruct Hres as [Hop Hlk'].
  apply Hgen; simpl; try discriminate.
  - apply free_after_sub.
  - now apply free_after_nd.
  - apply next_mono.
  - intros _. repeat split; auto. + now apply alloc_lt_next. + now apply alloc_not_in_rest.
Qed.

Lemma set_closed_not_open f : open_handle (set_closed f) = false.
Proof. unfold open_handle, set_closed. simpl. apply andb_false_r. Qed.

Lemma closed_get l h h' f' :
  nth_error (upd_nth h set_closed l) h' = Some f' -> open_handle f' = true ->
  h' <> h /\ nth_error l h' = Some f'.
Proof.
  intros Hg Ho. destruct (Nat.eq_dec h' h) as [->|Hne].
  - rewrite upd_nth_same in Hg. destruct (nth_error l h); [|discriminate]. simpl in Hg.
    injection Hg as <-. now rewrite set_closed_not_open in Ho.
  - split; [exact Hne|]. now rewrite upd_nth_other in Hg.
Qed.

Lemma hinv_closefile h f s :
  hinv s -> nth_error (h_files s) h = Some f -> open_handle f = true -> hinv (h_closefile h f s).
Proof.
  intros I Hg Ho. unfold h_closefile.
  destruct (run_seq (hf_ino f) (hf_fd f) close_only no_faults 0 (h_os s)) as [[tr out] o'] eqn:Hrun.
  destruct (iv_open _ _ _ _ I h f Hg Ho) as (Hop & Hlt & Hni & Hlk).
  pose proof (run_seq_frame _ _ _ _ _ _ _ _ _ Hrun) as (FA & FB & FC & FD & FE).
  destruct (unlock_close_run closefile_unlock_first _ _ _ _ _ _ _ _ Hop (iv_refs _ _ _ _ I _) Hrun)
    as (_ & Hc & Hl & _).
  set (c := hf_fd f) in *. set (i := hf_ino f) in *.
  assert (Hother : forall h' f', nth_error (upd_nth h set_closed (h_files s)) h' = Some f' ->
            open_handle f' = true -> h' <> h /\ nth_error (h_files s) h' = Some f' /\ hf_fd f' <> c).
  { intros h' f' Hg' Ho'. destruct (closed_get _ _ _ _ Hg' Ho') as [Hne Hg2]. repeat split; auto.
    intros He. apply Hne. eapply (iv_distinct _ _ _ _ I); eassumption. }
  constructor; simpl.
  - intros d. rewrite FD. apply (iv_refs _ _ _ _ I).
  - intros j. apply FC, (iv_ltab _ _ _ _ I).
  - intros x [<-|Hx]; [exact Hlt|]. now apply (iv_free _ _ _ _ I).
  - constructor; [exact Hni|apply (iv_free_nd _ _ _ _ I)].
  - intros h' f' Hg' Ho'. destruct (Hother h' f' Hg' Ho') as (Hne & Hg2 & Hfd).
    destruct (iv_open _ _ _ _ I h' f' Hg2 Ho') as (A & B & C & D).
    rewrite (FA _ Hfd), (FB _ _ Hfd). repeat split; auto. intros [E|E]; [now apply Hfd|now apply C].
  - intros h1 h2 f1 f2 H1 H2 O1 O2 E.
    destruct (Hother h1 f1 H1 O1) as (_ & G1 & _). destruct (Hother h2 f2 H2 O2) as (_ & G2 & _).
    eapply (iv_distinct _ _ _ _ I); eassumption.
  - intros d Hd. destruct (Nat.eq_dec d c) as [->|Hne]; [rewrite Hc in Hd; discriminate|].
    rewrite (FA _ Hne) in Hd. destruct (iv_fd_owned _ _ _ _ I d Hd) as (h0 & f0 & G0 & O0 & E0).
    exists h0, f0. split; [|auto]. rewrite upd_nth_other; [exact G0|].
    intros ->. rewrite Hg in G0. injection G0 as <-. now apply Hne.
  - intros j d Hd.
    assert (Hown : locked d (ltab (h_os s) j) <> None /\ (d = c -> j <> i)).
    { destruct (Nat.eq_dec d c) as [->|Hne].
      - destruct (Nat.eq_dec j i) as [->|Hj]; [now elim Hd|]. rewrite (FE _ Hj) in Hd. auto.
      - rewrite (FB _ _ Hne) in Hd. split; [exact Hd|contradiction]. }
    destruct Hown as [Hd0 Hci].
    destruct (iv_lock_owned _ _ _ _ I j d Hd0) as (h0 & f0 & G0 & O0 & E0 & J0).
    exists h0, f0. split; [|auto]. rewrite upd_nth_other; [exact G0|].
    intros ->. rewrite Hg in G0. injection G0 as <-. apply (Hci (eq_sym E0)). symmetry. exact J0.
  - intros h' f' Hg' Hnok. destruct (Nat.eq_dec h' h) as [->|Hne].
    + rewrite upd_nth_same, Hg in Hg'. injection Hg' as <-. reflexivity.
    + rewrite upd_nth_other in Hg' by assumption. eapply (iv_nok _ _ _ _ I); eassumption.
Qed.

Lemma hinv_close h s : hinv s -> hinv (h_close h s).
Proof.
  intros I. unfold h_close. destruct (nth_error (h_files s) h) as [f|] eqn:Hg; [|exact I].
  unfold close_checks_closed_first. destruct (hf_closed f) eqn:Hcl; [exact I|].
  apply hinv_closefile; auto. unfold open_handle. rewrite Hcl.
  destruct (hf_ok f) eqn:Hok; [reflexivity|].
  rewrite (iv_nok _ _ _ _ I h f Hg Hok) in Hcl. discriminate.
Qed.

Lemma hinv_user_close h s : hinv s -> hinv (h_user_close h s).
Proof.
  intros I. unfold h_user_close. destruct (nth_error (h_files s) h) as [f|]; [|exact I].
  destruct (hf_mutex f); [exact I|now apply hinv_close].
Qed.

(* the invariant sees of a File only: inode, descriptor, kind, ok, closed *)
Definition core (f : hfile) := (hf_ino f, hf_fd f, hf_kind f, hf_ok f, hf_closed f).

Lemma core_open f g : core f = core g -> open_handle f = open_handle g.
Proof. unfold core, open_handle. intros [= _ _ _ -> ->]. reflexivity. Qed.

Lemma hinv4_ext o fl fl' fr nx :
  (forall h, option_map core (nth_error fl' h) = option_map core (nth_error fl h)) ->
  hinv4 o fl fr nx -> hinv4 o fl' fr nx.
Proof.
  intros E I.
  assert (Fwd : forall h f', nth_error fl' h = Some f' -> exists f, nth_error fl h = Some f /\ core f = core f').
  { intros h f' Hg. specialize (E h). rewrite Hg in E. destruct (nth_error fl h) as [f|]; [|discriminate].
    exists f. split; [reflexivity|]. simpl in E. congruence. }
  assert (Bwd : forall h f, nth_error fl h = Some f -> exists f', nth_error fl' h = Some f' /\ core f = core f').
  { intros h f Hg. specialize (E h). rewrite Hg in E. destruct (nth_error fl' h) as [f'|]; [|discriminate].
    exists f'. split; [reflexivity|]. simpl in E. congruence. }
  constructor.
  - apply (iv_refs _ _ _ _ I).
  - apply (iv_ltab _ _ _ _ I).
  - apply (iv_free _ _ _ _ I).
  - apply (iv_free_nd _ _ _ _ I).
  - intros h f' Hg Ho. destruct (Fwd h f' Hg) as (f & G & C). rewrite <- (core_open _ _ C) in Ho.
    pose proof (iv_open _ _ _ _ I h f G Ho) as P. unfold core in C. injection C as <- <- <- _ _. exact P.
  - intros h1 h2 f1 f2 H1 H2 O1 O2 Efd.
    destruct (Fwd h1 f1 H1) as (g1 & G1 & C1). destruct (Fwd h2 f2 H2) as (g2 & G2 & C2).
    rewrite <- (core_open _ _ C1) in O1. rewrite <- (core_open _ _ C2) in O2.
    apply (iv_distinct _ _ _ _ I h1 h2 g1 g2 G1 G2 O1 O2).
    unfold core in C1, C2. injection C1 as _ -> _ _ _. injection C2 as _ -> _ _ _. exact Efd.
  - intros c Hc. destruct (iv_fd_owned _ _ _ _ I c Hc) as (h & f & G & O & Efd).
    destruct (Bwd h f G) as (f' & G' & C). exists h, f'. rewrite <- (core_open _ _ C).
    unfold core in C. injection C as _ <- _ _ _. auto.
  - intros j c Hc. destruct (iv_lock_owned _ _ _ _ I j c Hc) as (h & f & G & O & Efd & Ei).
    destruct (Bwd h f G) as (f' & G' & C). exists h, f'. rewrite <- (core_open _ _ C).
    unfold core in C. injection C as <- <- _ _ _. auto.
  - intros h f' Hg Hnok. destruct (Fwd h f' Hg) as (f & G & C).
    unfold core in C. injection C as _ _ _ Eok Ecl. rewrite <- Ecl. apply (iv_nok _ _ _ _ I h f G). congruence.
Qed.

Lemma hinv_drop h s : hinv s -> hinv (h_drop h s).
Proof.
  intros I. unfold hinv, h_drop. simpl. apply (hinv4_ext _ (h_files s)); [|exact I].
  intros h'. destruct (Nat.eq_dec h' h) as [->|Hne].
  - rewrite upd_nth_same. destruct (nth_error (h_files s) h); reflexivity.
  - now rewrite upd_nth_other.
Qed.

Lemma hinv_gc s : hinv s -> hinv (h_gc s).
Proof. intros I. unfold h_gc. destruct (existsb leaked (h_files s)); exact I. Qed.

Lemma hinv_mlock m s : hinv s -> hinv (h_mlock m s).
Proof.
  intros I. unfold h_mlock. destruct (nth_error (h_mutexes s) m) as [mu|]; [|exact I].
  pose proof (hinv_open (hm_ino mu) mutex_flags (Some m) s I) as I1.
  destruct (h_stuck _); [exact I1|]. destruct (last_ok _); [|exact I1].
  destruct (hm_locked mu); exact I1.
Qed.

Lemma hinv_munlock h s : hinv s -> hinv (h_munlock h s).
Proof.
  intros I. unfold h_munlock. destruct (nth_error (h_files s) h) as [f|]; [|exact I].
  destruct (hf_mutex f) as [m|]; [|exact I]. destruct (hf_ok f); [|exact I].
  destruct (nth_error (h_mutexes s) m) as [mu|]; [|exact I].
  destruct (hm_locked mu); [|exact I].
  apply hinv_close. exact I.
Qed.

Lemma hinv_exec s e : hinv s -> hinv (hexec s e).
Proof.
  intros I. unfold hexec. destruct (h_stuck s || h_panic s); [exact I|].
  destruct e.
  - now apply hinv_open.
  - now apply hinv_user_close.
  - now apply hinv_drop.
  - now apply hinv_gc.
  - exact I.
  - now apply hinv_mlock.
  - now apply hinv_munlock.
Qed.

Lemma hinv_run evs : forall s, hinv s -> hinv (hrun s evs).
Proof. apply (fold_left_invariant hexec hinv), hinv_exec. Qed.

Lemma files_open_old i fl mx s h f :
  nth_error (h_files s) h = Some f -> nth_error (h_files (h_open i fl mx s)) h = Some f.
Proof.
  intros Hg. unfold h_open.
  destruct (run_seq i (alloc s) (open_only fl) no_faults 0 (h_os s)) as [[tr [r|]] o']; [|exact Hg].
  destruct r; simpl; now apply nth_error_snoc_old.
Qed.

Lemma files_close_other h' s h : h <> h' ->
  nth_error (h_files (h_close h' s)) h = nth_error (h_files s) h.
Proof.
  intros Hne. unfold h_close. destruct (nth_error (h_files s) h') as [f0|]; [|reflexivity].
  unfold close_checks_closed_first. destruct (hf_closed f0); [reflexivity|].
  unfold h_closefile. destruct (run_seq _ _ _ _ _ _) as [[tr out] o']. simpl.
  now apply upd_nth_other.
Qed.

Lemma set_dropped_core f : core (set_dropped f) = core f.
Proof. reflexivity. Qed.

Lemma held_step s e h f :
  nth_error (h_files s) h = Some f -> e <> HClose h -> e <> HMUnlock h ->
  exists f', nth_error (h_files (hexec s e)) h = Some f' /\ core f' = core f.
Proof.
  intros Hg Hc Hu. unfold hexec. destruct (h_stuck s || h_panic s); [now exists f|].
  destruct e as [i fl|h'|h'| |i|m|h'].
  - exists f. split; [now apply files_open_old|reflexivity].
  - exists f. split; [|reflexivity]. unfold h_user_close.
    destruct (nth_error (h_files s) h') as [f0|]; [|exact Hg]. destruct (hf_mutex f0); [exact Hg|].
    rewrite files_close_other; [exact Hg|congruence].
  - unfold h_drop. simpl. destruct (Nat.eq_dec h h') as [->|Hne].
    + exists (set_dropped f). rewrite upd_nth_same, Hg. split; reflexivity.
    + exists f. rewrite upd_nth_other by assumption. auto.
  - exists f. split; [|reflexivity]. unfold h_gc. destruct (existsb leaked (h_files s)); exact Hg.
  - exists f. auto.
  - exists f. split; [|reflexivity]. unfold h_mlock. destruct (nth_error (h_mutexes s) m) as [mu|]; [|exact Hg].
    pose proof (files_open_old (hm_ino mu) mutex_flags (Some m) s h f Hg) as H1.
    destruct (h_stuck _); [exact H1|]. destruct (last_ok _); [|exact H1]. destruct (hm_locked mu); exact H1.
  - exists f. split; [|reflexivity]. unfold h_munlock.
    destruct (nth_error (h_files s) h') as [f0|]; [|exact Hg]. destruct (hf_mutex f0) as [m|]; [|exact Hg].
    destruct (hf_ok f0); [|exact Hg]. destruct (nth_error (h_mutexes s) m) as [mu|]; [|exact Hg].
    destruct (hm_locked mu); [|exact Hg].
    rewrite files_close_other; [exact Hg|congruence].
Qed.

Lemma held_run evs : forall s h f,
  nth_error (h_files s) h = Some f -> ~ In (HClose h) evs -> ~ In (HMUnlock h) evs ->
  exists f', nth_error (h_files (hrun s evs)) h = Some f' /\ core f' = core f.
Proof.
  induction evs as [|e r IH]; intros s h f Hg Hc Hu; [now exists f|].
  destruct (held_step s e h f Hg) as (f1 & G1 & C1).
  - intros ->. apply Hc. now left.
  - intros ->. apply Hu. now left.
  - destruct (IH (hexec s e) h f1 G1) as (f2 & G2 & C2).
    + intros Hin. apply Hc. now right.
    + intros Hin. apply Hu. now right.
    + exists f2. split; [exact G2|congruence].
Qed.

(* The lock is held from the return of the call until Close / unlock is called: whatever else
   the process does in between — other opens and Closes (repeated Closes of stale Files whose
   descriptor numbers have been reused included), garbage collections, dropping the reference,
   Mutex cycles — the File's descriptor stays open and its lock stays in the kernel's table. *)
Theorem handle_held_until_close s evs h f :
  hinv s -> nth_error (h_files s) h = Some f -> open_handle f = true ->
  ~ In (HClose h) evs -> ~ In (HMUnlock h) evs ->
  exists f', nth_error (h_files (hrun s evs)) h = Some f' /\ core f' = core f /\
    isopen (fds (h_os (hrun s evs)) (hf_fd f)) = true /\
    holds (hf_fd f) (hf_kind f) (ltab (h_os (hrun s evs)) (hf_ino f)) = true.
Proof.
  intros I Hg Ho Hc Hu. destruct (held_run evs s h f Hg Hc Hu) as (f' & G & C).
  pose proof (hinv_run evs s I) as I'.
  assert (Ho' : open_handle f' = true) by (now rewrite (core_open _ _ C)).
  destruct (iv_open _ _ _ _ I' h f' G Ho') as (A & _ & _ & D).
  pose proof C as C0. unfold core in C. injection C as Ei Ef Ek _ _. rewrite Ei, Ef, Ek in *.
  exists f'. split; [exact G|]. split; [exact C0|]. split; [exact A|].
  apply holds_locked; [apply (iv_ltab _ _ _ _ I')|exact D].
Qed.

Lemma closefile_releases h f s :
  hinv s -> nth_error (h_files s) h = Some f -> open_handle f = true ->
  let s' := h_closefile h f s in
  fds (h_os s') (hf_fd f) = None /\ locked (hf_fd f) (ltab (h_os s') (hf_ino f)) = None /\
  nth_error (h_files s') h = Some (set_closed f) /\
  h_stuck s' = h_stuck s /\ h_panic s' = h_panic s /\ h_mutexes s' = h_mutexes s.
Proof.
  intros I Hg Ho. unfold h_closefile.
  destruct (run_seq (hf_ino f) (hf_fd f) close_only no_faults 0 (h_os s)) as [[tr out] o'] eqn:Hrun.
  destruct (iv_open _ _ _ _ I h f Hg Ho) as (Hop & _).
  destruct (unlock_close_run closefile_unlock_first _ _ _ _ _ _ _ _ Hop (iv_refs _ _ _ _ I _) Hrun)
    as (_ & Hc & Hl & _).
  simpl. rewrite upd_nth_same, Hg. simpl. repeat split; auto.
Qed.

Theorem handle_close_releases s h f :
  hinv s -> h_stuck s = false -> h_panic s = false ->
  nth_error (h_files s) h = Some f -> open_handle f = true -> hf_mutex f = None ->
  let s' := hexec s (HClose h) in
  hresult s (HClose h) s' = HOk /\
  fds (h_os s') (hf_fd f) = None /\
  (forall k, holds (hf_fd f) k (ltab (h_os s') (hf_ino f)) = false) /\
  nth_error (h_files s') h = Some (set_closed f).
Proof.
  intros I Hs Hp Hg Ho Hm. unfold open_handle in Ho. apply andb_true_iff in Ho. destruct Ho as [Hok Hcl].
  apply negb_true_iff in Hcl.
  assert (Ho : open_handle f = true) by (unfold open_handle; now rewrite Hok, Hcl).
  cbv zeta. unfold hexec. rewrite Hs, Hp. simpl. unfold h_user_close. rewrite Hg, Hm.
  unfold h_close. rewrite Hg. unfold close_checks_closed_first. rewrite Hcl.
  destruct (closefile_releases h f s I Hg Ho) as (A & B & C & D & E & _).
  unfold hresult. rewrite D, E, Hs, Hp, Hg, Hok, Hcl. repeat split; auto.
  intros k. now apply locked_None_holds.
Qed.

(* a second (third ...) Close answers with an error and changes nothing at all — in particular
   not the File that meanwhile owns the same descriptor number *)
Theorem handle_second_close_noop s h f :
  nth_error (h_files s) h = Some f -> hf_closed f = true ->
  hexec s (HClose h) = s /\
  (h_stuck s = false -> h_panic s = false -> hf_ok f = true -> hresult s (HClose h) s = HErr).
Proof.
  intros Hg Hcl. split.
  - unfold hexec. destruct (h_stuck s || h_panic s); [reflexivity|].
    unfold h_user_close. rewrite Hg. destruct (hf_mutex f); [reflexivity|].
    unfold h_close. rewrite Hg. unfold close_checks_closed_first. now rewrite Hcl.
  - intros Hs Hp Hok. unfold hresult. now rewrite Hs, Hp, Hg, Hok, Hcl.
Qed.

(* a garbage collection does nothing while the caller references every File it has not closed *)
Theorem gc_harmless s :
  (forall f, In f (h_files s) -> open_handle f = true -> hf_live f = true) -> hexec s HGC = s.
Proof.
  intros H. unfold hexec. destruct (h_stuck s || h_panic s); [reflexivity|]. unfold h_gc.
  destruct (existsb leaked (h_files s)) eqn:E; [|reflexivity].
  apply existsb_exists in E. destruct E as (f & Hin & Hl). unfold leaked in Hl.
  apply andb_true_iff in Hl. destruct Hl as [Ho Hnl]. rewrite (H f Hin Ho) in Hnl. discriminate.
Qed.

Theorem handles_exclusion s h1 h2 f1 f2 :
  hinv s -> nth_error (h_files s) h1 = Some f1 -> nth_error (h_files s) h2 = Some f2 ->
  open_handle f1 = true -> open_handle f2 = true -> h1 <> h2 -> hf_ino f1 = hf_ino f2 ->
  hf_kind f1 = LSh /\ hf_kind f2 = LSh.
Proof.
  intros I G1 G2 O1 O2 Hne Hi.
  destruct (iv_open _ _ _ _ I h1 f1 G1 O1) as (_ & _ & _ & L1).
  destruct (iv_open _ _ _ _ I h2 f2 G2 O2) as (_ & _ & _ & L2).
  rewrite <- Hi in L2. apply locked_In in L1, L2.
  destruct (iv_ltab _ _ _ _ I (hf_ino f1)) as [_ Hex].
  assert (Hfd : hf_fd f1 <> hf_fd f2).
  { intros E. apply Hne. eapply (iv_distinct _ _ _ _ I); eassumption. }
  split.
  - destruct (hf_kind f1); [reflexivity|]. exfalso. apply Hfd. symmetry. eapply Hex; eassumption.
  - destruct (hf_kind f2); [reflexivity|]. exfalso. apply Hfd. eapply Hex; eassumption.
Qed.

Lemma probe_free_nil l : probe_of l = PFree <-> l = [].
Proof.
  unfold probe_of. destruct l; [tauto|]. split; [|discriminate].
  destruct (existsb _ _); discriminate.
Qed.

Lemma probe_excl_in l : probe_of l = PExcl <-> exists c, In (c, LEx) l.
Proof.
  unfold probe_of. destruct l as [|x r].
  - split; [discriminate|]. intros [c []].
  - destruct (existsb (fun h : nat * lkind => lkind_eqb (snd h) LEx) (x :: r)) eqn:E.
    + split; [|reflexivity]. intros _. apply existsb_exists in E. destruct E as [[c k] [Hin Hk]].
      simpl in Hk. destruct k; [discriminate|]. now exists c.
    + split; [discriminate|]. intros [c Hin]. exfalso.
      assert (existsb (fun h : nat * lkind => lkind_eqb (snd h) LEx) (x :: r) = true).
      { apply existsb_exists. exists (c, LEx). split; [exact Hin|reflexivity]. }
      congruence.
Qed.

(* what the other process's probe finds is what the handles say *)
Theorem probe_reads_handles s i : hinv s ->
  (hprobe s i = PFree <->
     forall h f, nth_error (h_files s) h = Some f -> open_handle f = true -> hf_ino f <> i) /\
  (hprobe s i = PExcl <->
     exists h f, nth_error (h_files s) h = Some f /\ open_handle f = true /\ hf_ino f = i /\ hf_kind f = LEx).
Proof.
  intros I. unfold hprobe. split.
  - rewrite probe_free_nil. split.
    + intros E h f G O Hi. destruct (iv_open _ _ _ _ I h f G O) as (_ & _ & _ & L).
      rewrite Hi, E in L. discriminate.
    + intros H. destruct (ltab (h_os s) i) as [|[a k] r] eqn:E; [reflexivity|]. exfalso.
      destruct (iv_lock_owned _ _ _ _ I i a) as (h & f & G & O & _ & Hi).
      * rewrite E, locked_cons_same. discriminate.
      * eapply H; eassumption.
  - rewrite probe_excl_in. split.
    + intros [c Hin]. destruct (iv_ltab _ _ _ _ I i) as [Hnd _].
      pose proof (In_locked _ _ _ Hnd Hin) as L.
      destruct (iv_lock_owned _ _ _ _ I i c) as (h & f & G & O & Ef & Ei); [congruence|].
      exists h, f. repeat split; auto.
      destruct (iv_open _ _ _ _ I h f G O) as (_ & _ & _ & L'). rewrite Ef, Ei in L'. congruence.
    + intros (h & f & G & O & Ei & Ek). destruct (iv_open _ _ _ _ I h f G O) as (_ & _ & _ & L).
      rewrite Ei, Ek in L. exists (hf_fd f). now apply locked_In.
Qed.

Lemma mutex_flags_facts :
  strip mutex_flags openfile_strip_mask = mutex_flags /\
  has_flag mutex_flags sys_O_CREATE = true /\
  (has_flag mutex_flags sys_O_CREATE && has_flag mutex_flags sys_O_EXCL = false) /\
  has_flag mutex_flags sys_O_TRUNC = false /\
  has_flag mutex_flags truncate_cond_mask = false /\
  flock_req_of (lock_arg_of_flags mutex_flags) = FReq LEx /\
  (acc_readable (accmode mutex_flags) || acc_writable (accmode mutex_flags) = true) /\
  kind_of mutex_flags = LEx.
Proof. repeat split; reflexivity. Qed.

(* Lock on a file nobody holds: the open succeeds (the file is created if need be), the lock is
   granted at once *)
Lemma mutex_open_succeeds i c o :
  fds o c = None -> ltab o i = [] ->
  exists tr o', run_seq i c (open_only mutex_flags) no_faults 0 o = (tr, Finished ResOk, o').
Proof.
  intros Hf Hl. destruct mutex_flags_facts as (Fs & Fc & Fe & Ft & Ftc & Fq & Fa & _).
  unfold open_only, open_file_prog. rewrite Fs. cbn [run_seq].
  assert (Hopen : exists o1, os_step i c (OOpen mutex_flags) (no_faults 0) false o = Some (ROk, o1) /\
            fds o1 c = Some {| fd_acc := accmode mutex_flags; fd_off := 0 |} /\ ltab o1 = ltab o).
  { unfold os_step. rewrite Hf. destruct (files o i).
    - rewrite Fe, Ft. eexists. split; [reflexivity|]. simpl. now rewrite upd_same.
    - rewrite Fc. eexists. split; [reflexivity|]. simpl. now rewrite upd_same. }
  destruct Hopen as (o1 & -> & Hfd1 & Hlt1).
  unfold truncate_after_lock, lock_stage, flock_step, lock_retries_eintr. cbn [run_seq].
  assert (Hflock : os_step i c (OFlock (lock_arg_of_flags mutex_flags)) (no_faults 1) false o1 =
            Some (ROk, {| files := files o1; fds := fds o1; refs := refs o1;
                          ltab := upd (ltab o1) i ((c, LEx) :: drop c (ltab o1 i)) |})).
  { unfold os_step. rewrite Hfd1, Fq. cbn [fd_acc]. rewrite Fa. simpl negb. cbv iota.
    rewrite Hlt1, Hl. reflexivity. }
  rewrite Hflock. unfold trunc_stage. rewrite Ftc. cbn [run_seq]. eauto.
Qed.

Definition mutex_ready (s : hstate) (m i : nat) : Prop :=
  hinv s /\ h_stuck s = false /\ h_panic s = false /\
  nth_error (h_mutexes s) m = Some {| hm_ino := i; hm_locked := false |} /\
  (forall h f, nth_error (h_files s) h = Some f -> open_handle f = true -> hf_ino f <> i).

Lemma last_ok_snoc s' l x : h_files s' = l ++ [x] -> last_ok s' = hf_ok x.
Proof.
  intros E. unfold last_ok. rewrite E, app_length. simpl.
  replace (length l + 1 - 1) with (length l) by lia. now rewrite nth_error_snoc_new.
Qed.

(* one cycle: Lock answers at once with the write lock; the unlock function gives it back and
   leaves the Mutex value as it was *)
Lemma mutex_lock_unlock s m i : mutex_ready s m i ->
  let h := length (h_files s) in
  let s1 := hexec s (HMLock m) in
  let s2 := hexec s1 (HMUnlock h) in
  hresult s (HMLock m) s1 = HOk /\ hprobe s1 i = PExcl /\
  hresult s1 (HMUnlock h) s2 = HOk /\ hprobe s2 i = PFree /\
  mutex_ready s2 m i /\ length (h_files s2) = S (length (h_files s)).
Proof.
  intros (I & Hs & Hp & Hm & Hfree). cbv zeta.
  destruct (alloc_unused s I) as (Hfd & _ & _).
  assert (Hnil : ltab (h_os s) i = []).
  { apply probe_free_nil. apply (proj1 (probe_reads_handles s i I)). exact Hfree. }
  destruct (mutex_open_succeeds i (alloc s) (h_os s) Hfd Hnil) as (tr & o' & Hrun).
  set (nf := {| hf_ino := i; hf_fd := alloc s; hf_kind := kind_of mutex_flags; hf_ok := true;
                hf_closed := false; hf_live := true; hf_mutex := Some m |}).
  set (s1' := {| h_os := o'; h_files := h_files s ++ [nf]; h_mutexes := h_mutexes s;
                 h_free := free_after_alloc s; h_next := next_after_alloc s;
                 h_panic := h_panic s; h_stuck := h_stuck s |}).
  assert (Hlo1 : last_ok s1' = true) by (apply (last_ok_snoc s1' (h_files s) nf); reflexivity).
  (* the Lock *)
  assert (E1 : hexec s (HMLock m) = set_mutex m true s1').
  { unfold hexec. rewrite Hs, Hp. cbn [orb]. unfold h_mlock. rewrite Hm. cbn [hm_ino hm_locked].
    unfold h_open. rewrite Hrun. fold nf. fold s1'.
    change (h_stuck s1') with (h_stuck s). rewrite Hs, Hlo1. reflexivity. }
  rewrite E1. set (s1 := set_mutex m true s1').
  assert (I1 : hinv s1) by (unfold s1; rewrite <- E1; now apply hinv_exec).
  assert (Hg1 : nth_error (h_files s1) (length (h_files s)) = Some nf) by apply nth_error_snoc_new.
  assert (Ho1 : open_handle nf = true) by reflexivity.
  assert (Hs1 : h_stuck s1 = false) by exact Hs.
  assert (Hp1 : h_panic s1 = false) by exact Hp.
  assert (Hm1 : nth_error (h_mutexes s1) m = Some {| hm_ino := i; hm_locked := true |}).
  { unfold s1, set_mutex. simpl. rewrite upd_nth_same, Hm. reflexivity. }
  (* the unlock function *)
  set (s1u := set_mutex m false s1).
  assert (Iu : hinv s1u) by exact I1.
  assert (Hgu : nth_error (h_files s1u) (length (h_files s)) = Some nf) by exact Hg1.
  assert (E2 : hexec s1 (HMUnlock (length (h_files s))) = h_closefile (length (h_files s)) nf s1u).
  { unfold hexec. rewrite Hs1, Hp1. cbn [orb]. unfold h_munlock. rewrite Hg1. cbn [hf_mutex nf hf_ok].
    rewrite Hm1. cbn [hm_locked]. fold s1u. unfold h_close. rewrite Hgu.
    unfold close_checks_closed_first. reflexivity. }
  rewrite E2.
  destruct (closefile_releases _ nf s1u Iu Hgu Ho1) as (A & B & C & D & E & F).
  assert (I2 : hinv (h_closefile (length (h_files s)) nf s1u)) by (now apply hinv_closefile).
  assert (Hlen : length (h_files (h_closefile (length (h_files s)) nf s1u)) = S (length (h_files s))).
  { unfold h_closefile.
    destruct (run_seq (hf_ino nf) (hf_fd nf) close_only no_faults 0 (h_os s1u)) as [[tr2 out2] o2]. simpl.
    rewrite upd_nth_length, app_length. simpl. lia. }
  assert (Hfree2 : forall h f, nth_error (h_files (h_closefile (length (h_files s)) nf s1u)) h = Some f ->
            open_handle f = true -> hf_ino f <> i).
  { intros h f G O. unfold h_closefile in G.
    destruct (run_seq (hf_ino nf) (hf_fd nf) close_only no_faults 0 (h_os s1u)) as [[tr2 out2] o2]. simpl in G.
    destruct (closed_get _ _ _ _ G O) as [Hne G0]. apply nth_error_snoc_inv in G0.
    destruct G0 as [G0|[Hh _]]; [|contradiction]. eapply Hfree; eassumption. }
  set (s2 := h_closefile (length (h_files s)) nf s1u) in *.
  assert (Hs2 : h_stuck s2 = false) by (rewrite D; exact Hs).
  assert (Hp2 : h_panic s2 = false) by (rewrite E; exact Hp).
  split.
  { unfold hresult. rewrite Hs1, Hp1. change (last_ok s1) with (last_ok s1'). now rewrite Hlo1. }
  split.
  { apply (proj2 (probe_reads_handles s1 i I1)). exists (length (h_files s)), nf.
    repeat split; auto. }
  split.
  { unfold hresult. now rewrite Hs2, Hp2. }
  split.
  { apply (proj1 (probe_reads_handles s2 i I2)). exact Hfree2. }
  split; [|exact Hlen].
  split; [exact I2|]. split; [exact Hs2|]. split; [exact Hp2|]. split; [|exact Hfree2].
  rewrite F. unfold s1u, s1, set_mutex. simpl.
  rewrite upd_nth_same, upd_nth_same, Hm. reflexivity.
Qed.

(* n cycles of ONE Mutex value; the k-th Lock makes handle base+k *)
Fixpoint cycles (m base n : nat) : list hev :=
  match n with
  | 0 => []
  | S k => HMLock m :: HMUnlock base :: cycles m (S base) k
  end.

(* what a prober sees after every step: (answer, state of the file) *)
Definition seen (s : hstate) (evs : list hev) (i : nat) : list (hres * probe) :=
  map (fun x => (fst x, match snd x with (p, _) :: _ => p | [] => PFree end)) (htrace s evs [i]).

Fixpoint cycle_view (n : nat) : list (hres * probe) :=
  match n with 0 => [] | S k => (HOk, PExcl) :: (HOk, PFree) :: cycle_view k end.

(* The same Mutex value, locked and unlocked any number of times: every Lock is granted at once and
   holds the write lock, every unlock function releases it, and afterwards the Mutex, the file
   and the process are as before *)
Theorem mutex_reusable n : forall s m i, mutex_ready s m i ->
  mutex_ready (hrun s (cycles m (length (h_files s)) n)) m i /\
  seen s (cycles m (length (h_files s)) n) i = cycle_view n.
Proof.
  induction n as [|n IH]; intros s m i R; [split; [exact R|reflexivity]|].
  destruct (mutex_lock_unlock s m i R) as (A & B & C & D & R2 & L).
  cbn [cycles hrun fold_left]. fold (hrun (hexec (hexec s (HMLock m)) (HMUnlock (length (h_files s))))).
  specialize (IH _ m i R2). rewrite L in IH. destruct IH as [IH1 IH2].
  split; [exact IH1|].
  unfold seen in *. cbn [htrace map fst snd cycle_view]. rewrite A, B, C, D.
  f_equal. f_equal. exact IH2.
Qed.

Lemma handle_objects_as_modelled :
  close_checks_closed_first = true /\ openfile_fresh_file = true /\
  mutex_unlock_body_plain = true /\ mutex_inner_lock_after_open = true.
Proof. repeat split; reflexivity. Qed.

Definition ex_files : nat -> option bytes := fun i => if Nat.eqb i 0 then Some [x30] else None.
Definition ex_h0 : hstate := hinit ex_files.

(* two read holders, a stale File closed a second time after its descriptor number has been reused
   by a write holder of another file, a garbage collection, a Mutex value through two cycles *)
Definition ex_script : list hev :=
  [HOpen 0 0%N; HOpen 0 0%N; HClose 0; HOpen 1 66%N; HClose 0; HGC; HClose 1; HClose 2;
   HMNew 2; HMLock 0; HMUnlock 3; HMLock 0; HMUnlock 4].

Example ex_trace :
  htrace ex_h0 ex_script [0; 1; 2] =
  [(HOk, [(PShared, 1); (PFree, 0); (PFree, 0)]); (HOk, [(PShared, 2); (PFree, 0); (PFree, 0)]);
   (HOk, [(PShared, 1); (PFree, 0); (PFree, 0)]); (HOk, [(PShared, 1); (PExcl, 1); (PFree, 0)]);
   (HErr, [(PShared, 1); (PExcl, 1); (PFree, 0)]); (HOk, [(PShared, 1); (PExcl, 1); (PFree, 0)]);
   (HOk, [(PFree, 0); (PExcl, 1); (PFree, 0)]); (HOk, [(PFree, 0); (PFree, 0); (PFree, 0)]);
   (HOk, [(PFree, 0); (PFree, 0); (PFree, 0)]);
   (HOk, [(PFree, 0); (PFree, 0); (PExcl, 1)]); (HOk, [(PFree, 0); (PFree, 0); (PFree, 0)]);
   (HOk, [(PFree, 0); (PFree, 0); (PExcl, 1)]); (HOk, [(PFree, 0); (PFree, 0); (PFree, 0)])].
Proof. vm_compute. reflexivity. Qed.

(* the stale File 0 and the live File 2 carry the same descriptor number *)
Example ex_reuse :
  map hf_fd (h_files (hrun ex_h0 (firstn 5 ex_script))) = [0; 1; 0] /\
  map open_handle (h_files (hrun ex_h0 (firstn 5 ex_script))) = [false; true; true].
Proof. vm_compute. split; reflexivity. Qed.

(* handle_held_until_close has instances: File 1 across the rest of the script up to its Close *)
Example ex_held :
  let s := hrun ex_h0 (firstn 2 ex_script) in
  exists f, nth_error (h_files s) 1 = Some f /\ open_handle f = true /\
    ~ In (HClose 1) [HClose 0; HOpen 1 66%N; HClose 0; HGC] /\ hinv s.
Proof.
  cbv zeta. eexists. split; [vm_compute; reflexivity|]. split; [reflexivity|]. split.
  - intros H. repeat (destruct H as [H|H]; [discriminate H|]). exact H.
  - apply hinv_run, hinv_init.
Qed.

(* mutex_ready has instances *)
Example ex_mutex_ready : mutex_ready (hrun ex_h0 [HMNew 2]) 0 2.
Proof.
  split; [apply hinv_run, hinv_init|]. repeat split.
  intros h f G. destruct h; discriminate G.
Qed.

(* a dropped, unclosed File: the next garbage collection ends the process with the finalizer's panic;
   a process that asks twice for the write lock on one file waits for itself *)
Example ex_leak_panics : h_panic (hrun ex_h0 [HOpen 0 2%N; HDrop 0; HGC]) = true.
Proof. reflexivity. Qed.
Example ex_self_deadlock : h_stuck (hrun ex_h0 [HOpen 0 2%N; HOpen 0 2%N]) = true.
Proof. reflexivity. Qed.

(* every state a process can reach from scratch satisfies the invariant *)
Lemma hinv_reachable f evs : hinv (hrun (hinit f) evs).
Proof. apply hinv_run, hinv_init. Qed.
