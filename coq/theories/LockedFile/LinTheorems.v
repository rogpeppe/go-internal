(* C07 (schedules): the theorems — register invariant, linearisability, read_complete,
   no_stale_read, no_lost_update — and examples. *)
From Coq Require Import List NArith Arith Bool Lia Sorted Permutation.
From Coq.Strings Require Import Byte.
From GI Require Import Gen.LockedFileConsts LockedFile.LockedFile LockedFile.LockBasics
  LockedFile.LockProofs LockedFile.TransformProofs LockedFile.LinBasics LockedFile.LinProofs.
Import ListNotations.

Definition flags_of (cfg : nat -> client) (c : nat) : N := flags_of_call (c_call (cfg c)).
Definition body_of (cfg : nat -> client) (c : nat) : prog := body_of_call (c_call (cfg c)).

(* whenever nobody holds the exclusive lock, the file holds the register's value *)
Theorem register_invariant cfg f s i :
  wf_cfg cfg -> reachable cfg f s ->
  (forall c, holds c LEx (ltab (st_os s) i) = false) ->
  content_of (files (st_os s) i) = reg s i.
Proof.
  intros Hwf Hr Hno. pose proof (inv07_of_reachable _ _ _ Hwf Hr) as Hinv.
  apply (j_reg _ _ _ Hinv). intros c Hl.
  apply (holds_locked _ _ _ (nodup_of_ok _ (i_tab _ _ (j_06 _ _ _ Hinv) i))) in Hl.
  rewrite Hno in Hl. discriminate.
Qed.

(* the log of one inode is a linearisation: a legal register history from the initial
   contents to the current register, strictly ordered in time, every entry being the
   sequential specification of its call (a read-locker leaves the register alone) *)
Definition log_is_linearization (cfg : nat -> client) (f : nat -> option bytes) (s : state) (i : nat) : Prop :=
  legal (content_of (f i)) (lin s i) (reg s i) /\
  StronglySorted newer (lin s i) /\
  forall e, In e (lin s i) -> entry_ok cfg i e.

Theorem linearizable cfg f s :
  wf_cfg cfg -> reachable cfg f s ->
  (forall i, log_is_linearization cfg f s i) /\
  (forall c x, returned s c x ->
     (* the call failed before it held the lock ... *)
     (status s c = SIdle /\ x = ResErr) \/
     (* ... or it has a linearisation point inside [invocation, response] at which its result
        and its effect are its sequential specification *)
     (status s c = SClosing /\
      exists e t0 t1, In e (lin s (c_ino (cfg c))) /\ le_client e = c /\
        (x, le_after e) = call_spec (flags_of cfg c) (body_of cfg c) (le_before e) /\
        t_inv s c = Some t0 /\ t_resp s c = Some t1 /\ t0 <= le_time e <= t1)).
Proof.
  intros Hwf Hr. pose proof (inv07_of_reachable _ _ _ Hwf Hr) as Hinv.
  pose proof (invT_of_reachable _ _ _ Hwf Hr) as HT.
  split.
  - intros i. split; [apply (j_legal _ _ _ Hinv)|]. split; [apply (t_sorted _ HT)|].
    intros e. apply (j_ent _ _ _ Hinv).
  - intros c x Hret. pose proof (j_ph _ _ _ Hinv c) as Hp. unfold cph7 in Hp.
    red in Hret. rewrite Hret in Hp.
    destruct (ph7_ret _ _ _ _ _ _ _ _ _ _ Hp) as [H|[Hst [[e [Hin [Hc Hspec]]] _]]]; [left; exact H|right].
    split; [exact Hst|].
    destruct (t_entry_inv _ HT _ _ Hin) as [t0 [Ht0 Hle0]]. rewrite Hc in Ht0.
    destruct (t_ret_resp _ HT c) as [t1 Ht1]; [now rewrite Hret|].
    exists e, t0, t1. repeat split; auto.
    apply (t_entry_resp _ HT _ e t1 Hin). now rewrite Hc.
Qed.

(* real time: a call that returned before another was invoked linearises before it *)
Theorem real_time_order cfg f s i e1 e2 t1 t2 :
  wf_cfg cfg -> reachable cfg f s ->
  In e1 (lin s i) -> In e2 (lin s i) ->
  t_resp s (le_client e1) = Some t1 -> t_inv s (le_client e2) = Some t2 -> t1 < t2 ->
  le_time e1 < le_time e2.
Proof.
  intros Hwf Hr H1 H2 Hr1 Hi2 Hlt. pose proof (invT_of_reachable _ _ _ Hwf Hr) as HT.
  pose proof (t_entry_resp _ HT _ _ _ H1 Hr1).
  destruct (t_entry_inv _ HT _ _ H2) as [t0 [E Hle]]. rewrite Hi2 in E. injection E as <-. lia.
Qed.

Lemma spec_read r : call_spec open_flags read_body r = (ResData r, r).
Proof. reflexivity. Qed.

Lemma spec_write d r : call_spec write_flags (write_body d) r = (ResOk, d).
Proof.
  rewrite call_spec_eq. unfold write_body, write_prog, outcome2.
  destruct d as [|x d]; [reflexivity|].
  cbn [run_body]. change (start_contents write_flags r) with (resize 0 r).
  unfold resize. simpl firstn. simpl Nat.sub. simpl zeros. simpl app.
  simpl. rewrite app_nil_r. reflexivity.
Qed.

Lemma spec_transform t r new :
  t r = Some new -> call_spec edit_flags (transform_body t) r = (ResOk, new).
Proof.
  intros Ht. rewrite call_spec_eq. change (start_contents edit_flags r) with r.
  pose proof (transform_ok t r new (fresh_fd edit_flags) eq_refl eq_refl eq_refl Ht) as H.
  unfold outcome2. destruct (run_body _ _ _ _ _) as [[x y] z]. destruct H as [-> ->]. reflexivity.
Qed.

Lemma spec_transform_fails t r :
  t r = None -> call_spec edit_flags (transform_body t) r = (ResErr, r).
Proof.
  intros Ht. rewrite call_spec_eq. change (start_contents edit_flags r) with r.
  pose proof (transform_t_fails t r (fresh_fd edit_flags) no_faults eq_refl eq_refl eq_refl
                single_fault_no_faults Ht) as H.
  unfold outcome2. destruct (run_body _ _ _ _ _) as [[x y] z]. destruct H as [-> ->]. reflexivity.
Qed.

Definition is_writer (cfg : nat -> client) (e : lentry) : Prop := mode_of cfg (le_client e) = Some LEx.

Lemma legal_cur_source cfg i r0 l rc :
  legal r0 l rc -> (forall e, In e l -> entry_ok cfg i e) ->
  rc = r0 \/ exists e, In e l /\ is_writer cfg e /\ le_after e = rc.
Proof.
  induction 1 as [|e l Hl IH]; intros Hok; [now left|].
  destruct (Hok e (or_introl eq_refl)) as [_ [[Hm Ha]|[Hm Ha]]].
  - rewrite Ha. destruct IH as [E|[e' [Hin [Hw He]]]].
    + intros e' Hin. apply Hok. now right.
    + now left.
    + right. exists e'. split; [now right|]. auto.
  - right. exists e. split; [now left|]. split; [exact Hm|reflexivity].
Qed.

(* the value an entry starts from is the initial contents or what an earlier writer published *)
Lemma legal_before_source cfg i r0 l rc e :
  legal r0 l rc -> StronglySorted newer l -> (forall e, In e l -> entry_ok cfg i e) -> In e l ->
  le_before e = r0 \/
  exists e', In e' l /\ is_writer cfg e' /\ le_time e' < le_time e /\ le_after e' = le_before e.
Proof.
  induction 1 as [|e0 l Hl IH]; intros Hs Hok Hin; [destruct Hin|].
  inversion Hs as [|? ? Hs' Hall]; subst.
  destruct Hin as [<-|Hin].
  - destruct (legal_cur_source cfg i r0 l (le_before e0) Hl) as [E|[e' [Hin' [Hw He]]]].
    + intros e' Hin'. apply Hok. now right.
    + now left.
    + right. exists e'. split; [now right|]. split; [exact Hw|]. split; [|exact He].
      rewrite Forall_forall in Hall. apply (Hall e' Hin').
  - destruct IH as [E|[e' [Hin' H]]]; auto.
    + intros e' Hin'. apply Hok. now right.
    + right. exists e'. split; [now right|exact H].
Qed.

(* a Read returns exactly the complete contents of the register at its linearisation point:
   the initial contents or what one earlier write-locking call left at its unlock — never
   something empty, truncated or mixed *)
Theorem read_complete cfg f s c v :
  wf_cfg cfg -> reachable cfg f s ->
  c_call (cfg c) = CRead -> returned s c (ResData v) ->
  let i := c_ino (cfg c) in
  exists e, In e (lin s i) /\ le_client e = c /\ le_before e = v /\ le_after e = v /\
    (v = content_of (f i) \/
     exists w, In w (lin s i) /\ is_writer cfg w /\ le_time w < le_time e /\ le_after w = v /\
       snd (call_spec (flags_of cfg (le_client w)) (body_of cfg (le_client w)) (le_before w)) = v).
Proof.
  intros Hwf Hr Hcall Hret i.
  destruct (linearizable cfg f s Hwf Hr) as [Hlog Hcalls].
  destruct (Hcalls c _ Hret) as [[_ E]|[_ [e [t0 [t1 [Hin [Hc [Hspec _]]]]]]]]; [discriminate E|].
  unfold flags_of, body_of in Hspec. rewrite Hcall in Hspec. simpl in Hspec.
  rewrite spec_read in Hspec. injection Hspec as Hv Ha. fold i in Hin.
  exists e. repeat split; auto; try congruence.
  destruct (Hlog i) as [Hleg [Hs Hok]].
  destruct (legal_before_source cfg i _ _ _ e Hleg Hs Hok Hin) as [E|[w [Hinw [Hw [Hlt Haw]]]]].
  - left. congruence.
  - right. exists w. repeat split; auto; try congruence.
    destruct (Hok w Hinw) as [_ [[Hm _]|[_ Hsp]]]; [red in Hw; congruence|].
    unfold flags_of, body_of. congruence.
Qed.

(* a Read never returns a value older than one whose write had finished before it began:
   such a writer linearises before the Read, so the Read's value is the register after it or
   after a later writer *)
Theorem no_stale_read cfg f s c v w tw tc :
  wf_cfg cfg -> reachable cfg f s ->
  c_call (cfg c) = CRead -> returned s c (ResData v) ->
  In w (lin s (c_ino (cfg c))) -> is_writer cfg w ->
  t_resp s (le_client w) = Some tw -> t_inv s c = Some tc -> tw < tc ->
  exists e, In e (lin s (c_ino (cfg c))) /\ le_client e = c /\ le_before e = v /\
            le_time w < le_time e.
Proof.
  intros Hwf Hr Hcall Hret Hinw Hw Htw Htc Hlt.
  destruct (read_complete cfg f s c v Hwf Hr Hcall Hret) as [e [Hin [Hc [Hb _]]]].
  exists e. repeat split; auto.
  eapply (real_time_order cfg f s _ w e tw tc); eauto. now rewrite Hc.
Qed.

Theorem write_effect cfg f s c d :
  wf_cfg cfg -> reachable cfg f s ->
  c_call (cfg c) = CWrite d -> returned s c ResOk ->
  exists e, In e (lin s (c_ino (cfg c))) /\ le_client e = c /\ le_after e = d.
Proof.
  intros Hwf Hr Hcall Hret.
  destruct (linearizable cfg f s Hwf Hr) as [_ Hcalls].
  destruct (Hcalls c _ Hret) as [[_ E]|[_ [e [t0 [t1 [Hin [Hc [Hspec _]]]]]]]]; [discriminate E|].
  unfold flags_of, body_of in Hspec. rewrite Hcall in Hspec. simpl in Hspec.
  rewrite spec_write in Hspec. injection Hspec as Ha. exists e. auto.
Qed.

Theorem transform_effect cfg f s c t x :
  wf_cfg cfg -> reachable cfg f s ->
  c_call (cfg c) = CTransform t -> returned s c x -> status s c = SClosing ->
  exists e, In e (lin s (c_ino (cfg c))) /\ le_client e = c /\
    match t (le_before e) with
    | Some new => x = ResOk /\ le_after e = new
    | None => x = ResErr /\ le_after e = le_before e
    end.
Proof.
  intros Hwf Hr Hcall Hret Hst.
  destruct (linearizable cfg f s Hwf Hr) as [_ Hcalls].
  destruct (Hcalls c _ Hret) as [[E _]|[_ [e [t0 [t1 [Hin [Hc [Hspec _]]]]]]]]; [congruence|].
  unfold flags_of, body_of in Hspec. rewrite Hcall in Hspec. simpl in Hspec.
  exists e. repeat split; auto.
  destruct (t (le_before e)) as [new|] eqn:Et.
  - rewrite (spec_transform _ _ _ Et) in Hspec. injection Hspec as -> ->. auto.
  - rewrite (spec_transform_fails _ _ Et) in Hspec. injection Hspec as -> ->. auto.
Qed.

Definition writer_b (cfg : nat -> client) (e : lentry) : bool :=
  match mode_of cfg (le_client e) with Some LEx => true | _ => false end.
Definition writers (cfg : nat -> client) (l : list lentry) : nat := length (filter (writer_b cfg) l).

(* only Reads and Transforms by g on the inode: the register is g^n of the initial contents,
   n = number of Transform calls that have passed their unlock — none is lost *)
Theorem no_lost_update cfg f s i g :
  wf_cfg cfg -> reachable cfg f s ->
  (forall c, c_ino (cfg c) = i ->
     c_call (cfg c) = CRead \/ c_call (cfg c) = CTransform (fun b => Some (g b))) ->
  reg s i = Nat.iter (writers cfg (lin s i)) g (content_of (f i)).
Proof.
  intros Hwf Hr Hcalls.
  destruct (linearizable cfg f s Hwf Hr) as [Hlog _]. destruct (Hlog i) as [Hleg [_ Hok]].
  revert Hok. generalize (reg s i) (lin s i) Hleg. clear Hleg Hlog.
  induction 1 as [|e l Hl IH]; intros Hok; [reflexivity|].
  assert (IH' : le_before e = Nat.iter (writers cfg l) g (content_of (f i))).
  { apply IH. intros e' Hin. apply Hok. now right. }
  destruct (Hok e (or_introl eq_refl)) as [Hino [[Hm Ha]|[Hm Ha]]];
    unfold writers; simpl; unfold writer_b at 1; rewrite Hm.
  - rewrite Ha. exact IH'.
  - simpl. fold (writers cfg l). rewrite <- IH', <- Ha.
    destruct (Hcalls _ Hino) as [Hc|Hc]; unfold mode_of in Hm; rewrite Hc in *.
    + discriminate Hm.
    + simpl. now rewrite (spec_transform _ _ (g (le_before e))).
Qed.

(* and when nobody holds the exclusive lock that is what the file holds *)
Corollary no_lost_update_contents cfg f s i g :
  wf_cfg cfg -> reachable cfg f s ->
  (forall c, c_ino (cfg c) = i ->
     c_call (cfg c) = CRead \/ c_call (cfg c) = CTransform (fun b => Some (g b))) ->
  (forall c, holds c LEx (ltab (st_os s) i) = false) ->
  content_of (files (st_os s) i) = Nat.iter (writers cfg (lin s i)) g (content_of (f i)).
Proof.
  intros Hwf Hr Hcalls Hno. rewrite (register_invariant cfg f s i Hwf Hr Hno).
  now apply no_lost_update.
Qed.

Definition bump (b : bytes) : bytes := b ++ [x2b].
Definition ex7_cfg (c : nat) : client :=
  match c with
  | 0 | 1 | 2 => {| c_ino := 0; c_call := CTransform (fun b => Some (bump b)) |}
  | _ => {| c_ino := 0; c_call := CRead |}
  end.

Example ex7_wf : wf_cfg ex7_cfg.
Proof.
  intros c. unfold ex7_cfg, wf_call. destruct c as [|[|[|c]]]; cbn [c_call body_of_call];
    try apply io_only_transform; apply io_only_read.
Qed.

(* three transformers and a reader, interleaved (the reader and the second and third
   transformer all open the file while the first holds the lock): nothing is lost, the reader
   sees a complete intermediate value *)
Example ex7_three_transforms :
  let s := run ex7_cfg (init_state ex7_cfg (fun _ => Some [x30]))
             (runs 0 4 ++ runs 1 1 ++ runs 2 1 ++ runs 3 1 ++ [EvEintr 1; EvRun 2; EvRun 3] ++
              runs 0 5 ++ runs 3 2 ++ runs 1 2 ++ runs 3 5 ++ runs 1 9 ++ runs 2 9) in
  files (st_os s) 0 = Some [x30; x2b; x2b; x2b] /\
  progs s 3 = Ret (ResData [x30; x2b]) /\
  map le_client (lin s 0) = [2; 1; 3; 0] /\
  writers ex7_cfg (lin s 0) = 3 /\ reg s 0 = [x30; x2b; x2b; x2b].
Proof. vm_compute. repeat split. Qed.

Lemma cnt_zero_notin c L : (forall e, In e L -> le_client e <> c) -> cnt c L = 0.
Proof.
  induction L as [|e L IH]; intros H; [reflexivity|].
  rewrite cnt_cons_other; [apply IH|apply H; now left]. intros e' Hin. apply H. now right.
Qed.

Theorem one_entry_per_client cfg f s c i :
  wf_cfg cfg -> reachable cfg f s ->
  cnt c (lin s i) <= 1 /\ (i <> c_ino (cfg c) -> cnt c (lin s i) = 0).
Proof.
  intros Hwf Hr. pose proof (inv07_of_reachable _ _ _ Hwf Hr) as Hinv.
  assert (Hother : i <> c_ino (cfg c) -> cnt c (lin s i) = 0).
  { intros Hi. apply cnt_zero_notin. intros e Hin Hc.
    destruct (j_ent _ _ _ Hinv i e Hin) as [Hino _]. rewrite Hc in Hino. congruence. }
  split; [|exact Hother].
  destruct (Nat.eq_dec i (c_ino (cfg c))) as [->|Hi]; [|rewrite (Hother Hi); lia].
  pose proof (j_ph _ _ _ Hinv c) as Hp. unfold cph7 in Hp.
  destruct Hp; try lia; try (destruct m; simpl in *; lia).
Qed.

(* a call that went through Close has exactly one *)
Theorem completed_call_one_entry cfg f s c x :
  wf_cfg cfg -> reachable cfg f s -> returned s c x -> status s c = SClosing ->
  cnt c (lin s (c_ino (cfg c))) = 1.
Proof.
  intros Hwf Hr Hret Hst. pose proof (inv07_of_reachable _ _ _ Hwf Hr) as Hinv.
  pose proof (j_ph _ _ _ Hinv c) as Hp. unfold cph7 in Hp. red in Hret.
  rewrite Hret, Hst in Hp. destruct (ph7_ret _ _ _ _ _ _ _ _ _ _ Hp) as [[E _]|[_ [_ H]]]; [discriminate E|exact H].
Qed.

Lemma cnt_count_occ c L : cnt c L = count_occ Nat.eq_dec (map le_client L) c.
Proof.
  unfold cnt. induction L as [|e L IH]; simpl; [reflexivity|].
  destruct (Nat.eq_dec (le_client e) c), (Nat.eqb_spec (le_client e) c); try contradiction; simpl;
    now rewrite IH.
Qed.

Lemma entries_distinct_of_cnt L : (forall c, cnt c L <= 1) -> NoDup (map le_client L).
Proof. intros H. apply (NoDup_count_occ Nat.eq_dec). intros c. rewrite <- cnt_count_occ. apply H. Qed.

Theorem entries_distinct cfg f s i :
  wf_cfg cfg -> reachable cfg f s -> NoDup (map le_client (lin s i)).
Proof.
  intros Hwf Hr. apply entries_distinct_of_cnt. intros c.
  apply (one_entry_per_client cfg f s c i Hwf Hr).
Qed.

(* exactly: when cs lists (once each) the Transform-by-g calls on the inode that have been
   started, and all of them have returned without error, the register is g^|cs| of the initial
   contents *)
Theorem no_lost_update_exact cfg f s i g cs :
  wf_cfg cfg -> reachable cfg f s ->
  (forall c, c_ino (cfg c) = i ->
     c_call (cfg c) = CRead \/ c_call (cfg c) = CTransform (fun b => Some (g b))) ->
  NoDup cs ->
  (forall c, In c cs -> c_ino (cfg c) = i /\ c_call (cfg c) = CTransform (fun b => Some (g b)) /\
                        returned s c ResOk) ->
  (forall c, c_ino (cfg c) = i -> c_call (cfg c) = CTransform (fun b => Some (g b)) ->
             ~ In c cs -> t_inv s c = None) ->
  reg s i = Nat.iter (length cs) g (content_of (f i)).
Proof.
  intros Hwf Hr Hcalls Hnd Hcs Hrest.
  rewrite (no_lost_update cfg f s i g Hwf Hr Hcalls). f_equal.
  destruct (linearizable cfg f s Hwf Hr) as [Hlog Hdone]. destruct (Hlog i) as [_ [_ Hok]].
  pose proof (invT_of_reachable _ _ _ Hwf Hr) as HT.
  unfold writers. rewrite <- (map_length le_client).
  apply Permutation_length. apply NoDup_Permutation.
  - apply NoDup_map_filter. now apply (entries_distinct cfg f s i).
  - exact Hnd.
  - intros c. split.
    + intros Hin. apply in_map_iff in Hin. destruct Hin as [e [Hc Hin]].
      apply filter_In in Hin. destruct Hin as [Hin Hw].
      destruct (Hok e Hin) as [Hino _]. rewrite Hc in Hino.
      unfold writer_b in Hw. rewrite Hc in Hw.
      destruct (Hcalls c Hino) as [Hcall|Hcall].
      * unfold mode_of in Hw. rewrite Hcall in Hw. discriminate Hw.
      * destruct (in_dec Nat.eq_dec c cs) as [Hi|Hni]; [exact Hi|exfalso].
        specialize (Hrest c Hino Hcall Hni).
        destruct (t_entry_inv _ HT _ _ Hin) as [t0 [Ht0 _]]. rewrite Hc in Ht0. congruence.
    + intros Hin. destruct (Hcs c Hin) as [Hino [Hcall Hret]].
      destruct (Hdone c _ Hret) as [[_ E]|[_ [e [t0 [t1 [Hine [Hc _]]]]]]]; [discriminate E|].
      rewrite Hino in Hine. apply in_map_iff. exists e. split; [exact Hc|].
      apply filter_In. split; [exact Hine|]. unfold writer_b, mode_of. rewrite Hc, Hcall. reflexivity.
Qed.
