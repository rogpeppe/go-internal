(* C07 (schedules): the register and the linearisation log as invariants of every schedule. *)
From Coq Require Import List NArith Arith Bool Lia Sorted.
From Coq.Strings Require Import Byte.
From GI Require Import Gen.LockedFileConsts LockedFile.LockedFile LockedFile.LockBasics
  LockedFile.LockProofs LockedFile.TransformProofs LockedFile.LinBasics.
Import ListNotations.

Definition cont (s : state) (i : nat) : bytes := content_of (files (st_os s) i).

Definition cnt (c : nat) (L : list lentry) : nat :=
  length (filter (fun e => Nat.eqb (le_client e) c) L).
Definition sh1 (m : lkind) : nat := match m with LSh => 1 | LEx => 0 end.

Lemma cnt_cons_same c t r x L :
  cnt c ({| le_client := c; le_time := t; le_before := r; le_after := x |} :: L) = S (cnt c L).
Proof. unfold cnt. simpl. now rewrite Nat.eqb_refl. Qed.

Lemma cnt_cons_other c e L : le_client e <> c -> cnt c (e :: L) = cnt c L.
Proof. intros H. unfold cnt. simpl. destruct (Nat.eqb_spec (le_client e) c); [contradiction|reflexivity]. Qed.

Section Ph7.
Variables (fl : N) (b : prog) (c : nat).

Definition mk_entry (t : nat) (r x : bytes) : lentry :=
  {| le_client := c; le_time := t; le_before := r; le_after := x |}.

(* program / descriptor / flock entry / status / contents X / register R / log L *)
Inductive ph7 : prog -> option fdesc -> option lkind -> cstatus ->
                bytes -> bytes -> list lentry -> Prop :=
| p7_start X R L : cnt c L = 0 -> ph7 (client_prog fl b) None None SIdle X R L
| p7_lock X R L : cnt c L = 0 ->
    ph7 (lock_stage fl (klock fl b)) (Some (fresh_fd fl)) None SIdle X R L
| p7_trunc m X R L :
    lock_mode_of_flags fl = Some m -> X = R -> (m = LSh -> has_entry c R L) ->
    cnt c L = sh1 m ->
    ph7 (trunc_stage fl (k0 b)) (Some (fresh_fd fl)) (Some m) SIdle X R L
| p7_truncfail fd X R L :
    lock_mode_of_flags fl = Some LSh -> X = R -> has_entry c R L -> cnt c L = 1 ->
    ph7 (trunc_fail_prog (Ret ResErr)) (Some fd) (Some LSh) SIdle X R L
| p7_ret m X R L :
    lock_mode_of_flags fl = Some m -> X = start_contents fl R ->
    (m = LSh -> X = R /\ has_entry c R L) -> cnt c L = sh1 m ->
    ph7 (after_open b) (Some (fresh_fd fl)) (Some m) SIdle X R L
| p7_cs m b' fd X R L :
    lock_mode_of_flags fl = Some m -> io_only b' -> fd_acc fd = fd_acc (fresh_fd fl) ->
    outcome2 (run_body b' no_faults 0 X fd) = call_spec fl b R ->
    (m = LSh -> X = R /\ has_entry c R L) -> cnt c L = sh1 m ->
    ph7 (bind b' close_part) (Some fd) (Some m) SInCS X R L
| p7_closing m x fd X R L :
    lock_mode_of_flags fl = Some m -> (x, X) = call_spec fl b R ->
    (m = LSh -> X = R /\ has_entry c R L) -> cnt c L = sh1 m ->
    ph7 (close_prog (Ret x)) (Some fd) (Some m) SClosing X R L
| p7_close_idle fd X R L : cnt c L <= 1 ->
    ph7 (Do OClose (fun _ => Ret ResErr)) (Some fd) None SIdle X R L
| p7_close x fd X R L :
    done_entry fl b c x L -> cnt c L = 1 ->
    ph7 (Do OClose (fun _ => Ret x)) (Some fd) None SClosing X R L
| p7_done_idle X R L : cnt c L <= 1 -> ph7 (Ret ResErr) None None SIdle X R L
| p7_done x X R L : done_entry fl b c x L -> cnt c L = 1 -> ph7 (Ret x) None None SClosing X R L.

(* what the other clients' steps may change without disturbing this client *)
Lemma ph7_frame p fd l st X R L X' R' L' :
  ph7 p fd l st X R L ->
  (l <> None -> X' = X /\ R' = R) ->
  (L' = L \/ exists e, L' = e :: L /\ le_client e <> c) ->
  ph7 p fd l st X' R' L'.
Proof.
  intros H Hh HL.
  assert (Hhe : forall r, has_entry c r L -> has_entry c r L').
  { intros r He. destruct HL as [->|[e [-> _]]]; [exact He|now apply has_entry_mono]. }
  assert (Hde : forall x, done_entry fl b c x L -> done_entry fl b c x L').
  { intros x He. destruct HL as [->|[e [-> _]]]; [exact He|now apply done_entry_mono]. }
  assert (Hc : cnt c L' = cnt c L).
  { destruct HL as [->|[e [-> Hne]]]; [reflexivity|now apply cnt_cons_other]. }
  destruct H as [? ? ? Hcnt | ? ? ? Hcnt | m ? ? ? Hm HXR Hent Hcnt | ? ? ? ? Hm HXR Hent Hcnt
                | m ? ? ? Hm HXs Hsh Hcnt | m b' ? ? ? ? Hm Hb' Hfdacc Hspec Hsh Hcnt
                | m x ? ? ? ? Hm Hspec Hsh Hcnt | ? ? ? ? Hcnt | x ? ? ? ? Hdone Hcnt
                | ? ? ? Hcnt | x ? ? ? Hdone Hcnt];
    try (destruct Hh as [-> ->]; [discriminate|]).
  - apply p7_start. congruence.
  - apply p7_lock. congruence.
  - apply (p7_trunc m); auto. congruence.
  - apply p7_truncfail; auto. congruence.
  - apply (p7_ret m); auto; [|congruence]. intros E. destruct (Hsh E). auto.
  - apply (p7_cs m); auto; [|congruence]. intros E. destruct (Hsh E). auto.
  - apply (p7_closing m); auto; [|congruence]. intros E. destruct (Hsh E). auto.
  - apply p7_close_idle. congruence.
  - apply p7_close; auto. congruence.
  - apply p7_done_idle. congruence.
  - apply p7_done; auto. congruence.
Qed.

(* a call that has returned: it failed before it held the lock, or it went through Close and
   has its entry *)
Lemma ph7_ret x fd l st X R L :
  ph7 (Ret x) fd l st X R L ->
  (st = SIdle /\ x = ResErr) \/ (st = SClosing /\ done_entry fl b c x L /\ cnt c L = 1).
Proof.
  intros H. remember (Ret x) as p eqn:Ep.
  destruct H as [| | | | |m b' ? ? ? ? Hm Hb' | | | | |]; try discriminate Ep;
    try (unfold client_prog, open_file_prog, lock_stage, flock_step, trunc_fail_prog,
           after_open, close_prog in Ep; simpl in Ep; discriminate Ep).
  - unfold trunc_stage in Ep. destruct (has_flag _ _); discriminate Ep.
  - destruct Hb'; simpl in Ep; discriminate Ep.
  - injection Ep as <-. left. auto.
  - injection Ep as <-. right. auto.
Qed.

End Ph7.

Definition cph7 (cfg : nat -> client) (s : state) (c : nat) : Prop :=
  let i := c_ino (cfg c) in
  ph7 (flags_of_call (c_call (cfg c))) (body_of_call (c_call (cfg c))) c
      (progs s c) (fds (st_os s) c) (locked c (ltab (st_os s) i)) (status s c)
      (cont s i) (reg s i) (lin s i).

Definition no_ex (s : state) (i : nat) : Prop :=
  forall c, locked c (ltab (st_os s) i) <> Some LEx.

Definition entry_ok (cfg : nat -> client) (i : nat) (e : lentry) : Prop :=
  let c := le_client e in
  c_ino (cfg c) = i /\
  ((mode_of cfg c = Some LSh /\ le_after e = le_before e) \/
   (mode_of cfg c = Some LEx /\
    snd (call_spec (flags_of_call (c_call (cfg c))) (body_of_call (c_call (cfg c))) (le_before e))
    = le_after e)).

Record inv07 (cfg : nat -> client) (f : nat -> option bytes) (s : state) : Prop := {
  j_06 : inv06 cfg s;
  j_ph : forall c, cph7 cfg s c;
  j_reg : forall i, no_ex s i -> cont s i = reg s i;
  j_legal : forall i, legal (content_of (f i)) (lin s i) (reg s i);
  j_ent : forall i e, In e (lin s i) -> entry_ok cfg i e
}.

(* what a step of client c does to register and log of its inode, by c's entry in the flock table
   before (lb) and after (la); x: the contents afterwards *)
Definition reg_after (lb la : option lkind) (r x : bytes) : bytes :=
  match lb, la with
  | Some LEx, Some LEx => r
  | Some LEx, _ => x
  | _, _ => r
  end.

Definition lin_after (c t : nat) (lb la : option lkind) (r x : bytes) (l : list lentry) : list lentry :=
  match lb, la with
  | Some LEx, Some LEx => l
  | Some LEx, _ => mk_entry c t r x :: l
  | None, Some LSh => mk_entry c t r r :: l
  | _, _ => l
  end.

Lemma reg_after_same lb r x : reg_after lb lb r x = r.
Proof. destruct lb as [[|]|]; reflexivity. Qed.
Lemma lin_after_same c t lb r x l : lin_after c t lb lb r x l = l.
Proof. destruct lb as [[|]|]; reflexivity. Qed.

Lemma ghost_reg_at i c o1 o2 s :
  NoDup (map fst (ltab o1 i)) -> NoDup (map fst (ltab o2 i)) ->
  ghost_reg i c o1 o2 s i =
  reg_after (locked c (ltab o1 i)) (locked c (ltab o2 i)) (reg s i) (content_of (files o2 i)).
Proof.
  intros H1 H2. unfold ghost_reg. rewrite (holds_eq_locked _ _ _ H1), (holds_eq_locked _ _ _ H2).
  destruct (locked c (ltab o1 i)) as [[|]|], (locked c (ltab o2 i)) as [[|]|]; simpl;
    rewrite ?upd_same; reflexivity.
Qed.

Lemma ghost_lin_at i c o1 o2 s :
  NoDup (map fst (ltab o1 i)) -> NoDup (map fst (ltab o2 i)) ->
  ghost_lin i c o1 o2 s i =
  lin_after c (now s) (locked c (ltab o1 i)) (locked c (ltab o2 i)) (reg s i)
            (content_of (files o2 i)) (lin s i).
Proof.
  intros H1 H2. unfold ghost_lin.
  rewrite !(holds_eq_locked _ _ _ H1), !(holds_eq_locked _ _ _ H2).
  destruct (locked c (ltab o1 i)) as [[|]|], (locked c (ltab o2 i)) as [[|]|]; simpl;
    rewrite ?upd_same; reflexivity.
Qed.

Lemma ghost_other i c o1 o2 s j :
  j <> i -> ghost_reg i c o1 o2 s j = reg s j /\ ghost_lin i c o1 o2 s j = lin s j.
Proof.
  intros Hj. unfold ghost_reg, ghost_lin.
  repeat match goal with |- context [if ?x then _ else _] => destruct x end;
    rewrite ?upd_other by assumption; auto.
Qed.

Lemma cph7_advance cfg s c o p' o2 :
  let i := c_ino (cfg c) in
  ph7 (flags_of_call (c_call (cfg c))) (body_of_call (c_call (cfg c))) c
      p' (fds o2 c) (locked c (ltab o2 i)) (status_after o (status s c))
      (content_of (files o2 i)) (ghost_reg i c (st_os s) o2 s i) (ghost_lin i c (st_os s) o2 s i) ->
  cph7 cfg (advance i c o p' o2 s) c.
Proof. intros i H. unfold cph7, cont. simpl. rewrite !upd_same. exact H. Qed.

Lemma cph7_tick cfg s c : cph7 cfg s c -> cph7 cfg (tick s) c.
Proof. intros H. exact H. Qed.

Lemma nodup_of_ok l : ltab_ok l -> NoDup (map fst l).
Proof. now intros [H _]. Qed.

Definition own_eff (cfg : nat -> client) (s s' : state) (c : nat) : Prop :=
  let i := c_ino (cfg c) in
  let fl := flags_of_call (c_call (cfg c)) in
  let b := body_of_call (c_call (cfg c)) in
  cph7 cfg s' c /\
  (locked c (ltab (st_os s) i) <> Some LEx -> cont s' i = cont s i) /\
  (locked c (ltab (st_os s) i) = Some LEx -> locked c (ltab (st_os s') i) <> Some LEx ->
   snd (call_spec fl b (reg s i)) = cont s' i).

Lemma ghost_same_holds i c o1 o2 s :
  (forall k, holds c k (ltab o2 i) = holds c k (ltab o1 i)) ->
  ghost_reg i c o1 o2 s = reg s /\ ghost_lin i c o1 o2 s = lin s.
Proof.
  intros H. unfold ghost_reg, ghost_lin. rewrite !H.
  destruct (holds c LEx (ltab o1 i)), (holds c LSh (ltab o1 i)); auto.
Qed.

Lemma holds_drop_self c k l : holds c k (drop c l) = false.
Proof. apply locked_None_holds, locked_drop_same. Qed.

Lemma own_eff_tick cfg s c : cph7 cfg s c -> own_eff cfg s (tick s) c.
Proof. intros H. split; [exact H|]. split; [reflexivity|]. intros E E2. now elim E2. Qed.

(* a step that leaves the client's entry in the flock table as it is publishes nothing and reads
   nothing: register and log stay *)
Lemma own_eff_keep cfg s c o p' o2 :
  let i := c_ino (cfg c) in
  (forall k, holds c k (ltab o2 i) = holds c k (ltab (st_os s) i)) ->
  locked c (ltab o2 i) = locked c (ltab (st_os s) i) ->
  (locked c (ltab (st_os s) i) <> Some LEx -> content_of (files o2 i) = cont s i) ->
  ph7 (flags_of_call (c_call (cfg c))) (body_of_call (c_call (cfg c))) c
      p' (fds o2 c) (locked c (ltab (st_os s) i)) (status_after o (status s c))
      (content_of (files o2 i)) (reg s i) (lin s i) ->
  own_eff cfg s (advance i c o p' o2 s) c.
Proof.
  intros i Hh Hl Hc Hp. destruct (ghost_same_holds i c (st_os s) o2 s Hh) as [Eg El].
  split; [|split].
  - apply cph7_advance. fold i. now rewrite Eg, El, Hl.
  - exact Hc.
  - intros E E2. exfalso. apply E2. simpl. fold i. now rewrite Hl.
Qed.

Lemma own_eff_same_table cfg s c o p' o2 :
  let i := c_ino (cfg c) in
  ltab o2 i = ltab (st_os s) i ->
  (locked c (ltab (st_os s) i) <> Some LEx -> content_of (files o2 i) = cont s i) ->
  ph7 (flags_of_call (c_call (cfg c))) (body_of_call (c_call (cfg c))) c
      p' (fds o2 c) (locked c (ltab (st_os s) i)) (status_after o (status s c))
      (content_of (files o2 i)) (reg s i) (lin s i) ->
  own_eff cfg s (advance i c o p' o2 s) c.
Proof. intros i E. apply own_eff_keep; fold i; now rewrite E. Qed.

Lemma own_step cfg f s c eintr :
  wf_cfg cfg -> inv07 cfg f s -> own_eff cfg s (run_client cfg c eintr s) c.
Proof.
  intros Hwf Hinv. pose proof (Hwf c) as Hio. red in Hio.
  destruct Hinv as [H06 Hph Hreg _ _]. pose proof (i_tab _ _ H06) as Htab.
  specialize (Hph c). pose proof (own_eff_tick cfg s c Hph) as Htick. unfold cph7 in Hph.
  set (fl := flags_of_call (c_call (cfg c))) in *.
  set (b := body_of_call (c_call (cfg c))) in *.
  set (i := c_ino (cfg c)) in *.
  destruct (lock_mode_total fl) as [m0 [Hm0 Hreq]].
  pose proof (nodup_of_ok _ (Htab i)) as Hnd1.
  unfold run_client. fold i.
  remember (progs s c) as p eqn:Hp. remember (fds (st_os s) c) as fdo eqn:Hf.
  remember (locked c (ltab (st_os s) i)) as lk eqn:Hl. remember (status s c) as st eqn:Hs.
  remember (cont s i) as X eqn:HX. remember (reg s i) as R eqn:HR. remember (lin s i) as L eqn:HL.
  assert (Ho : fdo <> None -> isopen (fds (st_os s) c) = true)
    by (rewrite <- Hf; now destruct fdo).
  destruct Hph as [X R L Hcnt | X R L Hcnt | m X R L Hm HXR Hent Hcnt | fd X R L Hm HXR Hent Hcnt
                  | m X R L Hm HXs Hsh Hcnt | m b' fd X R L Hm Hb' Hfdacc Hspec Hsh Hcnt
                  | m x fd X R L Hm Hspec Hsh Hcnt | fd X R L Hcnt | x fd X R L Hdone Hcnt
                  | X R L Hcnt | x X R L Hdone Hcnt].
  8,9: (* p7_close_idle, p7_close: the close after a failure or at the end of Close; c has no
          entry left to lose *)
    rewrite (os_close _ _ _ _ _ (Ho ltac:(discriminate)));
    apply own_eff_keep; fold i fl b; rewrite <- ?Hl; simpl; rewrite ?upd_same;
    [intros k; destruct (Nat.eqb _ 0); [|reflexivity]; rewrite upd_same, holds_drop_self;
     symmetry; now apply locked_None_holds
    |destruct (Nat.eqb _ 0); [apply locked_upd_drop|now symmetry]
    |intros _; reflexivity
    |rewrite <- Hs, <- HL; first [now apply p7_done_idle|now apply p7_done]].
  - (* start: openat *)
    unfold client_prog, open_file_prog.
    destruct (os_step i c (OOpen _) FNone eintr (st_os s)) as [[r o2]|] eqn:Hos; [|exact Htick].
    assert (Hnt : has_flag (strip fl openfile_strip_mask) sys_O_TRUNC = false)
      by (apply strip_has_flag; discriminate).
    destruct (os_open_exact _ _ _ _ _ (eq_sym Hf) Hnt _ _ Hos) as [Hc [Hlt [_ [Hok Herr]]]].
    apply own_eff_same_table; [now rewrite Hlt|intros _; exact Hc|].
    fold i fl b. rewrite Hc, <- Hl, <- Hs, <- HR, <- HL. fold (cont s i). rewrite <- HX.
    destruct r; try (rewrite (Herr ltac:(discriminate)), <- Hf; apply p7_done_idle; lia).
    rewrite (Hok eq_refl). now apply p7_lock.
  - (* flock *)
    unfold lock_stage, flock_step. simpl.
    rewrite (os_flock_req _ _ _ m0 _ _ _ Hreq (Ho ltac:(discriminate))).
    destruct (negb (lockable (fds (st_os s) c))).
    { apply own_eff_same_table; [reflexivity|intros _; reflexivity|].
      fold i fl b. rewrite <- Hl, <- Hf, <- Hs, <- HL. apply p7_close_idle. lia. }
    destruct (can_grant m0 c (ltab (st_os s) i)) eqn:Hg.
    + (* granted: the linearisation point of a reader *)
      assert (Hnd2 : NoDup (map fst ((c, m0) :: drop c (ltab (st_os s) i))))
        by (apply nodup_of_ok, ltab_ok_grant; [apply Htab|exact Hg]).
      assert (HXR : X = R).
      { rewrite HX, HR. apply Hreg. intros d. destruct (Nat.eq_dec d c) as [->|Hd].
        - fold i. rewrite <- Hl. discriminate.
        - eapply can_grant_no_ex; eassumption. }
      unfold own_eff; fold i fl b; rewrite <- Hl, <- HX, <- HR.
      split; [|split; [intros _; unfold cont; simpl; now rewrite HX|intros E; congruence]].
      apply cph7_advance; fold i fl b. simpl ltab. simpl files. simpl fds.
      rewrite (ghost_reg_at _ _ _ _ _ Hnd1), (ghost_lin_at _ _ _ _ _ Hnd1) by (simpl; rewrite upd_same; exact Hnd2).
      simpl ltab. rewrite !upd_same, locked_cons_same, <- Hl, <- Hf, <- Hs, <- HR, <- HL.
      fold (cont s i). rewrite <- HX.
      destruct m0; cbn [reg_after lin_after].
      * apply (p7_trunc _ _ _ LSh); auto.
        -- intros _. exists (mk_entry c (now s) R R). repeat split; auto. now left.
        -- unfold mk_entry. rewrite cnt_cons_same, Hcnt. reflexivity.
      * apply (p7_trunc _ _ _ LEx); auto. discriminate.
    + destruct eintr; [|exact Htick].
      apply own_eff_same_table; [reflexivity|intros _; reflexivity|].
      fold i fl b. rewrite <- Hl, <- Hf, <- Hs, <- HR, <- HL. fold (cont s i). rewrite <- HX.
      exact (p7_lock fl b c X R L Hcnt).
  - (* ftruncate, or directly the return mark *)
    unfold trunc_stage. destruct (has_flag fl truncate_cond_mask) eqn:Ht.
    + rewrite (os_io_flt i c (OFtruncate (N.to_nat truncate_size)) _ eintr FNone (fresh_fd fl) eq_refl (eq_sym Hf)).
      fold (cont s i). rewrite <- HX. simpl io_step.
      destruct m.
      * rewrite (shared_not_writable fl Hm).
        apply own_eff_same_table; [reflexivity|intros _; simpl; now rewrite upd_same|].
        simpl. rewrite !upd_same. fold i fl b. rewrite <- Hl, <- Hs, <- HR, <- HL. simpl.
        apply p7_truncfail; auto; exact Hcnt.
      * rewrite (exclusive_writable fl Hm).
        apply own_eff_same_table; [reflexivity|fold i; rewrite <- Hl; intros E; now elim E|].
        simpl. rewrite !upd_same. fold i fl b. rewrite <- Hl, <- Hs, <- HR, <- HL. simpl.
        apply (p7_ret _ _ _ LEx); auto; try exact Hcnt; [|discriminate].
        unfold start_contents. now rewrite Ht, HXR.
    + unfold k0, after_open. simpl. rewrite ?os_mark.
      apply own_eff_same_table; [reflexivity|intros _; reflexivity|].
      fold i fl b. rewrite <- Hl, <- Hf, <- Hs, <- HR, <- HL. fold (cont s i). rewrite <- HX.
      apply (p7_cs _ _ _ m); auto. rewrite call_spec_eq. unfold start_contents. now rewrite Ht, HXR.
  - (* failed truncate: unlock *)
    unfold trunc_fail_prog. simpl. rewrite (os_flock_unlock _ _ _ _ _ (Ho ltac:(discriminate))).
    assert (Hnd2 : NoDup (map fst (drop c (ltab (st_os s) i)))) by (apply drop_NoDup, Hnd1).
    unfold own_eff; fold i fl b; rewrite <- Hl, <- HX, <- HR.
    split; [|split; [intros _; unfold cont; simpl; now rewrite HX|intros E; discriminate E]].
    apply cph7_advance; fold i fl b. simpl ltab. simpl files. simpl fds.
    rewrite (ghost_reg_at _ _ _ _ _ Hnd1), (ghost_lin_at _ _ _ _ _ Hnd1) by (simpl; rewrite upd_same; exact Hnd2).
    simpl ltab. rewrite !upd_same, locked_drop_same, <- Hl, <- Hf, <- Hs. cbn [reg_after lin_after].
    apply p7_close_idle. rewrite <- HL, Hcnt. lia.
  - (* the locking call returns *)
    unfold after_open. simpl. rewrite ?os_mark.
    apply own_eff_same_table; [reflexivity|intros _; reflexivity|].
    fold i fl b. rewrite <- Hl, <- Hf, <- Hs, <- HR, <- HL. fold (cont s i). rewrite <- HX.
    apply (p7_cs _ _ _ m); auto. rewrite call_spec_eq. now rewrite HXs.
  - (* inside the critical section *)
    destruct Hb' as [x|o k Hoio Hk].
    + (* body finished: Close is called *)
      simpl. rewrite ?os_mark.
      apply own_eff_same_table; [reflexivity|intros _; reflexivity|].
      fold i fl b. rewrite <- Hl, <- Hf, <- Hs, <- HR, <- HL. fold (cont s i). rewrite <- HX.
      now apply (p7_closing _ _ _ m).
    + simpl bind. cbv iota.
      rewrite (os_io_flt i c o _ eintr FNone fd Hoio (eq_sym Hf)).
      fold (cont s i). rewrite <- HX.
      pose proof (io_step_acc o FNone X fd) as Hacc.
      pose proof (io_step_readonly o FNone X fd) as Hro.
      simpl in Hspec. unfold no_faults at 1 in Hspec.
      destruct (io_step o FNone X fd) as [[r X2] fd2]. simpl in Hacc, Hro.
      rewrite run_body_index in Hspec.
      assert (Hst : status_after o SInCS = SInCS) by (destruct o; try discriminate Hoio; reflexivity).
      assert (HSH : m = LSh -> X2 = X).
      { intros ->. apply Hro. rewrite Hfdacc. apply (shared_not_writable fl Hm). }
      assert (Hgoal : ph7 fl b c (bind (k r) close_part) (Some fd2) (Some m) SInCS X2 R L).
      { apply (p7_cs _ _ _ m); auto; [congruence|].
        intros E. destruct (Hsh E) as [E1 E2]. split; [|exact E2]. rewrite (HSH E). exact E1. }
      assert (Hres : own_eff cfg s (advance i c o (bind (k r) close_part)
                {| files := upd (files (st_os s)) i (Some X2); fds := upd (fds (st_os s)) c (Some fd2);
                   refs := refs (st_os s); ltab := ltab (st_os s) |} s) c).
      { apply own_eff_same_table; [reflexivity| |].
        - fold i. rewrite <- Hl. simpl. rewrite upd_same. simpl. intros E. rewrite HX in HSH. apply HSH.
          destruct m; [reflexivity|now elim E].
        - simpl. rewrite !upd_same. fold i fl b. rewrite <- Hl, <- Hs, <- HR, <- HL, Hst. exact Hgoal. }
      destruct r; exact Hres.
  - (* Close: unlock — the linearisation point of a writer *)
    unfold close_prog. simpl. rewrite (os_flock_unlock _ _ _ _ _ (Ho ltac:(discriminate))).
    assert (Hnd2 : NoDup (map fst (drop c (ltab (st_os s) i)))) by (apply drop_NoDup, Hnd1).
    unfold own_eff; fold i fl b; rewrite <- Hl, <- HX, <- HR.
    split; [|split].
    + apply cph7_advance; fold i fl b. simpl ltab. simpl files. simpl fds.
      rewrite (ghost_reg_at _ _ _ _ _ Hnd1), (ghost_lin_at _ _ _ _ _ Hnd1) by (simpl; rewrite upd_same; exact Hnd2).
      simpl ltab. rewrite !upd_same, locked_drop_same, <- Hl, <- Hf, <- Hs, <- HR, <- HL.
      fold (cont s i). rewrite <- HX. simpl.
      destruct m; apply p7_close.
      * destruct (Hsh eq_refl) as [E1 [e [Hin [Hc [Hb Ha]]]]].
        exists e. repeat split; auto. rewrite Ha, Hb. rewrite E1 in Hspec. exact Hspec.
      * exact Hcnt.
      * change (content_of (files (st_os s) i)) with (cont s i). rewrite <- HX.
        exists (mk_entry c (now s) R X). split; [now left|]. split; [reflexivity|exact Hspec].
      * unfold mk_entry. rewrite cnt_cons_same, Hcnt. reflexivity.
    + intros _. unfold cont. simpl. now rewrite HX.
    + intros E _. unfold cont. simpl. fold (cont s i). rewrite <- HX. now rewrite <- Hspec.
  - (* returned after a failure *) exact Htick.
  - (* returned *) exact Htick.
Qed.

Definition ghost_eff (cfg : nat -> client) (d : nat) (s s' : state) : Prop :=
  let i := c_ino (cfg d) in
  let lb := locked d (ltab (st_os s) i) in
  let la := locked d (ltab (st_os s') i) in
  (forall j, j <> i -> cont s' j = cont s j /\ reg s' j = reg s j /\ lin s' j = lin s j) /\
  reg s' i = reg_after lb la (reg s i) (cont s' i) /\
  lin s' i = lin_after d (now s) lb la (reg s i) (cont s' i) (lin s i).

Lemma ghost_eff_same cfg d s s' :
  st_os s' = st_os s -> reg s' = reg s -> lin s' = lin s -> ghost_eff cfg d s s'.
Proof.
  intros E1 E2 E3. unfold ghost_eff, cont. rewrite E1, E2, E3.
  rewrite reg_after_same, lin_after_same. auto.
Qed.

Lemma ghost_eff_advance cfg d eintr s o p' r o2 :
  (forall i, ltab_ok (ltab (st_os s) i)) ->
  os_step (c_ino (cfg d)) d o FNone eintr (st_os s) = Some (r, o2) ->
  ghost_eff cfg d s (advance (c_ino (cfg d)) d o p' o2 s).
Proof.
  intros Htab Hos. set (i := c_ino (cfg d)) in *.
  pose proof (nodup_of_ok _ (Htab i)) as Hnd1.
  pose proof (nodup_of_ok _ (os_step_ltab_ok _ _ _ _ _ _ _ _ Hos (Htab i))) as Hnd2.
  unfold ghost_eff, cont. fold i. simpl. split; [|split].
  - intros j Hj. rewrite (os_step_files_other_inode _ _ _ _ _ _ _ _ j Hos Hj).
    destruct (ghost_other i d (st_os s) o2 s j Hj) as [-> ->]. auto.
  - apply (ghost_reg_at _ _ _ _ _ Hnd1 Hnd2).
  - apply (ghost_lin_at _ _ _ _ _ Hnd1 Hnd2).
Qed.

Lemma run_client_ghost cfg d eintr s :
  (forall i, ltab_ok (ltab (st_os s) i)) ->
  ghost_eff cfg d s (run_client cfg d eintr s).
Proof.
  intros Htab. unfold run_client.
  destruct (progs s d) as [x|o k|o k]; [now apply ghost_eff_same| |];
  destruct (os_step (c_ino (cfg d)) d o FNone eintr (st_os s)) as [[r o2]|] eqn:Hos;
    try now apply ghost_eff_same.
  - eapply ghost_eff_advance; eassumption.
  - destruct r; (eapply ghost_eff_advance; eassumption).
Qed.

Lemma reg_after_not_ex lb la r x : lb <> Some LEx -> reg_after lb la r x = r.
Proof. destruct lb as [[|]|]; try reflexivity. intros H. now elim H. Qed.

Lemma lin_after_mono c t lb la r x l :
  lin_after c t lb la r x l = l \/
  exists e, lin_after c t lb la r x l = e :: l /\ le_client e = c.
Proof.
  destruct lb as [[|]|], la as [[|]|]; simpl; auto; right; eexists; split; reflexivity.
Qed.

Lemma inv07_run_client cfg f d eintr s :
  wf_cfg cfg -> inv07 cfg f s -> inv07 cfg f (run_client cfg d eintr s).
Proof.
  intros Hwf Hinv.
  pose proof (own_step cfg f s d eintr Hwf Hinv) as [Hown1 [Hown2 Hown3]].
  destruct Hinv as [H06 Hph Hreg Hleg Hent].
  pose proof (inv06_run_client cfg d eintr s Hwf H06) as H06'.
  pose proof (run_client_ghost cfg d eintr s (i_tab _ _ H06)) as [Hg1 [Hg2 Hg3]].
  set (s' := run_client cfg d eintr s) in *. set (i := c_ino (cfg d)) in *.
  set (lb := locked d (ltab (st_os s) i)) in *. set (la := locked d (ltab (st_os s') i)) in *.
  assert (Hlb_other : forall c m, c <> d -> c_ino (cfg c) = i ->
            locked c (ltab (st_os s) i) = Some m -> lb <> Some LEx).
  { intros c m Hc Hi Hl E. destruct (i_tab _ _ H06 i) as [_ Hex].
    apply Hc. eapply Hex; apply locked_In; eassumption. }
  split.
  - exact H06'.
  - intros c. destruct (Nat.eq_dec c d) as [->|Hc]; [exact Hown1|].
    destruct (run_client_frame cfg d eintr s c Hc) as [E1 [E2 [E3 E4]]]. fold s' in E1, E2, E3, E4.
    unfold cph7. rewrite E1, E2, E3, E4.
    eapply ph7_frame; [apply (Hph c)| |].
    + intros Hl. destruct (Nat.eq_dec (c_ino (cfg c)) i) as [Hi|Hi].
      * rewrite Hi in *. destruct (locked c (ltab (st_os s) i)) as [m|] eqn:Hlm; [|now elim Hl].
        pose proof (Hlb_other c m Hc Hi Hlm) as Hnex.
        split; [now apply Hown2|]. rewrite Hg2. now apply reg_after_not_ex.
      * destruct (Hg1 _ Hi) as [-> [-> _]]. auto.
    + destruct (Nat.eq_dec (c_ino (cfg c)) i) as [Hi|Hi].
      * rewrite Hi, Hg3. destruct (lin_after_mono d (now s) lb la (reg s i) (cont s' i) (lin s i))
          as [E|[e [E Hc']]]; [now left|right]. exists e. split; [exact E|congruence].
      * destruct (Hg1 _ Hi) as [_ [_ ->]]. now left.
  - intros j Hno. destruct (Nat.eq_dec j i) as [->|Hj].
    + assert (Hla : la <> Some LEx) by apply Hno.
      rewrite Hg2. assert (Hdec : lb = Some LEx \/ lb <> Some LEx) by (destruct lb as [[|]|]; auto; right; discriminate).
      destruct Hdec as [Hlb|Hlb].
      * unfold reg_after. rewrite Hlb. destruct la as [[|]|]; try reflexivity. now elim Hla.
      * rewrite (reg_after_not_ex _ _ _ _ Hlb), (Hown2 Hlb). apply Hreg.
        intros c. destruct (Nat.eq_dec c d) as [->|Hc]; [exact Hlb|].
        destruct (run_client_frame cfg d eintr s c Hc) as [_ [_ [_ E4]]]. rewrite <- E4. apply Hno.
    + destruct (Hg1 _ Hj) as [-> [-> _]]. apply Hreg.
      intros c. unfold s' in Hno. specialize (Hno c).
      now rewrite (run_client_ltab_other cfg d eintr s j Hj) in Hno.
  - intros j. destruct (Nat.eq_dec j i) as [->|Hj].
    + rewrite Hg2, Hg3. specialize (Hleg i).
      destruct lb as [[|]|], la as [[|]|]; simpl; try exact Hleg;
        match goal with |- legal _ (mk_entry ?c ?t ?r ?x :: _) _ =>
          apply (legal_cons _ (mk_entry c t r x)); exact Hleg end.
    + destruct (Hg1 _ Hj) as [_ [-> ->]]. apply Hleg.
  - intros j e Hin. destruct (Nat.eq_dec j i) as [->|Hj].
    + rewrite Hg3 in Hin.
      assert (Hnew_ex : lb = Some LEx -> la <> Some LEx ->
                entry_ok cfg i (mk_entry d (now s) (reg s i) (cont s' i))).
      { intros Hb Ha. split; [reflexivity|]. right. simpl. split.
        - exact (inv06_lock_mode _ s H06 d LEx Hb).
        - now apply Hown3. }
      assert (Hnew_sh : la = Some LSh -> entry_ok cfg i (mk_entry d (now s) (reg s i) (reg s i))).
      { intros Ha. split; [reflexivity|]. left. simpl. split; [|reflexivity].
        exact (inv06_lock_mode _ s' H06' d LSh Ha). }
      destruct lb as [[|]|] eqn:Eb, la as [[|]|] eqn:Ea; simpl in Hin;
        try (now apply Hent);
        (destruct Hin as [<-|Hin]; [|now apply Hent]);
        first [apply Hnew_ex; congruence | apply Hnew_sh; congruence].
    + destruct (Hg1 _ Hj) as [_ [_ E]]. rewrite E in Hin. now apply Hent.
Qed.

(* an inherited copy going away publishes nothing: it can only drop the entry of a closed
   description, which has none *)
Lemma dupclose_ghost_same cfg s c :
  inv06 cfg s ->
  let i := c_ino (cfg c) in
  ghost_reg i c (st_os s) (os_dupclose i c (st_os s)) s = reg s /\
  ghost_lin i c (st_os s) (os_dupclose i c (st_os s)) s = lin s.
Proof.
  intros H06 i. apply ghost_same_holds. intros k.
  destruct (os_dupclose_same i c (st_os s)) as (_ & _ & [->|[Hc ->]]); [reflexivity|].
  rewrite upd_same, holds_drop_self. symmetry.
  apply locked_None_holds, (inv06_closed_unlocked _ s c H06 Hc).
Qed.

Lemma inv07_exec cfg f s e : wf_cfg cfg -> inv07 cfg f s -> inv07 cfg f (exec cfg s e).
Proof.
  intros Hwf Hinv. destruct e as [c|c|c|c]; simpl.
  - now apply inv07_run_client.
  - now apply inv07_run_client.
  - pose proof (inv06_exec cfg s (EvDup c) Hwf (j_06 _ _ _ Hinv)) as H06'. simpl in H06'.
    destruct Hinv as [H06 Hph Hreg Hleg Hent].
    destruct (os_dup_same c (st_os s)) as [E1 [E2 E3]].
    split; try assumption.
    + intros d. unfold cph7, cont. simpl. rewrite E1, E2, E3. apply Hph.
    + intros i Hno. unfold cont. simpl. rewrite E1. apply Hreg. intros d. specialize (Hno d).
      simpl in Hno. now rewrite E3 in Hno.
  - pose proof (inv06_exec cfg s (EvDupClose c) Hwf (j_06 _ _ _ Hinv)) as H06'. simpl in H06'.
    destruct Hinv as [H06 Hph Hreg Hleg Hent].
    destruct (dupclose_ghost_same cfg s c H06) as [Eg1 Eg2].
    set (i := c_ino (cfg c)) in *. set (o2 := os_dupclose i c (st_os s)) in *.
    destruct (os_dupclose_same i c (st_os s)) as (E1 & E2 & _). fold o2 in E1, E2.
    assert (El : forall d j, locked d (ltab o2 j) = locked d (ltab (st_os s) j))
      by exact (inv06_dupclose_locked _ s c H06).
    split.
    + exact H06'.
    + intros d. unfold cph7, cont. simpl. fold i o2. rewrite Eg1, Eg2, E1, E2, El. apply Hph.
    + intros j Hno. unfold cont. simpl. fold i o2. rewrite Eg1, E1. apply Hreg. intros d. specialize (Hno d).
      simpl in Hno. fold i o2 in Hno. now rewrite El in Hno.
    + intros j. simpl. fold i o2. rewrite Eg1, Eg2. apply Hleg.
    + intros j e. simpl. fold i o2. rewrite Eg2. apply Hent.
Qed.

Lemma inv07_init cfg f : inv07 cfg f (init_state cfg f).
Proof.
  split.
  - apply inv06_init.
  - intros c. unfold cph7. simpl. now apply p7_start.
  - intros i _. reflexivity.
  - intros i. simpl. constructor.
  - intros i e [].
Qed.

Lemma inv07_run cfg f s sched : wf_cfg cfg -> inv07 cfg f s -> inv07 cfg f (run cfg s sched).
Proof.
  intros Hwf. apply (fold_left_invariant (exec cfg) (inv07 cfg f)). intros s0 e. now apply inv07_exec.
Qed.

Lemma inv07_of_reachable cfg f s : wf_cfg cfg -> reachable cfg f s -> inv07 cfg f s.
Proof. intros Hwf [sched ->]. apply inv07_run; [exact Hwf|apply inv07_init]. Qed.

Definition newer (a b : lentry) : Prop := le_time b < le_time a.

Record invT (s : state) : Prop := {
  t_lin_lt : forall i e, In e (lin s i) -> le_time e < now s;
  t_sorted : forall i, StronglySorted newer (lin s i);
  t_inv_lt : forall c t, t_inv s c = Some t -> t < now s;
  t_resp_lt : forall c t, t_resp s c = Some t -> t < now s;
  t_resp_ret : forall c t, t_resp s c = Some t -> is_ret (progs s c) = true;
  t_ret_resp : forall c, is_ret (progs s c) = true -> exists t, t_resp s c = Some t;
  t_entry_inv : forall i e, In e (lin s i) ->
                exists t0, t_inv s (le_client e) = Some t0 /\ t0 <= le_time e;
  t_entry_resp : forall i e t1, In e (lin s i) -> t_resp s (le_client e) = Some t1 -> le_time e <= t1
}.

Lemma ghost_lin_shape i c o1 o2 s j :
  ghost_lin i c o1 o2 s j = lin s j \/
  exists r x, ghost_lin i c o1 o2 s j = mk_entry c (now s) r x :: lin s j.
Proof.
  unfold ghost_lin.
  destruct (_ && _); [|destruct (_ && _)]; auto;
  (destruct (Nat.eq_dec j i) as [->|Hj]; [rewrite upd_same; right; do 2 eexists; reflexivity
                                         |rewrite upd_other by assumption; now left]).
Qed.

Lemma set_once_spec m c t d :
  set_once m c t d = match m c with None => if Nat.eqb d c then Some t else m d | Some _ => m d end.
Proof. unfold set_once. destruct (m c) eqn:E; [reflexivity|]. unfold upd. reflexivity. Qed.

Lemma invT_advance i c o p' o2 s :
  invT s -> is_ret (progs s c) = false -> invT (advance i c o p' o2 s).
Proof.
  intros [H1 H2 H3 H4 H5 H5' H6 H7] Hnr.
  assert (Hnone : t_resp s c = None).
  { destruct (t_resp s c) eqn:E; [|reflexivity]. apply H5 in E. congruence. }
  assert (Hinv' : forall d, set_once (t_inv s) c (now s) d = t_inv s d \/
                            (d = c /\ set_once (t_inv s) c (now s) d = Some (now s))).
  { intros d. rewrite set_once_spec. destruct (t_inv s c); auto.
    destruct (Nat.eqb_spec d c); auto. }
  assert (Hinv_c : exists t0, set_once (t_inv s) c (now s) c = Some t0 /\ t0 <= now s).
  { rewrite set_once_spec. destruct (t_inv s c) eqn:E.
    - exists n. split; [reflexivity|]. specialize (H3 _ _ E). lia.
    - rewrite Nat.eqb_refl. eauto. }
  split; simpl.
  - intros j e Hin. destruct (ghost_lin_shape i c (st_os s) o2 s j) as [E|[r [x E]]]; rewrite E in Hin.
    + specialize (H1 j e Hin). lia.
    + destruct Hin as [<-|Hin]; [simpl; lia|]. specialize (H1 j e Hin). lia.
  - intros j. destruct (ghost_lin_shape i c (st_os s) o2 s j) as [E|[r [x E]]]; rewrite E; [apply H2|].
    constructor; [apply H2|]. apply Forall_forall. intros e Hin. red. simpl. now apply (H1 j).
  - intros d t Ht. destruct (Hinv' d) as [E|[-> E]]; rewrite E in Ht.
    + specialize (H3 d t Ht). lia.
    + injection Ht as <-. lia.
  - intros d t Ht. destruct (is_ret p').
    + rewrite set_once_spec, Hnone in Ht. destruct (Nat.eqb d c).
      * injection Ht as <-. lia.
      * specialize (H4 d t Ht). lia.
    + specialize (H4 d t Ht). lia.
  - intros d t Ht. destruct (Nat.eq_dec d c) as [->|Hd].
    + rewrite upd_same. destruct (is_ret p') eqn:Er; [reflexivity|]. congruence.
    + rewrite upd_other by assumption. apply (H5 d t).
      destruct (is_ret p'); [|exact Ht].
      rewrite set_once_spec, Hnone in Ht. destruct (Nat.eqb_spec d c); [contradiction|exact Ht].
  - intros d Hr. destruct (Nat.eq_dec d c) as [->|Hd].
    + rewrite upd_same in Hr. rewrite Hr, set_once_spec, Hnone, Nat.eqb_refl. eauto.
    + rewrite upd_other in Hr by assumption. destruct (H5' d Hr) as [t Ht]. exists t.
      destruct (is_ret p'); [|exact Ht].
      rewrite set_once_spec, Hnone. destruct (Nat.eqb_spec d c); [contradiction|exact Ht].
  - intros j e Hin.
    assert (Hold : In e (lin s j) -> exists t0,
              set_once (t_inv s) c (now s) (le_client e) = Some t0 /\ t0 <= le_time e).
    { intros Hin0. destruct (H6 j e Hin0) as [t0 [Et Hle]]. exists t0. split; [|exact Hle].
      rewrite set_once_spec. destruct (t_inv s c) eqn:Ec0; [exact Et|].
      destruct (Nat.eqb_spec (le_client e) c) as [Ec|Ec]; [|exact Et].
      rewrite Ec in Et. congruence. }
    destruct (ghost_lin_shape i c (st_os s) o2 s j) as [E|[r [x E]]]; rewrite E in Hin; [now apply Hold|].
    destruct Hin as [<-|Hin]; [|now apply Hold]. simpl. exact Hinv_c.
  - intros j e t1 Hin Ht.
    assert (Hold : In e (lin s j) -> le_time e <= t1).
    { intros Hin0. destruct (is_ret p').
      - rewrite set_once_spec, Hnone in Ht. destruct (Nat.eqb (le_client e) c).
        + injection Ht as <-. specialize (H1 j e Hin0). lia.
        + now apply (H7 j e).
      - now apply (H7 j e). }
    destruct (ghost_lin_shape i c (st_os s) o2 s j) as [E|[r [x E]]]; rewrite E in Hin; [now apply Hold|].
    destruct Hin as [<-|Hin]; [|now apply Hold]. simpl in *.
    destruct (is_ret p').
    + rewrite set_once_spec, Hnone, Nat.eqb_refl in Ht. injection Ht as <-. lia.
    + congruence.
Qed.

Lemma invT_same_but_now s s' :
  invT s -> now s' = S (now s) -> progs s' = progs s -> lin s' = lin s ->
  t_inv s' = t_inv s -> t_resp s' = t_resp s -> invT s'.
Proof.
  intros [H1 H2 H3 H4 H5 H5' H6 H7] En Ep El Ei Er.
  split; rewrite ?En, ?Ep, ?El, ?Ei, ?Er; auto.
  - intros i e Hin. specialize (H1 i e Hin). lia.
  - intros c t Ht. specialize (H3 c t Ht). lia.
  - intros c t Ht. specialize (H4 c t Ht). lia.
Qed.

Lemma invT_tick s : invT s -> invT (tick s).
Proof. intros H. exact (invT_same_but_now s (tick s) H eq_refl eq_refl eq_refl eq_refl eq_refl). Qed.

Lemma invT_exec cfg s e : wf_cfg cfg -> inv06 cfg s -> invT s -> invT (exec cfg s e).
Proof.
  intros Hwf H06 HT. destruct e as [c|c|c|c]; simpl.
  1,2: unfold run_client; destruct (progs s c) as [x|o k|o k] eqn:Hp; [now apply invT_tick| |];
       destruct (os_step (c_ino (cfg c)) c o FNone _ (st_os s)) as [[r o2]|];
       try (now apply invT_tick); try destruct r; apply invT_advance; auto; now rewrite Hp.
  - apply (invT_same_but_now s); auto.
  - destruct (dupclose_ghost_same cfg s c H06) as [_ E].
    apply (invT_same_but_now s); auto.
Qed.

Lemma invT_init cfg f : invT (init_state cfg f).
Proof.
  split; simpl; try discriminate; try (intros; contradiction).
  intros i. constructor.
Qed.

Lemma invT_of_reachable cfg f s : wf_cfg cfg -> reachable cfg f s -> invT s.
Proof.
  intros Hwf [sched ->].
  apply (fold_left_invariant (exec cfg) (fun s => inv06 cfg s /\ invT s)).
  - intros s e [H06 HT]. split; [now apply inv06_exec|now apply invT_exec].
  - split; [apply inv06_init|apply invT_init].
Qed.
