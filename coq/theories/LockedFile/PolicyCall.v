(* lockedfile (C06, C07): whole calls under fault policies — the critical section of a call is
   its body run on the file (so the body-level theorems of PolicyTransform.v speak about the
   call); a write-locking call alone on an existing file (excl_call_pol), and as instances of it
   Transform as a call under the size-limit regime and without faults, Write with any content
   reader. *)
From Coq Require Import List NArith Arith Bool Lia.
From Coq.Strings Require Import Byte.
From GI Require Import Gen.LockedFileConsts LockedFile.LockedFile LockedFile.LockBasics
  LockedFile.LockProofs LockedFile.TransformProofs.
From GI Require Import LockedFile.Policy LockedFile.PolicyProofs LockedFile.PolicyTransform.
Import ListNotations.

(* unlock and close, in either order, under any faults: the file is untouched, the descriptor
   closed, the entry gone *)
Lemma run_pol_unlock_close (unlock_first : bool) i c x pol h s :
  isopen (fds s c) = true -> refs s c = 0 ->
  exists h' s',
    run_pol i c (if unlock_first
                 then Do (OFlock filelock_unlock_arg) (fun _ => Do OClose (fun _ => Ret x))
                 else Do OClose (fun _ => Do (OFlock filelock_unlock_arg) (fun _ => Ret x))) pol h s
    = (h', Finished x, s') /\
    files s' = files s /\ fds s' c = None /\ ltab s' i = drop c (ltab s i).
Proof.
  intros Ho Hr. destruct unlock_first; cbn [run_pol].
  - destruct (osf_unlock i c (pol h (OFlock filelock_unlock_arg) (content_of (files s i)) (fds s c))
                false s Ho) as (r & s1 & -> & Hne & Hfi & Hf & Hrf & Hl).
    assert (Ho1 : isopen (fds s1 c) = true) by now rewrite Hf.
    assert (Hr1 : refs s1 c = 0) by now rewrite Hrf.
    destruct (osf_close_open i c (pol ((OFlock filelock_unlock_arg, r) :: h) OClose
                 (content_of (files s1 i)) (fds s1 c)) false s1 Ho1 Hr1)
      as (r2 & s2 & E2 & Hfi2 & Hc & Hl2 & _).
    destruct r; try (now elim Hne); rewrite E2; do 2 eexists; (split; [reflexivity|]);
      rewrite Hfi2, Hl2; (destruct Hl as [->| ->]; rewrite ?drop_drop; auto).
  - destruct (osf_close_open i c (pol h OClose (content_of (files s i)) (fds s c)) false s Ho Hr)
      as (r2 & s2 & -> & Hfi2 & Hc & Hl2 & _).
    cbn [run_pol]. rewrite (osf_flock_closed i c _ _ false s2 Hc). simpl.
    do 2 eexists. split; [reflexivity|]. auto.
Qed.

Lemma run_pol_close_part i c x pol h s :
  isopen (fds s c) = true -> refs s c = 0 ->
  exists h' s', run_pol i c (close_part x) pol h s = (h', Finished x, s') /\
    files s' = files s /\ fds s' c = None /\ locked c (ltab s' i) = None.
Proof.
  intros Ho Hr. unfold close_part. cbn [run_pol]. rewrite osf_mark.
  destruct (run_pol_unlock_close closefile_unlock_first i c x pol ((OMark MCloseCalled, ROk) :: h) s Ho Hr)
    as (h' & s' & E & Hf & Hc & Hl).
  exists h', s'. rewrite Hl. split; [exact E|]. auto using locked_drop_same.
Qed.

(* the critical section and Close of a call whose descriptor is open: the outcome and the final
   contents are those of the body run on the file under the same policy *)
Lemma run_pol_cs i c b : io_only b -> forall pol h s fd,
  fds s c = Some fd -> refs s c = 0 ->
  match run_pol i c (bind b close_part) pol h s, run_body_pol b pol h (content_of (files s i)) fd with
  | (_, out, s'), (r, X', _) =>
      out = Finished r /\ content_of (files s' i) = X' /\ fds s' c = None /\
      ltab s' i = drop c (ltab s i)
  end.
Proof.
  induction 1 as [x|o k Hio Hk IH]; intros pol h s fd Hfd Href.
  - assert (Ho : isopen (fds s c) = true) by now rewrite Hfd.
    destruct (run_pol_unlock_close closefile_unlock_first i c x pol ((OMark MCloseCalled, ROk) :: h) s Ho Href)
      as (h' & s' & E & Hfi & Hc & Hl).
    cbn [bind close_part run_pol run_body_pol]. rewrite osf_mark. unfold close_prog. rewrite E, Hfi. auto.
  - simpl bind. cbn [run_pol run_body_pol]. rewrite (osf_io _ _ _ _ _ _ Hio), Hfd.
    rewrite (os_io_flt i c o s false _ fd Hio Hfd).
    destruct (io_step o (pol h o (content_of (files s i)) (Some fd)) (content_of (files s i)) fd)
      as [[r X1] fd1].
    set (s1 := {| files := upd (files s) i (Some X1); fds := upd (fds s) c (Some fd1);
                  refs := refs s; ltab := ltab s |}).
    specialize (IH r pol ((o, r) :: h) s1 fd1).
    assert (E : content_of (files s1 i) = X1) by (simpl; now rewrite upd_same).
    rewrite E in IH. apply IH; simpl; auto. now rewrite upd_same.
Qed.

Definition io_faults_only (pol : policy) : Prop :=
  forall h o b fd, is_io o = false -> pol h o b fd = FNone.

Lemma limit_pol_io L : io_faults_only (limit_pol L).
Proof. intros h o b fd H. destruct o; try discriminate H; reflexivity. Qed.

Lemma no_fault_pol_io : io_faults_only no_fault_pol.
Proof. intros h o b fd H. reflexivity. Qed.

Lemma pol_of_plan_io plan : io_faults_only (pol_of_plan plan).
Proof. intros h o b fd H. unfold pol_of_plan. now rewrite H. Qed.

(* OpenFile(fl); b; Close with write-locking flags on an existing file holding old, under a
   policy that leaves open / flock / close alone.  The operations: openat, flock, [ftruncate when
   the flags carry O_TRUNC,] mark, the body, unlock, close.  The call returns and has released
   everything; a failed truncation leaves the old contents; otherwise what it returns and
   leaves is its body run on the contents after the truncation *)
Lemma excl_call_pol fl b old pol :
  io_only b -> lock_mode_of_flags fl = Some LEx ->
  has_flag (strip fl openfile_strip_mask) sys_O_CREATE && has_flag (strip fl openfile_strip_mask) sys_O_EXCL = false ->
  io_faults_only pol ->
  let h2 := [(OFlock (lock_arg_of_flags fl), ROk); (OOpen (strip fl openfile_strip_mask), ROk)] in
  let tr := OFtruncate (N.to_nat truncate_size) in
  match run_pol 0 0 (client_prog fl b) pol [] (os_with (Some old)) with
  | (_, out, s') =>
      ltab s' 0 = [] /\ fds s' 0 = None /\
      if has_flag fl truncate_cond_mask then
        match pol h2 tr old (Some (fresh_fd fl)) with
        | FNone =>
            match run_body_pol b pol ((OMark MReturned, ROk) :: (tr, ROk) :: h2)
                               (start_contents fl old) (fresh_fd fl) with
            | (r, X', _) => out = Finished r /\ content_of (files s' 0) = X' end
        | _ => out = Finished ResErr /\ content_of (files s' 0) = old
        end
      else match run_body_pol b pol ((OMark MReturned, ROk) :: h2) old (fresh_fd fl) with
           | (r, X', _) => out = Finished r /\ content_of (files s' 0) = X' end
  end.
Proof.
  intros Hio Hm Hx Hpol h2 tr.
  pose proof (exclusive_writable fl Hm) as Hw. pose proof (exclusive_req fl Hm) as Hreq.
  unfold client_prog, open_file_prog. cbn [run_pol].
  rewrite (Hpol [] (OOpen _)) by reflexivity. cbn [os_step_f].
  rewrite (os_open_existing 0 0 _ (os_with (Some old)) FNone false old eq_refl eq_refl Hx)
    by (apply strip_has_flag; discriminate).
  cbv iota beta. change truncate_after_lock with true. cbv iota.
  unfold lock_stage, flock_step. change lock_retries_eintr with true. cbv iota. cbn [run_pol].
  rewrite (Hpol _ (OFlock _)) by reflexivity. cbn [os_step_f].
  change {| fd_acc := accmode (strip fl openfile_strip_mask); fd_off := 0 |} with (fresh_fd fl).
  set (s1 := {| files := files (os_with (Some old));
                fds := upd (fds (os_with (Some old))) 0 (Some (fresh_fd fl));
                refs := refs (os_with (Some old)); ltab := ltab (os_with (Some old)) |}).
  rewrite (os_flock_req 0 0 _ LEx s1 false FNone Hreq eq_refl).
  assert (Hlk : lockable (fds s1 0) = true).
  { unfold lockable. change (fds s1 0) with (Some (fresh_fd fl)). cbv iota beta.
    change (fd_acc (fresh_fd fl)) with (accmode (strip fl openfile_strip_mask)).
    rewrite Hw. apply orb_true_r. }
  rewrite Hlk. cbn [negb]. cbv iota. change (can_grant LEx 0 (ltab s1 0)) with true. cbv iota beta.
  set (s2 := {| files := files s1; fds := fds s1; refs := refs s1;
                ltab := upd (ltab s1) 0 ((0, LEx) :: drop 0 (ltab s1 0)) |}).
  fold h2. unfold trunc_stage. destruct (has_flag fl truncate_cond_mask) eqn:Ht.
  - cbn [run_pol]. subst tr.
    rewrite (osf_io 0 0 (OFtruncate _) _ false s2 eq_refl),
      (os_io_flt 0 0 (OFtruncate _) s2 false _ (fresh_fd fl) eq_refl eq_refl).
    change (content_of (files s2 0)) with old. change (fds s2 0) with (Some (fresh_fd fl)).
    rewrite (io_ftruncate (fresh_fd fl) Hw).
    set (tr := OFtruncate (N.to_nat truncate_size)).
    destruct (pol h2 tr old (Some (fresh_fd fl))).
    2,3: (* the truncation failed: unlock, close, error; nothing was changed *)
      set (s3 := {| files := upd (files s2) 0 (Some old); fds := upd (fds s2) 0 (Some (fresh_fd fl));
                    refs := refs s2; ltab := ltab s2 |});
      destruct (run_pol_unlock_close truncate_failure_unlocks_first 0 0 ResErr pol ((tr, RErr) :: h2) s3
                  eq_refl eq_refl) as (h' & s' & E & Hf & Hc & Hl);
      unfold trunc_fail_prog; rewrite E, Hf, Hl; auto.
    set (s3 := {| files := upd (files s2) 0 (Some (resize (N.to_nat truncate_size) old));
                  fds := upd (fds s2) 0 (Some (fresh_fd fl)); refs := refs s2; ltab := ltab s2 |}).
    unfold after_open. cbn [run_pol]. rewrite osf_mark.
    pose proof (run_pol_cs 0 0 b Hio pol ((OMark MReturned, ROk) :: (tr, ROk) :: h2) s3 (fresh_fd fl)
                  eq_refl eq_refl) as H.
    change (content_of (files s3 0)) with (resize (N.to_nat truncate_size) old) in H.
    unfold start_contents. rewrite Ht.
    destruct (run_pol 0 0 (bind b close_part) pol _ s3) as [[h' out] s'].
    destruct (run_body_pol b pol _ _ (fresh_fd fl)) as [[r X'] fd'].
    destruct H as (-> & HX & Hf & Hl). rewrite Hl. auto.
  - unfold after_open. cbn [run_pol]. rewrite osf_mark.
    pose proof (run_pol_cs 0 0 b Hio pol ((OMark MReturned, ROk) :: h2) s2 (fresh_fd fl)
                  eq_refl eq_refl) as H.
    change (content_of (files s2 0)) with old in H.
    destruct (run_pol 0 0 (bind b close_part) pol _ s2) as [[h' out] s'].
    destruct (run_body_pol b pol _ old (fresh_fd fl)) as [[r X'] fd'].
    destruct H as (-> & HX & Hf & Hl). rewrite Hl. auto.
Qed.

(* Transform alone on an existing file: the call returns, has released everything, and what it
   returns and leaves is its body run on the old contents *)
Lemma transform_call_body t old pol :
  io_faults_only pol ->
  let h0 := [(OMark MReturned, ROk); (OFlock (lock_arg_of_flags edit_flags), ROk);
             (OOpen (strip edit_flags openfile_strip_mask), ROk)] in
  match run_pol 0 0 (prog_of_call (CTransform t)) pol [] (os_with (Some old)),
        run_body_pol (transform_body t) pol h0 old (fresh_fd edit_flags) with
  | (_, out, s'), (r, X, _) =>
      out = Finished r /\ content_of (files s' 0) = X /\ fds s' 0 = None /\
      forall k, holds 0 k (ltab s' 0) = false
  end.
Proof.
  intros Hio h0.
  pose proof (excl_call_pol edit_flags (transform_body t) old pol (io_only_transform t)
                eq_refl eq_refl Hio) as H. cbv zeta in H.
  change (has_flag edit_flags truncate_cond_mask) with false in H. cbv iota in H. fold h0 in H.
  change (prog_of_call (CTransform t)) with (client_prog edit_flags (transform_body t)).
  destruct (run_pol 0 0 (client_prog edit_flags (transform_body t)) pol [] (os_with (Some old)))
    as [[h' out] s'].
  destruct (run_body_pol (transform_body t) pol h0 old (fresh_fd edit_flags)) as [[r X] fd'].
  destruct H as (Hl & Hf & -> & ->). rewrite Hl. auto.
Qed.

Lemma rwfd_fresh_edit : rwfd (fresh_fd edit_flags).
Proof. repeat split. Qed.

(* under a size limit: the call returns, nothing is left locked or open, all-or-nothing *)
Theorem transform_call_limit_atomic t old L :
  match run_pol 0 0 (prog_of_call (CTransform t)) (limit_pol L) [] (os_with (Some old)) with
  | (_, out, s') =>
      fds s' 0 = None /\ (forall k, holds 0 k (ltab s' 0) = false) /\
      ((out = Finished ResOk /\ t old = Some (content_of (files s' 0))) \/
       (out = Finished ResErr /\ content_of (files s' 0) = old))
  end.
Proof.
  pose proof (transform_call_body t old (limit_pol L) (limit_pol_io L)) as H. cbv zeta in H.
  pose proof (transform_limit_atomic t old L
                [(OMark MReturned, ROk); (OFlock (lock_arg_of_flags edit_flags), ROk);
                 (OOpen (strip edit_flags openfile_strip_mask), ROk)]
                (fresh_fd edit_flags) rwfd_fresh_edit) as Hb.
  destruct (run_pol 0 0 (prog_of_call (CTransform t)) (limit_pol L) [] (os_with (Some old))) as [[h' out] s'].
  destruct (run_body_pol (transform_body t) (limit_pol L) _ old (fresh_fd edit_flags)) as [[r X] fd'].
  destruct H as [-> [-> [Hf Hl]]]. split; [exact Hf|]. split; [exact Hl|].
  destruct Hb as [[-> Ht]|[-> ->]]; [left|right]; auto.
Qed.

(* without faults: the call returns nil and the file holds t(old) — for every result value *)
Theorem transform_call_publishes t old new :
  t old = Some new ->
  match run_pol 0 0 (prog_of_call (CTransform t)) no_fault_pol [] (os_with (Some old)) with
  | (_, out, s') =>
      out = Finished ResOk /\ content_of (files s' 0) = new /\
      fds s' 0 = None /\ (forall k, holds 0 k (ltab s' 0) = false)
  end.
Proof.
  intros Ht.
  pose proof (transform_call_body t old no_fault_pol no_fault_pol_io) as H. cbv zeta in H.
  pose proof (transform_publishes_any_result t old new
                [(OMark MReturned, ROk); (OFlock (lock_arg_of_flags edit_flags), ROk);
                 (OOpen (strip edit_flags openfile_strip_mask), ROk)]
                (fresh_fd edit_flags) rwfd_fresh_edit Ht) as Hb.
  destruct (run_pol 0 0 (prog_of_call (CTransform t)) no_fault_pol [] (os_with (Some old))) as [[h' out] s'].
  destruct (run_body_pol (transform_body t) no_fault_pol _ old (fresh_fd edit_flags)) as [[r X] fd'].
  destruct H as [-> [-> [Hf Hl]]]. destruct Hb as [-> ->]. auto.
Qed.

(* any policy on the file I/O: an error return never loses bytes *)
Theorem transform_call_err_keeps_old_tail t old pol :
  io_faults_only pol ->
  match run_pol 0 0 (prog_of_call (CTransform t)) pol [] (os_with (Some old)) with
  | (_, Finished ResErr, s') =>
      let X := content_of (files s' 0) in
      length old <= length X /\
      forall new, t old = Some new ->
        forall j, length new <= j -> j < length old -> nth j X x00 = nth j old x00
  | _ => True
  end.
Proof.
  intros Hio.
  pose proof (transform_call_body t old pol Hio) as H. cbv zeta in H.
  pose proof (transform_err_keeps_old_tail t old pol
                [(OMark MReturned, ROk); (OFlock (lock_arg_of_flags edit_flags), ROk);
                 (OOpen (strip edit_flags openfile_strip_mask), ROk)]
                (fresh_fd edit_flags) rwfd_fresh_edit) as Hb.
  destruct (run_pol 0 0 (prog_of_call (CTransform t)) pol [] (os_with (Some old))) as [[h' out] s'].
  destruct (run_body_pol (transform_body t) pol _ old (fresh_fd edit_flags)) as [[r X] fd'].
  destruct H as [-> [-> _]]. destruct r; auto.
Qed.

(* io.Copy into the freshly truncated file: what has been written is always a prefix of what the
   reader delivers; nil is returned only when all of it was written and the reader ended in EOF *)
Lemma firstn_prefix_app {A} n (d r : list A) :
  firstn (Nat.min n (length d)) (d ++ r) = firstn n d.
Proof.
  rewrite firstn_app. replace (Nat.min n (length d) - length d) with 0 by lia.
  simpl. rewrite app_nil_r. destruct (Nat.le_ge_cases n (length d)) as [Hle|Hge].
  - now replace (Nat.min n (length d)) with n by lia.
  - replace (Nat.min n (length d)) with (length d) by lia.
    rewrite firstn_all. symmetry. apply firstn_all2. lia.
Qed.

Lemma copy_body_prefix chunks rerr : forall pol h X fd,
  acc_writable (fd_acc fd) = true -> fd_off fd = length X ->
  match run_body_pol (copy_body chunks rerr) pol h X fd with
  | (r, X', _) =>
      exists m, X' = X ++ firstn m (concat chunks) /\
                (r = ResOk -> rerr = false /\ X' = X ++ concat chunks) /\
                (r = ResOk \/ r = ResErr)
  end.
Proof.
  induction chunks as [|d rest IH]; intros pol h X fd Hw Hoff.
  - simpl. exists 0. split; [now rewrite app_nil_r|].
    destruct rerr; (split; [try discriminate|auto]). intros _. now rewrite app_nil_r.
  - simpl copy_body. unfold write_prog. destruct d as [|x d'].
    + simpl concat. now apply IH.
    + set (d := x :: d'). cbn [run_body_pol]. cbn [io_step]. rewrite Hw, Hoff.
      destruct (pol h (OWrite d) X (Some fd)) eqn:Ep.
      * rewrite write_at_end.
        specialize (IH pol ((OWrite d, ROk) :: h) (X ++ d)
                       {| fd_acc := fd_acc fd; fd_off := length X + length d |} Hw).
        rewrite app_length in IH. specialize (IH eq_refl).
        destruct (run_body_pol (copy_body rest rerr) pol _ (X ++ d) _) as [[r X'] fd'].
        destruct IH as [m [HX [Hok Hre]]]. exists (length d + m). split; [|split; [|exact Hre]].
        -- rewrite HX. change (concat (d :: rest)) with (d ++ concat rest). rewrite firstn_app_2. now rewrite <- app_assoc.
        -- intros Hr. destruct (Hok Hr) as [He HX']. split; [exact He|].
           rewrite HX'. change (concat (d :: rest)) with (d ++ concat rest). now rewrite <- app_assoc.
      * cbn [run_body_pol]. exists 0. split; [now rewrite app_nil_r|split; [discriminate|now right]].
      * cbn [run_body_pol]. rewrite write_at_end. exists (Nat.min n (length d)).
        split; [|split; [discriminate|now right]].
        f_equal. change (concat (d :: rest)) with (d ++ concat rest). symmetry. apply firstn_prefix_app.
Qed.

(* Write(name, reader, perm) alone on an existing file under any I/O policy: it returns, holds
   nothing afterwards; nil => the file holds exactly what the reader delivered and the reader
   did not fail; an error => the old contents (the truncation failed) or a prefix of what the
   reader delivered *)
Theorem writer_call_faulty chunks rerr old pol :
  io_faults_only pol ->
  match run_pol 0 0 (prog_of_call (writer_call chunks rerr)) pol [] (os_with (Some old)) with
  | (_, out, s') =>
      fds s' 0 = None /\ (forall k, holds 0 k (ltab s' 0) = false) /\
      ((out = Finished ResOk /\ rerr = false /\ content_of (files s' 0) = concat chunks) \/
       (out = Finished ResErr /\
        (content_of (files s' 0) = old \/ exists m, content_of (files s' 0) = firstn m (concat chunks))))
  end.
Proof.
  intros Hio.
  pose proof (excl_call_pol write_flags (copy_body chunks rerr) old pol (io_only_copy_body chunks rerr)
                eq_refl eq_refl Hio) as H. cbv zeta in H.
  change (has_flag write_flags truncate_cond_mask) with true in H. cbv iota in H.
  change (prog_of_call (writer_call chunks rerr)) with (client_prog write_flags (copy_body chunks rerr)).
  destruct (run_pol 0 0 (client_prog write_flags (copy_body chunks rerr)) pol [] (os_with (Some old)))
    as [[h' out] s'].
  destruct H as (Hl & Hf & H). split; [exact Hf|]. split; [intros k; now rewrite Hl|].
  destruct (pol _ _ old _); [|right; destruct H as [-> ->]; auto ..].
  change (start_contents write_flags old) with (@nil byte) in H.
  match type of H with context [run_body_pol _ _ ?h _ _] =>
    pose proof (copy_body_prefix chunks rerr pol h [] (fresh_fd write_flags) eq_refl eq_refl) as Hb;
    destruct (run_body_pol (copy_body chunks rerr) pol h [] (fresh_fd write_flags)) as [[r X] fd'] end.
  destruct H as [-> ->]. destruct Hb as [m [HX [Hok [-> | ->]]]]; simpl in HX.
  - left. destruct (Hok eq_refl) as [He HX']. auto.
  - right. split; [reflexivity|]. right. now exists m.
Qed.

(* non-vacuity: a reader that fails after two chunks; a persistent write failure; a failing flock *)
Example writer_reader_error_releases :
  match run_pol 0 0 (prog_of_call (writer_call [[x61; x62]; [x63]] true)) no_fault_pol []
                (os_with (Some [x7a; x7a; x7a; x7a])) with
  | (h, out, s') => out = Finished ResErr /\ files s' 0 = Some [x61; x62; x63] /\
                    fds s' 0 = None /\ ltab s' 0 = [] /\ opens h = 1 /\ closes h = 1
  end.
Proof. vm_compute. repeat split. Qed.

Example write_lock_failure_closes :
  match run_pol 0 0 (prog_of_call (CWrite [x61]))
                (class_pol (fun k => match k with KFlock => {| cs_first := 1; cs_all := true |} | _ => cs_never end))
                [] (os_with (Some [x7a])) with
  | (h, out, s') => out = Finished ResErr /\ files s' 0 = Some [x7a] /\
                    fds s' 0 = None /\ ltab s' 0 = [] /\ opens h = 1 /\ closes h = 1
  end.
Proof. vm_compute. repeat split. Qed.

Example unlock_failure_still_releases :
  match run_pol 0 0 (prog_of_call CMutex)
                (class_pol (fun k => match k with KFlock => {| cs_first := 2; cs_all := false |} | _ => cs_never end))
                [] (os_with None) with
  | (h, out, s') => out = Finished ResOk /\ fds s' 0 = None /\ ltab s' 0 = [] /\
                    In (OFlock sys_LOCK_UN, RErr) h
  end.
Proof. vm_compute. repeat split. auto 10. Qed.

(* Write reports the error of Close: the unlock fails, the data is in place, the lock is released
   by the close all the same, and the caller is told *)
Example write_reports_close_error :
  match run_pol 0 0 (prog_of_call (CWrite [x61]))
                (class_pol (fun k => match k with KFlock => {| cs_first := 2; cs_all := false |} | _ => cs_never end))
                [] (os_with (Some [x7a; x7a])) with
  | (h, out, s') => out = Finished ResOk /\ write_outcome h out = Finished ResErr /\
                    files s' 0 = Some [x61] /\ fds s' 0 = None /\ ltab s' 0 = []
  end.
Proof. vm_compute. repeat split. Qed.

(* when only the file I/O can fail, Write's result is the body's *)
Lemma write_outcome_no_close_fault h out : close_failed h = false -> write_outcome h out = out.
Proof. intros H. unfold write_outcome. rewrite H. now destruct out as [[| |]|]. Qed.
