(* lockedfile (C06, C07): the translated Go functions of Gen/LockedFileSrc.v run ON THE MODEL'S
   OPERATING SYSTEM.  The abstract operations of SrcLib.os_ops are instantiated with the OS model
   of LockedFile.v under a fault policy (Policy.v): [model_ops i c pol'] is an operating system in
   which client c's path names inode i, every operation acts as LockedFile.os_step says and
   suffers the fault the policy chooses from the history of the operations the call has really
   made so far.  By the equalities of SrcFacts.v a translated function run on it is Policy.run_pol
   of the hand-written program term, so every theorem about run_pol is a theorem about what the
   SOURCE does on that operating system. *)
From Coq Require Import List NArith ZArith Bool Lia.
From Coq.Strings Require Import Byte.
From GI Require Import Lib.Bytes Lib.GoSem Lib.GoSemWorld.
From GI Require Import Gen.LockedFileConsts LockedFile.LockedFile LockedFile.LockedFileA LockedFile.LockBasics.
From GI Require Import LockedFile.Policy LockedFile.LockProofs LockedFile.PolicyProofs.
From GI Require Import LockedFile.SrcLib.
Import ListNotations.
Import GoNotations.
Local Open Scope go_scope.

(* the ghost marks are not operations of the operating system: a real policy cannot see them *)
Definition is_real (x : op * LockedFile.res) : bool :=
  match fst x with OMark _ => false | _ => true end.
Definition strip_marks (h : Policy.history) : Policy.history := filter is_real h.

Section Model.
Variables i c : nat.
Variable pol' : policy.          (* sees the history of the operations really made *)

(* the error value the model OS reports for a result *)
Definition merr (r : LockedFile.res) : werr :=
  match r with
  | ROk | RData _ => WNil
  | REintr => werr_EINTR
  | RErr => WVal [x45; x49; x4f]
  end.

Definition mworld : Type := (os * Policy.history)%type.

(* one operation of client c; an operation that would block for ever reports EINTR for ever *)
Definition mstep (o : op) (w : mworld) : mworld * LockedFile.res :=
  match os_step_f i c o (pol' (snd w) o (content_of (files (fst w) i)) (fds (fst w) c)) false (fst w) with
  | Some (r, s') => ((s', (o, r) :: snd w), r)
  | None => (w, REintr)
  end.

Definition model_ops : os_ops := {|
  World := mworld; Handle := unit; FileInfo := unit; nil_handle := tt; nil_fileinfo := tt;
  h_fd := fun _ => 0%Z; h_name := fun _ => []; fi_mode := fun _ => 0%Z; fm_is_regular := fun _ => true;
  os_open := fun w _ flag _ => match mstep (OOpen (Z.to_N flag)) w with (w', r) => (w', tt, merr r) end;
  sys_flock := fun w _ how => match mstep (OFlock (Z.to_N how)) w with (w', r) => (w', merr r) end;
  os_ftruncate := fun w _ n => match mstep (OFtruncate (Z.to_nat n)) w with (w', r) => (w', merr r) end;
  os_fstat := fun _ _ => (tt, WNil);
  os_close := fun w _ => match mstep OClose w with (w', r) => (w', merr r) end;
  os_read_all := fun w _ =>
    match mstep OReadAll w with (w', r) => (w', match r with RData b => b | _ => [] end, merr r) end;
  os_pwrite := fun w _ d off =>
    match mstep (OPWrite (Z.to_nat off) d) w with (w', r) => (w', 0%Z, merr r) end;
  os_write := fun w _ d => match mstep (OWrite d) w with (w', r) => (w', 0%Z, merr r) end
|}.

(* the results an operation of the model OS can have *)
Definition res_class (o : op) (r : LockedFile.res) : Prop :=
  match o with
  | OReadAll => (exists b, r = RData b) \/ r = RErr
  | OMark _ => r = ROk
  | _ => r = ROk \/ r = RErr
  end.

Lemma io_step_class : forall o flt b fd r b' fd', is_io o = true ->
  io_step o flt b fd = (r, b', fd') -> res_class o r.
Proof.
  intros o flt b fd r b' fd' Hio. destruct o; try discriminate; destruct flt; cbn;
    repeat match goal with |- context [if ?x then _ else _] => destruct x end;
    intro H; inversion H; subst; eauto.
Qed.

Lemma os_step_class : forall o flt s r s',
  os_step i c o flt false s = Some (r, s') -> res_class o r.
Proof.
  intros o flt s r s'. destruct (is_io o) eqn:Hio.
  - intros H. destruct (fds s c) as [fd|] eqn:Hfd.
    + rewrite (os_io_flt i c o s false flt fd Hio Hfd) in H.
      destruct (io_step o flt (content_of (files s i)) fd) as [[r0 b'] fd'] eqn:E.
      injection H as <- <-. eapply io_step_class; eassumption.
    + unfold os_step in H. rewrite Hfd in H.
      destruct o; try discriminate Hio; injection H as <- <-; simpl; auto.
  - unfold os_step. destruct o; try discriminate Hio;
    repeat match goal with
    | |- context [match ?x with _ => _ end] => destruct x
    | |- context [if ?x then _ else _] => destruct x
    end; intro H; inversion H; subst; cbn; eauto.
Qed.

Lemma step_res_class : forall o flt s r s',
  os_step_f i c o flt false s = Some (r, s') -> res_class o r.
Proof.
  intros o flt s r s'. unfold os_step_f. destruct flt; try apply os_step_class.
  all: destruct o; try apply os_step_class; try (intro H; inversion H; subst; cbn; eauto; fail).
  all: destruct (os_step i c OClose FNone false s) as [[r0 s0]|]; intro H; inversion H; subst; cbn; eauto.
Qed.

Lemma unlock_step : forall flt s, exists r s',
  os_step_f i c (OFlock filelock_unlock_arg) flt false s = Some (r, s') /\ (r = ROk \/ r = RErr).
Proof. intros flt s. destruct flt; cbn; unfold os_step; cbn; destruct (fds s c); eauto. Qed.

(* it is an operating system of the kind SrcFacts.v asks for *)
Lemma model_unlock_no_eintr : unlock_no_eintr model_ops.
Proof.
  intros w fd. cbn [sys_flock model_ops]. change (Z.to_N (Z.of_N filelock_unlock_arg)) with filelock_unlock_arg.
  unfold mstep.
  destruct (unlock_step (pol' (snd w) (OFlock filelock_unlock_arg) (content_of (files (fst w) i)) (fds (fst w) c)) (fst w))
    as (r & s' & Hs & [Hr|Hr]); rewrite Hs; subst r; reflexivity.
Qed.
Lemma model_stat_static : stat_static model_ops (a_regular default_attr).
Proof. intros w f. reflexivity. Qed.

(* only a lock request can block *)
Lemma step_none : forall o flt s, os_step_f i c o flt false s = None -> exists how, o = OFlock how.
Proof.
  intros o flt s. destruct o; try (intros _; eexists; reflexivity); destruct flt; cbv beta iota delta [os_step_f os_step io_step]; destruct (fds s c);
    repeat match goal with
    | |- context [match ?x with _ => _ end] => destruct x
    | |- context [if ?x then _ else _] => destruct x
    end; discriminate.
Qed.

Lemma step_not_eintr : forall o flt s r s',
  os_step_f i c o flt false s = Some (r, s') -> r <> REintr.
Proof.
  intros o flt s r s' H ->. apply step_res_class in H.
  destruct o; cbn in H; try discriminate H; destruct H as [H|H]; try discriminate H;
    destruct H as [? H]; discriminate H.
Qed.

(* an operation of the translated code on the model OS is the model's step; the world carries the
   history without the ghost marks *)
Lemma do_op_model : forall path perm o s h,
  match os_step_f i c o (pol' (strip_marks h) o (content_of (files s i)) (fds s c)) false s with
  | Some (r, s') =>
      exists e, do_op model_ops path perm o tt (s, strip_marks h) = ((s', strip_marks ((o, r) :: h)), tt, r, e)
  | None => exists e, do_op model_ops path perm o tt (s, strip_marks h) = ((s, strip_marks h), tt, REintr, e)
  end.
Proof.
  intros path perm o s h.
  destruct (os_step_f i c o (pol' (strip_marks h) o (content_of (files s i)) (fds s c)) false s)
    as [[r s']|] eqn:E.
  - pose proof (step_res_class _ _ _ _ _ E) as Hc.
    destruct o; cbn [do_op model_ops os_open sys_flock os_ftruncate os_close os_read_all os_pwrite os_write h_fd];
      rewrite ?N2Z.id, ?Nat2Z.id; unfold mstep; cbn [fst snd]; try rewrite E; cbn in Hc.
    all: try (destruct Hc as [Hc|Hc]; subst r; eexists; reflexivity).
    + destruct Hc as [[b Hc]|Hc]; subst r; eexists; reflexivity.
    + subst r. rewrite osf_mark in E. injection E as <-. eexists. reflexivity.
  - destruct (step_none _ _ _ E) as [how ->].
    cbn [do_op model_ops sys_flock h_fd]. rewrite N2Z.id. unfold mstep. cbn [fst snd]. rewrite E.
    eexists. reflexivity.
Qed.

(* programs in which only lock requests that are retried can block: every API call *)
Inductive safe_do : prog -> Prop :=
| sd_ret r : safe_do (Ret r)
| sd_do o k : (forall how, o = OFlock how -> how = filelock_unlock_arg) ->
              (forall r, safe_do (k r)) -> safe_do (Do o k)
| sd_retry o k : (forall r, safe_do (k r)) -> safe_do (Retry o k).

Variable pol : policy.           (* the same policy, over histories with the ghost marks *)
Hypothesis Hpol : forall h o b fd, pol h o b fd = pol' (strip_marks h) o b fd.

Lemma retry_model : forall path perm n o s h,
  match os_step_f i c o (pol' (strip_marks h) o (content_of (files s i)) (fds s c)) false s with
  | Some (r, s') =>
      exists e, retry_op model_ops path perm (S n) o tt (s, strip_marks h)
                = Ok ((s', strip_marks ((o, r) :: h)), tt, r, e)
  | None => retry_op model_ops path perm n o tt (s, strip_marks h) = OutOfFuel
  end.
Proof.
  intros path perm n o s h. pose proof (do_op_model path perm o s h) as Hd.
  destruct (os_step_f i c o (pol' (strip_marks h) o (content_of (files s i)) (fds s c)) false s)
    as [[r s']|] eqn:E.
  - destruct Hd as [e Hd]. cbn [retry_op]. rewrite Hd. pose proof (step_not_eintr _ _ _ _ _ E).
    destruct r; try (eexists; reflexivity). congruence.
  - destruct Hd as [e Hd]. induction n as [|n IH]; [reflexivity|]. cbn [retry_op]. rewrite Hd. exact IH.
Qed.

Theorem run_model : forall path perm fuel p, safe_do p -> (1 <= fuel)%nat -> forall s h hp ep,
  match run_pol i c p pol h s with
  | (hf, Finished r, sf) =>
      exists hp' ep', run_prog model_ops path perm fuel p tt (s, strip_marks h) hp ep =
                    Ok ((sf, strip_marks hf), tt, hp', ep', r)
  | (_, Blocked, _) => run_prog model_ops path perm fuel p tt (s, strip_marks h) hp ep = OutOfFuel
  end.
Proof.
  intros path perm fuel p Hsafe Hfuel. induction Hsafe as [r|o k Ho Hk IH|o k Hk IH]; intros s h hp ep.
  - cbn. eauto.
  - cbn [run_pol run_prog]. rewrite Hpol. pose proof (do_op_model path perm o s h) as Hd.
    destruct (os_step_f i c o _ false s) as [[r s']|] eqn:Es.
    + destruct Hd as [e ->]. apply IH.
    + (* only an unlock could be the blocked operation, and an unlock does not block *)
      exfalso. destruct (step_none _ _ _ Es) as [how ->]. rewrite (Ho how eq_refl) in Es.
      destruct (unlock_step (pol' (strip_marks h) (OFlock filelock_unlock_arg) (content_of (files s i)) (fds s c)) s)
        as (r0 & s0 & Hs & _). congruence.
  - cbn [run_pol run_prog]. rewrite Hpol. destruct fuel as [|fu]; [lia|].
    pose proof (retry_model path perm fu o s h) as Hd. pose proof (retry_model path perm (S fu) o s h) as Hd0.
    destruct (os_step_f i c o _ false s) as [[r s']|] eqn:Es; [|now rewrite Hd0].
    destruct Hd as [e ->]. pose proof (step_not_eintr _ _ _ _ _ Es).
    destruct r; try congruence; apply IH.
Qed.

(* every API call is such a program *)
Lemma safe_io : forall b, io_only b -> forall g, (forall r, safe_do (g r)) -> safe_do (LockedFile.bind b g).
Proof.
  intros b Hb. induction Hb as [r|o k Ho Hk IH]; intros g Hg; cbn [LockedFile.bind].
  - apply Hg.
  - apply sd_do; [intros how Hh; subst o; discriminate|]. intro r. apply IH, Hg.
Qed.

(* safe_do of a program term written out: a Ret, a Retry, a Do that is no lock request, then the
   branches of its continuation *)
Ltac safe_tac :=
  repeat first
    [ apply sd_ret
    | apply sd_retry; intro
    | apply sd_do; [let how := fresh in let Hh := fresh in intros how Hh; inversion Hh; reflexivity|intro]
    | match goal with
      | |- safe_do (match ?r with ROk => _ | _ => _ end) => destruct r
      | |- safe_do (if ?b then _ else _) => destruct b
      end ].

Lemma safe_close_part : forall x, safe_do (close_part x).
Proof. intro x. unfold close_part, close_prog. safe_tac. Qed.

Theorem safe_client : forall fl b, io_only b -> safe_do (client_prog fl b).
Proof.
  intros fl b Hb. unfold client_prog, open_file_prog, lock_stage, trunc_stage, trunc_fail_prog, flock_step, after_open.
  assert (Hbody : safe_do (LockedFile.bind b close_part)).
  { apply safe_io; [exact Hb|]. apply safe_close_part. }
  safe_tac; try exact Hbody.
Qed.

(* a call of the API on the model OS, seen from outside: the policy run of its program term *)
Definition mrun_out (x : mworld * unit * SrcLib.history * werr * result) : mworld * result :=
  match x with (w', _, _, _, r) => (w', r) end.

Theorem api_run : forall cl path perm fuel s, io_only (body_of_call cl) -> (1 <= fuel)%nat ->
  match run_pol i c (prog_of_call cl) pol [] s with
  | (hf, Finished r, sf) =>
      (x <- run_prog model_ops path perm fuel (prog_of_call_a default_attr cl) tt (s, []) [] WNil ;; Ok (mrun_out x)) =
      Ok ((sf, strip_marks hf), r)
  | (_, Blocked, _) =>
      (x <- run_prog model_ops path perm fuel (prog_of_call_a default_attr cl) tt (s, []) [] WNil ;; Ok (mrun_out x)) =
      OutOfFuel
  end.
Proof.
  intros cl path perm fuel s Hb Hfuel.
  pose proof (run_model path perm fuel (prog_of_call cl) (safe_client _ _ Hb) Hfuel s [] [] WNil) as H.
  change (prog_of_call_a default_attr cl) with (prog_of_call cl).
  destruct (run_pol i c (prog_of_call cl) pol [] s) as [[hf [r|]] sf].
  - destruct H as (H' & E' & H).
    match goal with |- (x <- ?m ;; _) = _ =>
      replace m with (@Ok (mworld * unit * SrcLib.history * werr * result) ((sf, strip_marks hf), tt, H', E', r))
        by (symmetry; exact H) end.
    reflexivity.
  - match goal with |- (x <- ?m ;; _) = _ =>
      replace m with (@OutOfFuel (mworld * unit * SrcLib.history * werr * result)) by (symmetry; exact H) end.
    reflexivity.
Qed.

End Model.
