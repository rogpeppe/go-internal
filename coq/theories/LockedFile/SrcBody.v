(* lockedfile (C07): the translated Transform of Gen/LockedFileSrc.v run on the operating system
   of the model's FAULTY BODY SEMANTICS (LockedFile.run_body): open, flock and close succeed and
   change nothing; file I/O acts on the contents b of the one file through the descriptor fd as
   LockedFile.io_step says, the n-th I/O operation of the call suffering the fault [plan n]
   (a failing write may have stored any prefix of its data).  By SrcFacts.Transform_eq the
   translated function run on it is run_body of the model's transform_body, so the single-fault
   atomicity theorem is a theorem about what the SOURCE does on that operating system. *)
From Coq Require Import List NArith ZArith Bool Lia.
From Coq.Strings Require Import Byte.
From GI Require Import Lib.Bytes Lib.GoSem Lib.GoSemWorld.
From GI Require Import Gen.LockedFileConsts LockedFile.LockedFile LockedFile.LockedFileA.
From GI Require Import LockedFile.Policy.
From GI Require LockedFile.LockProofs LockedFile.TransformProofs.
From GI Require Import LockedFile.SrcLib Gen.LockedFileSrc LockedFile.SrcFacts LockedFile.SrcModel.
Import ListNotations.
Import GoNotations.
Local Open Scope go_scope.

Section Body.
Variable plan : nat -> fault.

Definition bworld : Type := (bytes * fdesc * nat)%type.

Definition bstep (o : op) (w : bworld) : bworld * LockedFile.res :=
  match w with
  | (b, fd, n) => match io_step o (plan n) b fd with (r, b', fd') => ((b', fd', S n), r) end
  end.

Definition body_ops : os_ops := {|
  World := bworld; Handle := unit; FileInfo := unit; nil_handle := tt; nil_fileinfo := tt;
  h_fd := fun _ => 0%Z; h_name := fun _ => []; fi_mode := fun _ => 0%Z; fm_is_regular := fun _ => true;
  os_open := fun w _ _ _ => (w, tt, WNil);
  sys_flock := fun w _ _ => (w, WNil);
  os_ftruncate := fun w _ n => match bstep (OFtruncate (Z.to_nat n)) w with (w', r) => (w', merr r) end;
  os_fstat := fun _ _ => (tt, WNil);
  os_close := fun w _ => (w, WNil);
  os_read_all := fun w _ =>
    match bstep OReadAll w with (w', r) => (w', match r with RData b => b | _ => [] end, merr r) end;
  os_pwrite := fun w _ d off =>
    match bstep (OPWrite (Z.to_nat off) d) w with (w', r) => (w', 0%Z, merr r) end;
  os_write := fun w _ d => match bstep (OWrite d) w with (w', r) => (w', 0%Z, merr r) end
|}.

Lemma body_unlock_no_eintr : unlock_no_eintr body_ops.
Proof. intros w fd. reflexivity. Qed.
Lemma body_stat_static : stat_static body_ops (a_regular default_attr).
Proof. intros w f. reflexivity. Qed.

(* an I/O operation of the translated code on this OS is the model's io_step *)
Lemma do_op_body : forall path perm o b fd n, is_io o = true ->
  match io_step o (plan n) b fd with
  | (r, b', fd') => exists e, do_op body_ops path perm o tt (b, fd, n) = ((b', fd', S n), tt, r, e)
  end.
Proof.
  intros path perm o b fd n Hio.
  destruct (io_step o (plan n) b fd) as [[r b'] fd'] eqn:E.
  pose proof (io_step_class _ _ _ _ _ _ _ Hio E) as Hc.
  destruct o; try discriminate;
    cbn [do_op body_ops os_ftruncate os_read_all os_pwrite os_write]; rewrite ?Nat2Z.id;
    unfold bstep; rewrite E; cbn in Hc.
  - destruct Hc as [Hc|Hc]; subst r; eexists; reflexivity.
  - destruct Hc as [[x Hc]|Hc]; subst r; eexists; reflexivity.
  - destruct Hc as [Hc|Hc]; subst r; eexists; reflexivity.
  - destruct Hc as [Hc|Hc]; subst r; eexists; reflexivity.
Qed.

(* an I/O-only program on this OS is run_body *)
Theorem run_body_ops : forall path perm fuel p, io_only p -> forall b fd n hp ep,
  match run_body p plan n b fd with
  | (r, b', fd') =>
      exists n' hp' ep', run_prog body_ops path perm fuel p tt (b, fd, n) hp ep = Ok ((b', fd', n'), tt, hp', ep', r)
  end.
Proof.
  intros path perm fuel p Hp. induction Hp as [r|o k Ho Hk IH]; intros b fd n hp ep.
  - cbn. eauto.
  - cbn [run_body run_prog]. pose proof (do_op_body path perm o b fd n Ho) as Hd.
    destruct (io_step o (plan n) b fd) as [[r b'] fd']. destruct Hd as [e Hd]. rewrite Hd.
    apply IH.
Qed.

(* Transform on this OS: open and lock succeed at once, the body is run_body of the model's
   transform_body from operation 0, unlock and close follow *)
Theorem transform_on_body_ops : forall t old fd fuel name, (1 <= fuel)%nat ->
  match run_body (transform_body (model_t t)) plan 0 old fd with
  | (r, b', fd') =>
      exists n' e, lf_Transform body_ops fuel (old, fd, 0) name t = Ok ((b', fd', n'), e) /\ result_of_err e = r
  end.
Proof.
  intros t old fd fuel name Hfuel.
  pose proof (Transform_eq body_ops body_unlock_no_eintr default_attr body_stat_static fuel (old, fd, 0) name t tt [] Hfuel) as Heq.
  unfold prog_of_call_a, client_prog_a in Heq. rewrite run_open_k in Heq by exact body_stat_static.
  cbn [flags_of_call body_of_call] in Heq.
  (* openFile on this OS *)
  assert (Hopen : run_prog body_ops name 438 fuel (open_only_a default_attr edit_flags) tt (old, fd, 0) [] WNil =
                  Ok ((old, fd, 0), tt,
                      [(OFlock (lock_arg_of_flags edit_flags), ROk); (OOpen (strip edit_flags openfile_strip_mask), ROk)],
                      WNil, ResOk)).
  { unfold open_only_a, open_file_prog_a, lock_stage, flock_step. change lock_retries_eintr with true.
    change truncate_after_lock with true. cbn [run_prog do_op body_ops os_open].
    destruct fuel as [|fu]; [lia|]. reflexivity. }
  rewrite Hopen in Heq. cbn [GoSem.bind result_is_ok] in Heq. unfold after_open in Heq. cbn [run_prog do_op] in Heq.
  rewrite run_bind in Heq.
  match type of Heq with context [run_prog body_ops ?a1 ?a2 ?a3 (transform_body ?tt) ?f0 ?w0 ?h0 ?e0] =>
    pose proof (run_body_ops a1 a2 a3 (transform_body tt) (LockProofs.io_only_transform _) old fd 0 h0 e0) as Hb end.
  destruct (run_body (transform_body (model_t t)) plan 0 old fd) as [[r b'] fd'].
  destruct Hb as (n' & H' & E' & Hb). rewrite Hb in Heq. cbn [GoSem.bind] in Heq.
  unfold close_part, close_prog in Heq. change closefile_unlock_first with true in Heq.
  cbn [run_prog do_op body_ops sys_flock os_close GoSem.bind run_out] in Heq.
  destruct (lf_Transform body_ops fuel (old, fd, 0) name t) as [[w' e]| |]; cbn in Heq; try discriminate.
  injection Heq as Hw He. subst w'. exists n', e. split; [reflexivity|exact He].
Qed.

End Body.

(* a single faulty I/O operation anywhere in the call (a failing write may have stored any prefix):
   the source's Transform is all-or-nothing *)
Theorem source_transform_fault_atomic : forall (t : bytes -> bytes * werr) old plan fd fuel name, (1 <= fuel)%nat ->
  acc_writable (fd_acc fd) = true -> acc_readable (fd_acc fd) = true -> fd_off fd = 0 ->
  TransformProofs.single_fault plan ->
  match lf_Transform (body_ops plan) fuel (old, fd, 0) name t with
  | Ok ((b', _, _), e) =>
      (werr_is_nil e = true /\ model_t t old = Some b') \/
      (werr_is_nil e = false /\ b' = old /\ (model_t t old = None \/ exists j, plan j <> FNone))
  | _ => False
  end.
Proof.
  intros t old plan fd fuel name Hfuel Hw Hr Ho Hsf.
  pose proof (TransformProofs.transform_fault_atomic (model_t t) old plan fd Hw Hr Ho Hsf) as Hm.
  pose proof (transform_on_body_ops plan t old fd fuel name Hfuel) as Hs.
  destruct (run_body (transform_body (model_t t)) plan 0 old fd) as [[r b'] fd'].
  destruct Hs as (n' & e & -> & He). unfold result_of_err in He.
  destruct (werr_is_nil e); subst r.
  - destruct Hm as [[_ Hm]|[Hm _]]; [left; auto|discriminate].
  - destruct Hm as [[Hm _]|[_ Hm]]; [discriminate|right; auto].
Qed.
