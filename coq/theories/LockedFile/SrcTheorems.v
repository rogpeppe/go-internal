(* lockedfile (C06, C07): theorems about the model's program terms, restated on the TRANSLATED
   SOURCE (Gen/LockedFileSrc.v) run on the model's operating system (SrcModel.model_ops), through
   the equalities of SrcFacts.v.  [pol'] is any fault policy over the history of the operations the
   call has really made (the ghost marks of the model are not operations). *)
From Coq Require Import List NArith ZArith Bool Lia.
From Coq.Strings Require Import Byte.
From GI Require Import Lib.Bytes Lib.GoSem Lib.GoSemWorld Lib.GoSemExtFacts.
From GI Require Import Gen.LockedFileConsts LockedFile.LockedFile LockedFile.LockedFileA LockedFile.LockBasics
  LockedFile.LockProofs LockedFile.Policy LockedFile.PolicyProofs LockedFile.PolicyCall.
From GI Require Import LockedFile.SrcLib Gen.LockedFileSrc LockedFile.SrcFacts LockedFile.SrcModel.
Import ListNotations.
Import GoNotations.
Local Open Scope go_scope.

Lemma bind_ok_inv : forall (A B : Type) (m : GoSem.res A) (g : A -> B) (y : B),
  (x <- m ;; Ok (g x)) = Ok y -> exists x, m = Ok x /\ g x = y.
Proof. intros A B m g y H. destruct (bind_Ok_inv _ _ _ H) as (x & E & [= Hx]). eauto. Qed.
Lemma bind_oof_inv : forall (A B : Type) (m : GoSem.res A) (g : A -> B),
  (x <- m ;; Ok (g x)) = OutOfFuel -> m = OutOfFuel.
Proof. intros A B m g H. destruct (bind_OutOfFuel_inv _ _ H) as [E|(x & _ & E)]; [exact E|discriminate E]. Qed.

Section OnModel.
Variables i c : nat.
Variable pol' : policy.

Notation MOS := (model_ops i c pol').
Notation pol := (fun h : Policy.history => pol' (strip_marks h)).

(* what a call of the API leaves behind on the model OS, for any result type *)
Definition released (s' : os) : Prop :=
  fds s' c = None /\ forall k, holds c k (ltab s' i) = false.

(* the common part: a translated function whose world afterwards is that of [run_prog] of an API
   call's program *)
Lemma call_released : forall (A : Type) (m : GoSem.res A) (projw : A -> mworld) cl path perm fuel s,
  io_only (body_of_call cl) -> (1 <= fuel)%nat ->
  fds s c = None -> locked c (ltab s i) = None -> refs s c = 0 ->
  (x <- m ;; Ok (projw x)) =
  (x <- run_prog MOS path perm fuel (prog_of_call_a default_attr cl) tt (s, []) [] WNil ;; Ok (fst (mrun_out x))) ->
  match m with
  | Ok x => released (fst (projw x))
  | OutOfFuel => True
  | Panic => False
  end.
Proof.
  intros A m projw cl path perm fuel s Hio Hfuel Hf Hl Hr Heq.
  pose proof (api_released_on_every_path i c cl pol s Hio Hf Hl Hr) as Hrel.
  pose proof (api_run i c pol' pol (fun _ _ _ _ => eq_refl) cl path perm fuel s Hio Hfuel) as Hrun.
  destruct (run_pol i c (prog_of_call cl) pol [] s) as [[hf [r|]] sf].
  - apply bind_ok_inv in Hrun. destruct Hrun as (y & Hy & Hyr). rewrite Hy in Heq. cbn [GoSem.bind] in Heq.
    apply bind_ok_inv in Heq. destruct Heq as (x & -> & Hx). cbv beta in Hx, Hyr. rewrite Hx, Hyr. cbn.
    destruct Hrel as (H1 & H2 & _). split; assumption.
  - apply bind_oof_inv in Hrun. rewrite Hrun in Heq. apply bind_oof_inv in Heq. rewrite Heq. exact I.
Qed.

(* from an equality of SrcFacts.v (world and result) to the equality of the worlds *)
Lemma eq_world : forall (A B : Type) (m : GoSem.res A) (m' : GoSem.res B) (K : A -> GoSem.res (mworld * result))
    (projw : A -> mworld) (g : B -> mworld * result),
  (forall x, exists r, K x = Ok (projw x, r)) ->
  (x <- m ;; K x) = (x <- m' ;; Ok (g x)) ->
  (x <- m ;; Ok (projw x)) = (x <- m' ;; Ok (fst (g x))).
Proof.
  intros A B m m' K projw g HK H. destruct m as [x| |]; destruct m' as [y| |]; cbn in *; try discriminate; try reflexivity.
  - destruct (HK x) as [r Hr]. rewrite Hr in H. injection H as H1. rewrite <- H1. reflexivity.
  - destruct (HK x) as [r Hr]. rewrite Hr in H. discriminate.
  - destruct (HK x) as [r Hr]. rewrite Hr in H. discriminate.
Qed.

(* Read, Write (any content reader), Transform (any function), Mutex.Lock + unlock: if the call
   returns, the caller holds no descriptor and no lock on the file -- under EVERY fault policy,
   whoever else holds locks *)
Theorem source_read_released : forall s fuel name, (1 <= fuel)%nat ->
  fds s c = None -> locked c (ltab s i) = None -> refs s c = 0 ->
  match lf_Read MOS fuel (s, []) name with
  | Ok (w', _, _) => released (fst w')
  | OutOfFuel => True
  | Panic => False
  end.
Proof.
  intros s fuel name Hfuel Hf Hl Hr.
  pose proof (call_released _ (lf_Read MOS fuel (s, []) name) (fun x => fst (fst x))
                CRead name 0%Z fuel s io_only_read Hfuel Hf Hl Hr) as H.
  lapply H.
  - destruct (lf_Read MOS fuel (s, []) name) as [[[w' b] e]| |]; auto.
  - eapply eq_world; [|exact (Read_eq MOS (model_unlock_no_eintr i c pol') default_attr (model_stat_static i c pol') fuel (s, []) name tt [] Hfuel)].
    intros [[w' b] e]. eexists. reflexivity.
Qed.

Theorem source_transform_released : forall s fuel name t, (1 <= fuel)%nat ->
  fds s c = None -> locked c (ltab s i) = None -> refs s c = 0 ->
  match lf_Transform MOS fuel (s, []) name t with
  | Ok (w', _) => released (fst w')
  | OutOfFuel => True
  | Panic => False
  end.
Proof.
  intros s fuel name t Hfuel Hf Hl Hr.
  pose proof (call_released _ (lf_Transform MOS fuel (s, []) name t) (fun x => fst x)
                (CTransform (model_t t)) name 438%Z fuel s (io_only_transform _) Hfuel Hf Hl Hr) as H.
  lapply H.
  - destruct (lf_Transform MOS fuel (s, []) name t) as [[w' e]| |]; auto.
  - eapply eq_world; [|exact (Transform_eq MOS (model_unlock_no_eintr i c pol') default_attr (model_stat_static i c pol') fuel (s, []) name t tt [] Hfuel)].
    intros [w' e]. eexists. reflexivity.
Qed.

Theorem source_write_released : forall s fuel name content perm, (1 <= fuel)%nat ->
  fds s c = None -> locked c (ltab s i) = None -> refs s c = 0 ->
  match lf_Write MOS fuel (s, []) name content perm with
  | Ok (w', _) => released (fst w')
  | OutOfFuel => True
  | Panic => False
  end.
Proof.
  intros s fuel name [chunks rerr] perm Hfuel Hf Hl Hr.
  pose proof (call_released _ (lf_Write MOS fuel (s, []) name (chunks, rerr) perm) (fun x => fst x)
                (writer_call chunks (negb (werr_is_nil rerr))) name perm fuel s (io_only_copy_body _ _) Hfuel Hf Hl Hr) as H.
  lapply H.
  - destruct (lf_Write MOS fuel (s, []) name (chunks, rerr) perm) as [[w' e]| |]; auto.
  - rewrite <- (write_prog_world MOS (model_unlock_no_eintr i c pol') default_attr (model_stat_static i c pol')).
    eapply eq_world; [|exact (Write_eq MOS (model_unlock_no_eintr i c pol') default_attr (model_stat_static i c pol') fuel (s, []) name chunks rerr perm tt [] Hfuel)].
    intros [w' e]. eexists. reflexivity.
Qed.

Theorem source_mutex_released : forall s fuel mu, (1 <= fuel)%nat ->
  lf_Mutex_Path mu <> [] -> lf_Mutex_mu mu = false ->
  fds s c = None -> locked c (ltab s i) = None -> refs s c = 0 ->
  match mutex_cycle MOS fuel (s, []) mu with
  | Ok (w', mu', _) => released (fst w') /\ mu' = mu
  | OutOfFuel => True
  | Panic => False
  end.
Proof.
  intros s fuel mu Hfuel Hp Hm Hf Hl Hr.
  pose proof (Mutex_eq MOS (model_unlock_no_eintr i c pol') default_attr (model_stat_static i c pol') fuel (s, []) mu tt [] Hfuel Hp Hm) as Heq.
  pose proof (call_released _ (mutex_cycle MOS fuel (s, []) mu) (fun x => fst (fst x))
                CMutex (lf_Mutex_Path mu) 438%Z fuel s (io_ret _) Hfuel Hf Hl Hr) as H.
  lapply H.
  - rewrite Heq.
    destruct (run_prog MOS (lf_Mutex_Path mu) 438 fuel (prog_of_call_a default_attr CMutex) tt (s, []) [] WNil)
      as [[[[[w' f'] h'] e'] r]| |]; cbn; auto.
  - rewrite Heq.
    destruct (run_prog MOS (lf_Mutex_Path mu) 438 fuel (prog_of_call_a default_attr CMutex) tt (s, []) [] WNil)
      as [[[[[w' f'] h'] e'] r]| |]; reflexivity.
Qed.

End OnModel.

(* a translated function that is [run_prog] of an API call's program: its outcome is that of the
   policy run *)
Lemma call_outcome : forall i c pol' pol (A : Type) (m : GoSem.res A) (K : A -> GoSem.res (mworld * result))
    cl path perm fuel s,
  (forall h o b fd, pol h o b fd = pol' (strip_marks h) o b fd) ->
  io_only (body_of_call cl) -> (1 <= fuel)%nat ->
  (forall x, exists y, K x = Ok y) ->
  (x <- m ;; K x) =
  (x <- run_prog (model_ops i c pol') path perm fuel (prog_of_call_a default_attr cl) tt (s, []) [] WNil ;; Ok (mrun_out x)) ->
  match run_pol i c (prog_of_call cl) pol [] s with
  | (hf, Finished r, sf) => exists x, m = Ok x /\ K x = Ok ((sf, strip_marks hf), r)
  | (_, Blocked, _) => m = OutOfFuel
  end.
Proof.
  intros i c pol' pol A m K cl path perm fuel s Hpol Hio Hfuel HK Heq.
  pose proof (api_run i c pol' pol Hpol cl path perm fuel s Hio Hfuel) as Hrun.
  destruct (run_pol i c (prog_of_call cl) pol [] s) as [[hf [r|]] sf]; rewrite Hrun in Heq.
  - destruct m as [x| |]; cbn in Heq; try discriminate. eauto.
  - destruct m as [x| |]; cbn in Heq; try discriminate; [|reflexivity].
    destruct (HK x) as [y Hy]. rewrite Hy in Heq. discriminate.
Qed.

Definition contents (w : mworld) : bytes := content_of (files (fst w) 0).

(* the source's Transform alone on an existing file of the model OS is the policy run of the
   model's Transform call *)
Lemma transform_outcome pol' pol t old fuel name :
  (forall h o b fd, pol h o b fd = pol' (strip_marks h) o b fd) -> (1 <= fuel)%nat ->
  match run_pol 0 0 (prog_of_call (CTransform (model_t t))) pol [] (os_with (Some old)) with
  | (hf, Finished r, sf) =>
      exists e, lf_Transform (model_ops 0 0 pol') fuel (os_with (Some old), []) name t
                = Ok ((sf, strip_marks hf), e) /\ result_of_err e = r
  | (_, Blocked, _) =>
      lf_Transform (model_ops 0 0 pol') fuel (os_with (Some old), []) name t = OutOfFuel
  end.
Proof.
  intros Hpol Hfuel.
  pose proof (call_outcome 0 0 pol' pol _ (lf_Transform (model_ops 0 0 pol') fuel (os_with (Some old), []) name t)
                (fun x => match x with (w', e) => Ok (w', result_of_err e) end) (CTransform (model_t t))
                name 438%Z fuel (os_with (Some old)) Hpol (io_only_transform _) Hfuel
                ltac:(intros [? ?]; eexists; reflexivity)
                (Transform_eq _ (model_unlock_no_eintr 0 0 _) default_attr (model_stat_static 0 0 _)
                   fuel _ name t tt [] Hfuel)) as Ho.
  destruct (run_pol 0 0 (prog_of_call (CTransform (model_t t))) pol [] (os_with (Some old)))
    as [[hf [r|]] sf]; [|exact Ho].
  destruct Ho as ([w' e] & -> & Hk). injection Hk as <- <-. eauto.
Qed.

(* a size limit L (RLIMIT_FSIZE, a quota), every write storing what fits and then failing, the
   rollback's writes too: the source's Transform is all-or-nothing, and has released everything *)
Theorem source_transform_limit_atomic : forall t old L fuel name, (1 <= fuel)%nat ->
  match lf_Transform (model_ops 0 0 (limit_pol L)) fuel (os_with (Some old), []) name t with
  | Ok (w', e) =>
      fds (fst w') 0 = None /\ (forall k, holds 0 k (ltab (fst w') 0) = false) /\
      ((werr_is_nil e = true /\ model_t t old = Some (contents w')) \/
       (werr_is_nil e = false /\ contents w' = old))
  | _ => False
  end.
Proof.
  intros t old L fuel name Hfuel.
  pose proof (transform_call_limit_atomic (model_t t) old L) as Hm.
  pose proof (transform_outcome (limit_pol L) (limit_pol L) t old fuel name (fun _ _ _ _ => eq_refl) Hfuel) as Ho.
  destruct (run_pol 0 0 (prog_of_call (CTransform (model_t t))) (limit_pol L) [] (os_with (Some old))) as [[hf out] sf].
  destruct Hm as (H1 & H2 & H3).
  destruct out as [r|]; [|destruct H3 as [[H3 _]|[H3 _]]; discriminate].
  destruct Ho as (e & -> & He). unfold contents. cbn [fst].
  split; [exact H1|]. split; [exact H2|].
  unfold result_of_err in He. destruct (werr_is_nil e); subst r.
  - destruct H3 as [[_ H3]|[H3 _]]; [left; auto|discriminate].
  - destruct H3 as [[H3 _]|[_ H3]]; [discriminate|right; auto].
Qed.

(* no faults: for every result of the function, the empty one included, Transform returns nil
   and the file holds the result *)
Theorem source_transform_publishes : forall t old new fuel name, (1 <= fuel)%nat ->
  model_t t old = Some new ->
  match lf_Transform (model_ops 0 0 no_fault_pol) fuel (os_with (Some old), []) name t with
  | Ok (w', e) =>
      werr_is_nil e = true /\ contents w' = new /\
      fds (fst w') 0 = None /\ (forall k, holds 0 k (ltab (fst w') 0) = false)
  | _ => False
  end.
Proof.
  intros t old new fuel name Hfuel Ht.
  pose proof (transform_call_publishes (model_t t) old new Ht) as Hm.
  pose proof (transform_outcome no_fault_pol no_fault_pol t old fuel name (fun _ _ _ _ => eq_refl) Hfuel) as Ho.
  destruct (run_pol 0 0 (prog_of_call (CTransform (model_t t))) no_fault_pol [] (os_with (Some old))) as [[hf out] sf].
  destruct Hm as (H1 & H2 & H3 & H4). subst out.
  destruct Ho as (e & -> & He). unfold contents. cbn [fst].
  unfold result_of_err in He. destruct (werr_is_nil e); [|discriminate]. auto.
Qed.

(* ANY policy that faults file I/O only: an error return never loses bytes -- the file is at
   least as long as before and the old bytes beyond the new length are intact *)
Theorem source_transform_err_keeps_old_tail : forall pol' t old fuel name, (1 <= fuel)%nat ->
  io_faults_only pol' ->
  match lf_Transform (model_ops 0 0 pol') fuel (os_with (Some old), []) name t with
  | Ok (w', e) =>
      werr_is_nil e = false ->
      length old <= length (contents w') /\
      forall new, model_t t old = Some new ->
        forall j, length new <= j -> j < length old -> nth j (contents w') x00 = nth j old x00
  | _ => True
  end.
Proof.
  intros pol' t old fuel name Hfuel Hio.
  set (pol := fun h : Policy.history => pol' (strip_marks h)).
  assert (Hio' : io_faults_only pol) by (intros h o b fd Ho; apply Hio, Ho).
  pose proof (transform_call_err_keeps_old_tail (model_t t) old pol Hio') as Hm.
  pose proof (transform_outcome pol' pol t old fuel name (fun _ _ _ _ => eq_refl) Hfuel) as Ho.
  destruct (run_pol 0 0 (prog_of_call (CTransform (model_t t))) pol [] (os_with (Some old))) as [[hf out] sf].
  destruct out as [r|].
  - destruct Ho as (e & -> & He). unfold contents. cbn [fst].
    intro Hne. unfold result_of_err in He. rewrite Hne in He. subst r. exact Hm.
  - rewrite Ho. exact I.
Qed.
