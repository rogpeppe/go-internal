(* C06: the locking protocol of lockedfile yields exclusion for every schedule, given the
   assumed flock semantics of the OS model.  The phase invariant and what follows from it are
   proved over the model with inode attributes (LockedFileA.v); the model of LockedFile.v is its
   instance in which every client is a [regular_client]. *)
From Coq Require Import List NArith Arith Bool Lia.
From Coq.Strings Require Import Byte.
From GI Require Import Gen.LockedFileConsts LockedFile.LockedFile LockedFile.LockedFileA
  LockedFile.LockBasics.
Import ListNotations.

Lemma write_flags_exclusive flags :
  In (N.land flags lock_switch_mask) [sys_O_WRONLY; sys_O_RDWR] ->
  lock_mode_of_flags flags = Some LEx.
Proof.
  intros Hin. unfold lock_mode_of_flags, lock_arg_of_flags.
  replace (existsb (N.eqb (N.land flags lock_switch_mask)) lock_switch_cases) with true.
  - reflexivity.
  - symmetry. apply existsb_exists. exists (N.land flags lock_switch_mask).
    split; [exact Hin|apply N.eqb_refl].
Qed.

Lemma rdonly_shared flags :
  ~ In (N.land flags lock_switch_mask) [sys_O_WRONLY; sys_O_RDWR] ->
  lock_mode_of_flags flags = Some LSh.
Proof.
  intros Hnin. unfold lock_mode_of_flags, lock_arg_of_flags.
  replace (existsb (N.eqb (N.land flags lock_switch_mask)) lock_switch_cases) with false.
  - reflexivity.
  - symmetry. apply not_true_is_false. intros He. apply existsb_exists in He.
    destruct He as [x [Hin He]]. apply N.eqb_eq in He. subst x. now apply Hnin.
Qed.

(* the access mode the kernel sees is the value the switch looks at *)
Lemma accmode_switch flags :
  accmode (strip flags openfile_strip_mask) = N.land flags lock_switch_mask.
Proof. unfold accmode. apply strip_keeps_disjoint. reflexivity. Qed.

(* a shared-locking call gets a descriptor the kernel does not let it write through *)
Lemma shared_not_writable flags :
  lock_mode_of_flags flags = Some LSh -> acc_writable (accmode (strip flags openfile_strip_mask)) = false.
Proof.
  intros Hm. rewrite accmode_switch. unfold acc_writable.
  destruct (N.eqb_spec (N.land flags lock_switch_mask) sys_O_WRONLY) as [E|_];
  [|destruct (N.eqb_spec (N.land flags lock_switch_mask) sys_O_RDWR) as [E|_]]; try reflexivity;
  rewrite write_flags_exclusive in Hm by (rewrite E; simpl; auto); discriminate.
Qed.

Lemma exclusive_writable flags :
  lock_mode_of_flags flags = Some LEx -> acc_writable (accmode (strip flags openfile_strip_mask)) = true.
Proof.
  intros Hm. rewrite accmode_switch. unfold acc_writable.
  destruct (N.eqb_spec (N.land flags lock_switch_mask) sys_O_WRONLY) as [E|N1]; [reflexivity|].
  destruct (N.eqb_spec (N.land flags lock_switch_mask) sys_O_RDWR) as [E|N2]; [reflexivity|].
  rewrite rdonly_shared in Hm; [discriminate|].
  simpl. intros [H|[H|[]]]; congruence.
Qed.

Lemma exclusive_req flags :
  lock_mode_of_flags flags = Some LEx -> flock_req_of (lock_arg_of_flags flags) = FReq LEx.
Proof.
  unfold lock_mode_of_flags. destruct (flock_req_of (lock_arg_of_flags flags)); try discriminate.
  now intros [= ->].
Qed.

Lemma api_lock_modes :
  lock_mode_of_flags create_flags = Some LEx /\
  lock_mode_of_flags edit_flags = Some LEx /\
  lock_mode_of_flags write_flags = Some LEx /\
  lock_mode_of_flags mutex_flags = Some LEx /\
  lock_mode_of_flags open_flags = Some LSh.
Proof. repeat split; reflexivity. Qed.

Lemma call_lock_modes d t b :
  lock_mode_of_flags (flags_of_call (CWrite d)) = Some LEx /\
  lock_mode_of_flags (flags_of_call (CTransform t)) = Some LEx /\
  lock_mode_of_flags (flags_of_call (CCreate b)) = Some LEx /\
  lock_mode_of_flags (flags_of_call (CEdit b)) = Some LEx /\
  lock_mode_of_flags (flags_of_call CMutex) = Some LEx /\
  lock_mode_of_flags (flags_of_call CRead) = Some LSh /\
  lock_mode_of_flags (flags_of_call (COpen b)) = Some LSh.
Proof. repeat split; reflexivity. Qed.

Lemma mutex_is_exclusive : lock_mode_of_flags (flags_of_call CMutex) = Some LEx.
Proof. reflexivity. Qed.

Lemma io_only_pwrite off d k : (forall x, io_only (k x)) -> io_only (pwrite_prog off d k).
Proof. intros Hk. destruct d; simpl; [apply Hk|now constructor]. Qed.

Lemma io_only_write d k : (forall x, io_only (k x)) -> io_only (write_prog d k).
Proof. intros Hk. destruct d; simpl; [apply Hk|now constructor]. Qed.

Lemma io_only_read : io_only read_body.
Proof. constructor; [reflexivity|]. intros []; constructor. Qed.

Lemma io_only_write_body d : io_only (write_body d).
Proof. apply io_only_write. intros []; constructor. Qed.

Lemma io_only_rollback old : io_only (rollback old).
Proof.
  apply io_only_pwrite. intros []; try constructor; try reflexivity. intros; constructor.
Qed.

Lemma io_only_transform_main old new : io_only (transform_main old new).
Proof.
  unfold transform_main. destruct (_ <=? _).
  - apply io_only_pwrite. intros []; try apply io_only_rollback. constructor.
  - apply io_only_pwrite. intros []; try apply io_only_rollback.
    constructor; [reflexivity|]. intros []; try apply io_only_rollback. constructor.
Qed.

Lemma io_only_transform t : io_only (transform_body t).
Proof.
  constructor; [reflexivity|]. intros []; try constructor.
  destruct (t b) as [new|]; [|constructor].
  unfold transform_write. destruct (_ <? _); [|apply io_only_transform_main].
  apply io_only_pwrite. intros []; try apply io_only_transform_main;
    (constructor; [reflexivity|intros; constructor]).
Qed.

Definition wf_call (c : call) : Prop := io_only (body_of_call c).
Definition wf_cfg (cfg : nat -> client) : Prop := forall c, wf_call (c_call (cfg c)).

Lemma wf_library_calls d t :
  wf_call CRead /\ wf_call (CWrite d) /\ wf_call (CTransform t) /\ wf_call CMutex.
Proof.
  repeat split; red; simpl.
  - apply io_only_read.
  - apply io_only_write_body.
  - apply io_only_transform.
  - constructor.
Qed.

Definition isopen (f : option fdesc) : bool := match f with Some _ => true | None => false end.

Lemma os_open_result i c fl s r s' eintr flt :
  os_step i c (OOpen fl) flt eintr s = Some (r, s') -> isopen (fds s c) = false ->
  (r = ROk /\ isopen (fds s' c) = true /\ ltab s' = ltab s /\
   fds s' c = Some {| fd_acc := accmode fl; fd_off := 0 |}) \/
  (r = RErr /\ s' = s).
Proof.
  intros H Hc. unfold os_step in H. destruct (fds s c); [discriminate|].
  os_inv H; simpl; rewrite ?upd_same; auto.
Qed.

Lemma os_open_existing i c fl s flt e b0 :
  files s i = Some b0 -> fds s c = None ->
  has_flag fl sys_O_CREATE && has_flag fl sys_O_EXCL = false -> has_flag fl sys_O_TRUNC = false ->
  os_step i c (OOpen fl) flt e s =
  Some (ROk, {| files := files s; fds := upd (fds s) c (Some {| fd_acc := accmode fl; fd_off := 0 |});
                refs := refs s; ltab := ltab s |}).
Proof. intros Hf Hc Hx Ht. unfold os_step. now rewrite Hc, Hf, Hx, Ht. Qed.

Definition lockable (f : option fdesc) : bool :=
  match f with Some fd => acc_readable (fd_acc fd) || acc_writable (fd_acc fd) | None => false end.

Lemma os_flock_req i c how k s eintr flt :
  flock_req_of how = FReq k -> isopen (fds s c) = true ->
  os_step i c (OFlock how) flt eintr s =
    if negb (lockable (fds s c)) then Some (RErr, s)
    else if can_grant k c (ltab s i)
    then Some (ROk, {| files := files s; fds := fds s; refs := refs s;
                       ltab := upd (ltab s) i ((c, k) :: drop c (ltab s i)) |})
    else if eintr then Some (REintr, s) else None.
Proof.
  intros Hr Ho. unfold os_step. destruct (fds s c); [|discriminate]. now rewrite Hr.
Qed.

Lemma os_flock_unlock i c s eintr flt :
  isopen (fds s c) = true ->
  os_step i c (OFlock filelock_unlock_arg) flt eintr s =
    Some (ROk, {| files := files s; fds := fds s; refs := refs s;
                  ltab := upd (ltab s) i (drop c (ltab s i)) |}).
Proof. intros Ho. unfold os_step. destruct (fds s c); [reflexivity|discriminate]. Qed.

Lemma os_close i c s eintr flt :
  isopen (fds s c) = true ->
  os_step i c OClose flt eintr s =
    Some (ROk, {| files := files s; fds := upd (fds s) c None; refs := refs s;
                  ltab := if Nat.eqb (refs s c) 0
                          then upd (ltab s) i (drop c (ltab s i)) else ltab s |}).
Proof. intros Ho. unfold os_step. destruct (fds s c); [reflexivity|discriminate]. Qed.

Lemma os_mark i c m s eintr flt : os_step i c (OMark m) flt eintr s = Some (ROk, s).
Proof. reflexivity. Qed.

(* closeFile and the error path of openFile after a failed Truncate: unlock and close, in either
   order, whatever faults the plan holds for them, end in the same state *)
Lemma unlock_close_seq (unlock_first : bool) i c x plan n s :
  isopen (fds s c) = true -> refs s c = 0 ->
  exists tr s',
    run_seq i c (if unlock_first
                 then Do (OFlock filelock_unlock_arg) (fun _ => Do OClose (fun _ => Ret x))
                 else Do OClose (fun _ => Do (OFlock filelock_unlock_arg) (fun _ => Ret x))) plan n s
    = (tr, Finished x, s') /\
    files s' = files s /\ fds s' = upd (fds s) c None /\ refs s' = refs s /\
    ltab s' i = drop c (ltab s i) /\ forall j, j <> i -> ltab s' j = ltab s j.
Proof.
  intros Ho Hr. destruct unlock_first; cbn [run_seq].
  - rewrite (os_flock_unlock i c s false _ Ho).
    set (s1 := {| files := files s; fds := fds s; refs := refs s;
                  ltab := upd (ltab s) i (drop c (ltab s i)) |}).
    rewrite (os_close i c s1 false _ Ho). simpl. rewrite Hr. simpl.
    do 2 eexists. split; [reflexivity|]. simpl. rewrite !upd_same, drop_drop.
    repeat split. intros j Hj. now rewrite !upd_other.
  - rewrite (os_close i c s false _ Ho), Hr. simpl.
    unfold os_step. simpl. rewrite upd_same.
    do 2 eexists. split; [reflexivity|]. simpl. rewrite upd_same.
    repeat split. intros j Hj. now rewrite upd_other.
Qed.

(* file I/O through an open descriptor is io_step on the contents of the file *)
Lemma os_io_flt i c o s eintr flt fd :
  is_io o = true -> fds s c = Some fd ->
  os_step i c o flt eintr s =
    match io_step o flt (content_of (files s i)) fd with
    | (r, b', fd') =>
        Some (r, {| files := upd (files s) i (Some b'); fds := upd (fds s) c (Some fd');
                    refs := refs s; ltab := ltab s |})
    end.
Proof.
  intros Hio Hfd. unfold os_step. rewrite Hfd. destruct o; try discriminate Hio; reflexivity.
Qed.

Lemma os_io i c o s eintr flt :
  is_io o = true -> isopen (fds s c) = true ->
  exists r s', os_step i c o flt eintr s = Some (r, s') /\
               isopen (fds s' c) = true /\ ltab s' = ltab s.
Proof.
  intros Hio Ho. destruct (fds s c) as [fd|] eqn:Hfd; [|discriminate].
  rewrite (os_io_flt i c o s eintr flt fd Hio Hfd).
  destruct (io_step o flt (content_of (files s i)) fd) as [[r b'] fd'].
  do 2 eexists. split; [reflexivity|]. simpl. rewrite upd_same. auto.
Qed.

(* with attributes: the same step, or a refusal that changes nothing *)
Lemma os_step_a_cases a i c o flt e s r s' :
  os_step_a a i c o flt e s = Some (r, s') ->
  (r = RErr /\ s' = s) \/ os_step i c o flt e s = Some (r, s').
Proof.
  unfold os_step_a. destruct o; auto.
  - destruct (files s i); auto. destruct (open_denied a flags); auto. intros [= <- <-]. auto.
  - destruct (a_regular a); auto. intros [= <- <-]. auto.
Qed.

Lemma open_denied_default flags : open_denied default_attr flags = false.
Proof. unfold open_denied. simpl. now rewrite andb_false_r. Qed.

Lemma os_step_a_default i c o flt e s : os_step_a default_attr i c o flt e s = os_step i c o flt e s.
Proof.
  unfold os_step_a. destruct o; try reflexivity.
  destruct (files s i); [|reflexivity]. now rewrite open_denied_default.
Qed.

Lemma os_open_result_a a i c fl s r s' eintr flt :
  os_step_a a i c (OOpen fl) flt eintr s = Some (r, s') -> isopen (fds s c) = false ->
  (r = ROk /\ isopen (fds s' c) = true /\ ltab s' = ltab s /\
   fds s' c = Some {| fd_acc := accmode fl; fd_off := 0 |}) \/
  (r = RErr /\ s' = s).
Proof.
  intros H Hc. destruct (os_step_a_cases _ _ _ _ _ _ _ _ _ H) as [[-> ->]|H']; [now right|].
  eapply os_open_result; eassumption.
Qed.

Lemma os_io_a a i c o s eintr flt :
  is_io o = true -> isopen (fds s c) = true ->
  exists r s', os_step_a a i c o flt eintr s = Some (r, s') /\
               isopen (fds s' c) = true /\ ltab s' = ltab s.
Proof.
  intros Hio Ho. destruct (os_io i c o s eintr flt Hio Ho) as [r [s' [H [H1 H2]]]].
  unfold os_step_a. destruct o; try discriminate Hio; try (now exists r, s').
  destruct (a_regular a); [now exists r, s'|]. exists RErr, s. auto.
Qed.

(* a child process takes or drops a reference: descriptors and files stay; the flock table
   changes at most by the entry of a description that is closed *)
Lemma os_dup_same c s :
  files (os_dup c s) = files s /\ fds (os_dup c s) = fds s /\ ltab (os_dup c s) = ltab s.
Proof. unfold os_dup. destruct (fds s c); auto. Qed.

Lemma os_dupclose_same i c s :
  files (os_dupclose i c s) = files s /\ fds (os_dupclose i c s) = fds s /\
  (ltab (os_dupclose i c s) = ltab s \/
   fds s c = None /\ ltab (os_dupclose i c s) = upd (ltab s) i (drop c (ltab s i))).
Proof.
  unfold os_dupclose. destruct (refs s c) as [|[|n]]; simpl; auto.
  destruct (fds s c); auto.
Qed.

Section Phase.
Variables (fl : N) (b : prog).

Definition k0 : bool -> prog := fun ok => if ok then after_open b else Ret ResErr.
Definition klock : bool -> prog := fun ok => if ok then trunc_stage fl k0 else Ret ResErr.

End Phase.

Section PhaseA.
Variables (a : attr) (fl : N) (b : prog).

Definition klock_a : bool -> prog := fun ok => if ok then trunc_stage_a a fl (k0 b) else Ret ResErr.

(* remaining program / descriptor open? / entry in the flock table of its inode / status *)
Inductive phase_a : prog -> bool -> option lkind -> cstatus -> Prop :=
| ph_start : phase_a (client_prog_a a fl b) false None SIdle
| ph_lock : phase_a (lock_stage fl klock_a) true None SIdle
| ph_trunc m : lock_mode_of_flags fl = Some m -> phase_a (trunc_stage_a a fl (k0 b)) true (Some m) SIdle
| ph_truncfail m : lock_mode_of_flags fl = Some m ->
    phase_a (trunc_fail_prog (Ret ResErr)) true (Some m) SIdle
| ph_ret m : lock_mode_of_flags fl = Some m -> phase_a (after_open b) true (Some m) SIdle
| ph_cs m b' : lock_mode_of_flags fl = Some m -> io_only b' ->
    phase_a (bind b' close_part) true (Some m) SInCS
| ph_closing m x : lock_mode_of_flags fl = Some m ->
    phase_a (close_prog (Ret x)) true (Some m) SClosing
| ph_close x st : st <> SInCS -> phase_a (Do OClose (fun _ => Ret x)) true None st
| ph_done x st : st <> SInCS -> phase_a (Ret x) false None st.

End PhaseA.

Definition cphase_a (cfg : nat -> client_a) (s : state) (c : nat) : Prop :=
  phase_a (ca_attr (cfg c)) (flags_of_call (ca_call (cfg c))) (body_of_call (ca_call (cfg c)))
        (progs s c) (isopen (fds (st_os s) c))
        (locked c (ltab (st_os s) (ca_ino (cfg c)))) (status s c).

Lemma locked_upd_grant c k (lt : nat -> list (nat * lkind)) i :
  locked c (upd lt i ((c, k) :: drop c (lt i)) i) = Some k.
Proof. rewrite upd_same. apply locked_cons_same. Qed.

Lemma locked_upd_drop c (lt : nat -> list (nat * lkind)) i :
  locked c (upd lt i (drop c (lt i)) i) = None.
Proof. rewrite upd_same. apply locked_drop_same. Qed.

(* from here on, and in every file that requires this one, simpl leaves os_step folded: its
   steps are taken by the equations above *)
Arguments os_step : simpl never.

Lemma phase_step_a cfg s c eintr :
  io_only (body_of_call (ca_call (cfg c))) ->
  cphase_a cfg s c -> cphase_a cfg (run_client_a cfg c eintr s) c.
Proof.
  intros Hio H. unfold cphase_a in *.
  set (fl := flags_of_call (ca_call (cfg c))) in *.
  set (b := body_of_call (ca_call (cfg c))) in *.
  set (i := ca_ino (cfg c)) in *.
  destruct (lock_mode_total fl) as [m [Hm Hreq]].
  set (a := ca_attr (cfg c)) in *.
  unfold run_client_a. fold i a.
  inversion H as [Hp Ho Hl Hs | Hp Ho Hl Hs | m' Hm' Hp Ho Hl Hs | m' Hm' Hp Ho Hl Hs
                 | m' Hm' Hp Ho Hl Hs | m' b' Hm' Hb' Hp Ho Hl Hs | m' x Hm' Hp Ho Hl Hs
                 | x st Hst Hp Ho Hl Hs | x st Hst Hp Ho Hl Hs]; symmetry in Ho; try rewrite <- Hp.
  - (* start: openat *)
    unfold client_prog_a, open_file_prog_a.
    destruct (os_step_a a i c (OOpen _) FNone eintr (st_os s)) as [[r o2]|] eqn:Hos.
    + destruct (os_open_result_a _ _ _ _ _ _ _ _ _ Hos Ho) as [[-> [Ho2 [Hlt _]]]|[-> ->]]; simpl;
        rewrite ?upd_same.
      * rewrite Ho2, Hlt, <- Hl, <- Hs. apply ph_lock.
      * rewrite Ho, <- Hl, <- Hs. apply (ph_done _ _ _ ResErr). discriminate.
    + simpl. rewrite <- Hp, Ho, <- Hl, <- Hs. apply ph_start.
  - (* flock *)
    unfold lock_stage, flock_step. simpl.
    rewrite (os_flock_req _ _ _ m _ _ _ Hreq Ho).
    destruct (negb (lockable _)).
    { simpl. rewrite !upd_same, Ho, <- Hl, <- Hs. apply ph_close. discriminate. }
    destruct (can_grant m c _).
    + simpl. rewrite !upd_same, Ho, locked_cons_same, <- Hs. now apply ph_trunc.
    + destruct eintr; simpl.
      * rewrite !upd_same, Ho, <- Hl, <- Hs. apply ph_lock.
      * rewrite <- ?Hp, Ho, <- Hl, <- Hs. apply ph_lock.
  - (* ftruncate (or nothing) *)
    unfold trunc_stage_a. destruct (has_flag fl truncate_cond_mask).
    + destruct (os_io_a a i c (OFtruncate (N.to_nat truncate_size)) (st_os s) eintr FNone eq_refl Ho)
        as [r [o2 [Hos [Ho2 Hlt]]]].
      rewrite Hos.
      destruct r; simpl; rewrite !upd_same, Ho2, Hlt, <- Hl, <- Hs; try (now apply ph_ret);
        (destruct (a_regular a); [now apply ph_truncfail|now apply ph_ret]).
    + (* k0 true = after_open b: the mark *)
      simpl. rewrite !upd_same, Ho, <- Hl. apply (ph_cs _ _ _ m' b Hm' Hio).
  - (* failed truncate: unlock *)
    unfold trunc_fail_prog. simpl.
    rewrite (os_flock_unlock _ _ _ _ _ Ho). simpl.
    rewrite !upd_same, Ho, locked_drop_same, <- Hs. apply ph_close. discriminate.
  - (* the locking call returns *)
    simpl. rewrite !upd_same, Ho, <- Hl. apply (ph_cs _ _ _ m' b Hm' Hio).
  - (* critical section *)
    destruct Hb' as [x|o k Hoio Hk]; simpl.
    + rewrite !upd_same, Ho, <- Hl. now apply ph_closing.
    + destruct (os_io_a a i c o (st_os s) eintr FNone Hoio Ho) as [r [o2 [Hos [Ho2 Hlt]]]].
      rewrite Hos.
      assert (Hst : status_after o (status s c) = SInCS)
        by (rewrite <- Hs; destruct o; try discriminate Hoio; reflexivity).
      destruct r; simpl; rewrite !upd_same, Ho2, Hlt, <- Hl, Hst; now apply ph_cs.
  - (* Close: unlock *)
    unfold close_prog. simpl.
    rewrite (os_flock_unlock _ _ _ _ _ Ho). simpl.
    rewrite !upd_same, Ho, locked_drop_same, <- Hs. apply ph_close. discriminate.
  - (* close *)
    simpl os_step_a.
    rewrite (os_close _ _ _ _ _ Ho). simpl. rewrite !upd_same.
    assert (Hl2 : locked c ((if Nat.eqb (refs (st_os s) c) 0
                   then upd (ltab (st_os s)) i (drop c (ltab (st_os s) i))
                   else ltab (st_os s)) i) = None).
    { destruct (Nat.eqb _ 0); [apply locked_upd_drop|now symmetry]. }
    rewrite Hl2. now apply ph_done.
  - (* done *)
    simpl. rewrite <- Hp, Ho, <- Hl. now apply ph_done.
Qed.

Record inv06_a (cfg : nat -> client_a) (s : state) : Prop := {
  i_tab : forall i, ltab_ok (ltab (st_os s) i);
  i_phase : forall c, cphase_a cfg s c;
  i_own : forall c i, i <> ca_ino (cfg c) -> locked c (ltab (st_os s) i) = None
}.

(* a step of client c: the OS is untouched or changed by one os_step of c on its inode *)
Lemma run_client_os_a cfg c eintr s :
  st_os (run_client_a cfg c eintr s) = st_os s \/
  exists o r, os_step (ca_ino (cfg c)) c o FNone eintr (st_os s)
              = Some (r, st_os (run_client_a cfg c eintr s)).
Proof.
  unfold run_client_a. destruct (progs s c) as [x|o k|o k]; [now left| |];
  destruct (os_step_a (ca_attr (cfg c)) (ca_ino (cfg c)) c o FNone eintr (st_os s)) as [[r o2]|] eqn:Hos;
    try now left.
  - destruct (os_step_a_cases _ _ _ _ _ _ _ _ _ Hos) as [[-> ->]|H']; [now left|].
    right. exists o, r. exact H'.
  - destruct (os_step_a_cases _ _ _ _ _ _ _ _ _ Hos) as [[-> ->]|H']; [now left|].
    right. exists o, r. destruct r; exact H'.
Qed.

Lemma run_client_other_a cfg c eintr s d :
  d <> c ->
  progs (run_client_a cfg c eintr s) d = progs s d /\
  status (run_client_a cfg c eintr s) d = status s d.
Proof.
  intros Hd. unfold run_client_a. destruct (progs s c) as [x|o k|o k]; [now split| |];
  destruct (os_step_a (ca_attr (cfg c)) (ca_ino (cfg c)) c o FNone eintr (st_os s)) as [[r o2]|]; try now split.
  - simpl. now rewrite !upd_other.
  - destruct r; simpl; now rewrite !upd_other.
Qed.

(* what a step of client d leaves alone: the other clients, and the tables of the other inodes *)
Lemma run_client_a_frame cfg d eintr s c :
  c <> d ->
  let s' := run_client_a cfg d eintr s in
  progs s' c = progs s c /\ status s' c = status s c /\
  fds (st_os s') c = fds (st_os s) c /\
  forall j, locked c (ltab (st_os s') j) = locked c (ltab (st_os s) j).
Proof.
  intros Hc s'. destruct (run_client_other_a cfg d eintr s c Hc) as [E1 E2].
  split; [exact E1|]. split; [exact E2|].
  destruct (run_client_os_a cfg d eintr s) as [E|[o [r Hos]]].
  - unfold s'. rewrite E. auto.
  - fold s' in Hos. split; [eapply os_step_fds_other; eassumption|].
    intros j. destruct (Nat.eq_dec j (ca_ino (cfg d))) as [->|Hj].
    + eapply os_step_locked_other; eassumption.
    + now rewrite (os_step_ltab_other_inode _ _ _ _ _ _ _ _ j Hos Hj).
Qed.

Lemma run_client_a_ltab_other cfg d eintr s j :
  j <> ca_ino (cfg d) -> ltab (st_os (run_client_a cfg d eintr s)) j = ltab (st_os s) j.
Proof.
  intros Hj. destruct (run_client_os_a cfg d eintr s) as [E|[o [r Hos]]].
  - now rewrite E.
  - eapply os_step_ltab_other_inode; eassumption.
Qed.

Lemma run_client_a_ltab_ok cfg d eintr s j :
  ltab_ok (ltab (st_os s) j) -> ltab_ok (ltab (st_os (run_client_a cfg d eintr s)) j).
Proof.
  intros Hok. destruct (Nat.eq_dec j (ca_ino (cfg d))) as [->|Hj];
    [|now rewrite run_client_a_ltab_other].
  destruct (run_client_os_a cfg d eintr s) as [E|[o [r Hos]]].
  - now rewrite E.
  - eapply os_step_ltab_ok; eassumption.
Qed.

(* no event unlinks, renames or replaces a file *)
Lemma run_client_a_keeps_file cfg d eintr s j :
  files (st_os s) j <> None -> files (st_os (run_client_a cfg d eintr s)) j <> None.
Proof.
  intros H. destruct (run_client_os_a cfg d eintr s) as [E|[o [r Hos]]]; [now rewrite E|].
  eapply os_step_keeps_file; eassumption.
Qed.

Lemma run_a_keeps_file cfg sched j s :
  files (st_os s) j <> None -> files (st_os (run_a cfg s sched)) j <> None.
Proof.
  apply (fold_left_invariant (exec_a cfg) (fun s => files (st_os s) j <> None)). clear s. intros s e H.
  destruct e as [c|c|c|c]; simpl; try now apply run_client_a_keeps_file.
  - now rewrite (proj1 (os_dup_same c (st_os s))).
  - now rewrite (proj1 (os_dupclose_same _ c (st_os s))).
Qed.

Section Invariant.
Variable cfg : nat -> client_a.
Hypothesis Hwf : forall c, wf_call (ca_call (cfg c)).

Lemma inv06_run_client_a c eintr s : inv06_a cfg s -> inv06_a cfg (run_client_a cfg c eintr s).
Proof.
  intros [Htab Hph Hown]. split.
  - intros j. apply run_client_a_ltab_ok, Htab.
  - intros d. destruct (Nat.eq_dec d c) as [->|Hd]; [apply phase_step_a; [apply Hwf|apply Hph]|].
    destruct (run_client_a_frame cfg c eintr s d Hd) as (Ep & Es & Ef & El).
    unfold cphase_a. rewrite Ep, Es, Ef, El. apply Hph.
  - intros d j Hj. destruct (Nat.eq_dec d c) as [->|Hd].
    + rewrite run_client_a_ltab_other by assumption. now apply Hown.
    + destruct (run_client_a_frame cfg c eintr s d Hd) as (_ & _ & _ & El). rewrite El. now apply Hown.
Qed.

(* a client without a descriptor has no entry in the table of its inode *)
Lemma inv06_closed_unlocked s c :
  inv06_a cfg s -> fds (st_os s) c = None -> locked c (ltab (st_os s) (ca_ino (cfg c))) = None.
Proof.
  intros Hinv Hc. pose proof (i_phase _ _ Hinv c) as H. unfold cphase_a in H. rewrite Hc in H.
  inversion H; reflexivity.
Qed.

(* so an inherited copy going away changes nobody's entry: it can only remove that of a closed
   description *)
Lemma inv06_dupclose_locked s c : inv06_a cfg s ->
  forall d j, locked d (ltab (os_dupclose (ca_ino (cfg c)) c (st_os s)) j) = locked d (ltab (st_os s) j).
Proof.
  intros Hinv d j.
  destruct (os_dupclose_same (ca_ino (cfg c)) c (st_os s)) as (_ & _ & [->|[Hc ->]]); [reflexivity|].
  destruct (Nat.eq_dec j (ca_ino (cfg c))) as [->|Hj]; [|now rewrite upd_other].
  rewrite upd_same. destruct (Nat.eq_dec d c) as [->|Hd]; [|now apply locked_drop_other].
  now rewrite locked_drop_same, inv06_closed_unlocked.
Qed.

Lemma inv06_exec_a s e : inv06_a cfg s -> inv06_a cfg (exec_a cfg s e).
Proof.
  intros Hinv. destruct e as [c|c|c|c]; simpl.
  - now apply inv06_run_client_a.
  - now apply inv06_run_client_a.
  - (* a child inherits the descriptor: only the reference count changes *)
    destruct Hinv as [Htab Hph Hown]. destruct (os_dup_same c (st_os s)) as (_ & Ef & El).
    split; simpl.
    + intros i. rewrite El. apply Htab.
    + intros d. unfold cphase_a. simpl. rewrite Ef, El. apply Hph.
    + intros d i Hi. rewrite El. now apply Hown.
  - (* an inherited copy goes away *)
    pose proof (inv06_dupclose_locked s c Hinv) as Hsame.
    destruct Hinv as [Htab Hph Hown]. set (i := ca_ino (cfg c)) in *.
    destruct (os_dupclose_same i c (st_os s)) as (_ & Ef & El).
    split; simpl.
    + intros j. destruct El as [->|[_ ->]]; [apply Htab|].
      destruct (Nat.eq_dec j i) as [->|Hj].
      * rewrite upd_same. apply ltab_ok_drop, Htab.
      * rewrite upd_other by assumption. apply Htab.
    + intros d. unfold cphase_a. simpl. fold i. rewrite Ef, Hsame. apply Hph.
    + intros d j Hj. fold i. rewrite Hsame. now apply Hown.
Qed.

Lemma inv06_run_a s sched : inv06_a cfg s -> inv06_a cfg (run_a cfg s sched).
Proof.
  apply (fold_left_invariant (exec_a cfg) (inv06_a cfg)). intros s0 e. apply inv06_exec_a.
Qed.

End Invariant.

Lemma inv06_init_a cfg f : inv06_a cfg (init_state_a cfg f).
Proof.
  split; simpl.
  - intros i. apply ltab_ok_nil.
  - intros c. unfold cphase_a. simpl. apply ph_start.
  - reflexivity.
Qed.

Definition first_op (p : prog) : option op :=
  match p with Ret _ => None | Do o _ | Retry o _ => Some o end.

(* the moments at which a client has to hold its lock: inside the critical section, about to
   return from the locking call, about to unlock, about to read, write or truncate the file *)
Definition under_lock (p : prog) (st : cstatus) : Prop :=
  st = SInCS \/
  match p with Do (OMark MReturned) _ | Do (OFlock _) _ => True | _ => False end \/
  exists o, first_op p = Some o /\ is_io o = true.

Lemma phase_under_lock a fl b p o l st :
  phase_a a fl b p o l st -> under_lock p st -> exists m, lock_mode_of_flags fl = Some m /\ l = Some m.
Proof.
  unfold under_lock.
  destruct 1; eauto; unfold client_prog_a, open_file_prog_a, lock_stage, flock_step; simpl;
    intros [E|[[]|[y [Hy Hio]]]]; try congruence; try discriminate Hy;
    injection Hy as <-; discriminate Hio.
Qed.

Lemma phase_ret a fl b p o l st :
  phase_a a fl b p o l st -> is_ret p = true -> o = false /\ l = None.
Proof.
  destruct 1 as [| | | | |m b' Hm Hb'| | |]; auto; unfold client_prog_a, open_file_prog_a, lock_stage,
    flock_step, trunc_fail_prog, after_open, close_prog; simpl; try discriminate.
  - unfold trunc_stage_a. destruct (has_flag _ _); simpl; discriminate.
  - destruct Hb'; simpl; discriminate.
Qed.

Lemma phase_open_no_trunc_a a fl b p o l st fl' :
  phase_a a fl b p o l st -> first_op p = Some (OOpen fl') -> has_flag fl' sys_O_TRUNC = false.
Proof.
  destruct 1 as [| | | | |m b' Hm Hb'| | |]; unfold client_prog_a, open_file_prog_a, lock_stage,
    flock_step, trunc_fail_prog, after_open, close_prog; simpl; try discriminate.
  - intros [= <-]. apply strip_has_flag. discriminate.
  - unfold trunc_stage_a. destruct (has_flag _ _); simpl; discriminate.
  - destruct Hb' as [x|o' k Hio _]; simpl; [discriminate|].
    intros [= ->]. discriminate Hio.
Qed.

Section Consequences.
Variables (cfg : nat -> client_a) (s : state).
Hypothesis Hinv : inv06_a cfg s.

Lemma inv06_holds c :
  under_lock (progs s c) (status s c) -> exists m, mode_of_a cfg c = Some m /\ holds_lock_a cfg s c m.
Proof.
  intros Hu. destruct (phase_under_lock _ _ _ _ _ _ _ (i_phase _ _ Hinv c) Hu) as [m [Hm Hl]].
  exists m. split; [exact Hm|]. apply holds_locked; [apply (i_tab _ _ Hinv)|exact Hl].
Qed.

Lemma inv06_lock_mode c m :
  locked c (ltab (st_os s) (ca_ino (cfg c))) = Some m -> mode_of_a cfg c = Some m.
Proof.
  intros Hl. pose proof (i_phase _ _ Hinv c) as H. unfold cphase_a in H. rewrite Hl in H.
  inversion H; assumption.
Qed.

Lemma inv06_exclusion c d :
  c <> d -> ca_ino (cfg c) = ca_ino (cfg d) -> in_cs s c -> in_cs s d ->
  mode_of_a cfg c = Some LSh /\ mode_of_a cfg d = Some LSh.
Proof.
  intros Hcd Hino Hc Hd.
  destruct (inv06_holds c (or_introl Hc)) as [mc [Hmc Hhc]].
  destruct (inv06_holds d (or_introl Hd)) as [md [Hmd Hhd]].
  unfold holds_lock_a in *. rewrite <- Hino in Hhd.
  destruct (i_tab _ _ Hinv (ca_ino (cfg c))) as [Hnd Hex].
  apply (holds_locked _ _ _ Hnd), locked_In in Hhc. apply (holds_locked _ _ _ Hnd), locked_In in Hhd.
  rewrite Hmc, Hmd.
  destruct mc, md; auto; exfalso; apply Hcd;
    first [eapply Hex; eassumption | symmetry; eapply Hex; eassumption].
Qed.

Lemma inv06_returned c r :
  returned s c r ->
  fds (st_os s) c = None /\ forall i k, holds c k (ltab (st_os s) i) = false.
Proof.
  intros Hret. pose proof (i_phase _ _ Hinv c) as H. unfold cphase_a in H.
  red in Hret. rewrite Hret in H. destruct (phase_ret _ _ _ _ _ _ _ H eq_refl) as [Ho Hl]. split.
  - destruct (fds (st_os s) c); [discriminate Ho|reflexivity].
  - intros i k. apply locked_None_holds.
    destruct (Nat.eq_dec i (ca_ino (cfg c))) as [->|Hi]; [exact Hl|now apply (i_own _ _ Hinv)].
Qed.

Lemma inv06_open_no_trunc c fl' :
  first_op (progs s c) = Some (OOpen fl') -> has_flag fl' sys_O_TRUNC = false.
Proof. apply (phase_open_no_trunc_a _ _ _ _ _ _ _ _ (i_phase _ _ Hinv c)). Qed.

End Consequences.

(* the model of LockedFile.v: every file regular and accessible *)

Definition regular_client (cl : client) : client_a :=
  {| ca_ino := c_ino cl; ca_call := c_call cl; ca_attr := default_attr |}.

Lemma run_client_a_regular cfg c e s :
  run_client_a (fun c => regular_client (cfg c)) c e s = run_client cfg c e s.
Proof.
  unfold run_client_a, run_client. simpl.
  destruct (progs s c) as [x|o k|o k]; try reflexivity; now rewrite os_step_a_default.
Qed.

Lemma exec_a_regular cfg s e : exec_a (fun c => regular_client (cfg c)) s e = exec cfg s e.
Proof. destruct e; simpl; try apply run_client_a_regular; reflexivity. Qed.

Lemma run_a_regular cfg s sched : run_a (fun c => regular_client (cfg c)) s sched = run cfg s sched.
Proof.
  revert s. unfold run_a, run. induction sched as [|e l IH]; intros s; simpl; [reflexivity|].
  now rewrite exec_a_regular.
Qed.

Lemma run_client_frame cfg d eintr s c :
  c <> d ->
  let s' := run_client cfg d eintr s in
  progs s' c = progs s c /\ status s' c = status s c /\
  fds (st_os s') c = fds (st_os s) c /\
  forall j, locked c (ltab (st_os s') j) = locked c (ltab (st_os s) j).
Proof. rewrite <- run_client_a_regular. apply run_client_a_frame. Qed.

Lemma run_client_ltab_other cfg d eintr s j :
  j <> c_ino (cfg d) -> ltab (st_os (run_client cfg d eintr s)) j = ltab (st_os s) j.
Proof.
  rewrite <- run_client_a_regular. apply (run_client_a_ltab_other (fun c => regular_client (cfg c))).
Qed.

Definition inv06 (cfg : nat -> client) : state -> Prop := inv06_a (fun c => regular_client (cfg c)).

Lemma inv06_run_client cfg c eintr s :
  wf_cfg cfg -> inv06 cfg s -> inv06 cfg (run_client cfg c eintr s).
Proof. intros Hwf. rewrite <- run_client_a_regular. now apply inv06_run_client_a. Qed.

Lemma inv06_exec cfg s e : wf_cfg cfg -> inv06 cfg s -> inv06 cfg (exec cfg s e).
Proof. intros Hwf. rewrite <- exec_a_regular. now apply inv06_exec_a. Qed.

Lemma inv06_init cfg f : inv06 cfg (init_state cfg f).
Proof. apply (inv06_init_a (fun c => regular_client (cfg c))). Qed.

Definition reachable (cfg : nat -> client) (f : nat -> option bytes) (s : state) : Prop :=
  exists sched, s = run cfg (init_state cfg f) sched.

Lemma inv06_of_reachable cfg f s : wf_cfg cfg -> reachable cfg f s -> inv06 cfg s.
Proof.
  intros Hwf [sched ->]. rewrite <- run_a_regular. apply inv06_run_a; [exact Hwf|apply inv06_init].
Qed.

(* held from the return of the locking call until Close is called *)
Theorem held_until_close cfg f s c :
  wf_cfg cfg -> reachable cfg f s -> in_cs s c ->
  exists m, mode_of cfg c = Some m /\ holds_lock cfg s c m.
Proof.
  intros Hwf Hr Hcs. apply (inv06_holds _ s (inv06_of_reachable _ _ _ Hwf Hr) c). now left.
Qed.

(* two clients inside their critical sections on one inode are both readers *)
Theorem exclusion cfg f s c d :
  wf_cfg cfg -> reachable cfg f s ->
  c <> d -> c_ino (cfg c) = c_ino (cfg d) -> in_cs s c -> in_cs s d ->
  mode_of cfg c = Some LSh /\ mode_of cfg d = Some LSh.
Proof. intros Hwf Hr. apply (inv06_exclusion _ s (inv06_of_reachable _ _ _ Hwf Hr)). Qed.

Corollary writer_excludes_all cfg f s c d :
  wf_cfg cfg -> reachable cfg f s ->
  c <> d -> c_ino (cfg c) = c_ino (cfg d) ->
  mode_of cfg c = Some LEx -> in_cs s c -> ~ in_cs s d.
Proof.
  intros Hwf Hr Hcd Hino Hm Hc Hd.
  destruct (exclusion cfg f s c d Hwf Hr Hcd Hino Hc Hd) as [E _]. congruence.
Qed.

(* the lock is also in the table before the call returns and until the unlock step of Close *)
Theorem held_from_before_return_to_unlock cfg f s c :
  wf_cfg cfg -> reachable cfg f s ->
  (progs s c = after_open (body_of_call (c_call (cfg c))) \/ in_cs s c \/
   exists x, progs s c = close_prog (Ret x)) ->
  exists m, mode_of cfg c = Some m /\ holds_lock cfg s c m.
Proof.
  intros Hwf Hr Hcase. apply (inv06_holds _ s (inv06_of_reachable _ _ _ Hwf Hr) c).
  destruct Hcase as [Hp|[Hcs|[x Hp]]]; [right; left| now left |right; left]; rewrite Hp; exact I.
Qed.

(* ... and released by Close: a call that has returned holds nothing anywhere, whatever
   descriptors child processes inherited in the meantime *)
Theorem released_by_close cfg f s c r :
  wf_cfg cfg -> reachable cfg f s -> returned s c r ->
  forall i k, holds c k (ltab (st_os s) i) = false.
Proof.
  intros Hwf Hr Hret. apply (inv06_returned _ s (inv06_of_reachable _ _ _ Hwf Hr) c r Hret).
Qed.

(* every read, write or truncate of the file happens while the client's lock is in the table;
   in particular the ftruncate that implements O_TRUNC comes after the successful flock *)
Theorem io_under_lock cfg f s c o :
  wf_cfg cfg -> reachable cfg f s ->
  first_op (progs s c) = Some o -> is_io o = true ->
  exists m, mode_of cfg c = Some m /\ holds_lock cfg s c m.
Proof.
  intros Hwf Hr Hop Hio. apply (inv06_holds _ s (inv06_of_reachable _ _ _ Hwf Hr) c).
  right. right. eauto.
Qed.

(* no open of any call carries O_TRUNC, whatever flags the caller passed; a truncation comes
   under the lock *)
Theorem no_truncate_before_lock cfg f s c :
  wf_cfg cfg -> reachable cfg f s ->
  (forall fl', first_op (progs s c) = Some (OOpen fl') -> has_flag fl' sys_O_TRUNC = false) /\
  (forall n, first_op (progs s c) = Some (OFtruncate n) ->
             exists m, mode_of cfg c = Some m /\ holds_lock cfg s c m).
Proof.
  intros Hwf Hr. split.
  - intros fl'. apply (inv06_open_no_trunc _ s (inv06_of_reachable _ _ _ Hwf Hr)).
  - intros n Hop. now apply (io_under_lock cfg f s c (OFtruncate n)).
Qed.

(* the static form: the flags openFile hands to the kernel, for every caller flag word *)
Theorem open_flags_stripped flags :
  has_flag (strip flags openfile_strip_mask) sys_O_TRUNC = false /\
  accmode (strip flags openfile_strip_mask) = accmode flags.
Proof.
  split; [apply strip_has_flag; discriminate|].
  unfold accmode. apply strip_keeps_disjoint. reflexivity.
Qed.

Definition ex_cfg (c : nat) : client :=
  match c with
  | 0 => {| c_ino := 0; c_call := CWrite [x61; x62; x63] |}
  | 1 => {| c_ino := 0; c_call := CRead |}
  | 2 => {| c_ino := 0; c_call := CRead |}
  | 3 => {| c_ino := 0; c_call := CTransform (fun b => Some (b ++ [x7a])) |}
  | _ => {| c_ino := 1; c_call := CMutex |}
  end.

Example ex_cfg_wf : wf_cfg ex_cfg.
Proof.
  intros c. unfold ex_cfg, wf_call. destruct c as [|[|[|[|c]]]]; cbn [c_call body_of_call].
  - apply io_only_write_body.
  - apply io_only_read.
  - apply io_only_read.
  - apply io_only_transform.
  - constructor.
Qed.

Definition ex_init := init_state ex_cfg (fun _ => Some [x30]).
Definition runs (c n : nat) : list event := repeat (EvRun c) n.

(* a two-writer schedule: the Write is inside its critical section, the Transform has opened
   the file and is blocked on flock (even when interrupted), the readers too *)
Example ex_writer_in_cs :
  let s := run ex_cfg ex_init (runs 0 4 ++ runs 3 3 ++ [EvEintr 3] ++ runs 1 3 ++ [EvDup 0]) in
  status s 0 = SInCS /\ status s 3 = SIdle /\ status s 1 = SIdle /\
  ltab (st_os s) 0 = [(0, LEx)] /\ isopen (fds (st_os s) 3) = true.
Proof. vm_compute. repeat split. Qed.

(* two readers share the lock; the writer waits *)
Example ex_readers_share :
  let s := run ex_cfg ex_init (runs 1 3 ++ runs 2 3 ++ runs 0 5) in
  status s 1 = SInCS /\ status s 2 = SInCS /\ status s 0 = SIdle /\
  ltab (st_os s) 0 = [(2, LSh); (1, LSh)].
Proof. vm_compute. repeat split. Qed.

(* everybody finishes; the child that inherited the writer's descriptor exits last: the lock
   was nevertheless released by the explicit unlock of Close *)
Example ex_all_done :
  let s := run ex_cfg ex_init
             (runs 0 4 ++ [EvDup 0] ++ runs 0 4 ++ runs 3 9 ++ runs 1 7 ++ runs 2 7 ++ [EvDupClose 0]) in
  map (fun c => is_ret (progs s c)) [0; 1; 2; 3] = [true; true; true; true] /\
  ltab (st_os s) 0 = [] /\ files (st_os s) 0 = Some [x61; x62; x63; x7a] /\
  progs s 1 = Ret (ResData [x61; x62; x63; x7a]).
Proof. vm_compute. repeat split. Qed.
