(* C07 (schedules): facts about bodies run under a lock and about one OS step; the log. *)
From Coq Require Import List NArith Arith Bool Lia.
From Coq.Strings Require Import Byte.
From GI Require Import Gen.LockedFileConsts LockedFile.LockedFile LockedFile.LockBasics
  LockedFile.LockProofs.
Import ListNotations.

Definition outcome2 (x : result * bytes * fdesc) : result * bytes := (fst (fst x), snd (fst x)).

Lemma call_spec_eq fl b r :
  call_spec fl b r = outcome2 (run_body b no_faults 0 (start_contents fl r) (fresh_fd fl)).
Proof. unfold call_spec, outcome2. destruct (run_body _ _ _ _ _) as [[x y] z]. reflexivity. Qed.

Lemma io_step_readonly o flt X fd :
  acc_writable (fd_acc fd) = false -> snd (fst (io_step o flt X fd)) = X.
Proof.
  intros Hw. destruct o; simpl; try reflexivity; rewrite ?Hw; try reflexivity.
  destruct (acc_readable _); [destruct flt|]; reflexivity.
Qed.

Lemma run_body_readonly p : forall plan n X fd,
  acc_writable (fd_acc fd) = false -> snd (fst (run_body p plan n X fd)) = X.
Proof.
  induction p as [r|o k IH|o k IH]; intros plan n X fd Hw; simpl; [reflexivity| |];
  pose proof (io_step_readonly o (plan n) X fd Hw) as HX;
  pose proof (io_step_acc o (plan n) X fd) as Ha;
  destruct (io_step o (plan n) X fd) as [[r b'] fd']; simpl in HX, Ha; subst b';
  apply IH; now rewrite Ha.
Qed.

(* a shared-locking call's specification leaves the register alone *)
Lemma call_spec_shared fl b r :
  lock_mode_of_flags fl = Some LSh -> has_flag fl truncate_cond_mask = false ->
  snd (call_spec fl b r) = r.
Proof.
  intros Hm Ht. rewrite call_spec_eq. unfold outcome2, start_contents. rewrite Ht. simpl.
  apply run_body_readonly. apply (shared_not_writable fl Hm).
Qed.

Lemma os_open_exact i c fl s eintr :
  fds s c = None -> has_flag fl sys_O_TRUNC = false ->
  forall r s', os_step i c (OOpen fl) FNone eintr s = Some (r, s') ->
  content_of (files s' i) = content_of (files s i) /\ ltab s' = ltab s /\
  (forall j, j <> i -> files s' j = files s j) /\
  (r = ROk -> fds s' c = Some {| fd_acc := accmode fl; fd_off := 0 |}) /\
  (r <> ROk -> s' = s).
Proof.
  intros Hfd Ht r s' H. unfold os_step in H. rewrite Hfd, Ht in H.
  destruct (files s i) as [b0|] eqn:Hf.
  - destruct (_ && _); injection H as <- <-; simpl; rewrite ?upd_same, ?Hf;
      repeat split; auto; try congruence.
  - destruct (has_flag fl sys_O_CREATE); injection H as <- <-; simpl; rewrite ?upd_same, ?Hf;
      repeat split; auto; try congruence.
    intros j Hj. now rewrite upd_other.
Qed.

(* newest first: a legal register history from r0 leading to rcur *)
Inductive legal (r0 : bytes) : list lentry -> bytes -> Prop :=
| legal_nil : legal r0 [] r0
| legal_cons e l : legal r0 l (le_before e) -> legal r0 (e :: l) (le_after e).

Definition has_entry (c : nat) (R : bytes) (L : list lentry) : Prop :=
  exists e, In e L /\ le_client e = c /\ le_before e = R /\ le_after e = R.

Definition done_entry (fl : N) (b : prog) (c : nat) (x : result) (L : list lentry) : Prop :=
  exists e, In e L /\ le_client e = c /\ (x, le_after e) = call_spec fl b (le_before e).

Lemma has_entry_mono c R L e : has_entry c R L -> has_entry c R (e :: L).
Proof. intros [e' [Hin H]]. exists e'. split; [now right|exact H]. Qed.

Lemma done_entry_mono fl b c x L e : done_entry fl b c x L -> done_entry fl b c x (e :: L).
Proof. intros [e' [Hin H]]. exists e'. split; [now right|exact H]. Qed.
