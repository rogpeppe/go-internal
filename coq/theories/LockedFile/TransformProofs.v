(* C07 (faults): Transform is all-or-nothing under any single I/O fault, for every old/new
   length relation; a failing write may have written any prefix of its data. *)
From Coq Require Import List NArith Arith Bool Lia.
From Coq.Strings Require Import Byte.
From GI Require Import Lib.BytesFacts.
From GI Require Import Gen.LockedFileConsts LockedFile.LockedFile LockedFile.LockBasics.
Import ListNotations.

Lemma zeros_0 : zeros 0 = [].
Proof. reflexivity. Qed.

Lemma write_at_0 d X : write_at 0 d X = d ++ skipn (length d) X.
Proof.
  unfold write_at. destruct d as [|x d]; [reflexivity|].
  simpl firstn. reflexivity.
Qed.

Lemma resize_app a y : resize (length a) (a ++ y) = a.
Proof.
  unfold resize. rewrite firstn_app, firstn_all, Nat.sub_diag. simpl.
  rewrite app_nil_r, app_length.
  replace (length a - (length a + length y)) with 0 by lia. simpl. apply app_nil_r.
Qed.

Lemma resize_self a : resize (length a) a = a.
Proof. rewrite <- (app_nil_r a) at 2. apply resize_app. Qed.

Lemma write_at_end old d : write_at (length old) d old = old ++ d.
Proof.
  unfold write_at. destruct d as [|x d]; [now rewrite app_nil_r|].
  rewrite Nat.sub_diag. simpl zeros. rewrite app_nil_r, firstn_all.
  rewrite skipn_all2 by lia. now rewrite app_nil_r.
Qed.

(* the rollback restores old whatever the file holds *)
Lemma restore_old old X : resize (length old) (write_at 0 old X) = old.
Proof. rewrite write_at_0. apply resize_app. Qed.

Lemma skipn_nonnil {A} n (l : list A) : n < length l -> skipn n l <> [].
Proof. intros H E. apply (f_equal (@length A)) in E. rewrite skipn_length in E. simpl in E. lia. Qed.

Lemma skipn_app_exact {A} (a y : list A) n : n = length a -> skipn n (a ++ y) = y.
Proof.
  intros ->. apply skipn_length_app.
Qed.

Definition quiet (plan : nat -> fault) (n : nat) : Prop := forall j, n <= j -> plan j = FNone.
(* at most one operation of the run is hit *)
Definition single_fault (plan : nat -> fault) : Prop :=
  forall n, plan n <> FNone -> quiet plan (S n).

Lemma quiet_S plan n : quiet plan n -> quiet plan (S n).
Proof. intros H j Hj. apply H. lia. Qed.

Lemma single_fault_no_faults : single_fault no_faults.
Proof. intros n H. now elim H. Qed.

Lemma single_fault_at k f : single_fault (fault_at k f).
Proof.
  intros n Hn j Hj. unfold fault_at in *.
  destruct (Nat.eqb_spec n k) as [E|]; [|now elim Hn].
  destruct (Nat.eqb_spec j k); [lia|reflexivity].
Qed.

Lemma quiet_no_faults n : quiet no_faults n.
Proof. intros j _. reflexivity. Qed.

Lemma run_body_ext p : forall plan plan' n X fd,
  (forall j, plan j = plan' j) -> run_body p plan n X fd = run_body p plan' n X fd.
Proof.
  induction p as [r|o k IH|o k IH]; intros plan plan' n X fd He; simpl; [reflexivity| |];
  rewrite (He n); destruct (io_step o (plan' n) X fd) as [[r b'] fd']; now apply IH.
Qed.

Lemma run_body_shift p : forall plan n X fd,
  run_body p plan n X fd = run_body p (fun j => plan (n + j)) 0 X fd.
Proof.
  induction p as [r|o k IH|o k IH]; intros plan n X fd; simpl; [reflexivity| |];
  rewrite Nat.add_0_r; destruct (io_step o (plan n) X fd) as [[r b'] fd'];
  rewrite (IH r plan (S n)), (IH r (fun j => plan (n + j)) 1);
  apply run_body_ext; intros j; f_equal; lia.
Qed.

Lemma run_body_index p n X fd : run_body p no_faults n X fd = run_body p no_faults 0 X fd.
Proof. rewrite run_body_shift. now apply run_body_ext. Qed.

Lemma single_fault_shift plan n : single_fault plan -> single_fault (fun j => plan (n + j)).
Proof.
  intros Hsf m Hm j Hj. specialize (Hsf (n + m) Hm (n + j)). apply Hsf. lia.
Qed.

Lemma run_body_pwrite off d k plan n b fd :
  run_body (pwrite_prog off d k) plan n b fd =
  match d with
  | [] => run_body (k ROk) plan n b fd
  | _ => match io_step (OPWrite off d) (plan n) b fd with
         | (r, b', fd') => run_body (k r) plan (S n) b' fd' end
  end.
Proof. destruct d; reflexivity. Qed.

Section Writable.
Variable fd : fdesc.
Hypothesis Hw : acc_writable (fd_acc fd) = true.

Lemma io_pwrite off d flt b :
  io_step (OPWrite off d) flt b fd =
  match flt with
  | FNone => (ROk, write_at off d b, fd)
  | FFail => (RErr, b, fd)
  | FShort n => (RErr, write_at off (firstn n d) b, fd)
  end.
Proof. simpl. now rewrite Hw. Qed.

Lemma io_ftruncate n flt b :
  io_step (OFtruncate n) flt b fd =
  match flt with FNone => (ROk, resize n b, fd) | _ => (RErr, b, fd) end.
Proof. simpl. now rewrite Hw. Qed.

Lemma rollback_quiet plan n old X :
  quiet plan n -> run_body (rollback old) plan n X fd = (ResErr, old, fd).
Proof.
  intros Hq. unfold rollback. rewrite run_body_pwrite.
  destruct old as [|x old'] eqn:E.
  - cbn [run_body]. cbn [length]. rewrite io_ftruncate, (Hq n) by lia. reflexivity.
  - rewrite <- E. rewrite io_pwrite, (Hq n) by lia. cbn [run_body].
    rewrite io_ftruncate, (Hq (S n)) by lia. simpl. now rewrite restore_old.
Qed.

(* the part after the tail write: X = old ++ tl is what the file holds *)
Lemma transform_main_single plan n old new tl :
  single_fault plan ->
  match run_body (transform_main old new) plan n (old ++ tl) fd with
  | (r, b', _) =>
      (r = ResOk /\ b' = if length old <=? length new
                         then firstn (length old) new ++ tl else new) \/
      (r = ResErr /\ b' = old /\ exists j, plan j <> FNone)
  end.
Proof.
  intros Hsf.
  (* after the one fault the rollback runs undisturbed and restores old *)
  assert (Hrb : forall j X Y, plan j <> FNone ->
            match run_body (rollback old) plan (S j) X fd with
            | (r, b', _) => (r = ResOk /\ b' = Y) \/ (r = ResErr /\ b' = old /\ exists j, plan j <> FNone)
            end).
  { intros j X Y Hj. rewrite rollback_quiet by now apply Hsf. right. eauto. }
  unfold transform_main.
  destruct (Nat.leb_spec (length old) (length new)) as [Hle|Hgt].
  - rewrite run_body_pwrite.
    destruct (firstn (length old) new) as [|h hd] eqn:Eh.
    + (* nothing to write: old is empty *)
      assert (length old = 0).
      { rewrite <- (firstn_length_le new Hle), Eh. reflexivity. }
      destruct old; [|discriminate]. simpl. left. auto.
    + rewrite <- Eh. rewrite io_pwrite.
      assert (Hlen : length (firstn (length old) new) = length old) by (apply firstn_length_le; lia).
      destruct (plan n) eqn:Ep; [|apply Hrb; congruence ..].
      simpl. left. split; [reflexivity|].
      rewrite write_at_0, Hlen. now rewrite skipn_app_exact.
  - rewrite run_body_pwrite.
    destruct new as [|h new'] eqn:En.
    + cbn [run_body]. rewrite io_ftruncate.
      destruct (plan n) eqn:Ep; [|apply Hrb; congruence ..].
      simpl. left. split; reflexivity.
    + rewrite <- En in *. rewrite io_pwrite.
      destruct (plan n) eqn:Ep; [|apply Hrb; congruence ..].
      cbn [run_body]. rewrite io_ftruncate.
      destruct (plan (S n)) eqn:Ep2; [|apply Hrb; congruence ..].
      simpl. left. split; [reflexivity|]. rewrite write_at_0. apply resize_app.
Qed.

Lemma transform_write_single plan n old new :
  single_fault plan ->
  match run_body (transform_write old new) plan n old fd with
  | (r, b', _) => (r = ResOk /\ b' = new) \/ (r = ResErr /\ b' = old /\ exists j, plan j <> FNone)
  end.
Proof.
  intros Hsf. unfold transform_write.
  destruct (Nat.ltb_spec (length old) (length new)) as [Hlt|Hge].
  - rewrite run_body_pwrite.
    destruct (skipn (length old) new) as [|h tl'] eqn:Et.
    + now elim (skipn_nonnil _ _ Hlt).
    + rewrite <- Et. rewrite io_pwrite.
      destruct (plan n) eqn:Ep.
      * rewrite write_at_end.
        pose proof (transform_main_single plan (S n) old new (skipn (length old) new) Hsf) as Hm.
        destruct (run_body _ _ _ _ _) as [[r b'] fd'].
        replace (length old <=? length new) with true in Hm by (symmetry; apply Nat.leb_le; lia).
        now rewrite firstn_skipn in Hm.
      * cbn [run_body]. rewrite io_ftruncate, (Hsf n) by (congruence || lia).
        simpl. right. repeat split; [apply resize_self|exists n; congruence].
      * cbn [run_body]. rewrite io_ftruncate, (Hsf n) by (congruence || lia).
        simpl. right. repeat split; [rewrite write_at_end; apply resize_app|exists n; congruence].
  - pose proof (transform_main_single plan n old new [] Hsf) as Hm.
    rewrite app_nil_r in Hm.
    destruct (run_body _ _ _ _ _) as [[r b'] fd'].
    destruct (Nat.leb_spec (length old) (length new)) as [Hle|Hgt]; [|exact Hm].
    rewrite app_nil_r in Hm. assert (Heq : length old = length new) by lia.
    rewrite Heq, firstn_all in Hm. exact Hm.
Qed.


End Writable.

(* Transform's I/O on a file holding old, any plan with at most one fault: either it reports
   success and the file holds t(old), or it reports an error and the file holds old *)
Theorem transform_fault_atomic t old plan fd :
  acc_writable (fd_acc fd) = true -> acc_readable (fd_acc fd) = true -> fd_off fd = 0 ->
  single_fault plan ->
  match run_body (transform_body t) plan 0 old fd with
  | (r, b', _) =>
      (r = ResOk /\ t old = Some b') \/
      (r = ResErr /\ b' = old /\ (t old = None \/ exists j, plan j <> FNone))
  end.
Proof.
  intros Hw Hr Hoff Hsf. unfold transform_body. cbn [run_body]. simpl io_step. rewrite Hr.
  destruct (plan 0) eqn:Ep.
  - rewrite Hoff. simpl skipn. destruct (t old) as [new|] eqn:Et.
    + pose proof (transform_write_single
                    {| fd_acc := fd_acc fd; fd_off := Nat.max 0 (length old) |} Hw
                    plan 1 old new Hsf) as Hm.
      destruct (run_body _ _ _ _ _) as [[r b'] fd'].
      destruct Hm as [[-> ->]|[-> [-> Hj]]]; [left|right]; auto.
    + simpl. right. auto.
  - simpl. right. repeat split; auto. right. exists 0. congruence.
  - simpl. right. repeat split; auto. right. exists 0. congruence.
Qed.

(* the same for the single fault number k of kind f (FFail, or FShort n: the failing write
   wrote the first n bytes of its data) *)
Corollary transform_fault_atomic_at t old k f :
  match run_body (transform_body t) (fault_at k f) 0 old (fresh_fd edit_flags) with
  | (r, b', _) => (r = ResOk /\ t old = Some b') \/ (r = ResErr /\ b' = old)
  end.
Proof.
  pose proof (transform_fault_atomic t old (fault_at k f) (fresh_fd edit_flags)
                eq_refl eq_refl eq_refl (single_fault_at k f)) as H.
  destruct (run_body _ _ _ _ _) as [[r b'] fd'].
  destruct H as [H|[Hr [Hb _]]]; auto.
Qed.

Theorem transform_ok t old new fd :
  acc_writable (fd_acc fd) = true -> acc_readable (fd_acc fd) = true -> fd_off fd = 0 ->
  t old = Some new ->
  match run_body (transform_body t) no_faults 0 old fd with
  | (r, b', _) => r = ResOk /\ b' = new
  end.
Proof.
  intros Hw Hr Ho Ht.
  pose proof (transform_fault_atomic t old no_faults fd Hw Hr Ho single_fault_no_faults) as H.
  destruct (run_body _ _ _ _ _) as [[r b'] fd'].
  destruct H as [[-> H]|[_ [_ [H|[j H]]]]].
  - split; congruence.
  - congruence.
  - now elim H.
Qed.

Theorem transform_t_fails t old fd plan :
  acc_writable (fd_acc fd) = true -> acc_readable (fd_acc fd) = true -> fd_off fd = 0 ->
  single_fault plan -> t old = None ->
  match run_body (transform_body t) plan 0 old fd with
  | (r, b', _) => r = ResErr /\ b' = old
  end.
Proof.
  intros Hw Hr Ho Hsf Ht.
  pose proof (transform_fault_atomic t old plan fd Hw Hr Ho Hsf) as H.
  destruct (run_body _ _ _ _ _) as [[r b'] fd'].
  destruct H as [[_ H]|[-> [-> _]]]; [congruence|auto].
Qed.

(* non-vacuity: the three length relations, faults that hit, a short write *)
Example transform_ok_grow :
  run_body (transform_body (fun b => Some (b ++ [x7a; x7a]))) no_faults 0 [x61; x62] (fresh_fd edit_flags)
  = (ResOk, [x61; x62; x7a; x7a], {| fd_acc := 2; fd_off := 2 |}).
Proof. vm_compute. reflexivity. Qed.
Example transform_ok_shrink :
  run_body (transform_body (fun b => Some [x7a])) no_faults 0 [x61; x62; x63] (fresh_fd edit_flags)
  = (ResOk, [x7a], {| fd_acc := 2; fd_off := 3 |}).
Proof. vm_compute. reflexivity. Qed.
Example transform_short_head_write_rolls_back :
  run_body (transform_body (fun b => Some [x7a; x7a; x7a; x7a])) (fault_at 2 (FShort 1)) 0 [x61; x62]
           (fresh_fd edit_flags)
  = (ResErr, [x61; x62], {| fd_acc := 2; fd_off := 2 |}).
Proof. vm_compute. reflexivity. Qed.
Example transform_truncate_fault_rolls_back :
  run_body (transform_body (fun b => Some [x7a])) (fault_at 2 FFail) 0 [x61; x62; x63]
           (fresh_fd edit_flags)
  = (ResErr, [x61; x62; x63], {| fd_acc := 2; fd_off := 3 |}).
Proof. vm_compute. reflexivity. Qed.
