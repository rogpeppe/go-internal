(* lockedfile (C06): the error paths of the locking calls under fault policies — no File is
   handed to the caller, and no call reports success, unless the lock request succeeded;
   Mutex.Lock in particular; and in every schedule a call that has returned holds no descriptor. *)
From Coq Require Import List NArith Arith Bool Lia.
From Coq.Strings Require Import Byte.
From GI Require Import Gen.LockedFileConsts LockedFile.LockedFile LockedFile.LockBasics
  LockedFile.LockProofs.
From GI Require Import LockedFile.Policy LockedFile.PolicyProofs.
Import ListNotations.

Section LockFirst.
Variables (i c : nat).

Definition hist_of (x : history * outcome * os) : history := fst (fst x).
Definition out_of (x : history * outcome * os) : outcome := snd (fst x).

(* a run only adds to the history *)
Lemma run_pol_extends p : forall pol h s, exists l, hist_of (run_pol i c p pol h s) = l ++ h.
Proof.
  induction p as [r|o k IH|o k IH]; intros pol h s; cbn [run_pol].
  - exists []. reflexivity.
  - destruct (os_step_f i c o _ false s) as [[r s']|]; [|exists []; reflexivity].
    destruct (IH r pol ((o, r) :: h) s') as [l Hl]. exists (l ++ [(o, r)]).
    rewrite Hl. now rewrite <- app_assoc.
  - destruct (os_step_f i c o _ false s) as [[r s']|]; [|exists []; reflexivity].
    destruct r; try (exists []; reflexivity);
    match goal with |- context [run_pol i c (k ?r) pol ((o, ?r) :: h) s'] =>
      destruct (IH r pol ((o, r) :: h) s') as [l Hl]; exists (l ++ [(o, r)]);
      rewrite Hl; now rewrite <- app_assoc end.
Qed.

Lemma run_pol_keeps p pol h s x : In x h -> In x (hist_of (run_pol i c p pol h s)).
Proof.
  intros H. destruct (run_pol_extends p pol h s) as [l ->]. apply in_or_app. now right.
Qed.

Definition is_markret (o : op) : bool := match o with OMark MReturned => true | _ => false end.

(* programs that never hand a File to the caller and can only fail *)
Inductive errquiet : prog -> Prop :=
| errq_ret : errquiet (Ret ResErr)
| errq_do o k : is_markret o = false -> (forall r, errquiet (k r)) -> errquiet (Do o k)
| errq_retry o k : is_markret o = false -> (forall r, errquiet (k r)) -> errquiet (Retry o k).

Definition no_new_return (h h' : history) : Prop :=
  forall r0, In (OMark MReturned, r0) h' -> In (OMark MReturned, r0) h.

(* the run from history h failed or blocked and handed out no File *)
Definition quiet_fail (h : history) (x : history * outcome * os) : Prop :=
  (out_of x = Finished ResErr \/ out_of x = Blocked) /\ no_new_return h (hist_of x).

Lemma quiet_fail_blocked h s : quiet_fail h (h, Blocked, s).
Proof. split; [now right|intros r0 Hr; exact Hr]. Qed.

Lemma quiet_fail_cons o r h x : is_markret o = false -> quiet_fail ((o, r) :: h) x -> quiet_fail h x.
Proof.
  intros Ho [Hout Hn]. split; [exact Hout|]. intros r0 Hr.
  destruct (Hn r0 Hr) as [E|H]; [|exact H]. injection E as -> _. discriminate Ho.
Qed.

Lemma errquiet_run p : errquiet p -> forall pol h s, quiet_fail h (run_pol i c p pol h s).
Proof.
  induction 1 as [|o k Ho _ IH|o k Ho _ IH]; intros pol h s; cbn [run_pol].
  - split; [now left|intros r0 Hr; exact Hr].
  - destruct (os_step_f i c o _ false s) as [[r s']|]; [|apply quiet_fail_blocked].
    apply (quiet_fail_cons o r), IH; exact Ho.
  - destruct (os_step_f i c o _ false s) as [[r s']|]; [|apply quiet_fail_blocked].
    destruct r; try apply quiet_fail_blocked; (eapply quiet_fail_cons; [exact Ho|apply IH]).
Qed.

Section One.
Variable how : N.   (* the lock request of the call *)

(* either the lock request succeeded, or the call failed (or blocked) and never handed out a File *)
Definition lockfirst (p : prog) : Prop :=
  forall pol h s,
    let x := run_pol i c p pol h s in
    In (OFlock how, ROk) (hist_of x) \/ quiet_fail h x.

Lemma lockfirst_errquiet p : errquiet p -> lockfirst p.
Proof. intros H pol h s. right. now apply errquiet_run. Qed.

Lemma lockfirst_do o k : is_markret o = false -> (forall r, lockfirst (k r)) -> lockfirst (Do o k).
Proof.
  intros Ho Hk pol h s. cbn [run_pol].
  destruct (os_step_f i c o _ false s) as [[r s']|]; [|right; apply quiet_fail_blocked].
  destruct (Hk r pol ((o, r) :: h) s') as [Hl|Hq]; [now left|right].
  now apply (quiet_fail_cons o r).
Qed.

(* the lock request itself: whatever follows a success, only failure follows anything else *)
Lemma lockfirst_lock k :
  (forall r, r <> ROk -> errquiet (k r)) ->
  lockfirst (Do (OFlock how) k) /\ lockfirst (Retry (OFlock how) k).
Proof.
  intros Hk.
  assert (Hgen : forall r pol h s',
            let x := run_pol i c (k r) pol ((OFlock how, r) :: h) s' in
            In (OFlock how, ROk) (hist_of x) \/ quiet_fail h x).
  { intros r pol h s'.
    assert (Hr : r = ROk \/ r <> ROk) by (destruct r; auto; right; discriminate).
    destruct Hr as [->|Hr]; [left; apply run_pol_keeps; now left|right].
    now apply (quiet_fail_cons (OFlock how) r), errquiet_run, Hk. }
  split; intros pol h s; cbn [run_pol];
  (destruct (os_step_f i c (OFlock how) _ false s) as [[r s']|]; [|right; apply quiet_fail_blocked]).
  - apply Hgen.
  - destruct r; try apply Hgen. right. apply quiet_fail_blocked.
Qed.

End One.

Lemma errquiet_close : errquiet (Do OClose (fun _ => Ret ResErr)).
Proof. constructor; [reflexivity|]. intros _. constructor. Qed.

Lemma errquiet_trunc_fail : errquiet (trunc_fail_prog (Ret ResErr)).
Proof.
  unfold trunc_fail_prog. destruct truncate_failure_unlocks_first;
  (constructor; [reflexivity|]; intros _; constructor; [reflexivity|]; intros _; constructor).
Qed.

Lemma lockfirst_lock_stage fl k : k false = Ret ResErr ->
  lockfirst (lock_arg_of_flags fl) (lock_stage fl k).
Proof.
  intros Hk. unfold lock_stage, flock_step.
  assert (H : forall r, r <> ROk ->
            errquiet (match r with ROk => k true | _ => Do OClose (fun _ => k false) end)).
  { intros r Hr. rewrite Hk. destruct r; try (now elim Hr); apply errquiet_close. }
  destruct lock_retries_eintr; now apply lockfirst_lock.
Qed.

Theorem client_lockfirst fl b : lockfirst (lock_arg_of_flags fl) (client_prog fl b).
Proof.
  unfold client_prog, open_file_prog. apply lockfirst_do; [reflexivity|].
  intros r. destruct r; try solve [apply lockfirst_errquiet; constructor].
  destruct truncate_after_lock.
  - apply lockfirst_lock_stage. reflexivity.
  - unfold trunc_stage. destruct (has_flag fl truncate_cond_mask).
    + apply lockfirst_do; [reflexivity|]. intros r.
      destruct r; try solve [apply lockfirst_errquiet; apply errquiet_trunc_fail].
      apply lockfirst_lock_stage. reflexivity.
    + apply lockfirst_lock_stage. reflexivity.
Qed.

End LockFirst.

(* Under ANY fault policy, from any OS state: either the call's lock request succeeded, or the
   call failed (or is blocked) and never handed a File to its caller *)
Theorem no_file_without_lock i c fl b pol s :
  match run_pol i c (client_prog fl b) pol [] s with
  | (h', out, _) =>
      In (OFlock (lock_arg_of_flags fl), ROk) h' \/
      ((out = Finished ResErr \/ out = Blocked) /\ forall r0, ~ In (OMark MReturned, r0) h')
  end.
Proof.
  pose proof (client_lockfirst i c fl b pol [] s) as H. cbv zeta in H.
  unfold hist_of, out_of in H.
  destruct (run_pol i c (client_prog fl b) pol [] s) as [[h' out] s']. simpl in H.
  destruct H as [H|[Ho Hn]]; [now left|right]. split; [exact Ho|].
  intros r0 Hr. exact (Hn r0 Hr).
Qed.

(* Mutex.Lock: a nil error means the exclusive lock was granted — whatever else failed *)
Theorem mutex_success_means_locked i c pol s :
  match run_pol i c (prog_of_call CMutex) pol [] s with
  | (h', out, _) => out = Finished ResOk -> In (OFlock sys_LOCK_EX, ROk) h'
  end.
Proof.
  pose proof (no_file_without_lock i c mutex_flags (Ret ResOk) pol s) as H.
  change (prog_of_call CMutex) with (client_prog mutex_flags (Ret ResOk)).
  destruct (run_pol i c (client_prog mutex_flags (Ret ResOk)) pol [] s) as [[h' out] s'].
  intros Ho. destruct H as [H|[[H|H] _]]; [exact H| |]; rewrite Ho in H; discriminate H.
Qed.

(* the same for every write-locking API call: success only with LOCK_EX granted *)
Theorem write_call_success_means_locked i c (cl : call) pol s :
  lock_mode_of_flags (flags_of_call cl) = Some LEx ->
  match run_pol i c (prog_of_call cl) pol [] s with
  | (h', out, _) =>
      (exists r, out = Finished r /\ r <> ResErr) -> In (OFlock sys_LOCK_EX, ROk) h'
  end.
Proof.
  intros Hm.
  pose proof (no_file_without_lock i c (flags_of_call cl) (body_of_call cl) pol s) as H.
  unfold prog_of_call.
  destruct (run_pol i c (client_prog (flags_of_call cl) (body_of_call cl)) pol [] s) as [[h' out] s'].
  intros [r [Ho Hr]].
  assert (Ha : lock_arg_of_flags (flags_of_call cl) = sys_LOCK_EX).
  { unfold lock_mode_of_flags in Hm. destruct (lock_arg_cases (flags_of_call cl)) as [E|E]; rewrite E in *.
    - reflexivity.
    - discriminate Hm. }
  rewrite Ha in H. destruct H as [H|[[H|H] _]]; [exact H| |]; rewrite Ho in H.
  - injection H as ->. now elim Hr.
  - discriminate H.
Qed.

Theorem returned_closed cfg f s c r :
  wf_cfg cfg -> reachable cfg f s -> returned s c r -> fds (st_os s) c = None.
Proof.
  intros Hwf Hr Hret. apply (inv06_returned _ s (inv06_of_reachable _ _ _ Hwf Hr) c r Hret).
Qed.

(* The model gives every client ONE inode for its path: no operation of any program unlinks,
   renames or replaces a file (the lock lives on the inode, so this is what makes a lock on a
   path meaningful).  Spelled out: an existing file exists after every step, under every policy
   and in every schedule.  The runner checks the same of the code after every call (dev/inode
   of the path before and after). *)
Lemma osf_keeps_file i c o flt e s r s' j :
  os_step_f i c o flt e s = Some (r, s') -> files s j <> None -> files s' j <> None.
Proof.
  intros H Hj. destruct flt; simpl in H; try (now apply (os_step_keeps_file _ _ _ _ _ _ _ _ j H));
  destruct o; try (injection H as <- <-; exact Hj);
  try (now apply (os_step_keeps_file _ _ _ _ _ _ _ _ j H));
  (destruct (os_step i c OClose FNone e s) as [[r0 s0]|] eqn:E; [|discriminate H];
   injection H as <- <-; now apply (os_step_keeps_file _ _ _ _ _ _ _ _ j E)).
Qed.

Theorem file_never_removed i c p pol : forall h s j,
  files s j <> None ->
  match run_pol i c p pol h s with (_, _, s') => files s' j <> None end.
Proof.
  induction p as [r|o k IH|o k IH]; intros h s j Hj; cbn [run_pol]; auto.
  - destruct (os_step_f i c o _ false s) as [[r s']|] eqn:E; [|exact Hj].
    apply IH. now apply (osf_keeps_file _ _ _ _ _ _ _ _ j E).
  - destruct (os_step_f i c o _ false s) as [[r s']|] eqn:E; [|exact Hj].
    pose proof (osf_keeps_file _ _ _ _ _ _ _ _ j E Hj) as Hj'.
    destruct r; try exact Hj; now apply IH.
Qed.

Theorem file_never_removed_sched cfg f s j :
  reachable cfg f s -> f j <> None -> files (st_os s) j <> None.
Proof.
  intros [sched ->] Hj. rewrite <- run_a_regular. now apply run_a_keeps_file.
Qed.

(* non-vacuity: the lock request fails, nothing is handed out; and a granted Mutex *)
Example lock_failure_hands_out_nothing :
  match run_pol 0 0 (prog_of_call (CEdit (Ret ResOk)))
                (class_pol (fun k => match k with KFlock => {| cs_first := 1; cs_all := false |} | _ => cs_never end))
                [] (os_with (Some [x61])) with
  | (h, out, s') => out = Finished ResErr /\ (forall r0, ~ In (OMark MReturned, r0) h) /\ fds s' 0 = None
  end.
Proof.
  vm_compute. repeat split. intros r0 H. repeat (destruct H as [H|H]; [discriminate H|]). exact H.
Qed.

Example mutex_granted :
  match run_pol 0 0 (prog_of_call CMutex) no_fault_pol [] (os_with None) with
  | (h, out, _) => out = Finished ResOk /\ In (OFlock sys_LOCK_EX, ROk) h
  end.
Proof. vm_compute. split; [reflexivity|]. auto 10. Qed.
