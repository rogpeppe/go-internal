(* lockedfile (C06, C07): the functions of Gen/LockedFileSrc.v -- translated from the Go source on
   every run -- are, for EVERY record of operating-system operations, every world and every
   argument, the hand-written program terms of LockedFile.v run by SrcLib.run_prog: the same
   operations in the same order with the same arguments, the same control flow on every result,
   the same returned value. *)
From Coq Require Import List NArith ZArith Bool Lia.
From Coq.Strings Require Import Byte.
From GI Require Import Lib.Bytes Lib.GoSem Lib.GoSemWorld Lib.GoSemExtFacts.
From GI Require Import Gen.LockedFileConsts LockedFile.LockedFile LockedFile.LockedFileA.
From GI Require Import LockedFile.Policy.
From GI Require LockedFile.LockProofs.
From GI Require Import LockedFile.SrcLib Gen.LockedFileSrc.
Import ListNotations.
Import GoNotations.
Local Open Scope go_scope.

Lemma of_N_land : forall a b, Z.land (Z.of_N a) (Z.of_N b) = Z.of_N (N.land a b).
Proof. destruct a, b; reflexivity. Qed.
Lemma of_N_eqb : forall a b, (Z.of_N a =? Z.of_N b)%Z = N.eqb a b.
Proof.
  intros a b. destruct (N.eqb_spec a b) as [->|Hne].
  - apply Z.eqb_refl.
  - apply Z.eqb_neq. intro H. apply Hne. now apply N2Z.inj.
Qed.

Section Facts.
Variable OS : os_ops.

(* the loop of filelock.lock: flock until the result is not EINTR *)
Fixpoint flock_retry (n : nat) (f : Handle OS) (how : Z) (w : World OS) : GoSem.res (World OS * werr) :=
  match n with
  | O => OutOfFuel
  | S n' =>
      match sys_flock OS w (h_fd OS f) how with
      | (w', e) => if werr_eqb e werr_EINTR then flock_retry n' f how w' else Ok (w', e)
      end
  end.

Lemma lock_loop_eq : forall (L : Type) fuel n f how w e0,
  fl_lock_loop1 OS (L := L) fuel n f how w e0 = (x <- flock_retry n f how w ;; Ok (Normal x)).
Proof.
  intros L fuel n. induction n as [|n IH]; intros f how w e0; [reflexivity|].
  cbn [fl_lock_loop1 flock_retry].
  destruct (sys_flock OS w (h_fd OS f) how) as [w' e].
  destruct (werr_eqb e werr_EINTR); cbn; [apply IH|reflexivity].
Qed.

Lemma lockType_String_ok : forall how, fl_lockType_String how = Ok (lock_op_name how).
Proof.
  intro how. unfold lock_op_name, fl_lockType_String.
  change (Z.of_N sys_LOCK_SH) with 1%Z. change (Z.of_N sys_LOCK_EX) with 2%Z.
  destruct (how =? 1)%Z; [reflexivity|]. destruct (how =? 2)%Z; reflexivity.
Qed.

Lemma lock_err_nil : forall how f e, werr_is_nil (lock_err OS how f e) = werr_is_nil e.
Proof. intros how f e. unfold lock_err. destruct (werr_is_nil e) eqn:H; reflexivity. Qed.

Theorem lock_eq : forall fuel w f how,
  fl_lock OS fuel w f how =
  (x <- flock_retry fuel f how w ;; Ok (fst x, lock_err OS how f (snd x))).
Proof.
  intros fuel w f how. unfold fl_lock. rewrite lock_loop_eq.
  destruct (flock_retry fuel f how w) as [[w' e]| |]; cbn; try reflexivity.
  unfold lock_err. destruct (werr_is_nil e); cbn; [reflexivity|].
  rewrite lockType_String_ok. reflexivity.
Qed.

(* Lock, RLock and Unlock are lock at their lockType *)
Lemma lock_eta : forall fuel w f how,
  ('(w1, t1) <- fl_lock OS fuel w f (Z.of_N how) ;; Ok (w1, t1)) =
  (x <- flock_retry fuel f (Z.of_N how) w ;; Ok (fst x, lock_err OS (Z.of_N how) f (snd x))).
Proof. intros. rewrite lock_eq. destruct (flock_retry _ _ _ _) as [[? ?]| |]; reflexivity. Qed.

(* the model's Retry of a flock is that loop *)
Lemma retry_flock : forall path perm n how f w,
  retry_op OS path perm n (OFlock how) f w =
  (x <- flock_retry n f (Z.of_N how) w ;;
   Ok (fst x, f, res_of_err (snd x), lock_err OS (Z.of_N how) f (snd x))).
Proof.
  intros path perm n how. induction n as [|n IH]; intros f w; [reflexivity|].
  cbn [retry_op flock_retry do_op].
  destruct (sys_flock OS w (h_fd OS f) (Z.of_N how)) as [w' e].
  unfold res_of_flock. destruct (werr_eqb e werr_EINTR); [apply IH|].
  cbn. unfold res_of_err. destruct (werr_is_nil e); reflexivity.
Qed.

(* an unlock is performed once: flock(LOCK_UN) does not report EINTR *)
Lemma unlock_once : forall fuel f w, unlock_no_eintr OS -> (1 <= fuel)%nat ->
  flock_retry fuel f (Z.of_N filelock_unlock_arg) w = Ok (sys_flock OS w (h_fd OS f) (Z.of_N filelock_unlock_arg)).
Proof.
  intros fuel f w Hun Hfuel. destruct fuel as [|n]; [lia|]. cbn [flock_retry].
  specialize (Hun w (h_fd OS f)).
  destruct (sys_flock OS w (h_fd OS f) (Z.of_N filelock_unlock_arg)) as [w' e]. cbn in Hun. now rewrite Hun.
Qed.
Lemma do_unlock : forall path perm f w, unlock_no_eintr OS ->
  do_op OS path perm (OFlock filelock_unlock_arg) f w =
  (fst (sys_flock OS w (h_fd OS f) (Z.of_N filelock_unlock_arg)), f,
   res_of_err (snd (sys_flock OS w (h_fd OS f) (Z.of_N filelock_unlock_arg))),
   lock_err OS (Z.of_N filelock_unlock_arg) f (snd (sys_flock OS w (h_fd OS f) (Z.of_N filelock_unlock_arg)))).
Proof.
  intros path perm f w Hun. cbn [do_op]. specialize (Hun w (h_fd OS f)).
  destruct (sys_flock OS w (h_fd OS f) (Z.of_N filelock_unlock_arg)) as [w' e]. cbn in *.
  unfold res_of_flock. now rewrite Hun.
Qed.

(* one step of a run of run_prog in the goal: name the outcome of the next do_op / retry_op /
   flock_retry, or split on the result (or test) the run branches on next *)
Ltac break_step :=
  match goal with
  | |- context [match do_op ?a ?b ?c ?d ?e ?f with _ => _ end] =>
      destruct (do_op a b c d e f) as [[[? ?] ?] ?]
  | |- context [match retry_op ?a ?b ?c ?d ?e ?f ?g with _ => _ end] =>
      destruct (retry_op a b c d e f g) as [[[[? ?] ?] ?]| |]
  | |- context [match flock_retry ?a ?b ?c ?d with _ => _ end] =>
      destruct (flock_retry a b c d) as [[? ?]| |]
  | |- context [match ?x with ROk => _ | _ => _ end] => destruct x
  | |- context [if ?c then _ else _] => destruct c
  end.

(* closes a leaf of such a walk: both sides are computed, with the nil-tests on error values
   recorded in the context *)
Ltac fin :=
  cbn; unfold first_err, res_of_err, result_of_err, result_of_data; cbn;
  repeat (first [rewrite lock_err_nil | match goal with H : werr_is_nil _ = _ |- _ => rewrite H end]; cbn);
  try reflexivity.

Notation UN := (Z.of_N filelock_unlock_arg).

(* the two calls of closeFile on handle f in world w *)
Definition cl_w1 (f : Handle OS) (w : World OS) : World OS := fst (sys_flock OS w (h_fd OS f) UN).
Definition cl_e1 (f : Handle OS) (w : World OS) : werr := snd (sys_flock OS w (h_fd OS f) UN).
Definition cl_w2 (f : Handle OS) (w : World OS) : World OS := fst (os_close OS (cl_w1 f w) f).
Definition cl_e2 (f : Handle OS) (w : World OS) : werr := snd (os_close OS (cl_w1 f w) f).
(* the error closeFile returns: the unlock's, else the close's *)
Definition cl_err (f : Handle OS) (w : World OS) : werr :=
  first_err (lock_err OS UN f (cl_e1 f w)) (cl_e2 f w).

Hypothesis Hun : unlock_no_eintr OS.

Theorem closeFile_eq : forall fuel w f, (1 <= fuel)%nat ->
  lf_closeFile OS fuel w f = Ok (cl_w2 f w, cl_err f w).
Proof.
  intros fuel w f Hfuel. unfold lf_closeFile, fl_Unlock, fl_unlock. rewrite (lock_eta _ _ _ filelock_unlock_arg), unlock_once by assumption.
  unfold cl_err, cl_w2, cl_e2, cl_w1, cl_e1, first_err.
  destruct (sys_flock OS w (h_fd OS f) UN) as [w1 e1]. cbn [fst snd GoSem.bind].
  destruct (os_close OS w1 f) as [w2 e2]. cbn [fst snd GoSem.bind].
  destruct (werr_is_nil (lock_err OS UN f e1)); reflexivity.
Qed.

(* the model's close_prog performs exactly these two calls *)
Theorem run_close : forall path perm fuel k f w h e,
  run_prog OS path perm fuel (close_prog k) f w h e =
  run_prog OS path perm fuel k f (cl_w2 f w)
    ((OClose, res_of_err (cl_e2 f w)) :: (OFlock filelock_unlock_arg, res_of_err (cl_e1 f w)) :: h)
    (first_err (first_err e (lock_err OS UN f (cl_e1 f w))) (cl_e2 f w)).
Proof.
  intros. unfold close_prog. change closefile_unlock_first with true. cbn [run_prog].
  rewrite do_unlock by assumption. cbn [do_op].
  unfold cl_w2, cl_e2, cl_w1, cl_e1.
  destruct (os_close OS (fst (sys_flock OS w (h_fd OS f) UN)) f) as [w2 e2]. reflexivity.
Qed.

(* a File as OpenFile makes it *)
Definition file_of (f : Handle OS) (closed : bool) : lf_File OS := lf_mk_File OS (lf_mk_osFile OS f) closed.

Theorem File_Close_eq : forall fuel w f, (1 <= fuel)%nat ->
  lf_File_Close OS fuel w (file_of f false) = Ok (cl_w2 f w, file_of f true, cl_err f w).
Proof.
  intros fuel w f Hfuel. unfold lf_File_Close, file_of. cbn.
  rewrite closeFile_eq by assumption. reflexivity.
Qed.

(* a second Close performs no operation and reports fs.ErrClosed *)
Theorem File_Close_closed : forall fuel w f,
  exists e, lf_File_Close OS fuel w (file_of f true) = Ok (w, file_of f true, e) /\ werr_is_nil e = false.
Proof. intros. eexists. split; reflexivity. Qed.

Lemma strip_eq : forall flags,
  Z.ldiff (Z.of_N flags) (Z.of_N openfile_strip_mask) = Z.of_N (strip flags openfile_strip_mask).
Proof. destruct flags; reflexivity. Qed.
Lemma switch_eq : forall flags,
  (((Z.land (Z.of_N flags) (Z.of_N lock_switch_mask) =? 1) || (Z.land (Z.of_N flags) (Z.of_N lock_switch_mask) =? 2))%Z)%bool =
  existsb (N.eqb (N.land flags lock_switch_mask)) lock_switch_cases.
Proof.
  intro. rewrite of_N_land. change 1%Z with (Z.of_N 1). change 2%Z with (Z.of_N 2).
  rewrite !of_N_eqb. cbn. now rewrite orb_false_r.
Qed.
Lemma trunc_cond_eq : forall flags,
  (Z.land (Z.of_N flags) (Z.of_N truncate_cond_mask) =? Z.of_N truncate_cond_mask)%Z = has_flag flags truncate_cond_mask.
Proof. intro. rewrite of_N_land, of_N_eqb. reflexivity. Qed.

Variable a : attr.
Hypothesis Hstat : stat_static OS (a_regular a).

(* openFile alone: the model's program that ends when openFile returns *)
Definition open_only_a (flags : N) : prog :=
  open_file_prog_a a flags (fun ok => Ret (if ok then ResOk else ResErr)).

(* what openFile hands back, read off the run of that program *)
Definition open_out (x : World OS * Handle OS * history * werr * result) : World OS * Handle OS * werr :=
  match x with
  | (w', f', _, e', r) => (w', if result_is_ok r then f' else nil_handle OS, if result_is_ok r then WNil else e')
  end.

Theorem openFile_eq : forall fuel w name flags perm f0 h, (1 <= fuel)%nat ->
  lf_openFile OS fuel w name (Z.of_N flags) perm =
  (x <- run_prog OS name perm fuel (open_only_a flags) f0 w h WNil ;; Ok (open_out x)).
Proof.
  intros fuel w name flags perm f0 h Hfuel.
  unfold lf_openFile.
  change 512%Z with (Z.of_N openfile_strip_mask) at 1. rewrite strip_eq.
  change 3%Z with (Z.of_N lock_switch_mask). rewrite switch_eq.
  change 512%Z with (Z.of_N truncate_cond_mask). rewrite trunc_cond_eq.
  unfold open_only_a, open_file_prog_a, lock_stage, trunc_stage_a, trunc_fail_prog, flock_step, lock_arg_of_flags.
  change truncate_after_lock with true. change lock_retries_eintr with true.
  change truncate_failure_unlocks_first with true. change truncate_unlock_inside_regular_check with true.
  change lock_case_calls_lock with true. change lock_default_calls_rlock with true.
  cbn [run_prog do_op].
  destruct (os_open OS w name (Z.of_N (strip flags openfile_strip_mask)) perm) as [[w1 f1] e1].
  unfold res_of_err, first_err. destruct (werr_is_nil e1) eqn:He1; cbn [negb werr_is_nil]; [|cbn; reflexivity].
  unfold fl_Lock, fl_RLock. rewrite (lock_eta _ _ _ filelock_lock_arg), (lock_eta _ _ _ filelock_rlock_arg).
  destruct (existsb (N.eqb (N.land flags lock_switch_mask)) lock_switch_cases);
    cbn [run_prog]; rewrite retry_flock.
  all: match goal with |- context [flock_retry ?a ?b ?c ?d] => destruct (flock_retry a b c d) as [[w2 e2]| |] end;
    cbn [GoSem.bind fst snd run_prog]; try reflexivity.
  all: rewrite lock_err_nil; unfold res_of_err; destruct (werr_is_nil e2) eqn:He2; cbn [negb].
  all: unfold first_err; rewrite He1.
  all: try solve [cbn [run_prog do_op]; destruct (os_close OS w2 f1) as [w3 e3]; fin].
  all: destruct (has_flag flags truncate_cond_mask); cbn [run_prog do_op GoSem.bindT]; try solve [fin].
  all: change (Z.of_nat (N.to_nat truncate_size)) with 0%Z;
    destruct (os_ftruncate OS w2 f1 0) as [w3 e3]; unfold res_of_err;
    destruct (werr_is_nil e3) eqn:He3; cbn [negb GoSem.bindO GoSem.bindT run_prog]; try solve [fin].
  all: pose proof (Hstat w3 f1) as Hs; unfold stat_regular in Hs;
    destruct (os_fstat OS w3 f1) as [fi se]; cbv beta iota; rewrite Hs; destruct (a_regular a);
    cbn [GoSem.bindO GoSem.bindT run_prog]; try solve [fin].
  all: unfold fl_Unlock, fl_unlock; rewrite (lock_eta _ _ _ filelock_unlock_arg), unlock_once, do_unlock by assumption;
    destruct (sys_flock OS w3 (h_fd OS f1) UN) as [w4 e4]; cbn [fst snd GoSem.bind do_op];
    destruct (os_close OS w4 f1) as [w5 e5]; fin.
Qed.

Theorem run_bind : forall path perm fuel p g f w h e,
  run_prog OS path perm fuel (LockedFile.bind p g) f w h e =
  (x <- run_prog OS path perm fuel p f w h e ;;
   match x with (w', f', h', e', r) => run_prog OS path perm fuel (g r) f' w' h' e' end).
Proof.
  intros path perm fuel p g. induction p as [r|o k IH|o k IH]; intros f w h e; cbn [LockedFile.bind run_prog].
  - reflexivity.
  - destruct (do_op OS path perm o f w) as [[[w' f'] r] e']. apply IH.
  - destruct (retry_op OS path perm fuel o f w) as [[[[w' f'] r] e']| |]; cbn; [apply IH|reflexivity|reflexivity].
Qed.

(* the model's open_file_prog with any continuation: openFile, then the continuation *)
Theorem run_open_k : forall path perm fuel flags k f0 w h e,
  run_prog OS path perm fuel (open_file_prog_a a flags k) f0 w h e =
  (x <- run_prog OS path perm fuel (open_only_a flags) f0 w h e ;;
   match x with (w', f', h', e', r) => run_prog OS path perm fuel (k (result_is_ok r)) f' w' h' e' end).
Proof.
  intros. unfold open_only_a, open_file_prog_a, lock_stage, trunc_stage_a, trunc_fail_prog, flock_step.
  change truncate_after_lock with true. change lock_retries_eintr with true.
  change truncate_failure_unlocks_first with true. change truncate_unlock_inside_regular_check with true.
  cbn [run_prog].
  repeat (break_step; cbn [run_prog GoSem.bind result_is_ok]; try reflexivity).
Qed.

Lemma res_of_err_ok : forall e, res_of_err e = ROk -> werr_is_nil e = true.
Proof. intros e. unfold res_of_err. destruct (werr_is_nil e); [reflexivity|discriminate]. Qed.

(* when openFile fails, an operation has reported an error *)
Theorem open_only_fail : forall path perm fuel flags f0 w h w' f' h' e' r,
  run_prog OS path perm fuel (open_only_a flags) f0 w h WNil = Ok (w', f', h', e', r) ->
  result_is_ok r = false -> werr_is_nil e' = false.
Proof.
  intros path perm fuel flags f0 w h w' f' h' e' r.
  unfold open_only_a, open_file_prog_a, lock_stage, trunc_stage_a, trunc_fail_prog, flock_step.
  change truncate_after_lock with true. change lock_retries_eintr with true.
  change truncate_failure_unlocks_first with true. change truncate_unlock_inside_regular_check with true.
  cbn [run_prog do_op].
  destruct (os_open OS w path (Z.of_N (strip flags openfile_strip_mask)) perm) as [[w1 f1] e1].
  unfold res_of_err at 1. destruct (werr_is_nil e1) eqn:He1; cbn [run_prog].
  2:{ intros H _. inversion H; subst. fin. }
  rewrite retry_flock.
  destruct (flock_retry fuel f1 (Z.of_N (lock_arg_of_flags flags)) w1) as [[w2 e2]| |]; cbn [GoSem.bind fst snd]; try discriminate.
  unfold res_of_err at 1. destruct (werr_is_nil e2) eqn:He2; cbn [run_prog do_op].
  2:{ destruct (os_close OS w2 f1) as [w3 e3]. intros H _. inversion H; subst. fin. }
  destruct (has_flag flags truncate_cond_mask); cbn [run_prog do_op].
  2:{ intros H Hr. inversion H; subst. discriminate. }
  destruct (os_ftruncate OS w2 f1 (Z.of_nat (N.to_nat truncate_size))) as [w3 e3].
  unfold res_of_err at 1. destruct (werr_is_nil e3) eqn:He3; cbn [run_prog].
  { intros H Hr. inversion H; subst. discriminate. }
  destruct (a_regular a); cbn [run_prog].
  2:{ intros H Hr. inversion H; subst. discriminate. }
  destruct (do_op OS path perm (OFlock filelock_unlock_arg) f1 w3) as [[[w4 f4] r4] e4].
  destruct (do_op OS path perm OClose f4 w4) as [[[w5 f5] r5] e5].
  intros H _. inversion H; subst. fin.
Qed.

(* the operations openFile performs, in the order it performs them: no open carries O_TRUNC, and a
   truncation comes only after the lock request of openFile's switch has been granted *)
Fixpoint hist_ok (lockarg : N) (locked : bool) (chrono : history) : bool :=
  match chrono with
  | [] => true
  | (OOpen fl, _) :: rest => negb (has_flag fl sys_O_TRUNC) && hist_ok lockarg locked rest
  | (OFlock how, ROk) :: rest => hist_ok lockarg (locked || N.eqb how lockarg) rest
  | (OFtruncate _, _) :: rest => locked && hist_ok lockarg locked rest
  | _ :: rest => hist_ok lockarg locked rest
  end.

Lemma strip_no_trunc : forall flags, has_flag (strip flags openfile_strip_mask) sys_O_TRUNC = false.
Proof. intro. apply LockProofs.open_flags_stripped. Qed.

Theorem open_hist_ok : forall path perm fuel flags f0 w w' f' h' e' r,
  run_prog OS path perm fuel (open_only_a flags) f0 w [] WNil = Ok (w', f', h', e', r) ->
  hist_ok (lock_arg_of_flags flags) false (rev h') = true.
Proof.
  intros path perm fuel flags f0 w w' f' h' e' r.
  unfold open_only_a, open_file_prog_a, lock_stage, trunc_stage_a, trunc_fail_prog, flock_step.
  change truncate_after_lock with true. change lock_retries_eintr with true.
  change truncate_failure_unlocks_first with true. change truncate_unlock_inside_regular_check with true.
  cbn [run_prog].
  repeat (break_step; cbn [run_prog]); intro H; inversion H; subst; cbn [rev app hist_ok];
    rewrite ?strip_no_trunc, ?N.eqb_refl; cbn [negb andb orb];
    repeat match goal with |- context [match ?x with ROk => _ | _ => _ end] => destruct x end; reflexivity.
Qed.

(* what OpenFile hands back, read off the run of the model's program *)
Definition OpenFile_out (x : World OS * Handle OS * history * werr * result)
  : World OS * option (lf_File OS) * werr :=
  match x with
  | (w', f', _, e', r) =>
      (w', if result_is_ok r then Some (file_of f' false) else None, if result_is_ok r then WNil else e')
  end.

Theorem OpenFile_eq : forall fuel w name flags perm f0 h, (1 <= fuel)%nat ->
  lf_OpenFile OS fuel w name (Z.of_N flags) perm =
  (x <- run_prog OS name perm fuel (open_only_a flags) f0 w h WNil ;; Ok (OpenFile_out x)).
Proof.
  intros fuel w name flags perm f0 h Hfuel. unfold lf_OpenFile.
  rewrite (openFile_eq fuel w name flags perm f0 h Hfuel).
  destruct (run_prog OS name perm fuel (open_only_a flags) f0 w h WNil) as [[[[[w' f'] h'] e'] r]| |] eqn:Hrun;
    cbn [GoSem.bind open_out OpenFile_out]; try reflexivity.
  destruct (result_is_ok r) eqn:Hr; cbn; [reflexivity|].
  rewrite (open_only_fail _ _ _ _ _ _ _ _ _ _ _ _ Hrun Hr). reflexivity.
Qed.

Theorem Open_eq : forall fuel w name f0 h, (1 <= fuel)%nat ->
  lf_Open OS fuel w name =
  (x <- run_prog OS name 0 fuel (open_only_a open_flags) f0 w h WNil ;; Ok (OpenFile_out x)).
Proof.
  intros. unfold lf_Open. change 0%Z with (Z.of_N open_flags) at 1. rewrite (OpenFile_eq fuel w name open_flags 0 f0 h) by assumption.
  destruct (run_prog _ _ _ _ _ _ _ _ _) as [[[[[w' f'] h'] e'] r]| |]; reflexivity.
Qed.
Theorem Create_eq : forall fuel w name f0 h, (1 <= fuel)%nat ->
  lf_Create OS fuel w name =
  (x <- run_prog OS name 438 fuel (open_only_a create_flags) f0 w h WNil ;; Ok (OpenFile_out x)).
Proof.
  intros. unfold lf_Create. change 578%Z with (Z.of_N create_flags). rewrite (OpenFile_eq fuel w name create_flags 438 f0 h) by assumption.
  destruct (run_prog _ _ _ _ _ _ _ _ _) as [[[[[w' f'] h'] e'] r]| |]; reflexivity.
Qed.
Theorem Edit_eq : forall fuel w name f0 h, (1 <= fuel)%nat ->
  lf_Edit OS fuel w name =
  (x <- run_prog OS name 438 fuel (open_only_a edit_flags) f0 w h WNil ;; Ok (OpenFile_out x)).
Proof.
  intros. unfold lf_Edit. change 66%Z with (Z.of_N edit_flags). rewrite (OpenFile_eq fuel w name edit_flags 438 f0 h) by assumption.
  destruct (run_prog _ _ _ _ _ _ _ _ _) as [[[[[w' f'] h'] e'] r]| |]; reflexivity.
Qed.

Definition run_wfr (x : World OS * Handle OS * history * werr * result) : World OS * Handle OS * result :=
  match x with (w', f', _, _, r) => (w', f', r) end.

Theorem run_irrel : forall path perm fuel p f w h e h2 e2,
  (x <- run_prog OS path perm fuel p f w h e ;; Ok (run_wfr x)) =
  (x <- run_prog OS path perm fuel p f w h2 e2 ;; Ok (run_wfr x)).
Proof.
  intros path perm fuel p. induction p as [r|o k IH|o k IH]; intros f w h e h2 e2; cbn [run_prog].
  - reflexivity.
  - destruct (do_op OS path perm o f w) as [[[w' f'] r] e']. apply IH.
  - destruct (retry_op OS path perm fuel o f w) as [[[[w' f'] r] e']| |]; [apply IH|reflexivity|reflexivity].
Qed.

(* what the model speaks about: the world afterwards and the result *)
Definition run_out (x : World OS * Handle OS * history * werr * result) : World OS * result :=
  match x with (w', _, _, _, r) => (w', r) end.

Theorem run_irrel_out : forall path perm fuel p f w h e h2 e2,
  (x <- run_prog OS path perm fuel p f w h e ;; Ok (run_out x)) =
  (x <- run_prog OS path perm fuel p f w h2 e2 ;; Ok (run_out x)).
Proof.
  intros. pose proof (run_irrel path perm fuel p f w h e h2 e2) as H.
  destruct (run_prog OS path perm fuel p f w h e) as [[[[[? ?] ?] ?] ?]| |],
           (run_prog OS path perm fuel p f w h2 e2) as [[[[[? ?] ?] ?] ?]| |];
    cbn in *; congruence.
Qed.

(* p; g  seen from outside: run p, then g on its result *)
Theorem run_bind_res : forall path perm fuel p g f w h e,
  (x <- run_prog OS path perm fuel (LockedFile.bind p g) f w h e ;; Ok (run_out x)) =
  (y <- (x <- run_prog OS path perm fuel p f w h e ;; Ok (run_wfr x)) ;;
   match y with (w', f', r) => x <- run_prog OS path perm fuel (g r) f' w' [] WNil ;; Ok (run_out x) end).
Proof.
  intros. rewrite run_bind.
  destruct (run_prog OS path perm fuel p f w h e) as [[[[[w' f'] h'] e'] r]| |]; cbn [GoSem.bind run_wfr]; try reflexivity.
  apply run_irrel_out.
Qed.

Theorem run_bind_out : forall path perm fuel p g f w h e,
  (x <- run_prog OS path perm fuel (LockedFile.bind p g) f w h e ;; Ok (run_wfr x)) =
  (y <- (x <- run_prog OS path perm fuel p f w h e ;; Ok (run_wfr x)) ;;
   match y with (w', f', r) => x <- run_prog OS path perm fuel (g r) f' w' [] WNil ;; Ok (run_wfr x) end).
Proof.
  intros. rewrite run_bind.
  destruct (run_prog OS path perm fuel p f w h e) as [[[[[w' f'] h'] e'] r]| |]; cbn [GoSem.bind run_wfr]; try reflexivity.
  apply run_irrel.
Qed.

Theorem Read_eq : forall fuel w name f0 h, (1 <= fuel)%nat ->
  (x <- lf_Read OS fuel w name ;; match x with (w', b, e) => Ok (w', result_of_data b e) end) =
  (x <- run_prog OS name 0 fuel (prog_of_call_a a CRead) f0 w h WNil ;; Ok (run_out x)).
Proof.
  intros fuel w name f0 h Hfuel. unfold lf_Read. rewrite (Open_eq fuel w name f0 h Hfuel).
  unfold prog_of_call_a, client_prog_a. rewrite run_open_k. cbn [flags_of_call body_of_call].
  destruct (run_prog OS name 0 fuel (open_only_a open_flags) f0 w h WNil) as [[[[[w1 f1] h1] e1] r1]| |] eqn:Hrun;
    cbn [GoSem.bind OpenFile_out]; try reflexivity.
  destruct (result_is_ok r1) eqn:Hr1.
  - cbn [werr_is_nil negb go_deref GoSem.bind file_of lf_File_osFile lf_osFile_File].
    unfold after_open. cbn [run_prog do_op]. rewrite run_bind. unfold read_body. cbn [run_prog do_op].
    destruct (os_read_all OS w1 f1) as [[w2 b] e2]. cbn [GoSem.bind].
    fold (file_of f1 false). rewrite File_Close_eq by assumption.
    unfold close_part. cbn [run_prog do_op]. 
    destruct (werr_is_nil e2) eqn:He2; cbn [run_prog GoSem.bind]; rewrite run_close; cbn; unfold result_of_data; rewrite He2; reflexivity.
  - rewrite (open_only_fail _ _ _ _ _ _ _ _ _ _ _ _ Hrun Hr1). cbn.
    unfold result_of_data. rewrite (open_only_fail _ _ _ _ _ _ _ _ _ _ _ _ Hrun Hr1). reflexivity.
Qed.

(* Write hands back the error of Close when the copy itself succeeded: the model's close_part
   with that result (same operations; LockedFile.close_part returns x itself, and
   Policy.write_outcome makes this correction afterwards from the history) *)
Definition close_result (x : result) (r1 r2 : mres) : result :=
  match x with
  | ResOk => match r1 with ROk => match r2 with ROk => ResOk | _ => ResErr end | _ => ResErr end
  | _ => x
  end.
Definition close_part_w (x : result) : prog :=
  Do (OMark MCloseCalled) (fun _ =>
    Do (OFlock filelock_unlock_arg) (fun r1 => Do OClose (fun r2 => Ret (close_result x r1 r2)))).
Definition write_prog_a (chunks : list bytes) (rerr : bool) : prog :=
  open_file_prog_a a write_flags (fun ok =>
    if ok then Do (OMark MReturned) (fun _ => LockedFile.bind (Policy.copy_body chunks rerr) close_part_w)
    else Ret ResErr).

(* close_part_w performs the operations of close_part *)
Theorem close_part_w_ops : forall path perm fuel x f w h e,
  run_prog OS path perm fuel (close_part_w x) f w h e =
  (y <- run_prog OS path perm fuel (close_part x) f w h e ;;
   match y with (w', f', h', e', _) =>
     Ok (w', f', h', e', close_result x (res_of_err (cl_e1 f w)) (res_of_err (cl_e2 f w))) end).
Proof.
  intros. unfold close_part_w, close_part, close_prog. change closefile_unlock_first with true.
  cbn [run_prog]. change (do_op OS path perm (OMark MCloseCalled) f w) with (w, f, ROk, WNil).
  cbn [run_prog]. rewrite do_unlock by assumption. cbn [do_op].
  unfold cl_e2, cl_w1, cl_e1.
  destruct (os_close OS (fst (sys_flock OS w (h_fd OS f) UN)) f) as [w2 e2]. reflexivity.
Qed.

(* io.Copy(f, content) is the model's copy_body *)
Theorem copy_run : forall path perm fuel chunks rerr n f w h e,
  (x <- run_prog OS path perm fuel (Policy.copy_body chunks (negb (werr_is_nil rerr))) f w h e ;; Ok (run_wfr x)) =
  match copy_chunks OS w f chunks rerr n with
  | (w', _, ec) => Ok (w', f, result_of_err ec)
  end.
Proof.
  intros path perm fuel chunks rerr. induction chunks as [|d rest IH]; intros n f w h e.
  - cbn. unfold result_of_err. destruct (werr_is_nil rerr); reflexivity.
  - cbn [Policy.copy_body copy_chunks]. unfold write_prog. destruct d as [|c d'].
    + apply IH.
    + cbn [run_prog do_op]. destruct (os_write OS w f (c :: d')) as [[w' k] ew].
      unfold res_of_err. destruct (werr_is_nil ew) eqn:Hew.
      * apply IH.
      * cbn. unfold result_of_err. now rewrite Hew.
Qed.

Theorem Write_eq : forall fuel w name chunks rerr perm f0 h, (1 <= fuel)%nat ->
  (x <- lf_Write OS fuel w name (chunks, rerr) perm ;; match x with (w', e) => Ok (w', result_of_err e) end) =
  (x <- run_prog OS name perm fuel (write_prog_a chunks (negb (werr_is_nil rerr))) f0 w h WNil ;; Ok (run_out x)).
Proof.
  intros fuel w name chunks rerr perm f0 h Hfuel. unfold lf_Write.
  change 577%Z with (Z.of_N write_flags). rewrite (OpenFile_eq fuel w name write_flags perm f0 h Hfuel).
  unfold write_prog_a. rewrite run_open_k.
  destruct (run_prog OS name perm fuel (open_only_a write_flags) f0 w h WNil) as [[[[[w1 f1] h1] e1] r1]| |] eqn:Hrun;
    cbn [GoSem.bind OpenFile_out]; try reflexivity.
  destruct (result_is_ok r1) eqn:Hr1.
  - cbn [werr_is_nil negb go_deref GoSem.bind file_of lf_File_osFile lf_osFile_File run_prog do_op].
    rewrite run_bind_res, (copy_run name perm fuel chunks rerr 0%Z).
    unfold io_copy. cbn [fst snd].
    destruct (copy_chunks OS w1 f1 chunks rerr 0) as [[w2 n2] ec]. cbn [GoSem.bind].
    fold (file_of f1 false). rewrite File_Close_eq by assumption.
    rewrite close_part_w_ops. unfold close_part. cbn [run_prog do_op]. rewrite run_close. cbn [run_prog GoSem.bind run_out].
    unfold result_of_err, close_result, cl_err.
    destruct (werr_is_nil ec) eqn:Hec; destruct (werr_is_nil (cl_e1 f1 w2)) eqn:H1;
      destruct (werr_is_nil (cl_e2 f1 w2)) eqn:H2; fin.
  - rewrite (open_only_fail _ _ _ _ _ _ _ _ _ _ _ _ Hrun Hr1). cbn.
    unfold result_of_err. rewrite (open_only_fail _ _ _ _ _ _ _ _ _ _ _ _ Hrun Hr1). reflexivity.
Qed.

(* the program of Write performs the operations of the model's writer_call: same worlds *)
Theorem write_prog_world : forall path perm fuel chunks rerr f0 w h e,
  (x <- run_prog OS path perm fuel (write_prog_a chunks rerr) f0 w h e ;; Ok (fst (run_out x))) =
  (x <- run_prog OS path perm fuel (prog_of_call_a a (Policy.writer_call chunks rerr)) f0 w h e ;; Ok (fst (run_out x))).
Proof.
  intros. unfold write_prog_a, Policy.writer_call, prog_of_call_a, client_prog_a. cbn [flags_of_call body_of_call].
  rewrite !run_open_k.
  destruct (run_prog OS path perm fuel (open_only_a write_flags) f0 w h e) as [[[[[w1 f1] h1] e1] r1]| |];
    cbn [GoSem.bind]; try reflexivity.
  destruct (result_is_ok r1); [|reflexivity].
  unfold after_open. cbn [run_prog do_op]. rewrite !run_bind.
  match goal with |- context [run_prog OS path perm fuel (Policy.copy_body chunks rerr) ?a1 ?a2 ?a3 ?a4] =>
    destruct (run_prog OS path perm fuel (Policy.copy_body chunks rerr) a1 a2 a3 a4) as [[[[[w2 f2] h2] e2] r2]| |] end;
    cbn [GoSem.bind]; try reflexivity.
  cbv beta iota. rewrite close_part_w_ops.
  destruct (run_prog OS path perm fuel (close_part r2) f2 w2 h2 e2) as [[[[[w3 f3] h3] e3] r3]| |]; reflexivity.
Qed.

(* stepping a run seen from outside *)
Lemma ret_wfr : forall path perm fuel r f w h e,
  (x <- run_prog OS path perm fuel (Ret r) f w h e ;; Ok (run_wfr x)) = Ok (w, f, r).
Proof. reflexivity. Qed.
Lemma do_wfr : forall path perm fuel o k f w h e,
  (x <- run_prog OS path perm fuel (Do o k) f w h e ;; Ok (run_wfr x)) =
  match do_op OS path perm o f w with
  | (w', f', r, _) => x <- run_prog OS path perm fuel (k r) f' w' [] WNil ;; Ok (run_wfr x)
  end.
Proof.
  intros. cbn [run_prog]. destruct (do_op OS path perm o f w) as [[[w' f'] r] e']. apply run_irrel.
Qed.
Lemma pwrite_wfr : forall path perm fuel off d k f w h e,
  (x <- run_prog OS path perm fuel (pwrite_prog off d k) f w h e ;; Ok (run_wfr x)) =
  match file_write_at OS w f d (Z.of_nat off) with
  | (w', _, ew) => x <- run_prog OS path perm fuel (k (res_of_err ew)) f w' [] WNil ;; Ok (run_wfr x)
  end.
Proof.
  intros. unfold pwrite_prog, file_write_at. destruct d as [|c d'].
  - apply run_irrel.
  - cbn [run_prog do_op]. destruct (os_pwrite OS w f (c :: d') (Z.of_nat off)) as [[w' n] ew]. apply run_irrel.
Qed.

Lemma len_gtb : forall x y : bytes, (len x >? len y)%Z = (length y <? length x)%nat.
Proof.
  intros. unfold len. rewrite Z.gtb_ltb.
  destruct (Nat.ltb_spec (length y) (length x)); [apply Z.ltb_lt|apply Z.ltb_ge]; lia.
Qed.
Lemma len_geb : forall x y : bytes, (len x >=? len y)%Z = (length y <=? length x)%nat.
Proof.
  intros. unfold len. rewrite Z.geb_leb.
  destruct (Nat.leb_spec (length y) (length x)); [apply Z.leb_le|apply Z.leb_gt]; lia.
Qed.
Lemma slice_tail : forall x y : bytes, (length x <= length y)%nat ->
  go_slice y (len x) (len y) = Ok (skipn (length x) y).
Proof. intros x y. apply go_slice_from. Qed.
Lemma slice_head : forall x y : bytes, (length x <= length y)%nat ->
  go_slice y 0 (len x) = Ok (firstn (length x) y).
Proof. intros x y. apply go_slice_to. Qed.

(* one step of Transform seen from outside: advance the model side by one pwrite / operation /
   return (pwrite_wfr, do_wfr, ret_wfr), or name the outcome of the source's next call and split on
   its nil-test *)
Ltac tstep := first
  [ rewrite pwrite_wfr
  | rewrite do_wfr; cbn [do_op]
  | rewrite ret_wfr
  | match goal with |- context [werr_is_nil ?e] => is_var e; destruct (werr_is_nil e) eqn:? end
  | match goal with |- context [file_write_at OS ?w ?f ?d ?o] => destruct (file_write_at OS w f d o) as [[? ?] ?] end
  | match goal with |- context [os_ftruncate OS ?w ?f ?n] => destruct (os_ftruncate OS w f n) as [? ?] end ];
  unfold res_of_err;
  repeat match goal with H : werr_is_nil _ = _ |- _ => rewrite H end;
  cbn [GoSem.bind GoSem.bindT negb fst snd werr_is_nil Z.of_nat].

Lemma bind_map : forall (A B C : Type) (m : GoSem.res A) (m' : GoSem.res B) (g : A -> B) (K : A -> GoSem.res C) (K' : B -> GoSem.res C),
  (x <- m ;; Ok (g x)) = m' -> (forall x, K x = K' (g x)) -> (x <- m ;; K x) = (y <- m' ;; K' y).
Proof. intros A B C m m' g K K' H1 H2. rewrite <- H1. destruct m; cbn; auto. Qed.

Theorem Transform_eq : forall fuel w name t f0 h, (1 <= fuel)%nat ->
  (x <- lf_Transform OS fuel w name t ;; match x with (w', e) => Ok (w', result_of_err e) end) =
  (x <- run_prog OS name 438 fuel (prog_of_call_a a (CTransform (model_t t))) f0 w h WNil ;; Ok (run_out x)).
Proof.
  intros fuel w name t f0 h Hfuel. unfold lf_Transform. rewrite (Edit_eq fuel w name f0 h Hfuel).
  unfold prog_of_call_a, client_prog_a. rewrite run_open_k. cbn [flags_of_call body_of_call].
  destruct (run_prog OS name 438 fuel (open_only_a edit_flags) f0 w h WNil) as [[[[[w1 f1] h1] e1] r1]| |] eqn:Hrun;
    cbn [GoSem.bind OpenFile_out]; try reflexivity.
  destruct (result_is_ok r1) eqn:Hr1.
  2:{ rewrite (open_only_fail _ _ _ _ _ _ _ _ _ _ _ _ Hrun Hr1). cbn.
      unfold result_of_err. rewrite (open_only_fail _ _ _ _ _ _ _ _ _ _ _ _ Hrun Hr1). reflexivity. }
  cbn [werr_is_nil negb go_deref GoSem.bind file_of lf_File_osFile lf_osFile_File].
  unfold after_open. cbn [run_prog do_op]. rewrite run_bind_res.
  unfold transform_body. rewrite do_wfr. cbn [do_op].
  destruct (os_read_all OS w1 f1) as [[w2 old] er].
  rewrite bind_assoc.
  apply (bind_map _ _ _ _ _ (fun x : World OS * werr => (fst x, f1, result_of_err (snd x)))).
  2:{ intros [wk ek]. cbn [fst snd]. rewrite File_Close_eq by assumption. unfold close_part.
      cbn [run_prog do_op GoSem.bind]. rewrite run_close. reflexivity. }
  destruct (werr_is_nil er) eqn:Her; cbn [negb]; [|fin].
  unfold model_t. destruct (t old) as [new et]. destruct (werr_is_nil et) eqn:Het; cbn [negb]; [|fin].
  unfold transform_write. rewrite len_gtb, len_geb.
  (* the part after the first write (transform_main with the deferred rollback), from any world *)
  match goal with |- context [bindT _ ?K] =>
    assert (Hmain : forall w0, (x <- K w0 ;; Ok (fst x, f1, result_of_err (snd x))) =
                               (x <- run_prog OS name 438 fuel (transform_main old new) f1 w0 [] WNil ;; Ok (run_wfr x)))
  end.
  { intro w0. unfold transform_main, rollback.
    destruct (Nat.leb_spec (length old) (length new)) as [Hle|Hgt].
    - rewrite slice_head by assumption. unfold len. cbn [GoSem.bind].
      repeat tstep; fin.
    - unfold len. repeat tstep; fin. }
  destruct (Nat.ltb_spec (length old) (length new)) as [Hlt|Hge]; cbn [GoSem.bindT].
  - rewrite slice_tail by lia. unfold len in *. cbn [GoSem.bind].
    rewrite pwrite_wfr.
    destruct (file_write_at OS w2 f1 (skipn (length old) new) (Z.of_nat (length old))) as [[w3 n3] e3].
    unfold res_of_err. destruct (werr_is_nil e3) eqn:He3; cbn [negb GoSem.bindT].
    + apply Hmain.
    + repeat tstep; fin.
  - apply Hmain.
Qed.

(* unlock, err := mu.Lock(); if err == nil { unlock() } *)
Definition mutex_cycle (fuel : nat) (w : World OS) (mu : lf_Mutex) : GoSem.res (World OS * lf_Mutex * result) :=
  x <- lf_Mutex_Lock OS fuel w mu ;;
  match x with
  | (w1, mu1, Some captured, _) =>
      y <- lf_Mutex_Lock_lit OS fuel w1 mu1 captured ;;
      match y with (w2, mu2, _) => Ok (w2, mu2, ResOk) end
  | (w1, mu1, None, _) => Ok (w1, mu1, ResErr)
  end.

Theorem Mutex_Lock_empty_path : forall fuel w mu,
  lf_Mutex_Path mu = [] -> lf_Mutex_Lock OS fuel w mu = Panic.
Proof. intros fuel w mu H. unfold lf_Mutex_Lock. rewrite H. reflexivity. Qed.

Theorem Mutex_eq : forall fuel w mu f0 h, (1 <= fuel)%nat ->
  lf_Mutex_Path mu <> [] -> lf_Mutex_mu mu = false ->
  mutex_cycle fuel w mu =
  (x <- run_prog OS (lf_Mutex_Path mu) 438 fuel (prog_of_call_a a CMutex) f0 w h WNil ;;
   match x with (w', _, _, _, r) => Ok (w', mu, r) end).
Proof.
  intros fuel w mu f0 h Hfuel Hpath Hmu. unfold mutex_cycle, lf_Mutex_Lock.
  destruct mu as [path locked]. cbn [lf_Mutex_Path lf_Mutex_mu] in *. subst locked.
  destruct path as [|c path']; [congruence|]. cbn [bytes_eqb].
  replace (bytes_eqb (c :: path') []) with false by (destruct c; reflexivity).
  change 66%Z with (Z.of_N mutex_flags). rewrite (OpenFile_eq fuel w (c :: path') mutex_flags 438 f0 h Hfuel).
  unfold prog_of_call_a, client_prog_a. rewrite run_open_k. cbn [flags_of_call body_of_call].
  destruct (run_prog OS (c :: path') 438 fuel (open_only_a mutex_flags) f0 w h WNil) as [[[[[w1 f1] h1] e1] r1]| |] eqn:Hrun;
    cbn [GoSem.bind OpenFile_out]; try reflexivity.
  destruct (result_is_ok r1) eqn:Hr1.
  - cbn [werr_is_nil negb go_sync_Lock GoSem.bind]. unfold lf_Mutex_Lock_lit.
    cbn [lf_Mutex_mu lf_Mutex_Path go_sync_Unlock GoSem.bind go_deref].
    rewrite File_Close_eq by assumption. cbn [GoSem.bind].
    unfold after_open, close_part. cbn [run_prog do_op LockedFile.bind]. rewrite run_close. reflexivity.
  - rewrite (open_only_fail _ _ _ _ _ _ _ _ _ _ _ _ Hrun Hr1). reflexivity.
Qed.

End Facts.
