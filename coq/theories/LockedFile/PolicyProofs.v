(* lockedfile (C06): under EVERY fault policy — any failures of open, flock, read, write,
   truncate, close, one-shot or persistent — a call that returns has released its lock and
   closed its descriptor ("released by that call", on the error paths too); descriptors are a
   balanced resource. *)
From Coq Require Import List NArith Arith Bool Lia.
From Coq.Strings Require Import Byte.
From GI Require Import Gen.LockedFileConsts LockedFile.LockedFile LockedFile.LockBasics
  LockedFile.LockProofs.
From GI Require Import LockedFile.Policy.
Import ListNotations.

Lemma opens_cons o r h :
  opens ((o, r) :: h) = if is_open_ok (o, r) then S (opens h) else opens h.
Proof. unfold opens. cbn [filter]. destruct (is_open_ok (o, r)); reflexivity. Qed.

Lemma closes_cons o r h :
  closes ((o, r) :: h) = if is_close (o, r) then S (closes h) else closes h.
Proof. unfold closes. cbn [filter]. destruct (is_close (o, r)); reflexivity. Qed.

Lemma io_not_open o r : is_io o = true -> is_open_ok (o, r) = false /\ is_close (o, r) = false.
Proof. destruct o; try discriminate; auto. Qed.

Lemma osf_mark i c m flt e s : os_step_f i c (OMark m) flt e s = Some (ROk, s).
Proof. destruct flt; reflexivity. Qed.

Lemma osf_io i c o flt e s : is_io o = true -> os_step_f i c o flt e s = os_step i c o flt e s.
Proof. intros H. destruct flt, o; try discriminate H; reflexivity. Qed.

Lemma os_step_nonio_flt i c o flt e s :
  is_io o = false -> os_step i c o flt e s = os_step i c o FNone e s.
Proof. intros H. destruct o; try discriminate H; reflexivity. Qed.

Lemma os_flock_frame i c how flt e s r s' :
  os_step i c (OFlock how) flt e s = Some (r, s') ->
  fds s' = fds s /\ refs s' = refs s /\ files s' = files s /\ (r = REintr -> e = true).
Proof.
  intros H. unfold os_step in H. os_inv H; simpl; repeat split; auto; discriminate.
Qed.

Lemma osf_flock_frame i c how flt e s r s' :
  os_step_f i c (OFlock how) flt e s = Some (r, s') ->
  fds s' = fds s /\ refs s' = refs s /\ files s' = files s /\ (r = REintr -> e = true).
Proof.
  destruct flt; simpl; intros H; try (injection H as <- <-; repeat split; auto; discriminate);
  now apply os_flock_frame in H.
Qed.

Lemma osf_flock_closed i c how flt e s :
  fds s c = None -> os_step_f i c (OFlock how) flt e s = Some (RErr, s).
Proof.
  intros Hc. destruct flt; try reflexivity. simpl. unfold os_step. now rewrite Hc.
Qed.

Lemma osf_close_open i c flt e s :
  isopen (fds s c) = true -> refs s c = 0 ->
  exists r s', os_step_f i c OClose flt e s = Some (r, s') /\
    files s' = files s /\ fds s' c = None /\ ltab s' i = drop c (ltab s i) /\ refs s' = refs s.
Proof.
  intros Ho Hr.
  assert (Hc : forall flt0, os_step i c OClose flt0 e s =
            Some (ROk, {| files := files s; fds := upd (fds s) c None; refs := refs s;
                          ltab := upd (ltab s) i (drop c (ltab s i)) |})).
  { intros flt0. rewrite (os_close i c s e flt0 Ho), Hr. reflexivity. }
  destruct flt; simpl; rewrite Hc; do 2 eexists; (split; [reflexivity|]); simpl;
    rewrite !upd_same; auto.
Qed.

(* an unlock, faulty or not, neither blocks nor is interrupted; it removes the entry or does nothing *)
Lemma osf_unlock i c flt e s :
  isopen (fds s c) = true ->
  exists r s', os_step_f i c (OFlock filelock_unlock_arg) flt e s = Some (r, s') /\ r <> REintr /\
    files s' = files s /\ fds s' = fds s /\ refs s' = refs s /\
    (ltab s' i = ltab s i \/ ltab s' i = drop c (ltab s i)).
Proof.
  intros Ho. destruct flt; simpl; rewrite ?(os_flock_unlock i c s e FNone Ho);
    do 2 eexists; (split; [reflexivity|]); simpl; rewrite ?upd_same;
    (split; [discriminate|]); auto 6.
Qed.

Lemma osf_open i c fl flt e s r s' :
  os_step_f i c (OOpen fl) flt e s = Some (r, s') -> fds s c = None ->
  (r = ROk /\ isopen (fds s' c) = true /\ refs s' = refs s) \/ (r = RErr /\ s' = s).
Proof.
  intros H Hc. destruct flt; simpl in H; try (injection H as <- <-; now right).
  pose proof (os_step_refs _ _ _ _ _ _ _ _ H) as Hr.
  apply os_open_result in H; [|now rewrite Hc].
  destruct H as [[-> [Ho _]]|[-> ->]]; [left|right]; auto.
Qed.

Section Release.
Variables (i c : nat).

Definition closed_ok (s : os) : Prop := fds s c = None /\ locked c (ltab s i) = None.

(* [releases o p]: started with its descriptor open (o = true) or closed and unlocked (o = false),
   whatever the policy does, if p finishes then the descriptor is closed, the lock is gone, and
   opens and closes balance *)
Definition releases (o : bool) (p : prog) : Prop :=
  forall pol h s, refs s c = 0 ->
    (if o then isopen (fds s c) = true else closed_ok s) ->
    match run_pol i c p pol h s with
    | (h', Finished _, s') =>
        closed_ok s' /\ refs s' c = 0 /\
        opens h' + closes h + (if o then 1 else 0) = closes h' + opens h
    | (_, Blocked, _) => True
    end.

Lemma releases_ret x : releases false (Ret x).
Proof. intros pol h s Hr Hs. simpl. repeat split; try apply Hs; auto; lia. Qed.

Lemma releases_close k : releases false k -> releases true (Do OClose (fun _ => k)).
Proof.
  intros Hk pol h s Hr Ho. simpl in Ho. cbn [run_pol].
  destruct (osf_close_open i c (pol h OClose (content_of (files s i)) (fds s c)) false s Ho Hr)
    as [r [s' [-> [_ [Hf [Hl Hrf]]]]]].
  assert (Hr' : refs s' c = 0) by now rewrite Hrf.
  assert (Hl' : locked c (ltab s' i) = None) by (rewrite Hl; apply locked_drop_same).
  specialize (Hk pol ((OClose, r) :: h) s' Hr' (conj Hf Hl')).
  destruct (run_pol i c k pol ((OClose, r) :: h) s') as [[h' [x|]] s'']; [|exact I].
  destruct Hk as [Hc [Hr'' Hb]]. rewrite opens_cons, closes_cons in Hb. simpl in Hb.
  repeat split; try apply Hc; auto; lia.
Qed.

Lemma releases_mark o m k : releases o (k ROk) -> releases o (Do (OMark m) k).
Proof.
  intros Hk pol h s Hr Hs. cbn [run_pol]. rewrite osf_mark.
  specialize (Hk pol ((OMark m, ROk) :: h) s Hr Hs).
  destruct (run_pol i c (k ROk) pol ((OMark m, ROk) :: h) s) as [[h' [x|]] s'']; [|exact I].
  rewrite opens_cons, closes_cons in Hk. exact Hk.
Qed.

Lemma releases_io_open o k :
  is_io o = true -> (forall r, releases true (k r)) -> releases true (Do o k).
Proof.
  intros Hio Hk pol h s Hr Ho. simpl in Ho. cbn [run_pol]. rewrite (osf_io _ _ _ _ _ _ Hio).
  destruct (os_io i c o s false (pol h o (content_of (files s i)) (fds s c)) Hio Ho)
    as [r [s' [E [Ho' _]]]].
  rewrite E. pose proof (os_step_refs _ _ _ _ _ _ _ _ E) as Hrf.
  assert (Hr' : refs s' c = 0) by now rewrite Hrf.
  specialize (Hk r pol ((o, r) :: h) s' Hr' Ho').
  destruct (run_pol i c (k r) pol ((o, r) :: h) s') as [[h' [x|]] s'']; [|exact I].
  rewrite opens_cons, closes_cons in Hk.
  destruct (io_not_open o r Hio) as [E1 E2]. rewrite E1, E2 in Hk. exact Hk.
Qed.

(* flock on an open descriptor: granted, refused, failed or blocked — the descriptor stays *)
Lemma releases_flock_open how k :
  (forall r, releases true (k r)) ->
  releases true (Do (OFlock how) k) /\ releases true (Retry (OFlock how) k).
Proof.
  intros Hk. split; intros pol h s Hr Ho; simpl in Ho; cbn [run_pol];
  destruct (os_step_f i c (OFlock how) (pol h (OFlock how) (content_of (files s i)) (fds s c)) false s)
    as [[r s']|] eqn:E; try exact I;
  destruct (osf_flock_frame _ _ _ _ _ _ _ _ E) as [Hf [Hrf [_ Hei]]];
  (assert (Hr' : refs s' c = 0) by now rewrite Hrf);
  (assert (Ho' : isopen (fds s' c) = true) by now rewrite Hf);
  pose proof (Hk r pol ((OFlock how, r) :: h) s' Hr' Ho') as Hg;
  rewrite opens_cons, closes_cons in Hg; simpl in Hg.
  - exact Hg.
  - destruct r; try exact Hg. exact I.
Qed.

(* flock on a closed descriptor fails and changes nothing *)
Lemma releases_flock_closed how k : releases false (k RErr) -> releases false (Do (OFlock how) k).
Proof.
  intros Hk pol h s Hr Hs. cbn [run_pol]. rewrite (osf_flock_closed i c how _ false s (proj1 Hs)).
  specialize (Hk pol ((OFlock how, RErr) :: h) s Hr Hs).
  rewrite opens_cons, closes_cons in Hk. exact Hk.
Qed.

Lemma releases_open fl k : releases true (k ROk) -> releases false (k RErr) -> releases false (Do (OOpen fl) k).
Proof.
  intros Hok Herr pol h s Hr Hs. cbn [run_pol].
  destruct (os_step_f i c (OOpen fl) (pol h (OOpen fl) (content_of (files s i)) (fds s c)) false s)
    as [[r s']|] eqn:E; [|exact I].
  destruct (osf_open _ _ _ _ _ _ _ _ E (proj1 Hs)) as [[-> [Ho Hrf]]|[-> ->]].
  - assert (Hr' : refs s' c = 0) by now rewrite Hrf.
    specialize (Hok pol ((OOpen fl, ROk) :: h) s' Hr' Ho).
    destruct (run_pol i c (k ROk) pol ((OOpen fl, ROk) :: h) s') as [[h' [x|]] s'']; [|exact I].
    rewrite opens_cons, closes_cons in Hok. simpl in Hok.
    destruct Hok as [Hc [Hr'' Hb]]. repeat split; try apply Hc; auto; lia.
  - specialize (Herr pol ((OOpen fl, RErr) :: h) s Hr Hs).
    rewrite opens_cons, closes_cons in Herr. exact Herr.
Qed.

(* closeFile and the error path of openFile: unlock and close, in either order *)
Lemma releases_unlock_close (unlock_first : bool) k :
  releases false k ->
  releases true (if unlock_first
             then Do (OFlock filelock_unlock_arg) (fun _ => Do OClose (fun _ => k))
             else Do OClose (fun _ => Do (OFlock filelock_unlock_arg) (fun _ => k))).
Proof.
  intros Hk. destruct unlock_first.
  - apply (releases_flock_open filelock_unlock_arg (fun _ => Do OClose (fun _ => k))).
    intros _. now apply releases_close.
  - apply releases_close. now apply releases_flock_closed.
Qed.

Lemma releases_body b : io_only b -> releases true (bind b close_part).
Proof.
  induction 1 as [x|o k Hio _ IH].
  - simpl. unfold close_part. apply releases_mark. apply (releases_unlock_close closefile_unlock_first). apply releases_ret.
  - simpl. now apply releases_io_open.
Qed.

Lemma releases_after_open b : io_only b -> releases true (after_open b).
Proof. intros Hb. unfold after_open. apply releases_mark. now apply releases_body. Qed.

Lemma releases_lock_stage fl k :
  releases true (k true) -> releases false (k false) -> releases true (lock_stage fl k).
Proof.
  intros Ht Hf. unfold lock_stage, flock_step.
  assert (Hk : forall r, releases true (match r with ROk => k true | _ => Do OClose (fun _ => k false) end)).
  { intros []; auto; now apply releases_close. }
  destruct lock_retries_eintr; now apply releases_flock_open.
Qed.

Lemma releases_trunc_stage fl k :
  releases true (k true) -> releases false (k false) -> releases true (trunc_stage fl k).
Proof.
  intros Ht Hf. unfold trunc_stage. destruct (has_flag fl truncate_cond_mask); [|exact Ht].
  apply releases_io_open; [reflexivity|]. intros []; auto; now apply (releases_unlock_close truncate_failure_unlocks_first).
Qed.

Lemma releases_client fl b : io_only b -> releases false (client_prog fl b).
Proof.
  intros Hb. unfold client_prog, open_file_prog.
  pose proof (releases_after_open b Hb) as Ha. pose proof (releases_ret ResErr) as He.
  apply releases_open; [|exact He].
  destruct truncate_after_lock.
  - apply releases_lock_stage; [|exact He]. now apply releases_trunc_stage.
  - apply releases_trunc_stage; [|exact He]. now apply releases_lock_stage.
Qed.

End Release.

(* every locking call OpenFile(fl); body; Close with an I/O-only body, from any OS state in
   which the caller has no descriptor yet (others may hold locks: the call may block), under
   any policy: if it returns, the caller holds no descriptor and no lock on the file *)
Theorem released_on_every_path i c fl b pol h s :
  io_only b -> fds s c = None -> locked c (ltab s i) = None -> refs s c = 0 ->
  match run_pol i c (client_prog fl b) pol h s with
  | (h', Finished _, s') =>
      fds s' c = None /\ (forall k, holds c k (ltab s' i) = false) /\
      opens h' + closes h = closes h' + opens h
  | (_, Blocked, _) => True
  end.
Proof.
  intros Hb Hf Hl Hr.
  pose proof (releases_client i c fl b Hb pol h s Hr (conj Hf Hl)) as H.
  destruct (run_pol i c (client_prog fl b) pol h s) as [[h' [x|]] s']; [|exact I].
  destruct H as [[Hc Hlk] [_ Hbal]]. repeat split; auto.
  - intros k. now apply locked_None_holds.
  - lia.
Qed.

Lemma io_only_copy_body chunks rerr : io_only (copy_body chunks rerr).
Proof.
  induction chunks as [|d rest IH]; simpl; [constructor|].
  apply io_only_write. intros []; auto; constructor.
Qed.

(* every API call of the library: Read, Write (any data, any content reader), Transform (any
   function), Create/Edit/Open/OpenFile followed by I/O and Close, Mutex.Lock + unlock *)
Theorem api_released_on_every_path i c (cl : call) pol s :
  wf_call cl -> fds s c = None -> locked c (ltab s i) = None -> refs s c = 0 ->
  match run_pol i c (prog_of_call cl) pol [] s with
  | (h', Finished _, s') =>
      fds s' c = None /\ (forall k, holds c k (ltab s' i) = false) /\
      opens h' = closes h'
  | (_, Blocked, _) => True
  end.
Proof.
  intros Hw Hf Hl Hr.
  pose proof (released_on_every_path i c (flags_of_call cl) (body_of_call cl) pol [] s Hw Hf Hl Hr) as H.
  unfold prog_of_call.
  destruct (run_pol i c (client_prog (flags_of_call cl) (body_of_call cl)) pol [] s) as [[h' [x|]] s'];
    [|exact I].
  destruct H as [H1 [H2 H3]]. change (closes []) with 0 in H3.
  change (opens []) with 0 in H3. repeat split; auto; lia.
Qed.

Lemma wf_writer_call chunks rerr : wf_call (writer_call chunks rerr).
Proof. apply io_only_copy_body. Qed.


(* descriptors are a balanced resource: a finished call has closed what it opened *)
Theorem fd_balanced i c (cl : call) pol s :
  wf_call cl -> fds s c = None -> locked c (ltab s i) = None -> refs s c = 0 ->
  match run_pol i c (prog_of_call cl) pol [] s with
  | (h', Finished _, s') => opens h' = closes h' /\ fds s' c = None
  | (_, Blocked, _) => True
  end.
Proof.
  intros Hw Hf Hl Hr.
  pose proof (api_released_on_every_path i c cl pol s Hw Hf Hl Hr) as H.
  destruct (run_pol i c (prog_of_call cl) pol [] s) as [[h' [x|]] s']; [|exact I].
  destruct H as [H1 [_ H3]]. auto.
Qed.

(* non-vacuity of the hypotheses: a fresh OS, Transform with a function that fails *)
Example released_hyps_ex :
  wf_call (CTransform (fun _ => None)) /\ wf_call CMutex /\ wf_call (writer_call [[x61]] true) /\
  fds (os_with (Some [x61])) 0 = None /\ locked 0 (ltab (os_with (Some [x61])) 0) = None /\
  refs (os_with (Some [x61])) 0 = 0.
Proof.
  repeat split; try reflexivity.
  - apply io_only_transform.
  - constructor.
  - apply wf_writer_call.
Qed.

Example writes_always_fail_ex :
  writes_always_fail
    (class_pol (fun k => match k with KWrite => {| cs_first := 1; cs_all := true |} | _ => cs_never end)).
Proof. intros h off d b fd. reflexivity. Qed.
