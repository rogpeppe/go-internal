(* C06 with inode attributes: the protocol theorems of LockProofs.v, read off the same invariant,
   for clients whose files may be non-regular (the Truncate of an O_TRUNC open fails and is
   ignored) or not accessible (the open fails). *)
From Coq Require Import List NArith Arith Bool Lia.
From Coq.Strings Require Import Byte.
From GI Require Import Gen.LockedFileConsts LockedFile.LockedFile LockedFile.LockBasics
  LockedFile.LockProofs.
From GI Require Import LockedFile.LockedFileA.
Import ListNotations.

Definition wf_cfg_a (cfg : nat -> client_a) : Prop := forall c, wf_call (ca_call (cfg c)).

Definition reachable_a (cfg : nat -> client_a) (f : nat -> option bytes) (s : state) : Prop :=
  exists sched, s = run_a cfg (init_state_a cfg f) sched.

Lemma inv06_of_reachable_a cfg f s : wf_cfg_a cfg -> reachable_a cfg f s -> inv06_a cfg s.
Proof. intros Hwf [sched ->]. apply inv06_run_a; [exact Hwf|apply inv06_init_a]. Qed.

Theorem held_until_close_a cfg f s c :
  wf_cfg_a cfg -> reachable_a cfg f s -> in_cs s c ->
  exists m, mode_of_a cfg c = Some m /\ holds_lock_a cfg s c m.
Proof.
  intros Hwf Hr Hcs. apply (inv06_holds cfg s (inv06_of_reachable_a _ _ _ Hwf Hr)). now left.
Qed.

Theorem exclusion_a cfg f s c d :
  wf_cfg_a cfg -> reachable_a cfg f s ->
  c <> d -> ca_ino (cfg c) = ca_ino (cfg d) -> in_cs s c -> in_cs s d ->
  mode_of_a cfg c = Some LSh /\ mode_of_a cfg d = Some LSh.
Proof. intros Hwf Hr. apply (inv06_exclusion cfg s (inv06_of_reachable_a _ _ _ Hwf Hr)). Qed.

Corollary writer_excludes_all_a cfg f s c d :
  wf_cfg_a cfg -> reachable_a cfg f s ->
  c <> d -> ca_ino (cfg c) = ca_ino (cfg d) ->
  mode_of_a cfg c = Some LEx -> in_cs s c -> ~ in_cs s d.
Proof.
  intros Hwf Hr Hcd Hino Hm Hc Hd.
  destruct (exclusion_a cfg f s c d Hwf Hr Hcd Hino Hc Hd) as [E _]. congruence.
Qed.

Theorem held_from_before_return_to_unlock_a cfg f s c :
  wf_cfg_a cfg -> reachable_a cfg f s ->
  (progs s c = after_open (body_of_call (ca_call (cfg c))) \/ in_cs s c \/
   exists x, progs s c = close_prog (Ret x)) ->
  exists m, mode_of_a cfg c = Some m /\ holds_lock_a cfg s c m.
Proof.
  intros Hwf Hr Hcase. apply (inv06_holds cfg s (inv06_of_reachable_a _ _ _ Hwf Hr)).
  destruct Hcase as [Hp|[Hcs|[x Hp]]]; [right; left| now left |right; left]; rewrite Hp; exact I.
Qed.

Theorem released_by_close_a cfg f s c r :
  wf_cfg_a cfg -> reachable_a cfg f s -> returned s c r ->
  forall i k, holds c k (ltab (st_os s) i) = false.
Proof.
  intros Hwf Hr Hret. apply (inv06_returned cfg s (inv06_of_reachable_a _ _ _ Hwf Hr) c r Hret).
Qed.

Theorem io_under_lock_a cfg f s c o :
  wf_cfg_a cfg -> reachable_a cfg f s ->
  first_op (progs s c) = Some o -> is_io o = true ->
  exists m, mode_of_a cfg c = Some m /\ holds_lock_a cfg s c m.
Proof.
  intros Hwf Hr Hop Hio. apply (inv06_holds cfg s (inv06_of_reachable_a _ _ _ Hwf Hr)).
  right. right. eauto.
Qed.

Theorem no_truncate_before_lock_a cfg f s c :
  wf_cfg_a cfg -> reachable_a cfg f s ->
  (forall fl', first_op (progs s c) = Some (OOpen fl') -> has_flag fl' sys_O_TRUNC = false) /\
  (forall n, first_op (progs s c) = Some (OFtruncate n) ->
             exists m, mode_of_a cfg c = Some m /\ holds_lock_a cfg s c m).
Proof.
  intros Hwf Hr. split.
  - intros fl'. apply (inv06_open_no_trunc cfg s (inv06_of_reachable_a _ _ _ Hwf Hr)).
  - intros n Hop. now apply (io_under_lock_a cfg f s c (OFtruncate n)).
Qed.

Definition lift (cfg : nat -> client) (c : nat) : client_a :=
  {| ca_ino := c_ino (cfg c); ca_call := c_call (cfg c); ca_attr := default_attr |}.

Lemma prog_of_call_a_default c : prog_of_call_a default_attr c = prog_of_call c.
Proof. reflexivity. Qed.

(* [lift cfg] gives every client of cfg the attributes of [regular_client] *)
Theorem reachable_lift cfg f s : reachable cfg f s <-> reachable_a (lift cfg) f s.
Proof.
  unfold reachable, reachable_a. split; intros [sched ->]; exists sched;
    [symmetry|]; apply (run_a_regular cfg).
Qed.

Definition nonregular : attr := {| a_regular := false; a_can_read := true; a_can_write := true |}.

(* Create on a FIFO / device node: the Truncate fails, the error is ignored, and the caller's
   critical section runs with the exclusive lock in the table; Close releases it *)
Theorem create_on_nonregular old :
  match run_seq_a nonregular 0 0 (prog_of_call_a nonregular (CCreate (Ret ResOk))) no_faults 0
                  (os_with (Some old)) with
  | (tr, out, s') =>
      tr = [(OOpen (strip create_flags openfile_strip_mask), ROk); (OFlock sys_LOCK_EX, ROk);
            (OFtruncate (N.to_nat truncate_size), RErr); (OMark MReturned, ROk);
            (OMark MCloseCalled, ROk); (OFlock sys_LOCK_UN, ROk); (OClose, ROk)] /\
      out = Finished ResOk /\ files s' 0 = Some old /\ ltab s' 0 = [] /\ fds s' 0 = None
  end.
Proof. cbv. repeat split. Qed.

(* in every schedule: a client whose file is not regular and whose flags carry O_TRUNC is, like
   everybody, covered by exclusion_a / held_until_close_a; in particular when its Truncate has
   failed and the call is about to return, the lock is in the table *)
Theorem nonregular_returned_locked cfg f s c :
  wf_cfg_a cfg -> reachable_a cfg f s ->
  a_regular (ca_attr (cfg c)) = false ->
  progs s c = after_open (body_of_call (ca_call (cfg c))) ->
  exists m, mode_of_a cfg c = Some m /\ holds_lock_a cfg s c m.
Proof.
  intros Hwf Hr _ Hp. apply (held_from_before_return_to_unlock_a cfg f s c Hwf Hr). now left.
Qed.

(* an unprivileged caller and a lock file it may read but not write *)
Definition readonly : attr := {| a_regular := true; a_can_read := true; a_can_write := false |}.

Theorem mutex_on_readonly_lock_file b0 :
  match run_seq_a readonly 0 0 (prog_of_call_a readonly CMutex) no_faults 0 (os_with (Some b0)) with
  | (tr, out, s') =>
      tr = [(OOpen (strip mutex_flags openfile_strip_mask), RErr)] /\ out = Finished ResErr /\
      ltab s' 0 = [] /\ fds s' 0 = None
  end.
Proof. cbv. repeat split. Qed.

(* in every schedule: if the open is refused, the client never holds a lock and never enters a
   critical section; it can only return the error *)
Theorem denied_client_never_locks cfg f sched c :
  let s := run_a cfg (init_state_a cfg f) sched in
  f (ca_ino (cfg c)) <> None ->
  open_denied (ca_attr (cfg c)) (strip (flags_of_call (ca_call (cfg c))) openfile_strip_mask) = true ->
  (progs s c = prog_of_call_a (ca_attr (cfg c)) (ca_call (cfg c)) \/ progs s c = Ret ResErr) /\
  fds (st_os s) c = None /\ status s c = SIdle /\ files (st_os s) (ca_ino (cfg c)) <> None.
Proof.
  intros s Hex Hden. subst s.
  set (P := fun s : state =>
    (progs s c = prog_of_call_a (ca_attr (cfg c)) (ca_call (cfg c)) \/ progs s c = Ret ResErr) /\
    fds (st_os s) c = None /\ status s c = SIdle /\ files (st_os s) (ca_ino (cfg c)) <> None).
  assert (Hstep : forall s e, P s -> P (exec_a cfg s e)).
  { intros s e [Hp [Hf [Hst Hfi]]].
    assert (Hrc : forall d eintr, P (run_client_a cfg d eintr s)).
    { intros d eintr. destruct (Nat.eq_dec d c) as [->|Hd].
      - unfold run_client_a. destruct Hp as [Hp|Hp]; rewrite Hp.
        + unfold prog_of_call_a, client_prog_a, open_file_prog_a, os_step_a.
          destruct (files (st_os s) (ca_ino (cfg c))) eqn:Ef; [|now elim Hfi].
          rewrite Hden. unfold P. simpl. rewrite !upd_same, Hf, Hst, Ef.
          repeat split; auto.
        + unfold P. simpl. rewrite Hp, Hf, Hst. auto.
      - destruct (run_client_a_frame cfg d eintr s c (not_eq_sym Hd)) as (E1 & E2 & E3 & _).
        unfold P. rewrite E1, E2, E3. repeat split; auto. now apply run_client_a_keeps_file. }
    destruct e as [d|d|d|d]; simpl; try apply Hrc.
    - unfold P. simpl. unfold os_dup. destruct (fds (st_os s) d); simpl; auto.
    - unfold P. simpl. unfold os_dupclose. destruct (refs (st_os s) d); simpl; auto. }
  apply (fold_left_invariant _ P Hstep). unfold P. simpl. auto.
Qed.
