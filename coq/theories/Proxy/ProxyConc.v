(* C20 — the two par.Caches: a handler run alone on a fresh server, on a server that has
   answered other requests, or interleaved with other handlers gives the same response.

   What is assumed of par.Cache is its specification [cache_do] (Proxy.v): Do(key, f) is atomic and
   returns the value computed by the first call for that key.  That par.Cache.Do implements this
   specification under every interleaving is property C10 (group Par); here it is the semantics
   of the operations [ArchDo] / [ZipDo]. *)
From Coq Require Import List Bool Arith NArith Lia.
From Coq.Strings Require Import Byte.
From GI Require Import Gen.ProxyConsts Proxy.Proxy Proxy.ProxyStrings Proxy.ProxyFacts.
Import ListNotations.

Section Conc.
Variable d : dir.

(* a set of zip-cache operations in which the key determines the value *)
Definition functional (Z : list (bytes * zipres)) : Prop :=
  forall n v1 v2, In (n, v1) Z -> In (n, v2) Z -> v1 = v2.

(* cache states reachable while only operations of Z (and archive reads) are performed *)
Definition inv (Z : list (bytes * zipres)) (st : caches) : Prop :=
  (forall n r, cache_get (arch_cache st) n = Some r -> r = lookup_archive d n) /\
  (forall n v, cache_get (zip_cache st) n = Some v -> In (n, v) Z).

Lemma inv_no_caches : forall Z, inv Z no_caches.
Proof. intro Z. split; intros n r H; cbn in H; discriminate. Qed.

(* what holds of every cached pair and of the caller's own value holds of the value Do returns
   and of every pair cached afterwards *)
Lemma cache_do_inv : forall V (P : bytes -> V -> Prop) (c : list (bytes * V)) k v,
  (forall k' v', cache_get c k' = Some v' -> P k' v') -> P k v ->
  P k (fst (cache_do c k v)) /\
  forall k' v', cache_get (snd (cache_do c k v)) k' = Some v' -> P k' v'.
Proof.
  intros V P c k v Hc Hv. unfold cache_do. destruct (cache_get c k) as [v0|] eqn:E; cbn [fst snd].
  - split; [apply Hc, E|exact Hc].
  - split; [exact Hv|]. intros k' v' H. cbn [cache_get] in H. destruct (bytes_eqb k k') eqn:Ek.
    + apply BytesFacts.bytes_eqb_eq in Ek. injection H as <-. subst k'. exact Hv.
    + apply Hc, H.
Qed.

Lemma step_inv : forall A Z (p : prog A) st,
  functional Z -> inv Z st -> incl (zip_ops d p) Z ->
  inv Z (snd (step d p st)) /\
  incl (zip_ops d (fst (step d p st))) Z /\
  run_own d (fst (step d p st)) = run_own d p.
Proof.
  intros A Z p st Hf [Ha Hz] Hin. destruct p as [a|n k|n v k]; cbn [step].
  - repeat split; assumption.
  - destruct (cache_do_inv _ (fun n r => r = lookup_archive d n) _ n _ Ha eq_refl) as [Hr Hc].
    destruct (cache_do (arch_cache st) n (lookup_archive d n)) as [r c]. cbn [fst snd] in *. subst r.
    repeat split; assumption.
  - assert (In (n, v) Z) as Hnv by (apply Hin; left; reflexivity).
    destruct (cache_do_inv _ (fun n v => In (n, v) Z) _ n v Hz Hnv) as [Hr Hc].
    destruct (cache_do (zip_cache st) n v) as [r c]. cbn [fst snd] in *.
    rewrite (Hf _ _ _ Hr Hnv). repeat split; try assumption.
    intros x Hx. apply Hin. right. exact Hx.
Qed.

Lemma run_inv : forall A Z (p : prog A) st,
  functional Z -> inv Z st -> incl (zip_ops d p) Z ->
  fst (run d p st) = run_own d p /\ inv Z (snd (run d p st)).
Proof.
  intros A Z p. induction p as [a|n k IH|n v k IH]; intros st Hf Hi Hin.
  1: now split.
  (* either cache operation: the step, then the program it leaves *)
  all: destruct (step_inv A Z _ st Hf Hi Hin) as (Hi' & Hin' & Hr'); cbn [step run] in *.
  all: destruct (cache_do _ _ _) as [r c]; cbn [fst snd] in *.
  all: destruct (IH r _ Hf Hi' Hin') as [H1 H2]; rewrite H1; now split.
Qed.

(* p is what is left of p0 in an interleaved run *)
Definition tracks {A} (Z : list (bytes * zipres)) (p0 p : prog A) : Prop :=
  incl (zip_ops d p) Z /\ run_own d p = run_own d p0.

Lemma step_nth_inv : forall A Z i (pool0 pool : list (prog A)) st,
  functional Z -> inv Z st -> Forall2 (tracks Z) pool0 pool ->
  inv Z (snd (step_nth d i pool st)) /\ Forall2 (tracks Z) pool0 (fst (step_nth d i pool st)).
Proof.
  intros A Z i. induction i as [|i IH]; intros pool0 pool st Hf Hi Hall.
  - destruct Hall as [|p0 p r0 r [Hin Hrun] Hrest]; [cbn; split; [exact Hi|constructor]|].
    cbn [step_nth]. pose proof (step_inv A Z p st Hf Hi Hin) as [Hi' [Hin' Hr']].
    destruct (step d p st) as [p' st']. cbn [fst snd] in *. split; [exact Hi'|].
    constructor; [|exact Hrest]. split; [exact Hin'|]. rewrite Hr'. exact Hrun.
  - destruct Hall as [|p0 p r0 r Hp Hrest]; [cbn; split; [exact Hi|constructor]|].
    cbn [step_nth]. destruct (IH r0 r st Hf Hi Hrest) as [Hi' Hall'].
    destruct (step_nth d i r st) as [r' st']. cbn [fst snd] in *. split; [exact Hi'|].
    constructor; assumption.
Qed.

Lemma run_sched_inv : forall A Z sched (pool0 pool : list (prog A)) st,
  functional Z -> inv Z st -> Forall2 (tracks Z) pool0 pool ->
  inv Z (snd (run_sched d sched pool st)) /\ Forall2 (tracks Z) pool0 (fst (run_sched d sched pool st)).
Proof.
  intros A Z sched. induction sched as [|i s IH]; intros pool0 pool st Hf Hi Hall.
  - cbn. split; assumption.
  - cbn [run_sched]. destruct (step_nth_inv A Z i pool0 pool st Hf Hi Hall) as [Hi' Hall'].
    destruct (step_nth d i pool st) as [pool' st']. cbn [fst snd] in *.
    apply IH; assumption.
Qed.

Lemma tracks_refl : forall A Z (pool : list (prog A)),
  (forall p, In p pool -> incl (zip_ops d p) Z) -> Forall2 (tracks Z) pool pool.
Proof.
  intros A Z pool. induction pool as [|p r IH]; intro H; constructor.
  - split; [apply H; left; reflexivity|reflexivity].
  - apply IH. intros q Hq. apply H. right. exact Hq.
Qed.

(* every interleaving: a thread that has finished holds the response it computes alone *)
Theorem interleaving_same : forall A (pool0 : list (prog A)) sched,
  functional (flat_map (zip_ops d) pool0) ->
  forall i p0 r,
    nth_error pool0 i = Some p0 ->
    nth_error (fst (run_sched d sched pool0 no_caches)) i = Some (Ret r) ->
    r = run_own d p0.
Proof.
  intros A pool0 sched Hf i p0 r Hp0 Hp.
  set (Z := flat_map (zip_ops d) pool0) in *.
  assert (Forall2 (tracks Z) pool0 pool0) as Hrefl.
  { apply tracks_refl. intros p Hin x Hx. unfold Z. apply in_flat_map. exists p. split; assumption. }
  destruct (run_sched_inv A Z sched pool0 pool0 no_caches Hf (inv_no_caches Z) Hrefl) as [_ Hall].
  destruct (BytesFacts.Forall2_nth_error _ _ _ _ _ _ Hall Hp0 Hp) as [_ Hrun]. exact Hrun.
Qed.

Lemma step_nth_length : forall A i (pool : list (prog A)) st, length (fst (step_nth d i pool st)) = length pool.
Proof.
  intros A i. induction i as [|i IH]; intros [|p r] st; cbn [step_nth]; try reflexivity.
  - destruct (step d p st). reflexivity.
  - specialize (IH r st). destruct (step_nth d i r st). cbn [fst] in *. cbn. rewrite IH. reflexivity.
Qed.

Lemma run_sched_length : forall A sched (pool : list (prog A)) st,
  length (fst (run_sched d sched pool st)) = length pool.
Proof.
  intros A sched. induction sched as [|i s IH]; intros pool st; [reflexivity|].
  cbn [run_sched]. pose proof (step_nth_length A i pool st) as H.
  destruct (step_nth d i pool st) as [pool' st']. cbn [fst] in H. rewrite IH. exact H.
Qed.

(* progress: no operation blocks, so some schedule finishes every thread *)
Definition is_ret {A} (p : prog A) : bool := match p with Ret _ => true | _ => false end.

Lemma step_ret : forall A (p : prog A) st, is_ret p = true -> step d p st = (p, st).
Proof. intros A [a|n k|n v k] st H; try discriminate. reflexivity. Qed.

Lemma run_sched_app : forall A s1 s2 (pool : list (prog A)) st,
  run_sched d (s1 ++ s2) pool st =
  run_sched d s2 (fst (run_sched d s1 pool st)) (snd (run_sched d s1 pool st)).
Proof.
  intros A s1. induction s1 as [|i s IH]; intros s2 pool st; [reflexivity|].
  cbn [app run_sched]. destruct (step_nth d i pool st) as [pool' st']. apply IH.
Qed.

Lemma finish_head : forall A (p : prog A) r st,
  exists n q, fst (run_sched d (repeat 0 n) (p :: r) st) = q :: r /\ is_ret q = true.
Proof.
  intros A p. induction p as [a|n k IH|n v k IH]; intros r st.
  - exists 0, (Ret a). cbn. split; reflexivity.
  - destruct (cache_do (arch_cache st) n (lookup_archive d n)) as [x c] eqn:Ec.
    destruct (IH x r {| arch_cache := c; zip_cache := zip_cache st |}) as [m [q Hm]].
    exists (S m), q. cbn [repeat run_sched step_nth step]. rewrite Ec. exact Hm.
  - destruct (cache_do (zip_cache st) n v) as [x c] eqn:Ec.
    destruct (IH x r {| arch_cache := arch_cache st; zip_cache := c |}) as [m [q Hm]].
    exists (S m), q. cbn [repeat run_sched step_nth step]. rewrite Ec. exact Hm.
Qed.

Lemma run_sched_shift : forall A s (p : prog A) r st,
  run_sched d (map S s) (p :: r) st =
  (p :: fst (run_sched d s r st), snd (run_sched d s r st)).
Proof.
  intros A s. induction s as [|i s IH]; intros p r st; [reflexivity|].
  cbn [map run_sched step_nth]. destruct (step_nth d i r st) as [r' st']. apply IH.
Qed.

Theorem some_schedule_finishes : forall A (pool : list (prog A)) st,
  exists sched, forallb is_ret (fst (run_sched d sched pool st)) = true.
Proof.
  intros A pool. induction pool as [|p r IH]; intro st.
  - exists []. reflexivity.
  - destruct (IH st) as [s Hs].
    destruct (finish_head A p (fst (run_sched d s r st)) (snd (run_sched d s r st))) as [n [q [H1 H2]]].
    exists (map S s ++ repeat 0 n). rewrite run_sched_app, run_sched_shift. cbn [fst snd].
    rewrite H1. cbn [forallb]. rewrite H2. exact Hs.
Qed.

End Conc.

Section Server.
Variable O : oracles.

Lemma functional_le1 : forall Z : list (bytes * zipres), length Z <= 1 -> functional Z.
Proof.
  intros [|[n v] [|x Z]] H; intros n' v1 v2 H1 H2; cbn in *; try lia; try contradiction.
  destruct H1 as [H1|[]]. destruct H2 as [H2|[]]. congruence.
Qed.

Theorem respond_eq : forall d ml url, respond O d ml url = respond_pure O d ml url.
Proof.
  intros d ml url. unfold respond.
  destruct (run_inv d _ (zip_ops d (handler O d ml url)) (handler O d ml url) no_caches) as [H _].
  - apply functional_le1. rewrite zip_ops_handler. apply zip_req_le1.
  - apply inv_no_caches.
  - apply incl_refl.
  - rewrite H. apply run_own_handler.
Qed.

(* the requests of a set do not alias: requests that reach the zip cache under the same archive
   name put the same value there *)
Definition compatible (d : dir) (ml : list (bytes * bytes)) (urls : list bytes) : Prop :=
  functional (flat_map (zip_req O d ml) urls).

Lemma flat_map_handlers : forall d ml urls,
  flat_map (zip_ops d) (map (handler O d ml) urls) = flat_map (zip_req O d ml) urls.
Proof.
  intros d ml urls. induction urls as [|u r IH]; [reflexivity|].
  cbn [map flat_map]. rewrite zip_ops_handler, IH. reflexivity.
Qed.

(* concurrent_same: under every interleaving of the handlers of any requests (cache operations
   atomic, once per key), every finished request holds the response a fresh server gives it *)
Theorem concurrent_same : forall d ml urls sched,
  compatible d ml urls ->
  forall i url r,
    nth_error urls i = Some url ->
    nth_error (fst (run_sched d sched (map (handler O d ml) urls) no_caches)) i = Some (Ret r) ->
    r = respond O d ml url.
Proof.
  intros d ml urls sched Hc i url r Hu Hr.
  rewrite respond_eq, <- run_own_handler.
  apply (interleaving_same d _ (map (handler O d ml) urls) sched) with (i := i).
  - rewrite flat_map_handlers. exact Hc.
  - rewrite nth_error_map, Hu. reflexivity.
  - exact Hr.
Qed.

(* and a server that answers the requests one after the other (a particular schedule) *)
Fixpoint serve_seq (d : dir) (ml : list (bytes * bytes)) (urls : list bytes) (st : caches) : list response :=
  match urls with
  | [] => []
  | u :: r => let (x, st') := run d (handler O d ml u) st in x :: serve_seq d ml r st'
  end.

Theorem sequential_same : forall d ml urls,
  compatible d ml urls ->
  serve_seq d ml urls no_caches = map (respond O d ml) urls.
Proof.
  intros d ml urls Hc. unfold compatible in Hc.
  set (Z := flat_map (zip_req O d ml) urls) in *.
  assert (forall us st, incl (flat_map (zip_req O d ml) us) Z -> inv d Z st ->
          serve_seq d ml us st = map (respond O d ml) us) as Hgen.
  { induction us as [|u r IH]; intros st Hin Hi; [reflexivity|].
    cbn [serve_seq map].
    destruct (run_inv d _ Z (handler O d ml u) st Hc Hi) as [H1 H2].
    { rewrite zip_ops_handler. intros x Hx. apply Hin. cbn [flat_map]. apply in_or_app. left. exact Hx. }
    destruct (run d (handler O d ml u) st) as [x st']. cbn [fst snd] in *.
    rewrite H1, run_own_handler, <- respond_eq. f_equal.
    apply IH; [|exact H2]. intros y Hy. apply Hin. cbn [flat_map]. apply in_or_app. right. exact Hy. }
  apply Hgen; [apply incl_refl|apply inv_no_caches].
Qed.

(* when requests do not alias: no "_" in the requested path and in the version the archive is
   looked up under *)

Lemma split_last_unique : forall (c : byte) a b a' b',
  ~ In c b -> ~ In c b' -> a ++ [c] ++ b = a' ++ [c] ++ b' -> a = a' /\ b = b'.
Proof.
  intros c a b a' b' Hb Hb' Heq.
  pose proof (last_index_app c [] a b Hb) as H1. rewrite Heq, (last_index_app c [] a' b' Hb') in H1.
  injection H1 as Hlen.
  pose proof (BytesFacts.firstn_length_app a ([c] ++ b)) as Ha.
  rewrite Heq, <- Hlen, BytesFacts.firstn_length_app in Ha. subst a'.
  apply app_inv_head in Heq. now injection Heq.
Qed.

Lemma archive_name_injective : forall p v p' v' n,
  ~ In disk_sep p -> ~ In disk_sep v -> ~ In disk_sep p' -> ~ In disk_sep v' ->
  archive_name O p v = Some n -> archive_name O p' v' = Some n -> p = p' /\ v = v'.
Proof.
  intros p v p' v' n Hp Hv Hp' Hv' H1 H2. unfold archive_name in H1, H2.
  destruct (escape_path O p) as [ep|] eqn:Ep; [|discriminate].
  destruct (escape_version O v) as [ev|] eqn:Ev; [|discriminate].
  destruct (escape_path O p') as [ep'|] eqn:Ep'; [|discriminate].
  destruct (escape_version O v') as [ev'|] eqn:Ev'; [|discriminate].
  injection H1 as <-. injection H2 as Hn.
  apply escape_path_inv in Ep, Ep'. apply escape_version_inv in Ev, Ev'.
  pose proof escape_keeps_disk_sep as Hno.
  destruct (split_last_unique disk_sep _ _ _ _ (Hno _ _ Ev' Hv') (Hno _ _ Ev Hv) Hn) as [Ha <-].
  apply (f_equal (replace_byte disk_sep path_sep)) in Ha.
  rewrite !replace_byte_inv in Ha by (eapply Hno; eassumption). subst ep'.
  split; eapply escape_injective; eassumption.
Qed.

Definition no_alias (d : dir) (ml : list (bytes * bytes)) (url : bytes) : Prop :=
  match route O url with
  | RFile p v e => ~ In disk_sep p /\ ~ In disk_sep (target_version O d ml p v)
  | _ => True
  end.

Lemma no_alias_mem : forall d ml url,
  match route O url with
  | RFile p v e => mem_byte disk_sep p || mem_byte disk_sep (target_version O d ml p v)
  | _ => false
  end = false -> no_alias d ml url.
Proof.
  intros d ml url H. unfold no_alias. destruct (route O url); try exact I.
  apply orb_false_iff in H. split; apply BytesFacts.mem_byte_false, H.
Qed.

Theorem no_alias_compatible : forall d ml urls,
  (forall u, In u urls -> no_alias d ml u) -> compatible d ml urls.
Proof.
  intros d ml urls Hall n v1 v2 H1 H2.
  apply in_flat_map in H1. destruct H1 as (u1 & Hu1 & H1). apply Hall in Hu1.
  apply in_flat_map in H2. destruct H2 as (u2 & Hu2 & H2). apply Hall in Hu2.
  unfold no_alias in Hu1, Hu2.
  apply zip_req_in in H1, H2. destruct H1 as (p1 & w1 & e1 & a1 & R1 & N1 & L1 & ->).
  destruct H2 as (p2 & w2 & e2 & a2 & R2 & N2 & L2 & ->). rewrite R1 in Hu1. rewrite R2 in Hu2.
  destruct Hu1 as [A1 B1], Hu2 as [A2 B2].
  destruct (archive_name_injective _ _ _ _ _ A1 B1 A2 B2 N1 N2) as [<- <-].
  rewrite L1 in L2. now injection L2 as <-.
Qed.

End Server.
