(* C20 — examples: concrete values satisfying the hypotheses of the theorems (non-vacuity),
   evaluations of the model, and the aliasing example that shows why [compatible] is needed. *)
From Coq Require Import List Bool Arith NArith Lia String.
From Coq.Strings Require Import Byte.
From GI Require Import Gen.ProxyConsts Proxy.Proxy Proxy.ProxyStrings Proxy.ProxyFacts Proxy.ProxyConc.
Import ListNotations.
Local Open Scope string_scope.

Definition b (s : string) : bytes := list_byte_of_string s.

(* a small oracle: paths are accepted when non-empty ASCII without '!' and '@', versions when
   non-empty ASCII; versions are valid when they start with "v"; pseudo = two dashes; order =
   byte-wise lexicographic; Short = the whole .info file *)
Fixpoint lex_lt (x y : bytes) : bool :=
  match x, y with
  | _, [] => false
  | [], _ :: _ => true
  | c :: x', e :: y' =>
      if N.ltb (Byte.to_N c) (Byte.to_N e) then true
      else if N.ltb (Byte.to_N e) (Byte.to_N c) then false else lex_lt x' y'
  end.

Definition O0 : oracles := {|
  check_path := fun p => escapable p && negb (mem_byte x40 p) && negb (match p with [] => true | _ => false end);
  check_elem := fun v => forallb is_ascii v && negb (match v with [] => true | _ => false end);
  module_check := fun _ v => has_prefix (b "v") v;
  semver_valid := fun v => has_prefix (b "v") v;
  pseudo_re := fun v => Nat.leb 2 (count_byte x2d v);
  semver_lt := fun x y => has_prefix (b "v") y && lex_lt x y;
  info_short := fun data => data
|}.

Definition arch1 : archive :=
  [(b ".info", b "abc123"); (b ".mod", b "module example.com/Foo
"); (b "x.go", b "package x
");
   (b ".hidden", b "h"); (b "sub/y.go", b "y")].

Definition d0 : dir :=
  [ (b "README", EFile []);
    (b "example.com_!foo_v0.0.0-2018-abcdef.txtar", EFile [(b ".mod", b "m0")]);
    (b "example.com_!foo_v1.0.0.txt", EFile arch1);
    (b "example.com_!foo_v1.1.0",
       EDir [(b ".info", NFile (b "fff")); (b ".mod", NFile (b "m11")); (b "a", NDir [(b "b.txt", NFile (b "B")); (b "c", NDir [])]); (b "z", NFile [])]) ].

Definition ml0 : list (bytes * bytes) :=
  [(b "example.com/Foo", b "v0.0.0-2018-abcdef"); (b "example.com/Foo", b "v1.0.0"); (b "example.com/Foo", b "v1.1.0")].

Example read_mod_list_d0 : read_mod_list O0 d0 = Some ml0.
Proof. vm_compute. reflexivity. Qed.

(* hypotheses of serves_stored / list_exact are satisfiable *)
Example hyps_d0 :
  path_ok O0 (b "example.com/Foo") /\ vers_ok O0 (b "v1.0.0") /\ allhex (b "v1.0.0") = false /\
  escape_string (b "example.com/Foo") = Some (b "example.com/!foo") /\
  escape_string (b "v1.0.0") = Some (b "v1.0.0") /\
  stored O0 d0 (b "example.com/Foo") (b "v1.0.0") = Some arch1 /\
  (forall f, In f (visible arch1) -> zip_entry_bad (zip_name (b "example.com/Foo") (b "v1.0.0") (fst f)) (snd f) = false).
Proof.
  repeat split; try (vm_compute; reflexivity).
  - apply BytesFacts.mem_byte_false. reflexivity.
  - intros f Hf. vm_compute in Hf. destruct Hf as [H|[H|[]]]; subst f; vm_compute; reflexivity.
Qed.

Example respond_d0 :
  respond O0 d0 ml0 (b "/mod/example.com/!foo/@v/v1.0.0.info") = OkBytes (b "abc123") /\
  respond O0 d0 ml0 (b "/mod/example.com/!foo/@v/v1.0.0.zip") =
    OkZip [(b "example.com/Foo@v1.0.0/x.go", b "package x
"); (b "example.com/Foo@v1.0.0/sub/y.go", b "y")] /\
  respond O0 d0 ml0 (b "/mod/example.com/!foo/@v/v1.1.0.zip") =
    OkZip [(b "example.com/Foo@v1.1.0/a/b.txt", b "B"); (b "example.com/Foo@v1.1.0/z", [])] /\
  respond O0 d0 ml0 (b "/mod/example.com/!foo/@v/v0.0.0-2018-abcdef.info") = NotFound /\
  respond O0 d0 ml0 (b "/mod/example.com/!foo/@v/list") = OkBytes (b "v1.0.0
v1.1.0
") /\
  (* commit hashes: "abc" is a prefix of the Short of v1.0.0; "abcdef" ends the pseudo-version *)
  respond O0 d0 ml0 (b "/mod/example.com/!foo/@v/abc.mod") = OkBytes (b "module example.com/Foo
") /\
  respond O0 d0 ml0 (b "/mod/example.com/!foo/@v/abcdef.mod") = OkBytes (b "m0") /\
  respond O0 d0 ml0 (b "/mod/example.com/Foo/@v/v1.0.0.info") = NotFound /\
  respond O0 d0 ml0 (b "/mod/example.com/!foo/@v/v1.0.0.ziphash") = NotFound /\
  respond O0 d0 ml0 (b "/mod/example.com/!foo/@v/v1.2.0.mod") = NotFound /\
  respond O0 d0 ml0 (b "/mod/example.com/!foo/sub/@v/list") = NotFound /\
  respond O0 d0 ml0 (b "/example.com/!foo/@v/list") = NotFound.
Proof. vm_compute. repeat split. Qed.

Example route_d0 :
  route O0 (b "/mod/example.com/!foo/@v/v1.0.0.info") = RFile (b "example.com/Foo") (b "v1.0.0") (b "info") /\
  route O0 (b "/mod/example.com/!foo/@v/list") = RList (b "example.com/Foo") /\
  route O0 (b "/mod/a.b/@v/x/@v/v1.mod") = RFile (b "a.b") (b "x/@v/v1") (b "mod") /\
  route O0 (b "/mod/a.b/@v/v1") = RNotFound /\ route O0 (b "/mod/a.b/@v") = RNotFound /\
  route O0 (b "/mod/a.!/@v/list") = RNotFound.
Proof. vm_compute. repeat split. Qed.

(* a stored version whose .info has no Short field (here: no .info at all) answers for NO commit
   hash.  (The defect repaired in /repo by commit 5a67be7: the handler matched such a version with
   every hash, because strings.HasPrefix(vers, "") holds, and served v1.1.0 for all three requests
   below.) *)
Definition d2 : dir :=
  [ (b "a.b_v1.0.0.txt", EFile [(b ".info", b "abc123"); (b ".mod", b "m10")]);
    (b "a.b_v1.1.0.txt", EFile [(b ".mod", b "m11")]) ].

Example empty_short_matches_no_hash :
  read_mod_list O0 d2 = Some [(b "a.b", b "v1.0.0"); (b "a.b", b "v1.1.0")] /\
  respond O0 d2 [(b "a.b", b "v1.0.0"); (b "a.b", b "v1.1.0")] (b "/mod/a.b/@v/abc.mod") = OkBytes (b "m10") /\
  respond O0 d2 [(b "a.b", b "v1.0.0"); (b "a.b", b "v1.1.0")] (b "/mod/a.b/@v/0123456789.mod") = NotFound /\
  respond O0 d2 [(b "a.b", b "v1.0.0"); (b "a.b", b "v1.1.0")] (b "/mod/a.b/@v/f.mod") = NotFound.
Proof. vm_compute. repeat split. Qed.

(* concurrency: three handlers (two of them for the same zip), one explicit interleaving *)
Definition urls0 : list bytes :=
  [b "/mod/example.com/!foo/@v/v1.0.0.zip"; b "/mod/example.com/!foo/@v/abc.zip"; b "/mod/example.com/!foo/@v/v1.1.0.zip"].

Example urls0_compatible : compatible O0 d0 ml0 urls0.
Proof.
  apply no_alias_compatible. intros u Hu. apply no_alias_mem.
  destruct Hu as [H|[H|[H|[]]]]; subst u; vm_compute; reflexivity.
Qed.

Example interleaving_d0 :
  let sched := [1; 0; 2; 1; 0; 2; 1; 1; 0; 2; 1; 1; 0] in
  fst (run_sched d0 sched (map (handler O0 d0 ml0) urls0) no_caches) =
  map (fun u => Ret (respond O0 d0 ml0 u)) urls0.
Proof. vm_compute. reflexivity. Qed.

(* aliasing: the archive example.com_a_b_v1.0.0.txt answers for the paths example.com/a_b and
   example.com/a/b; the zip cache keeps the prefix of whichever asked first, so the second
   response depends on the history.  [compatible] excludes exactly this. *)
Definition d1 : dir := [(b "example.com_a_b_v1.0.0.txt", EFile [(b "x.go", b "package x")])].
Definition ml1 : list (bytes * bytes) := [(b "example.com/a/b", b "v1.0.0")].
Definition alias_urls : list bytes := [b "/mod/example.com/a_b/@v/v1.0.0.zip"; b "/mod/example.com/a/b/@v/v1.0.0.zip"].

Example read_mod_list_d1 : read_mod_list O0 d1 = Some ml1.
Proof. vm_compute. reflexivity. Qed.

Example alias_history_dependent :
  serve_seq O0 d1 ml1 alias_urls no_caches <> map (respond O0 d1 ml1) alias_urls /\
  ~ compatible O0 d1 ml1 alias_urls.
Proof.
  assert (serve_seq O0 d1 ml1 alias_urls no_caches <> map (respond O0 d1 ml1) alias_urls) as H
    by (vm_compute; discriminate).
  split; [exact H|]. intro Hc. exact (H (sequential_same O0 d1 ml1 alias_urls Hc)).
Qed.

(* The event-level run on the modelled par.Cache (ProxyRefine.v).  (The keys of ProxyRefineInst.v are base-256 codes of the archive
   names, far too large to evaluate in unary; for this evaluation the three archive names of d0
   are numbered 0, 1, 2.)  A round-robin scheduler that skips threads that cannot step (blocked
   in Lock, or returned) produces a schedule; under it every handler returns the fresh-server
   response, and the Do calls for the zip of v1.0.0 (two requests) ran f once. *)
From GI Require Import Proxy.ProxyRefine Proxy.ProxyRefineInst.
From GI Require Import Par.ParCache.

Section EventExample.
Let names0 : list bytes :=
  [b "example.com_!foo_v0.0.0-2018-abcdef"; b "example.com_!foo_v1.0.0"; b "example.com_!foo_v1.1.0"].
Fixpoint idx_of (l : list bytes) (n : bytes) : nat :=
  match l with
  | [] => 0
  | m :: r => if bytes_eqb m n then 0 else S (idx_of r n)
  end.
Let ka0 (n : bytes) : nat := 2 * idx_of names0 n.
Let kz0 (n : bytes) : nat := 2 * idx_of names0 n + 1.
Let name0 (k : nat) : bytes := nth (Nat.div k 2) names0 [].
Let Zf0 := zip_of (flat_map (zip_ops d0) (map (handler O0 d0 ml0) urls0)).
Let astep0 := astep response d0 ka0 kz0 name0 Zf0.

Fixpoint rr_sched (fuel : nat) (next : nat) (st : astate response) : list nat :=
  match fuel with
  | 0 => []
  | S f =>
      let try := fun t => match astep0 st t with Some st' => Some (t, st') | None => None end in
      let order := [Nat.modulo next 3; Nat.modulo (next + 1) 3; Nat.modulo (next + 2) 3] in
      match fold_left (fun acc t => match acc with Some r => Some r | None => try t end) order None with
      | Some (t, st') => t :: rr_sched f (t + 1) st'
      | None => []
      end
  end.

Definition sched0 : list nat := rr_sched 400 0 (ainit response (map (handler O0 d0 ml0) urls0)).

Example event_level_d0 :
  match arun response d0 ka0 kz0 name0 Zf0 sched0 (ainit response (map (handler O0 d0 ml0) urls0)) with
  | Some st =>
      hs response st = map (fun u => Some (Ret (respond O0 d0 ml0 u))) urls0 /\
      Nat.leb 60 (List.length sched0) = true /\
      fbegins (ents (acs response st) (kz0 (b "example.com_!foo_v1.0.0"))) = 1 /\
      fbegins (ents (acs response st) (ka0 (b "example.com_!foo_v1.0.0"))) = 1
  | None => False
  end.
Proof. vm_compute. repeat split. Qed.
End EventExample.
