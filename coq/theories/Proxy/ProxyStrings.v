(* C20 — facts about the string vocabulary and the case escaping of Proxy.v *)
From Coq Require Import List Bool Arith NArith Lia.
From Coq.Strings Require Import Byte.
From GI Require Import Gen.ProxyConsts Proxy.Proxy.
From GI Require Lib.BytesFacts.
Import ListNotations.

(* beq, bytes_eqb, has_prefix and mem_byte of Proxy.v are the definitions of Lib/Bytes.v written
   out again, hence convertible to them, and the lemmas of Lib/BytesFacts.v are used for them
   under their names there (BytesFacts.beq_refl, beq_eq, beq_false, bytes_eqb_eq, has_prefix_app,
   mem_byte_false ...).  In a rewrite leave the arguments of such a lemma to unification: once
   they are all given, the instance is looked for syntactically, with Lib's constant, and not found. *)

Lemma beq_false : forall a b, beq a b = false -> a <> b.
Proof. exact BytesFacts.beq_neq. Qed.

Lemma beq_sym : forall a b, beq a b = beq b a.
Proof. exact BytesFacts.beq_sym. Qed.

Lemma bytes_eqb_false : forall a b, bytes_eqb a b = false -> a <> b.
Proof. intros a b H Heq. subst. rewrite BytesFacts.bytes_eqb_refl in H. discriminate. Qed.

Lemma has_prefix_true : forall p d, has_prefix p d = true -> d = p ++ skipn (length p) d.
Proof.
  intros p d H. destruct (proj1 (BytesFacts.has_prefix_iff p d) H) as [x ->].
  now rewrite BytesFacts.skipn_length_app.
Qed.

Lemma has_prefix_nil_r : forall p, has_prefix p [] = true -> p = [].
Proof. intros [|x p] H; [reflexivity|discriminate]. Qed.

Lemma has_prefix_cons_neq : forall x p y d, x <> y -> has_prefix (x :: p) (y :: d) = false.
Proof. intros x p y d Hne. cbn. rewrite BytesFacts.beq_false by exact Hne. reflexivity. Qed.

(* Proxy.v reverses with rev_append; with rev, has_suffix is Lib/Bytes.v's *)
Lemma has_suffix_rev : forall s d, has_suffix s d = has_prefix (rev s) (rev d).
Proof. intros s d. unfold has_suffix. rewrite !rev_append_rev, !app_nil_r. reflexivity. Qed.

Lemma has_suffix_app : forall a s, has_suffix s (a ++ s) = true.
Proof. intros a s. rewrite has_suffix_rev. exact (BytesFacts.has_suffix_app s a). Qed.

Lemma has_suffix_true : forall s d, has_suffix s d = true -> exists a, d = a ++ s.
Proof. intros s d H. rewrite has_suffix_rev in H. exact (proj1 (BytesFacts.has_suffix_iff s d) H). Qed.

Lemma trim_suffix_app : forall a s, trim_suffix s (a ++ s) = a.
Proof.
  intros a s. unfold trim_suffix. rewrite has_suffix_app, app_length, Nat.add_sub.
  apply BytesFacts.firstn_length_app.
Qed.

Lemma mem_byte_app : forall c a b, mem_byte c (a ++ b) = mem_byte c a || mem_byte c b.
Proof. intros. unfold mem_byte. apply existsb_app. Qed.

(* sep occurs in d at position i when has_prefix sep (skipn i d) = true *)

Lemma occ_bound : forall sep d i,
  i <= length d -> has_prefix sep (skipn i d) = true -> i + length sep <= length d.
Proof.
  intros sep d i Hi H. apply has_prefix_true, (f_equal (@length byte)) in H.
  rewrite app_length, skipn_length in H. lia.
Qed.

Lemma occ_split : forall sep d i,
  has_prefix sep (skipn i d) = true -> d = firstn i d ++ sep ++ skipn (i + length sep) d.
Proof.
  intros sep d i H. apply has_prefix_true in H.
  rewrite <- (firstn_skipn i d) at 1. f_equal. rewrite H at 1. f_equal.
  apply BytesFacts.skipn_skipn'.
Qed.

Lemma no_occ_tail : forall (c : byte) s l k, ~ In c l -> has_prefix (c :: s) (skipn k l) = false.
Proof.
  intros c s l. induction l as [|y l IH]; intros k Hn; [now destruct k|].
  destruct k as [|k]; cbn [skipn has_prefix].
  - rewrite BytesFacts.beq_false; [reflexivity|]. intros ->. apply Hn. now left.
  - apply IH. intro H. apply Hn. now right.
Qed.

Lemma occ_of_in : forall (c : byte) l, In c l -> exists k, k < length l /\ has_prefix [c] (skipn k l) = true.
Proof.
  intros c l. induction l as [|y l IH]; [intros []|intros [->|H]].
  - exists 0. cbn. rewrite BytesFacts.beq_refl. split; [lia|reflexivity].
  - destruct (IH H) as (k & Hk & Ho). exists (S k). split; [cbn; lia|exact Ho].
Qed.

Definition no_occ_before (sep d : bytes) (n : nat) : Prop :=
  forall i, i < n -> has_prefix sep (skipn i d) = false.

Lemma index_found : forall sep d n,
  no_occ_before sep d n -> has_prefix sep (skipn n d) = true -> index sep d = Some n.
Proof.
  intros sep d. induction d as [|x d IH]; intros n Hno Hat.
  - destruct n as [|n].
    + cbn in Hat. cbn. rewrite Hat. reflexivity.
    + specialize (Hno 0 (Nat.lt_0_succ _)). cbn in Hno. cbn in Hat. rewrite Hat in Hno. discriminate.
  - destruct n as [|n].
    + cbn [skipn] in Hat. cbn [index]. rewrite Hat. reflexivity.
    + cbn [index]. pose proof (Hno 0 (Nat.lt_0_succ _)) as H0. cbn [skipn] in H0. rewrite H0.
      rewrite (IH n); [reflexivity| |exact Hat].
      intros i Hi. apply (Hno (S i)). lia.
Qed.

Lemma index_some : forall sep d i,
  index sep d = Some i -> i <= length d /\ has_prefix sep (skipn i d) = true /\ no_occ_before sep d i.
Proof.
  intros sep d. induction d as [|x d IH]; intros i H.
  - cbn in H. destruct (has_prefix sep []) eqn:E; [|discriminate]. inversion H; subst.
    repeat split; [cbn; lia|exact E|intros j Hj; lia].
  - cbn [index] in H. destruct (has_prefix sep (x :: d)) eqn:E.
    + inversion H; subst. repeat split; [lia|exact E|intros j Hj; lia].
    + destruct (index sep d) as [j|] eqn:Ej; [|discriminate]. cbn in H. inversion H; subst.
      destruct (IH j eq_refl) as [Hle [Hat Hno]].
      repeat split; [cbn; lia|exact Hat|].
      intros k Hk. destruct k as [|k]; [exact E|]. cbn [skipn]. apply Hno. lia.
Qed.

(* an occurrence of sep inside a ++ sep ++ b that starts in a needs the byte m (the second byte
   of sep) either inside a or where sep starts *)
Lemma no_occ_marker : forall (c0 m : byte) (rest a b : bytes),
  c0 <> m -> ~ In m a ->
  no_occ_before (c0 :: m :: rest) (a ++ (c0 :: m :: rest) ++ b) (length a).
Proof.
  intros c0 m rest a b Hc Hm. unfold no_occ_before.
  induction a as [|x a IH]; intros i Hi; [cbn in Hi; lia|].
  destruct i as [|i].
  - cbn [skipn app]. destruct a as [|y a].
    + cbn [app]. cbn [has_prefix]. rewrite (BytesFacts.beq_false m) by (intro; subst; apply Hc; reflexivity).
      rewrite andb_false_r. reflexivity.
    + cbn [app has_prefix]. rewrite (BytesFacts.beq_false m).
      * rewrite andb_false_r. reflexivity.
      * intro; subst. apply Hm. right. left. reflexivity.
  - cbn [skipn app]. apply IH; [|cbn in Hi; lia].
    intro Hin. apply Hm. right. exact Hin.
Qed.

Lemma last_index_none : forall sep d i, last_index sep d = None -> has_prefix sep (skipn i d) = false.
Proof.
  intros sep d. induction d as [|x d IH]; intros i H.
  - cbn in H. destruct (has_prefix sep []) eqn:E; [discriminate|]. destruct i; exact E.
  - cbn [last_index] in H. destruct (last_index sep d) eqn:El; [discriminate|].
    destruct (has_prefix sep (x :: d)) eqn:E; [discriminate|].
    destruct i as [|i]; [exact E|]. cbn [skipn]. apply IH. reflexivity.
Qed.

Lemma last_index_some : forall sep d n,
  last_index sep d = Some n ->
  n <= length d /\ has_prefix sep (skipn n d) = true /\
  forall i, n < i <= length d -> has_prefix sep (skipn i d) = false.
Proof.
  intros sep d. induction d as [|x d IH]; intros n H.
  - cbn in H. destruct (has_prefix sep []) eqn:E; [|discriminate]. injection H as <-.
    repeat split; [reflexivity|exact E|]. cbn. lia.
  - cbn [last_index] in H. destruct (last_index sep d) as [k|] eqn:Ek.
    + injection H as <-. destruct (IH k eq_refl) as (Hle & Hat & Hl).
      repeat split; [cbn; lia|exact Hat|]. intros [|i] Hi; [lia|]. apply Hl. cbn in Hi. lia.
    + destruct (has_prefix sep (x :: d)) eqn:E; [|discriminate]. injection H as <-.
      repeat split; [lia|exact E|]. intros [|i] Hi; [lia|]. apply (last_index_none _ _ _ Ek).
Qed.

Lemma last_index_found : forall sep d n,
  has_prefix sep (skipn n d) = true -> n <= length d ->
  (forall i, n < i <= length d -> has_prefix sep (skipn i d) = false) ->
  last_index sep d = Some n.
Proof.
  intros sep d n Hat Hle Hlater. destruct (last_index sep d) as [m|] eqn:E.
  - destruct (last_index_some _ _ _ E) as (Hm & Hom & Hl).
    destruct (lt_eq_lt_dec m n) as [[L| ->]|L]; [|reflexivity|].
    + rewrite Hl in Hat by lia. discriminate.
    + rewrite Hlater in Hom by lia. discriminate.
  - rewrite (last_index_none _ _ n E) in Hat. discriminate.
Qed.

Lemma last_index_app : forall (c : byte) s a b,
  ~ In c (s ++ b) -> last_index (c :: s) (a ++ (c :: s) ++ b) = Some (length a).
Proof.
  intros c s a b Hn. apply last_index_found.
  - rewrite BytesFacts.skipn_length_app. exact (BytesFacts.has_prefix_app (c :: s) b).
  - rewrite app_length. lia.
  - intros i Hi. replace i with (length a + S (i - S (length a))) by lia.
    rewrite <- BytesFacts.skipn_skipn', BytesFacts.skipn_length_app.
    exact (no_occ_tail c s (s ++ b) _ Hn).
Qed.

Lemma last_index_byte_tail : forall (c : byte) d j,
  last_index [c] d = Some j -> ~ In c (skipn (S j) d).
Proof.
  intros c d j H Hin. destruct (last_index_some _ _ _ H) as (_ & _ & Hl).
  destruct (occ_of_in _ _ Hin) as (k & Hk & Ho). rewrite skipn_length in Hk.
  rewrite BytesFacts.skipn_skipn', Hl in Ho by lia. discriminate.
Qed.

Lemma replace_byte_inv : forall a b d, ~ In b d -> replace_byte b a (replace_byte a b d) = d.
Proof.
  intros a b d. unfold replace_byte. induction d as [|x d IH]; intro Hn; [reflexivity|].
  cbn [map]. rewrite IH by (intro H; apply Hn; right; exact H). f_equal.
  destruct (beq x a) eqn:E.
  - rewrite BytesFacts.beq_refl. apply BytesFacts.beq_eq in E. symmetry. exact E.
  - rewrite BytesFacts.beq_false; [reflexivity|]. intro; subst. apply Hn. left. reflexivity.
Qed.

Lemma replace_byte_length : forall a b d, length (replace_byte a b d) = length d.
Proof. intros. unfold replace_byte. apply map_length. Qed.

Lemma replace_byte_not_in : forall a b d, a <> b -> ~ In a (replace_byte a b d).
Proof.
  intros a b d Hab Hin. unfold replace_byte in Hin. apply in_map_iff in Hin.
  destruct Hin as [x [Hx _]]. destruct (beq x a) eqn:E.
  - subst. apply Hab. reflexivity.
  - subst. rewrite BytesFacts.beq_refl in E. discriminate.
Qed.

Lemma lower_upper : forall c l, lower_of c = Some l -> upper_of l = Some c /\ is_ascii l = true.
Proof. intros c l H. destruct c; try discriminate H; injection H as <-; split; reflexivity. Qed.

Lemma upper_lower : forall x u,
  upper_of x = Some u -> lower_of u = Some x /\ is_ascii u = true /\ beq u bang = false.
Proof. intros x u H. destruct x; try discriminate H; injection H as <-; repeat split. Qed.

Lemma escape_byte_unescape : forall c r,
  is_ascii c = true -> beq c bang = false ->
  unescape_go false (escape_byte c ++ r) = option_map (cons c) (unescape_go false r).
Proof.
  intros c r Ha Hb. unfold escape_byte. destruct (lower_of c) as [l|] eqn:El.
  - destruct (lower_upper _ _ El) as [Hu Hal].
    change (unescape_go false ([bang; l] ++ r)) with (unescape_go true (l :: r)).
    cbn [unescape_go]. rewrite Hal, Hu. reflexivity.
  - cbn [app unescape_go]. unfold is_upper. rewrite Ha, Hb, El. reflexivity.
Qed.

Theorem unescape_escape : forall s e, escape_string s = Some e -> unescape_string e = Some s.
Proof.
  unfold escape_string, unescape_string, escapable. intros s.
  induction s as [|c s IH]; intros e H.
  - cbn in H. inversion H. reflexivity.
  - cbn [forallb flat_map] in H.
    destruct (is_ascii c) eqn:Ha; [|discriminate].
    destruct (beq c bang) eqn:Hb; [discriminate|]. cbn [negb andb] in H.
    destruct (forallb (fun c0 => is_ascii c0 && negb (beq c0 bang)) s) eqn:Hs; [|discriminate].
    inversion H; subst. rewrite escape_byte_unescape by assumption.
    rewrite (IH _ eq_refl). reflexivity.
Qed.

Lemma escape_injective : forall s1 s2 e, escape_string s1 = Some e -> escape_string s2 = Some e -> s1 = s2.
Proof.
  intros s1 s2 e H1 H2. apply unescape_escape in H1. apply unescape_escape in H2. congruence.
Qed.

(* the other direction: what unescapeString accepts is the escaped form of its result; with the
   flag of the Go loop set, the "!" just read belongs to that form *)
Lemma unescape_go_inv : forall e b s,
  unescape_go b e = Some s ->
  escapable s = true /\ flat_map escape_byte s = if b then bang :: e else e.
Proof.
  unfold escapable. induction e as [|c e IH]; intros b s H; cbn [unescape_go] in H.
  - destruct b; [discriminate|]. injection H as <-. split; reflexivity.
  - destruct (is_ascii c) eqn:Ha; [|discriminate]. cbn [negb] in H. destruct b.
    + destruct (upper_of c) as [u|] eqn:Hu; [|discriminate].
      destruct (unescape_go false e) as [s'|] eqn:Hs'; [|discriminate]. injection H as <-.
      destruct (IH _ _ Hs') as [Hf He], (upper_lower _ _ Hu) as (Hl & Hau & Hbu).
      cbn [forallb flat_map]. unfold escape_byte at 1. rewrite Hl, Hau, Hbu, Hf, He. split; reflexivity.
    + destruct (beq c bang) eqn:Hb.
      * apply BytesFacts.beq_eq in Hb. subst c. exact (IH _ _ H).
      * destruct (is_upper c) eqn:Hup; [discriminate|].
        destruct (unescape_go false e) as [s'|] eqn:Hs'; [|discriminate]. injection H as <-.
        destruct (IH _ _ Hs') as [Hf He]. cbn [forallb flat_map]. rewrite Ha, Hb, Hf, He.
        unfold escape_byte. unfold is_upper in Hup. destruct (lower_of c); [discriminate|]. split; reflexivity.
Qed.

Theorem escape_unescape : forall e s, unescape_string e = Some s -> escape_string s = Some e.
Proof.
  intros e s H. destruct (unescape_go_inv _ _ _ H) as [Hf He].
  unfold escape_string. rewrite Hf, He. reflexivity.
Qed.

(* escaping introduces only "!" and lower-case letters *)
Lemma escape_not_in : forall m s e,
  escape_string s = Some e -> ~ In m s -> m <> bang -> upper_of m = None -> ~ In m e.
Proof.
  unfold escape_string. intros m s e H Hs Hb Hu Hin.
  destruct (escapable s); [|discriminate]. injection H as <-.
  apply in_flat_map in Hin. destruct Hin as (c & Hc & Hx). unfold escape_byte in Hx.
  destruct (lower_of c) as [l|] eqn:El; cbn in Hx.
  - destruct Hx as [<-|[<-|[]]]; [now apply Hb|]. rewrite (proj1 (lower_upper _ _ El)) in Hu. discriminate.
  - destruct Hx as [<-|[]]. contradiction.
Qed.

Lemma escape_head : forall c s e,
  escape_string (c :: s) = Some e -> lower_of c = None -> exists e', e = c :: e' /\ escape_string s = Some e'.
Proof.
  unfold escape_string, escapable. intros c s e H Hl. cbn [forallb flat_map] in H.
  destruct (is_ascii c && negb (beq c bang)); [|discriminate]. cbn [andb] in H.
  destruct (forallb (fun c0 => is_ascii c0 && negb (beq c0 bang)) s); [|discriminate].
  inversion H; subst. unfold escape_byte. rewrite Hl. eexists. split; reflexivity.
Qed.

Example escape_example :
  escape_string [x41; x7a; x2f; x42] = Some [x21; x61; x7a; x2f; x21; x62] /\
  unescape_string [x21; x61; x7a; x2f; x21; x62] = Some [x41; x7a; x2f; x42] /\
  unescape_string [x21; x41] = None /\ unescape_string [x61; x21] = None /\
  unescape_string [x41] = None /\ escape_string [x21] = None.
Proof. vm_compute. repeat split. Qed.
