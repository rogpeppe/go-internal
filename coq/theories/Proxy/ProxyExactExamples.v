(* C20 — non-vacuity examples for Proxy/ProxyExact.v, and the byte-identity of .info/.mod
   responses stated for ALL byte strings on a concrete directory. *)
From Coq Require Import List Bool Arith NArith Lia String Permutation.
From Coq.Strings Require Import Byte.
From GI Require Import Gen.ProxyConsts Proxy.Proxy Proxy.ProxyStrings Proxy.ProxyFacts Proxy.ProxyConc
  Proxy.ProxyTheorems Proxy.ProxyExamples Proxy.ProxyExact.
Import ListNotations.
Local Open Scope string_scope.

(* a module version stored with arbitrary .info [i] and .mod [m], two more dot-files and one
   ordinary file whose content [x] is arbitrary too *)
Definition arch3 (i m x : bytes) : archive :=
  [(b ".info", i); (b ".netrc", b "machine example.com login me password hunter2"); (b ".mod", m);
   (b "x.go", x); (b ".gitignore", b "*.secret")].

Definition d3 (i m x : bytes) : dir := [(b "example.com_!foo_v1.0.0.txt", EFile (arch3 i m x))].
Definition ml3 : list (bytes * bytes) := [(b "example.com/Foo", b "v1.0.0")].

Example read_mod_list_d3 : forall i m x, read_mod_list O0 (d3 i m x) = Some ml3.
Proof. intros. vm_compute. reflexivity. Qed.

Lemma hyps_d3 : forall i m x,
  path_ok O0 (b "example.com/Foo") /\ vers_ok O0 (b "v1.0.0") /\ allhex (b "v1.0.0") = false /\
  escape_string (b "example.com/Foo") = Some (b "example.com/!foo") /\
  escape_string (b "v1.0.0") = Some (b "v1.0.0") /\
  stored O0 (d3 i m x) (b "example.com/Foo") (b "v1.0.0") = Some (arch3 i m x).
Proof.
  intros. repeat split; try (vm_compute; reflexivity).
  apply BytesFacts.mem_byte_false. reflexivity.
Qed.

(* .info and .mod responses are byte-identical to the stored files, for EVERY byte string: no
   hypothesis on i, m, x at all (not printable, not UTF-8, no final newline, "%" or NUL inside),
   and the zip carries x unchanged; the dot-files stay hidden *)
Definition u3_info : bytes := b "/mod/example.com/!foo/@v/v1.0.0.info".
Definition u3_mod : bytes := b "/mod/example.com/!foo/@v/v1.0.0.mod".
Definition u3_zip : bytes := b "/mod/example.com/!foo/@v/v1.0.0.zip".
Definition u3_netrc : bytes := b "/mod/example.com/!foo/@v/v1.0.0.netrc".
Definition u3_gitignore : bytes := b "/mod/example.com/!foo/@v/v1.0.0.gitignore".
Definition zip3_name : bytes := b "example.com/Foo@v1.0.0/x.go".

Theorem serves_arbitrary_bytes : forall i m x : bytes,
  respond O0 (d3 i m x) ml3 u3_info = OkBytes i /\
  respond O0 (d3 i m x) ml3 u3_mod = OkBytes m /\
  respond O0 (d3 i m x) ml3 u3_zip = OkZip [(zip3_name, x)] /\
  respond O0 (d3 i m x) ml3 u3_netrc = NotFound /\
  respond O0 (d3 i m x) ml3 u3_gitignore = NotFound.
Proof.
  intros i m x.
  destruct (hyps_d3 i m x) as [Hp [Hv [Hh [Hep [Hev Hst]]]]].
  destruct (serves_stored O0 (d3 i m x) ml3 _ _ _ _ _ Hp Hv Hh Hep Hev Hst) as [H1 [H2 [_ H4]]].
  split; [exact H1|]. split; [exact H2|]. split.
  - apply H4. intros f Hf. vm_compute in Hf. destruct Hf as [Hf|[]]. subst f.
    unfold zip_entry_bad. cbn [fst snd]. vm_compute. reflexivity.
  - split.
    + eapply (dotfile_not_served O0 (d3 i m x) ml3 _ _ _ _ _ (b "netrc") _ Hp Hv Hep Hev Hst);
        [reflexivity|apply BytesFacts.mem_byte_false; reflexivity|discriminate..].
    + eapply (dotfile_not_served O0 (d3 i m x) ml3 _ _ _ _ _ (b "gitignore") _ Hp Hv Hep Hev Hst);
        [reflexivity|apply BytesFacts.mem_byte_false; reflexivity|discriminate..].
Qed.

(* an instance with the bytes formatting, quoting and line handling would mangle *)
Example serves_percent_bytes :
  let i := (b "{""URL"":""https://example.com/a%20b/%s""}" ++ [x00; xff; xfe; x0d; x0a; x5c; x25])%list in
  respond O0 (d3 i (b "100% done") []) ml3 (b "/mod/example.com/!foo/@v/v1.0.0.info") = OkBytes i /\
  respond O0 (d3 i (b "100% done") []) ml3 (b "/mod/example.com/!foo/@v/v1.0.0.mod") = OkBytes (b "100% done").
Proof. vm_compute. split; reflexivity. Qed.

(* route_404_exact, both directions on concrete URLs *)
Example served_by_examples :
  served_by O0 d0 ml0 (b "/mod/example.com/!foo/@v/list") /\
  served_by O0 d0 ml0 (b "/mod/example.com/!foo/@v/v1.0.0.info") /\
  served_by O0 d0 ml0 (b "/mod/example.com/!foo/@v/abc.zip") /\
  ~ served_by O0 d0 ml0 (b "/mod/example.com/!foo/@v/v1.0.0.hidden") /\
  ~ served_by O0 d0 ml0 (b "/mod/example.com/!foo/@v/v0.0.0-2018-abcdef.info") /\
  ~ served_by O0 d0 ml0 (b "/mod/example.com/!foo/@v/list/") /\
  ~ served_by O0 d0 ml0 (b "/mod/example.com/!foo/@v/v1.0.0.INFO") /\
  ~ served_by O0 d0 ml0 (b "/mod/example.com/!foo/@latest").
Proof.
  repeat split; try (apply served_by_b; vm_compute; reflexivity);
    (intro H; apply served_by_b in H; vm_compute in H; discriminate).
Qed.

(* the list as a set: a module list in another order (as a sorting server would hold it) *)
Definition ml0_sorted : list (bytes * bytes) :=
  [(b "example.com/Foo", b "v1.1.0"); (b "example.com/Foo", b "v0.0.0-2018-abcdef"); (b "example.com/Foo", b "v1.0.0")].

Example listed_perm_example :
  Permutation ml0 ml0_sorted /\ NoDup ml0 /\
  listed O0 ml0 (b "example.com/Foo") = [b "v1.0.0"; b "v1.1.0"] /\
  listed O0 ml0_sorted (b "example.com/Foo") = [b "v1.1.0"; b "v1.0.0"].
Proof.
  split; [|split; [|split; vm_compute; reflexivity]].
  - unfold ml0, ml0_sorted.
    eapply Permutation_trans; [apply perm_swap|]. eapply Permutation_trans; [apply perm_skip; apply perm_swap|].
    eapply Permutation_trans; [apply perm_swap|]. apply perm_skip. apply perm_swap.
  - repeat constructor; cbn; intuition discriminate.
Qed.

(* history independence: a server started on d0, any of these histories, then a probe *)
Example history_example :
  exists s, server_start O0 d0 = Some s /\ sv_modlist s = ml0 /\
  compatible O0 d0 (sv_modlist s) (urls0 ++ [b "/mod/example.com/!foo/@v/list"]) /\
  fst (serve_all O0 d0 s (urls0 ++ [b "/mod/example.com/!foo/@v/list"])) =
    map (respond O0 d0 ml0) (urls0 ++ [b "/mod/example.com/!foo/@v/list"]).
Proof.
  assert (server_start O0 d0 = Some {| sv_modlist := ml0; sv_caches := no_caches |}) as Hs
    by (unfold server_start; now rewrite read_mod_list_d0).
  assert (compatible O0 d0 ml0 (urls0 ++ [b "/mod/example.com/!foo/@v/list"])) as Hc.
  { apply no_alias_compatible. intros u Hu. apply no_alias_mem.
    destruct Hu as [H|[H|[H|[H|[]]]]]; subst u; vm_compute; reflexivity. }
  eexists. split; [exact Hs|]. split; [reflexivity|]. split; [exact Hc|].
  etransitivity; [exact (proj2 (history_independent O0 d0 _ urls0 _ Hs Hc))|].
  apply map_ext. intro u. symmetry. apply respond_eq.
Qed.
