(* Gen/ProxySrc.v is goproxytest/allhex.go and pseudo.go translated to Gallina by
   harness/go2coq on every run.  This file proves, for every input, that the generated
   functions return Ok of exactly what the model of Proxy/Proxy.v computes (allhex,
   is_pseudo with the computed x/mod oracles of Proxy/XMod.v): they never panic, and a change
   of the two files that changes the generated text stops these proofs from compiling. *)
From Coq Require Import List Bool Arith ZArith NArith Lia ZifyBool.
From Coq.Strings Require Import Byte.
From GI Require Import Lib.Bytes Lib.BytesFacts Lib.GoSem Lib.GoSemExt Lib.GoSemExtFacts
  Gen.ProxyConsts Proxy.Regex Proxy.Proxy Proxy.XMod Proxy.XModFacts Proxy.SrcLib Gen.ProxySrc.
Import ListNotations.
Local Open Scope nat_scope.

(* allHex: the range loop over 0 .. len(rev)-1, by induction on what is left *)

(* the test of the loop body is the model's range test on the regenerated table *)
Lemma hex_test c :
  (byte_leb x30 c && byte_leb c x39 || byte_leb x61 c && byte_leb c x66) = in_ranges c.
Proof. unfold in_ranges, hex_ranges, byte_leb, bN. cbn [existsb fst snd]. now rewrite orb_false_r. Qed.

Lemma src_allHex_loop_eq (L : Type) : forall suf pre,
  @src_allHex_loop1 L (pre ++ suf) (map Z.of_nat (seq (length pre) (length suf))) =
  if forallb in_ranges suf then Ok (Normal tt) else Ok (Return false).
Proof.
  induction suf as [|c suf IH]; intros pre; [reflexivity|].
  cbn [length seq map src_allHex_loop1 forallb]. unfold go_index.
  rewrite index_z_nat by (rewrite app_length; cbn [length]; lia).
  rewrite nth_error_app2, Nat.sub_diag by lia. cbn [nth_error]. go_red. rewrite hex_test.
  destruct (in_ranges c); go_red; [|reflexivity].
  replace (pre ++ c :: suf) with ((pre ++ [c]) ++ suf) by (now rewrite <- app_assoc).
  replace (S (length pre)) with (length (pre ++ [c])) by (rewrite app_length; cbn [length]; lia).
  apply IH.
Qed.

Theorem src_allHex_eq rev : src_allHex rev = Ok (allhex rev).
Proof.
  unfold src_allHex, allhex. rewrite go_int_range_len.
  pose proof (src_allHex_loop_eq unit rev []) as H. cbn [app length] in H. rewrite H.
  destruct (forallb in_ranges rev); reflexivity.
Qed.

(* isPseudoVersion *)

Theorem src_isPseudoVersion_eq short v :
  src_isPseudoVersion v = Ok (is_pseudo (xmod_oracles short) v).
Proof.
  unfold src_isPseudoVersion, is_pseudo, go_strings_Count, go_semver_IsValid, go_regexp_MatchString.
  change x2d with pseudo_dash. go_red. cbn [semver_valid pseudo_re xmod_oracles]. do 3 f_equal.
  unfold pseudo_min_dashes. destruct (2 <=? count_byte pseudo_dash v) eqn:E; lia.
Qed.

(* hence what the model proves about the two tests holds of the translated functions: a valid
   semantic version is never taken for a commit hash *)
Theorem src_semver_not_hex v : semver_is_valid v = true -> src_allHex v = Ok false.
Proof. intros H. rewrite src_allHex_eq. f_equal. now apply semver_valid_not_hex. Qed.

(* Examples: the failure value of the translation is real, and the functions compute *)
Example ex_src_proxy :
  src_allHex [x30; x39; x61; x66] = Ok true /\ src_allHex [x30; x67] = Ok false /\ src_allHex [] = Ok true
  /\ go_strings_Count [x2d] [] = Panic /\ go_strings_Count [x2d; x61; x2d] [x2d] = Ok 2%Z.
Proof. vm_compute. repeat split; reflexivity. Qed.

From Coq Require Import String.
Local Open Scope string_scope.

Example ex_src_pseudo :
  src_isPseudoVersion (lit "v0.0.0-20180101000000-abcdef123456") = Ok true
  /\ src_isPseudoVersion (lit "v1.2.3-20180101000000-abcdef123456") = Ok false
  /\ src_isPseudoVersion (lit "v1.2.3") = Ok false.
Proof. vm_compute. repeat split; reflexivity. Qed.
