(* The pure segments of goproxytest/proxy.go (readModList, handler, readArchive, findHash),
   translated on every run into Gen/ProxySrc.v, proved equal to the model of Proxy/Proxy.v. *)
From Coq Require Import List Bool Arith ZArith NArith Lia ZifyBool.
From Coq.Strings Require Import Byte.
From GI Require Import Lib.Bytes Lib.BytesFacts Lib.GoSem Lib.GoSemExt Lib.GoSemExtFacts Lib.GoSemData
  Gen.ProxyConsts Proxy.Regex Proxy.Proxy Proxy.ProxyStrings Proxy.ProxyFacts Proxy.ProxyConc Proxy.ProxyTheorems
  Proxy.ProxyExact Proxy.XMod Proxy.XModFacts.
From GI Require Import Lib.GoSemHandler Proxy.SrcLib Gen.ProxySrc Proxy.SrcFacts Proxy.SrcGlue.
Import ListNotations.
Local Open Scope nat_scope.

(* the x/mod oracles do not depend on the table for the json Short field, except info_short *)
Lemma xmod_unescape_path short e : unescape_path (xmod_oracles short) e = unescape_path xmod_O e.
Proof. reflexivity. Qed.
Lemma xmod_unescape_version short e : unescape_version (xmod_oracles short) e = unescape_version xmod_O e.
Proof. reflexivity. Qed.
Lemma xmod_escape_path short e : escape_path (xmod_oracles short) e = escape_path xmod_O e.
Proof. reflexivity. Qed.
Lemma xmod_escape_version short e : escape_version (xmod_oracles short) e = escape_version xmod_O e.
Proof. reflexivity. Qed.

Lemma opt_pos_some i : opt_pos (Some i) = Z.of_nat i.
Proof. reflexivity. Qed.

Lemma of_nat_not_neg i : (Z.of_nat i <? 0)%Z = false.
Proof. lia. Qed.

(* readModList: the body of the loop over the directory entries *)

Definition srv_add (srv : go_server) (m : bytes * bytes) : go_server :=
  mkServer (srv_dir srv) (srv_modList srv ++ [m]) (srv_archives srv).

Definition entry_outcome (srv : go_server) (o : option (option (bytes * bytes)))
  : outcome go_server go_server (go_server * bool) :=
  match o with
  | None => Return (srv, true)
  | Some None => Continue srv
  | Some (Some m) => Normal (srv_add srv m)
  end.

Theorem src_readModList_entry_eq short srv name isdir :
  src_Server_readModList_entry srv (name, isdir) =
  Ok (entry_outcome srv (mod_entry (xmod_oracles short) name isdir)).
Proof.
  unfold src_Server_readModList_entry, mod_entry.
  unfold go_direntry_Name, go_direntry_IsDir, go_strings_HasSuffix, go_strings_TrimSuffix,
    go_strings_LastIndex, go_module_UnescapePath, go_module_UnescapeVersion.
  cbn [fst snd].
  change [x2e; x74; x78; x74] with suffix_txt. change [x2e; x74; x78; x74; x61; x72] with suffix_txtar.
  change [x5f; x76] with vers_sep.
  change (unescape_path (xmod_oracles short)) with (unescape_path xmod_O).
  change (unescape_version (xmod_oracles short)) with (unescape_version xmod_O).
  (* the suffix switch; the rest runs on the stripped name, the same in the three cases *)
  destruct (has_suffix suffix_txt name);
    [|destruct (has_suffix suffix_txtar name); [|destruct isdir; [|reflexivity]]]; go_red.
  all: destruct (last_index vers_sep _) as [i|] eqn:Ei; [|reflexivity].
  all: destruct (last_index_some _ _ _ Ei) as (Hle & Hat & _).
  all: pose proof (occ_bound _ _ _ Hle Hat) as Hlt; change (length vers_sep) with 2 in Hlt.
  all: rewrite opt_pos_some, of_nat_not_neg, go_slice_to by exact Hle; cbn [bind go_strings_ReplaceAll].
  all: change x5f with disk_sep; change x2f with path_sep.
  all: destruct (unescape_path xmod_O _) as [path|]; cbn [go_opt_err]; [|reflexivity].
  all: replace (Z.of_nat i + 1)%Z with (Z.of_nat (i + 1)) by lia.
  all: rewrite go_slice_from by lia; cbn [bind]; change vers_skip with 1.
  all: destruct (unescape_version xmod_O _) as [vers|]; cbn [go_opt_err]; reflexivity.
Qed.

Lemma src_readModList_loop_eq short : forall names srv,
  match read_mod_list_names (xmod_oracles short) names with
  | Some ml => src_readModList_loop srv names =
               Ok (mkServer (srv_dir srv) (srv_modList srv ++ ml) (srv_archives srv), false)
  | None => exists s, src_readModList_loop srv names = Ok (s, true)
  end.
Proof.
  induction names as [|[nm isd] r IH]; intros srv.
  - cbn. rewrite app_nil_r. now destruct srv.
  - cbn [read_mod_list_names src_readModList_loop]. rewrite (src_readModList_entry_eq short).
    destruct (mod_entry (xmod_oracles short) nm isd) as [[m|]|]; cbn [entry_outcome].
    + specialize (IH (srv_add srv m)).
      destruct (read_mod_list_names (xmod_oracles short) r) as [ml|]; [|exact IH].
      rewrite IH. unfold srv_add. cbn [srv_dir srv_modList srv_archives]. now rewrite <- app_assoc.
    + specialize (IH srv). destruct (read_mod_list_names (xmod_oracles short) r); exact IH.
    + now exists srv.
Qed.

(* readModList on a server that starts with an empty module list *)
Theorem src_readModList_eq short dirname fh d :
  match read_mod_list (xmod_oracles short) d with
  | Some ml => src_readModList_loop (mkServer dirname [] fh) (dir_names d) = Ok (mkServer dirname ml fh, false)
  | None => exists s, src_readModList_loop (mkServer dirname [] fh) (dir_names d) = Ok (s, true)
  end.
Proof.
  unfold read_mod_list. pose proof (src_readModList_loop_eq short (dir_names d) (mkServer dirname [] fh)) as H.
  destruct (read_mod_list_names (xmod_oracles short) (dir_names d)); exact H.
Qed.

(* handler: from the URL path to the archive lookup *)


Lemma fprintf_line w v : go_fmt_Fprintf w [x25; x73; x0a] [FmtStr v] = Ok (go_http_Write w (v ++ [x0a])).
Proof.
  unfold go_fmt_Fprintf. cbn [go_fmt_Sprintf Lib.Bytes.beq Byte.eqb]. cbn. reflexivity.
Qed.

Section Handler.
Variable short : bytes -> bytes.
Let O := xmod_oracles short.

Lemma route_list_loop (L : Type) path : forall ml w n,
  @src_Server_handler_route_loop1 L path ml w n =
  Ok (Normal (write_lines w (listed O ml path), (n + Z.of_nat (length (listed O ml path)))%Z)).
Proof.
  induction ml as [|[p v] ml IH]; intros w n.
  - cbn. now rewrite Z.add_0_r.
  - cbn [src_Server_handler_route_loop1 fst snd]. rewrite (src_isPseudoVersion_eq short).
    unfold listed. cbn [filter fst snd]. fold O. change Lib.Bytes.bytes_eqb with Proxy.bytes_eqb.
    destruct (bytes_eqb p path); go_red.
    + destruct (is_pseudo O v); go_red.
      * rewrite IH. reflexivity.
      * unfold go_module_Check. change (module_check O p v) with (module_check_x p v).
        destruct (module_check_x p v); go_red.
        -- rewrite fprintf_line. go_red. rewrite IH. cbn [map length write_lines fold_left].
           unfold listed. do 3 f_equal. lia.
        -- rewrite IH. reflexivity.
    + rewrite IH. reflexivity.
Qed.

Lemma go_slice_after_last c v :
  go_slice v (go_strings_LastIndex v [c] + 1)%Z (len v) = Ok (after_last c v).
Proof.
  unfold go_strings_LastIndex, after_last. destruct (last_index [c] v) as [i|] eqn:Ei.
  - destruct (last_index_some _ _ _ Ei) as (Hle & Hat & _).
    pose proof (occ_bound _ _ _ Hle Hat) as Hlt. cbn [length] in Hlt.
    rewrite opt_pos_some. replace (Z.of_nat i + 1)%Z with (Z.of_nat (S i)) by lia.
    apply go_slice_from. lia.
  - cbn [opt_pos]. change (-1 + 1)%Z with (Z.of_nat 0). now rewrite go_slice_from by lia.
Qed.

Lemma compare_lt best v : (go_semver_Compare best v <? 0)%Z = semver_lt O best v.
Proof.
  unfold go_semver_Compare. change (semver_lt O best v) with (semver_lt_x best v). unfold semver_lt_x.
  destruct (semver_compare best v); reflexivity.
Qed.

Lemma route_resolve_loop (L : Type) d srv path vers :
  (forall m, srv_archives srv m = hash_of O d (fst m) (snd m)) ->
  forall ml best,
  @src_Server_handler_route_loop2 L srv path vers ml best =
  Ok (Normal (resolve_pure O d ml path vers best)).
Proof.
  intros Hfh. induction ml as [|[p v] ml IH]; intros best; [reflexivity|].
  cbn [src_Server_handler_route_loop2 resolve_pure fst snd].
  change Lib.Bytes.bytes_eqb with Proxy.bytes_eqb. rewrite compare_lt.
  destruct (bytes_eqb p path && semver_lt O best v); go_red; [|apply IH].
  rewrite (src_isPseudoVersion_eq short). go_red. fold O.
  assert (Hm : forall hash,
    (if negb (Lib.Bytes.bytes_eqb hash []) && (go_strings_HasPrefix hash vers || go_strings_HasPrefix vers hash)
     then true else false) = hash_matches hash vers).
  { intros hash. unfold hash_matches, go_strings_HasPrefix. rewrite bytes_eqb_nil.
    destruct hash; cbn [negb andb]; [reflexivity|]. now destruct (_ || _). }
  destruct (is_pseudo O v).
  - change x2d with hash_sep. rewrite go_slice_after_last. go_red.
    rewrite <- Hm. destruct (negb _ && _); go_red; apply IH.
  - go_red. unfold srv_findHash. rewrite Hfh. cbn [fst snd].
    rewrite <- Hm. destruct (negb _ && _); go_red; apply IH.
Qed.

(* what the first part of the handler leaves: a finished response, or the decoded request *)
Definition route_outcome (d : dir) (ml : list (bytes * bytes)) (w : go_response) (url : bytes)
  : outcome (go_response * bytes * bytes * bytes) unit go_response :=
  match route O url with
  | RNotFound => Return (go_http_NotFound w url)
  | RList path =>
      match listed O ml path with
      | [] => Return (go_http_NotFound w url)
      | vs => Return (write_lines w vs)
      end
  | RFile path vers ext => Normal (w, path, ext, target_version O d ml path vers)
  end.

Theorem src_handler_route_eq d srv w url :
  (forall m, srv_archives srv m = hash_of O d (fst m) (snd m)) ->
  src_Server_handler_route srv w url = Ok (route_outcome d (srv_modList srv) w url).
Proof.
  intros Hfh. unfold src_Server_handler_route, route_outcome, route.
  unfold url_Path, req_URL, go_strings_HasPrefix, go_strings_TrimPrefix, go_strings_Index, go_strings_LastIndex.
  change [x2f; x6d; x6f; x64; x2f] with mod_prefix. change [x2f; x40; x76; x2f] with at_v.
  destruct (has_prefix mod_prefix url) eqn:Hp; cbn [negb]; [|reflexivity].
  go_red. set (p := skipn (length mod_prefix) url).
  destruct (index at_v p) as [i|] eqn:Ei; [|reflexivity].
  destruct (index_some _ _ _ Ei) as (Hle & Hat & _).
  pose proof (occ_bound _ _ _ Hle Hat) as Hlen.
  rewrite opt_pos_some, of_nat_not_neg, go_slice_to by exact Hle. go_red.
  change 4%Z with (Z.of_nat (length at_v)). rewrite <- Nat2Z.inj_add.
  rewrite go_slice_from by exact Hlen. go_red.
  unfold go_module_UnescapePath. rewrite (xmod_unescape_path short).
  destruct (unescape_path xmod_O (firstn i p)) as [path|]; cbn [go_opt_err]; [|reflexivity].
  set (file := skipn (i + length at_v) p).
  change Lib.Bytes.bytes_eqb with Proxy.bytes_eqb. change [x6c; x69; x73; x74] with list_name.
  destruct (bytes_eqb file list_name).
  - rewrite route_list_loop. go_red. fold O.
    destruct (listed O (srv_modList srv) path) as [|v vs]; cbn [length]; [reflexivity|].
    destruct (0 + Z.of_nat (S (length vs)) =? 0)%Z eqn:E0; [lia|]. reflexivity.
  - change [x2e] with [ext_sep].
    destruct (last_index [ext_sep] file) as [j|] eqn:Ej; [|reflexivity].
    destruct (last_index_some _ _ _ Ej) as (Hjle & Hjat & _).
    pose proof (occ_bound _ _ _ Hjle Hjat) as Hjlt. cbn [length] in Hjlt.
    rewrite opt_pos_some, of_nat_not_neg, go_slice_to by exact Hjle. go_red.
    replace (Z.of_nat j + 1)%Z with (Z.of_nat (S j)) by lia.
    rewrite go_slice_from by lia. go_red.
    unfold go_module_UnescapeVersion. rewrite (xmod_unescape_version short).
    destruct (unescape_version xmod_O (firstn j file)) as [vers|]; cbn [go_opt_err]; [|reflexivity].
    rewrite src_allHex_eq. go_red. unfold target_version.
    destruct (allhex vers); go_red; [|reflexivity].
    rewrite (route_resolve_loop _ d) by exact Hfh. go_red. rewrite bytes_eqb_nil. unfold pick_best.
    destruct (resolve_pure O d (srv_modList srv) path vers []); reflexivity.
Qed.

End Handler.

(* handler: from the archive to the response *)


Lemma serve_find_loop (L : Type) want : forall files w,
  @src_Server_handler_serve_loop1 L want files w =
  Ok (match find_file want files with
      | Some data => Return (go_http_Write w data)
      | None => Normal w
      end).
Proof.
  induction files as [|[n data] files IH]; intros w; [reflexivity|].
  cbn [src_Server_handler_serve_loop1 find_file fst snd]. change Lib.Bytes.bytes_eqb with Proxy.bytes_eqb.
  destruct (bytes_eqb n want); go_red; [reflexivity|apply IH].
Qed.

Definition serve_outcome (w : go_response) (url ext : bytes) (a : option archive) (c : bytes * bool)
  : outcome go_response unit go_response :=
  match a with
  | None => Return (go_http_NotFound w url)
  | Some files =>
      if bytes_eqb ext ext_info || bytes_eqb ext ext_mod then
        match find_file (entry_dot ++ ext) files with
        | Some data => Return (go_http_Write w data)
        | None => Normal (go_http_NotFound w url)
        end
      else if bytes_eqb ext ext_zip then
        if snd c then Return (go_http_Error w [] 500) else Return (go_http_Write w (fst c))
      else Normal (go_http_NotFound w url)
  end.

Theorem src_handler_serve_eq srv w url path ext vers a c :
  src_Server_handler_serve srv w url path ext vers (as_archive a) c = Ok (serve_outcome w url ext a c).
Proof.
  unfold src_Server_handler_serve, serve_outcome.
  destruct a as [files|]; cbn [as_archive option_map go_is_nil go_deref]; [|reflexivity].
  change Lib.Bytes.bytes_eqb with Proxy.bytes_eqb. change [x69; x6e; x66; x6f] with ext_info. change [x6d; x6f; x64] with ext_mod.
  change [x7a; x69; x70] with ext_zip. change [x2e] with entry_dot.
  destruct (bytes_eqb ext ext_info || bytes_eqb ext ext_mod); go_red.
  - cbn [ar_files]. rewrite serve_find_loop.
    destruct (find_file (entry_dot ++ ext) files); reflexivity.
  - destruct (bytes_eqb ext ext_zip); go_red; [|reflexivity].
    destruct c as [z e]; cbn [fst snd]. destruct e; reflexivity.
Qed.


Theorem src_zip_entries_eq path vers : forall files,
  src_zip_entries path vers files = Ok (build_zip_entries path vers files).
Proof.
  induction files as [|[n data] files IH]; [reflexivity|].
  cbn [src_zip_entries build_zip_entries]. unfold src_Server_handler_zipskip, src_Server_handler_zipname.
  cbn [fst snd]. unfold go_strings_HasPrefix. change [x2e] with hidden_prefix.
  destruct (has_prefix hidden_prefix n); [exact IH|].
  cbn [bind]. change [x40] with zip_at. change [x2f] with zip_slash.
  replace ((((path ++ zip_at) ++ vers) ++ zip_slash) ++ n) with (path ++ zip_at ++ vers ++ zip_slash ++ n)
    by (now rewrite !app_assoc).
  destruct (zip_entry_bad _ data); [reflexivity|]. rewrite IH. reflexivity.
Qed.

(* the member filter and the member name on their own *)
Theorem src_zipskip_eq f :
  src_Server_handler_zipskip f = Ok (if has_prefix hidden_prefix (fst f) then Continue tt else Normal tt).
Proof. unfold src_Server_handler_zipskip, go_strings_HasPrefix. now destruct (has_prefix _ _). Qed.

Theorem src_zipname_eq path vers f :
  src_Server_handler_zipname path vers f = Ok (zip_name path vers (fst f)).
Proof. unfold src_Server_handler_zipname, zip_name. now rewrite !app_assoc. Qed.

(* readArchive: the escape calls and the three candidate names *)

Theorem src_readArchive_names_eq short srv path vers :
  src_Server_readArchive_names srv path vers =
  Ok (match archive_name (xmod_oracles short) path vers with
      | None => Return None
      | Some x =>
          let name := TxtarWrite.Path.join (srv_dir srv) x in
          Normal (name, name ++ suffix_txt, name ++ suffix_txtar)
      end).
Proof.
  unfold src_Server_readArchive_names, archive_name, go_module_EscapePath, go_module_EscapeVersion.
  rewrite xmod_escape_path, xmod_escape_version.
  destruct (escape_path xmod_O path) as [enc|]; cbn [go_opt_err]; [|reflexivity].
  destruct (escape_version xmod_O vers) as [encv|]; cbn [go_opt_err]; [|reflexivity].
  cbn [go_strings_ReplaceAll bind go_filepath_Join]. change x2f with path_sep. change x5f with disk_sep.
  now rewrite <- app_assoc.
Qed.

(* the WalkDir callback: the name of a file relative to the directory of the archive *)
Theorem src_readArchive_arpath_eq name rel :
  src_Server_readArchive_arpath name (name ++ [path_sep] ++ rel) = Ok (Normal rel).
Proof.
  unfold src_Server_readArchive_arpath, go_strings_TrimPrefix, go_filepath_ToSlash, TxtarWrite.Path.to_slash.
  change [x2f] with [path_sep]. rewrite app_assoc, BytesFacts.has_prefix_app.
  now rewrite skipn_length_app.
Qed.

Theorem src_readArchive_arpath_other name path :
  has_prefix (name ++ [path_sep]) path = false ->
  src_Server_readArchive_arpath name path = Ok (Normal path).
Proof.
  intros H. unfold src_Server_readArchive_arpath, go_strings_TrimPrefix, go_filepath_ToSlash, TxtarWrite.Path.to_slash.
  change [x2f] with [path_sep]. now rewrite H.
Qed.

(* findHash: the selection of .info *)

Lemma findHash_loop (L : Type) : forall files data0,
  @src_Server_findHash_info_loop1 L files data0 =
  Ok (Normal (match find_file info_entry files with Some data => data | None => data0 end)).
Proof.
  induction files as [|[n data] files IH]; intros data0; [reflexivity|].
  cbn [src_Server_findHash_info_loop1 find_file fst snd]. change Lib.Bytes.bytes_eqb with Proxy.bytes_eqb.
  change [x2e; x69; x6e; x66; x6f] with info_entry.
  destruct (bytes_eqb n info_entry); go_red; [reflexivity|apply IH].
Qed.

Theorem src_findHash_info_eq a :
  src_Server_findHash_info (as_archive a) =
  Ok (match a with
      | None => Return []
      | Some files => Normal (match find_file info_entry files with Some data => data | None => [] end)
      end).
Proof.
  unfold src_Server_findHash_info. destruct a as [files|]; cbn [as_archive option_map go_is_nil go_deref]; [|reflexivity].
  go_red. cbn [ar_files]. rewrite findHash_loop. reflexivity.
Qed.

(* the segments composed in the order the handler runs them *)

Section Compose.
Variable short : bytes -> bytes.                       (* json.Unmarshal's Short field: an oracle *)
Variable enc : list (bytes * bytes) -> bytes.          (* archive/zip's bytes for an entry list: not modelled *)
Let O := xmod_oracles short.

Theorem src_findHash_eq d m : src_findHash short d m = Ok (hash_of O d (fst m) (snd m)).
Proof.
  unfold src_findHash. rewrite src_findHash_info_eq, hash_of_stored.
  fold O. destruct (stored O d (fst m) (snd m)); reflexivity.
Qed.

Lemma write_write w a b : go_http_Write (go_http_Write w a) b = go_http_Write w (a ++ b).
Proof.
  unfold go_http_Write. cbn [rw_status rw_body]. rewrite <- app_assoc. f_equal.
  destruct (rw_status w =? 0)%Z eqn:E; [reflexivity|]. now rewrite E.
Qed.

Lemma write_lines_nonempty : forall vs v w,
  write_lines w (v :: vs) = go_http_Write w (flat_map (fun v => v ++ [x0a]) (v :: vs)).
Proof.
  induction vs as [|v' vs IH]; intros v w.
  - cbn. now rewrite app_nil_r.
  - change (write_lines w (v :: v' :: vs)) with (write_lines (go_http_Write w (v ++ [x0a])) (v' :: vs)).
    rewrite IH, write_write. reflexivity.
Qed.

Theorem src_handle_eq dirname d ml url :
  src_handle short enc dirname d ml url = Ok (resp_of enc (respond_pure O d ml url)).
Proof.
  unfold src_handle. rewrite (src_handler_route_eq short d).
  2:{ intros m. unfold the_server. cbn [srv_archives]. now rewrite src_findHash_eq. }
  cbn [bind the_server srv_modList]. unfold route_outcome, respond_pure. fold O.
  destruct (route O url) as [|path|path vers ext]; [reflexivity| |].
  - unfold list_response. destruct (listed O ml path) as [|v vs]; [reflexivity|].
    rewrite write_lines_nonempty. reflexivity.
  - set (tv := target_version O d ml path vers).
    unfold src_zip. rewrite serve_pure_stored. destruct (stored O d path tv) as [a|].
    + rewrite src_zip_entries_eq. cbn [bind]. rewrite src_handler_serve_eq. cbn [bind serve_outcome].
      unfold file_response. destruct (bytes_eqb ext ext_info || bytes_eqb ext ext_mod).
      * destruct (find_file (entry_dot ++ ext) a); reflexivity.
      * destruct (bytes_eqb ext ext_zip); [|reflexivity].
        unfold build_zip. destruct (build_zip_entries path tv a); reflexivity.
    + cbn [bind]. rewrite src_handler_serve_eq. reflexivity.
Qed.

End Compose.

(* the theorems of the property, on the composed translated segments *)

Section Property.
Variable short : bytes -> bytes.
Variable enc : list (bytes * bytes) -> bytes.
Let O := xmod_oracles short.

(* the composed segments never panic and leave in the ResponseWriter exactly the response of a
   freshly started model server *)
Theorem src_handle_respond dirname d ml url :
  src_handle short enc dirname d ml url = Ok (resp_of enc (respond O d ml url)).
Proof. rewrite respond_eq. apply src_handle_eq. Qed.

(* the status: 404 exactly for the model's NotFound, 500 for a zip that cannot be written *)
Lemma resp_of_status r :
  rw_status (resp_of enc r) =
  match r with NotFound => 404%Z | Err500 => 500%Z | _ => 200%Z end.
Proof. destruct r; reflexivity. Qed.

Lemma resp_of_body_bytes b : rw_body (resp_of enc (OkBytes b)) = b.
Proof. reflexivity. Qed.

Theorem src_serves_stored dirname d ml p v a :
  check_path_x p = true -> semver_is_valid v = true -> check_elem_x v = true -> mem_byte bang v = false ->
  stored O d p v = Some a ->
  exists ep ev, escape_string p = Some ep /\ escape_string v = Some ev /\
  src_handle short enc dirname d ml (file_url ep ev ext_info) =
    Ok (resp_of enc (match find_file (entry_dot ++ ext_info) a with Some data => OkBytes data | None => NotFound end)) /\
  src_handle short enc dirname d ml (file_url ep ev ext_mod) =
    Ok (resp_of enc (match find_file (entry_dot ++ ext_mod) a with Some data => OkBytes data | None => NotFound end)) /\
  src_handle short enc dirname d ml (file_url ep ev ext_zip) = Ok (resp_of enc (zip_response (build_zip p v a))).
Proof.
  intros Hp Hsv Hv Hb Hst.
  destruct (serves_stored_xmod short d ml p v a Hp Hsv Hv Hb Hst) as (ep & ev & Hep & Hev & H1 & H2 & H3).
  exists ep, ev. rewrite !src_handle_respond. fold O in H1, H2, H3. rewrite H1, H2, H3. auto.
Qed.

Theorem src_list_exact dirname d ml p ep :
  path_ok O p -> escape_string p = Some ep ->
  src_handle short enc dirname d ml (list_url ep) =
    Ok (resp_of enc (match listed O ml p with
                     | [] => NotFound
                     | vs => OkBytes (flat_map (fun v => v ++ [x0a]) vs)
                     end)) /\
  (forall v, In v (listed O ml p) <->
     In (p, v) ml /\ is_pseudo O v = false /\ module_check O p v = true).
Proof.
  intros Hp Hep. destruct (list_exact O d ml p ep Hp Hep) as [H1 H2].
  rewrite src_handle_respond. fold O. rewrite H1. auto.
Qed.

(* anything the model answers with 404 is answered with the status 404 and the text of
   http.NotFound, and nothing else is *)
Theorem src_not_found_iff dirname d ml url :
  exists w, src_handle short enc dirname d ml url = Ok w /\
    ((rw_status w = 404%Z) <-> respond O d ml url = NotFound) /\
    (respond O d ml url = NotFound -> w = go_http_NotFound go_response_empty url).
Proof.
  exists (resp_of enc (respond O d ml url)). split; [apply src_handle_respond|].
  rewrite resp_of_status. destruct (respond O d ml url); split; try split; try discriminate; auto.
Qed.

Theorem src_not_stored_404 dirname d ml url :
  let nf := Ok (go_http_NotFound go_response_empty url) in
  (route O url = RNotFound -> src_handle short enc dirname d ml url = nf) /\
  (forall p v e, route O url = RFile p v e ->
     bytes_eqb e ext_info = false -> bytes_eqb e ext_mod = false -> bytes_eqb e ext_zip = false ->
     src_handle short enc dirname d ml url = nf) /\
  (forall p v e, route O url = RFile p v e -> (forall v', stored O d p v' = None) ->
     src_handle short enc dirname d ml url = nf) /\
  (forall p v e, route O url = RFile p v e -> allhex v = false -> stored O d p v = None ->
     src_handle short enc dirname d ml url = nf) /\
  (forall p, route O url = RList p ->
     (forall v, In (p, v) ml -> is_pseudo O v = true \/ module_check O p v = false) ->
     src_handle short enc dirname d ml url = nf).
Proof.
  cbv zeta. destruct (not_stored_404 O d ml url) as (H1 & H2 & H3 & H4 & H5).
  rewrite src_handle_respond. fold O.
  repeat split; intros.
  - now rewrite H1.
  - now rewrite (H2 p v e).
  - now rewrite (H3 p v e).
  - now rewrite (H4 p v e).
  - now rewrite (H5 p).
Qed.

(* the response is something else than 404 exactly for the URLs the store serves *)
Theorem src_route_404_exact dirname d ml url :
  exists w, src_handle short enc dirname d ml url = Ok w /\
    (rw_status w <> 404%Z <-> served_by O d ml url).
Proof.
  exists (resp_of enc (respond O d ml url)). split; [apply src_handle_respond|].
  rewrite <- (route_404_exact O d ml url), resp_of_status.
  destruct (respond O d ml url); split; intro H; try discriminate; try congruence.
Qed.

End Property.

(* Examples: the composed segments compute; the failure values are real *)
From Coq Require Import String.
Local Open Scope string_scope.

Definition ex_dir : dir :=
  [(lit "example.com_v1.0.0.txt", EFile [(lit ".info", lit "{}"); (lit ".mod", lit "module example.com"); (lit "x.go", lit "package x")]);
   (lit "README", EFile [])].

Example ex_src_handle :
  let enc := fun es : list (bytes * bytes) => flat_map fst es in
  let h := src_handle (fun _ => []) enc (lit "testmod") ex_dir [(lit "example.com", lit "v1.0.0")] in
  h (lit "/mod/example.com/@v/list") = Ok (mkResponse 200 (lit "v1.0.0" ++ [x0a])%list) /\
  h (lit "/mod/example.com/@v/v1.0.0.mod") = Ok (mkResponse 200 (lit "module example.com")) /\
  h (lit "/mod/example.com/@v/v1.0.0.zip") = Ok (mkResponse 200 (lit "example.com@v1.0.0/x.go")) /\
  h (lit "/mod/example.com/@v/v1.0.1.mod") = Ok (mkResponse 404 (not_found_text ++ [x0a])%list) /\
  h (lit "/nomod") = Ok (mkResponse 404 (not_found_text ++ [x0a])%list) /\
  src_readModList_loop (mkServer (lit "testmod") [] (fun _ => [])) (dir_names ex_dir) =
    Ok (mkServer (lit "testmod") [(lit "example.com", lit "v1.0.0")] (fun _ => []), false) /\
  go_deref (@None go_archive) = Panic /\ go_strings_ReplaceAll [] [] [] = Panic.
Proof. vm_compute. repeat split; reflexivity. Qed.
