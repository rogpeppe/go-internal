(* C20 — with the Gallina x/mod (Proxy/XMod.v) as oracles, the side conditions path_ok / vers_ok
   of the theorems are computed facts: CheckPath / checkElem acceptance implies them. *)
From Coq Require Import List Bool Arith NArith Lia.
From Coq.Strings Require Import Byte.
From GI Require Import Gen.ProxyConsts Proxy.Regex Proxy.Proxy Proxy.ProxyStrings Proxy.ProxyFacts Proxy.ProxyConc
  Proxy.ProxyTheorems Proxy.XMod.
Import ListNotations.

(* the pieces of a split hold every byte but the separator *)
Lemma concat_split_byte : forall c s, concat (split_byte c s) = filter (fun x => negb (beq x c)) s.
Proof.
  intros c s. induction s as [|y s IH]; [reflexivity|]. cbn [split_byte filter].
  destruct (beq y c); cbn [negb]; [exact IH|]. rewrite <- IH.
  destruct (split_byte c s); reflexivity.
Qed.

Lemma split_byte_cover : forall c s x,
  In x s -> x = c \/ exists e, In e (split_byte c s) /\ In x e.
Proof.
  intros c s x Hin. destruct (beq x c) eqn:E; [left; now apply BytesFacts.beq_eq|right].
  apply in_concat. rewrite concat_split_byte. apply filter_In. now rewrite E.
Qed.

(* "!" and "@" are not module path characters *)
Lemma mod_path_ok_plain : forall c, mod_path_ok c = true -> is_ascii c = true /\ c <> bang /\ c <> at_mark.
Proof.
  intros c H. split; [apply andb_true_iff in H; apply H|]. split; intros ->; discriminate H.
Qed.

Lemma file_name_ok_ascii : forall c, file_name_ok c = true -> is_ascii c = true.
Proof. intros c H. apply andb_true_iff in H. apply H. Qed.

(* module.CheckPath accepts p  ==>  p is ASCII, has no '!' and no '@' *)
Lemma check_path_x_chars : forall p x, check_path_x p = true -> In x p ->
  is_ascii x = true /\ x <> bang /\ x <> at_mark.
Proof.
  intros p x H Hin. unfold check_path_x in H.
  apply andb_true_iff in H. destruct H as [H _]. apply andb_true_iff in H. destruct H as [H _].
  unfold check_path_k in H. apply andb_true_iff in H. destruct H as [_ Hel].
  rewrite forallb_forall in Hel.
  destruct (split_byte_cover c_slash p x Hin) as [->|[e [He Hx]]].
  - repeat split; discriminate.
  - specialize (Hel e He). unfold check_elem_k in Hel.
    repeat (apply andb_true_iff in Hel; destruct Hel as [Hel ?]).
    match goal with Hc : forallb (char_ok ModulePath) e = true |- _ =>
      rewrite forallb_forall in Hc; apply mod_path_ok_plain; apply (Hc x Hx) end.
Qed.

Lemma escapable_intro : forall s, (forall x, In x s -> is_ascii x = true /\ x <> bang) -> escapable s = true.
Proof.
  intros s H. apply forallb_forall. intros x Hx. destruct (H x Hx) as [-> Hb].
  now rewrite BytesFacts.beq_false by exact Hb.
Qed.

Theorem check_path_x_path_ok : forall short p, check_path_x p = true -> path_ok (xmod_oracles short) p.
Proof.
  intros short p H. split; [exact H|]. split.
  - apply escapable_intro. intros x Hx. destruct (check_path_x_chars p x H Hx) as (Ha & Hb & _). now split.
  - intro Hin. now destruct (check_path_x_chars p at_mark H Hin) as (_ & _ & []).
Qed.

Theorem check_elem_x_vers_ok : forall short v,
  check_elem_x v = true -> mem_byte bang v = false -> vers_ok (xmod_oracles short) v.
Proof.
  intros short v H Hb. split; [exact H|]. apply escapable_intro. intros x Hx. split.
  - unfold check_elem_x, check_elem_k in H.
    repeat (apply andb_true_iff in H; destruct H as [H ?]).
    match goal with Hc : forallb (char_ok FilePath) v = true |- _ =>
      rewrite forallb_forall in Hc; apply file_name_ok_ascii, (Hc x Hx) end.
  - intros ->. apply (proj1 (BytesFacts.mem_byte_false bang v) Hb), Hx.
Qed.

(* a valid semantic version is not a commit hash *)
Lemma semver_valid_not_hex : forall v, semver_is_valid v = true -> allhex v = false.
Proof.
  intros v H. unfold semver_is_valid, parse in H. destruct v as [|c v]; [discriminate|].
  destruct (beq c c_v) eqn:E; cbn [negb] in H; [|discriminate].
  apply BytesFacts.beq_eq in E. subst c. reflexivity.
Qed.

(* serves_stored with nothing but computed side conditions *)
Theorem serves_stored_xmod : forall short d ml p v a,
  check_path_x p = true -> semver_is_valid v = true -> check_elem_x v = true -> mem_byte bang v = false ->
  stored (xmod_oracles short) d p v = Some a ->
  exists ep ev, escape_string p = Some ep /\ escape_string v = Some ev /\
  let O := xmod_oracles short in
  respond O d ml (file_url ep ev ext_info) =
    (match find_file (entry_dot ++ ext_info) a with Some data => OkBytes data | None => NotFound end) /\
  respond O d ml (file_url ep ev ext_mod) =
    (match find_file (entry_dot ++ ext_mod) a with Some data => OkBytes data | None => NotFound end) /\
  respond O d ml (file_url ep ev ext_zip) = zip_response (build_zip p v a).
Proof.
  intros short d ml p v a Hp Hsv Hv Hb Hst.
  pose proof (check_path_x_path_ok short p Hp) as Hpo.
  pose proof (check_elem_x_vers_ok short v Hv Hb) as Hvo.
  destruct (escape_string_total p (proj1 (proj2 Hpo))) as [ep Hep].
  destruct (escape_string_total v (proj2 Hvo)) as [ev Hev].
  exists ep, ev. split; [exact Hep|]. split; [exact Hev|].
  destruct (serves_stored (xmod_oracles short) d ml p v ep ev a Hpo Hvo (semver_valid_not_hex v Hsv) Hep Hev Hst)
    as [H1 [H2 [H3 _]]].
  cbv zeta. repeat split; assumption.
Qed.

From Coq Require Import String.
Local Open Scope string_scope.

Example xmod_examples :
  check_path_x (lit "example.com/Foo/v2") = true /\ check_path_x (lit "example.com/Foo/v1") = false /\
  check_path_x (lit "gopkg.in/yaml.v2") = true /\ check_path_x (lit "Example.com/x") = false /\
  check_path_x (lit "example.com/con") = false /\ check_path_x (lit "example.com/x~1") = false /\
  check_path_x (lit "example.com/a@b") = false /\ check_path_x (lit "nodot/x") = false /\
  check_elem_x (lit "v1.0.0-Pre+x") = true /\ check_elem_x (lit "v1/x") = false /\ check_elem_x (lit "v1.") = false /\
  semver_is_valid (lit "v1.2.3-rc.1+meta") = true /\ semver_is_valid (lit "v1.2.3-01") = false /\
  semver_is_valid (lit "v1") = true /\ semver_canonical (lit "v1.2") = lit "v1.2.0" /\
  semver_compare (lit "v1.0.0-alpha") (lit "v1.0.0") = Lt /\ semver_compare (lit "v1.0.0-2") (lit "v1.0.0-11") = Lt /\
  semver_compare (lit "") (lit "v0.0.1") = Lt /\
  module_check_x (lit "example.com/Foo/v2") (lit "v2.1.0") = true /\
  module_check_x (lit "example.com/Foo") (lit "v2.1.0") = false /\
  module_check_x (lit "example.com/Foo") (lit "v2.1.0+incompatible") = true /\
  re_match pseudo_version_re (lit "v0.0.0-20180101000000-abcdef123456") = true /\
  re_match pseudo_version_re (lit "v1.2.4-0.20180101000000-abcdef123456+incompatible") = true /\
  re_match pseudo_version_re (lit "v1.2.3-20180101000000-abcdef123456") = false /\
  is_pseudo (xmod_oracles (fun x => x)) (lit "v1.2.4-pre.0.20180101000000-abcdef123456") = true.
Proof. vm_compute. repeat split. Qed.
