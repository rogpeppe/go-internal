(* C20 — refinement: the handlers running on the MODELLED par.Cache (group Par, ParCache.v: every
   synchronisation operation of Cache.Do is one step, the mutex blocks, f runs while other
   threads run) compute the responses of the atomic specification [cache_do] used in
   ProxyConc.v.  "Caches computed once per key" is thereby a theorem about the modelled
   par.Cache (C10: do_returns_f_value), not an assumption.

   Event-level system.  One Par cache state [acs] holds both caches (keys [ka n] for
   archiveCache, [kz n] for zipCache; the two caches are separate objects, i.e. disjoint key
   sets of one sync.Map-like table); thread i of it belongs to handler i.  A step of thread i is
     - the call statement: handler i is at ArchDo n k / ZipDo n v k and its thread is idle: the
       thread enters Do(key) (program counter DLoad key);
     - one step of ParCache.cstep inside that Do; when the Do returns value tok, the handler
       resumes with the Go value that token stands for ([resume]): the archive loaded for the
       name of the key, resp. the zip built for it.  A nil result would panic in the type
       assertion (to *txtar.Archive resp. cached): the handler becomes [None].
   Par's values are natural numbers and its f_k returns [fval k]; here fval k = k: the token of
   a key stands for "what f computed for this key", which is [lookup_archive d n] for the
   archive cache and, for the zip cache, the value every compatible request computes ([Zf]). *)
From Coq Require Import List Bool Arith NArith Lia.
From Coq.Strings Require Import Byte.
From GI Require Import Gen.ProxyConsts Proxy.Proxy Proxy.ProxyStrings Proxy.ProxyFacts Proxy.ProxyConc.
From GI Require Import Gen.ParConsts Par.ParWork Par.ParLib Par.ParCache Par.ParCacheBase Par.ParCacheProofs.
Import ListNotations.

Definition fval_id (k : nat) : option nat := Some k.
(* f never calls Do itself: archiveCache's f reads files, zipCache's f zips an archive it was given *)
Definition deps0 (k : nat) : list nat := [].
(* and f returns: loading an archive or building a zip reports failure through its value (nil
   archive, cached{nil, err}); neither function panics or calls runtime.Goexit *)
Definition crash0 (k : nat) : bool := false.

Section Refine.
Variable A : Type.
Variable d : dir.
Variables ka kz : bytes -> nat.          (* cache keys of the two caches *)
Variable name_of : nat -> bytes.
Hypothesis name_ka : forall n, name_of (ka n) = n.
Hypothesis name_kz : forall n, name_of (kz n) = n.
Variable Zf : bytes -> zipres.           (* the zip every request computes for an archive name *)

Notation cstepF := (cstep fval_id deps0 crash0).

(* the calls a handler makes when every Do returns what its own f computes *)
Fixpoint calls (p : prog A) : list call :=
  match p with
  | Ret _ => []
  | ArchDo n k => CDo (ka n) :: calls (k (lookup_archive d n))
  | ZipDo n v k => CDo (kz n) :: calls (k v)
  end.

Definition next_key (p : prog A) : option nat :=
  match p with
  | Ret _ => None
  | ArchDo n _ => Some (ka n)
  | ZipDo n _ _ => Some (kz n)
  end.

Definition canon_next (p : prog A) : option (prog A) :=
  match p with
  | Ret _ => None
  | ArchDo n k => Some (k (lookup_archive d n))
  | ZipDo n v k => Some (k v)
  end.

(* the handler continues with the value Do returned *)
Definition resume (p : prog A) (v : option nat) : option (prog A) :=
  match p, v with
  | ArchDo n k, Some tok => Some (k (lookup_archive d (name_of tok)))
  | ZipDo n v0 k, Some tok => Some (k (Zf (name_of tok)))
  | _, _ => None
  end.

Record astate := mkA { acs : cstate; hs : list (option (prog A)) }.

Definition is_idle_pc (p : cpc) : bool := match p with Idle => true | _ => false end.

Definition astep (st : astate) (t : nat) : option astate :=
  match nth_error (thrs (acs st)) t, nth_error (hs st) t with
  | Some th, Some (Some h) =>
      if is_idle_pc (tpc th) then
        match next_key h with
        | None => None                                            (* the handler has returned *)
        | Some key =>
            Some (mkA (mkC (set_nth t (mkThr (DLoad key) [] [] (rets th) (nrets th)) (thrs (acs st)))
                           (ents (acs st)) (plain (acs st)))
                      (hs st))
        end
      else
        match cstepF (acs st) t with
        | None => None                                            (* blocked in e.mu.Lock() *)
        | Some cs' =>
            match nth_error (thrs cs') t with
            | Some th' =>
                if is_idle_pc (tpc th') then
                  Some (mkA cs' (set_nth t (resume h (match rets th' with (_, v) :: _ => v | [] => None end)) (hs st)))
                else Some (mkA cs' (hs st))
            | None => None
            end
        end
  | _, _ => None
  end.

Fixpoint arun (sch : list nat) (st : astate) : option astate :=
  match sch with
  | [] => Some st
  | t :: r => match astep st t with Some st' => arun r st' | None => None end
  end.

Definition ainit (ps : list (prog A)) : astate :=
  mkA (mkC (map (fun _ => mkThr Idle [] [] [] []) ps) (fun _ => entry0) []) (map Some ps).

(* one cstep on two states that differ only in what the threads will call next *)

Inductive tupd := TGoto (p : cpc) | TRet (c : call) (v : option nat).
Definition apply_upd (th : thr) (u : tupd) : thr :=
  match u with TGoto p => goto th p | TRet c v => ret th c v end.

Lemma cstep_lockstep : forall sa sc t tha thc key,
  ents sa = ents sc -> plain sa = plain sc ->
  nth_error (thrs sa) t = Some tha -> nth_error (thrs sc) t = Some thc ->
  tpc tha = tpc thc -> cur (tpc tha) = [CDo key] -> stack tha = [] -> stack thc = [] ->
  (cstepF sa t = None /\ cstepF sc t = None) \/
  (exists sa' sc' u, cstepF sa t = Some sa' /\ cstepF sc t = Some sc' /\
     ents sa' = ents sc' /\ plain sa' = plain sc' /\
     thrs sa' = set_nth t (apply_upd tha u) (thrs sa) /\
     thrs sc' = set_nth t (apply_upd thc u) (thrs sc) /\
     match u with
     | TGoto p => cur p = [CDo key]
     | TRet c v => c = CDo key
     end).
Proof.
  intros sa sc t tha thc key He Hp Ha Hc Hpc Hcur Hsa Hsc.
  unfold cstep. rewrite Ha, Hc. rewrite <- Hpc. rewrite <- He, <- Hp.
  destruct (tpc tha) eqn:Et; cbn [cur] in Hcur; try discriminate; inversion Hcur; subst.
  (* one goal per program counter inside Do, in the order of Par's cpc: DLoad, DLoadOrStore, DLoad1,
     DLock, DLoad2, DCall, DInF, DWrite, DStore, DUnlock, DRead; those whose step reads the
     entry or ends the call first, from the last so that the numbers stay *)
  11: { (* DRead: the Do returns *)
        right. unfold do_return. rewrite Hsa, Hsc. eexists _, _, (TRet _ _); repeat split; reflexivity. }
  (* DInF: f has no nested Do *)
  7: unfold deps0; replace (nth_error (@nil nat) j) with (@None nat) by (destruct j; reflexivity).
  (* DLoad2: done? *)
  5: destruct (isd (ents sa key)).
  (* DLock: the mutex blocks *)
  4: destruct (locked (ents sa key)); [left; split; reflexivity|].
  (* DLoad1: done? *)
  3: destruct (isd (ents sa key)).
  (* DLoad: present? *)
  1: destruct (present (ents sa key)).
  all: right; eexists _, _, (TGoto _); repeat split; reflexivity.
Qed.

Variable ps : list (prog A).
Definition Zl : list (bytes * zipres) := flat_map (zip_ops d) ps.
Hypothesis Zf_agrees : forall n v, In (n, v) Zl -> Zf n = v.

Notation creach := (creachable fval_id deps0 crash0 (map calls ps)).

(* where handler h stands: before its next call (its thread idle here, about to start the rest of
   its calls in the Par state), or inside the Do for the next key, after which h' is left *)
Inductive at_pc (h : prog A) (tha thc : thr) : Prop :=
| at_call : tpc tha = Idle -> tpc thc = fst (start (calls h)) -> rest thc = snd (start (calls h)) ->
    at_pc h tha thc
| in_do key h' : tpc tha = tpc thc -> cur (tpc tha) = [CDo key] -> next_key h = Some key ->
    canon_next h = Some h' -> rest thc = calls h' -> at_pc h tha thc.

(* handler p has become h; its thread here is tha, in the Par state thc *)
Record thr_rel (p h : prog A) (tha thc : thr) : Prop := {
  r_rest : rest tha = [];
  r_rets : rets tha = rets thc;
  r_stka : stack tha = [];
  r_stkc : stack thc = [];
  r_run : run_own d h = run_own d p;
  r_incl : incl (zip_ops d h) Zl;
  r_pc : at_pc h tha thc
}.
Arguments r_rest {p h tha thc}.
Arguments r_rets {p h tha thc}.
Arguments r_stka {p h tha thc}.
Arguments r_stkc {p h tha thc}.
Arguments r_run {p h tha thc}.
Arguments r_incl {p h tha thc}.
Arguments r_pc {p h tha thc}.

Record Inv (st : astate) (sc : cstate) : Prop := {
  i_reach : creach sc;
  i_ents : ents (acs st) = ents sc;
  i_plain : plain (acs st) = plain sc;
  i_len1 : length (thrs (acs st)) = length ps;
  i_len2 : length (thrs sc) = length ps;
  i_len3 : length (hs st) = length ps;
  i_thr : forall i p tha thc ho,
      nth_error ps i = Some p -> nth_error (thrs (acs st)) i = Some tha ->
      nth_error (thrs sc) i = Some thc -> nth_error (hs st) i = Some ho ->
      exists h, ho = Some h /\ thr_rel p h tha thc
}.

Lemma next_canon : forall h key, next_key h = Some key ->
  exists h', canon_next h = Some h' /\ calls h = CDo key :: calls h' /\
             run_own d h' = run_own d h /\ incl (zip_ops d h') (zip_ops d h).
Proof.
  intros [a|n k|n v k] key H; cbn in H; [discriminate| |]; inversion H; subst.
  - eexists. repeat split. apply incl_refl.
  - eexists. repeat split. cbn [zip_ops]. apply incl_tl, incl_refl.
Qed.

Lemma resume_canon : forall h key, next_key h = Some key -> incl (zip_ops d h) Zl ->
  resume h (Some key) = canon_next h.
Proof.
  intros [a|n k|n v k] key H Hin; cbn in H; [discriminate| |]; inversion H; subst; cbn [resume canon_next].
  - rewrite name_ka. reflexivity.
  - rewrite name_kz. rewrite (Zf_agrees n v); [reflexivity|]. apply Hin. cbn. left. reflexivity.
Qed.

Lemma init_Inv : Inv (ainit ps) (cinit (map calls ps)).
Proof.
  constructor; cbn [ainit acs hs thrs ents plain cinit]; try reflexivity.
  - apply creach_init.
  - apply map_length.
  - now rewrite !map_length.
  - apply map_length.
  - intros i p tha thc ho Hp Ha Hc Hh.
    rewrite nth_error_map, Hp in Ha, Hh. rewrite map_map, nth_error_map, Hp in Hc.
    injection Ha as <-. injection Hc as <-. injection Hh as <-.
    exists p. split; [reflexivity|]. constructor; try reflexivity; [|now apply at_call].
    intros x Hx. apply in_flat_map. exists p. split; [eapply nth_error_In, Hp|exact Hx].
Qed.

Lemma nth_error_some : forall {X} (l : list X) i, i < length l -> exists x, nth_error l i = Some x.
Proof.
  intros X l i H. destruct (nth_error l i) eqn:E; [eexists; reflexivity|].
  apply nth_error_None in E. lia.
Qed.

Lemma Inv_at : forall st sc i p,
  Inv st sc -> nth_error ps i = Some p ->
  exists tha thc h, nth_error (thrs (acs st)) i = Some tha /\ nth_error (thrs sc) i = Some thc /\
    nth_error (hs st) i = Some (Some h) /\ thr_rel p h tha thc.
Proof.
  intros st sc i p HI Hp. pose proof (nth_error_lt _ _ _ Hp) as Hlt.
  destruct (nth_error_some (thrs (acs st)) i) as [tha Ea]; [now rewrite (i_len1 _ _ HI)|].
  destruct (nth_error_some (thrs sc) i) as [thc Ec]; [now rewrite (i_len2 _ _ HI)|].
  destruct (nth_error_some (hs st) i) as [ho Eh]; [now rewrite (i_len3 _ _ HI)|].
  destruct (i_thr _ _ HI i p _ _ _ Hp Ea Ec Eh) as (h & -> & R). now exists tha, thc, h.
Qed.

(* l' is l with x at position t *)
Definition upd_at {X} (t : nat) (x : X) (l l' : list X) : Prop :=
  length l' = length l /\ nth_error l' t = Some x /\ forall i, t <> i -> nth_error l' i = nth_error l i.

Lemma upd_at_set : forall {X} t (x : X) l, t < length l -> upd_at t x l (set_nth t x l).
Proof.
  intros X t x l H. split; [apply set_nth_length|]. split; [now apply nth_error_set_nth_eq|].
  intros i Hi. now apply nth_error_set_nth_neq.
Qed.

Lemma upd_at_same : forall {X} t (x : X) l, nth_error l t = Some x -> upd_at t x l l.
Proof. now repeat split. Qed.

(* the invariant survives a change of what belongs to handler t *)
Lemma Inv_set : forall st sc st' sc' t p tha thc h,
  Inv st sc -> nth_error ps t = Some p -> creach sc' ->
  ents (acs st') = ents sc' -> plain (acs st') = plain sc' ->
  upd_at t tha (thrs (acs st)) (thrs (acs st')) -> upd_at t thc (thrs sc) (thrs sc') ->
  upd_at t (Some h) (hs st) (hs st') ->
  thr_rel p h tha thc -> Inv st' sc'.
Proof.
  intros st sc st' sc' t p tha thc h HI Hp Hr He Hpl (La & Ta & Oa) (Lc & Tc & Oc) (Lh & Th & Oh) R.
  constructor; try assumption.
  - now rewrite La, (i_len1 _ _ HI).
  - now rewrite Lc, (i_len2 _ _ HI).
  - now rewrite Lh, (i_len3 _ _ HI).
  - intros i q tha' thc' ho' Hq Ha Hc Hh. destruct (Nat.eq_dec t i) as [<-|Hne].
    + assert (q = p /\ tha' = tha /\ thc' = thc /\ ho' = Some h) as (-> & -> & -> & ->)
        by (repeat split; congruence).
      now exists h.
    + rewrite Oa in Ha by exact Hne. rewrite Oc in Hc by exact Hne. rewrite Oh in Hh by exact Hne.
      exact (i_thr _ _ HI i q _ _ _ Hq Ha Hc Hh).
Qed.

Lemma step_Inv : forall st sc t st',
  Inv st sc -> astep st t = Some st' ->
  exists sc', Inv st' sc' /\ (sc' = sc \/ cstepF sc t = Some sc').
Proof.
  intros st sc t st' HI Hs. unfold astep in Hs.
  destruct (nth_error (thrs (acs st)) t) as [tha|] eqn:Ea; [|discriminate].
  destruct (nth_error (hs st) t) as [[h|]|] eqn:Eh; try discriminate.
  pose proof (nth_error_lt _ _ _ Ea) as Hlta. pose proof Hlta as Hltc. pose proof Hlta as Hlth.
  rewrite (i_len1 _ _ HI) in Hltc, Hlth. rewrite <- (i_len2 _ _ HI) in Hltc. rewrite <- (i_len3 _ _ HI) in Hlth.
  destruct (nth_error_some ps t) as [p Ep]; [now rewrite <- (i_len1 _ _ HI)|].
  destruct (Inv_at _ _ _ _ HI Ep) as (tha0 & thc & h0 & Ea0 & Ec & Eh0 & R).
  rewrite Ea in Ea0. rewrite Eh in Eh0. injection Ea0 as <-. injection Eh0 as <-.
  destruct (is_idle_pc (tpc tha)) eqn:Eidle.
  - (* the call statement *)
    destruct (next_key h) as [key|] eqn:Ek; [|discriminate]. injection Hs as <-.
    destruct (r_pc R) as [_ Hpc Hr|key' h' _ Hcur]; [|destruct (tpc tha); discriminate].
    destruct (next_canon h key Ek) as (h' & Hcn & Hcalls & _).
    rewrite Hcalls in Hpc, Hr. cbn [start fst snd] in Hpc, Hr.
    exists sc. split; [|left; reflexivity].
    eapply Inv_set; [exact HI|exact Ep|apply (i_reach _ _ HI)|apply (i_ents _ _ HI)|apply (i_plain _ _ HI)|
      apply upd_at_set, Hlta|apply upd_at_same, Ec|apply upd_at_same, Eh|].
    constructor; cbn [rest rets stack]; try apply R; [reflexivity..|].
    now apply (in_do _ _ _ key h').
  - (* a step inside Do *)
    destruct (r_pc R) as [Hi|key h' Hpc Hcur Hnk Hcn Hr]; [rewrite Hi in Eidle; discriminate|].
    destruct (cstep_lockstep (acs st) sc t tha thc key (i_ents _ _ HI) (i_plain _ _ HI) Ea Ec Hpc Hcur
                (r_stka R) (r_stkc R))
      as [[Hn _]|(sa' & sc' & u & Hsa & Hsc & He' & Hp' & Hta & Htc & Hu)]; [rewrite Hn in Hs; discriminate|].
    rewrite Hsa, Hta, nth_error_set_nth_eq in Hs by exact Hlta.
    assert (creach sc') as Hreach' by (eapply creach_step; [apply (i_reach _ _ HI)|exact Hsc]).
    exists sc'. split; [|right; exact Hsc].
    destruct u as [pc'|c v]; cbn [apply_upd goto ret tpc] in Hs.
    + (* still inside the Do *)
      replace (is_idle_pc pc') with false in Hs by (destruct pc'; discriminate || reflexivity).
      injection Hs as <-.
      eapply Inv_set; cbn [acs hs]; [exact HI|exact Ep|exact Hreach'|exact He'|exact Hp'|
        rewrite Hta; apply upd_at_set, Hlta|rewrite Htc; apply upd_at_set, Hltc|apply upd_at_same, Eh|].
      constructor; cbn [apply_upd goto rest rets stack]; try apply R.
      now apply (in_do _ _ _ key h').
    + (* the Do returns *)
      subst c. rewrite (r_rest R) in Hs. cbn [start fst snd is_idle_pc rets] in Hs. injection Hs as <-.
      (* C10: the returned value is the value of the one call of f for this key *)
      assert (v = Some key) as ->.
      { apply (do_returns_f_value fval_id deps0 crash0 (map calls ps) sc' t (apply_upd thc (TRet (CDo key) v)) key v Hreach').
        - rewrite Htc. now apply nth_error_set_nth_eq.
        - left. reflexivity. }
      rewrite (resume_canon h key Hnk (r_incl R)), Hcn.
      destruct (next_canon h key Hnk) as (h2 & Hcn2 & _ & Hrun' & Hinc').
      rewrite Hcn in Hcn2. injection Hcn2 as <-.
      eapply Inv_set; cbn [acs hs]; [exact HI|exact Ep|exact Hreach'|exact He'|exact Hp'|
        rewrite Hta; apply upd_at_set, Hlta|rewrite Htc; apply upd_at_set, Hltc|apply upd_at_set, Hlth|].
      constructor; cbn [apply_upd ret rest rets stack]; try apply R.
      * now rewrite (r_rest R).
      * now rewrite (r_rets R).
      * now rewrite Hrun', (r_run R).
      * exact (incl_tran Hinc' (r_incl R)).
      * apply at_call; cbn [apply_upd ret tpc rest]; now rewrite ?(r_rest R), ?Hr.
Qed.

Lemma arun_Inv : forall sch st sc st',
  Inv st sc -> arun sch st = Some st' -> exists sc', Inv st' sc'.
Proof.
  induction sch as [|t r IH]; intros st sc st' HI H.
  - cbn in H. inversion H; subst. exists sc. exact HI.
  - cbn [arun] in H. destruct (astep st t) as [st1|] eqn:E; [|discriminate].
    destruct (step_Inv st sc t st1 HI E) as (sc1 & HI1 & _). eapply IH; eassumption.
Qed.

(* THE REFINEMENT: under every interleaving of the operations of the modelled par.Cache, no
   handler panics, and a handler that has returned holds the value it computes alone with the
   atomic specification. *)
Theorem event_level_same : forall sch st,
  arun sch (ainit ps) = Some st ->
  forall i p, nth_error ps i = Some p ->
  exists h, nth_error (hs st) i = Some (Some h) /\ run_own d h = run_own d p /\
            (forall r, h = Ret r -> r = run_own d p).
Proof.
  intros sch st Hrun i p Hp.
  destruct (arun_Inv sch (ainit ps) _ st init_Inv Hrun) as (sc & HI).
  destruct (Inv_at _ _ _ _ HI Hp) as (tha & thc & h & _ & _ & Eh & R).
  exists h. split; [exact Eh|]. split; [exact (r_run R)|].
  intros r ->. exact (r_run R).
Qed.

(* the shared cache state of the event-level run is a reachable state of the Par model: its
   theorems (f at most once per key, race freedom, ...) hold of it *)
Theorem event_level_cache_reachable : forall sch st,
  arun sch (ainit ps) = Some st ->
  exists sc, creach sc /\ ents (acs st) = ents sc /\ plain (acs st) = plain sc.
Proof.
  intros sch st Hrun. destruct (arun_Inv sch (ainit ps) _ st init_Inv Hrun) as (sc & HI).
  exists sc. split; [apply (i_reach _ _ HI)|]. split; [apply (i_ents _ _ HI)|apply (i_plain _ _ HI)].
Qed.

(* progress: the event-level system does not deadlock.  In every reachable state either every
   handler has returned or some thread can take a step (from C10's cache_no_deadlock). *)
Definition returned (ho : option (prog A)) : Prop := exists r, ho = Some (Ret r).

Lemma calls_nil : forall h, calls h = [] -> exists r, h = Ret r.
Proof. intros [a|n k|n v k] H; [eexists; reflexivity|discriminate|discriminate]. Qed.

(* when every thread of the Par state is idle, every handler has returned *)
Lemma idle_returned : forall st sc, Inv st sc -> all_idle sc = true -> Forall returned (hs st).
Proof.
  intros st sc HI Hidle. apply Forall_forall. intros ho Hin.
  apply In_nth_error in Hin. destruct Hin as [i Hi].
  destruct (nth_error_some ps i) as [p Ep]; [rewrite <- (i_len3 _ _ HI); eapply nth_error_lt, Hi|].
  destruct (Inv_at _ _ _ _ HI Ep) as (tha & thc & h & _ & Ec & Eh & R).
  rewrite Hi in Eh. injection Eh as ->.
  assert (tpc thc = Idle) as Hci.
  { unfold all_idle in Hidle. rewrite forallb_forall in Hidle.
    specialize (Hidle thc (nth_error_In _ _ Ec)). unfold is_idle in Hidle.
    destruct (tpc thc); try discriminate; reflexivity. }
  destruct (r_pc R) as [_ Hpc _|key h' Hpc Hcur]; [|rewrite Hpc, Hci in Hcur; discriminate].
  rewrite Hci in Hpc. destruct h as [r|n k|n v k]; [now exists r|discriminate..].
Qed.

(* a thread that can step in the Par state can step here: its call statement, or the same step *)
Lemma cstep_astep : forall st sc t sc', Inv st sc -> cstepF sc t = Some sc' -> exists st', astep st t = Some st'.
Proof.
  intros st sc t sc' HI Hstep.
  unfold cstep in Hstep. destruct (nth_error (thrs sc) t) as [thc|] eqn:Ec; [|discriminate].
  destruct (nth_error_some ps t) as [p Ep]; [rewrite <- (i_len2 _ _ HI); eapply nth_error_lt, Ec|].
  destruct (Inv_at _ _ _ _ HI Ep) as (tha & thc' & h & Ea & Ec' & Eh & R).
  rewrite Ec in Ec'. injection Ec' as <-.
  unfold astep. rewrite Ea, Eh.
  destruct (r_pc R) as [Hai Hpc _|key h' Hpc Hcur].
  - rewrite Hai. cbn [is_idle_pc].
    destruct h as [a|n k|n v k]; [|eexists; reflexivity..].
    cbn in Hpc. rewrite Hpc in Hstep. discriminate.
  - replace (is_idle_pc (tpc tha)) with false by (destruct (tpc tha); discriminate || reflexivity).
    destruct (cstep_lockstep (acs st) sc t tha thc key (i_ents _ _ HI) (i_plain _ _ HI) Ea Ec Hpc Hcur (r_stka R) (r_stkc R))
      as [[_ Hn]|(sa' & sc2 & u & Hsa & _ & _ & _ & Hta & _)].
    + unfold cstep in Hn. rewrite Ec in Hn. rewrite Hn in Hstep. discriminate.
    + rewrite Hsa, Hta, nth_error_set_nth_eq by (eapply nth_error_lt, Ea).
      destruct (is_idle_pc (tpc (apply_upd tha u))); eexists; reflexivity.
Qed.

Theorem event_level_progress : forall sch st,
  arun sch (ainit ps) = Some st ->
  Forall returned (hs st) \/ exists t st', astep st t = Some st'.
Proof.
  intros sch st Hrun.
  destruct (arun_Inv sch (ainit ps) _ st init_Inv Hrun) as (sc & HI).
  destruct (cache_no_deadlock fval_id deps0 crash0 (map calls ps) (fun _ => 0) (fun _ _ (H : False) => match H with end)
              (fun _ => eq_refl) sc (i_reach _ _ HI)) as [Hidle|(t & sc' & Hstep)].
  - left. exact (idle_returned _ _ HI Hidle).
  - right. exists t. exact (cstep_astep _ _ _ _ HI Hstep).
Qed.

End Refine.
