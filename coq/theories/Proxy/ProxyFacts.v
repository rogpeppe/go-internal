(* C20 — facts about routing, the responses and the module list of Proxy.v *)
From Coq Require Import List Bool Arith NArith Lia.
From Coq.Strings Require Import Byte.
From GI Require Import Gen.ProxyConsts Proxy.Proxy Proxy.ProxyStrings.
From GI Require Lib.BytesFacts.
Import ListNotations.

(* the byte that marks the "/@v/" separator: its second byte *)
Definition at_mark : byte := nth 1 at_v x00.

Lemma at_v_shape : exists c0 rest, at_v = c0 :: at_mark :: rest /\ c0 <> at_mark.
Proof. eexists. eexists. split; [reflexivity|]. discriminate. Qed.

(* escaping brings in neither "@" nor the disk separator "_" *)
Lemma escape_keeps_at : forall s e, escape_string s = Some e -> ~ In at_mark s -> ~ In at_mark e.
Proof. intros s e H Hn. apply (escape_not_in _ _ _ H Hn); [discriminate|reflexivity]. Qed.

Lemma escape_keeps_disk_sep : forall s e, escape_string s = Some e -> ~ In disk_sep s -> ~ In disk_sep e.
Proof. intros s e H Hn. apply (escape_not_in _ _ _ H Hn); [discriminate|reflexivity]. Qed.

Lemma list_name_no_ext_sep : ~ In ext_sep list_name.
Proof. apply BytesFacts.mem_byte_false. reflexivity. Qed.

Section Facts.
Variable O : oracles.

(* what module.CheckPath / checkElem guarantee of the strings they accept and the theorems use:
   ASCII without '!' (so that escapeString succeeds) and, for paths, no '@'. *)
Definition path_ok (p : bytes) : Prop :=
  check_path O p = true /\ escapable p = true /\ ~ In at_mark p.

Definition vers_ok (v : bytes) : Prop :=
  check_elem O v = true /\ escapable v = true.

Lemma escapable_no_bang : forall s, escapable s = true -> mem_byte bang s = false.
Proof.
  intros s H. apply BytesFacts.mem_byte_false. intro Hin. unfold escapable in H.
  rewrite forallb_forall in H. specialize (H _ Hin). rewrite BytesFacts.beq_refl in H.
  rewrite andb_false_r in H. discriminate.
Qed.

Lemma escape_string_total : forall s, escapable s = true -> exists e, escape_string s = Some e.
Proof. intros s H. unfold escape_string. rewrite H. eexists. reflexivity. Qed.

Lemma escape_path_ok : forall p e, path_ok p -> escape_string p = Some e -> escape_path O p = Some e.
Proof. intros p e [Hc _] He. unfold escape_path. rewrite Hc. exact He. Qed.

Lemma escape_version_ok : forall v e, vers_ok v -> escape_string v = Some e -> escape_version O v = Some e.
Proof.
  intros v e [Hc Hesc] He. unfold escape_version. rewrite Hc, (escapable_no_bang _ Hesc). exact He.
Qed.

Lemma unescape_path_ok : forall p e, path_ok p -> escape_string p = Some e -> unescape_path O e = Some p.
Proof. intros p e [Hc _] He. unfold unescape_path. rewrite (unescape_escape _ _ He), Hc. reflexivity. Qed.

Lemma unescape_version_ok : forall v e, vers_ok v -> escape_string v = Some e -> unescape_version O e = Some v.
Proof. intros v e [Hc _] He. unfold unescape_version. rewrite (unescape_escape _ _ He), Hc. reflexivity. Qed.

Lemma escape_path_inv : forall p e, escape_path O p = Some e -> escape_string p = Some e.
Proof. intros p e. unfold escape_path. now destruct (check_path O p). Qed.

Lemma escape_version_inv : forall v e, escape_version O v = Some e -> escape_string v = Some e.
Proof. intros v e. unfold escape_version. now destruct (check_elem O v && negb (mem_byte bang v)). Qed.

Lemma unescape_path_inv : forall e p,
  unescape_path O e = Some p -> unescape_string e = Some p /\ check_path O p = true.
Proof.
  intros e p. unfold unescape_path. destruct (unescape_string e) as [q|]; [|discriminate].
  destruct (check_path O q) eqn:E; [|discriminate]. now intros [= ->].
Qed.

Lemma unescape_version_inv : forall e v,
  unescape_version O e = Some v -> unescape_string e = Some v /\ check_elem O v = true.
Proof.
  intros e v. unfold unescape_version. destruct (unescape_string e) as [q|]; [|discriminate].
  destruct (check_elem O q) eqn:E; [|discriminate]. now intros [= ->].
Qed.

(* what route returns is a decomposition of the URL (C20_route_total) *)
Definition route_spec (url : bytes) (r : route_result) : Prop :=
  match r with
  | RNotFound => True
  | RList path =>
      exists enc, url = list_url enc /\ unescape_path O enc = Some path /\ check_path O path = true
  | RFile path vers ext =>
      exists enc encv, url = file_url enc encv ext /\
        unescape_path O enc = Some path /\ check_path O path = true /\
        unescape_version O encv = Some vers /\ check_elem O vers = true /\
        ~ In ext_sep ext /\ index at_v (enc ++ at_v ++ encv ++ [ext_sep] ++ ext) = Some (length enc)
  end.

Theorem route_decomposition : forall url, route_spec url (route O url).
Proof.
  intro url. unfold route.
  destruct (has_prefix mod_prefix url) eqn:Hp; cbn [negb]; [|exact I].
  apply has_prefix_true in Hp. set (p := skipn (length mod_prefix) url) in *.
  destruct (index at_v p) as [i|] eqn:Hi; [|exact I].
  destruct (index_some _ _ _ Hi) as (Hle & Hsplit & _). apply occ_split in Hsplit.
  destruct (unescape_path O (firstn i p)) as [path|] eqn:Hup; [|exact I].
  destruct (unescape_path_inv _ _ Hup) as [_ Hck].
  destruct (bytes_eqb (skipn (i + length at_v) p) list_name) eqn:Hl.
  - apply BytesFacts.bytes_eqb_eq in Hl. exists (firstn i p). unfold list_url. rewrite <- Hl, <- Hsplit. auto.
  - set (file := skipn (i + length at_v) p) in *.
    destruct (last_index [ext_sep] file) as [j|] eqn:Hj; [|exact I].
    destruct (unescape_version O (firstn j file)) as [vers|] eqn:Huv; [|exact I].
    destruct (last_index_some _ _ _ Hj) as (_ & Hfsplit & _). apply occ_split in Hfsplit.
    cbn [length] in Hfsplit. rewrite Nat.add_1_r in Hfsplit.
    assert (p = firstn i p ++ at_v ++ firstn j file ++ [ext_sep] ++ skipn (S j) file) as Hp2
      by (rewrite <- Hfsplit; exact Hsplit).
    exists (firstn i p), (firstn j file). unfold file_url. rewrite <- Hp2.
    repeat split; try assumption.
    + apply (unescape_version_inv _ _ Huv).
    + apply last_index_byte_tail. exact Hj.
    + rewrite Hi. f_equal. rewrite firstn_length. lia.
Qed.

Lemma index_at_v : forall enc rest, ~ In at_mark enc -> index at_v (enc ++ at_v ++ rest) = Some (length enc).
Proof.
  intros enc rest Hn. destruct at_v_shape as [c0 [r [Heq Hne]]].
  apply index_found.
  - rewrite Heq. apply no_occ_marker; assumption.
  - rewrite BytesFacts.skipn_length_app. apply BytesFacts.has_prefix_app.
Qed.

(* routing behind "/mod/<escaped path>/@v/" *)
Lemma route_escaped : forall p ep file,
  path_ok p -> escape_string p = Some ep ->
  route O (mod_prefix ++ ep ++ at_v ++ file) =
  if bytes_eqb file list_name then RList p else
  match last_index [ext_sep] file with
  | None => RNotFound
  | Some j =>
      match unescape_version O (firstn j file) with
      | None => RNotFound
      | Some vers => RFile p vers (skipn (S j) file)
      end
  end.
Proof.
  intros p ep file Hp Hep. unfold route.
  rewrite BytesFacts.has_prefix_app, BytesFacts.skipn_length_app. cbn [negb].
  rewrite index_at_v by (apply (escape_keeps_at _ _ Hep), Hp).
  rewrite BytesFacts.firstn_length_app, (unescape_path_ok _ _ Hp Hep).
  rewrite <- BytesFacts.skipn_skipn', !BytesFacts.skipn_length_app. reflexivity.
Qed.

Lemma route_file_url : forall p v ep ev ext,
  path_ok p -> vers_ok v -> escape_string p = Some ep -> escape_string v = Some ev ->
  ~ In ext_sep ext ->
  route O (file_url ep ev ext) = RFile p v ext.
Proof.
  intros p v ep ev ext Hp Hv Hep Hev Hext. unfold file_url. rewrite (route_escaped p) by assumption.
  rewrite BytesFacts.bytes_eqb_neq by (intros E; apply list_name_no_ext_sep; rewrite <- E; apply in_elt).
  rewrite (last_index_app ext_sep [] ev ext Hext), BytesFacts.firstn_length_app.
  rewrite (unescape_version_ok _ _ Hv Hev).
  replace (S (length ev)) with (length (ev ++ [ext_sep])) by (rewrite app_length; cbn; lia).
  rewrite app_assoc, BytesFacts.skipn_length_app. reflexivity.
Qed.

Lemma route_list_url : forall p ep,
  path_ok p -> escape_string p = Some ep -> route O (list_url ep) = RList p.
Proof.
  intros p ep Hp Hep. unfold list_url. rewrite (route_escaped p) by assumption.
  rewrite BytesFacts.bytes_eqb_refl. reflexivity.
Qed.

(* the response as a function: what the handler computes when every cache hands back the value
   the caller computes *)

Definition stored_n (d : dir) (path vers : bytes) : option (bytes * archive) :=
  match archive_name O path vers with
  | Some n => match lookup_archive d n with Some a => Some (n, a) | None => None end
  | None => None
  end.

Definition hash_of (d : dir) (path vers : bytes) : bytes :=
  match stored_n d path vers with
  | None => []
  | Some (_, a) => info_short O (match find_file info_entry a with Some data => data | None => [] end)
  end.

Fixpoint resolve_pure (d : dir) (ml : list (bytes * bytes)) (path vers best : bytes) : bytes :=
  match ml with
  | [] => best
  | (p, v) :: r =>
      if bytes_eqb p path && semver_lt O best v then
        let hash := if is_pseudo O v then after_last hash_sep v else hash_of d p v in
        if hash_matches hash vers
        then resolve_pure d r path vers v
        else resolve_pure d r path vers best
      else resolve_pure d r path vers best
  end.

Definition serve_pure (d : dir) (path vers ext : bytes) : response :=
  match stored_n d path vers with
  | None => NotFound
  | Some (n, a) =>
      if bytes_eqb ext ext_info || bytes_eqb ext ext_mod then
        match find_file (entry_dot ++ ext) a with
        | Some data => OkBytes data
        | None => NotFound
        end
      else if bytes_eqb ext ext_zip then zip_response (build_zip path vers a)
      else NotFound
  end.

(* the version the archive is looked up under *)
Definition pick_best (vers best : bytes) : bytes := match best with [] => vers | _ => best end.

Definition target_version (d : dir) (ml : list (bytes * bytes)) (path vers : bytes) : bytes :=
  if allhex vers then pick_best vers (resolve_pure d ml path vers []) else vers.

Definition respond_pure (d : dir) (ml : list (bytes * bytes)) (url : bytes) : response :=
  match route O url with
  | RNotFound => NotFound
  | RList path => list_response O ml path
  | RFile path vers ext => serve_pure d path (target_version d ml path vers) ext
  end.

(* the one zip-cache operation a request performs *)
Definition zip_req_file (d : dir) (path vers ext : bytes) : list (bytes * zipres) :=
  match stored_n d path vers with
  | None => []
  | Some (n, a) =>
      if bytes_eqb ext ext_info || bytes_eqb ext ext_mod then []
      else if bytes_eqb ext ext_zip then [(n, build_zip path vers a)] else []
  end.

Definition zip_req (d : dir) (ml : list (bytes * bytes)) (url : bytes) : list (bytes * zipres) :=
  match route O url with
  | RFile path vers ext => zip_req_file d path (target_version d ml path vers) ext
  | _ => []
  end.

(* a program run on its own values: the result and the zip-cache operations of that run *)
Definition own {A} (d : dir) (p : prog A) : A * list (bytes * zipres) := (run_own d p, zip_ops d p).

Lemma own_read_archive : forall A d path vers (k : option (bytes * archive) -> prog A),
  own d (read_archive O path vers k) = own d (k (stored_n d path vers)).
Proof.
  intros A d path vers k. unfold read_archive, stored_n.
  destruct (archive_name O path vers) as [n|]; [|reflexivity].
  unfold own. cbn [run_own zip_ops]. destruct (lookup_archive d n); reflexivity.
Qed.

Lemma own_find_hash : forall A d path vers (k : bytes -> prog A),
  own d (find_hash O path vers k) = own d (k (hash_of d path vers)).
Proof.
  intros A d path vers k. unfold find_hash, hash_of. rewrite own_read_archive.
  destruct (stored_n d path vers) as [[n a]|]; reflexivity.
Qed.

Lemma own_resolve : forall A d ml path vers best (k : bytes -> prog A),
  own d (resolve O ml path vers best k) = own d (k (resolve_pure d ml path vers best)).
Proof.
  intros A d ml path vers. induction ml as [|[p v] r IH]; intros best k; [reflexivity|].
  cbn [resolve resolve_pure].
  destruct (bytes_eqb p path && semver_lt O best v); [|apply IH].
  destruct (is_pseudo O v).
  - destruct (hash_matches (after_last hash_sep v) vers); apply IH.
  - rewrite own_find_hash.
    destruct (hash_matches (hash_of d p v) vers); apply IH.
Qed.

Lemma own_serve_file : forall d path vers ext,
  own d (serve_file O path vers ext) = (serve_pure d path vers ext, zip_req_file d path vers ext).
Proof.
  intros d path vers ext. unfold serve_file, serve_pure, zip_req_file. rewrite own_read_archive.
  destruct (stored_n d path vers) as [[n a]|]; [|reflexivity].
  destruct (bytes_eqb ext ext_info || bytes_eqb ext ext_mod).
  - destruct (find_file (entry_dot ++ ext) a); reflexivity.
  - destruct (bytes_eqb ext ext_zip); reflexivity.
Qed.

Lemma own_handler : forall d ml url,
  own d (handler O d ml url) = (respond_pure d ml url, zip_req d ml url).
Proof.
  intros d ml url. unfold handler, respond_pure, zip_req, target_version.
  destruct (route O url) as [|path|path vers ext]; try reflexivity.
  destruct (allhex vers); [rewrite own_resolve|]; apply own_serve_file.
Qed.

Lemma run_own_handler : forall d ml url, run_own d (handler O d ml url) = respond_pure d ml url.
Proof. intros. exact (f_equal fst (own_handler d ml url)). Qed.

Lemma zip_ops_handler : forall d ml url, zip_ops d (handler O d ml url) = zip_req d ml url.
Proof. intros. exact (f_equal snd (own_handler d ml url)). Qed.

Lemma zip_req_le1 : forall d ml url, length (zip_req d ml url) <= 1.
Proof.
  intros d ml url. unfold zip_req. destruct (route O url); cbn; try lia.
  unfold zip_req_file. destruct (stored_n d path _) as [[n a]|]; cbn; try lia.
  destruct (bytes_eqb ext ext_info || bytes_eqb ext ext_mod); cbn; try lia.
  destruct (bytes_eqb ext ext_zip); cbn; lia.
Qed.

Lemma zip_req_in : forall d ml url n z,
  In (n, z) (zip_req d ml url) ->
  exists p v e a, route O url = RFile p v e /\
    archive_name O p (target_version d ml p v) = Some n /\ lookup_archive d n = Some a /\
    z = build_zip p (target_version d ml p v) a.
Proof.
  intros d ml url n z. unfold zip_req. destruct (route O url) as [| |p v e]; try intros [].
  unfold zip_req_file, stored_n. destruct (archive_name O p _) as [n'|] eqn:N; [|intros []].
  destruct (lookup_archive d n') as [a|] eqn:L; [|intros []].
  destruct (bytes_eqb e ext_info || bytes_eqb e ext_mod); [intros []|].
  destruct (bytes_eqb e ext_zip); [|intros []]. intros [[= <- <-]|[]]. now exists p, v, e, a.
Qed.

(* responses in terms of [stored]: the archive name matters to the zip cache only *)

Lemma stored_snd : forall d p v, stored O d p v = option_map snd (stored_n d p v).
Proof.
  intros d p v. unfold stored, stored_n. destruct (archive_name O p v) as [n|]; [|reflexivity].
  destruct (lookup_archive d n); reflexivity.
Qed.

Lemma hash_of_stored : forall d p v,
  hash_of d p v =
  match stored O d p v with
  | None => []
  | Some a => info_short O (match find_file info_entry a with Some data => data | None => [] end)
  end.
Proof. intros d p v. rewrite stored_snd. unfold hash_of. destruct (stored_n d p v) as [[n a]|]; reflexivity. Qed.

(* the response for a request with extension [ext] when readArchive has found [a] *)
Definition file_response (path vers ext : bytes) (a : archive) : response :=
  if bytes_eqb ext ext_info || bytes_eqb ext ext_mod then
    match find_file (entry_dot ++ ext) a with
    | Some data => OkBytes data
    | None => NotFound
    end
  else if bytes_eqb ext ext_zip then zip_response (build_zip path vers a)
  else NotFound.

Lemma serve_pure_stored : forall d p v e,
  serve_pure d p v e = match stored O d p v with Some a => file_response p v e a | None => NotFound end.
Proof. intros d p v e. rewrite stored_snd. unfold serve_pure. destruct (stored_n d p v) as [[n a]|]; reflexivity. Qed.

Lemma file_response_other : forall p v e a,
  bytes_eqb e ext_info = false -> bytes_eqb e ext_mod = false -> bytes_eqb e ext_zip = false ->
  file_response p v e a = NotFound.
Proof. intros p v e a E1 E2 E3. unfold file_response. rewrite E1, E2, E3. reflexivity. Qed.

Lemma zip_response_not_404 : forall z, zip_response z <> NotFound.
Proof. intros [es|]; discriminate. Qed.

Lemma file_response_served : forall p v e a,
  file_response p v e a <> NotFound <->
  (e = ext_info \/ e = ext_mod) /\ find_file (entry_dot ++ e) a <> None \/ e = ext_zip.
Proof.
  intros p v e a. unfold file_response.
  destruct (bytes_eqb e ext_info) eqn:E1;
    [|destruct (bytes_eqb e ext_mod) eqn:E2; [|destruct (bytes_eqb e ext_zip) eqn:E3]]; cbn [orb].
  - apply BytesFacts.bytes_eqb_eq in E1. subst e. destruct (find_file _ a); intuition discriminate.
  - apply BytesFacts.bytes_eqb_eq in E2. subst e. destruct (find_file _ a); intuition discriminate.
  - apply BytesFacts.bytes_eqb_eq in E3. split; [auto|intros _; apply zip_response_not_404].
  - apply bytes_eqb_false in E1, E2, E3. intuition congruence.
Qed.

Lemma target_version_literal : forall d ml p v, allhex v = false -> target_version d ml p v = v.
Proof. intros d ml p v H. unfold target_version. rewrite H. reflexivity. Qed.

Lemma respond_pure_file_url : forall d ml p v ep ev ext,
  path_ok p -> vers_ok v -> escape_string p = Some ep -> escape_string v = Some ev ->
  ~ In ext_sep ext ->
  respond_pure d ml (file_url ep ev ext) =
  match stored O d p (target_version d ml p v) with
  | Some a => file_response p (target_version d ml p v) ext a
  | None => NotFound
  end.
Proof.
  intros d ml p v ep ev ext Hp Hv Hep Hev Hext. unfold respond_pure.
  rewrite (route_file_url p v) by assumption. apply serve_pure_stored.
Qed.

Lemma respond_pure_list_url : forall d ml p ep,
  path_ok p -> escape_string p = Some ep -> respond_pure d ml (list_url ep) = list_response O ml p.
Proof. intros d ml p ep Hp Hep. unfold respond_pure. rewrite (route_list_url p) by assumption. reflexivity. Qed.

Definition visible (a : archive) : archive :=
  filter (fun f => negb (has_prefix hidden_prefix (fst f))) a.

Definition zip_name (path vers name : bytes) : bytes := path ++ zip_at ++ vers ++ zip_slash ++ name.

Definition zip_entries (path vers : bytes) (a : archive) : list (bytes * bytes) :=
  map (fun f => (zip_name path vers (fst f), snd f)) (visible a).

(* the zip fails on the first visible entry archive/zip refuses *)
Lemma build_zip_entries_eq : forall path vers a,
  build_zip_entries path vers a =
  if existsb (fun f => zip_entry_bad (zip_name path vers (fst f)) (snd f)) (visible a)
  then None else Some (zip_entries path vers a).
Proof.
  intros path vers a. unfold zip_entries, visible. induction a as [|[n data] a IH]; [reflexivity|].
  cbn [build_zip_entries filter fst]. destruct (has_prefix hidden_prefix n); cbn [negb]; [exact IH|].
  cbn [existsb map fst snd]. fold (zip_name path vers n).
  destruct (zip_entry_bad (zip_name path vers n) data); [reflexivity|]. rewrite IH.
  now destruct (existsb _ _).
Qed.

Lemma build_zip_entries_ok : forall path vers a,
  (forall f, In f (visible a) -> zip_entry_bad (zip_name path vers (fst f)) (snd f) = false) ->
  build_zip_entries path vers a = Some (zip_entries path vers a).
Proof.
  intros path vers a H. rewrite build_zip_entries_eq. destruct (existsb _ _) eqn:E; [|reflexivity].
  apply existsb_exists in E. destruct E as (f & Hf & Hb). now rewrite (H f Hf) in Hb.
Qed.

Lemma build_zip_entries_bad : forall path vers a,
  build_zip_entries path vers a = None <->
  exists f, In f (visible a) /\ zip_entry_bad (zip_name path vers (fst f)) (snd f) = true.
Proof.
  intros path vers a. rewrite build_zip_entries_eq, <- existsb_exists.
  now destruct (existsb _ _).
Qed.

Lemma listed_in : forall ml path v,
  In v (listed O ml path) <->
  In (path, v) ml /\ is_pseudo O v = false /\ module_check O path v = true.
Proof.
  intros ml path v. unfold listed. rewrite in_map_iff. split.
  - intros [[p v'] [Hv Hin]]. cbn in Hv. subst v'. apply filter_In in Hin. destruct Hin as [Hin Hf].
    cbn [fst snd] in Hf. apply andb_true_iff in Hf. destruct Hf as [Hf Hm].
    apply andb_true_iff in Hf. destruct Hf as [He Hps]. apply BytesFacts.bytes_eqb_eq in He. subst p.
    apply negb_true_iff in Hps. auto.
  - intros [Hin [Hps Hm]]. exists (path, v). split; [reflexivity|].
    apply filter_In. split; [exact Hin|]. cbn [fst snd]. rewrite BytesFacts.bytes_eqb_refl, Hps, Hm. reflexivity.
Qed.

(* the module list is what the directory entries decode to, in directory order *)
Lemma read_mod_list_eq : forall d ml,
  read_mod_list O d = Some ml ->
  ml = flat_map (fun ne => match mod_entry O (fst ne) (is_dir (snd ne)) with
                           | Some (Some m) => [m]
                           | _ => []
                           end) d.
Proof.
  unfold read_mod_list, dir_names. induction d as [|[nm e] d IH]; intros ml H; cbn [map read_mod_list_names] in H.
  - now injection H as <-.
  - cbn [fst snd] in H. cbn [flat_map fst snd]. destruct (mod_entry O nm (is_dir e)) as [o|]; [|discriminate].
    destruct (read_mod_list_names O _) as [l|]; [|discriminate]. injection H as <-.
    rewrite <- (IH l eq_refl). now destruct o.
Qed.

Lemma read_mod_list_in : forall d ml p v,
  read_mod_list O d = Some ml ->
  (In (p, v) ml <-> exists nm e, In (nm, e) d /\ mod_entry O nm (is_dir e) = Some (Some (p, v))).
Proof.
  intros d ml p v Hml. rewrite (read_mod_list_eq _ _ Hml), in_flat_map. split.
  - intros ([nm e] & Hin & Hd). cbn [fst snd] in Hd. exists nm, e. split; [exact Hin|].
    destruct (mod_entry O nm (is_dir e)) as [[m|]|]; try contradiction. now destruct Hd as [->|[]].
  - intros (nm & e & Hin & He). exists (nm, e). split; [exact Hin|]. cbn [fst snd]. rewrite He. now left.
Qed.

(* the disk name of a module version decodes to it: needs that neither the escaped path nor the
   escaped version contains the disk separator "_", and that the version starts with the second
   byte of "_v" *)
Definition vers_mark : byte := nth 1 vers_sep x00.

Lemma decode_name : forall p v ep ev,
  path_ok p -> vers_ok v -> ~ In disk_sep p -> ~ In disk_sep v ->
  escape_string p = Some ep -> escape_string v = Some ev ->
  (exists v', v = vers_mark :: v') ->
  let nm := replace_byte path_sep disk_sep ep ++ [disk_sep] ++ ev in
  last_index vers_sep nm = Some (length ep) /\
  unescape_path O (replace_byte disk_sep path_sep (firstn (length ep) nm)) = Some p /\
  unescape_version O (skipn (length ep + vers_skip) nm) = Some v.
Proof.
  intros p v ep ev Hp Hv Hdp Hdv Hep Hev [v' Hv'] nm.
  pose proof (escape_keeps_disk_sep _ _ Hep Hdp) as Hdep.
  pose proof (escape_keeps_disk_sep _ _ Hev Hdv) as Hdev.
  subst v. destruct (escape_head _ _ _ Hev eq_refl) as [ev' [-> _]].
  subst nm. rewrite <- (replace_byte_length path_sep disk_sep ep). split; [|split].
  - exact (last_index_app disk_sep [vers_mark] _ ev' Hdev).
  - rewrite BytesFacts.firstn_length_app, replace_byte_inv by exact Hdep.
    apply unescape_path_ok; assumption.
  - change vers_skip with (length [disk_sep]). rewrite <- app_length, app_assoc, BytesFacts.skipn_length_app.
    apply unescape_version_ok; assumption.
Qed.

Lemma txt_not_txtar : forall a, has_suffix suffix_txt (a ++ suffix_txtar) = false.
Proof. intro a. rewrite has_suffix_rev, rev_app_distr. reflexivity. Qed.

(* every module version stored under its documented name is in the module list *)
Theorem modlist_complete : forall d ml p v ep ev e,
  read_mod_list O d = Some ml ->
  path_ok p -> vers_ok v -> ~ In disk_sep p -> ~ In disk_sep v ->
  (exists v', v = vers_mark :: v') ->
  escape_string p = Some ep -> escape_string v = Some ev ->
  let nm := replace_byte path_sep disk_sep ep ++ [disk_sep] ++ ev in
  (In (nm ++ suffix_txt, e) d \/ In (nm ++ suffix_txtar, e) d \/
   (In (nm, e) d /\ is_dir e = true /\ has_suffix suffix_txt nm = false /\ has_suffix suffix_txtar nm = false)) ->
  In (p, v) ml.
Proof.
  intros d ml p v ep ev e Hml Hp Hv Hdp Hdv Hv' Hep Hev nm Hin.
  destruct (decode_name p v ep ev Hp Hv Hdp Hdv Hep Hev Hv') as (Hli & Hup & Huv). fold nm in Hli, Hup, Huv.
  apply (read_mod_list_in _ _ _ _ Hml).
  destruct Hin as [Hin|[Hin|(Hin & Hd & Hn1 & Hn2)]]; eexists _, e; (split; [exact Hin|]);
    unfold mod_entry; cbv zeta.
  - rewrite has_suffix_app, trim_suffix_app, Hli, Hup, Huv. reflexivity.
  - rewrite txt_not_txtar, has_suffix_app, trim_suffix_app, Hli, Hup, Huv. reflexivity.
  - rewrite Hn1, Hn2, Hd, Hli, Hup, Huv. reflexivity.
Qed.

(* and nothing else is: every element of the module list comes from a directory entry *)
Theorem modlist_sound : forall d ml p v,
  read_mod_list O d = Some ml -> In (p, v) ml ->
  exists nm e, In (nm, e) d /\ mod_entry O nm (is_dir e) = Some (Some (p, v)).
Proof. intros d ml p v Hml. apply (read_mod_list_in _ _ _ _ Hml). Qed.

(* the hash a stored version answers to *)
Definition version_hash (d : dir) (p v : bytes) : bytes :=
  if is_pseudo O v then after_last hash_sep v else hash_of d p v.

(* one round of the loop: the candidate replaces the best version so far when it is of the
   requested path, later, and its hash matches *)
Lemma resolve_pure_cons : forall d p v r path vers best,
  resolve_pure d ((p, v) :: r) path vers best =
  resolve_pure d r path vers
    (if bytes_eqb p path && semver_lt O best v && hash_matches (version_hash d p v) vers then v else best).
Proof.
  intros. cbn [resolve_pure]. fold (version_hash d p v).
  destruct (bytes_eqb p path && semver_lt O best v); [|reflexivity].
  destruct (hash_matches (version_hash d p v) vers); reflexivity.
Qed.

(* what the loop returns is the initial value or a version of the module list, of that path,
   whose hash is not empty and is a prefix of the request or has the request as a prefix *)
Lemma resolve_pure_sound : forall d ml path vers best,
  resolve_pure d ml path vers best = best \/
  (In (path, resolve_pure d ml path vers best) ml /\
   hash_matches (version_hash d path (resolve_pure d ml path vers best)) vers = true).
Proof.
  intros d ml path vers. induction ml as [|[p v] r IH]; intro best; [left; reflexivity|].
  rewrite resolve_pure_cons.
  destruct (IH (if bytes_eqb p path && semver_lt O best v && hash_matches (version_hash d p v) vers
                then v else best)) as [H|[H1 H2]]; [|right; split; [right; exact H1|exact H2]].
  rewrite H.
  destruct (bytes_eqb p path && semver_lt O best v && hash_matches (version_hash d p v) vers) eqn:E;
    [|left; reflexivity].
  apply andb_true_iff in E. destruct E as [E Hm]. apply andb_true_iff in E. destruct E as [Ep _].
  apply BytesFacts.bytes_eqb_eq in Ep. subst p. right. split; [left; reflexivity|exact Hm].
Qed.

Lemma hash_matches_nonempty : forall h v, hash_matches h v = true -> h <> [].
Proof. intros h v H Hn. subst h. discriminate. Qed.

(* a commit-hash request is looked up under the requested string itself, or under a version of
   the module list whose non-empty hash matches it *)
Theorem hash_resolution_sound : forall d ml path vers,
  target_version d ml path vers = vers \/
  (allhex vers = true /\ In (path, target_version d ml path vers) ml /\
   version_hash d path (target_version d ml path vers) <> [] /\
   hash_matches (version_hash d path (target_version d ml path vers)) vers = true).
Proof.
  intros d ml path vers. unfold target_version.
  destruct (allhex vers) eqn:Eh; [|left; reflexivity].
  destruct (resolve_pure_sound d ml path vers []) as [H|[H1 H2]].
  - left. rewrite H. reflexivity.
  - unfold pick_best. destruct (resolve_pure d ml path vers []) as [|c best] eqn:Er; [left; reflexivity|].
    right. split; [reflexivity|]. split; [exact H1|]. split; [|exact H2].
    eapply hash_matches_nonempty. exact H2.
Qed.

(* in particular: when no version of the path in the module list has a matching non-empty hash,
   a commit-hash request for it is answered like a request for the literal version string *)
Theorem hash_no_match : forall d ml path vers,
  (forall v, In (path, v) ml -> hash_matches (version_hash d path v) vers = false) ->
  target_version d ml path vers = vers.
Proof.
  intros d ml path vers Hno. destruct (hash_resolution_sound d ml path vers) as [H|[_ [H1 [_ H2]]]]; [exact H|].
  rewrite (Hno _ H1) in H2. discriminate.
Qed.

End Facts.
