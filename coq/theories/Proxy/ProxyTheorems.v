(* C20 — the property theorems, about [respond]: the response of a freshly started server whose
   caches compute each key once. *)
From Coq Require Import List Bool Arith NArith Lia.
From Coq.Strings Require Import Byte.
From GI Require Import Gen.ProxyConsts Proxy.Proxy Proxy.ProxyStrings Proxy.ProxyFacts Proxy.ProxyConc.
Import ListNotations.

Section Theorems.
Variable O : oracles.

(* the response to the file URL of an escaped path and version, for every extension and for
   commit-hash requests too: the entry, the zip or 404 of the archive stored under the version
   the request resolves to *)
Theorem respond_file_url : forall d ml p v ep ev ext,
  path_ok O p -> vers_ok O v -> escape_string p = Some ep -> escape_string v = Some ev ->
  ~ In ext_sep ext ->
  respond O d ml (file_url ep ev ext) =
  match stored O d p (target_version O d ml p v) with
  | Some a => file_response p (target_version O d ml p v) ext a
  | None => NotFound
  end.
Proof. intros. rewrite respond_eq. now apply respond_pure_file_url. Qed.

Theorem serves_stored : forall d ml p v ep ev a,
  path_ok O p -> vers_ok O v -> allhex v = false ->
  escape_string p = Some ep -> escape_string v = Some ev ->
  stored O d p v = Some a ->
  respond O d ml (file_url ep ev ext_info) =
    (match find_file (entry_dot ++ ext_info) a with Some data => OkBytes data | None => NotFound end) /\
  respond O d ml (file_url ep ev ext_mod) =
    (match find_file (entry_dot ++ ext_mod) a with Some data => OkBytes data | None => NotFound end) /\
  respond O d ml (file_url ep ev ext_zip) = zip_response (build_zip p v a) /\
  ((forall f, In f (visible a) -> zip_entry_bad (zip_name p v (fst f)) (snd f) = false) ->
   respond O d ml (file_url ep ev ext_zip) = OkZip (zip_entries p v a)).
Proof.
  intros d ml p v ep ev a Hp Hv Hh Hep Hev Hst.
  assert (forall ext, mem_byte ext_sep ext = false ->
            respond O d ml (file_url ep ev ext) = file_response p v ext a) as Hr.
  { intros ext Hext. rewrite (respond_file_url d ml p v) by (assumption || now apply BytesFacts.mem_byte_false).
    now rewrite (target_version_literal O d ml p v Hh), Hst. }
  rewrite !Hr by reflexivity. repeat split.
  intro Hok. change (zip_response (build_zip p v a) = OkZip (zip_entries p v a)).
  unfold build_zip. now rewrite (build_zip_entries_ok _ _ _ Hok).
Qed.

Theorem list_exact : forall d ml p ep,
  path_ok O p -> escape_string p = Some ep ->
  respond O d ml (list_url ep) =
    (match listed O ml p with
     | [] => NotFound
     | vs => OkBytes (flat_map (fun v => v ++ [x0a]) vs)
     end) /\
  (forall v, In v (listed O ml p) <->
     In (p, v) ml /\ is_pseudo O v = false /\ module_check O p v = true).
Proof.
  intros d ml p ep Hp Hep. split.
  - rewrite respond_eq. now apply respond_pure_list_url.
  - intro v. apply listed_in.
Qed.

Theorem not_stored_404 : forall d ml url,
  (route O url = RNotFound -> respond O d ml url = NotFound) /\
  (forall p v e, route O url = RFile p v e ->
     bytes_eqb e ext_info = false -> bytes_eqb e ext_mod = false -> bytes_eqb e ext_zip = false ->
     respond O d ml url = NotFound) /\
  (forall p v e, route O url = RFile p v e -> (forall v', stored O d p v' = None) ->
     respond O d ml url = NotFound) /\
  (forall p v e, route O url = RFile p v e -> allhex v = false -> stored O d p v = None ->
     respond O d ml url = NotFound) /\
  (forall p, route O url = RList p ->
     (forall v, In (p, v) ml -> is_pseudo O v = true \/ module_check O p v = false) ->
     respond O d ml url = NotFound).
Proof.
  intros d ml url. rewrite respond_eq. unfold respond_pure. repeat split.
  - now intros ->.
  - intros p v e -> E1 E2 E3. rewrite serve_pure_stored.
    destruct (stored O d p _); [now apply file_response_other|reflexivity].
  - intros p v e -> Hno. now rewrite serve_pure_stored, Hno.
  - intros p v e -> Hhex Hno. now rewrite (target_version_literal O d ml p v Hhex), serve_pure_stored, Hno.
  - intros p -> Hno. unfold list_response.
    destruct (listed O ml p) as [|v vs] eqn:El; [reflexivity|].
    destruct (proj1 (listed_in O ml p v)) as (Hin & Hps & Hm); [rewrite El; now left|].
    destruct (Hno v Hin); congruence.
Qed.

(* the central directory of the zip served for a stored version: one record per stored file whose
   name does not start with ".", in archive order, named path@vers/name, with the CRC-32 and the
   length of the stored data *)
Theorem zip_central_directory : forall crc d ml p v ep ev a,
  path_ok O p -> vers_ok O v -> allhex v = false ->
  escape_string p = Some ep -> escape_string v = Some ev ->
  stored O d p v = Some a ->
  (forall f, In f (visible a) -> zip_entry_bad (zip_name p v (fst f)) (snd f) = false) ->
  exists es, respond O d ml (file_url ep ev ext_zip) = OkZip es /\
    central_directory crc es = map (fun f => cd_of crc (zip_name p v (fst f), snd f)) (visible a) /\
    map cd_name (central_directory crc es) = map (fun f => zip_name p v (fst f)) (visible a) /\
    map cd_size (central_directory crc es) = map (fun f => N.of_nat (length (snd f))) (visible a) /\
    map cd_crc (central_directory crc es) = map (fun f => crc (snd f)) (visible a).
Proof.
  intros crc d ml p v ep ev a Hp Hv Hh Hep Hev Hst Hok.
  destruct (serves_stored d ml p v ep ev a Hp Hv Hh Hep Hev Hst) as [_ [_ [_ H]]].
  exists (zip_entries p v a). split; [apply H; exact Hok|].
  unfold central_directory, zip_entries. rewrite !map_map. repeat split; reflexivity.
Qed.

End Theorems.
