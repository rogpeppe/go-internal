(* C20 — the refinement of ProxyRefine.v instantiated: concrete cache keys (an injective coding of
   archive names into the natural-number keys of the Par model, even for archiveCache, odd for
   zipCache), the zip value function obtained from [compatible], and the server's handlers. *)
From Coq Require Import List Bool Arith NArith Lia.
From Coq.Strings Require Import Byte.
From GI Require Import Gen.ProxyConsts Proxy.Proxy Proxy.ProxyStrings Proxy.ProxyFacts Proxy.ProxyConc Proxy.ProxyRefine.
From GI Require Import Gen.ParConsts Par.ParWork Par.ParLib Par.ParCache Par.ParCacheBase Par.ParCacheProofs.
Import ListNotations.

(* bijective base-256 numeration: digits 1..256 *)
Fixpoint code (l : bytes) : nat :=
  match l with
  | [] => 0
  | b :: r => S (Byte.to_nat b) + 256 * code r
  end.

Fixpoint decode_f (fuel n : nat) : bytes :=
  match fuel with
  | 0 => []
  | S f =>
      if Nat.eqb n 0 then [] else
      (match Byte.of_nat ((n - 1) mod 256) with Some b => b | None => x00 end) :: decode_f f ((n - 1) / 256)
  end.

Definition decode (n : nat) : bytes := decode_f n n.

Lemma decode_code_f : forall l f, code l <= f -> decode_f f (code l) = l.
Proof.
  induction l as [|b r IH]; intros f Hf.
  - destruct f; reflexivity.
  - cbn [code] in *. destruct f as [|f]; [lia|]. cbn [decode_f].
    pose proof (Byte.to_nat_bounded b) as Hb.
    replace (Nat.eqb (S (Byte.to_nat b) + 256 * code r) 0) with false by (symmetry; apply Nat.eqb_neq; lia).
    replace (S (Byte.to_nat b) + 256 * code r - 1) with (Byte.to_nat b + code r * 256) by lia.
    rewrite Nat.mod_add by lia. rewrite Nat.mod_small by lia.
    rewrite Nat.div_add by lia. rewrite Nat.div_small by lia. cbn [Nat.add].
    rewrite Byte.of_to_nat. f_equal. apply IH. lia.
Qed.

Lemma decode_code : forall l, decode (code l) = l.
Proof. intro l. apply decode_code_f. apply le_n. Qed.

Definition key_arch (n : bytes) : nat := 2 * code n.
Definition key_zip (n : bytes) : nat := 2 * code n + 1.
Definition key_name (k : nat) : bytes := decode (k / 2).

Lemma key_name_arch : forall n, key_name (key_arch n) = n.
Proof.
  intro n. unfold key_name, key_arch. replace (2 * code n) with (code n * 2) by lia.
  rewrite Nat.div_mul by lia. apply decode_code.
Qed.

Lemma key_name_zip : forall n, key_name (key_zip n) = n.
Proof.
  intro n. unfold key_name, key_zip. replace (2 * code n + 1) with (1 + code n * 2) by lia.
  rewrite Nat.div_add by lia. cbn [Nat.div]. replace (1 / 2) with 0 by reflexivity. apply decode_code.
Qed.

Lemma keys_disjoint : forall n m, key_arch n <> key_zip m.
Proof. intros n m. unfold key_arch, key_zip. lia. Qed.

Lemma key_arch_injective : forall n m, key_arch n = key_arch m -> n = m.
Proof. intros n m H. rewrite <- (key_name_arch n), <- (key_name_arch m), H. reflexivity. Qed.

Lemma key_zip_injective : forall n m, key_zip n = key_zip m -> n = m.
Proof. intros n m H. rewrite <- (key_name_zip n), <- (key_name_zip m), H. reflexivity. Qed.

(* the zip value of an archive name in a compatible set of operations *)
Fixpoint zip_of (Z : list (bytes * zipres)) (n : bytes) : zipres :=
  match Z with
  | [] => ZErr
  | (m, v) :: r => if bytes_eqb m n then v else zip_of r n
  end.

Lemma zip_of_agrees : forall Z, functional Z -> forall n v, In (n, v) Z -> zip_of Z n = v.
Proof.
  induction Z as [|[m w] r IH]; intros Hf n v Hin; [contradiction|].
  cbn [zip_of]. destruct (bytes_eqb m n) eqn:E.
  - apply BytesFacts.bytes_eqb_eq in E. subst m. apply (Hf n w v); [left; reflexivity|exact Hin].
  - destruct Hin as [H|H]; [inversion H; subst; rewrite BytesFacts.bytes_eqb_refl in E; discriminate|].
    apply IH; [|exact H]. intros n' v1 v2 H1 H2. apply (Hf n' v1 v2); right; assumption.
Qed.

Section Server.
Variable O : oracles.

(* the event-level run of the server's handlers on the modelled par.Cache *)
Definition server_arun (d : dir) (ml : list (bytes * bytes)) (urls : list bytes) (sch : list nat) :=
  arun response d key_arch key_zip key_name
       (zip_of (flat_map (zip_ops d) (map (handler O d ml) urls)))
       sch (ainit response (map (handler O d ml) urls)).

Theorem server_event_level_same : forall d ml urls sch st,
  compatible O d ml urls ->
  server_arun d ml urls sch = Some st ->
  forall i url, nth_error urls i = Some url ->
  exists h, nth_error (hs response st) i = Some (Some h) /\
            run_own d h = respond O d ml url /\
            (forall r, h = Ret r -> r = respond O d ml url).
Proof.
  intros d ml urls sch st Hc Hrun i url Hu. unfold compatible in Hc. rewrite <- flat_map_handlers in Hc.
  rewrite respond_eq, <- run_own_handler.
  apply (event_level_same response d key_arch key_zip key_name key_name_arch key_name_zip _
           (map (handler O d ml) urls) (zip_of_agrees _ Hc) sch st Hrun).
  now rewrite nth_error_map, Hu.
Qed.

Theorem server_event_level_progress : forall d ml urls sch st,
  compatible O d ml urls ->
  server_arun d ml urls sch = Some st ->
  Forall (returned response) (hs response st) \/
  exists t st', astep response d key_arch key_zip key_name
                  (zip_of (flat_map (zip_ops d) (map (handler O d ml) urls))) st t = Some st'.
Proof.
  intros d ml urls sch st Hc Hrun. unfold compatible in Hc. rewrite <- flat_map_handlers in Hc.
  exact (event_level_progress response d key_arch key_zip key_name key_name_arch key_name_zip _
           (map (handler O d ml) urls) (zip_of_agrees _ Hc) sch st Hrun).
Qed.

End Server.
