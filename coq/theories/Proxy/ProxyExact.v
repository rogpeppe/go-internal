(* C20 — the request space characterised exactly, the list endpoint as a set, and the
   server's behaviour as a function of the store alone. *)
From Coq Require Import List Bool Arith NArith Lia Permutation.
From Coq.Strings Require Import Byte.
From GI Require Import Gen.ProxyConsts Proxy.Proxy Proxy.ProxyStrings Proxy.ProxyFacts Proxy.ProxyConc
  Proxy.ProxyTheorems.
Import ListNotations.

Definition is_nil {A} (l : list A) : bool := match l with [] => true | _ => false end.
Definition is_some {A} (o : option A) : bool := match o with Some _ => true | None => false end.

Section Exact.
Variable O : oracles.

(* the URL path is answered with a status other than 404 (200, or 500 for a zip that
   archive/zip refuses to build), decided from the store: no handler is run *)
Definition served_b (d : dir) (ml : list (bytes * bytes)) (url : bytes) : bool :=
  match route O url with
  | RNotFound => false
  | RList p => negb (is_nil (listed O ml p))
  | RFile p v e =>
      match stored O d p (target_version O d ml p v) with
      | None => false
      | Some a =>
          if bytes_eqb e ext_info || bytes_eqb e ext_mod then is_some (find_file (entry_dot ++ e) a)
          else bytes_eqb e ext_zip
      end
  end.

Definition served_by (d : dir) (ml : list (bytes * bytes)) (url : bytes) : Prop :=
  (exists p, route O url = RList p /\ listed O ml p <> []) \/
  (exists p v e a, route O url = RFile p v e /\
     stored O d p (target_version O d ml p v) = Some a /\
     ((e = ext_info \/ e = ext_mod) /\ find_file (entry_dot ++ e) a <> None \/ e = ext_zip)).

Lemma served_b_respond_pure : forall d ml url,
  served_b d ml url = true <-> respond_pure O d ml url <> NotFound.
Proof.
  intros d ml url. unfold served_b, respond_pure.
  destruct (route O url) as [|p|p v e].
  - split; [discriminate|congruence].
  - unfold list_response. destruct (listed O ml p); cbn; split; congruence.
  - rewrite serve_pure_stored.
    destruct (stored O d p (target_version O d ml p v)) as [a|]; [|split; [discriminate|congruence]].
    unfold file_response. destruct (bytes_eqb e ext_info || bytes_eqb e ext_mod).
    + destruct (find_file (entry_dot ++ e) a); cbn; split; congruence.
    + destruct (bytes_eqb e ext_zip); split; try congruence. intros _. apply zip_response_not_404.
Qed.

Theorem served_b_exact : forall d ml url,
  served_b d ml url = true <-> respond O d ml url <> NotFound.
Proof. intros. rewrite respond_eq. apply served_b_respond_pure. Qed.

Lemma served_by_respond_pure : forall d ml url,
  respond_pure O d ml url <> NotFound <-> served_by d ml url.
Proof.
  intros d ml url. unfold respond_pure, served_by.
  destruct (route O url) as [|p|p v e].
  - split; [congruence|]. intros [(? & [=] & _)|(? & ? & ? & ? & [=] & _)].
  - unfold list_response. split.
    + intro H. left. exists p. split; [reflexivity|]. destruct (listed O ml p); [congruence|discriminate].
    + intros [(? & [= <-] & Hl)|(? & ? & ? & ? & [=] & _)]. destruct (listed O ml p); [congruence|discriminate].
  - rewrite serve_pure_stored. split.
    + intro H. right. destruct (stored O d p (target_version O d ml p v)) as [a|] eqn:Hs; [|congruence].
      exists p, v, e, a. split; [reflexivity|]. split; [exact Hs|]. apply file_response_served in H. exact H.
    + intros [(? & [=] & _)|(? & ? & ? & a & [= <- <- <-] & -> & Hc)]. apply file_response_served, Hc.
Qed.

(* "anything not stored yields 404", as an iff over ALL URL paths *)
Theorem route_404_exact : forall d ml url,
  respond O d ml url <> NotFound <-> served_by d ml url.
Proof. intros. rewrite respond_eq. apply served_by_respond_pure. Qed.

Lemma served_by_b : forall d ml url, served_by d ml url <-> served_b d ml url = true.
Proof. intros. rewrite served_b_respond_pure. symmetry. apply served_by_respond_pure. Qed.

Corollary not_served_404 : forall d ml url, ~ served_by d ml url -> respond O d ml url = NotFound.
Proof.
  intros d ml url H. destruct (respond O d ml url) eqn:E; try reflexivity;
    exfalso; apply H; apply route_404_exact; rewrite E; discriminate.
Qed.

(* the converse reading of not_stored_404: whatever is served comes from an archive of the
   directory or from the module list *)
Corollary served_is_stored : forall d ml url,
  respond O d ml url <> NotFound ->
  (exists p v, route O url = RList p /\ In v (listed O ml p)) \/
  (exists p v e a, route O url = RFile p v e /\
     stored O d p (target_version O d ml p v) = Some a /\
     ((e = ext_info \/ e = ext_mod) /\ find_file (entry_dot ++ e) a <> None \/ e = ext_zip)).
Proof.
  intros d ml url H. apply route_404_exact in H. destruct H as [(p & Hr & Hl)|H]; [left|right; exact H].
  destruct (listed O ml p) as [|v vs] eqn:E; [congruence|]. exists p, v. rewrite E. split; [exact Hr|now left].
Qed.

(* ... and the URL of anything served is the ESCAPED NAME of what is served: the list URL of the
   escaped module path, or the file URL of the escaped path, the escaped requested version and one
   of the three extensions.  (This is what lets the runner's oracle enumerate the servable URLs of
   a directory by escaping the stored names, and demand 404 for every other URL.) *)
Theorem served_url_canonical : forall d ml url,
  respond O d ml url <> NotFound ->
  (exists p ep, escape_string p = Some ep /\ url = list_url ep /\ check_path O p = true /\
                listed O ml p <> []) \/
  (exists p v ep ev e a, escape_string p = Some ep /\ escape_string v = Some ev /\
      url = file_url ep ev e /\ check_path O p = true /\ check_elem O v = true /\
      (e = ext_info \/ e = ext_mod \/ e = ext_zip) /\
      stored O d p (target_version O d ml p v) = Some a).
Proof.
  intros d ml url H. apply route_404_exact in H.
  pose proof (route_decomposition O url) as T.
  destruct H as [[p [Hr Hl]]|[p [v [e [a [Hr [Hs Hc]]]]]]]; rewrite Hr in T; cbn [route_spec] in T.
  - destruct T as (enc & Hu & Hun & Hck). left. exists p, enc.
    split; [apply escape_unescape, (unescape_path_inv O _ _ Hun)|]. auto.
  - destruct T as (enc & encv & Hu & Hun & Hck & Hunv & Hckv & _). right. exists p, v, enc, encv, e, a.
    split; [apply escape_unescape, (unescape_path_inv O _ _ Hun)|].
    split; [apply escape_unescape, (unescape_version_inv O _ _ Hunv)|].
    repeat (split; [assumption|]). split; [|exact Hs].
    destruct Hc as [[[He|He] _]|He]; auto.
Qed.

(* every extension other than info / mod / zip is 404 for a stored version — in particular an
   extension e for which the archive holds the dot-file "." ++ e (the two hypotheses about the
   archive are not used: they are there to say that the statement covers that case) *)
Theorem dotfile_not_served : forall d ml p v ep ev a e data,
  path_ok O p -> vers_ok O v ->
  escape_string p = Some ep -> escape_string v = Some ev ->
  stored O d p v = Some a ->
  find_file (entry_dot ++ e) a = Some data ->
  ~ In ext_sep e -> e <> ext_info -> e <> ext_mod -> e <> ext_zip ->
  respond O d ml (file_url ep ev e) = NotFound.
Proof.
  intros d ml p v ep ev a e data Hp Hv Hep Hev _ _ Hsep N1 N2 N3.
  destruct (not_stored_404 O d ml (file_url ep ev e)) as [_ [H _]].
  apply (H p v e); [now apply route_file_url|now apply BytesFacts.bytes_eqb_neq..].
Qed.

Definition listable (path : bytes) (m : bytes * bytes) : bool :=
  bytes_eqb (fst m) path && negb (is_pseudo O (snd m)) && module_check O (fst m) (snd m).

Lemma listed_filter : forall ml p, listed O ml p = map snd (filter (listable p) ml).
Proof. reflexivity. Qed.

(* the order the code produces: the order of the module list (= directory order) *)
Lemma listed_app : forall ml1 ml2 p, listed O (ml1 ++ ml2) p = listed O ml1 p ++ listed O ml2 p.
Proof. intros. rewrite !listed_filter, filter_app, map_app. reflexivity. Qed.

Lemma listed_cons : forall m ml p,
  listed O (m :: ml) p = (if listable p m then [snd m] else []) ++ listed O ml p.
Proof. intros. rewrite !listed_filter. cbn [filter]. destruct (listable p m); reflexivity. Qed.

Lemma filter_perm : forall A (f : A -> bool) l l', Permutation l l' -> Permutation (filter f l) (filter f l').
Proof.
  intros A f l l' H. induction H; cbn [filter].
  - constructor.
  - destruct (f x); [constructor|]; assumption.
  - destruct (f x), (f y); try apply Permutation_refl; apply perm_swap.
  - eapply Permutation_trans; eassumption.
Qed.

(* as a multiset, the listed versions do not depend on the order of the module list *)
Theorem listed_perm : forall ml ml' p, Permutation ml ml' -> Permutation (listed O ml p) (listed O ml' p).
Proof. intros. rewrite !listed_filter. apply Permutation_map. apply filter_perm. assumption. Qed.

(* no version is reported twice when the module list holds no (path, version) twice *)
Theorem listed_nodup : forall ml p, NoDup ml -> NoDup (listed O ml p).
Proof.
  (* pairing the listed versions with p gives back the filtered module list *)
  intros ml p H. apply (NoDup_map_inv (pair p)). unfold listed. rewrite map_map.
  rewrite (map_ext_in _ (fun m => m)), map_id; [now apply NoDup_filter|].
  intros [q v] Hin. apply filter_In in Hin. destruct Hin as [_ Hf]. cbn [fst snd] in *.
  apply andb_true_iff in Hf. destruct Hf as [Hf _]. apply andb_true_iff in Hf. destruct Hf as [Hf _].
  now rewrite (proj1 (BytesFacts.bytes_eqb_eq _ _) Hf).
Qed.

Definition list_body (vs : list bytes) : bytes := flat_map (fun v => v ++ [x0a]) vs.

(* two servers whose module lists are permutations of each other (e.g. one sorts it) answer a
   list request with the same status and, as multisets of lines, the same versions *)
Theorem list_response_perm : forall d ml ml' p ep,
  path_ok O p -> escape_string p = Some ep -> Permutation ml ml' ->
  (respond O d ml (list_url ep) = NotFound /\ respond O d ml' (list_url ep) = NotFound) \/
  (exists vs vs', respond O d ml (list_url ep) = OkBytes (list_body vs) /\
                  respond O d ml' (list_url ep) = OkBytes (list_body vs') /\
                  vs <> [] /\ Permutation vs vs' /\
                  (forall v, In v vs <-> In (p, v) ml /\ is_pseudo O v = false /\ module_check O p v = true)).
Proof.
  intros d ml ml' p ep Hp Hep Hperm.
  destruct (list_exact O d ml p ep Hp Hep) as [H1 Hin].
  destruct (list_exact O d ml' p ep Hp Hep) as [H2 _].
  pose proof (listed_perm ml ml' p Hperm) as HP.
  destruct (listed O ml p) as [|v vs] eqn:E1.
  - apply Permutation_nil in HP. rewrite HP in H2. left. split; assumption.
  - destruct (listed O ml' p) as [|v' vs'] eqn:E2.
    + apply Permutation_sym, Permutation_nil in HP. discriminate.
    + right. exists (v :: vs), (v' :: vs').
      split; [exact H1|]. split; [exact H2|]. split; [discriminate|]. split; [exact HP|].
      intro w. apply Hin.
Qed.

(* what a running server holds: the module list read at start-up and the two caches *)
Record server := { sv_modlist : list (bytes * bytes); sv_caches : caches }.

Definition server_start (d : dir) : option server :=
  match read_mod_list O d with
  | Some ml => Some {| sv_modlist := ml; sv_caches := no_caches |}
  | None => None
  end.

Definition serve1 (d : dir) (s : server) (url : bytes) : response * server :=
  let (r, c) := run d (handler O d (sv_modlist s) url) (sv_caches s) in
  (r, {| sv_modlist := sv_modlist s; sv_caches := c |}).

Fixpoint serve_all (d : dir) (s : server) (urls : list bytes) : list response * server :=
  match urls with
  | [] => ([], s)
  | u :: r => let (x, s') := serve1 d s u in let (xs, s'') := serve_all d s' r in (x :: xs, s'')
  end.

Lemma serve_all_serve_seq : forall d urls s,
  fst (serve_all d s urls) = serve_seq O d (sv_modlist s) urls (sv_caches s) /\
  sv_modlist (snd (serve_all d s urls)) = sv_modlist s.
Proof.
  intros d urls. induction urls as [|u r IH]; intro s; [split; reflexivity|].
  cbn [serve_all serve_seq]. unfold serve1.
  destruct (run d (handler O d (sv_modlist s) u) (sv_caches s)) as [x c].
  specialize (IH {| sv_modlist := sv_modlist s; sv_caches := c |}). cbn [sv_modlist sv_caches] in IH.
  destruct (serve_all d {| sv_modlist := sv_modlist s; sv_caches := c |} r) as [xs s''].
  cbn [fst snd] in *. destruct IH as [IH1 IH2]. split; [f_equal; exact IH1|exact IH2].
Qed.

Theorem modlist_immutable : forall d s urls, sv_modlist (snd (serve_all d s urls)) = sv_modlist s.
Proof. intros. apply serve_all_serve_seq. Qed.

(* after ANY history of (non-aliasing) requests, a probe is answered as by a fresh server: the
   observable behaviour of the server is a function of the store and never of its history *)
Theorem history_independent : forall d s hist probe,
  server_start d = Some s ->
  compatible O d (sv_modlist s) (hist ++ [probe]) ->
  nth_error (fst (serve_all d s (hist ++ [probe]))) (length hist) =
    Some (respond O d (sv_modlist s) probe) /\
  fst (serve_all d s (hist ++ [probe])) = map (respond_pure O d (sv_modlist s)) (hist ++ [probe]).
Proof.
  intros d s hist probe Hs Hc.
  assert (sv_caches s = no_caches) as Hn.
  { unfold server_start in Hs. destruct (read_mod_list O d); [|discriminate]. inversion Hs. reflexivity. }
  destruct (serve_all_serve_seq d (hist ++ [probe]) s) as [H _]. rewrite H, Hn.
  rewrite (sequential_same O d (sv_modlist s) _ Hc). split.
  - rewrite nth_error_map, nth_error_app2, Nat.sub_diag by lia. reflexivity.
  - apply map_ext. intro u. apply respond_eq.
Qed.

End Exact.
