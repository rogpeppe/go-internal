(* C17 — lemmas about TsRuns.v: RunT calls of one process do not influence each other (for the
   source as it is: the grace period is a local of RunT); a package-level grace period is refuted;
   the value of the helper goroutine wins whatever the exit status of the command. *)
From Coq Require Import List Bool ZArith Lia.
From Coq.Strings Require Import Byte.
From GI Require Import Lib.Bytes Gen.TsBatchConsts TsDeadline.TsDeadline TsDeadline.TsDeadlineFacts TsDeadline.TsRuns.
Import ListNotations.
Local Open Scope Z_scope.

Lemma run_call_local st c : run_call true st c = (st, single_call c).
Proof. unfold single_call, run_call. destruct (c_deadline c); reflexivity. Qed.

(* a call of a fresh process is the RunT of TsDeadline.v *)
Lemma single_call_is_runt c D : c_deadline c = Some D ->
  r_grace (single_call c) = grace (D - c_now c) /\
  r_ctx (single_call c) = Some (ctx_deadline (c_now c) (c_eps c) D).
Proof. intro H. unfold single_call, run_call. rewrite H. cbn [snd r_grace r_ctx]. split; reflexivity. Qed.

Lemma single_call_no_deadline c : c_deadline c = None ->
  single_call c = {| r_grace := min_grace; r_ctx := None |}.
Proof. intro H. unfold single_call, run_call. now rewrite H. Qed.

Lemma run_calls_local cs : forall st, run_calls true st cs = map single_call cs.
Proof. induction cs as [|c cs IH]; intro st; [reflexivity|]. cbn [run_calls map]. rewrite run_call_local. now rewrite IH. Qed.

(* the source as it is: every call of every history computes what a fresh process would *)
Lemma runs_independent_list cs : run_calls_now cs = map single_call cs.
Proof. unfold run_calls_now. apply run_calls_local. Qed.

Lemma runs_independent cs k c : nth_error cs k = Some c -> nth_error (run_calls_now cs) k = Some (single_call c).
Proof. intro H. rewrite runs_independent_list. now apply map_nth_error. Qed.

(* a concrete history: an hour away, then none, then five seconds away, one second apart *)
Definition ex_history : list call :=
  [ {| c_now := 0; c_eps := 0; c_deadline := Some 3600000000000 |};
    {| c_now := 1000000000; c_eps := 0; c_deadline := None |};
    {| c_now := 2000000000; c_eps := 0; c_deadline := Some 7000000000 |} ].

Example runs_independent_example :
  run_calls_now ex_history =
  [ {| r_grace := 180000000000; r_ctx := Some 3240000000000 |};
    {| r_grace := 100000000; r_ctx := None |};
    {| r_grace := 250000000; r_ctx := Some 6500000000 |} ].
Proof. reflexivity. Qed.

(* with the grace period kept by the package the third call's context is born expired (it "expires"
   353 s before the call is made), whereas a fresh process gives it 4.5 s *)
Lemma kept_grace_refuted :
  exists cs k c r, nth_error cs k = Some c /\ nth_error (run_calls false pstate0 cs) k = Some r /\
    r <> single_call c /\
    (exists x, r_ctx r = Some x /\ x < c_now c) /\ (exists y, r_ctx (single_call c) = Some y /\ c_now c < y).
Proof.
  exists ex_history, 2%nat, {| c_now := 2000000000; c_eps := 0; c_deadline := Some 7000000000 |},
         {| r_grace := 180000000000; r_ctx := Some (-353000000000) |}.
  split; [reflexivity|]. split; [reflexivity|]. split; [discriminate|].
  split; [exists (-353000000000); split; [reflexivity|reflexivity] | exists 6500000000; split; reflexivity].
Qed.

(* the parameters of a command of a call with a deadline are RunT's *)
Lemma call_params_single c D e i : c_deadline c = Some D ->
  call_params (single_call c) e i = fg_params (c_now c) (c_eps c) D e i.
Proof.
  intro H. destruct (single_call_is_runt c D H) as [G C]. unfold call_params, fg_params, fg_kill_delay.
  now rewrite G, C.
Qed.

(* "Scripts that finish earlier are unaffected by the deadline" in any history: a command of call k
   that exits more than a slack before that call's own context expires is never signalled and
   returns Wait's own result — whatever calls came before *)
Lemma early_unaffected_in_any_history sigma cs k c D ee i o r :
  nth_error cs k = Some c -> c_deadline c = Some D -> nth_error (run_calls_now cs) k = Some r ->
  bounded sigma o -> 0 <= c_eps c -> ee + sigma < D - grace_reserve * grace (D - c_now c) ->
  res (wos (call_params r (Some ee) i) o) = RWait /\ t_int (wos (call_params r (Some ee) i) o) = None /\
  t_kill (wos (call_params r (Some ee) i) o) = None.
Proof.
  intros Hc HD Hr B He H. rewrite (runs_independent cs k c Hc) in Hr. injection Hr as <-.
  rewrite (call_params_single c D _ _ HD).
  destruct (runt_early_unaffected sigma (c_now c) (c_eps c) D ee i o B He H) as (A1 & A2 & A3 & _). now repeat split.
Qed.

(* a call without a deadline: nothing is ever signalled *)
Lemma no_deadline_never_signals cs k c ee i o r :
  nth_error cs k = Some c -> c_deadline c = None -> nth_error (run_calls_now cs) k = Some r ->
  res (wos (call_params r (Some ee) i) o) = RWait /\ t_int (wos (call_params r (Some ee) i) o) = None /\
  t_kill (wos (call_params r (Some ee) i) o) = None.
Proof.
  intros Hc HD Hr. rewrite (runs_independent cs k c Hc) in Hr. injection Hr as <-.
  rewrite (single_call_no_deadline c HD). unfold wos, call_params. cbn. now repeat split.
Qed.

Example early_in_history_example :
  (* the third call of ex_history: a command that exits 0.3 s after the call was made *)
  exists r, nth_error (run_calls_now ex_history) 2 = Some r /\
    2300000000 + 1000000 < 7000000000 - grace_reserve * grace (7000000000 - 2000000000).
Proof. eexists. split; [reflexivity|]. vm_compute. reflexivity. Qed.

Lemma no_interrupt_returns_wait wins w : wos_return wins WNil w = w.
Proof. reflexivity. Qed.

Lemma attribution_status_free ie w1 w2 : ie <> WNil ->
  wos_return interrupt_error_wins ie w1 = ie /\
  wos_return interrupt_error_wins ie w1 = wos_return interrupt_error_wins ie w2.
Proof. intro H. destruct ie; [congruence| | |]; now split. Qed.

(* `interruptErr != nil && waitErr != nil`: the interrupt of a command that then exits 0 is lost *)
Lemma conditional_attribution_refuted : exists ie, ie <> WNil /\ wos_return false ie WNil = WNil.
Proof. exists WCtxErr. split; [discriminate|reflexivity]. Qed.

(* cmdExec with the exit status explicit is the cmdExec of TsDeadline.v, for the source as it is *)
Lemma fg_exec_gen_now p o wait_ok neg : fg_exec_gen interrupt_error_wins p o wait_ok neg = fg_exec p o wait_ok neg.
Proof.
  unfold fg_exec_gen, fg_exec. destruct (t_ret (wos p o)); [|reflexivity].
  destruct (res (wos p o)), wait_ok; reflexivity.
Qed.

Lemma status_independent p o w1 w2 neg : res (wos p o) = RCtx ->
  fg_exec_gen interrupt_error_wins p o w1 neg = fg_exec_gen interrupt_error_wins p o w2 neg.
Proof.
  intro H. unfold fg_exec_gen. rewrite H. destruct (t_ret (wos p o)); [|reflexivity]. now destruct w1, w2.
Qed.

(* a command blocked until the context expired is reported as timed out whatever status it exits
   with once interrupted (0 included) *)
Lemma blocked_timed_out_any_status sigma now eps D i o wait_ok neg :
  bounded sigma o -> match i with Some d => 0 <= d | None => True end ->
  fg_exec_gen interrupt_error_wins (fg_params now eps D None i) o wait_ok neg = Some (XTimedOut timed_out_message).
Proof. intros B Hi. rewrite fg_exec_gen_now. now apply (runt_blocked_timed_out sigma). Qed.

Definition zero_oracle : oracle :=
  {| dw := 0; dc := 0; ds := 0; da := 0; dt := 0; dk := 0; dr := 0; tie1 := true; tie2 := true; tie3 := true |}.

(* with the conditional attribution such a command that exits 0 on the interrupt is a success *)
Lemma success_on_interrupt_refuted :
  exists now eps D i o, bounded 0 o /\
    fg_exec_gen false (fg_params now eps D None (Some i)) o true false = Some XOk /\
    fg_exec_gen interrupt_error_wins (fg_params now eps D None (Some i)) o true false = Some (XTimedOut timed_out_message).
Proof.
  exists 0, 0, 1000000000, 0, zero_oracle. split; [unfold bounded; cbn; lia|]. split; vm_compute; reflexivity.
Qed.
