(* C17 — lemmas about the deadline model of TsDeadline.v. *)
From Coq Require Import List Bool ZArith Lia.
From Coq.Strings Require Import Byte.
From GI Require Import Lib.Bytes Gen.TsBatchConsts TsDeadline.TsDeadline.
Import ListNotations.

Section Arith.
Local Open Scope Z_scope.

Lemma grace_ge_min until : grace until >= min_grace.
Proof. unfold grace. cbv zeta. destruct (Z.gtb_spec (Z.quot until grace_divisor) min_grace); lia. Qed.

Lemma grace_ge_share until : grace until >= Z.quot until grace_divisor.
Proof. unfold grace. cbv zeta. destruct (Z.gtb_spec (Z.quot until grace_divisor) min_grace); lia. Qed.

Lemma grace_cases until :
  grace until = min_grace \/ grace until = Z.quot until grace_divisor.
Proof. unfold grace. cbv zeta. destruct (Z.quot until grace_divisor >? min_grace); auto. Qed.

(* the context expires grace_reserve grace periods before the deadline (eps later when
   WithTimeout is called eps after time.Until), and the grace period is at least min_grace *)
Lemma grace_arith now eps D :
  ctx_deadline now eps D + grace_reserve * grace (D - now) = D + eps /\ grace (D - now) >= min_grace.
Proof. split; [unfold ctx_deadline, ctx_timeout; lia | apply grace_ge_min]. Qed.

Example grace_arith_example :
  (* a deadline 3 s away: grace 150 ms, context expires at 2.7 s; 400 ms away: grace 100 ms, context at 200 ms *)
  grace 3000000000 = 150000000 /\ ctx_deadline 0 0 3000000000 = 2700000000 /\
  grace 400000000 = 100000000 /\ ctx_deadline 0 0 400000000 = 200000000.
Proof. vm_compute. repeat split. Qed.
End Arith.

Inductive reachable (p : uparams) : ustate -> Prop :=
  | r_init : reachable p uinit
  | r_step : forall s l s', reachable p s -> ustep p l s = Some s' -> reachable p s'.

Lemma wpc_n_inj a b : wpc_n a = wpc_n b -> a = b.
Proof. destruct a, b; intro; (reflexivity || discriminate). Qed.
Lemma hpc_n_inj a b : hpc_n a = hpc_n b -> a = b.
Proof. destruct a, b; intro; (reflexivity || discriminate). Qed.
Lemma pst_n_inj a b : pst_n a = pst_n b -> a = b.
Proof. destruct a, b; intro; (reflexivity || discriminate). Qed.
Lemma tmr_n_inj a b : tmr_n a = tmr_n b -> a = b.
Proof. destruct a, b; intro; (reflexivity || discriminate). Qed.

Lemma ustate_eqb_eq a b : ustate_eqb a b = true -> a = b.
Proof.
  unfold ustate_eqb. intro H. repeat (apply andb_prop in H as [H ?]).
  repeat match goal with
         | E : Nat.eqb _ _ = true |- _ => apply Nat.eqb_eq in E
         | E : Bool.eqb _ _ = true |- _ => apply eqb_prop in E
         end.
  destruct a, b. cbn in *. f_equal; auto using wpc_n_inj, hpc_n_inj, pst_n_inj, tmr_n_inj.
Qed.

Lemma umem_in s l : umem s l = true -> In s l.
Proof.
  unfold umem. intro H. apply existsb_exists in H as (x & Hx & E). apply ustate_eqb_eq in E. now subst.
Qed.

Lemma in_all_labels l : In l all_labels.
Proof. destruct l; cbn; tauto. Qed.

Lemma in_succs p l s s' : ustep p l s = Some s' -> In s' (succs p s).
Proof.
  intro H. unfold succs. apply in_flat_map. exists l. split; [apply in_all_labels|]. rewrite H. now left.
Qed.

Lemma closed_sound p r : closed p r = true -> forall s, reachable p s -> In s r.
Proof.
  unfold closed. intro H. apply andb_true_iff in H as [H0 H1]. rewrite forallb_forall in H1.
  intros s R. induction R as [|s l s' R IH E].
  - now apply umem_in.
  - specialize (H1 s IH). rewrite forallb_forall in H1. apply umem_in. apply H1. eapply in_succs; eauto.
Qed.

Lemma reach_closed_good p : let r := reach p in closed p r && forallb (ugood p) r = true.
Proof. destruct p as [[] [] [] [] []]; vm_compute; reflexivity. Qed.

(* all interleavings of waiter, helper, process, context and timer, for every kind of process
   and kill delay: every reachable state is good *)
Lemma reachable_good p s : reachable p s -> ugood p s = true.
Proof.
  intro R. destruct (andb_prop _ _ (reach_closed_good p)) as [C G].
  rewrite forallb_forall in G. apply G. now apply (closed_sound p _ C).
Qed.

(* the twelve clauses of ugood, in the order of its definition: Gsent (sent = received), Gone (at most
   one), Gboth (both threads finish together), Gpassed (when the value has been passed), Glive (no
   deadlock), Grank (thread steps lower the rank), Gattr (attribution), Gkill (kill only after interrupt
   and timer), Gsig (no signal before the context is done), Gsel (past the first select the context is
   done), Greaped (reaped exactly when Wait has returned), Gwhere (what the helper's location tells) *)
Ltac split_good H :=
  unfold ugood in H;
  apply andb_prop in H as [H Gwhere]; apply andb_prop in H as [H Greaped]; apply andb_prop in H as [H Gsel];
  apply andb_prop in H as [H Gsig]; apply andb_prop in H as [H Gkill]; apply andb_prop in H as [H Gattr];
  apply andb_prop in H as [H Grank]; apply andb_prop in H as [H Glive]; apply andb_prop in H as [H Gpassed];
  apply andb_prop in H as [H Gboth]; apply andb_prop in H as [Gsent Gone].

(* exactly one value is sent and received; both threads finish together, when it has been passed *)
Lemma one_value p s : reachable p s ->
  usent s = urecv s /\ usent s <= 1 /\
  (w_done (uw s) = true <-> h_done (uh s) = true) /\ (h_done (uh s) = true <-> usent s = 1).
Proof.
  intro R. pose proof (reachable_good p s R) as H. split_good H.
  apply Nat.eqb_eq in Gsent. apply Nat.leb_le in Gone. apply eqb_prop in Gboth, Gpassed.
  repeat split; try assumption; try (rewrite Gboth; tauto); try (rewrite <- Gboth; tauto).
  - rewrite Gpassed. apply Nat.eqb_eq.
  - intro E. rewrite Gpassed. now apply Nat.eqb_eq.
Qed.

(* no deadlock: once the process has exited, either both threads have finished or one of them
   can take a step that waits for nothing *)
Lemma no_deadlock p s : reachable p s -> upr s <> PRun ->
  (w_done (uw s) = true /\ h_done (uh s) = true) \/
  exists l s', In l unconditional_labels /\ ustep p l s = Some s'.
Proof.
  intros R Hp. pose proof (reachable_good p s R) as H. split_good H.
  apply orb_true_iff in Glive as [Glive|Glive].
  - apply orb_true_iff in Glive as [Glive|Glive].
    + destruct (upr s); cbn in Glive; try discriminate. contradiction.
    + left. now apply andb_true_iff.
  - right. apply existsb_exists in Glive as (l & Hl & E). unfold enabled in E.
    destruct (ustep p l s) as [s'|] eqn:Es; [|discriminate]. eauto.
Qed.

(* and there are finitely many such steps: every thread step lowers the rank (at most 9), the
   environment never raises it *)
Lemma thread_steps_bounded p s l s' : reachable p s -> ustep p l s = Some s' ->
  if is_thread_label l then rank s' < rank s else rank s' = rank s.
Proof.
  intros R E. pose proof (reachable_good p s R) as H. split_good H.
  rewrite forallb_forall in Grank. specialize (Grank l (in_all_labels l)). rewrite E in Grank.
  destruct (is_thread_label l); [now apply Nat.ltb_lt | now apply Nat.eqb_eq].
Qed.

Lemma rank_le_9 s : rank s <= 9.
Proof. unfold rank. destruct (uw s), (uh s); lia. Qed.

(* attribution: waitOrStop returns Wait's own result exactly when no signal was sent (the select sent
   nil, or Signal answered os.ErrProcessDone because Wait had already reaped the process); it returns
   the context's error when Signal(interrupt) returned nil, and also when Signal failed but the waiter
   took the value from the second select; after a failed Signal the final send carries Signal's error *)
Lemma attribution p s : reachable p s ->
  (uw s = WDoneCtx -> (uintr s = true \/ usigerr s = true) /\ uctx s = true) /\
  (uw s = WDoneWait -> uintr s = false /\ usigerr s = false) /\
  (uw s = WDoneSig -> usigerr s = true /\ uctx s = true) /\
  (sig_fails p = false -> usigerr s = false).
Proof.
  intro R. pose proof (reachable_good p s R) as H. split_good H.
  split; [|split; [|split]].
  - intro E. rewrite E in Gattr. apply andb_true_iff in Gattr as [Gattra Gattrb]. split; [now apply orb_true_iff | exact Gattrb].
  - intro E. rewrite E in Gattr. apply andb_true_iff in Gattr as [Gattra Gattrb]. split; now apply negb_true_iff.
  - intro E. rewrite E in Gattr. now apply andb_true_iff in Gattr.
  - intro Hf. destruct (usigerr s) eqn:E; [|reflexivity]. rewrite orb_true_r in Gsig. cbn in Gsig.
    rewrite !andb_true_iff in Gsig. destruct Gsig as (_ & Gsig). rewrite Hf in Gsig. discriminate.
Qed.

Lemma kill_only_after_interrupt p s : reachable p s -> ukil s = true ->
  kd_pos p = true /\ (uintr s = true \/ usigerr s = true) /\ utm s = TFired.
Proof.
  intros R E. pose proof (reachable_good p s R) as H. split_good H. rewrite E in Gkill. cbn in Gkill.
  apply andb_true_iff in Gkill as [Gkill Gkillc]. apply andb_true_iff in Gkill as [Gkilla Gkillb].
  split; [assumption|]. split; [now apply orb_true_iff|]. destruct (utm s); congruence.
Qed.

Lemma no_signal_before_ctx p s : reachable p s -> (uintr s = true \/ usigerr s = true) ->
  uctx s = true /\ has_ctx p = true.
Proof.
  intros R E. pose proof (reachable_good p s R) as H. split_good H.
  assert (X : (uintr s || usigerr s) = true) by (now apply orb_true_iff). rewrite X in Gsig. cbn in Gsig.
  rewrite !andb_true_iff in Gsig. tauto.
Qed.

(* where the process and the two goroutines are, relative to each other *)
Record control (p : uparams) (s : ustate) : Prop := {
  c_run : upr s = PRun -> uw s = WWait;
  c_wait : uw s = WWait -> upr s <> PReaped;
  c_reaped : uw s <> WWait -> upr s = PReaped;
  c_hdone : uh s = HDone -> w_done (uw s) = true;
  c_wdone : w_done (uw s) = true -> uh s = HDone;
  c_nil : uh s = HSendNil -> upr s = PReaped;
  c_err : uh s = HSendErr -> kd_pos p = true -> ukil s = true;
  c_after : uh s = HAfterSig -> utm s = TNone
}.

Lemma reachable_control p s : reachable p s -> control p s.
Proof.
  intro R. pose proof (reachable_good p s R) as H. split_good H. apply eqb_prop in Gboth, Greaped.
  destruct s as [w h pr cx tm ir kl se sn rc]. cbn [uw uh upr utm ukil] in *.
  constructor; cbn [uw uh upr utm ukil].
  - (* c_run *) intros ->. destruct w; (reflexivity || discriminate).
  - (* c_wait *) intros -> ->. discriminate.
  - (* c_reaped *) intro Nw. destruct w, pr; (reflexivity || discriminate || contradiction).
  - (* c_hdone *) intros ->. now rewrite Gboth.
  - (* c_wdone *) intro Ew. destruct h; (reflexivity || (rewrite Ew in Gboth; discriminate)).
  - (* c_nil *) intros ->. destruct pr; (reflexivity || discriminate).
  - (* c_err *) intros -> Ek. now rewrite Ek in Gwhere.
  - (* c_after *) intros ->. destruct tm; (reflexivity || discriminate).
Qed.

Example reachable_example :
  (* a process that ignores the interrupt: context fires, signal, timer, kill, exit, both return *)
  uexec {| has_ctx := true; kd_pos := true; self_exit := false; int_exit := false; sig_fails := false |}
        [LCtxFire; LSelCtx; LSignal; LArm; LTimerFire; LSelTimer; LKill; LKillExit; LWaitRet; LRendezvous] uinit
  = Some {| uw := WDoneCtx; uh := HDone; upr := PReaped; uctx := true; utm := TFired; uintr := true; ukil := true; usigerr := false; usent := 1; urecv := 1 |}.
Proof. reflexivity. Qed.

Example signal_error_example :
  (* Signal fails (say EPERM): no interrupt is delivered, the timer still runs, Kill is sent, and the
     error returned is Signal's *)
  uexec {| has_ctx := true; kd_pos := true; self_exit := false; int_exit := false; sig_fails := true |}
        [LCtxFire; LSelCtx; LSignal; LArm; LTimerFire; LSelTimer; LKill; LKillExit; LWaitRet; LRendezvous] uinit
  = Some {| uw := WDoneSig; uh := HDone; upr := PReaped; uctx := true; utm := TFired; uintr := false; ukil := true; usigerr := true; usent := 1; urecv := 1 |}.
Proof. reflexivity. Qed.

Lemma uexec_reachable p ls : forall s s', reachable p s -> uexec p ls s = Some s' -> reachable p s'.
Proof.
  induction ls as [|l ls IH]; intros s s' R E; cbn [uexec] in E.
  - now injection E as <-.
  - destruct (ustep p l s) as [s1|] eqn:E1; [|discriminate]. eapply IH; [|exact E]. eapply r_step; eauto.
Qed.

Section Timed.
Local Open Scope Z_scope.

(* the earlier of the two wins *)
Inductive first_spec (a b : option Z) : first -> Prop :=
  | fs_none : a = None -> b = None -> first_spec a b FNone
  | fs_a x : a = Some x -> (forall y, b = Some y -> x <= y) -> first_spec a b (FA x)
  | fs_b y : b = Some y -> (forall x, a = Some x -> y <= x) -> first_spec a b (FB y).

Lemma decide_first_spec a b t : first_spec a b (decide_first a b t).
Proof.
  destruct a as [x|], b as [y|]; cbn; [|now constructor..].
  destruct (Z.ltb_spec x y), (Z.ltb_spec y x), t; constructor; try reflexivity; intros ? [= <-]; lia.
Qed.

(* splits on the [decide_first] in the goal, with what decide_first_spec says of each outcome *)
Ltac case_first :=
  match goal with |- context [decide_first ?a ?b ?t] =>
    destruct (decide_first_spec a b t) as [?Ea ?Eb | ? ?Ea ?L | ? ?Eb ?L]
  end.

(* a command that finishes more than one slack before the context expires is not affected:
   Wait's own result, no signal, returns within two slacks of its exit *)
Lemma early_unaffected sigma p o ee :
  bounded sigma o -> tE p = Some ee ->
  match tC p with Some c => ee + sigma < c | None => True end ->
  res (wos p o) = RWait /\ t_int (wos p o) = None /\ t_kill (wos p o) = None /\
  exists r, t_ret (wos p o) = Some r /\ ee <= r <= ee + 2 * sigma.
Proof.
  intros (Bw & Bc & Bs & Ba & Bt & Bk & Br) HE HC. destruct p as [tc tk te ti]. cbn [tE tC] in HE, HC. subst te.
  unfold wos. cbn [tE tC option_map]. case_first.
  - discriminate.
  - injection Ea as <-. repeat split. eexists. split; [reflexivity | lia].
  - destruct tc as [c|]; [|discriminate]. injection Eb as <-. specialize (L _ eq_refl). lia.
Qed.

(* a command that blocks is interrupted within two slacks of the expiry of the context *)
Lemma blocked_interrupted sigma p o c :
  bounded sigma o -> tE p = None -> tC p = Some c ->
  exists ti, t_int (wos p o) = Some ti /\ int_ok (wos p o) = true /\ c <= ti <= c + 2 * sigma.
Proof.
  intros (Bw & Bc & Bs & Ba & Bt & Bk & Br) HE HC. destruct p as [tc tk te ti]. cbn [tE tC] in HE, HC. subst te tc.
  unfold wos. cbn [tE tC tK tI option_map decide_first min_opt].
  exists (c + dc o + ds o).
  destruct (tk <=? 0); [destruct (option_map _ ti) | case_first]; repeat split; lia.
Qed.

(* a command that ignores the interrupt is killed killDelay after the context expired, at most
   five slacks late *)
Lemma kill_escalation sigma p o c :
  bounded sigma o -> tE p = None -> tI p = None -> tC p = Some c -> 0 < tK p ->
  exists tk, t_kill (wos p o) = Some tk /\ c + tK p <= tk <= c + tK p + 5 * sigma /\
             t_exit (wos p o) = Some tk /\ res (wos p o) = RCtx.
Proof.
  intros (Bw & Bc & Bs & Ba & Bt & Bk & Br) HE HI HC HK. destruct p as [tc tk te ti]. cbn [tE tC tI tK] in *. subst te tc ti.
  unfold wos. cbn [tE tC tK tI option_map decide_first min_opt].
  destruct (Z.leb_spec tk 0); [lia|]. eexists. repeat split. all: lia.
Qed.

(* with a deadline and a positive kill delay waitOrStop always returns, no later than seven
   slacks after the later of the command's own exit and the kill time *)
Lemma returns_by sigma p o c :
  bounded sigma o -> tC p = Some c -> 0 < tK p -> 0 <= sigma ->
  exists r, t_ret (wos p o) = Some r /\
            r <= Z.max (match tE p with Some ee => ee | None => c + tK p end) (c + tK p) + 7 * sigma.
Proof.
  intros (Bw & Bc & Bs & Ba & Bt & Bk & Br) HC HK Hs. destruct p as [tc tk te ti]. cbn [tE tC tK] in *. subst tc.
  unfold wos. cbn [tE tC tK tI option_map]. cbv zeta. case_first.
  - discriminate.
  - destruct te as [ee|]; [|discriminate]. injection Ea as <-. eexists; split; [reflexivity | lia].
  - injection Eb as <-. clear L.
    destruct (match _ with Some _ => _ | None => false end) eqn:Reaped; [eexists; split; [reflexivity | lia]|].
    destruct (Z.leb_spec tk 0); [lia|]. case_first.
    + discriminate.
    + specialize (L _ eq_refl). eexists; split; [reflexivity | lia].
    + injection Eb as <-. eexists; split; [reflexivity|]. destruct (min_opt _ _); lia.
Qed.

(* a command that exits d after the interrupt, with d + slack < killDelay, is not killed *)
Lemma cooperative_not_killed sigma p o c d :
  bounded sigma o -> tE p = None -> tI p = Some d -> tC p = Some c -> 0 <= d -> d + sigma < tK p ->
  t_kill (wos p o) = None /\ res (wos p o) = RCtx /\
  exists r, t_ret (wos p o) = Some r /\ r <= c + d + 4 * sigma.
Proof.
  intros (Bw & Bc & Bs & Ba & Bt & Bk & Br) HE HI HC Hd HK. destruct p as [tc tk te ti]. cbn [tE tC tI tK] in *. subst te tc ti.
  unfold wos. cbn [tE tC tK tI option_map]. cbn [decide_first]. cbn [option_map min_opt].
  destruct (Z.leb_spec tk 0); [lia|]. case_first.
  - discriminate.
  - injection Ea as <-. repeat split. eexists. split; [reflexivity | lia].
  - injection Eb as <-. specialize (L _ eq_refl). lia.
Qed.

(* the timed run agrees with the interleaving system on attribution *)
Lemma attribution_timed p o : res (wos p o) = RCtx <-> (int_ok (wos p o) = true /\ t_ret (wos p o) <> None).
Proof.
  unfold wos. cbv zeta.
  destruct (decide_first _ _ (tie1 o)); [| |
    destruct (match _ with Some _ => _ | None => false end) eqn:Reaped; [|
      destruct (tK p <=? 0); [destruct (min_opt _ _); cbn [option_map] | destruct (decide_first _ _ _)]]];
    cbn; split; (discriminate || (intros [? ?]; congruence) || (intros _; split; congruence)).
Qed.

Definition exit_ok (u : uparams) (l : ulabel) : bool :=
  match l with LSelfExit => self_exit u | LIntExit => int_exit u | _ => false end.

Definition done_ctx : ustate -> Prop := fun s => uw s = WDoneCtx /\ uh s = HDone.
Definition done_wait : ustate -> Prop := fun s => uw s = WDoneWait /\ uh s = HDone.

Lemma path_early u : self_exit u = true ->
  exists s, uexec u [LSelfExit; LWaitRet; LRendezvous] uinit = Some s /\ done_wait s.
Proof. intro H. cbn. rewrite H. cbn. eexists. split; [reflexivity|]. now split. Qed.

Lemma path_reaped u : self_exit u = true -> has_ctx u = true ->
  exists s, uexec u [LSelfExit; LWaitRet; LCtxFire; LSelCtx; LSignal; LRendezvous] uinit = Some s /\ done_wait s.
Proof. intros H1 H2. cbn. rewrite H1. cbn. rewrite H2. cbn. eexists. split; [reflexivity|]. now split. Qed.

Lemma path_nokill u l : has_ctx u = true -> sig_fails u = false -> exit_ok u l = true ->
  exists s, uexec u ([LCtxFire; LSelCtx; LSignal; LArm] ++ [l; LWaitRet; LRendezvous]) uinit = Some s /\ done_ctx s.
Proof.
  intros H1 Hs H2. destruct u as [hc kp se ie sf]. cbn in H1, Hs. subst hc sf.
  destruct l; cbn in H2; try discriminate; subst; destruct kp; cbn; eexists; (split; [reflexivity|]); now split.
Qed.

Lemma path_kill u l : has_ctx u = true -> sig_fails u = false -> kd_pos u = true -> (exit_ok u l = true \/ l = LKillExit) ->
  exists s, uexec u ([LCtxFire; LSelCtx; LSignal; LArm] ++ [LTimerFire; LSelTimer; LKill; l; LWaitRet; LRendezvous]) uinit = Some s /\ done_ctx s.
Proof.
  intros H1 Hs H2 H3. destruct u as [hc kp se ie sf]. cbn in H1, Hs, H2. subst hc kp sf.
  destruct H3 as [H3| ->]; [destruct l; cbn in H3; try discriminate; subst|]; cbn; eexists; (split; [reflexivity|]); now split.
Qed.

(* the process exits by itself, or on the interrupt, only if it is of that kind *)
Lemma exit_label_ok p ti x :
  min_opt (tE p) (option_map (fun d => ti + d) (tI p)) = Some x ->
  exit_ok (uparams_of p) (exit_label (tE p) x LIntExit) = true.
Proof.
  unfold exit_label, uparams_of. destruct (tE p) as [ee|], (tI p) as [d|]; cbn; try discriminate; intros [= <-].
  - now destruct (ee <=? Z.min ee (ti + d)).
  - now rewrite Z.leb_refl.
  - reflexivity.
Qed.

(* every timed run is one of the interleavings of the finite system, with the same result *)
Lemma wos_trace_valid p o : res (wos p o) <> RNever ->
  exists s, uexec (uparams_of p) (trace (wos p o)) uinit = Some s /\
            uw s = (match res (wos p o) with RCtx => WDoneCtx | _ => WDoneWait end) /\ uh s = HDone.
Proof.
  unfold wos. cbv zeta. case_first; [now intros [] | intros _ | rename y into c1].
  - apply path_early. cbn. now destruct (tE p).
  - assert (HC : has_ctx (uparams_of p) = true) by (cbn; now destruct (tC p)).
    pose proof (exit_label_ok p (c1 + ds o)) as EX.
    destruct (match _ with Some _ => _ | None => false end) eqn:Reaped.
    { intros _. apply path_reaped; [|exact HC]. cbn. now destruct (tE p). }
    destruct (Z.leb_spec (tK p) 0).
    + destruct (min_opt _ _) as [x|]; cbn [option_map]; [intros _ | now intros []]. apply path_nokill; auto.
    + assert (KP : kd_pos (uparams_of p) = true) by (now apply Z.ltb_lt).
      intros _. case_first.
      * discriminate.
      * destruct (min_opt _ _) as [x'|]; [|discriminate]. apply path_nokill; auto.
      * apply path_kill; auto. destruct (min_opt _ _) as [x'|]; [destruct (x' <=? _)|]; auto.
Qed.

Lemma timed_out_rule neg : cmd_exec_verdict true true neg = XTimedOut timed_out_message.
Proof. reflexivity. Qed.

Lemma not_timed_out_rule err neg : cmd_exec_verdict err false neg <> XTimedOut timed_out_message.
Proof. destruct err, neg; discriminate. Qed.

Lemma blocked_result sigma p o c :
  bounded sigma o -> tE p = None -> tC p = Some c -> 0 < tK p ->
  match tI p with Some d => 0 <= d | None => True end ->
  res (wos p o) = RCtx /\ exists r, t_ret (wos p o) = Some r /\ c <= r.
Proof.
  intros (Bw & Bc & Bs & Ba & Bt & Bk & Br) HE HC HK HI. destruct p as [tc tk te ti]. cbn [tE tC tI tK] in *. subst te tc.
  unfold wos. cbn [tE tC tK tI option_map]. cbn [decide_first]. cbn [min_opt].
  destruct (Z.leb_spec tk 0); [lia|]. case_first.
  - discriminate.
  - destruct ti as [d|]; [|discriminate]. injection Ea as <-. split; [reflexivity|]. eexists. split; [reflexivity | lia].
  - injection Eb as <-. split; [reflexivity|]. eexists. split; [reflexivity | lia].
Qed.

(* a foreground command that never exits by itself, under a deadline: exec fails with the
   timed-out message, whether or not the line was negated *)
Lemma blocked_reports_timed_out sigma p o c wait_ok neg :
  bounded sigma o -> tE p = None -> tC p = Some c -> 0 < tK p ->
  match tI p with Some d => 0 <= d | None => True end ->
  fg_exec p o wait_ok neg = Some (XTimedOut timed_out_message).
Proof.
  intros B HE HC HK HI. destruct (blocked_result sigma p o c B HE HC HK HI) as (R & r & T & L).
  unfold fg_exec. rewrite T, R, HC. apply Z.leb_le in L. rewrite L. reflexivity.
Qed.

(* whenever exec reports a failure after the context has expired, it is the timed-out one *)
Lemma timed_out_report p o wait_ok neg v :
  fg_exec p o wait_ok neg = Some v ->
  (match res (wos p o) with RCtx => true | _ => negb wait_ok end) = true ->
  (exists c r, tC p = Some c /\ t_ret (wos p o) = Some r /\ c <= r) ->
  v = XTimedOut timed_out_message.
Proof.
  unfold fg_exec. intros H E (c & r & HC & T & L). rewrite T, HC, E in H. apply Z.leb_le in L. rewrite L in H.
  injection H as <-. reflexivity.
Qed.

Lemma fg_kill_delay_grace until : fg_kill_delay until = grace until.
Proof. reflexivity. Qed.

Lemma fg_kill_delay_pos until : 0 < fg_kill_delay until.
Proof. pose proof (grace_ge_min until). assert (0 < min_grace) by reflexivity. rewrite fg_kill_delay_grace. lia. Qed.

(* what the property says in words: two grace periods are reserved, the kill delay of a
   foreground command is one grace period, background commands are never killed by waitOrStop *)
Lemma two_grace_periods_reserved : grace_reserve = 2 /\ (forall until, fg_kill_delay until = grace until) /\ bg_kill_delay <= 0.
Proof. split; [reflexivity|]. split; [intro; reflexivity|]. discriminate. Qed.

Lemma runt_interrupt_time sigma now eps D i o :
  bounded sigma o ->
  exists ti, t_int (wos (fg_params now eps D None i) o) = Some ti /\ int_ok (wos (fg_params now eps D None i) o) = true /\
             D + eps - grace_reserve * grace (D - now) <= ti <= D + eps - grace_reserve * grace (D - now) + 2 * sigma.
Proof.
  intro B. destruct (blocked_interrupted sigma (fg_params now eps D None i) o (ctx_deadline now eps D) B eq_refl eq_refl) as (ti & T & K & L).
  exists ti. split; [exact T|]. split; [exact K|]. destruct (grace_arith now eps D) as [A _]. lia.
Qed.

Lemma runt_kill_time sigma now eps D o :
  bounded sigma o ->
  exists tk, t_kill (wos (fg_params now eps D None None) o) = Some tk /\
             D + eps - (grace_reserve - 1) * grace (D - now) <= tk <= D + eps - (grace_reserve - 1) * grace (D - now) + 5 * sigma /\
             t_exit (wos (fg_params now eps D None None) o) = Some tk.
Proof.
  intro B.
  destruct (kill_escalation sigma (fg_params now eps D None None) o (ctx_deadline now eps D) B eq_refl eq_refl eq_refl
              (fg_kill_delay_pos _)) as (tk & T & L & X & _).
  exists tk. split; [exact T|]. split; [|exact X]. cbn [tK fg_params] in L. rewrite fg_kill_delay_grace in L.
  destruct (grace_arith now eps D) as [A _]. lia.
Qed.

Lemma runt_returns_by sigma now eps D e i o :
  bounded sigma o -> 0 <= sigma ->
  exists r, t_ret (wos (fg_params now eps D e i) o) = Some r /\
            r <= (match e with
                  | Some ee => Z.max ee (D + eps - (grace_reserve - 1) * grace (D - now))
                  | None => D + eps - (grace_reserve - 1) * grace (D - now)
                  end) + 7 * sigma.
Proof.
  intros B Hs.
  destruct (returns_by sigma (fg_params now eps D e i) o (ctx_deadline now eps D) B eq_refl (fg_kill_delay_pos _) Hs)
    as (r & T & L).
  exists r. split; [exact T|]. cbn [tK tE fg_params] in L. rewrite fg_kill_delay_grace in L.
  destruct (grace_arith now eps D) as [A _]. destruct e; lia.
Qed.

Lemma runt_done_by_deadline sigma now eps D e i o :
  bounded sigma o -> 0 <= sigma -> 2 <= grace_reserve -> eps + 7 * sigma <= min_grace ->
  exists r, t_ret (wos (fg_params now eps D e i) o) = Some r /\
            r <= Z.max (match e with Some ee => ee + 7 * sigma | None => D end) D.
Proof.
  intros B Hs _ He. destruct (runt_returns_by sigma now eps D e i o B Hs) as (r & T & L).
  exists r. split; [exact T|]. pose proof (grace_ge_min (D - now)). unfold grace_reserve in L. destruct e; lia.
Qed.

Lemma runt_early_unaffected sigma now eps D ee i o :
  bounded sigma o -> 0 <= eps -> ee + sigma < D - grace_reserve * grace (D - now) ->
  res (wos (fg_params now eps D (Some ee) i) o) = RWait /\ t_int (wos (fg_params now eps D (Some ee) i) o) = None /\
  t_kill (wos (fg_params now eps D (Some ee) i) o) = None /\
  exists r, t_ret (wos (fg_params now eps D (Some ee) i) o) = Some r /\ ee <= r <= ee + 2 * sigma.
Proof.
  intros B He H. apply (early_unaffected sigma (fg_params now eps D (Some ee) i) o ee B eq_refl).
  cbn [tC fg_params]. destruct (grace_arith now eps D) as [A _]. lia.
Qed.

Lemma runt_blocked_timed_out sigma now eps D i o wait_ok neg :
  bounded sigma o -> match i with Some d => 0 <= d | None => True end ->
  fg_exec (fg_params now eps D None i) o wait_ok neg = Some (XTimedOut timed_out_message).
Proof.
  intros B Hi.
  exact (blocked_reports_timed_out sigma (fg_params now eps D None i) o _ wait_ok neg B eq_refl eq_refl (fg_kill_delay_pos _) Hi).
Qed.

Example oracle_example : bounded 1000000 {| dw := 1000; dc := 0; ds := 1000000; da := 5; dt := 7; dk := 0; dr := 10; tie1 := true; tie2 := false; tie3 := true |}.
Proof. unfold bounded. cbn. lia. Qed.

Example wos_example :
  (* deadline 1 s away, the command ignores the interrupt: interrupted at 0.8 s, killed at 0.9 s *)
  let r := wos (fg_params 0 0 1000000000 None None) {| dw := 0; dc := 0; ds := 0; da := 0; dt := 0; dk := 0; dr := 0; tie1 := true; tie2 := true; tie3 := true |} in
  t_int r = Some 800000000 /\ t_kill r = Some 900000000 /\ t_ret r = Some 900000000 /\ res r = RCtx.
Proof. vm_compute. repeat split. Qed.
End Timed.
