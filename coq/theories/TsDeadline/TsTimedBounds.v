(* C17 — the time windows of the timed automaton (TsTimed.v), for every timed run: the waiter's side
   (returns-by) and commands that finish early. *)
From Coq Require Import List Bool ZArith Lia.
From GI Require Import Lib.Bytes Gen.TsBatchConsts TsDeadline.TsDeadline TsDeadline.TsDeadlineFacts TsDeadline.TsTimed TsDeadline.TsTimedFacts.
Import ListNotations.
Local Open Scope Z_scope.

(* the waiter's side, given a bound B on the clock while the process runs: the exit is by B, and
   cmd.Wait returns a slack later *)
Record winv (tp : tpar) (B : Z) (s : tstate) : Prop := {
  w_texit : at_exit s <> None -> time_of (at_exit s) <= B;
  w_zomb : upr (us s) = PZombie -> at_exit s <> None;
  w_twr : at_wrecv s <> None -> time_of (at_wrecv s) <= B + psig tp;
  w_recv : uw (us s) = WRecv -> at_wrecv s <> None
}.

Lemma winv_init par B : winv par B tinit.
Proof. constructor; cbn; intros; (discriminate || congruence). Qed.

Lemma winv_delay par B s d : winv par B s -> winv par B (advance s d).
Proof. intros [A1 A2 A3 A4]. constructor; assumption. Qed.

Lemma winv_disc par B s l u' :
  punctual par s -> (upr (us s) = PRun -> now s <= B) ->
  winv par B s -> dstep par s l u' -> winv par B (stamp l s u').
Proof.
  intros P Hrun [Wtexit Wzomb Wtwr Wrecv] D.
  destruct D; constructor; tcbn; try assumption; try (intro; discriminate); try (intros _; exact (Hrun Ep)).
  - (* d_wait, w_twr *)
    intros _. pose proof (Wzomb Ep) as A. specialize (Wtexit A). pose proof (pt_wait _ _ P Ew Ep A). lia.
  - (* d_rdv, w_recv *)
    intro E. pose proof (rdv_value_done (us s)) as X. rewrite E in X. discriminate.
Qed.

(* as long as waitOrStop has not returned; T: a bound on the moment the helper entered the location it
   is in *)
Lemma winv_not_returned par B T s :
  0 <= psig par -> treach par s -> punctual par s -> winv par B s ->
  (upr (us s) = PRun -> now s <= B) -> (uh (us s) <> HDone -> at_h s <= T) ->
  w_done (uw (us s)) = false -> now s <= Z.max (B + psig par) T + psig par.
Proof.
  intros Wsig R P [Wtexit Wzomb Wtwr Wrecv] Hrun Hth Hw.
  destruct (treach_control par s R) as [_ C2 _ C4 _ _ _ _].
  destruct (uw (us s)) eqn:Ew; try discriminate.
  - destruct (upr (us s)) eqn:Ep.
    + specialize (Hrun eq_refl). lia.
    + pose proof (Wzomb eq_refl) as A. specialize (Wtexit A). pose proof (pt_wait _ _ P Ew Ep A). lia.
    + now contradiction (C2 eq_refl).
  - pose proof (Wrecv eq_refl) as A. specialize (Wtwr A).
    assert (Hn : uh (us s) <> HDone) by (intro Eh; discriminate (C4 Eh)).
    specialize (Hth Hn). destruct (send_ready (uh (us s))) eqn:Es.
    + pose proof (pt_rdv _ _ P Ew Es A). lia.
    + (* the helper is on its way to a send: it moves within a slack *)
      assert (now s <= at_h s + psig par); [|lia].
      apply (pt_helper _ _ P). destruct (uh (us s)); try discriminate; auto. now contradiction Hn.
Qed.

(* while the helper has a step before it, the clock cannot pass the latest moment of the kill *)
Lemma helper_clock par s : wf_tpar par -> has_ctx (pu par) = true -> kd_pos (pu par) = true ->
  helper_windows par s -> punctual par s ->
  match uh (us s) with
  | HSendNil | HSendErr | HDone => True
  | _ => now s <= pC par + pK par + 7 * psig par
  end.
Proof.
  intros W Hc Hk [Inow I0 I1 Isig Itsig Iafter Itarm Itm0 Itm1 Itm2 Isel2 Ihk Itk]
         [Pctx _ _ _ Ptimer _ Ph Psel1 Psel2 _].
  pose proof (wf_psig _ W). pose proof (wf_pK _ W Hk). destruct (uh (us s)) eqn:Eh; trivial.
  - destruct (uctx (us s)) eqn:Ec.
    + destruct (I1 eq_refl) as (A & B & C). specialize (Psel1 eq_refl eq_refl A). lia.
    + specialize (Pctx Hc eq_refl). lia.
  - specialize (Isig eq_refl). specialize (Ph (or_introl eq_refl)). lia.
  - specialize (Iafter eq_refl). specialize (Ph (or_intror (or_introl eq_refl))). lia.
  - specialize (Isel2 eq_refl). destruct (utm (us s)) eqn:Et; [contradiction| |].
    + destruct (Itm1 eq_refl) as (A & _). destruct (Itarm A). specialize (Ptimer eq_refl A). lia.
    + destruct (Itm2 eq_refl) as (_ & F & ? & _). specialize (Psel2 eq_refl eq_refl F). lia.
  - destruct (Ihk eq_refl) as (_ & ?). specialize (Ph (or_intror (or_intror eq_refl))). lia.
Qed.

Record returns_inv (par : tpar) (s : tstate) : Prop := {
  q_w : winv par (pC par + pK par + 8 * psig par) s;
  q_th : uh (us s) <> HDone -> at_h s <= pC par + pK par + 7 * psig par;
  q_herr : uh (us s) = HSendErr -> at_kill s <> None /\ at_h s = time_of (at_kill s)
}.

(* still running: the helper goes on to the kill, and the process is gone a slack after that *)
Lemma running_clock par s :
  wf_tpar par -> has_ctx (pu par) = true -> kd_pos (pu par) = true -> treach par s -> helper_windows par s -> punctual par s ->
  returns_inv par s -> upr (us s) = PRun -> now s <= pC par + pK par + 8 * psig par.
Proof.
  intros W Hc Hk R I P [_ _ Qherr] Ep. pose proof (helper_clock _ _ W Hc Hk I P) as X.
  pose proof (wf_psig _ W). destruct (treach_control par s R) as [C1 _ _ C4 _ C6 C7 _].
  destruct (uh (us s)) eqn:Eh; try lia.
  - rewrite (C6 eq_refl) in Ep. discriminate.
  - destruct (Qherr eq_refl) as (A & B). pose proof (i_tkill _ _ I A). pose proof (pt_killed _ _ P Ep (C7 eq_refl Hk) A). lia.
  - rewrite (C1 Ep) in C4. specialize (C4 eq_refl). discriminate.
Qed.

Lemma returns_inv_reach par s : wf_tpar par -> has_ctx (pu par) = true -> kd_pos (pu par) = true ->
  treach par s -> returns_inv par s.
Proof.
  intros W Hc Hk. revert s. apply treach_inv; [exact W | | |].
  - pose proof (wf_psig _ W). pose proof (wf_pC _ W). pose proof (wf_pK _ W Hk).
    constructor; [apply winv_init|..]; unfold tinit, uinit; tcbn; intros; (discriminate || lia).
  - intros s l u' R P Q D. pose proof (helper_windows_reach par s W R) as I.
    pose proof (helper_clock _ _ W Hc Hk I P) as X. pose proof (running_clock _ _ W Hc Hk R I P Q) as Hrun.
    destruct Q as [Qw Qth Qherr].
    (* the helper enters a new location: helper_clock tells by when *)
    constructor; [now apply winv_disc|..];
      destruct D; tcbn; try assumption; try (intro; discriminate); try congruence;
      try (intros _; rewrite Eh in X; exact X).
    (* d_kill, q_herr *)
    intros _. split; [discriminate | reflexivity].
  - intros s d [Qw Qth Qherr] _. constructor; [now apply winv_delay|..]; assumption.
Qed.

Lemma ta_interrupt_window par s ts : wf_tpar par -> treach par s -> at_sig s = Some ts ->
  pC par <= ts <= pC par + 3 * psig par.
Proof.
  intros W R E. pose proof (i_tsig _ _ (helper_windows_reach par s W R)) as I. rewrite E in I. now apply I.
Qed.

Lemma ta_kill_window par s tk : wf_tpar par -> treach par s -> at_kill s = Some tk ->
  pC par + pK par <= tk <= pC par + pK par + 7 * psig par.
Proof.
  intros W R E. pose proof (i_tkill _ _ (helper_windows_reach par s W R)) as I. rewrite E in I. now apply I.
Qed.

(* with a deadline and a positive kill delay waitOrStop cannot stay unfinished: as long as the waiter has
   not returned, the clock is at most ten slacks past the kill time *)
Lemma ta_returns_by par s : wf_tpar par -> has_ctx (pu par) = true -> kd_pos (pu par) = true ->
  treach par s -> w_done (uw (us s)) = false -> now s <= pC par + pK par + 10 * psig par.
Proof.
  intros W Hc Hk R Hw. pose proof (punctual_reach par s W R) as P. pose proof (returns_inv_reach par s W Hc Hk R) as Q.
  pose proof (running_clock _ _ W Hc Hk R (helper_windows_reach par s W R) P Q) as Hrun.
  destruct Q as [Qw Qth _]. pose proof (wf_psig _ W) as Wsig.
  pose proof (winv_not_returned _ _ _ _ Wsig R P Qw Hrun Qth Hw). lia.
Qed.

Lemma ta_return_time par s r : wf_tpar par -> has_ctx (pu par) = true -> kd_pos (pu par) = true ->
  treach par s -> at_ret s = Some r -> r <= pC par + pK par + 10 * psig par.
Proof.
  intros W Hc Hk R. revert r. pattern s. revert s R. apply treach_inv; [exact W | discriminate | | auto].
  intros s l u' R _ IH D. destruct D; tcbn; try exact IH.
  intros r E. injection E as <-. apply (ta_returns_by par s W Hc Hk R). now rewrite Ew.
Qed.

(* a command that exits by itself early enough is not affected by the deadline *)
Definition early (par : tpar) : Prop :=
  self_exit (pu par) = true /\ (has_ctx (pu par) = true -> pE par + 3 * psig par < pC par).

Record early_inv (par : tpar) (s : tstate) : Prop := {
  e_w : winv par (pE par + psig par) s;
  e_lo : upr (us s) <> PRun -> pE par <= now s;
  e_quiet : uintr (us s) = false /\ usigerr (us s) = false /\ ukil (us s) = false /\ at_sig s = None /\ at_kill s = None;
  e_nd : w_done (uw (us s)) = false -> uh (us s) = HSel1 /\ uctx (us s) = false /\ at_h s = 0;
  e_done : w_done (uw (us s)) = true ->
           uw (us s) = WDoneWait /\ at_ret s <> None /\ pE par <= time_of (at_ret s) <= pE par + 3 * psig par
}.

(* not returned yet: at most three slacks after the exit *)
Lemma early_clock par s : wf_tpar par -> early par -> treach par s -> punctual par s -> early_inv par s ->
  w_done (uw (us s)) = false -> now s <= pE par + 3 * psig par.
Proof.
  intros W (Hs & _) R P [Ew _ _ End _] Hw. pose proof (wf_psig _ W) as Wsig. pose proof (wf_pE _ W).
  assert (Hth : uh (us s) <> HDone -> at_h s <= 0).
  { intros _. destruct (End Hw) as (_ & _ & ->). lia. }
  pose proof (winv_not_returned _ _ _ _ Wsig R P Ew (pt_self _ _ P Hs) Hth Hw). lia.
Qed.

Lemma early_inv_reach par s : wf_tpar par -> early par -> treach par s -> early_inv par s.
Proof.
  intros W He. revert s. apply treach_inv; [exact W | | |].
  - pose proof (wf_psig _ W). pose proof (wf_pE _ W). constructor; [apply winv_init|..]; unfold tinit, uinit; tcbn; cbn [w_done]; intros;
      repeat split; (discriminate || congruence || lia).
  - intros s l u' R P Q D. pose proof (early_clock _ _ W He R P Q) as NR.
    destruct Q as [Qw Elo Eq End Edone]. destruct He as (Hs & He).
    destruct (treach_control par s R) as [_ _ C3 _ C5 _ _ _].
    assert (Hh : uh (us s) = HDone \/ uh (us s) = HSel1 /\ uctx (us s) = false).
    { destruct (w_done (uw (us s))); [left; now apply C5 | right; split; now apply End]. }
    constructor; [apply winv_disc; [assumption | exact (pt_self _ _ P Hs) | assumption..]|..];
      destruct D; tcbn; try assumption; try (intro; discriminate); try (destruct Hh as [?|[? ?]]; congruence).
    + (* d_int, e_lo: the process does not exit on a signal, none was sent *)
      destruct Eq as (? & _). congruence.
    + (* d_killed, e_lo *)
      destruct Eq as (_ & _ & ? & _). congruence.
    + (* d_wait, e_lo *)
      intros _. apply Elo. rewrite Ep. discriminate.
    + (* d_ctx, e_nd: the context does not fire before waitOrStop has returned *)
      intro Hw. specialize (NR Hw). specialize (He Eflag). lia.
    + (* d_wait, e_nd *)
      intros _. apply End. now rewrite Ew.
    + (* d_rdv, e_nd *)
      rewrite rdv_value_done. discriminate.
    + (* d_rdv, e_done: the value is the nil of the first select *)
      intros _. assert (Hw : w_done (uw (us s)) = false) by now rewrite Ew.
      destruct (End Hw) as (Eh & _). unfold rdv_value. rewrite Eh.
      specialize (NR Hw). specialize (Elo ltac:(rewrite C3; [discriminate | congruence])).
      repeat split; (discriminate || lia).
  - intros s d [Ew Elo Eq End Edone] D0. constructor; tcbn; try assumption; [now apply winv_delay|].
    intro Ep. specialize (Elo Ep). lia.
Qed.

(* a command that exits by itself at pE, more than three slacks before the context expires: in every
   timed run no signal is ever sent, the result is Wait's own, and waitOrStop returns within three
   slacks of the exit *)
Lemma ta_early_unaffected par s : wf_tpar par -> early par -> treach par s ->
  uintr (us s) = false /\ usigerr (us s) = false /\ ukil (us s) = false /\ at_sig s = None /\ at_kill s = None /\
  (w_done (uw (us s)) = false -> now s <= pE par + 3 * psig par) /\
  (w_done (uw (us s)) = true ->
   uw (us s) = WDoneWait /\ exists r, at_ret s = Some r /\ pE par <= r <= pE par + 3 * psig par).
Proof.
  intros W He R. pose proof (early_inv_reach par s W He R) as Q.
  pose proof (early_clock _ _ W He R (punctual_reach par s W R) Q) as NR.
  destruct Q as [_ _ (Q1 & Q2 & Q3 & Q4 & Q5) _ Edone]. do 6 (split; [assumption|]).
  intro Hd. destruct (Edone Hd) as (Ew & A & B). split; [exact Ew|].
  exists (time_of (at_ret s)). split; [now apply time_of_some | exact B].
Qed.

Lemma fg_tpar_wf u now_ eps D e d sg :
  0 <= sg -> 0 <= ctx_deadline now_ eps D -> 0 <= e -> 0 <= d -> kd_pos u = true -> wf_tpar (fg_tpar u now_ eps D e d sg).
Proof.
  intros H1 H2 H3 H4 H5. unfold wf_tpar, fg_tpar. cbn [psig pC pE pD pK pu].
  split; [exact H1|]. split; [exact H2|]. split; [exact H3|]. split; [exact H4|]. split; [|intros _; exact H5].
  intros _. apply fg_kill_delay_pos.
Qed.

(* a foreground command under RunT: the interrupt is sent grace_reserve grace periods before the
   deadline (three slacks late at most), the kill one grace period later (seven slacks late at most),
   and waitOrStop has returned ten slacks after that at the latest: in every timed run *)
Lemma ta_runt_windows u now_ eps D e d sg s :
  0 <= sg -> 0 <= ctx_deadline now_ eps D -> 0 <= e -> 0 <= d -> has_ctx u = true -> kd_pos u = true ->
  treach (fg_tpar u now_ eps D e d sg) s ->
  let g := grace (D - now_) in
  (forall ts, at_sig s = Some ts -> D + eps - grace_reserve * g <= ts <= D + eps - grace_reserve * g + 3 * sg) /\
  (forall tk, at_kill s = Some tk -> D + eps - (grace_reserve - 1) * g <= tk <= D + eps - (grace_reserve - 1) * g + 7 * sg) /\
  (forall r, at_ret s = Some r -> r <= D + eps - (grace_reserve - 1) * g + 10 * sg).
Proof.
  intros H1 H2 H3 H4 Hc Hk R g. pose proof (fg_tpar_wf u now_ eps D e d sg H1 H2 H3 H4 Hk) as W.
  destruct (grace_arith now_ eps D) as [A _]. fold g in A.
  split; [|split]; intros x E;
    [pose proof (ta_interrupt_window _ _ _ W R E) as X | pose proof (ta_kill_window _ _ _ W R E) as X
    | pose proof (ta_return_time _ _ _ W Hc Hk R E) as X];
    cbn [fg_tpar pC pK psig] in X; change (fg_kill_delay (D - now_)) with g in X; lia.
Qed.

(* a concrete timed run: deadline of the context 800 ms, killDelay 100 ms, the process ignores the
   interrupt, slack 10 ms, every step as late as allowed *)
Example ta_run_example :
  let par := {| pu := {| has_ctx := true; kd_pos := true; self_exit := false; int_exit := false; sig_fails := false |};
                pC := 800; pK := 100; pE := 0; pD := 0; psig := 10 |} in
  wf_tpar par /\
  exists s, texec par [MDelay 810; MDisc LCtxFire; MDelay 10; MDisc LSelCtx; MDelay 10; MDisc LSignal; MDelay 10; MDisc LArm;
                       MDelay 110; MDisc LTimerFire; MDelay 10; MDisc LSelTimer; MDelay 10; MDisc LKill; MDelay 10;
                       MDisc LKillExit; MDelay 10; MDisc LWaitRet; MDelay 10; MDisc LRendezvous] tinit = Some s
            /\ at_sig s = Some 830 /\ at_kill s = Some 970 /\ at_ret s = Some 1000 /\ uw (us s) = WDoneCtx.
Proof.
  split; [unfold wf_tpar; cbn; repeat split; intros; try lia; reflexivity|].
  eexists. split; [vm_compute; reflexivity|]. repeat split.
Qed.

Lemma texec_reach par ms : forall s s', treach par s -> texec par ms s = Some s' -> treach par s'.
Proof.
  induction ms as [|m ms IH]; intros s s' R E; cbn [texec] in E.
  - now injection E as <-.
  - destruct (tstep par m s) as [s1|] eqn:E1; [|discriminate]. eapply IH; [|exact E]. eapply tr_step; eauto.
Qed.

(* one more slack and the run above is impossible: the obligation refuses the delay *)
Example ta_delay_refused :
  let par := {| pu := {| has_ctx := true; kd_pos := true; self_exit := false; int_exit := false; sig_fails := false |};
                pC := 800; pK := 100; pE := 0; pD := 0; psig := 10 |} in
  texec par [MDelay 811] tinit = None /\ texec par [MDelay 700; MDisc LCtxFire] tinit = None.
Proof. split; vm_compute; reflexivity. Qed.
