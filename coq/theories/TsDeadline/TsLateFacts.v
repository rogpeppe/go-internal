(* C17 — facts about scripts that start late (TsLate.v). *)
From Coq Require Import List Bool ZArith Lia.
From GI Require Import Lib.Bytes Gen.TsBatchConsts TsDeadline.TsDeadline TsDeadline.TsDeadlineFacts TsDeadline.TsLate.
Import ListNotations.
Local Open Scope Z_scope.

(* the context of a script is RunT's: when it expires does not depend on when the script starts *)
Lemma script_ctx_is_runts now eps D t0 : script_ctx_deadline now eps D t0 = ctx_deadline now eps D.
Proof. reflexivity. Qed.

(* a command started before the context expires is, for waitOrStop, exactly the command of the RunT
   call: every statement about fg_params (interrupt two grace periods before the deadline, kill one
   grace period later, return times, verdicts) holds for it whenever its script started *)
Lemma late_script_same_params now eps D t0 e i :
  t0 <= ctx_deadline now eps D -> fg_params_at now eps D t0 e i = fg_params now eps D e i.
Proof.
  intro H. unfold fg_params_at, fg_params_at_gen, started_at, fg_params. cbn. now rewrite Z.max_r.
Qed.

Lemma late_script_interrupt_time sigma now eps D t0 i o :
  bounded sigma o -> t0 <= ctx_deadline now eps D ->
  exists ti, t_int (wos (fg_params_at now eps D t0 None i) o) = Some ti /\ int_ok (wos (fg_params_at now eps D t0 None i) o) = true /\
             D + eps - grace_reserve * grace (D - now) <= ti <= D + eps - grace_reserve * grace (D - now) + 2 * sigma.
Proof. intros B H. rewrite (late_script_same_params _ _ _ _ _ _ H). now apply runt_interrupt_time. Qed.

(* for a command started after the context has expired, waitOrStop's context is done from the start *)
Lemma started_late_ctx now eps D t0 e i :
  ctx_deadline now eps D <= t0 -> tC (fg_params_at now eps D t0 e i) = Some t0.
Proof. intro H. cbn. now rewrite Z.max_l. Qed.

(* it is interrupted as soon as it runs (two slacks), and killed one grace period after that if it
   ignores the interrupt *)
Lemma started_after_expiry sigma now eps D t0 i o :
  bounded sigma o -> ctx_deadline now eps D <= t0 ->
  exists ti, t_int (wos (fg_params_at now eps D t0 None i) o) = Some ti /\ int_ok (wos (fg_params_at now eps D t0 None i) o) = true /\
             t0 <= ti <= t0 + 2 * sigma.
Proof.
  intros B H. exact (blocked_interrupted sigma (fg_params_at now eps D t0 None i) o t0 B eq_refl (started_late_ctx _ _ _ _ _ _ H)).
Qed.

Lemma started_after_expiry_kill sigma now eps D t0 o :
  bounded sigma o -> ctx_deadline now eps D <= t0 ->
  exists tk, t_kill (wos (fg_params_at now eps D t0 None None) o) = Some tk /\
             t0 + grace (D - now) <= tk <= t0 + grace (D - now) + 5 * sigma.
Proof.
  intros B H.
  destruct (kill_escalation sigma (fg_params_at now eps D t0 None None) o t0 B eq_refl eq_refl
              (started_late_ctx _ _ _ _ _ _ H) (fg_kill_delay_pos _))
    as (tk & T & L & _).
  now exists tk.
Qed.

(* With a context per subtest, counted from the start of the subtest, it is false: a script that
   starts late and blocks is interrupted later than two grace periods before the deadline - here after
   the deadline itself. *)
Lemma context_per_subtest_refuted :
  exists now eps D t0 o,
    now <= t0 /\ t0 <= ctx_deadline now eps D /\ bounded 0 o /\
    exists ti, t_int (wos (fg_params_at_gen false now eps D t0 None None) o) = Some ti /\ D < ti.
Proof.
  exists 0, 0, 1000000000, 400000000,
    {| dw := 0; dc := 0; ds := 0; da := 0; dt := 0; dk := 0; dr := 0; tie1 := true; tie2 := true; tie3 := true |}.
  split; [lia|]. split; [vm_compute; discriminate|]. split; [unfold bounded; cbn; lia|].
  eexists. split; [vm_compute; reflexivity | reflexivity].
Qed.

Example late_script_example :
  (* RunT at 0, deadline 1.5 s away (grace 100 ms, context expires at 1.3 s): a command started at 0.4 s
     and one started at 1.35 s, both ignoring the interrupt, all delays 10 ms *)
  let o := {| dw := 10000000; dc := 10000000; ds := 10000000; da := 10000000; dt := 10000000; dk := 10000000; dr := 10000000; tie1 := true; tie2 := true; tie3 := true |} in
  (t_int (wos (fg_params_at 0 0 1500000000 400000000 None None) o), t_kill (wos (fg_params_at 0 0 1500000000 400000000 None None) o))
  = (Some 1320000000, Some 1450000000)
  /\ (t_int (wos (fg_params_at 0 0 1500000000 1350000000 None None) o), t_kill (wos (fg_params_at 0 0 1500000000 1350000000 None None) o))
  = (Some 1370000000, Some 1500000000).
Proof. vm_compute. split; reflexivity. Qed.
