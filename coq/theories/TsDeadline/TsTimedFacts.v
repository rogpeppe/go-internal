(* C17 — lemmas about the timed automaton of TsTimed.v: what a discrete step does, that no obligation
   is ever overdue, and the time windows of the helper goroutine, in every timed run (every
   interleaving, every timing within the slack). *)
From Coq Require Import List Bool ZArith Lia.
From GI Require Import Lib.Bytes Gen.TsBatchConsts TsDeadline.TsDeadline TsDeadline.TsDeadlineFacts TsDeadline.TsTimed.
Import ListNotations.
Local Open Scope Z_scope.

Inductive treach (par : tpar) : tstate -> Prop :=
  | tr_init : treach par tinit
  | tr_step : forall m s s', treach par s -> tstep par m s = Some s' -> treach par s'.

(* the control part of a timed run is a run of the interleaving system: everything proved about all
   interleavings holds for all timed runs *)
Lemma treach_untimed par s : treach par s -> reachable (pu par) (us s).
Proof.
  induction 1 as [|m s s' R IH E]; [apply r_init|].
  destruct m as [l|d]; cbn [tstep] in E.
  - unfold tdisc in E. destruct (time_guard par l s); [|discriminate].
    destruct (ustep (pu par) l (us s)) as [u'|] eqn:Eu; [|discriminate]. injection E as <-.
    assert (X : us (stamp l s u') = u') by (destruct l; reflexivity). rewrite X. eapply r_step; eauto.
  - destruct (can_delay par s d); [|discriminate]. injection E as <-. exact IH.
Qed.

Lemma treach_control par s : treach par s -> control (pu par) (us s).
Proof. intro R. now apply reachable_control, treach_untimed. Qed.

Definition time_of (o : option Z) : Z := match o with Some x => x | None => 0 end.

Lemma time_of_some o : o <> None -> o = Some (time_of o).
Proof. destruct o; [reflexivity | congruence]. Qed.

(* what wf_tpar says, clause by clause *)
Lemma wf_psig tp : wf_tpar tp -> 0 <= psig tp.
Proof. intro W. apply W. Qed.
Lemma wf_pC tp : wf_tpar tp -> 0 <= pC tp.
Proof. intro W. apply W. Qed.
Lemma wf_pE tp : wf_tpar tp -> 0 <= pE tp.
Proof. intro W. apply W. Qed.
Lemma wf_pD tp : wf_tpar tp -> 0 <= pD tp.
Proof. intro W. apply W. Qed.
Lemma wf_pK tp : wf_tpar tp -> kd_pos (pu tp) = true -> 0 < pK tp.
Proof. intro W. apply W. Qed.

(* what a discrete step does: [dstep tp s l u'] gives, for each way the label l can be taken in
   s, what it requires of the control state and of the clock, and the new control state u'; the new
   times are [stamp l s u'].  Of the flags, a step only ever raises some. *)
Definition raise_flags (u : ustate) (cx ir kl se : bool) : ustate :=
  {| uw := uw u; uh := uh u; upr := upr u; uctx := cx || uctx u; utm := utm u; uintr := ir || uintr u;
     ukil := kl || ukil u; usigerr := se || usigerr u; usent := usent u; urecv := urecv u |}.

(* the value the waiter takes from errc *)
Definition rdv_value (u : ustate) : wpc :=
  match uh u with
  | HSel1 | HSendNil => WDoneWait
  | HSendErr => if usigerr u then WDoneSig else WDoneCtx
  | _ => WDoneCtx
  end.

Lemma rdv_value_done u : w_done (rdv_value u) = true.
Proof. unfold rdv_value. destruct (uh u), (usigerr u); reflexivity. Qed.

Inductive dstep (tp : tpar) (s : tstate) : ulabel -> ustate -> Prop :=
  | d_ctx (Eflag : has_ctx (pu tp) = true) (Ec : uctx (us s) = false) (Eg : pC tp <= now s) :
      dstep tp s LCtxFire (raise_flags (us s) true false false false)
  | d_self (Ep : upr (us s) = PRun) (Eflag : self_exit (pu tp) = true) (Eg : pE tp <= now s) :
      dstep tp s LSelfExit (set_pr (us s) PZombie)
  | d_int (Ep : upr (us s) = PRun) (Ei : uintr (us s) = true) (Eflag : int_exit (pu tp) = true)
          (Ea : at_sig s <> None) (Eg : time_of (at_sig s) + pD tp <= now s) :
      dstep tp s LIntExit (set_pr (us s) PZombie)
  | d_killed (Ep : upr (us s) = PRun) (Ek : ukil (us s) = true)
             (Ea : at_kill s <> None) (Eg : time_of (at_kill s) <= now s) :
      dstep tp s LKillExit (set_pr (us s) PZombie)
  | d_fire (Et : utm (us s) = TArmed) (Ea : at_arm s <> None) (Eg : time_of (at_arm s) + pK tp <= now s) :
      dstep tp s LTimerFire (set_tm (us s) TFired)
  | d_wait (Ew : uw (us s) = WWait) (Ep : upr (us s) = PZombie) :
      dstep tp s LWaitRet (set_pr (set_w (us s) WRecv) PReaped)
  | d_rdv (Ew : uw (us s) = WRecv) (Er : send_ready (uh (us s)) = true) :
      dstep tp s LRendezvous
        {| uw := rdv_value (us s); uh := HDone; upr := upr (us s); uctx := uctx (us s); utm := utm (us s);
           uintr := uintr (us s); ukil := ukil (us s); usigerr := usigerr (us s);
           usent := S (usent (us s)); urecv := S (urecv (us s)) |}
  | d_selctx (Eh : uh (us s) = HSel1) (Ec : uctx (us s) = true) : dstep tp s LSelCtx (set_h (us s) HSig)
  | d_sig_gone (Eh : uh (us s) = HSig) (Ep : upr (us s) = PReaped) : dstep tp s LSignal (set_h (us s) HSendNil)
  | d_sig_err (Eh : uh (us s) = HSig) (Ep : upr (us s) <> PReaped) (Eflag : sig_fails (pu tp) = true) :
      dstep tp s LSignal (set_h (raise_flags (us s) false false false true) HAfterSig)
  | d_sig_ok (Eh : uh (us s) = HSig) (Ep : upr (us s) <> PReaped) (Eflag : sig_fails (pu tp) = false) :
      dstep tp s LSignal (set_h (raise_flags (us s) false true false false) HAfterSig)
  | d_arm (Eh : uh (us s) = HAfterSig) (Eflag : kd_pos (pu tp) = true) :
      dstep tp s LArm (set_tm (set_h (us s) HSel2) TArmed)
  | d_noarm (Eh : uh (us s) = HAfterSig) (Eflag : kd_pos (pu tp) = false) : dstep tp s LArm (set_h (us s) HSendErr)
  | d_seltimer (Eh : uh (us s) = HSel2) (Et : utm (us s) = TFired) : dstep tp s LSelTimer (set_h (us s) HKill)
  | d_kill (Eh : uh (us s) = HKill) : dstep tp s LKill (set_h (raise_flags (us s) false false true false) HSendErr).

Lemma tdisc_dstep par l s s' : tdisc par l s = Some s' -> exists u', dstep par s l u' /\ s' = stamp l s u'.
Proof.
  unfold tdisc. destruct (time_guard par l s) eqn:Eg; [|discriminate].
  destruct (ustep (pu par) l (us s)) as [u'|] eqn:Eu; [|discriminate]. intros [= <-].
  exists u'. split; [|reflexivity].
  (* with the state taken apart, ustep computes and each constructor applies as it stands *)
  destruct s as [[w h pr cx tm ir kl se sn rc] n th tc te tw ts ta tf tk tr].
  destruct l; cbn in Eg, Eu;
    repeat match type of Eu with context [match ?x with _ => _ end] => destruct x eqn:? end;
    try discriminate; injection Eu as <-;
    repeat match goal with
           | H : _ && _ = true |- _ => apply andb_prop in H as [? ?]
           | H : negb ?b = true |- _ => destruct b; [discriminate|]
           | H : is_prun ?x = true |- _ => destruct x; try discriminate
           end;
    try (destruct ts; [|discriminate]); try (destruct tk; [|discriminate]); try (destruct ta; [|discriminate]);
    try apply Z.leb_le in Eg;
    constructor; cbn; (assumption || discriminate || reflexivity).
Qed.

(* no obligation is overdue: what holds of the clock in every state of a timed run, one bound for
   each kind of pending obligation *)
Record punctual (tp : tpar) (s : tstate) : Prop := {
  pt_ctx : has_ctx (pu tp) = true -> uctx (us s) = false -> now s <= pC tp + psig tp;
  pt_self : self_exit (pu tp) = true -> upr (us s) = PRun -> now s <= pE tp + psig tp;
  pt_int : int_exit (pu tp) = true -> upr (us s) = PRun -> uintr (us s) = true -> at_sig s <> None ->
           now s <= time_of (at_sig s) + pD tp + psig tp;
  pt_killed : upr (us s) = PRun -> ukil (us s) = true -> at_kill s <> None -> now s <= time_of (at_kill s) + psig tp;
  pt_timer : utm (us s) = TArmed -> at_arm s <> None -> now s <= time_of (at_arm s) + pK tp + psig tp;
  pt_wait : uw (us s) = WWait -> upr (us s) = PZombie -> at_exit s <> None -> now s <= time_of (at_exit s) + psig tp;
  pt_helper : uh (us s) = HSig \/ uh (us s) = HAfterSig \/ uh (us s) = HKill -> now s <= at_h s + psig tp;
  pt_sel1 : uh (us s) = HSel1 -> uctx (us s) = true -> at_ctx s <> None -> now s <= time_of (at_ctx s) + psig tp;
  pt_sel2 : uh (us s) = HSel2 -> utm (us s) = TFired -> at_fire s <> None -> now s <= time_of (at_fire s) + psig tp;
  pt_rdv : uw (us s) = WRecv -> send_ready (uh (us s)) = true -> at_wrecv s <> None ->
           now s <= Z.max (time_of (at_wrecv s)) (at_h s) + psig tp
}.

Lemma forallb_leb_head a b l : forallb (fun dl => a <=? dl) (b :: l) = true -> a <= b.
Proof. intro H. apply andb_true_iff in H as [H _]. now apply Z.leb_le. Qed.

Lemma obligations_punctual par s : forallb (fun dl => now s <=? dl) (obligations par s) = true -> punctual par s.
Proof.
  unfold obligations. cbv zeta. rewrite !forallb_app. intro H.
  apply andb_prop in H as [O1 H]; apply andb_prop in H as [O2 H]; apply andb_prop in H as [O3 H];
  apply andb_prop in H as [O4 H]; apply andb_prop in H as [O5 H]; apply andb_prop in H as [O6 H];
  apply andb_prop in H as [O7 H]; apply andb_prop in H as [O8 H]; apply andb_prop in H as [O9 O10].
  constructor.
  - intros Eflag Ec. rewrite Eflag, Ec in O1. exact (forallb_leb_head _ _ _ O1).
  - intros Eflag Ep. rewrite Eflag, Ep in O2. exact (forallb_leb_head _ _ _ O2).
  - intros Eflag Ep Ei Ea. rewrite Eflag, Ep, Ei, (time_of_some _ Ea) in O3. exact (forallb_leb_head _ _ _ O3).
  - intros Ep Ek Ea. rewrite Ep, Ek, (time_of_some _ Ea) in O4. exact (forallb_leb_head _ _ _ O4).
  - intros Et Ea. rewrite Et, (time_of_some _ Ea) in O5. exact (forallb_leb_head _ _ _ O5).
  - intros Ew Ep Ea. rewrite Ew, Ep, (time_of_some _ Ea) in O6. exact (forallb_leb_head _ _ _ O6).
  - intros [Eh|[Eh|Eh]]; rewrite Eh in O7; exact (forallb_leb_head _ _ _ O7).
  - intros Eh Ec Ea. rewrite Eh, Ec, (time_of_some _ Ea) in O8. exact (forallb_leb_head _ _ _ O8).
  - intros Eh Et Ea. rewrite Eh, Et, (time_of_some _ Ea) in O9. exact (forallb_leb_head _ _ _ O9).
  - intros Ew Er Ea. rewrite Ew, Er, (time_of_some _ Ea) in O10. exact (forallb_leb_head _ _ _ O10).
Qed.

(* simplifies the projections of a state after a discrete step or a delay *)
Ltac tcbn :=
  cbn [stamp advance raise_flags set_w set_h set_pr set_tm is_after_sig is_armed orb time_of
       us now at_h at_ctx at_exit at_wrecv at_sig at_arm at_fire at_kill at_ret
       uw uh upr uctx utm uintr ukil usigerr].

Lemma punctual_reach par s : wf_tpar par -> treach par s -> punctual par s.
Proof.
  intros W R. pose proof (wf_psig _ W) as Wsig. pose proof (wf_pD _ W) as WD.
  induction R as [|m s s' R IH E]; [|destruct m as [l|d]; cbn [tstep] in E].
  - pose proof (wf_pC _ W). pose proof (wf_pE _ W). constructor; cbn; intuition (discriminate || lia).
  - (* a step leaves an obligation as it was, or discharges it, or creates it with the clock as its start *)
    destruct (tdisc_dstep _ _ _ _ E) as (u' & D & ->).
    destruct IH as [Pctx Pself Pint Pkilled Ptimer Pwait Ph Psel1 Psel2 Prdv].
    destruct D; constructor; tcbn; cbn [send_ready]; try assumption; try (intros; discriminate); try (intros; lia).
    + (* d_rdv, pt_wait *)
      intro E'. pose proof (rdv_value_done (us s)) as X. rewrite E' in X. discriminate.
    + (* d_arm, pt_timer *)
      intros _ _. pose proof (wf_pK _ W Eflag). lia.
    + (* d_noarm, pt_timer *)
      intro E'. rewrite (c_after _ _ (treach_control par s R) Eh) in E'. discriminate.
  - destruct (can_delay par s d) eqn:Ed; [|discriminate]. injection E as <-.
    apply andb_prop in Ed as [_ Ed]. exact (obligations_punctual par (advance s d) Ed).
Qed.

(* an invariant of the timed runs is shown on the initial state, the discrete steps (where the clock is
   within every pending bound) and the delays *)
Lemma treach_inv par (P : tstate -> Prop) :
  wf_tpar par -> P tinit ->
  (forall s l u', treach par s -> punctual par s -> P s -> dstep par s l u' -> P (stamp l s u')) ->
  (forall s d, P s -> 0 <= d -> P (advance s d)) ->
  forall s, treach par s -> P s.
Proof.
  intros W Hinit Hd Ha s R. induction R as [|m s s' R IH E]; [exact Hinit|]. destruct m as [l|d]; cbn [tstep] in E.
  - destruct (tdisc_dstep _ _ _ _ E) as (u' & D & ->). auto using punctual_reach.
  - destruct (can_delay par s d) eqn:Ed; [|discriminate]. injection E as <-.
    apply andb_prop in Ed as [Ed _]. apply Z.leb_le in Ed. auto.
Qed.

(* the helper's side: each location is entered, and each signal sent, within a window that
   starts when the context expires *)
Record helper_windows (par : tpar) (s : tstate) : Prop := {
  i_now : 0 <= now s /\ at_h s <= now s;
  i_ctx0 : uctx (us s) = false -> at_ctx s = None;
  i_ctx1 : uctx (us s) = true -> at_ctx s <> None /\ pC par <= time_of (at_ctx s) <= pC par + psig par /\ time_of (at_ctx s) <= now s;
  i_sig : uh (us s) = HSig -> pC par <= at_h s <= pC par + 2 * psig par;
  i_tsig : at_sig s <> None -> pC par <= time_of (at_sig s) <= pC par + 3 * psig par;
  i_after : uh (us s) = HAfterSig -> pC par <= at_h s <= pC par + 3 * psig par;
  i_tarm : at_arm s <> None -> pC par <= time_of (at_arm s) <= pC par + 4 * psig par /\ 0 < pK par;
  i_tm0 : utm (us s) = TNone -> at_arm s = None /\ at_fire s = None;
  i_tm1 : utm (us s) = TArmed -> at_arm s <> None /\ at_fire s = None;
  i_tm2 : utm (us s) = TFired -> at_arm s <> None /\ at_fire s <> None /\
          pC par + pK par <= time_of (at_fire s) <= pC par + pK par + 5 * psig par /\ time_of (at_fire s) <= now s;
  i_sel2 : uh (us s) = HSel2 -> utm (us s) <> TNone;
  i_hkill : uh (us s) = HKill -> utm (us s) = TFired /\ pC par + pK par <= at_h s <= pC par + pK par + 6 * psig par;
  i_tkill : at_kill s <> None -> pC par + pK par <= time_of (at_kill s) <= pC par + pK par + 7 * psig par
}.

Lemma helper_windows_reach par s : wf_tpar par -> treach par s -> helper_windows par s.
Proof.
  intro W. pose proof (wf_psig _ W) as Wsig. revert s. apply treach_inv; [exact W | | |].
  - constructor; cbn; intros; (discriminate || congruence || (repeat split; (reflexivity || lia))).
  - intros s l u' R [Pctx _ _ _ Ptimer _ Ph Psel1 Psel2 _]
           [Inow I0 I1 Isig Itsig Iafter Itarm Itm0 Itm1 Itm2 Isel2 Ihk Itk] D.
    pose proof (c_after _ _ (treach_control par s R)) as Cafter.
    (* a clause speaks of one location of the helper or of one time; a step leaves all but a few
       untouched, or makes their premise false.  At HAfterSig the timer is not armed yet. *)
    destruct D; constructor; tcbn; try (rewrite (Cafter Eh) in *; cbn [is_armed]);
      try assumption; try (intro; discriminate); try lia;
      (* d_sig_err, d_sig_ok: i_tsig and i_after, within a slack of entering HSig *)
      try (intros _; specialize (Isig Eh); specialize (Ph (or_introl Eh)); lia).
    + (* d_ctx, i_ctx1: not before its deadline and within a slack of it *)
      intros _. specialize (Pctx Eflag Ec). split; [discriminate | lia].
    + (* d_fire, i_tm2 *)
      intros _. destruct (Itm1 Et) as (A & _). destruct (Itarm A). specialize (Ptimer Et A).
      repeat split; (assumption || discriminate || lia).
    + (* d_fire, i_hkill *)
      intro E. destruct (Ihk E) as [A _]. congruence.
    + (* d_selctx, i_sig *)
      intros _. destruct (I1 Ec) as (A & B & C). specialize (Psel1 Eh Ec A). lia.
    + (* d_arm, i_tarm *)
      intros _. specialize (Iafter Eh). specialize (Ph (or_intror (or_introl Eh))). pose proof (wf_pK _ W Eflag). lia.
    + (* d_arm, i_tm1 *)
      intros _. destruct (Itm0 eq_refl) as [_ F]. split; [discriminate | exact F].
    + (* d_seltimer, i_hkill *)
      intros _. destruct (Itm2 Et) as (_ & F & ? & ?). specialize (Psel2 Eh Et F). split; [assumption | lia].
    + (* d_kill, i_tkill *)
      intros _. destruct (Ihk Eh) as (_ & ?). specialize (Ph (or_intror (or_intror Eh))). lia.
  - intros s d [Inow I0 I1 Isig Itsig Iafter Itarm Itm0 Itm1 Itm2 Isel2 Ihk Itk] D0. constructor; tcbn; try assumption.
    + lia.
    + intro E. destruct (I1 E) as (A & B & C). repeat split; (assumption || lia).
    + intro E. destruct (Itm2 E) as (A & B & C & D). repeat split; (assumption || lia).
Qed.
