(* C04 — facts about the batch model TsBatch.v.  The thread: what one line, or one stage of the end of
   run(), does to a script's log, deferred functions and background commands ([line_effect]); an
   invariant of a script that every step keeps, whatever the others do ([sinv]); the shared execCache
   against the cache each script would have had alone ([Rel], [Sim]). *)
From Coq Require Import List Bool Arith NArith Lia.
From Coq.Strings Require Import Byte.
From GI Require Import Lib.Bytes Lib.BytesFacts Gen.TsBatchConsts TsBatch.TsBatch.
Import ListNotations.

Lemma path_eqb_spec a b : reflect (a = b) (path_eqb a b).
Proof.
  revert b. induction a as [|x a IH]; intros [|y b]; cbn [path_eqb]; try (constructor; congruence).
  destruct (bytes_eqb_spec x y), (IH b); constructor; congruence.
Qed.

Lemma path_eqb_eq a b : path_eqb a b = true <-> a = b.
Proof. destruct (path_eqb_spec a b); split; congruence. Qed.

Lemma path_eqb_refl a : path_eqb a a = true.
Proof. now apply path_eqb_eq. Qed.

Lemma path_eqb_neq a b : path_eqb a b = false <-> a <> b.
Proof. destruct (path_eqb_spec a b); split; congruence. Qed.

Lemma path_eqb_sym a b : path_eqb a b = path_eqb b a.
Proof. destruct (path_eqb_spec a b), (path_eqb_spec b a); congruence. Qed.

Lemma opt_bytes_eqb_spec a b : reflect (a = b) (opt_bytes_eqb a b).
Proof.
  destruct a as [x|], b as [y|]; cbn; try (constructor; congruence).
  destruct (bytes_eqb_spec x y); constructor; congruence.
Qed.

Lemma value_eqb_spec a b : reflect (a = b) (value_eqb a b).
Proof.
  destruct a as [x|o p|o p r], b as [y|o' p'|o' p' r']; cbn [value_eqb]; try (constructor; congruence).
  - destruct (bytes_eqb_spec x y); constructor; congruence.
  - destruct (Nat.eqb_spec o o'), (path_eqb_spec p p'); constructor; congruence.
  - destruct (Nat.eqb_spec o o'), (path_eqb_spec p p'), (opt_bytes_eqb_spec r r'); constructor; congruence.
Qed.

Lemma ckey_eqb_spec a b : reflect (a = b) (ckey_eqb a b).
Proof.
  destruct a as [[x|] n], b as [[y|] m]; unfold ckey_eqb; cbn [fst snd];
    try destruct (value_eqb_spec x y); destruct (bytes_eqb_spec n m); constructor; congruence.
Qed.

Lemma ckey_eqb_refl k : ckey_eqb k k = true.
Proof. now destruct (ckey_eqb_spec k k). Qed.

Lemma cache_get_cons k v c k2 :
  cache_get ((k, v) :: c) k2 = if ckey_eqb k k2 then Some v else cache_get c k2.
Proof. reflexivity. Qed.

Lemma resolve_all_names h s l : map fst (resolve_all h s l) = map fst l.
Proof. unfold resolve_all. rewrite map_map. reflexivity. Qed.

Definition passthrough_present (h : host) : list name :=
  filter (fun n => match host_get h n with [] => false | _ => true end) passthrough_names.

Lemma passthrough_names_of h : map fst (passthrough h) = passthrough_present h.
Proof.
  unfold passthrough, passthrough_present. induction passthrough_names as [|n l IH]; [reflexivity|].
  cbn [flat_map filter]. destruct (host_get h n); cbn; [exact IH | now rewrite IH].
Qed.

(* the names of Env.Vars as setup() builds it: the documented ones, the pass-through ones that are
   set in the host, the tail *)
Definition documented_names (h : host) : list name :=
  map fst setup_env_head ++ passthrough_present h ++ map fst setup_env_tail.

Lemma base_env_names h s : map fst (base_env h s) = documented_names h.
Proof.
  unfold base_env, documented_names. rewrite !map_app, !resolve_all_names, passthrough_names_of. reflexivity.
Qed.

(* Env.Vars depends on the host environment only through the variables setup() reads: the sources of
   the Vars literal and the pass-through list *)
Lemma resolve_all_indep h h' s l :
  (forall n, In n (src_host_names l) -> host_get h n = host_get h' n) ->
  resolve_all h s l = resolve_all h' s l.
Proof.
  intro H. apply map_ext_in. intros [n src] Hin. cbn [fst snd]. f_equal.
  destruct src as [| |m|v]; cbn [resolve]; try reflexivity. rewrite (H m); [reflexivity|].
  apply in_flat_map. exists (n, SrcHost m). split; [exact Hin | now left].
Qed.

Lemma passthrough_indep h h' :
  (forall n, In n passthrough_names -> host_get h n = host_get h' n) -> passthrough h = passthrough h'.
Proof.
  unfold passthrough. induction passthrough_names as [|n l IH]; intro H; [reflexivity|].
  cbn [flat_map]. rewrite (H n) by now left. f_equal. apply IH. intros m Hm. apply H. now right.
Qed.

Lemma base_env_indep h h' s :
  (forall n, In n host_reads -> host_get h n = host_get h' n) -> base_env h s = base_env h' s.
Proof.
  intro H. unfold base_env, host_reads in *.
  rewrite (resolve_all_indep h h' s setup_env_head), (passthrough_indep h h'),
    (resolve_all_indep h h' s setup_env_tail); [reflexivity| | |];
    intros n Hn; apply H; rewrite !in_app_iff; auto.
Qed.

Lemma host_get_cons_unread h k v n : ~ In k host_reads -> In n host_reads -> host_get ((k, v) :: h) n = host_get h n.
Proof.
  intros Hk Hn. cbn [host_get]. now destruct (bytes_eqb_spec k n) as [->|_].
Qed.

Lemma initial_env_base h s adds : initial_env h s adds = base_env h s ++ adds.
Proof. unfold initial_env, base_env. now rewrite <- !app_assoc. Qed.

Lemma setup_env_none h s adds : setup_env h s None adds = initial_env h s adds.
Proof. symmetry. apply initial_env_base. Qed.

Lemma initial_env_names h s adds : map fst (initial_env h s adds) = documented_names h ++ map fst adds.
Proof. now rewrite initial_env_base, map_app, base_env_names. Qed.

Lemma initial_env_indep h h' s adds :
  (forall n, In n host_reads -> host_get h n = host_get h' n) ->
  initial_env h s adds = initial_env h' s adds.
Proof. intro H. now rewrite !initial_env_base, (base_env_indep h h' s H). Qed.

Lemma initial_env_ignores_other_var h s adds k v :
  ~ In k host_reads -> initial_env ((k, v) :: h) s adds = initial_env h s adds.
Proof. intro Hk. apply initial_env_indep. intro n. now apply host_get_cons_unread. Qed.

Lemma setup_env_indep h h' s keep adds :
  (forall n, In n host_reads -> host_get h n = host_get h' n) ->
  setup_env h s keep adds = setup_env h' s keep adds.
Proof. intro H. unfold setup_env. now rewrite (base_env_indep h h' s H). Qed.

Lemma keep_env_names_incl keep e k : In k (map fst (keep_env keep e)) -> In k (map fst e).
Proof.
  destruct keep as [l|]; [|exact (fun H => H)]. unfold keep_env. intro H.
  apply in_map_iff in H as (kv & <- & Hin). apply filter_In in Hin as [Hin _]. now apply in_map.
Qed.

Lemma keep_env_names_kept l e k : In k (map fst (keep_env (Some l) e)) -> name_in l k = true.
Proof.
  unfold keep_env. intro H. apply in_map_iff in H as (kv & <- & Hin). now apply filter_In in Hin as [_ Hin].
Qed.

Lemma setup_env_names h s keep adds k :
  In k (map fst (setup_env h s keep adds)) ->
  (In k (documented_names h) /\ match keep with Some l => name_in l k = true | None => True end)
  \/ In k (map fst adds).
Proof.
  unfold setup_env. rewrite map_app, in_app_iff. intros [H|H]; [left|now right]. split.
  - rewrite <- (base_env_names h s). now apply keep_env_names_incl in H.
  - destruct keep as [l|]; [now apply keep_env_names_kept in H | exact I].
Qed.

Lemma setup_env_keep_nothing h s adds : setup_env h s (Some []) adds = adds.
Proof. unfold setup_env, keep_env. now rewrite filter_none. Qed.

(* tree_get and gget (the table of TsCleanup.v) have, word for word, the body of [pget] at their type of
   node, so they are convertible to it: a fact about [pget] is used for them by [exact]. *)
Section Lookup.
  Context {A : Type}.

  Fixpoint pget (t : list (path * A)) (p : path) : option A :=
    match t with
    | [] => None
    | (q, n) :: r => if path_eqb q p then Some n else pget r p
    end.

  (* every filter of the two models selects by path *)
  Lemma pget_filter (f : path -> bool) t p :
    pget (filter (fun e => f (fst e)) t) p = if f p then pget t p else None.
  Proof.
    induction t as [|[q n] t IH]; cbn [filter fst]; [now destruct (f p)|].
    destruct (path_eqb_spec q p) as [->|N].
    - destruct (f p) eqn:F; cbn [pget]; now rewrite ?path_eqb_refl, ?IH, ?F.
    - apply path_eqb_neq in N. destruct (f q); cbn [pget]; now rewrite ?N, IH.
  Qed.
End Lookup.

Lemma tree_get_filter (f : path -> bool) t p :
  tree_get (filter (fun e => f (fst e)) t) p = if f p then tree_get t p else None.
Proof. exact (pget_filter f t p). Qed.

(* remove, `rm` and what it leaves below all filter out the paths that satisfy some test *)
Lemma tree_get_filter_not (f : path -> bool) t p :
  tree_get (filter (fun e => negb (f (fst e))) t) p = if f p then None else tree_get t p.
Proof. rewrite (tree_get_filter (fun r => negb (f r))). now destruct (f p). Qed.

Lemma tree_get_remove t p q :
  tree_get (tree_remove t p) q = if path_eqb p q then None else tree_get t q.
Proof. rewrite path_eqb_sym. exact (tree_get_filter_not (fun r => path_eqb r p) t q). Qed.

Lemma tree_get_set t p n q :
  tree_get (tree_set t p n) q = if path_eqb p q then Some n else tree_get t q.
Proof.
  unfold tree_set. cbn [tree_get]. destruct (path_eqb p q) eqn:E; [reflexivity|].
  rewrite tree_get_remove, E. reflexivity.
Qed.

Lemma chmod_all_get t p :
  tree_get (chmod_all t) p = match tree_get t p with Some (Dir _) => Some (Dir false) | o => o end.
Proof.
  unfold chmod_all. induction t as [|[q n] t IH]; [reflexivity|].
  cbn [map tree_get fst snd]. destruct (path_eqb q p); [now destruct n | exact IH].
Qed.

Lemma chmod_all_unremovable root t q : unremovable root (chmod_all t) q = false.
Proof.
  unfold unremovable, get_node. destruct (removelast q) as [|x r]; [reflexivity|].
  rewrite chmod_all_get. destruct (tree_get t (x :: r)) as [[ro|d xx|tg]|]; reflexivity.
Qed.

Lemma os_remove_all_nothing_stuck root u :
  (forall q, unremovable root u q = false) -> os_remove_all root u = [].
Proof.
  intro H. apply filter_none. intros e _. apply not_true_is_false. unfold stuck. rewrite existsb_exists.
  intros (x & _ & Hx). now rewrite H, andb_false_r in Hx.
Qed.

(* removeAll removes everything, whatever the permissions: after the WalkDir no directory is
   read-only, so nothing is stuck. *)
Lemma remove_all_empty root t : remove_all root t = [].
Proof. apply os_remove_all_nothing_stuck. apply chmod_all_unremovable. Qed.

(* without the chmod pass a read-only directory with content stays (when not root) *)
Example os_remove_all_needs_chmod :
  os_remove_all false [([[x61]], Dir true); ([[x61]; [x62]], File [] false)]
  = [([[x61]], Dir true); ([[x61]; [x62]], File [] false)].
Proof. reflexivity. Qed.

Lemma existsb_map_cons p y (L : list path) :
  existsb (path_eqb p) (map (cons y) L)
  = match p with [] => false | x :: p' => bytes_eqb x y && existsb (path_eqb p') L end.
Proof.
  induction L as [|a L IH]; cbn [map existsb]; [destruct p; now rewrite ?andb_false_r|].
  rewrite IH. destruct p as [|x p']; [reflexivity|]. cbn [path_eqb]. now destruct (bytes_eqb x y).
Qed.

Lemma existsb_prefixes p d : existsb (path_eqb p) (prefixes d) = negb (is_nil p) && path_prefix p d.
Proof.
  revert p. induction d as [|y r IH]; intro p; cbn [prefixes existsb]; [now destruct p|].
  rewrite existsb_map_cons. destruct p as [|x p']; [reflexivity|]. rewrite IH.
  cbn [path_eqb path_prefix is_nil negb andb]. destruct (bytes_eqb x y); [|reflexivity]. now destruct p'.
Qed.

Definition xbit (t : tree) (p : path) : bool :=
  match tree_get t p with Some (File _ x) => x | _ => false end.

Lemma mkdir_one_get root t q t1 :
  mkdir_one root t q = Some t1 ->
  forall p, tree_get t1 p = match tree_get t p with
                            | Some n => Some n
                            | None => if path_eqb p q then Some (Dir false) else None
                            end.
Proof.
  unfold mkdir_one. intros H p.
  destruct (tree_get t q) as [[ro|d x|tg]|] eqn:Eq; try discriminate.
  - injection H as <-. destruct (path_eqb_spec p q) as [->|_]; [now rewrite Eq | now destruct (tree_get t p)].
  - destruct (dir_writable root t (removelast q)); [|discriminate]. injection H as <-.
    rewrite tree_get_set, (path_eqb_sym q p).
    destruct (path_eqb_spec p q) as [->|_]; [now rewrite Eq | now destruct (tree_get t p)].
Qed.

Lemma mkdir_list_get root l : forall t t1,
  mkdir_list root t l = Some t1 ->
  forall p, tree_get t1 p = match tree_get t p with
                            | Some n => Some n
                            | None => if existsb (path_eqb p) l then Some (Dir false) else None
                            end.
Proof.
  induction l as [|q l IH]; intros t t1 H p; cbn [mkdir_list] in H.
  - injection H as <-. now destruct (tree_get t p).
  - destruct (mkdir_one root t q) as [t'|] eqn:E1; [|discriminate].
    rewrite (IH _ _ H p), (mkdir_one_get _ _ _ _ E1 p). cbn [existsb].
    destruct (tree_get t p); [reflexivity|]. now destruct (path_eqb p q).
Qed.

Lemma mkdir_all_get root t d t1 :
  mkdir_all root t d = Some t1 ->
  forall p, tree_get t1 p = match tree_get t p with
                            | Some n => Some n
                            | None => if negb (is_nil p) && path_prefix p d then Some (Dir false) else None
                            end.
Proof. intros H p. unfold mkdir_all in H. rewrite (mkdir_list_get _ _ _ _ H p), existsb_prefixes. reflexivity. Qed.

Lemma write_file_get root t q d t2 :
  write_file root t q d = Some t2 ->
  forall p, tree_get t2 p = if path_eqb q p then Some (File d (xbit t q)) else tree_get t p.
Proof.
  unfold write_file, xbit. intros H p. destruct q as [|s q']; [discriminate|].
  destruct (tree_get t (s :: q')) as [[ro|d' x|tg]|] eqn:Eq; [discriminate| |discriminate|].
  - injection H as <-. apply tree_get_set.
  - destruct (dir_writable root t (removelast (s :: q'))); [|discriminate]. injection H as <-. apply tree_get_set.
Qed.

Lemma mkdir_all_xbit root t d t1 : mkdir_all root t d = Some t1 -> forall p, xbit t1 p = xbit t p.
Proof.
  intros H p. unfold xbit. rewrite (mkdir_all_get _ _ _ _ H p). destruct (tree_get t p); [reflexivity|].
  now destruct (negb (is_nil p) && path_prefix p d).
Qed.

Lemma write_file_xbit root t q d t2 : write_file root t q d = Some t2 -> forall p, xbit t2 p = xbit t p.
Proof.
  intros H p. unfold xbit at 1. rewrite (write_file_get _ _ _ _ _ H p).
  now destruct (path_eqb_spec q p) as [->|_].
Qed.

Lemma unpack_get root files : forall t0 t,
  unpack root t0 files = Some t ->
  forall p, tree_get t p =
    match last_file files p with
    | Some d => Some (File d (xbit t0 p))
    | None => match tree_get t0 p with
              | Some n => Some n
              | None => if is_dir_of files p then Some (Dir false) else None
              end
    end.
Proof.
  induction files as [|[q d] r IH]; intros t0 t H p; cbn [unpack] in H.
  - injection H as <-. cbn [last_file]. unfold is_dir_of. cbn [existsb]. rewrite andb_false_r.
    now destruct (tree_get t0 p).
  - destruct (mkdir_all root t0 (removelast q)) as [t1|] eqn:E1; [|discriminate].
    destruct (write_file root t1 q d) as [t2|] eqn:E2; [|discriminate].
    rewrite (IH _ _ H p), (write_file_xbit _ _ _ _ _ E2), (mkdir_all_xbit _ _ _ _ E1). cbn [last_file].
    destruct (last_file r p) as [d'|]; [reflexivity|].
    rewrite (write_file_get _ _ _ _ _ E2 p). destruct (path_eqb_spec q p) as [->|_].
    + now rewrite (mkdir_all_xbit _ _ _ _ E1).
    + rewrite (mkdir_all_get _ _ _ _ E1 p). destruct (tree_get t0 p); [reflexivity|].
      unfold is_dir_of. cbn [existsb fst]. destruct (negb (is_nil p)); [|reflexivity].
      now destruct (path_prefix p (removelast q)).
Qed.

(* the tree a script starts with is exactly what the archive says, plus .tmp *)
Lemma setup_tree_exact root files t :
  setup_tree root files = Some t -> forall p, tree_get t p = expected_node files p.
Proof.
  unfold setup_tree, expected_node. intros H p. rewrite (unpack_get _ _ _ _ H p).
  unfold xbit, tmp_tree. cbn [tree_get]. rewrite (path_eqb_sym [tmp_dir_name] p).
  now destruct (last_file files p), (path_eqb p [tmp_dir_name]).
Qed.

(* a concrete archive: two files in one directory, one of them given twice *)
Example setup_tree_example :
  let a := [x61] in let b := [x62] in let c := [x63] in
  setup_tree false [([a; b], [x31]); ([c], [x32]); ([a; b], [x33])]
  = Some [([a; b], File [x33] false); ([c], File [x32] false); ([a], Dir false); ([tmp_dir_name], Dir false)].
Proof. reflexivity. Qed.

(* a file and a directory of the same name cannot both be unpacked: setup fails *)
Example setup_tree_conflict :
  setup_tree false [([[x61]], [x31]); ([[x61]; [x62]], [x32])] = None.
Proof. reflexivity. Qed.

Definition setup_events (l : list event) : list (env * tree * list path) :=
  flat_map (fun e => match e with EvSetup e t o => [(e, t, o)] | _ => [] end) l.
Definition work_removed (l : list event) : list unit :=
  flat_map (fun e => match e with EvWorkRemoved => [tt] | _ => [] end) l.

Lemma defer_regs_app a b : defer_regs (a ++ b) = defer_regs a ++ defer_regs b.
Proof. apply flat_map_app. Qed.
Lemma defer_runs_app a b : defer_runs (a ++ b) = defer_runs a ++ defer_runs b.
Proof. apply flat_map_app. Qed.
Lemma bg_started_app a b : bg_started (a ++ b) = bg_started a ++ bg_started b.
Proof. apply flat_map_app. Qed.
Lemma bg_gone_app a b : bg_gone (a ++ b) = bg_gone a ++ bg_gone b.
Proof. apply flat_map_app. Qed.
Lemma bg_waited_app a b : bg_waited (a ++ b) = bg_waited a ++ bg_waited b.
Proof. apply flat_map_app. Qed.
Lemma setup_events_app a b : setup_events (a ++ b) = setup_events a ++ setup_events b.
Proof. apply flat_map_app. Qed.
Lemma work_removed_app a b : work_removed (a ++ b) = work_removed a ++ work_removed b.
Proof. apply flat_map_app. Qed.

(* interrupts and waits: all that the lines and stages dealing with background commands append *)
Definition bg_event (e : event) : Prop := match e with EvInt _ | EvWaited _ => True | _ => False end.

Lemma bg_events_quiet l : Forall bg_event l ->
  defer_regs l = [] /\ defer_runs l = [] /\ bg_started l = [] /\ setup_events l = [] /\ work_removed l = [].
Proof.
  induction 1 as [|e l He _ IH]; [now repeat split|]. destruct e; try destruct He; exact IH.
Qed.

Lemma ev_int_all_bg b : Forall bg_event (ev_int_all b).
Proof. apply Forall_map, Forall_forall. now intros. Qed.

Lemma ev_wait_all_bg b : Forall bg_event (ev_wait_all b).
Proof. apply Forall_map, Forall_forall. now intros. Qed.

Lemma ev_int_all_gone b : bg_gone (ev_int_all b) = map fst b.
Proof. induction b as [|[h n] b IH]; [reflexivity|]. cbn. now f_equal. Qed.

Lemma ev_wait_all_waited b : bg_waited (ev_wait_all b) = map fst b.
Proof. induction b as [|[h n] b IH]; [reflexivity|]. cbn. now f_equal. Qed.

Lemma skip_wait_bg b evs ok :
  skip_wait b = (evs, ok) -> Forall bg_event evs /\ (ok = true -> bg_waited evs = map fst b).
Proof.
  revert evs ok. induction b as [|[h n] b IH]; intros evs ok H; cbn [skip_wait] in H.
  - injection H as <- <-. now split.
  - destruct n; [|injection H as <- <-; split; [now repeat constructor | discriminate]].
    destruct (skip_wait b) as [evs' ok']. injection H as <- <-. destruct (IH _ _ eq_refl) as [Q W].
    split; [now constructor|]. intro Hok. cbn. f_equal. exact (W Hok).
Qed.

Lemma wait_list_bg sig b : forall evs res,
  wait_list sig b = (evs, res) ->
  Forall bg_event evs /\
  (res = WOk -> bg_waited evs = map fst b /\ forall h, In h (map fst b) -> quick_fail h = true \/ sig h = true).
Proof.
  induction b as [|[h n] b IH]; intros evs res H; cbn [wait_list] in H.
  - injection H as <- <-. split; [constructor|]. intros _. split; [reflexivity | intros h []].
  - destruct (quick_fail h || sig h) eqn:Eq; [|injection H as <- <-; split; [constructor | discriminate]].
    destruct n; [|injection H as <- <-; split; [now repeat constructor | discriminate]].
    destruct (wait_list sig b) as [evs' res']. injection H as <- <-. destruct (IH _ _ eq_refl) as [Q W].
    split; [now constructor|]. intro Hr. destruct (W Hr) as [Ww Wq]. split; [cbn; now f_equal|].
    intros h' [<-|Hin]; [now apply orb_true_iff | now apply Wq].
Qed.

Lemma gone_of_started_quick l h : In h (bg_started l) -> quick_fail h = true -> In h (bg_gone l).
Proof.
  unfold bg_started, bg_gone. intros H Q. apply in_flat_map in H as (e & He & Hh). apply in_flat_map.
  exists e. split; [exact He|]. destruct e; cbn in Hh; try contradiction. destruct Hh as [<-|[]]. rewrite Q. now left.
Qed.

Lemma gone_of_signalled l h : signalled l h = true -> In h (bg_gone l).
Proof.
  unfold signalled, bg_interrupted_ev, bg_gone. intro H. apply existsb_exists in H as (x & Hx & E).
  apply Nat.eqb_eq in E. subst x. apply in_flat_map in Hx as (e & He & Hh). apply in_flat_map.
  exists e. split; [exact He|]. destruct e; cbn in Hh; try contradiction. exact Hh.
Qed.

(* What a line, or a stage of the end of run() other than the deferred functions and the removal of the
   work directory, does: it appends events [l], registers deferred functions, starts background
   commands, and drops background commands only once they are gone and waited for. *)
Record line_effect (ss ss' : sstate) (l : list event) : Prop := {
  le_obs : obs ss' = obs ss ++ l;
  le_wp : wpresent ss' = wpresent ss;
  le_runs : defer_runs l = [];
  le_setup : setup_events l = [];
  le_removed : work_removed l = [];
  le_dstack : map fst (dstack ss') = rev (defer_regs l) ++ map fst (dstack ss);
  le_bg_new : forall h, In h (bg_started l) -> In h (map fst (bgl ss'));
  le_bg_old : forall h, In h (map fst (bgl ss)) ->
                In h (map fst (bgl ss')) \/
                ((In h (bg_gone (obs ss ++ l)) \/ quick_fail h = true) /\ In h (bg_waited l))
}.
Arguments le_obs {ss ss' l}.
Arguments le_wp {ss ss' l}.
Arguments le_runs {ss ss' l}.
Arguments le_setup {ss ss' l}.
Arguments le_removed {ss ss' l}.
Arguments le_dstack {ss ss' l}.
Arguments le_bg_new {ss ss' l}.
Arguments le_bg_old {ss ss' l}.

Lemma line_effect_same ss ss' :
  obs ss' = obs ss -> wpresent ss' = wpresent ss -> dstack ss' = dstack ss -> bgl ss' = bgl ss ->
  line_effect ss ss' [].
Proof.
  intros Eo Ew Ed Eb. constructor; cbn; try reflexivity; try assumption; try tauto.
  - now rewrite app_nil_r.
  - now rewrite Ed.
  - intros h Hh. left. now rewrite Eb.
Qed.

Lemma line_effect_cond ss ss' prog ans l :
  line_effect (add_obs ss [EvCond prog ans]) ss' l -> line_effect ss ss' (EvCond prog ans :: l).
Proof.
  intros [Eo Ew Runs Setup Removed Dstack New Old]. cbn [add_obs obs wpresent dstack bgl] in *.
  constructor; cbn; try assumption.
  - now rewrite Eo, <- app_assoc.
  - intros h Hh. destruct (Old h Hh) as [?|[G W]]; [now left|]. right. split; [|exact W].
    rewrite <- app_assoc in G. exact G.
Qed.

Lemma line_effect_bg ss ss' l :
  Forall bg_event l -> obs ss' = obs ss ++ l -> wpresent ss' = wpresent ss -> dstack ss' = dstack ss ->
  (forall h, In h (map fst (bgl ss)) ->
     In h (map fst (bgl ss')) \/ ((In h (bg_gone (obs ss ++ l)) \/ quick_fail h = true) /\ In h (bg_waited l))) ->
  line_effect ss ss' l.
Proof.
  intros Q Eo Ew Ed Hb. destruct (bg_events_quiet l Q) as (Regs & Runs & Started & Setup & Removed).
  constructor; try assumption; [now rewrite Regs, Ed | rewrite Started; intros h []].
Qed.

(* every background command is interrupted (kill; the end of the loop) *)
Lemma int_effect ss : line_effect ss (add_obs ss (ev_int_all (bgl ss))) (ev_int_all (bgl ss)).
Proof. apply line_effect_bg; [apply ev_int_all_bg | reflexivity.. | now left]. Qed.

(* ... and then waited for (skip, kill + wait, the clean-up after the deferred functions) *)
Lemma int_wait_effect ss w :
  Forall bg_event w -> bg_waited w = map fst (bgl ss) ->
  line_effect ss (set_bgl (add_obs ss (ev_int_all (bgl ss) ++ w)) []) (ev_int_all (bgl ss) ++ w).
Proof.
  intros Q W. apply line_effect_bg; [apply Forall_app; split; [apply ev_int_all_bg | exact Q] | reflexivity..|].
  intros h Hh. right. rewrite !bg_gone_app, bg_waited_app, ev_int_all_gone, W, !in_app_iff. auto.
Qed.

Lemma kill_wait_effect ss waited ok :
  skip_wait (bgl ss) = (waited, ok) ->
  line_effect ss (let ss1 := add_obs ss (ev_int_all (bgl ss) ++ waited) in if ok then set_bgl ss1 [] else ss1)
              (ev_int_all (bgl ss) ++ waited).
Proof.
  intro E. destruct (skip_wait_bg _ _ _ E) as [Q W]. destruct ok; [apply int_wait_effect; auto|].
  apply line_effect_bg; [apply Forall_app; split; [apply ev_int_all_bg | exact Q] | reflexivity..| now left].
Qed.

(* case analysis on everything an equation [H] about a function of the model matches on *)
Ltac cases_of H := repeat match type of H with context [match ?x with _ => _ end] => destruct x end.

Lemma exec_action_effect cfg s a : forall c ss c' ss' o,
  exec_action cfg s c ss a = (c', ss', o) -> exists l, line_effect ss ss' l.
Proof.
  induction a as [p d|p ro|p|p|k v|sub keep|id bad|h neg| | | | | | | | |xneg xprog|lp ltg|rp|neg prog a IH| |]; intros c ss c' ss' o H;
    cbn [exec_action] in H.
  (* most lines leave the log, the deferred functions and the background commands alone *)
  all: try (cases_of H; injection H as <- <- <-; exists []; apply line_effect_same; reflexivity).
  (* skip, and kill + wait: the same interrupts and waits, with another outcome *)
  all: try (destruct (skip_wait (bgl ss)) as [waited ok] eqn:E; pose proof (kill_wait_effect _ _ _ E) as L;
            destruct ok; injection H as <- <- <-; exact (ex_intro _ _ L)).
  - (* Defer *)
    injection H as <- <- <-. exists [EvDeferReg id]. constructor; cbn; try reflexivity; tauto.
  - (* a background command *)
    destruct (bg_by_path h || look _ _ _ _ _); injection H as <- <- <-;
      [|exists []; now apply line_effect_same].
    exists [EvBgStart h]. constructor; cbn; try reflexivity; intros h' Hh; rewrite map_app, in_app_iff; [|now do 2 left].
    destruct Hh as [<-|[]]. right. now left.
  - (* a probe *)
    injection H as <- <- <-. exists [EvProbe (cwd ss) (child_env cfg s (cwd ss) (senv ss)) (tr ss)].
    constructor; cbn; try reflexivity; tauto.
  - (* kill *)
    injection H as <- <- <-. exact (ex_intro _ _ (int_effect ss)).
  - (* wait: a command waited for has exited by itself or has been signalled *)
    destruct (wait_list (signalled (obs ss)) (bgl ss)) as [waited res] eqn:E.
    destruct (wait_list_bg _ _ _ _ E) as [Q W]. exists waited.
    destruct res; injection H as <- <- <-; (apply line_effect_bg; [exact Q | reflexivity..|]);
      intros h Hh; [|now left..].
    destruct (W eq_refl) as [Ww Wq]. right. rewrite Ww. split; [|exact Hh].
    destruct (Wq h Hh) as [Qf|Sg]; [now right | left]. rewrite bg_gone_app, in_app_iff. left.
    now apply gone_of_signalled.
  - (* [exec:prog] a *)
    destruct (cached_look cfg s c ss prog) as [ans c1]. destruct (Bool.eqb ans (negb neg)).
    + destruct (IH _ _ _ _ _ H) as [l Hl]. exists (EvCond prog ans :: l). now apply line_effect_cond.
    + injection H as <- <- <-. exists [EvCond prog ans]. apply line_effect_cond. now apply line_effect_same.
Qed.

(* case analysis on everything the goal matches on *)
Ltac cases_of_goal := repeat match goal with |- context [match ?x with _ => _ end] => destruct x end.

(* only AWait produces OStuck, and has_wait finds it, also under [exec:...] guards *)
Lemma exec_action_not_stuck cfg s a : has_wait a = false -> forall c ss, snd (exec_action cfg s c ss a) <> OStuck.
Proof.
  induction a; intros Hw c ss; cbn [exec_action has_wait] in *; try discriminate; cases_of_goal; cbn [snd];
    try discriminate; auto.
Qed.

Definition bgok (ss : sstate) : Prop :=
  forall h, In h (bg_started (obs ss)) ->
    In h (map fst (bgl ss)) \/ (In h (bg_gone (obs ss)) /\ In h (bg_waited (obs ss))).

Definition defers_pending (ss : sstate) : Prop :=
  defer_runs (obs ss) = [] /\ map fst (dstack ss) = rev (defer_regs (obs ss)).
Definition defers_done (ss : sstate) : Prop :=
  defer_runs (obs ss) = rev (defer_regs (obs ss)) /\ dstack ss = [].

Definition setup_ok (cfg : config) (p : script) (s : nat) (ss : sstate) : Prop :=
  setup_events (obs ss) = [] \/
  exists t, setup_result cfg p = Some t /\
            setup_events (obs ss) = [(setup_env (hostenv cfg) s (setup_keep p) (setup_adds p), t, escapes_of cfg p)].

(* from setup until the work directory is dealt with *)
(* a conjunction, not a record: [live] of a state and of the same state in another phase are convertible *)
Definition live (cfg : config) (p : script) (s : nat) (ss : sstate) : Prop :=
  bgok ss /\ setup_ok cfg p s ss /\ work_removed (obs ss) = [] /\ wpresent ss = true.

Section LiveFields.
  Context {cfg : config} {p : script} {s : nat} {ss : sstate} (LV : live cfg p s ss).
  Definition lv_bg : bgok ss := proj1 LV.
  Definition lv_setup : setup_ok cfg p s ss := proj1 (proj2 LV).
  Definition lv_kept : work_removed (obs ss) = [] := proj1 (proj2 (proj2 LV)).
  Definition lv_present : wpresent ss = true := proj2 (proj2 (proj2 LV)).
End LiveFields.

Definition sinv (cfg : config) (p : script) (s : nat) (ss : sstate) : Prop :=
  match ph ss with
  | NotStarted => obs ss = [] /\ dstack ss = [] /\ bgl ss = [] /\ wpresent ss = false
  | Running _ | Ending _ SInt | Ending _ SDefers | Stuck => live cfg p s ss /\ defers_pending ss
  | Ending _ SWait =>
      live cfg p s ss /\ defers_pending ss /\ (forall h, In h (map fst (bgl ss)) -> In h (bg_gone (obs ss)))
  | Ending _ SBgClean => live cfg p s ss /\ defers_done ss
  | Ending _ SCleanup => live cfg p s ss /\ defers_done ss /\ bgl ss = []
  | Done _ =>
      bgok ss /\ setup_ok cfg p s ss /\ defers_done ss /\ bgl ss = [] /\
      if retain cfg then work_removed (obs ss) = [] /\ wpresent ss = true else wpresent ss = false /\ tr ss = []
  end.

Lemma sinv_init cfg p s : sinv cfg p s sstate0.
Proof. now cbn. Qed.

Lemma bgok_ext ss ss' l : bgok ss -> obs ss' = obs ss ++ l -> bg_started l = [] -> bgl ss' = bgl ss -> bgok ss'.
Proof.
  intros B Eo Es Eb h. rewrite Eo, Eb, bg_started_app, Es, app_nil_r, bg_gone_app, bg_waited_app, !in_app_iff.
  intro Hh. destruct (B h Hh) as [?|[? ?]]; auto.
Qed.

Lemma bgok_line ss ss' l : bgok ss -> line_effect ss ss' l -> bgok ss'.
Proof.
  intros B L h Hh. pose proof (le_bg_old L h) as Old. rewrite (le_obs L) in *.
  rewrite bg_started_app in Hh. rewrite bg_gone_app, bg_waited_app.
  apply in_app_or in Hh as [Hh|Hh].
  - destruct (B h Hh) as [Hb|[Hi Hw]].
    + destruct (Old Hb) as [?|[[G|Q] W]]; [now left| |].
      * right. split; [now rewrite <- bg_gone_app | apply in_or_app; now right].
      * right. split; [apply in_or_app; left; now apply gone_of_started_quick | apply in_or_app; now right].
    + right. split; apply in_or_app; now left.
  - left. now apply (le_bg_new L).
Qed.

Lemma setup_ok_ext cfg p s ss ss' l :
  setup_ok cfg p s ss -> obs ss' = obs ss ++ l -> setup_events l = [] -> setup_ok cfg p s ss'.
Proof.
  unfold setup_ok. intros H E El. rewrite E, setup_events_app, El, app_nil_r. exact H.
Qed.

Lemma defers_done_ext ss ss' l :
  defers_done ss -> obs ss' = obs ss ++ l -> defer_regs l = [] -> defer_runs l = [] -> dstack ss' = dstack ss ->
  defers_done ss'.
Proof.
  intros [D1 D2] Eo Rg Rn Ed. split; [|congruence].
  now rewrite Eo, defer_runs_app, defer_regs_app, Rg, Rn, !app_nil_r.
Qed.

Lemma live_line cfg p s ss ss' l : live cfg p s ss -> line_effect ss ss' l -> live cfg p s ss'.
Proof.
  intros LV L. refine (conj _ (conj _ (conj _ _))).
  - exact (bgok_line _ _ _ (lv_bg LV) L).
  - exact (setup_ok_ext _ _ _ _ _ _ (lv_setup LV) (le_obs L) (le_setup L)).
  - now rewrite (le_obs L), work_removed_app, (lv_kept LV), (le_removed L).
  - now rewrite (le_wp L), (lv_present LV).
Qed.

(* lines, and the stages that deal with the background commands before the deferred functions run *)
Lemma pending_line cfg p s ss ss' l :
  live cfg p s ss /\ defers_pending ss -> line_effect ss ss' l -> live cfg p s ss' /\ defers_pending ss'.
Proof.
  intros [LV [P1 P2]] L. split; [exact (live_line _ _ _ _ _ _ LV L)|]. split.
  - now rewrite (le_obs L), defer_runs_app, P1, (le_runs L).
  - now rewrite (le_dstack L), (le_obs L), defer_regs_app, rev_app_distr, P2.
Qed.

Lemma defers_done_line ss ss' l : defers_done ss -> line_effect ss ss' l -> Forall bg_event l -> defers_done ss'.
Proof.
  intros D L Q. destruct (bg_events_quiet l Q) as (Rg & _).
  pose proof (le_dstack L) as Ed. rewrite Rg, (proj2 D) in Ed. apply map_eq_nil in Ed.
  apply (defers_done_ext ss ss' l D (le_obs L) Rg (le_runs L)). now rewrite Ed, (proj2 D).
Qed.

Lemma defer_regs_of_setup (l : list (nat * bool)) :
  defer_regs (map (fun d => EvDeferReg (fst d)) l) = map fst l
  /\ defer_runs (map (fun d => EvDeferReg (fst d)) l) = []
  /\ bg_started (map (fun d => EvDeferReg (fst d)) l) = []
  /\ setup_events (map (fun d => EvDeferReg (fst d)) l) = []
  /\ work_removed (map (fun d => EvDeferReg (fst d)) l) = [].
Proof. repeat split; induction l as [|a l IH]; cbn; try reflexivity; first [exact IH | f_equal; exact IH]. Qed.

Lemma defer_runs_of_stack (l : list (nat * bool)) :
  defer_runs (map (fun d => EvDeferRun (fst d)) l) = map fst l
  /\ defer_regs (map (fun d => EvDeferRun (fst d)) l) = []
  /\ bg_started (map (fun d => EvDeferRun (fst d)) l) = []
  /\ setup_events (map (fun d => EvDeferRun (fst d)) l) = []
  /\ work_removed (map (fun d => EvDeferRun (fst d)) l) = [].
Proof. repeat split; induction l as [|a l IH]; cbn; try reflexivity; first [exact IH | f_equal; exact IH]. Qed.

Lemma after_setup cfg p s t ss :
  setup_result cfg p = Some t ->
  obs ss = map (fun d => EvDeferReg (fst d)) (setup_defers p)
           ++ [EvSetup (setup_env (hostenv cfg) s (setup_keep p) (setup_adds p)) t (escapes_of cfg p)] ->
  dstack ss = rev (setup_defers p) -> wpresent ss = true ->
  live cfg p s ss /\ defers_pending ss.
Proof.
  intros Et Eo Ed Ew. destruct (defer_regs_of_setup (setup_defers p)) as (Regs & Runs & Started & Setup & Removed).
  split; [refine (conj _ (conj _ (conj _ _)))|]; unfold bgok, setup_ok, defers_pending;
    rewrite ?Eo, ?Ed, ?bg_started_app, ?setup_events_app, ?work_removed_app, ?defer_runs_app, ?defer_regs_app,
      ?Regs, ?Runs, ?Started, ?Setup, ?Removed, ?map_rev; cbn; rewrite ?app_nil_r; try easy.
  right. now exists t.
Qed.

Lemma after_defers cfg p s ss :
  live cfg p s ss /\ defers_pending ss ->
  let ss' := set_dstack (add_obs ss (map (fun d => EvDeferRun (fst d)) (dstack ss))) [] in
  live cfg p s ss' /\ defers_done ss'.
Proof.
  intros [LV [P1 P2]]. destruct (defer_runs_of_stack (dstack ss)) as (Runs & Regs & Started & Setup & Removed).
  set (l := map (fun d => EvDeferRun (fst d)) (dstack ss)) in *. cbn zeta.
  split; [refine (conj _ (conj _ (conj _ _)))|split]; cbn [set_dstack add_obs obs wpresent dstack]; try reflexivity.
  - now apply (bgok_ext ss _ l (lv_bg LV)).
  - now apply (setup_ok_ext _ _ _ ss _ l (lv_setup LV)).
  - now rewrite work_removed_app, (lv_kept LV), Removed.
  - exact (lv_present LV).
  - now rewrite defer_runs_app, defer_regs_app, P1, Runs, Regs, P2, app_nil_r.
Qed.

Lemma sstep_sinv cfg p s c ss c' ss' e :
  sinv cfg p s ss -> sstep cfg p s c ss = (c', ss', e) -> sinv cfg p s ss'.
Proof.
  unfold sinv at 1, sstep. intros PH H. destruct (ph ss) as [|pc|v [| | | |]|v|] eqn:Eph.
  - (* setup *)
    destruct (setup_result cfg p) as [t|] eqn:Et; [destruct (setup_err p)|]; injection H as <- <- <-;
      [apply (after_setup _ _ _ t); auto.. |].
    (* unpacking failed: an empty log *)
    unfold sinv, live, bgok, setup_ok, defers_pending. cbn. intuition.
  - (* one line *)
    destruct (nth_error (body p) pc) as [a|]; [|injection H as <- <- <-; exact PH].
    destruct (exec_action cfg s c ss a) as [[c1 ss1] o] eqn:Ea. injection H as <- <- <-.
    destruct (exec_action_effect _ _ _ _ _ _ _ _ Ea) as [l L]. pose proof (pending_line _ _ _ _ _ _ PH L) as K.
    destruct o; [| destruct (continue_on_error cfg) | | | | | |]; exact K.
  - (* the end of the loop: every command is interrupted *)
    injection H as <- <- <-. destruct (pending_line _ _ _ _ _ _ PH (int_effect ss)) as [LV DP].
    split; [exact LV|]. split; [exact DP|]. cbn [set_ph add_obs obs bgl]. intros h Hh.
    rewrite bg_gone_app, ev_int_all_gone, in_app_iff. now right.
  - (* ... and waited for: they are gone already *)
    injection H as <- <- <-. destruct PH as (LV & DP & G).
    apply (pending_line _ _ _ ss _ (ev_wait_all (bgl ss)) (conj LV DP)).
    apply line_effect_bg; [apply ev_wait_all_bg | reflexivity..|]. intros h Hh. right.
    rewrite bg_gone_app, in_app_iff, ev_wait_all_waited. auto.
  - (* the deferred functions *)
    injection H as <- <- <-. exact (after_defers _ _ _ _ PH).
  - (* what they have started is interrupted and waited for *)
    injection H as <- <- <-. destruct PH as [LV DD].
    pose proof (int_wait_effect ss _ (ev_wait_all_bg _) (ev_wait_all_waited _)) as L.
    split; [exact (live_line _ _ _ _ _ _ LV L)|]. split; [|reflexivity].
    apply (defers_done_line _ _ _ DD L). apply Forall_app. split; [apply ev_int_all_bg | apply ev_wait_all_bg].
  - (* the work directory is removed, or kept *)
    destruct PH as (LV & DD & G). unfold sinv. destruct (retain cfg); injection H as <- <- <-.
    + exact (conj (lv_bg LV) (conj (lv_setup LV) (conj DD (conj G (conj (lv_kept LV) (lv_present LV)))))).
    + rewrite remove_all_empty. cbn [ph].
      split; [now apply (bgok_ext ss _ [EvWorkRemoved] (lv_bg LV))|].
      split; [now apply (setup_ok_ext _ _ _ ss _ [EvWorkRemoved] (lv_setup LV))|].
      split; [now apply (defers_done_ext ss _ [EvWorkRemoved])|]. now repeat split.
  - injection H as <- <- <-. unfold sinv. now rewrite Eph.
  - injection H as <- <- <-. unfold sinv. now rewrite Eph.
Qed.

Lemma nth_error_upd_same {A} (l : list A) i x y : nth_error l i = Some y -> nth_error (upd l i x) i = Some x.
Proof. revert i. induction l as [|a l IH]; intros [|i] H; cbn in *; try discriminate; [reflexivity | now apply IH]. Qed.

Lemma nth_error_upd_other {A} (l : list A) i j x : i <> j -> nth_error (upd l i x) j = nth_error l j.
Proof.
  revert i j. induction l as [|a l IH]; intros [|i] [|j] H; cbn; try reflexivity; try congruence.
  apply IH. congruence.
Qed.

Lemma length_upd {A} (l : list A) i x : length (upd l i x) = length l.
Proof. revert i. induction l as [|a l IH]; intros [|i]; cbn; try reflexivity. now rewrite IH. Qed.

(* a step does nothing, or it is one step of the script scheduled, on the shared cache *)
Lemma step_cases cfg progs st s :
  step cfg progs st s = st \/
  exists p ss c ss' e,
    nth_error progs s = Some p /\ nth_error (scripts st) s = Some ss /\
    sstep cfg p s (xcache (sh st)) ss = (c, ss', e) /\
    step cfg progs st s = {| sh := apply_effect cfg (sh st) c e; scripts := upd (scripts st) s ss' |}.
Proof.
  unfold step. destruct (nth_error progs s) as [p|]; [|now left].
  destruct (nth_error (scripts st) s) as [ss|]; [|now left].
  destruct (sstep cfg p s (xcache (sh st)) ss) as [[c ss'] e] eqn:E. right. exists p, ss, c, ss', e. auto.
Qed.

Lemma step_frame cfg progs st s s' :
  s <> s' -> nth_error (scripts (step cfg progs st s)) s' = nth_error (scripts st) s'.
Proof.
  intro H. destruct (step_cases cfg progs st s) as [->|(p & ss & c & ss' & e & _ & _ & _ & ->)]; [reflexivity|].
  now apply nth_error_upd_other.
Qed.

Lemma step_length cfg progs st s : length (scripts (step cfg progs st s)) = length (scripts st).
Proof.
  destruct (step_cases cfg progs st s) as [->|(p & ss & c & ss' & e & _ & _ & _ & ->)]; [reflexivity|].
  apply length_upd.
Qed.

(* The exit paths of run(): from which phase to which one step of a script leads. *)
Inductive edge (p : script) : phase -> phase -> Prop :=
  | e_setup : edge p NotStarted (Running 0)
  | e_setup_fails : edge p NotStarted (Ending VSetupFail SDefers)
  | e_line pc : pc < length (body p) -> edge p (Running pc) (Running (S pc))
  | e_end pc v : edge p (Running pc) (Ending v SInt)        (* the end of the body; stop *)
  | e_abort pc v : edge p (Running pc) (Ending v SDefers)   (* a failing line, skip, panic, Goexit *)
  | e_block pc a : nth_error (body p) pc = Some a -> has_wait a = true -> edge p (Running pc) Stuck
  | e_int v : edge p (Ending v SInt) (Ending v SWait)
  | e_wait v : edge p (Ending v SWait) (Ending v SDefers)
  | e_defers v v' : edge p (Ending v SDefers) (Ending v' SBgClean)
  | e_bgclean v : edge p (Ending v SBgClean) (Ending v SCleanup)
  | e_cleanup v : edge p (Ending v SCleanup) (Done v)
  | e_done v : edge p (Done v) (Done v)
  | e_stuck : edge p Stuck Stuck.

(* A step follows an edge, and asks something of the batch (root, reference count, cancel function)
   only when it removes the work directory. *)
Lemma sstep_edge cfg p s c ss c' ss' e :
  sstep cfg p s c ss = (c', ss', e) ->
  edge p (ph ss) (ph ss') /\
  match e with
  | Finished => retain cfg = false /\ exists v, ph ss = Ending v SCleanup
  | NoEffect => retain cfg = true \/ forall v, ph ss <> Ending v SCleanup
  end.
Proof.
  unfold sstep. intro H.
  destruct (ph ss) as [|pc|v [| | | |]|v|] eqn:Eph;
    [ (* NotStarted *) destruct (setup_result cfg p); [destruct (setup_err p)|]
    | (* Running *) destruct (nth_error (body p) pc) as [a|] eqn:Ea;
      [destruct (exec_action cfg s c ss a) as [[c1 ss1] o] eqn:Eo; destruct o; [|destruct (continue_on_error cfg)|..]|]
    | (* SInt *) | (* SWait *) | (* SDefers *) | (* SBgClean *) | (* SCleanup *) destruct (retain cfg)
    | (* Done *) | (* Stuck *) ];
    injection H as <- <- <-; cbn [ph set_ph set_failed]; rewrite ?Eph; (split; [|first [now right | eauto]]);
    try (constructor; apply nth_error_Some; congruence).
  (* stuck: the line holds a bare wait *)
  apply (e_block p pc a Ea). destruct (has_wait a) eqn:W; [reflexivity|].
  pose proof (exec_action_not_stuck cfg s a W c ss) as N. now rewrite Eo in N.
Qed.

Lemma sstep_effect cfg p s c ss c' ss' e :
  sstep cfg p s c ss = (c', ss', e) ->
  match e with
  | Finished => retain cfg = false /\ (exists v, ph ss = Ending v SCleanup /\ ph ss' = Done v)
  | NoEffect => is_done ss' = is_done ss \/ retain cfg = true
  end.
Proof.
  intro H. destruct (sstep_edge _ _ _ _ _ _ _ _ H) as [E F]. destruct e.
  - destruct F as [F|F]; [now right|left]. unfold is_done. destruct E; try reflexivity. now destruct (F v).
  - destruct F as (Er & v & Ev). split; [exact Er|]. exists v. split; [exact Ev|]. rewrite Ev in E. now inversion E.
Qed.

Lemma step_shared_frame cfg progs st s :
  let st' := step cfg progs st s in
  (forall ss ss', nth_error (scripts st) s = Some ss -> nth_error (scripts st') s = Some ss' ->
                  is_done ss' = is_done ss) ->
  retain cfg = false ->
  root_present (sh st') = root_present (sh st) /\ refcount (sh st') = refcount (sh st)
  /\ cancelled (sh st') = cancelled (sh st) /\ root_removals (sh st') = root_removals (sh st).
Proof.
  cbn zeta. destruct (step_cases cfg progs st s) as [->|(p & ss & c & ss' & e & _ & Es & E & ->)]; [tauto|].
  cbn [scripts sh]. intros H Hr. pose proof (sstep_effect _ _ _ _ _ _ _ _ E) as Ef.
  destruct e; cbn [apply_effect]; [tauto|]. destruct Ef as (_ & v & E1 & E2).
  specialize (H ss ss' Es (nth_error_upd_same _ _ _ _ Es)). unfold is_done in H. rewrite E1, E2 in H. discriminate.
Qed.

Lemma run_invariant cfg progs (P : bstate -> Prop) :
  (forall st s, P st -> P (step cfg progs st s)) -> forall sched st, P st -> P (run cfg progs st sched).
Proof.
  intro Hs. unfold run. induction sched as [|s sched IH]; intros st H; [exact H|]. apply IH, Hs, H.
Qed.

Lemma init_component progs s (p : script) :
  nth_error progs s = Some p -> nth_error (scripts (init progs)) s = Some sstate0.
Proof. intro H. cbn. now rewrite nth_error_map, H. Qed.

Definition all_sinv (cfg : config) (progs : list script) (st : bstate) : Prop :=
  length (scripts st) = length progs /\
  forall s p ss, nth_error progs s = Some p -> nth_error (scripts st) s = Some ss -> sinv cfg p s ss.

Lemma init_all_sinv cfg progs : all_sinv cfg progs (init progs).
Proof.
  split; [apply map_length|]. intros s p ss Hp Hs. rewrite (init_component _ _ _ Hp) in Hs.
  injection Hs as <-. apply sinv_init.
Qed.

Lemma step_all_sinv cfg progs st s : all_sinv cfg progs st -> all_sinv cfg progs (step cfg progs st s).
Proof.
  intros [L H]. split; [now rewrite step_length|].
  intros s' p' ss1 Hp' Hs. destruct (Nat.eq_dec s s') as [<-|Hne]; [|rewrite step_frame in Hs; eauto].
  destruct (step_cases cfg progs st s) as [E|(p & ss & c & ss' & e & Hp & Es & E & Est)]; [rewrite E in Hs; eauto|].
  rewrite Est in Hs. cbn [scripts] in Hs. rewrite (nth_error_upd_same _ _ _ _ Es) in Hs. injection Hs as <-.
  assert (p' = p) as -> by congruence. eapply sstep_sinv; eauto.
Qed.

Lemma nth_error_same_length {A B} (l : list A) (l' : list B) i x :
  length l = length l' -> nth_error l i = Some x -> exists y, nth_error l' i = Some y.
Proof.
  intros L H. assert (i < length l') by (rewrite <- L; apply nth_error_Some; congruence).
  destruct (nth_error l' i) eqn:E; [eauto|]. apply nth_error_None in E. lia.
Qed.

Lemma reachable_component cfg progs sched s ss :
  nth_error (scripts (run cfg progs (init progs) sched)) s = Some ss ->
  exists p, nth_error progs s = Some p /\ sinv cfg p s ss.
Proof.
  intro Hs.
  destruct (run_invariant cfg progs _ (step_all_sinv cfg progs) sched _ (init_all_sinv cfg progs)) as [L H].
  destruct (nth_error_same_length _ progs _ _ L Hs) as [p Hp]. eauto.
Qed.

Lemma reachable_sinv cfg progs sched s p ss :
  nth_error progs s = Some p -> nth_error (scripts (run cfg progs (init progs) sched)) s = Some ss -> sinv cfg p s ss.
Proof. intros Hp Hs. destruct (reachable_component _ _ _ _ _ Hs) as (p' & Hp' & PH). congruence. Qed.

(* What a run does to the component of script s: its own steps, each on some cache; [P k] is what is
   known of the component after k of them. *)
Lemma run_component cfg progs s p (P : nat -> sstate -> Prop) :
  nth_error progs s = Some p ->
  (forall k c ss c' ss' e, sstep cfg p s c ss = (c', ss', e) -> P k ss -> P (S k) ss') ->
  forall sched st ss k, nth_error (scripts st) s = Some ss -> P k ss ->
  exists ss', nth_error (scripts (run cfg progs st sched)) s = Some ss' /\ P (k + count_occ Nat.eq_dec sched s) ss'.
Proof.
  intros Hp Hstep. unfold run. induction sched as [|s0 sched IH]; intros st ss k Hs HP; cbn [fold_left count_occ].
  - exists ss. now rewrite Nat.add_0_r.
  - destruct (Nat.eq_dec s0 s) as [->|Hne]; [|apply (IH _ ss k); [now rewrite step_frame | exact HP]].
    rewrite Nat.add_succ_r. unfold step at 2. rewrite Hp, Hs.
    destruct (sstep cfg p s (xcache (sh st)) ss) as [[c ss1] e] eqn:E.
    apply (IH _ ss1 (S k)); [exact (nth_error_upd_same _ _ _ _ Hs) | exact (Hstep _ _ _ _ _ _ E HP)].
Qed.

Lemma not_done_count_upd_same l s ss ss' :
  nth_error l s = Some ss -> is_done ss' = is_done ss -> not_done_count (upd l s ss') = not_done_count l.
Proof.
  unfold not_done_count. revert s. induction l as [|a l IH]; intros [|s] H E; cbn in H; try discriminate.
  - injection H as ->. cbn [upd filter]. rewrite E. destruct (negb (is_done ss)); reflexivity.
  - cbn [upd filter]. destruct (negb (is_done a)); cbn [length]; rewrite (IH s H E); reflexivity.
Qed.

Lemma not_done_count_upd_finish l s ss ss' :
  nth_error l s = Some ss -> is_done ss = false -> is_done ss' = true ->
  not_done_count l = S (not_done_count (upd l s ss')).
Proof.
  unfold not_done_count. revert s. induction l as [|a l IH]; intros [|s] H E E'; cbn in H; try discriminate.
  - injection H as ->. cbn [upd filter]. now rewrite E, E'.
  - cbn [upd filter]. destruct (negb (is_done a)); cbn [length]; rewrite (IH s H E E'); reflexivity.
Qed.

Lemma not_done_count_zero l : not_done_count l = 0 <-> forallb is_done l = true.
Proof.
  unfold not_done_count. induction l as [|a l IH]; cbn [filter forallb]; [tauto|].
  destruct (is_done a); cbn [negb andb length]; [exact IH|]. split; discriminate.
Qed.

Lemma not_done_count_init (progs : list script) : not_done_count (map (fun _ => sstate0) progs) = length progs.
Proof. unfold not_done_count. induction progs as [|a l IH]; [reflexivity|]. cbn. now rewrite IH. Qed.

Definition rc_inv (cfg : config) (st : bstate) : Prop :=
  refcount (sh st) = not_done_count (scripts st) /\
  (if Nat.eqb (refcount (sh st)) 0
   then root_present (sh st) = false /\ root_removals (sh st) = 1 /\ cancelled (sh st) = has_cancel cfg
   else root_present (sh st) = true /\ root_removals (sh st) = 0 /\ cancelled (sh st) = false).

Lemma rc_inv_init cfg progs : progs <> [] -> rc_inv cfg (init progs).
Proof.
  intro H. unfold rc_inv, init. cbn [sh scripts refcount root_present root_removals cancelled].
  rewrite not_done_count_init. split; [reflexivity|]. destruct progs; [contradiction|]. cbn. auto.
Qed.

Lemma rc_inv_step cfg progs st s : retain cfg = false -> rc_inv cfg st -> rc_inv cfg (step cfg progs st s).
Proof.
  intros Hr [R1 R2]. (* R1: the count; R2: root, removals, cancel *) destruct (step_cases cfg progs st s) as [->|(p & ss & c & ss' & e & _ & Es & E & ->)]; [now split|].
  pose proof (sstep_effect _ _ _ _ _ _ _ _ E) as Ef. unfold rc_inv. cbn [sh scripts].
  destruct e; cbn [apply_effect].
  - destruct Ef as [Ef|Ef]; [|congruence]. cbn [refcount root_present root_removals cancelled].
    rewrite (not_done_count_upd_same _ _ _ _ Es Ef). now split.
  - destruct Ef as (_ & v & E1 & E2).
    assert (N : not_done_count (scripts st) = S (not_done_count (upd (scripts st) s ss')))
      by (apply (not_done_count_upd_finish _ _ ss); unfold is_done; [exact Es | now rewrite E1 | now rewrite E2]).
    rewrite R1, N in *. cbn [pred Nat.eqb] in *.
    destruct (Nat.eqb (not_done_count (upd (scripts st) s ss')) 0) eqn:Ez;
      cbn [refcount root_present root_removals cancelled]; rewrite Ez; [destruct R2 as (_ & -> & _); auto | now split].
Qed.

(* with retention the root, the count and the cancel function are never touched *)
Definition keep_inv (st : bstate) : Prop :=
  root_present (sh st) = true /\ root_removals (sh st) = 0 /\ cancelled (sh st) = false.

Lemma keep_inv_step cfg progs st s : retain cfg = true -> keep_inv st -> keep_inv (step cfg progs st s).
Proof.
  intros Hr K. destruct (step_cases cfg progs st s) as [->|(p & ss & c & ss' & e & _ & _ & E & ->)]; [exact K|].
  pose proof (sstep_effect _ _ _ _ _ _ _ _ E) as Ef. destruct e; [exact K | destruct Ef; congruence].
Qed.

Definition owner_ok (s : nat) (v : value) : Prop :=
  match value_owner v with None => True | Some o => o = s end.
Definition env_ok (s : nat) (e : env) : Prop := Forall (fun kv => owner_ok s (snd kv)) e.
(* what Params.Setup adds refers to no other script's work directory *)
Definition wf_script (s : nat) (p : script) : Prop := env_ok s (setup_adds p).

Lemma env_get_first_ok s e k v : env_ok s e -> env_get_first e k = Some v -> owner_ok s v.
Proof.
  induction e as [|[n w] e IH]; intros H G; cbn [env_get_first] in G; [discriminate|].
  inversion H as [|? ? H1 H2]; subst. destruct (bytes_eqb n k); [injection G as <-; exact H1 | now apply IH].
Qed.

Lemma path_value_ok s e : env_ok s e -> owner_ok s (path_value e).
Proof.
  intro H. unfold path_value, env_get. destruct (env_get_first (rev e) PATH) eqn:E; [|exact I].
  apply (env_get_first_ok s (rev e) PATH); [now apply Forall_rev | exact E].
Qed.

Lemma resolve_all_ok h s l : env_ok s (resolve_all h s l).
Proof. apply Forall_map, Forall_forall. intros [n []] _; cbn; auto. Qed.

Lemma base_env_ok h s : env_ok s (base_env h s).
Proof.
  unfold base_env, env_ok. rewrite !Forall_app. repeat split; try apply resolve_all_ok.
  apply Forall_forall. intros x Hx. apply in_flat_map in Hx as (n & _ & Hx).
  destruct (host_get h n); [destruct Hx|]. destruct Hx as [<-|[]]. exact I.
Qed.

Lemma setup_env_ok h s keep adds : env_ok s adds -> env_ok s (setup_env h s keep adds).
Proof.
  intro H. apply Forall_app. split; [|exact H]. destruct keep as [l|]; [|apply base_env_ok].
  apply Forall_forall. intros x Hx. apply filter_In in Hx as [Hx _]. revert x Hx. apply Forall_forall, base_env_ok.
Qed.

(* a line leaves the environment alone or appends a literal or a path below the script's own directory *)
Lemma exec_action_env_ok cfg s a : forall c ss c' ss' o,
  exec_action cfg s c ss a = (c', ss', o) -> env_ok s (senv ss) -> env_ok s (senv ss').
Proof.
  induction a; intros c ss c' ss' o H E; cbn [exec_action] in H;
    try (cases_of H; injection H as <- <- <-; exact E).
  - injection H as <- <- <-. apply Forall_app. split; [exact E | now repeat constructor].
  - injection H as <- <- <-. apply Forall_app. split; [exact E | now repeat constructor].
  - destruct (cached_look _ _ _ _ _) as [ans c1]. destruct (Bool.eqb _ _); [eauto|].
    injection H as <- <- <-. exact E.
Qed.

(* The shared cache [cb] against the cache [ca] the script would have had alone.  A key holds the
   PATH value of the script that made the entry.  A value that names a work directory belongs to
   one script: no other script asks for that key, and on those keys the two caches agree.  For a
   literal value the answer is the host table's, cached or not, whoever asks. *)
Definition key_lit (k : ckey) : Prop := exists b, fst k = Some (VLit b).
Definition owned (s : nat) (k : ckey) : Prop := exists pv, fst k = Some pv /\ value_owner pv = Some s.
Definition hostval (cfg : config) (k : ckey) : bool :=
  match fst k with Some (VLit b) => hosttab_get (hosttab cfg) b (snd k) | _ => false end.

Definition Glob (cfg : config) (c : cache) : Prop :=
  forall k v, cache_get c k = Some v -> key_lit k -> v = hostval cfg k.
Definition Rel (cfg : config) (s : nat) (cb ca : cache) : Prop :=
  (forall k, owned s k -> cache_get cb k = cache_get ca k) /\ Glob cfg cb /\ Glob cfg ca.
Section RelFields.
  Context {cfg : config} {s : nat} {cb ca : cache} (R : Rel cfg s cb ca).
  Definition rel_own : forall k, owned s k -> cache_get cb k = cache_get ca k := proj1 R.
  Definition rel_shared : Glob cfg cb := proj1 (proj2 R).
  Definition rel_alone : Glob cfg ca := proj2 (proj2 R).
End RelFields.

(* what a step of script s does to the shared cache does not disturb the other scripts *)
Definition frame_others (cfg : config) (s : nat) (cb cb' : cache) : Prop :=
  forall s' ca2, s' <> s -> Rel cfg s' cb ca2 -> Rel cfg s' cb' ca2.

Lemma frame_others_refl cfg s c : frame_others cfg s c c.
Proof. intros s' ca2 _ R. exact R. Qed.

Lemma look_key_lit cfg s t pv prog : key_lit (Some pv, prog) -> look cfg s t pv prog = hostval cfg (Some pv, prog).
Proof. intros [b [= ->]]. reflexivity. Qed.

(* [exec:prog] leaves the answer under its key and every other entry alone; the answer is the old entry,
   or, when there was none, what Look finds *)
Lemma cached_look_spec cfg s c ss prog v c' :
  key_by_path cfg = true -> cached_look cfg s c ss prog = (v, c') ->
  let k : ckey := (Some (path_value (senv ss)), prog) in
  cache_get c' k = Some v /\ (forall k2, k2 <> k -> cache_get c' k2 = cache_get c k2) /\
  (cache_get c k = Some v \/ cache_get c k = None /\ v = look cfg s (tr ss) (path_value (senv ss)) prog).
Proof.
  intros Hk H. unfold cached_look in H. rewrite Hk in H. cbn zeta.
  destruct (cache_get c _) as [v0|] eqn:E; injection H as <- <-; [auto|].
  rewrite cache_get_cons, ckey_eqb_refl. split; [reflexivity|]. split; [|now right].
  intros k2 N. rewrite cache_get_cons. destruct (ckey_eqb_spec (Some (path_value (senv ss)), prog) k2) as [<-|_]; [now destruct N | reflexivity].
Qed.

Lemma Glob_update cfg c c' k v :
  Glob cfg c -> cache_get c' k = Some v -> (forall k2, k2 <> k -> cache_get c' k2 = cache_get c k2) ->
  (key_lit k -> v = hostval cfg k) -> Glob cfg c'.
Proof.
  intros G N O L k2 v2. destruct (ckey_eqb_spec k2 k) as [->|Ne]; [|rewrite (O _ Ne); apply G].
  rewrite N. intros [= <-]. exact L.
Qed.

Lemma cached_look_sim cfg s cb ca ss prog vb cb' va ca' :
  key_by_path cfg = true -> Rel cfg s cb ca -> env_ok s (senv ss) ->
  cached_look cfg s cb ss prog = (vb, cb') -> cached_look cfg s ca ss prog = (va, ca') ->
  vb = va /\ Rel cfg s cb' ca' /\ frame_others cfg s cb cb'.
Proof.
  intros Hk RR E Hb Ha. pose proof (rel_own RR) as R. pose proof (rel_shared RR) as G. pose proof (rel_alone RR) as Ga.
  destruct (cached_look_spec _ _ _ _ _ _ _ Hk Hb) as (Nb & Ob & Vb).
  destruct (cached_look_spec _ _ _ _ _ _ _ Hk Ha) as (Na & Oa & Va).
  pose proof (path_value_ok s _ E) as O. unfold owner_ok in O.
  set (pv := path_value (senv ss)) in *. set (k := (Some pv, prog) : ckey) in *.
  assert (Lb : key_lit k -> vb = hostval cfg k)
    by (intro L; destruct Vb as [Vb|[_ ->]]; [exact (G _ _ Vb L) | now apply look_key_lit]).
  assert (La : key_lit k -> va = hostval cfg k)
    by (intro L; destruct Va as [Va|[_ ->]]; [exact (Ga _ _ Va L) | now apply look_key_lit]).
  assert (Ev : vb = va).
  { destruct (value_owner pv) as [o|] eqn:Ow.
    - (* the script's own directory: both caches hold the same entry, or none *)
      assert (Rk : cache_get cb k = cache_get ca k) by (apply R; exists pv; split; [reflexivity | now rewrite Ow, O]).
      destruct Vb as [Vb|[Vb ->]], Va as [Va|[Va ->]]; congruence.
    - assert (L : key_lit k) by (destruct pv; try discriminate; now eexists). now rewrite (Lb L), (La L). }
  subst va. split; [reflexivity|].
  assert (Gb' : Glob cfg cb') by exact (Glob_update _ _ _ _ _ G Nb Ob Lb).
  split; [split; [|split; [exact Gb' | exact (Glob_update _ _ _ _ _ Ga Na Oa La)]]|].
  - intros k2 U2. destruct (ckey_eqb_spec k2 k) as [->|Ne]; [now rewrite Nb, Na|]. rewrite (Ob _ Ne), (Oa _ Ne). now apply R.
  - intros s' ca2 Hne R'. split; [|exact (conj Gb' (rel_alone R'))]. intros k2 U2. rewrite Ob; [now apply (rel_own R')|].
    intros ->. destruct U2 as (pv' & [= <-] & Ow'). rewrite Ow' in O. congruence.
Qed.

(* only AIfExec mentions the cache: every other line hands it on unread *)
Lemma exec_action_nocond cfg s a : uses_cond a = false ->
  forall c1 c2 ss, exec_action cfg s c2 ss a =
                   (c2, snd (fst (exec_action cfg s c1 ss a)), snd (exec_action cfg s c1 ss a)).
Proof. intros H c1 c2 ss. destruct a; try discriminate; cbn [exec_action]; cases_of_goal; reflexivity. Qed.

Lemma exec_action_sim_nocond cfg s a cb ca ss cb' ssb ob ca' ssa oa :
  Rel cfg s cb ca ->
  exec_action cfg s cb ss a = (cb', ssb, ob) -> exec_action cfg s ca ss a = (ca', ssa, oa) ->
  uses_cond a = false ->
  ssb = ssa /\ ob = oa /\ Rel cfg s cb' ca' /\ frame_others cfg s cb cb'.
Proof.
  intros R Hb Ha U.
  rewrite (exec_action_nocond cfg s a U ca cb ss) in Hb. rewrite (exec_action_nocond cfg s a U ca ca ss) in Ha.
  injection Hb as <- <- <-. injection Ha as <- <- <-. auto using frame_others_refl.
Qed.

Lemma exec_action_sim cfg s a : key_by_path cfg = true ->
  forall cb ca ss cb' ssb ob ca' ssa oa,
  Rel cfg s cb ca -> env_ok s (senv ss) ->
  exec_action cfg s cb ss a = (cb', ssb, ob) -> exec_action cfg s ca ss a = (ca', ssa, oa) ->
  ssb = ssa /\ ob = oa /\ Rel cfg s cb' ca' /\ frame_others cfg s cb cb'.
Proof.
  intro Hk. induction a; intros cb ca ss cb' ssb ob ca' ssa oa R E Hb Ha;
    try exact (exec_action_sim_nocond _ _ _ _ _ _ _ _ _ _ _ _ R Hb Ha eq_refl).
  (* what is left is [AIfExec neg prog a] *)
  rename IHa into IH. cbn [exec_action] in Hb, Ha.
  destruct (cached_look cfg s cb ss prog) as [vb cb1] eqn:Eb.
  destruct (cached_look cfg s ca ss prog) as [va ca1] eqn:Ea.
  destruct (cached_look_sim _ _ _ _ _ _ _ _ _ _ Hk R E Eb Ea) as (-> & R1 & F1).
  destruct (Bool.eqb va (negb neg)); [|injection Hb as <- <- <-; injection Ha as <- <- <-; auto].
  destruct (IH _ _ (add_obs ss [EvCond prog va]) _ _ _ _ _ _ R1 E Hb Ha) as (-> & -> & R2 & F2).
  repeat (split; [easy|]). intros s' ca2 Hne R'. apply F2; [assumption|]. now apply F1.
Qed.

Lemma sstep_sim cfg p s cb ca ss cb' ssb eb ca' ssa ea :
  key_by_path cfg = true -> wf_script s p ->
  Rel cfg s cb ca -> env_ok s (senv ss) ->
  sstep cfg p s cb ss = (cb', ssb, eb) -> sstep cfg p s ca ss = (ca', ssa, ea) ->
  ssb = ssa /\ Rel cfg s cb' ca' /\ env_ok s (senv ssb) /\ frame_others cfg s cb cb'.
Proof.
  intros Hk Hwf R E Hb Ha. unfold sstep in Hb, Ha.
  destruct (ph ss) as [|pc|v [| | | |]|v|];
    [ (* NotStarted *) destruct (setup_result cfg p); [destruct (setup_err p)|]
    | (* Running *) destruct (nth_error (body p) pc) as [a|]
    | (* SInt *) | (* SWait *) | (* SDefers *) | (* SBgClean *) | (* SCleanup *) destruct (retain cfg)
    | (* Done *) | (* Stuck *) ].
  4: { (* the fourth goal is the line [a]: three came from setup *)
       destruct (exec_action cfg s cb ss a) as [[cb1 ssb1] ob] eqn:Eb.
       destruct (exec_action cfg s ca ss a) as [[ca1 ssa1] oa] eqn:Ea.
       destruct (exec_action_sim cfg s a Hk _ _ _ _ _ _ _ _ _ R E Eb Ea) as (-> & -> & R1 & F1).
       pose proof (exec_action_env_ok _ _ _ _ _ _ _ _ Ea E) as E1.
       injection Hb as <- <- <-. injection Ha as <- <- <-. repeat (split; [easy|]). split; [|exact F1].
       destruct oa; [| destruct (continue_on_error cfg) | | | | | |]; exact E1. }
  (* every other step leaves the cache alone, and the environment unless it is setup *)
  all: injection Hb as <- <- <-; injection Ha as <- <- <-;
    refine (conj eq_refl (conj R (conj _ (frame_others_refl _ _ _)))); try exact E.
  all: cbn [senv set_ph]; first [now apply setup_env_ok | constructor].
Qed.

(* the batch after the schedule [done] against every script's solitary run *)
Definition Sim (cfg : config) (progs : list script) (st : bstate) (done : list nat) : Prop :=
  forall s p, nth_error progs s = Some p ->
    let '(ca, ssa) := alone cfg p s (count_occ Nat.eq_dec done s) in
    nth_error (scripts st) s = Some ssa /\ Rel cfg s (xcache (sh st)) ca /\ env_ok s (senv ssa).

Lemma Sim_init cfg progs : Sim cfg progs (init progs) [].
Proof.
  intros s p Hp. cbn [count_occ alone]. split; [exact (init_component _ _ _ Hp)|]. split; [|constructor].
  repeat split; intros k v H; discriminate.
Qed.

Lemma apply_effect_cache cfg h c e : xcache (apply_effect cfg h c e) = c.
Proof. destruct e; cbn [apply_effect]; [reflexivity|]. now destruct (Nat.eqb _ _). Qed.

Lemma Sim_step cfg progs st done s0 :
  key_by_path cfg = true -> (forall s p, nth_error progs s = Some p -> wf_script s p) ->
  Sim cfg progs st done -> Sim cfg progs (step cfg progs st s0) (s0 :: done).
Proof.
  intros Hk Hwf H. unfold step.
  destruct (nth_error progs s0) as [p0|] eqn:Ep0.
  2:{ intros s p Hp. rewrite count_occ_cons_neq by congruence. now apply H. }
  pose proof (H s0 p0 Ep0) as H0. destruct (alone cfg p0 s0 (count_occ Nat.eq_dec done s0)) as [ca ss0] eqn:Eal.
  destruct H0 as (Es0 & R0 & E0). rewrite Es0.
  destruct (sstep cfg p0 s0 (xcache (sh st)) ss0) as [[cb' ssb] eb] eqn:Eb.
  destruct (sstep cfg p0 s0 ca ss0) as [[ca' ssa] ea] eqn:Ea.
  destruct (sstep_sim _ _ _ _ _ _ _ _ _ _ _ _ Hk (Hwf _ _ Ep0) R0 E0 Eb Ea) as (<- & R1 & E1 & F1).
  intros s p Hp. cbn [sh scripts]. rewrite apply_effect_cache. destruct (Nat.eq_dec s0 s) as [<-|Hne].
  - assert (p = p0) as -> by congruence. rewrite count_occ_cons_eq by reflexivity. cbn [alone]. rewrite Eal, Ea.
    split; [exact (nth_error_upd_same _ _ _ _ Es0) | auto].
  - rewrite count_occ_cons_neq by assumption. specialize (H s p Hp).
    destruct (alone cfg p s (count_occ Nat.eq_dec done s)) as [ca2 ss2]. destruct H as (Es & R & Ee).
    split; [now rewrite nth_error_upd_other|]. split; [apply F1; auto | exact Ee].
Qed.

Lemma Sim_run cfg progs sched :
  key_by_path cfg = true -> (forall s p, nth_error progs s = Some p -> wf_script s p) ->
  forall st done, Sim cfg progs st done -> Sim cfg progs (run cfg progs st sched) (rev sched ++ done).
Proof.
  intros Hk Hwf. unfold run. induction sched as [|s0 sched IH]; intros st done H; [exact H|].
  cbn [fold_left rev]. rewrite <- app_assoc. now apply IH, Sim_step.
Qed.

(* Under any schedule every script is, after its k-th own step, exactly where it is after k steps
   run alone: verdict, directory, environment, files, deferred functions, background processes and
   everything it has observed. *)
Lemma interleaving_irrelevant cfg progs sched s p :
  key_by_path cfg = true -> (forall s p, nth_error progs s = Some p -> wf_script s p) ->
  nth_error progs s = Some p ->
  nth_error (scripts (run cfg progs (init progs) sched)) s
  = Some (snd (alone cfg p s (count_occ Nat.eq_dec sched s))).
Proof.
  intros Hk Hwf Hp. pose proof (Sim_run cfg progs sched Hk Hwf _ _ (Sim_init cfg progs) s p Hp) as H. rewrite app_nil_r, count_occ_rev in H.
  now destruct (alone cfg p s (count_occ Nat.eq_dec sched s)).
Qed.

Lemma existsb_false_nth {A} (f : A -> bool) l i a : existsb f l = false -> nth_error l i = Some a -> f a = false.
Proof.
  intros H Hn. apply not_true_is_false. intro E. apply not_true_iff_false in H. apply H, existsb_exists.
  exists a. split; [eapply nth_error_In; eauto | exact E].
Qed.

Lemma sstep_nocond cfg p s : script_uses_cond p = false ->
  forall c1 c2 ss, snd (fst (sstep cfg p s c1 ss)) = snd (fst (sstep cfg p s c2 ss)).
Proof.
  intros H c1 c2 ss. unfold sstep.
  destruct (ph ss) as [|pc|v [| | | |]|v|];
    [ (* NotStarted *) destruct (setup_result cfg p); [destruct (setup_err p)|] | (* Running *)
    | (* SInt *) | (* SWait *) | (* SDefers *) | (* SBgClean *) | (* SCleanup *) destruct (retain cfg)
    | (* Done *) | (* Stuck *) ];
    try reflexivity.
  destruct (nth_error (body p) pc) as [a|] eqn:Ea; [|reflexivity].
  rewrite (exec_action_nocond cfg s a (existsb_false_nth _ _ _ _ H Ea) c1 c2 ss).
  now destruct (exec_action cfg s c1 ss a) as [[c ss1] o].
Qed.

Lemma interleaving_irrelevant_nocond cfg progs sched s p :
  nth_error progs s = Some p -> script_uses_cond p = false ->
  nth_error (scripts (run cfg progs (init progs) sched)) s
  = Some (snd (alone cfg p s (count_occ Nat.eq_dec sched s))).
Proof.
  intros Hp Hn.
  assert (Hstep : forall k c ss c' ss' e, sstep cfg p s c ss = (c', ss', e) ->
                    ss = snd (alone cfg p s k) -> ss' = snd (alone cfg p s (S k))).
  { intros k c ss c' ss' e E ->. cbn [alone]. destruct (alone cfg p s k) as [ca ssa]. cbn [snd] in *.
    pose proof (sstep_nocond cfg p s Hn c ca ssa) as X. rewrite E in X.
    now destruct (sstep cfg p s ca ssa) as [[c2 ss2] e2]. }
  destruct (run_component _ _ _ _ _ Hp Hstep sched _ _ 0 (init_component _ _ _ Hp) eq_refl) as (ss & Hs & ->).
  exact Hs.
Qed.

(* With execCache keyed by the program name alone (go-internal before its key included PATH)
   [interleaving_irrelevant] is false: [prog_key_order_dependent], [prog_only_key_refuted]. *)

Definition b_bin : name := [x62; x69; x6e].
Definition b_tool : name := [x6d; x79; x74; x6f; x6f; x6c].
Definition cfg_prog_key : config :=
  {| retain := false; key_by_path := false; names_see_env := true; names_contained := true; empty_cleans := true; continue_on_error := false; has_cancel := false; pwd_appended := true; precancel_guarded := true; is_root := true;
     hostenv := [(PATH, [x2f; x75; x73; x72; x2f; x62; x69; x6e])]; hosttab := []; helper := [x68] |}.
(* A: chmod 755 bin/mytool; env PATH=$WORK/bin; [exec:mytool] stop; then a failing line.
   B: [exec:mytool] then a failing line (mytool is not on the host PATH). *)
Definition script_A : script :=
  {| archive := [([b_bin; b_tool], [])]; work_named := []; escaping_at := None; setup_keep := None; setup_adds := []; setup_defers := []; setup_err := false;
     body := [AChmodX [b_bin; b_tool]; ASetPathOwn [b_bin] false; AIfExec false b_tool AStop; AFail] |}.
Definition script_B : script :=
  {| archive := []; work_named := []; escaping_at := None; setup_keep := None; setup_adds := []; setup_defers := []; setup_err := false;
     body := [AIfExec false b_tool AFail] |}.

Definition verdict_of (st : bstate) (s : nat) : option phase := option_map ph (nth_error (scripts st) s).

Lemma prog_key_order_dependent :
  let progs := [script_A; script_B] in
  let a_first := repeat 0 12 ++ repeat 1 12 in
  let b_first := repeat 1 12 ++ repeat 0 12 in
  verdict_of (run cfg_prog_key progs (init progs) a_first) 0 = Some (Done VStop) /\
  verdict_of (run cfg_prog_key progs (init progs) a_first) 1 = Some (Done VFail) /\
  verdict_of (run cfg_prog_key progs (init progs) b_first) 0 = Some (Done VFail) /\
  verdict_of (run cfg_prog_key progs (init progs) b_first) 1 = Some (Done VPass).
Proof. vm_compute. repeat split. Qed.

(* the same two scripts with the key that includes PATH: both orders agree with the solitary runs *)
Example path_key_order_independent :
  let cfg := {| retain := false; key_by_path := true; names_see_env := true; names_contained := true; empty_cleans := true; continue_on_error := false; has_cancel := false; pwd_appended := true; precancel_guarded := true; is_root := true;
                hostenv := hostenv cfg_prog_key; hosttab := []; helper := [x68] |} in
  let progs := [script_A; script_B] in
  let a_first := repeat 0 12 ++ repeat 1 12 in
  let b_first := repeat 1 12 ++ repeat 0 12 in
  verdict_of (run cfg progs (init progs) a_first) 0 = Some (Done VStop) /\
  verdict_of (run cfg progs (init progs) a_first) 1 = Some (Done VPass) /\
  verdict_of (run cfg progs (init progs) b_first) 0 = Some (Done VStop) /\
  verdict_of (run cfg progs (init progs) b_first) 1 = Some (Done VPass).
Proof. vm_compute. repeat split. Qed.

Definition mu (p : script) (f : phase) : nat :=
  match f with
  | NotStarted => length (body p) + 7
  | Running pc => (length (body p) - pc) + 6
  | Ending _ SInt => 5
  | Ending _ SWait => 4
  | Ending _ SDefers => 3
  | Ending _ SBgClean => 2
  | Ending _ SCleanup => 1
  | Done _ => 0
  | Stuck => 0
  end.

Lemma edge_mu p f f' : edge p f f' -> mu p f' <= pred (mu p f).
Proof. destruct 1; cbn [mu pred]; lia. Qed.

Lemma sstep_not_stuck cfg p s c ss c' ss' e :
  script_has_wait p = false -> sstep cfg p s c ss = (c', ss', e) -> ph ss <> Stuck -> ph ss' <> Stuck.
Proof.
  intros Hw H Hs. destruct (sstep_edge _ _ _ _ _ _ _ _ H) as [E _].
  destruct E as [| | | | |pc a Ea Wa| | | | | | |]; try discriminate; [|contradiction].
  rewrite (existsb_false_nth _ _ _ _ Hw Ea) in Wa. discriminate.
Qed.

(* whatever the others do, a script that has been given steps_bound steps is finished: no exit path of
   run can get stuck — except a script that executes a bare `wait` while one of its background commands
   is still running and has not been signalled: that one waits for ever (as the code does) *)
Lemma script_finishes cfg progs sched s p :
  nth_error progs s = Some p -> steps_bound p <= count_occ Nat.eq_dec sched s ->
  exists ss, nth_error (scripts (run cfg progs (init progs) sched)) s = Some ss /\
             (is_done ss = true \/ ph ss = Stuck /\ script_has_wait p = true).
Proof.
  intros Hp Hb.
  destruct (run_component cfg progs s p
              (fun k ss => mu p (ph ss) <= steps_bound p - S k /\ (script_has_wait p = false -> ph ss <> Stuck)) Hp)
    with (sched := sched) (st := init progs) (ss := sstate0) (k := 0) as (ss & Hs & M & N).
  - intros k c ss c' ss' e E [M N]. pose proof (edge_mu _ _ _ (proj1 (sstep_edge _ _ _ _ _ _ _ _ E))).
    split; [lia | intro Hw; exact (sstep_not_stuck _ _ _ _ _ _ _ _ Hw E (N Hw))].
  - exact (init_component _ _ _ Hp).
  - split; [unfold steps_bound; cbn; lia | discriminate].
  - exists ss. split; [exact Hs|]. unfold is_done. destruct (ph ss) as [| |v []|v|] eqn:Eph; cbn [mu] in M; auto; try lia.
    right. split; [reflexivity|]. destruct (script_has_wait p); [reflexivity | now destruct N].
Qed.

(* a script that has replaced its PATH by a directory of its own cannot run (or see through [exec:...])
   any program of the host: the answer is a matter of its own files only, whatever the host's PATH and
   whatever is installed there *)
Lemma narrowed_path_hides_host cfg cfg' s t sub prog :
  look cfg s t (VOwnPath s sub None) prog = is_exec t (sub ++ [prog]) /\
  look cfg s t (VOwnPath s sub None) prog = look cfg' s t (VOwnPath s sub None) prog.
Proof. cbn [look]. rewrite Nat.eqb_refl, !orb_false_r. cbn. split; reflexivity. Qed.

Lemma exec_outcome cfg s c ss neg prog :
  exec_action cfg s c ss (AExec neg prog)
  = (c, ss, if Bool.eqb (look cfg s (tr ss) (path_value (senv ss)) prog) neg then OFail else OCont).
Proof. cbn [exec_action]. destruct (look _ _ _ _ _), neg; reflexivity. Qed.

Lemma sinv_setup_ok cfg p s ss : sinv cfg p s ss -> setup_ok cfg p s ss.
Proof.
  unfold sinv, live. destruct (ph ss) as [| |v []|v|]; try tauto. intros (E & _). left. now rewrite E.
Qed.

Lemma in_setup_events e t o l : In (EvSetup e t o) l -> In (e, t, o) (setup_events l).
Proof. intro H. unfold setup_events. apply in_flat_map. exists (EvSetup e t o). split; [exact H | now left]. Qed.

Lemma setup_event_is_initial cfg progs sched s p ss e t o :
  nth_error progs s = Some p -> nth_error (scripts (run cfg progs (init progs) sched)) s = Some ss ->
  In (EvSetup e t o) (obs ss) ->
  e = setup_env (hostenv cfg) s (setup_keep p) (setup_adds p) /\ setup_result cfg p = Some t
  /\ o = escapes_of cfg p.
Proof.
  intros Hp Hs Hin. apply in_setup_events in Hin.
  destruct (sinv_setup_ok _ _ _ _ (reachable_sinv _ _ _ _ _ _ Hp Hs)) as [SU|(t0 & Et & SU)];
    rewrite SU in Hin; [destruct Hin|]. destruct Hin as [[= <- <- <-]|[]]. auto.
Qed.

Lemma env_from_scratch cfg progs sched s p ss e t o :
  nth_error progs s = Some p -> nth_error (scripts (run cfg progs (init progs) sched)) s = Some ss ->
  In (EvSetup e t o) (obs ss) ->
  e = setup_env (hostenv cfg) s (setup_keep p) (setup_adds p)
  /\ (setup_keep p = None ->
      map fst e = map fst setup_env_head ++ passthrough_present (hostenv cfg) ++ map fst setup_env_tail ++ map fst (setup_adds p))
  /\ (forall k, In k (map fst e) ->
        (In k (map fst setup_env_head ++ passthrough_present (hostenv cfg) ++ map fst setup_env_tail)
         /\ match setup_keep p with Some l => name_in l k = true | None => True end)
        \/ In k (map fst (setup_adds p)))
  /\ (forall h', (forall n, In n host_reads -> host_get h' n = host_get (hostenv cfg) n) ->
                 setup_env h' s (setup_keep p) (setup_adds p) = e).
Proof.
  intros Hp Hs Hin. destruct (setup_event_is_initial _ _ _ _ _ _ _ _ _ Hp Hs Hin) as (-> & _ & _).
  split; [reflexivity|]. split; [|split].
  - intros ->. rewrite setup_env_none, initial_env_names. unfold documented_names. now rewrite <- !app_assoc.
  - intros k Hk. exact (setup_env_names _ _ _ _ _ Hk).
  - intros h' H. now apply setup_env_indep.
Qed.

Lemma setup_result_corrected cfg p t :
  names_see_env cfg = true -> names_contained cfg = true -> setup_result cfg p = Some t ->
  esc_index p = None /\ setup_tree (is_root cfg) (archive p) = Some t /\ escapes_of cfg p = [].
Proof.
  intros Hn Hc. unfold setup_result, setup_rejected, escapes_of, effective_files, esc_paths, kept. rewrite Hn, Hc.
  destruct (esc_index p); cbn; [discriminate|]. intro H. auto.
Qed.

(* the statement tied to the generated constants: it goes through only if setup() makes the
   initial variables visible before it expands the entry names, and refuses names that leave the
   work directory *)
Lemma workdir_exact cfg progs sched s p ss e t o :
  names_see_env cfg = entry_names_see_env -> names_contained cfg = entry_names_contained ->
  nth_error progs s = Some p -> nth_error (scripts (run cfg progs (init progs) sched)) s = Some ss ->
  In (EvSetup e t o) (obs ss) ->
  o = [] /\ esc_index p = None /\ forall q, tree_get t q = expected_node (archive p) q.
Proof.
  intros Hn Hc Hp Hs Hin. destruct (setup_event_is_initial _ _ _ _ _ _ _ _ _ Hp Hs Hin) as (_ & Ht & ->).
  destruct (setup_result_corrected cfg p t Hn Hc Ht) as (E1 & E2 & E3).
  split; [exact E3|]. split; [exact E1|]. exact (setup_tree_exact _ _ _ E2).
Qed.

(* a script with an escaping entry name never gets past setup: it fails, with nothing written outside *)
Lemma escaping_name_fails_setup cfg p s c :
  names_contained cfg = entry_names_contained -> esc_index p <> None ->
  exists t, snd (fst (sstep cfg p s c sstate0))
            = {| ph := Ending VSetupFail SDefers; cwd := []; senv := []; tr := t; wpresent := true;
                 dstack := []; bgl := []; failedf := false; obs := [] |}.
Proof.
  intros Hc He. unfold sstep, setup_result, setup_rejected. cbn [ph sstate0]. rewrite Hc.
  destruct (esc_index p); [|contradiction]. cbn. eexists. reflexivity.
Qed.

(* with the entry names expanded before the environment exists (the code before the repair) a
   file named $WORK/f is not in the work directory: it is unpacked outside *)
Lemma unexpanded_names_refuted :
  exists cfg p ss e t o,
    names_see_env cfg = false /\
    snd (fst (sstep cfg p 0 [] sstate0)) = ss /\ In (EvSetup e t o) (obs ss) /\
    o <> [] /\ exists q, tree_get t q <> expected_node (archive p) q.
Proof.
  exists {| retain := false; key_by_path := true; names_see_env := false; names_contained := true; empty_cleans := true; continue_on_error := false; has_cancel := false; pwd_appended := true; precancel_guarded := true; is_root := true;
            hostenv := []; hosttab := []; helper := [] |},
         {| archive := [([[x66]], [x31])]; work_named := [[[x66]]]; escaping_at := None; setup_keep := None; setup_adds := []; setup_defers := [];
            setup_err := false; body := [] |}.
  do 4 eexists. split; [reflexivity|]. split; [reflexivity|]. split; [cbn; left; reflexivity|].
  split; [discriminate|]. exists [[x66]]. vm_compute. discriminate.
Qed.

(* with escaping names written where they say (the code before the repair) the archive of one
   script puts a file outside its work directory *)
Lemma uncontained_names_refuted :
  exists cfg p ss e t o,
    names_contained cfg = false /\ names_see_env cfg = true /\
    snd (fst (sstep cfg p 0 [] sstate0)) = ss /\ In (EvSetup e t o) (obs ss) /\ o <> [].
Proof.
  exists {| retain := false; key_by_path := true; names_see_env := true; names_contained := false; empty_cleans := true;
            continue_on_error := false; has_cancel := false; pwd_appended := true; precancel_guarded := true; is_root := true; hostenv := []; hosttab := []; helper := [] |},
         {| archive := [([[x66]], [x31]); ([[x2e; x2e]; [x78]], [x32])]; work_named := []; escaping_at := Some 1; setup_keep := None;
            setup_adds := []; setup_defers := []; setup_err := false; body := [] |}.
  do 4 eexists. split; [reflexivity|]. split; [reflexivity|]. split; [reflexivity|]. split; [cbn; left; reflexivity|].
  discriminate.
Qed.

(* RunT without any script: the root is removed at once (unless retention was asked for) *)
Lemma empty_batch_leaves_nothing cfg :
  empty_cleans cfg = empty_batch_removes_root -> retain cfg = false ->
  root_present (sh (start cfg [])) = false /\ root_removals (sh (start cfg [])) = 1
  /\ cancelled (sh (start cfg [])) = has_cancel cfg.
Proof.
  intros He Hr. unfold start. rewrite He, Hr. cbn. auto.
Qed.

Lemma start_nonempty cfg progs : precancel_guarded cfg = true -> progs <> [] -> start cfg progs = init progs.
Proof. intros Hg. destruct progs; [contradiction | cbn [start]; now rewrite Hg]. Qed.

Lemma empty_batch_refuted :
  exists cfg, empty_cleans cfg = false /\ retain cfg = false /\ root_present (sh (start cfg [])) = true.
Proof.
  exists {| retain := false; key_by_path := true; names_see_env := true; names_contained := true; empty_cleans := false;
            continue_on_error := false; has_cancel := false; pwd_appended := true; precancel_guarded := true; is_root := true; hostenv := []; hosttab := []; helper := [] |}.
  repeat split.
Qed.

Lemma unpack_partial_of_success root files : forall t0 t,
  unpack root t0 files = Some t -> unpack_partial root t0 files = t.
Proof.
  induction files as [|[q d] r IH]; intros t0 t H; cbn [unpack unpack_partial] in *.
  - now injection H.
  - destruct (mkdir_all root t0 (removelast q)) as [t1|]; [|discriminate].
    destruct (write_file root t1 q d) as [t2|]; [|discriminate]. now apply IH.
Qed.

(* what the invariant says of a finished script *)
Lemma sinv_done cfg p s ss v :
  sinv cfg p s ss -> ph ss = Done v ->
  defers_done ss /\ bgl ss = [] /\ bgok ss /\ (retain cfg = false -> wpresent ss = false /\ tr ss = []).
Proof.
  unfold sinv. intros PH Hd. rewrite Hd in PH. destruct PH as (B & _ & DD & Hb & K).
  split; [exact DD|]. split; [exact Hb|]. split; [exact B|]. intro Hr. now rewrite Hr in K.
Qed.

Lemma defers_lifo_all_paths cfg progs sched s p ss v :
  nth_error progs s = Some p -> nth_error (scripts (run cfg progs (init progs) sched)) s = Some ss ->
  ph ss = Done v ->
  defer_runs (obs ss) = rev (defer_regs (obs ss)) /\ dstack ss = [].
Proof.
  intros Hp Hs Hd. exact (proj1 (sinv_done _ _ _ _ _ (reachable_sinv _ _ _ _ _ _ Hp Hs) Hd)).
Qed.

Lemma no_bg_left cfg progs sched s p ss v :
  nth_error progs s = Some p -> nth_error (scripts (run cfg progs (init progs) sched)) s = Some ss ->
  ph ss = Done v ->
  bgl ss = [] /\ forall h, In h (bg_started (obs ss)) -> In h (bg_gone (obs ss)) /\ In h (bg_waited (obs ss)).
Proof.
  intros Hp Hs Hd. destruct (sinv_done _ _ _ _ _ (reachable_sinv _ _ _ _ _ _ Hp Hs) Hd) as (_ & Hb & B & _).
  split; [exact Hb|]. intros h Hh. destruct (B h Hh) as [Hin|H]; [|exact H].
  rewrite Hb in Hin. destruct Hin.
Qed.

Lemma all_done_count st : all_done st = true <-> not_done_count (scripts st) = 0.
Proof. unfold all_done. symmetry. apply not_done_count_zero. Qed.

Lemma refcount_root cfg progs sched :
  retain cfg = false -> progs <> [] ->
  let st := run cfg progs (init progs) sched in
  refcount (sh st) = not_done_count (scripts st)
  /\ (all_done st = false -> root_present (sh st) = true /\ root_removals (sh st) = 0 /\ cancelled (sh st) = false)
  /\ (all_done st = true -> root_present (sh st) = false /\ root_removals (sh st) = 1 /\ cancelled (sh st) = has_cancel cfg)
  /\ (forall s ss, nth_error (scripts st) s = Some ss -> is_done ss = true -> wpresent ss = false /\ tr ss = []).
Proof.
  intros Hr Hne st.
  destruct (run_invariant cfg progs _ (fun st s => rc_inv_step cfg progs st s Hr) sched _ (rc_inv_init cfg progs Hne)) as [R1 R2].
  fold st in R1, R2. split; [exact R1|]. split; [|split].
  - intro Hd. destruct (Nat.eqb (refcount (sh st)) 0) eqn:E; [|exact R2].
    apply Nat.eqb_eq in E. rewrite R1 in E. apply all_done_count in E. congruence.
  - intro Hd. apply all_done_count in Hd. rewrite <- R1 in Hd. rewrite Hd in R2. exact R2.
  - intros s ss Hs Hd. destruct (reachable_component _ _ _ _ _ Hs) as (p & _ & PH).
    unfold is_done in Hd. destruct (ph ss) as [| | |v|] eqn:Eph; try discriminate.
    now apply (sinv_done _ _ _ _ v PH Eph).
Qed.

Lemma retention_keeps_everything cfg progs sched :
  retain cfg = true ->
  let st := run cfg progs (init progs) sched in
  root_present (sh st) = true /\ root_removals (sh st) = 0 /\ cancelled (sh st) = false
  /\ (forall s ss, nth_error (scripts st) s = Some ss -> ph ss <> NotStarted ->
                   wpresent ss = true /\ work_removed (obs ss) = []).
Proof.
  intros Hr st.
  destruct (run_invariant cfg progs _ (fun st s => keep_inv_step cfg progs st s Hr) sched (init progs)) as (K1 & K2 & K3);
    [now repeat split|]. fold st in K1, K2, K3. split; [exact K1|]. split; [exact K2|]. split; [exact K3|].
  intros s ss Hs Hn. destruct (reachable_component _ _ _ _ _ Hs) as (p & _ & PH). unfold sinv, live in PH.
  destruct (ph ss) as [| |v []|v|]; rewrite ?Hr in PH; tauto.
Qed.

Lemma prog_only_key_refuted :
  exists cfg progs sched1 sched2 s,
    key_by_path cfg = false /\ (forall s p, nth_error progs s = Some p -> wf_script s p) /\
    (forall s', s' < length progs -> option_map is_done (nth_error (scripts (run cfg progs (init progs) sched1)) s') = Some true
                                     /\ option_map is_done (nth_error (scripts (run cfg progs (init progs) sched2)) s') = Some true) /\
    verdict_of (run cfg progs (init progs) sched1) s <> verdict_of (run cfg progs (init progs) sched2) s.
Proof.
  exists cfg_prog_key, [script_A; script_B], (repeat 0 12 ++ repeat 1 12), (repeat 1 12 ++ repeat 0 12), 0.
  split; [reflexivity|]. split.
  - intros [|[|s]] p H; cbn in H; [injection H as <-; constructor | injection H as <-; constructor | destruct s; discriminate].
  - split.
    + intros [|[|s']] H; cbn in H; try lia; vm_compute; split; reflexivity.
    + destruct prog_key_order_dependent as (H1 & _ & H3 & _). cbv zeta in H1, H3. rewrite H1, H3. discriminate.
Qed.

Definition ex_cfg : config :=
  {| retain := false; key_by_path := true; names_see_env := true; names_contained := true; empty_cleans := true; continue_on_error := false; has_cancel := true; pwd_appended := true; precancel_guarded := true; is_root := false;
     hostenv := [(PATH, [x2f; x62]); ([x47; x4f; x52; x41; x43; x45], [x78]); ([x43; x41; x4e; x41; x52; x59], [x31])];
     hosttab := [(([x2f; x62], [x68]), true)]; helper := [x68] |}.
Definition ex_script (b : list action) : script :=
  {| archive := [([[x61]], [x31]); ([[x77]], [x32])]; work_named := [[[x77]]]; escaping_at := None; setup_keep := None; setup_adds := [([x58], VWork 0 [[x67]])]; setup_defers := [(7, false)]; setup_err := false; body := b |}.
Definition ex_progs : list script :=
  [ ex_script [ADefer 1 false; ABg 1 false; ADefer 2 false; AProbe];
    ex_script [ADefer 1 false; ABg 1 false; AFail; ADefer 2 false];
    ex_script [ADefer 1 false; ABg 1 true; ASkip];
    ex_script [ABg 1 false; ADefer 1 false; AStop; AFail];
    {| archive := [([[x61]], [x31]); ([[x61]; [x62]], [x32])]; work_named := []; escaping_at := None; setup_keep := None; setup_adds := []; setup_defers := []; setup_err := false; body := [] |};
    ex_script [ADefer 1 true; ADefer 2 false; ABg 3 false];
    ex_script [AMkdir [[x64]] true; AWrite [[x64]; [x66]] [x31]] ].

Example every_exit_path_occurs :
  let st := run ex_cfg ex_progs (init ex_progs) (round_robin 7 12) in
  map ph (scripts st) = [Done VPass; Done VFail; Done VSkip; Done VStop; Done VSetupFail; Done VPanic; Done VFail]
  /\ map (fun ss => defer_runs (obs ss)) (scripts st) = [[2; 1; 7]; [1; 7]; [1; 7]; [1; 7]; []; [2; 1; 7]; [7]]
  /\ map (fun ss => (bg_started (obs ss), bg_gone (obs ss), bg_waited (obs ss))) (scripts st)
     = [([1], [1], [1]); ([1], [1], [1]); ([1], [1], [1]); ([1], [1], [1]); ([], [], []); ([3], [3], [3]); ([], [], [])]
  /\ root_present (sh st) = false /\ root_removals (sh st) = 1 /\ cancelled (sh st) = true.
Proof. vm_compute. repeat split. Qed.

Example continue_on_error_example :
  (* ContinueOnError: a failing line, then more lines, then skip: the run fails; kill + wait with a
     negated background line is accepted *)
  let cfg := {| retain := false; key_by_path := true; names_see_env := true; names_contained := true; empty_cleans := true;
                continue_on_error := true; has_cancel := false; pwd_appended := true; precancel_guarded := true; is_root := true; hostenv := hostenv ex_cfg;
                hosttab := hosttab ex_cfg; helper := [x68] |} in
  let progs := [ex_script [AFail; ADefer 1 false; AProbe; ASkip]; ex_script [ABg 1 true; AKillWait; AProbe];
                ex_script [ABg 1 false; AKill; AFail; AStop]] in
  let st := run cfg progs (init progs) (round_robin 3 14) in
  map ph (scripts st) = [Done VFail; Done VPass; Done VFail]
  /\ map (fun ss => length (filter (fun e => match e with EvProbe _ _ _ => true | _ => false end) (obs ss))) (scripts st) = [1; 1; 0]
  /\ map (fun ss => defer_runs (obs ss)) (scripts st) = [[1; 7]; [7]; [7]].
Proof. vm_compute. repeat split. Qed.

Example bare_wait_example :
  (* `wait` with a command that has exited with a failure (handle 100) before one that still runs
     (handle 1): the line fails, and the end of run still interrupts and waits for the second; a
     bare wait on a running command alone is stuck for ever *)
  let progs := [ex_script [ABg 100 false; ABg 1 false; AWait; AProbe]; ex_script [ABg 100 true; AWait; AProbe];
                ex_script [ABg 1 false; AWait]] in
  let st := run ex_cfg progs (init progs) (round_robin 3 14) in
  map ph (scripts st) = [Done VFail; Done VPass; Stuck]
  /\ map (fun ss => (bg_started (obs ss), bg_gone (obs ss), bg_waited (obs ss))) (scripts st)
     = [([100; 1], [100; 100; 1], [100; 100; 1]); ([100], [100], [100]); ([1], [], [])].
Proof. vm_compute. repeat split. Qed.

Example wf_example : forall s p, nth_error [ex_script [AProbe]] s = Some p -> wf_script s p.
Proof. intros [|s] p H; cbn in H; [|destruct s; discriminate]. injection H as <-. repeat constructor. Qed.

Lemma env_get_snoc e k v k' :
  env_get (e ++ [(k, v)]) k' = if bytes_eqb k k' then Some v else env_get e k'.
Proof. unfold env_get. rewrite rev_app_distr. reflexivity. Qed.

(* With append(ts.env, "PWD="+ts.cd) - what the generated constant says the source does - the
   environment of a program is the script's own list followed by PWD: never empty (so os/exec never
   substitutes the environment of the test process), PWD is the directory the program runs in whatever
   the script has set PWD to, and every other name has the value the script gave it. *)
Lemma child_env_scratch cfg s cd e :
  pwd_appended cfg = exec_env_appends_pwd ->
  child_env cfg s cd e = e ++ [(PWD, VWork s cd)]
  /\ child_env cfg s cd e <> []
  /\ env_get (child_env cfg s cd e) PWD = Some (VWork s cd)
  /\ (forall k, bytes_eqb PWD k = false -> env_get (child_env cfg s cd e) k = env_get e k).
Proof.
  intro H. unfold child_env. rewrite H. cbn [exec_env_appends_pwd]. split; [reflexivity|]. split; [now destruct e|]. split.
  - rewrite env_get_snoc. now rewrite (proj2 (bytes_eqb_eq PWD PWD) eq_refl).
  - intros k Hk. now rewrite env_get_snoc, Hk.
Qed.

(* With ts.env passed as it is, a script whose Setup keeps no variable hands every program the whole
   environment of the test process. *)
Lemma child_env_without_pwd_refuted :
  exists cfg p s canary v,
    pwd_appended cfg = false /\ ~ In canary host_reads /\
    env_get (child_env cfg s [] (setup_env (hostenv cfg) s (setup_keep p) (setup_adds p))) canary = Some (VLit v)
    /\ v <> [].
Proof.
  exists {| retain := false; key_by_path := true; names_see_env := true; names_contained := true; empty_cleans := true;
            continue_on_error := false; has_cancel := false; pwd_appended := false; precancel_guarded := true; is_root := true;
            hostenv := hostenv ex_cfg; hosttab := []; helper := [] |},
         {| archive := []; work_named := []; escaping_at := None; setup_keep := Some []; setup_adds := []; setup_defers := [];
            setup_err := false; body := [AProbe] |}, 0, [x43; x41; x4e; x41; x52; x59], [x31].
  split; [reflexivity|]. split.
  - vm_compute. intros H. repeat (destruct H as [H|H]; [discriminate H|]). exact H.
  - split; [vm_compute; reflexivity | discriminate].
Qed.

Example child_env_example :
  (* Setup keeps nothing: the program sees PWD only; after cd and env PWD=x it still sees the directory it runs in *)
  let p := {| archive := [([[x64]; [x61]], [x31])]; work_named := []; escaping_at := None; setup_keep := Some []; setup_adds := [];
              setup_defers := []; setup_err := false; body := [AProbe; ACd [[x64]]; ASetenv PWD [x78]; AProbe] |} in
  let st := run ex_cfg [p] (init [p]) (round_robin 1 12) in
  map (fun ss => flat_map (fun e => match e with EvProbe c e _ => [(c, e)] | _ => [] end) (obs ss)) (scripts st)
  = [[([], [(PWD, VWork 0 [])]); ([[x64]], [(PWD, VLit [x78]); (PWD, VWork 0 [[x64]])])]].
Proof. vm_compute. reflexivity. Qed.

Lemma verdict_of_marks_same c v : verdict_of_marks v (catch_failnow c (marks_of v)) = v.
Proof. destruct v; reflexivity. Qed.

(* functions that all return leave the marks alone *)
Lemma fold_after_defer_ret d m :
  (forall x, In x d -> defer_end x = DRet) -> fold_left after_defer (map defer_end d) m = m.
Proof.
  revert m. induction d as [|x d IH]; intros m H; [reflexivity|]. cbn [map fold_left].
  rewrite (H x (or_introl eq_refl)). apply IH. intros y Hy. apply H. now right.
Qed.

(* the failed mark is never cleared, and it is FailNow / Fatal that sets it *)
Lemma fold_after_defer_m_failed l : forall m,
  m_failed (fold_left after_defer l m)
  = m_failed m || existsb (fun e => match e with DFailNow => true | _ => false end) l.
Proof.
  induction l as [|e l IH]; intro m; cbn [fold_left existsb]; [now rewrite orb_false_r|].
  rewrite IH. destruct e; cbn; now rewrite ?orb_true_r.
Qed.

Lemma catch_failnow_failed c m : m_failed m = true -> m_failed (catch_failnow c m) = true.
Proof. intro H. unfold catch_failnow. destruct (m_panic m); try exact H. destruct c; [reflexivity | exact H]. Qed.

Definition is_failure (v : verdict) : bool :=
  match v with VFail | VSetupFail | VPanic => true | _ => false end.

(* a failure is never lost: a run that failed, or one of whose deferred functions calls FailNow / Fatal,
   ends as a failure (or a panic) whatever the other deferred functions do - skip, panic, fail *)
Lemma defers_verdict_keeps_failure d v :
  (v = VFail \/ v = VSetupFail \/ exists x, In x d /\ defer_end x = DFailNow) ->
  is_failure (defers_verdict d v) = true.
Proof.
  intro H. unfold defers_verdict, defers_verdict_gen.
  assert (F : m_failed (catch_failnow deferred_failnow_caught (fold_left after_defer (map defer_end d) (marks_of v))) = true).
  { apply catch_failnow_failed. rewrite fold_after_defer_m_failed.
    destruct H as [->|[->|(x & Hx & E)]]; [reflexivity..|]. apply orb_true_iff. right. apply existsb_exists.
    exists (defer_end x). split; [now apply in_map | now rewrite E]. }
  unfold verdict_of_marks. rewrite F. destruct (m_panicking _); [reflexivity|]. now destruct v.
Qed.

(* Deferred functions that return or end with ts.Fatalf / ts.Check(err), at least one of the latter:
   the failNow panic is on its way when the chain is through, whatever was on its way before. *)
Lemma fold_after_defer_fatalf l : forall m,
  (forall e, In e l -> e = DRet \/ e = DFatalf) -> m_panic m = PFailNow \/ In DFatalf l ->
  m_panic (fold_left after_defer l m) = PFailNow
  /\ m_skipped (fold_left after_defer l m) = m_skipped m.
Proof.
  induction l as [|e l IH]; intros m H Hin; [now destruct Hin|]. cbn [fold_left].
  destruct (IH (after_defer m e)) as [P S]; [intros e' He'; apply H; now right | |].
  - destruct (H e (or_introl eq_refl)) as [-> | ->]; [|now left].
    destruct Hin as [Hm|[Hd|Hd]]; [now left | discriminate | now right].
  - split; [exact P|]. rewrite S. now destruct (H e (or_introl eq_refl)) as [-> | ->].
Qed.

Definition failed_verdict (v : verdict) : verdict := match v with VSetupFail => VSetupFail | _ => VFail end.

(* ... and run() turns it into t.FailNow(): the run is reported failed - not a panic, not a pass, not a
   skip - whatever its verdict was going to be (a panic of a custom command included: the new panic took
   its place). *)
Lemma defers_verdict_fatalf d v :
  (forall x, In x d -> defer_end x = DRet \/ defer_end x = DFatalf) ->
  (exists x, In x d /\ defer_end x = DFatalf) ->
  defers_verdict d v = failed_verdict v.
Proof.
  intros H (x & Hx & Ex). unfold defers_verdict, defers_verdict_gen.
  destruct (fold_after_defer_fatalf (map defer_end d) (marks_of v)) as [P S].
  - intros e He. apply in_map_iff in He as (y & <- & Hy). now apply H.
  - right. rewrite <- Ex. now apply in_map.
  - unfold catch_failnow. rewrite P. change deferred_failnow_caught with true. cbv iota.
    unfold verdict_of_marks, m_panicking. cbn [m_panic m_failed]. reflexivity.
Qed.

(* The step of run() that runs the deferred functions: whatever the functions do, every one of them
   runs, most recent first, the stack is emptied, nothing else of the script changes (environment,
   files, background commands: those are dealt with next, as on every path) - only the verdict depends
   on how they end (with functions that return or end in Fatalf it is a failure: defers_verdict_fatalf). *)
Lemma sstep_defers cfg p s c ss v :
  ph ss = Ending v SDefers ->
  sstep cfg p s c ss
  = (c, set_ph (set_dstack (add_obs ss (map (fun d => EvDeferRun (fst d)) (dstack ss))) []) (Ending (defers_verdict (dstack ss) v) SBgClean), NoEffect).
Proof. intro H. unfold sstep. now rewrite H. Qed.

(* Without the catch (the code before the repair) the failNow panic escapes RunT: under testing.T the
   test binary dies of it. *)
Lemma uncaught_fatalf_refuted :
  exists d v, (forall x, In x d -> defer_end x = DRet \/ defer_end x = DFatalf) /\ v = VPass /\
    defers_verdict_gen false d v = VPanic /\ defers_verdict_gen true d v = VFail.
Proof. exists [(1, false); (400, false)], VPass. split; [|repeat split].
  intros x [<-|[<-|[]]]; [now left | now right]. Qed.

Example defers_verdict_examples :
  (* run order: the first of the list runs first.  A panic after a Skip is seen by the caller; a Skip after
     a panic aborts the panic; FailNow sticks; Fatalf fails the run, also after a panic of a command, but a
     Skip called by a function that runs after it aborts it like any other panic *)
  defers_verdict [(300, false); (7, true)] VPass = VPanic
  /\ defers_verdict [(7, true); (300, false)] VPass = VSkip
  /\ defers_verdict [(7, true); (300, false)] VFail = VFail
  /\ defers_verdict [(200, false); (300, false)] VStop = VFail
  /\ defers_verdict [(300, false)] VPanic = VSkip
  /\ defers_verdict [(1, false); (2, false)] VStop = VStop
  /\ defers_verdict [(2, false); (400, false); (1, false)] VPass = VFail
  /\ defers_verdict [(400, false)] VPanic = VFail
  /\ defers_verdict [(400, false); (7, true)] VPass = VPanic
  /\ defers_verdict [(400, false); (300, false)] VPass = VSkip.
Proof. vm_compute. repeat split. Qed.

Example fatalf_in_deferred_example :
  (* a.txt: a function registered by the script ends with ts.Fatalf, between two that return, a
     background command running; b.txt next to it with a background command of its own: a is reported
     failed (not a panic), all three functions of a (and Setup's) have run in reverse order, both
     background commands were interrupted and waited for, b passes, both work directories and the root
     are gone; the same as with a failing line in place of the Fatalf *)
  let a := ex_script [ADefer 1 false; ADefer 400 false; ABg 1 false; ADefer 2 false; AProbe] in
  let a' := ex_script [ADefer 1 false; ADefer 3 false; ABg 1 false; ADefer 2 false; AProbe; AFail] in
  let b := ex_script [ABg 1 true; AProbe] in
  let st := run ex_cfg [a; b] (init [a; b]) (round_robin 2 12) in
  let st' := run ex_cfg [a'; b] (init [a'; b]) (round_robin 2 12) in
  map ph (scripts st) = [Done VFail; Done VPass] /\ map ph (scripts st') = [Done VFail; Done VPass]
  /\ map (fun ss => defer_runs (obs ss)) (scripts st) = [[2; 400; 1; 7]; [7]]
  /\ map (fun ss => (bg_started (obs ss), bg_gone (obs ss), bg_waited (obs ss), wpresent ss, tr ss)) (scripts st)
     = map (fun ss => (bg_started (obs ss), bg_gone (obs ss), bg_waited (obs ss), wpresent ss, tr ss)) (scripts st')
  /\ map (fun ss => (bg_started (obs ss), bg_gone (obs ss), bg_waited (obs ss), wpresent ss, tr ss)) (scripts st)
     = [([1], [1], [1], false, []); ([1], [1], [1], false, [])]
  /\ root_present (sh st) = false /\ root_removals (sh st) = 1.
Proof. vm_compute. repeat split. Qed.

Example abnormal_defers_example :
  (* deferred functions that fail, skip and panic, runs left early by a failing line and by T.Skip /
     T.FailNow from a custom command, with a background command still running (one started by its path
     with no PATH at all): every function runs, in reverse order, and every command is interrupted and
     waited for *)
  let p0 := ex_script [ADefer 200 false; ABg 1 false; ADefer 2 false; AFail] in
  let p1 := ex_script [ADefer 300 false; ABg 1 false; ATSkip] in
  let p2 := ex_script [ADefer 3 true; ABg 1 false; ATFail] in
  let p3 := {| archive := []; work_named := []; escaping_at := None; setup_keep := Some []; setup_adds := [];
               setup_defers := [(301, false)]; setup_err := false; body := [ABg 30 true; ABg 1 true; AProbe] |} in
  let progs := [p0; p1; p2; p3] in
  let st := run ex_cfg progs (init progs) (round_robin 4 12) in
  map ph (scripts st) = [Done VFail; Done VSkip; Done VPanic; Done VSkip]
  /\ map (fun ss => defer_runs (obs ss)) (scripts st) = [[2; 200; 7]; [300; 7]; [3; 7]; [301]]
  /\ map (fun ss => (bg_started (obs ss), bg_gone (obs ss), bg_waited (obs ss))) (scripts st)
     = [([1], [1], [1]); ([1], [1], [1]); ([1], [1], [1]); ([30], [30], [30])].
Proof. vm_compute. repeat split. Qed.

(* Outside the subtests RunT cancels the context (and removes the root) only when there is no script -
   what the generated constant says about the source.  Then, with or without retention, the context is
   not cancelled while a script is unfinished: a script that finishes before the deadline never meets
   a context that is done.  (This and the refutation below are the statements of C17 about the context.) *)
Lemma context_lives_while_scripts_run cfg progs sched :
  precancel_guarded cfg = early_cleanup_only_without_scripts -> progs <> [] ->
  let st := run cfg progs (start cfg progs) sched in
  all_done st = false -> cancelled (sh st) = false.
Proof.
  intros Hg Hne. rewrite (start_nonempty cfg progs Hg Hne). cbv zeta. intro Hd. destruct (retain cfg) eqn:Er.
  - now destruct (retention_keeps_everything cfg progs sched Er) as (_ & _ & C & _).
  - destruct (refcount_root cfg progs sched Er Hne) as (_ & H & _). now destruct (H Hd) as (_ & _ & C).
Qed.

(* With a cancel() that RunT itself runs under some retention setting although there are scripts, it
   is false: every script starts under a context that is already done. *)
Lemma precancel_refuted :
  exists cfg progs, precancel_guarded cfg = false /\ has_cancel cfg = true /\ retain cfg = true /\ progs <> [] /\
    all_done (start cfg progs) = false /\ cancelled (sh (start cfg progs)) = true.
Proof.
  exists {| retain := true; key_by_path := true; names_see_env := true; names_contained := true; empty_cleans := true;
            continue_on_error := false; has_cancel := true; pwd_appended := true; precancel_guarded := false; is_root := true;
            hostenv := []; hosttab := []; helper := [] |}, [ex_script [AProbe]].
  repeat split; try reflexivity. discriminate.
Qed.

Example context_lives_example :
  (* seven scripts under retention (-testwork) with a deadline: after every prefix of the schedule the
     context is still alive; without retention it is cancelled exactly when the last one has finished *)
  let cfg := {| retain := true; key_by_path := true; names_see_env := true; names_contained := true; empty_cleans := true;
                continue_on_error := false; has_cancel := true; pwd_appended := true; precancel_guarded := true; is_root := false;
                hostenv := hostenv ex_cfg; hosttab := hosttab ex_cfg; helper := [x68] |} in
  forallb (fun k => negb (cancelled (sh (run cfg ex_progs (start cfg ex_progs) (firstn k (round_robin 7 12)))))) (seq 0 85) = true
  /\ cancelled (sh (run ex_cfg ex_progs (start ex_cfg ex_progs) (round_robin 7 12))) = true.
Proof. vm_compute. split; reflexivity. Qed.

(* T.Skip / T.FailNow / T.Fatal called by a custom command leave the line through runtime.Goexit: the
   script goes straight to its deferred functions with its background commands untouched - which the
   end of run() then interrupts and waits for (no_bg_left holds for every script) *)
Lemma ended_through_t cfg p s c ss pc a :
  ph ss = Running pc -> nth_error (body p) pc = Some a -> (a = ATSkip \/ a = ATFail) ->
  sstep cfg p s c ss = (c, set_ph ss (Ending (match a with ATSkip => VSkip | _ => VFail end) SDefers), NoEffect).
Proof. intros Hph Ha [->| ->]; unfold sstep; rewrite Hph, Ha; reflexivity. Qed.

(* a background command started by the path of its program needs no PATH *)
Lemma bg_by_path_starts cfg s c ss h neg :
  bg_by_path h = true ->
  exec_action cfg s c ss (ABg h neg) = (c, add_obs (set_bgl ss (bgl ss ++ [(h, neg)])) [EvBgStart h], OCont).
Proof. intro H. cbn [exec_action]. now rewrite H. Qed.

Example ended_through_t_example :
  let p := ex_script [ABg 1 false; ATSkip; AFail] in
  let st := run ex_cfg [p] (init [p]) (round_robin 1 12) in
  map ph (scripts st) = [Done VSkip]
  /\ map (fun ss => (bg_started (obs ss), bg_gone (obs ss), bg_waited (obs ss), defer_runs (obs ss))) (scripts st) = [([1], [1], [1], [7])].
Proof. vm_compute. split; reflexivity. Qed.
