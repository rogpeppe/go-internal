(* C04 — lemmas about TsCleanup.v: removeAll of a directory changes nothing outside it (when the
   mode is changed for directories only), removes everything below it (for root, and for an owner
   whose parent directory is writable), and does change a link target outside when every entry is
   chmod'ed.  At the end, `rm` and `symlink` in the per-script tree of TsBatch.v. *)
From Coq Require Import List Bool Arith NArith Lia.
From Coq.Strings Require Import Byte.
From GI Require Import Lib.Bytes Lib.BytesFacts Gen.TsBatchConsts TsBatch.TsBatch TsBatch.TsBatchFacts TsBatch.TsCleanup.
Import ListNotations.

Lemma path_prefix_refl p : path_prefix p p = true.
Proof. induction p as [|x p IH]; [reflexivity|]. cbn. now rewrite bytes_eqb_refl. Qed.

Lemma path_prefix_length p q : path_prefix p q = true -> length p <= length q.
Proof.
  revert q. induction p as [|x p IH]; intros [|y q] H; cbn in *; try lia; try discriminate.
  apply andb_true_iff in H as [_ H]. apply IH in H. lia.
Qed.

Lemma path_prefix_trans p q r : path_prefix p q = true -> path_prefix q r = true -> path_prefix p r = true.
Proof.
  revert q r. induction p as [|x p IH]; intros [|y q] [|z r] H1 H2; cbn in *; try reflexivity; try discriminate.
  apply andb_true_iff in H1 as [E1 H1]. apply andb_true_iff in H2 as [E2 H2].
  apply bytes_eqb_eq in E1. apply bytes_eqb_eq in E2. subst. rewrite bytes_eqb_refl. cbn. eapply IH; eauto.
Qed.

Lemma removelast_length {A} (l : list A) : l <> [] -> S (length (removelast l)) = length l.
Proof.
  induction l as [|x l IH]; [congruence|]. intros _. destruct l as [|y l]; [reflexivity|].
  cbn [removelast length] in *. rewrite IH; [reflexivity|discriminate].
Qed.

Lemma parent_not_below dir : dir <> [] -> path_prefix dir (removelast dir) = false.
Proof.
  intro H. destruct (path_prefix dir (removelast dir)) eqn:E; [|reflexivity].
  apply path_prefix_length in E. pose proof (removelast_length dir H). lia.
Qed.

Lemma parent_below dir : forall q, path_prefix dir q = true -> q <> dir -> path_prefix dir (removelast q) = true.
Proof.
  induction dir as [|x d IH]; intros q H N; [reflexivity|].
  destruct q as [|y q]; [discriminate|]. cbn [path_prefix] in H. apply andb_true_iff in H as [E H].
  destruct q as [|z q].
  - destruct d; [|discriminate]. apply bytes_eqb_eq in E. subst. congruence.
  - change (removelast (y :: z :: q)) with (y :: removelast (z :: q)). cbn [path_prefix]. rewrite E. cbn [andb].
    apply IH; [exact H|]. intro X. apply N. apply bytes_eqb_eq in E. subst. reflexivity.
Qed.

Lemma gget_filter (f : path -> bool) fs p :
  gget (filter (fun e => f (fst e)) fs) p = if f p then gget fs p else None.
Proof. exact (pget_filter f fs p). Qed.

Lemma gget_set_perm fs q m p :
  gget (gset_perm fs q m) p = if path_eqb q p then option_map (fun n => with_perm n m) (gget fs p) else gget fs p.
Proof.
  unfold gset_perm. induction fs as [|[r n] fs IH]; cbn [map gget fst snd]; [now destruct (path_eqb q p)|].
  rewrite (path_eqb_sym r q). destruct (path_eqb_spec q r) as [<-|N].
  - cbn [gget fst snd]. destruct (path_eqb q p); [reflexivity | exact IH].
  - cbn [gget]. destruct (path_eqb_spec r p) as [->|_]; [|exact IH]. apply path_eqb_neq in N. now rewrite N.
Qed.

Lemma gget_some_in fs p n : gget fs p = Some n -> exists e, In e fs /\ fst e = p.
Proof.
  induction fs as [|[r k] fs IH]; [discriminate|]. cbn [gget].
  destruct (path_eqb r p) eqn:E.
  - intros _. apply path_eqb_eq in E. exists (r, k). split; [now left|exact E].
  - intro H. destruct (IH H) as (e & He & Hp). exists e. split; [now right|exact Hp].
Qed.

(* one visit: a directory the process may chmod gets 0o777, nothing else changes *)
Lemma visit_dirs_only root mine fs q p :
  gget (visit true root mine fs q) p =
  match gget fs p with
  | Some (GDir m) => if path_eqb q p && can_chmod root mine p then Some (GDir perm_all) else Some (GDir m)
  | o => o
  end.
Proof.
  unfold visit. destruct (path_eqb q p) eqn:E.
  - apply path_eqb_eq in E. subst q. destruct (gget fs p) as [[m|m d|t]|] eqn:G; rewrite ?G; try reflexivity.
    cbn [andb]. destruct (can_chmod root mine p); [|now rewrite G]. now rewrite gget_set_perm, path_eqb_refl, G.
  - transitivity (gget fs p); [|now destruct (gget fs p) as [[]|]].
    destruct (gget fs q) as [[m|m d|t]|]; try reflexivity. destruct (can_chmod root mine q); [|reflexivity].
    now rewrite gget_set_perm, E.
Qed.

Lemma visits_dirs_only root mine l : forall fs p,
  gget (fold_left (visit true root mine) l fs) p =
  match gget fs p with
  | Some (GDir m) => if existsb (fun q => path_eqb q p) l && can_chmod root mine p then Some (GDir perm_all) else Some (GDir m)
  | o => o
  end.
Proof.
  induction l as [|q l IH]; intros fs p; cbn [fold_left existsb].
  - now destruct (gget fs p) as [[]|].
  - rewrite IH, visit_dirs_only. destruct (gget fs p) as [[m|m d|t]|]; try reflexivity.
    destruct (path_eqb q p); cbn [orb andb]; [|reflexivity].
    destruct (can_chmod root mine p); [|now rewrite andb_false_r].
    rewrite andb_true_r. now destruct (existsb _ l).
Qed.

Lemma in_entries_below fs dir p : existsb (fun q => path_eqb q p) (entries_below fs dir) = true ->
  path_prefix dir p = true.
Proof.
  unfold entries_below. intro H. apply existsb_exists in H as (q & Hq & E). apply path_eqb_eq in E. subst q.
  apply in_map_iff in Hq as (e & <- & He). apply filter_In in He as [_ He]. exact He.
Qed.

Lemma entries_below_has fs dir p n : gget fs p = Some n -> path_prefix dir p = true ->
  existsb (fun q => path_eqb q p) (entries_below fs dir) = true.
Proof.
  intros G P. destruct (gget_some_in _ _ _ G) as (e & He & <-). apply existsb_exists. exists (fst e).
  split; [|apply path_eqb_refl]. unfold entries_below. apply in_map. apply filter_In. now split.
Qed.

(* the whole pass: exactly the directories at or below dir that the process may chmod become 0o777 *)
Lemma chmod_pass_dirs_only root mine fs dir p :
  gget (chmod_pass true root mine fs dir) p =
  match gget fs p with
  | Some (GDir m) => if path_prefix dir p && can_chmod root mine p then Some (GDir perm_all) else Some (GDir m)
  | o => o
  end.
Proof.
  unfold chmod_pass. rewrite visits_dirs_only. destruct (gget fs p) as [[m|m d|t]|] eqn:G; try reflexivity.
  destruct (path_prefix dir p) eqn:P.
  - now rewrite (entries_below_has _ _ _ _ G P).
  - destruct (existsb _ _) eqn:E; [|reflexivity]. apply in_entries_below in E. congruence.
Qed.

(* removeAll(dir) with the mode changed for directories only: nothing that is not at or below dir is
   touched — not its mode, not its content, not its existence — whatever links the tree holds and
   wherever they lead *)
Lemma remove_all_frame root mine fs dir p :
  path_prefix dir p = false -> gget (remove_all_at true root mine fs dir) p = gget fs p.
Proof.
  intro P. unfold remove_all_at, g_remove_all.
  rewrite (gget_filter (fun q => negb (path_prefix dir q) || g_stuck root _ q)), chmod_pass_dirs_only, P.
  now destruct (gget fs p) as [[]|].
Qed.

(* the statement for the source as it is: the generated constant says "directories only" *)
Lemma cleanup_touches_only_workdir root mine fs dir p :
  path_prefix dir p = false -> gget (remove_all_now root mine fs dir) p = gget fs p.
Proof. apply remove_all_frame. Qed.

(* everything at or below dir goes when nothing there is held by a directory without write permission *)
Lemma remove_all_removes dirs_only root mine fs dir p :
  path_prefix dir p = true ->
  (forall q, path_prefix dir q = true -> g_unremovable root (chmod_pass dirs_only root mine fs dir) q = false) ->
  gget (remove_all_at dirs_only root mine fs dir) p = None.
Proof.
  intros P H. unfold remove_all_at, g_remove_all.
  rewrite (gget_filter (fun q => negb (path_prefix dir q) || g_stuck root _ q)), P.
  enough (S : g_stuck root (chmod_pass dirs_only root mine fs dir) p = false) by now rewrite S.
  apply not_true_is_false. unfold g_stuck. rewrite existsb_exists. intros (e & _ & He).
  apply andb_true_iff in He as [Hpe Hu]. rewrite H in Hu; [discriminate | eauto using path_prefix_trans].
Qed.

(* root ignores the modes *)
Lemma root_can_unlink fs q : g_unremovable true fs q = false.
Proof. unfold g_unremovable. now destruct (gget fs (removelast q)) as [[]|]. Qed.

Lemma owner_w_all : owner_w perm_all = true.
Proof. reflexivity. Qed.

(* the owner: after the chmod pass every directory at or below dir is writable, so everything strictly
   below dir can be unlinked; dir itself can, provided the directory that holds it is writable *)
Lemma owner_can_unlink mine fs dir q :
  dir <> [] ->
  (forall q, path_prefix dir q = true -> can_chmod false mine q = true) ->
  g_unremovable false fs dir = false ->
  path_prefix dir q = true -> g_unremovable false (chmod_pass true false mine fs dir) q = false.
Proof.
  intros Hne Hown Hpar Pq. unfold g_unremovable in *. rewrite chmod_pass_dirs_only.
  destruct (path_eqb_spec q dir) as [->|E].
  - rewrite (parent_not_below dir Hne). now destruct (gget fs (removelast dir)) as [[]|].
  - rewrite (parent_below dir q Pq E), (Hown _ (parent_below dir q Pq E)).
    now destruct (gget fs (removelast q)) as [[]|].
Qed.

Definition seg (s : list byte) : name := s.
Definition p_w : path := [[x77]].                 (* /w     the work directory *)
Definition p_wl : path := [[x77]; [x6c]].         (* /w/l   a link in it *)
Definition p_h : path := [[x68]].                 (* /h     a directory of the host *)
Definition p_hf : path := [[x68]; [x66]].         (* /h/f   a read-only file of the host *)
Definition fs_link_out : gfs :=
  [([], GDir 493); (p_w, GDir 493); (p_wl, GLink p_hf); (p_h, GDir 493); (p_hf, GFile 292 [x61])].

(* with os.Chmod applied to every entry the mode of /h/f, outside the directory being removed, changes *)
Lemma chmod_every_entry_refuted :
  exists root mine fs dir p,
    path_prefix dir p = false /\ gget (remove_all_at false root mine fs dir) p <> gget fs p.
Proof. exists true, [], fs_link_out, p_w, p_hf. split; [reflexivity|]. vm_compute. discriminate. Qed.

(* the same tree under the source's removeAll: /w and the link are gone, the host is as it was *)
Example cleanup_example :
  remove_all_now false [p_w] fs_link_out p_w = [([], GDir 493); (p_h, GDir 493); (p_hf, GFile 292 [x61])].
Proof. reflexivity. Qed.

(* a read-only directory with content inside the work directory, a link to a sibling's read-only
   directory, a dangling link and a link loop: removed by the owner, the sibling untouched *)
Definition p_s : path := [[x73]].                       (* /s    a sibling's work directory *)
Definition p_sr : path := [[x73]; [x72]].               (* /s/r  read-only directory in it *)
Definition fs_mixed : gfs :=
  [([], GDir 493); (p_w, GDir 493); ([[x77]; [x64]], GDir 365); ([[x77]; [x64]; [x66]], GFile 292 []);
   ([[x77]; [x31]], GLink p_sr); ([[x77]; [x32]], GLink [[x6e]]); ([[x77]; [x33]], GLink [[x77]; [x33]]);
   (p_s, GDir 493); (p_sr, GDir 365)].

Example cleanup_example_mixed :
  remove_all_now false [p_w] fs_mixed p_w = [([], GDir 493); (p_s, GDir 493); (p_sr, GDir 365)]
  /\ (forall q, path_prefix p_w q = true -> can_chmod false [p_w] q = true)
  /\ g_unremovable false fs_mixed p_w = false.
Proof.
  split; [reflexivity|]. split; [|reflexivity]. intros q H. unfold can_chmod. cbn [existsb orb]. now rewrite H.
Qed.

(* without the chmod pass the owner cannot remove the read-only directory's content *)
Example cleanup_needs_chmod_pass :
  gget (g_remove_all false fs_mixed p_w) [[x77]; [x64]; [x66]] = Some (GFile 292 []).
Proof. reflexivity. Qed.

Lemma remove_at_get t q p : tree_get (remove_at t q) p = if path_prefix q p then None else tree_get t p.
Proof. exact (tree_get_filter_not (path_prefix q) t p). Qed.

Lemma remove_below_get t q p : tree_get (remove_below t q) p = if below q p then None else tree_get t p.
Proof. exact (tree_get_filter_not (below q) t p). Qed.

Definition rm_tree (r : rm_result) : tree := match r with RmOk t => t | RmFail t => t end.

Lemma rm_frame root t q p : path_prefix q p = false -> tree_get (rm_tree (rm_path root t q)) p = tree_get t p.
Proof.
  intro P. unfold rm_path. destruct q as [|s q]; [reflexivity|].
  destruct (blocked_by_file t (s :: q)); [reflexivity|].
  destruct (tree_get t (s :: q)) as [n|] eqn:G; [|reflexivity].
  destruct (unremovable root t (s :: q)); cbn [rm_tree].
  - destruct n; try reflexivity. rewrite tree_get_set.
    destruct (path_eqb (s :: q) p) eqn:E.
    + apply path_eqb_eq in E. subst p. now rewrite path_prefix_refl in P.
    + rewrite remove_below_get. unfold below. now rewrite P.
  - now rewrite remove_at_get, P.
Qed.

Lemma rm_ok_removes root t q t' n p :
  rm_path root t q = RmOk t' -> tree_get t q = Some n -> path_prefix q p = true -> tree_get t' p = None.
Proof.
  unfold rm_path. destruct q as [|s q]; [discriminate|].
  destruct (blocked_by_file t (s :: q)); [discriminate|]. intros H G P. rewrite G in H.
  destruct (unremovable root t (s :: q)); [discriminate|]. injection H as <-. now rewrite remove_at_get, P.
Qed.

Lemma symlink_exact root t q tg t' :
  symlink_at root t q tg = Some t' ->
  tree_get t q = None /\ forall p, tree_get t' p = if path_eqb q p then Some (Link tg) else tree_get t p.
Proof.
  unfold symlink_at. destruct q as [|s q]; [discriminate|].
  destruct (tree_get t (s :: q)) eqn:G; [discriminate|].
  destruct (dir_writable root t (removelast (s :: q))); [|discriminate]. intros [= <-].
  split; [reflexivity|]. intro p. apply tree_get_set.
Qed.

(* the chmod pass of removeAll leaves links as they are (and has no way to reach what they point to:
   the tree of a script holds nothing but its own files) *)
Lemma chmod_all_keeps_links t p tg : tree_get t p = Some (Link tg) -> tree_get (chmod_all t) p = Some (Link tg).
Proof. intro H. now rewrite chmod_all_get, H. Qed.

Example rm_and_symlink_example :
  let a := [x61] in let l := [x6c] in let t0 := [([a], Dir true); ([a; a], File [x31] false)] in
  symlink_at true t0 [a; l] [x2f; x68] = Some [([a; l], Link [x2f; x68]); ([a], Dir true); ([a; a], File [x31] false)]
  /\ symlink_at false t0 [a; l] [x2f; x68] = None
  /\ rm_path false [([a; l], Link [x2f; x68]); ([a], Dir true); ([a; a], File [x31] false)] [a] = RmOk []
  /\ rm_path false t0 [a; a] = RmFail t0
  /\ rm_path false t0 [a; a; l] = RmFail t0
  /\ rm_path false t0 [l; a] = RmOk t0.
Proof. repeat split; reflexivity. Qed.
