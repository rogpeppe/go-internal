(* Proofs about the model of imports/scan.go (Scan.v). *)
From Coq Require Import List Bool Arith NArith Lia Sorting.Sorted.
From Coq.Strings Require Import Byte.
From GI Require Import Lib.Bytes Lib.BytesFacts Gen.ImportsConsts Imports.Build Imports.BuildFacts
  Imports.Read Imports.ReadFacts Imports.ReadGrammar Imports.ReadComplete Imports.Scan.
Import ListNotations.

Lemma bytes_ltb_irrefl a : bytes_ltb a a = false.
Proof.
  induction a as [|x a IH]; [reflexivity|]. cbn [bytes_ltb].
  rewrite N.ltb_irrefl, N.eqb_refl, IH. reflexivity.
Qed.

Lemma bytes_ltb_trans a : forall b c, bytes_ltb a b = true -> bytes_ltb b c = true -> bytes_ltb a c = true.
Proof.
  induction a as [|x a IH]; intros [|y b] [|z c]; cbn [bytes_ltb]; try discriminate; try reflexivity.
  intros H1 H2. apply orb_true_iff in H1. apply orb_true_iff in H2. apply orb_true_iff.
  destruct H1 as [H1|H1], H2 as [H2|H2].
  - left. apply N.ltb_lt in H1, H2. apply N.ltb_lt. lia.
  - apply andb_true_iff in H2. destruct H2 as [E _]. apply N.eqb_eq in E. left. now rewrite <- E.
  - apply andb_true_iff in H1. destruct H1 as [E _]. apply N.eqb_eq in E. left. now rewrite E.
  - apply andb_true_iff in H1. apply andb_true_iff in H2. destruct H1 as [E1 L1], H2 as [E2 L2].
    right. apply N.eqb_eq in E1, E2. rewrite E1, E2, N.eqb_refl. cbn [andb]. now apply (IH b c).
Qed.

(* trichotomy, in the form set_add uses it *)
Lemma bytes_ltb_total a : forall b, bytes_eqb a b = false -> bytes_ltb a b = false -> bytes_ltb b a = true.
Proof.
  induction a as [|x a IH]; intros [|y b]; cbn [bytes_eqb bytes_ltb]; try discriminate; try reflexivity.
  intros He Hl. apply orb_false_iff in Hl. destruct Hl as [L1 L2].
  apply N.ltb_ge in L1. destruct (N.eqb (bN x) (bN y)) eqn:E.
  - apply N.eqb_eq in E. pose proof (bN_inj _ _ E) as ->. rewrite beq_refl in He. cbn [andb] in *.
    rewrite N.ltb_irrefl, N.eqb_refl. cbn [orb andb]. now apply IH.
  - apply N.eqb_neq in E. apply orb_true_iff. left. apply N.ltb_lt. lia.
Qed.

Definition bytes_lt (a b : bytes) : Prop := bytes_ltb a b = true.

Lemma set_add_In x l : forall y, In y (set_add x l) <-> y = x \/ In y l.
Proof.
  induction l as [|z l IH]; intros y; cbn [set_add].
  - cbn. intuition.
  - destruct (bytes_eqb x z) eqn:E.
    + apply bytes_eqb_eq in E. subst z. cbn. intuition.
    + destruct (bytes_ltb x z); cbn [In]; [intuition|]. rewrite IH. intuition.
Qed.

Lemma set_add_sorted x l : StronglySorted bytes_lt l -> StronglySorted bytes_lt (set_add x l).
Proof.
  induction l as [|z l IH]; intros Hs; cbn [set_add].
  - repeat constructor.
  - inversion Hs as [|? ? Hs' Hz]; subst. destruct (bytes_eqb x z) eqn:E; [exact Hs|].
    destruct (bytes_ltb x z) eqn:L.
    + constructor; [exact Hs|]. constructor; [exact L|].
      rewrite Forall_forall in *. intros w Hw. apply (bytes_ltb_trans x z w L). now apply Hz.
    + constructor; [now apply IH|]. rewrite Forall_forall in *. intros w Hw.
      apply set_add_In in Hw. destruct Hw as [->|Hw]; [|now apply Hz].
      now apply bytes_ltb_total.
Qed.

Definition set_of (l : list bytes) : list bytes := set_add_all l [].

Lemma set_add_all_In xs : forall l y, In y (set_add_all xs l) <-> In y xs \/ In y l.
Proof.
  unfold set_add_all. induction xs as [|x xs IH]; intros l y; cbn [fold_left].
  - cbn. intuition.
  - rewrite IH, set_add_In. cbn [In]. intuition.
Qed.

Lemma set_add_all_sorted xs : forall l, StronglySorted bytes_lt l -> StronglySorted bytes_lt (set_add_all xs l).
Proof.
  unfold set_add_all. induction xs as [|x xs IH]; intros l Hs; cbn [fold_left]; [exact Hs|].
  apply IH. now apply set_add_sorted.
Qed.

Lemma set_add_all_app xs ys l : set_add_all ys (set_add_all xs l) = set_add_all (xs ++ ys) l.
Proof. unfold set_add_all. now rewrite fold_left_app. Qed.

(* keys(m) after sort.Strings: strictly increasing (hence duplicate-free), the same elements *)
Theorem set_of_spec l :
  StronglySorted bytes_lt (set_of l) /\ (forall y, In y (set_of l) <-> In y l).
Proof.
  split; [apply set_add_all_sorted; constructor|].
  intros y. unfold set_of. rewrite set_add_all_In. cbn. intuition.
Qed.

Inductive verdict :=
| VPanic
| VReadErr
| VSkip
| VTake (test : bool) (paths : list bytes).

Definition needs_cgo (lits : list bytes) : bool := existsb (fun p => bytes_eqb p quoted_c) lits.

Definition file_verdict (tags : tagset) (explicit : bool) (f : entry) : verdict :=
  match read_imports false (e_data f) with
  | RPanic | RFuel => VPanic
  | ROk lits data e =>
      match e with
      | ENone =>
          if needs_cgo lits && negb (tags cgo_tag) && negb (tags star) then VSkip
          else match (if explicit then Some true else should_build data tags) with
               | None => VPanic
               | Some false => VSkip
               | Some true => VTake (has_suffix test_go_suffix (e_name f)) (unquoted lits)
               end
      | _ => VReadErr
      end
  end.

Lemma scan_loop_step tags explicit f rest imps tests num :
  scan_loop tags explicit (f :: rest) imps tests num =
  match file_verdict tags explicit f with
  | VPanic => SPanic
  | VReadErr => SErrRead
  | VSkip => scan_loop tags explicit rest imps tests num
  | VTake true ps => scan_loop tags explicit rest imps (set_add_all ps tests) (S num)
  | VTake false ps => scan_loop tags explicit rest (set_add_all ps imps) tests (S num)
  end.
Proof.
  cbn [scan_loop]. unfold file_verdict, needs_cgo.
  destruct (read_imports false (e_data f)) as [lits data e| |]; try reflexivity.
  destruct e; try reflexivity.
  destruct (existsb _ lits && negb (tags cgo_tag) && negb (tags star)); [reflexivity|].
  destruct (if explicit then Some true else should_build data tags) as [[|]|]; try reflexivity;
    try (destruct (has_suffix test_go_suffix (e_name f)); reflexivity).
Qed.

Lemma file_verdict_no_panic tags explicit f : file_verdict tags explicit f <> VPanic.
Proof.
  unfold file_verdict. destruct (read_total false (e_data f)) as [lits [data [e ->]]].
  destruct e; try discriminate.
  destruct (needs_cgo lits && negb (tags cgo_tag) && negb (tags star)); [discriminate|].
  destruct explicit; [discriminate|]. rewrite should_build_spec.
  destruct (spec_should_build data tags); discriminate.
Qed.

(* neither ScanDir nor ScanFiles can panic (or run out of model fuel) *)
Lemma scan_loop_total tags explicit files : forall imps tests num,
  scan_loop tags explicit files imps tests num <> SPanic.
Proof.
  induction files as [|f rest IH]; intros imps tests num.
  - cbn. destruct num; discriminate.
  - rewrite scan_loop_step. pose proof (file_verdict_no_panic tags explicit f) as Hv.
    destruct (file_verdict tags explicit f) as [| | |[|] ps]; try discriminate; try apply IH. contradiction.
Qed.

Theorem scan_total tags entries : scan_dir tags entries <> SPanic /\ scan_files tags entries <> SPanic.
Proof. split; apply scan_loop_total. Qed.

(* the files after a prefix matter only through what the loop makes of them *)
Lemma scan_loop_prefix tags explicit a b :
  (forall imps tests num, scan_loop tags explicit a imps tests num = scan_loop tags explicit b imps tests num) ->
  forall l1 imps tests num,
  scan_loop tags explicit (l1 ++ a) imps tests num = scan_loop tags explicit (l1 ++ b) imps tests num.
Proof.
  intros Hab. induction l1 as [|x l1 IH]; intros imps tests num; cbn [app]; [apply Hab|].
  rewrite !scan_loop_step. destruct (file_verdict tags explicit x) as [| | |[|] ps]; try reflexivity; apply IH.
Qed.

Lemma scan_loop_skip tags explicit f l2 : file_verdict tags explicit f = VSkip ->
  forall l1 imps tests num,
  scan_loop tags explicit (l1 ++ f :: l2) imps tests num = scan_loop tags explicit (l1 ++ l2) imps tests num.
Proof. intros Hv. apply scan_loop_prefix. intros imps tests num. now rewrite scan_loop_step, Hv. Qed.

(* a file that ReadImports reads without error and that import "C" or the +build lines
   exclude may be removed from (or added to) the list without changing the result *)
Theorem scan_frame_files tags explicit f lits data l1 l2 imps tests num :
  read_imports false (e_data f) = ROk lits data ENone ->
  (needs_cgo lits && negb (tags cgo_tag) && negb (tags star) = true
   \/ (explicit = false /\ should_build data tags = Some false)) ->
  scan_loop tags explicit (l1 ++ f :: l2) imps tests num = scan_loop tags explicit (l1 ++ l2) imps tests num.
Proof.
  intros Hr Hc. apply scan_loop_skip. unfold file_verdict. rewrite Hr.
  destruct Hc as [Hc|[-> Hc]]; [now rewrite Hc|].
  destruct (needs_cgo lits && negb (tags cgo_tag) && negb (tags star)); [reflexivity|now rewrite Hc].
Qed.

(* a directory entry that ScanDir does not consider (not regular, "_" prefix, no ".go"
   suffix, rejected by MatchFile) contributes nothing, whatever it contains *)
Theorem scan_frame_dir tags f l1 l2 : considered tags f = false ->
  scan_dir tags (l1 ++ f :: l2) = scan_dir tags (l1 ++ l2).
Proof. intros H. unfold scan_dir. rewrite !filter_app. cbn [filter]. now rewrite H. Qed.

Lemma read_imports_bom report d : has_prefix bom d = false ->
  read_imports report (bom ++ d) = read_imports report d.
Proof.
  intros H. unfold read_imports.
  assert (E : strip_bom (bom ++ d) = strip_bom d).
  { unfold strip_bom. rewrite has_prefix_app, H. apply skipn_length_app. }
  now rewrite E.
Qed.

Definition with_bom (f : entry) : entry := mkentry (e_name f) (e_regular f) (bom ++ e_data f).

Lemma file_verdict_bom tags explicit f : has_prefix bom (e_data f) = false ->
  file_verdict tags explicit (with_bom f) = file_verdict tags explicit f.
Proof. intros H. unfold file_verdict, with_bom. cbn [e_data e_name]. now rewrite read_imports_bom. Qed.

Lemma scan_loop_bom tags explicit f l2 : has_prefix bom (e_data f) = false ->
  forall l1 imps tests num,
  scan_loop tags explicit (l1 ++ with_bom f :: l2) imps tests num
  = scan_loop tags explicit (l1 ++ f :: l2) imps tests num.
Proof. intros Hb. apply scan_loop_prefix. intros imps tests num. now rewrite !scan_loop_step, file_verdict_bom. Qed.

Theorem scan_bom tags f l1 l2 : has_prefix bom (e_data f) = false ->
  scan_dir tags (l1 ++ with_bom f :: l2) = scan_dir tags (l1 ++ f :: l2)
  /\ scan_files tags (l1 ++ with_bom f :: l2) = scan_files tags (l1 ++ f :: l2).
Proof.
  intros H. split; [|now apply scan_loop_bom].
  unfold scan_dir. rewrite !filter_app. cbn [filter].
  change (considered tags (with_bom f)) with (considered tags f).
  destruct (considered tags f); [now apply scan_loop_bom|reflexivity].
Qed.

(* a file whose content is an import section of the grammar G followed by [g_rest] *)
Record gfile := mkgfile { g_entry : entry; g_sec : isection; g_rest : bytes }.
Definition gfile_ok (x : gfile) : Prop :=
  e_data (g_entry x) = render (g_sec x) ++ g_rest x /\ wf_section (g_sec x) (g_rest x) = true.

(* the files that count: import "C" needs the cgo tag (or "*"); unless the files were named
   explicitly, the +build lines of the returned prefix must be satisfied *)
Definition selected (tags : tagset) (explicit : bool) (x : gfile) : bool :=
  negb (needs_cgo (paths (g_sec x)) && negb (tags cgo_tag) && negb (tags star))
  && (explicit || spec_should_build (render_body (g_sec x)) tags).
Definition is_test (x : gfile) : bool := has_suffix test_go_suffix (e_name (g_entry x)).
Definition imports_of (x : gfile) : list bytes := unquoted (paths (g_sec x)).

Definition spec_scan (tags : tagset) (explicit : bool) (gs : list gfile) : scan_result :=
  let sel := filter (selected tags explicit) gs in
  match sel with
  | [] => SErrNoGo
  | _ => SOk (set_of (flat_map imports_of (filter (fun x => negb (is_test x)) sel)))
             (set_of (flat_map imports_of (filter is_test sel)))
  end.

Lemma gfile_verdict tags explicit x : gfile_ok x ->
  file_verdict tags explicit (g_entry x) =
  if selected tags explicit x then VTake (is_test x) (imports_of x) else VSkip.
Proof.
  intros [Hd Hw]. unfold file_verdict, selected, is_test, imports_of.
  rewrite Hd, (read_imports_complete false _ _ Hw).
  destruct (needs_cgo (paths (g_sec x)) && negb (tags cgo_tag) && negb (tags star)); [reflexivity|].
  cbn [negb andb]. destruct explicit; [reflexivity|]. rewrite should_build_spec. cbn [orb].
  destruct (spec_should_build (render_body (g_sec x)) tags); reflexivity.
Qed.

Lemma scan_loop_gfiles tags explicit gs : Forall gfile_ok gs -> forall imps tests num,
  scan_loop tags explicit (map g_entry gs) imps tests num =
  let sel := filter (selected tags explicit) gs in
  match num + length sel with
  | 0 => SErrNoGo
  | _ => SOk (set_add_all (flat_map imports_of (filter (fun x => negb (is_test x)) sel)) imps)
             (set_add_all (flat_map imports_of (filter is_test sel)) tests)
  end.
Proof.
  intros Hok. induction Hok as [|x gs Hx _ IH]; intros imps tests num.
  - cbn. rewrite Nat.add_0_r. destruct num; reflexivity.
  - cbn [map]. rewrite scan_loop_step, (gfile_verdict tags explicit x Hx). cbv zeta in *.
    cbn [filter]. destruct (selected tags explicit x).
    + cbn [length]. rewrite Nat.add_succ_r. cbn [filter]. destruct (is_test x) eqn:Et; cbn [negb].
      * rewrite IH. cbn [plus]. cbn [flat_map]. now rewrite set_add_all_app.
      * rewrite IH. cbn [plus]. cbn [flat_map]. now rewrite set_add_all_app.
    + apply IH.
Qed.

Lemma spec_scan_eq tags explicit gs : Forall gfile_ok gs ->
  scan_loop tags explicit (map g_entry gs) [] [] 0 = spec_scan tags explicit gs.
Proof.
  intros Hok. rewrite (scan_loop_gfiles tags explicit gs Hok). cbv zeta. unfold spec_scan, set_of.
  cbn [plus]. destruct (filter (selected tags explicit) gs); reflexivity.
Qed.

(* For a directory whose considered entries are G-files, ScanDir returns
   exactly: ErrNoGo when no file is selected, otherwise the sorted sets (set_of_spec) of the
   unquoted import paths of the selected files, those of *_test.go files apart. *)
Theorem scan_dir_complete tags entries gs :
  filter (considered tags) entries = map g_entry gs -> Forall gfile_ok gs ->
  scan_dir tags entries = spec_scan tags false gs.
Proof. intros Hf Hok. unfold scan_dir. rewrite Hf. now apply spec_scan_eq. Qed.

Theorem scan_files_complete tags gs : Forall gfile_ok gs ->
  scan_files tags (map g_entry gs) = spec_scan tags true gs.
Proof. intros Hok. unfold scan_files. now apply spec_scan_eq. Qed.

Theorem considered_spec tags f :
  considered tags f = true <->
  e_regular f = true /\ has_prefix skip_prefix (e_name f) = false
  /\ has_suffix go_suffix (e_name f) = true /\ ~ rejected (e_name f) tags.
Proof.
  unfold considered. rewrite !andb_true_iff, negb_true_iff.
  assert (H : match_file (e_name f) tags = true <-> ~ rejected (e_name f) tags).
  { rewrite <- match_file_spec. destruct (match_file (e_name f) tags); split; intros; congruence. }
  rewrite H. tauto.
Qed.

Definition ex_gfile : gfile :=
  mkgfile (mkentry [x61; x5f; x74; x65; x73; x74; x2e; x67; x6f] true (render ex_section ++ [x66; x75; x6e; x63]))
          ex_section [x66; x75; x6e; x63].

Example ex_gfile_ok : gfile_ok ex_gfile.
Proof. split; [reflexivity|exact ex_section_wf]. Qed.

(* a_test.go with the example section: three paths, unquoted and sorted, as test imports *)
Example ex_scan :
  scan_dir (fun _ => false) [g_entry ex_gfile]
  = SOk [] [[x61; x2f; x62]; [x63]; [x66; x22; x6d]].
Proof. vm_compute. reflexivity. Qed.

Example ex_unquote :
  unquote [x22; x61; x5c; x78; x34; x31; x5c; x75; x30; x30; x65; x39; x5c; x31; x30; x31; x22]
  = Some [x61; x41; xc3; xa9; x41]
  /\ unquote [x22; x61; x5c; x71; x22] = None
  /\ unquote [x60; x61; x0d; x62; x60] = Some [x61; x62].
Proof. vm_compute. repeat split. Qed.
