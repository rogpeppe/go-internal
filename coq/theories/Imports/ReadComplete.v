(* Completeness of the ReadImports model on the grammar G of ReadGrammar.v:
   read_imports (render g ++ rest) = the path literals of g, in order, and render g
   (byte-order mark aside) as the returned prefix, with a nil error. *)
From Coq Require Import List Bool Arith NArith Lia.
From Coq.Strings Require Import Byte.
From GI Require Import Lib.Bytes Lib.BytesFacts Imports.Read Imports.ReadFacts Imports.ReadGrammar.
Import ListNotations.

(* error-free reader states: before and after the end of the input was seen *)
Definition cst (r d : bytes) (p : byte) (i : list bytes) : st := mkst r d p false ENone 0%N FNone i.
Definition est (d : bytes) (p : byte) (i : list bytes) : st := mkst [] d p true ENone 0%N FNone i.

Lemma read_byte_cons c r d p i : c <> NUL -> read_byte (cst (c :: r) d p i) = (c, cst r (c :: d) p i).
Proof. intros H. unfold read_byte, cst. cbn. apply beq_false in H. rewrite H. reflexivity. Qed.
Lemma read_byte_nil d p i : read_byte (cst [] d p i) = (NUL, est d p i).
Proof. reflexivity. Qed.
Lemma read_byte_est d p i : read_byte (est d p i) = (NUL, est d p i).
Proof. reflexivity. Qed.

Lemma no_byte_cons c b d : no_byte c (b :: d) = true -> b <> c /\ no_byte c d = true.
Proof.
  unfold no_byte. cbn [forallb]. intros H. apply andb_true_iff in H. destruct H as [H1 H2].
  split; [|exact H2]. apply negb_true_iff in H1. now apply beq_neq.
Qed.

(* [lens]: a side condition on lengths after app_length; [appnorm]: appends re-associated to the right;
   [listnorm]: the same with rev pushed through the appends *)
Ltac lens := cbn [length] in *; repeat (rewrite app_length in *; cbn [length] in *); lia.
Ltac appnorm := repeat first [rewrite <- app_assoc | progress (cbn [app])].
Ltac listnorm := repeat first [rewrite rev_app_distr | rewrite <- app_assoc | progress (cbn [rev app])].

Lemma line_loop_ok p i body : forall c r d f,
  no_byte NL body = true -> no_byte NUL body = true -> c <> NL -> length body + 2 <= f ->
  loop f oof1 lc_step (c, cst (body ++ NL :: r) d p i) = (NL, cst r (NL :: rev body ++ d) p i).
Proof.
  induction body as [|b body IH]; intros c r d f Hnl Hnul Hc Hf.
  - destruct f as [|[|f]]; try (cbn in Hf; lia). cbn [loop app].
    unfold lc_step at 1. apply beq_false in Hc. rewrite Hc. cbn [negb andb no_err eof err cst].
    rewrite read_byte_cons by discriminate.
    unfold lc_step. rewrite beq_refl. reflexivity.
  - destruct (no_byte_cons _ _ _ Hnl) as [Hb1 Hnl']. destruct (no_byte_cons _ _ _ Hnul) as [Hb2 Hnul'].
    destruct f as [|f]; [cbn in Hf; lia|]. cbn [loop app].
    unfold lc_step at 1. apply beq_false in Hc. rewrite Hc. cbn [negb andb no_err eof err cst].
    rewrite read_byte_cons by exact Hb2.
    rewrite IH; auto; [|cbn [length] in Hf; lia].
    cbn [rev]. now rewrite <- app_assoc.
Qed.

Lemma block_loop_ok p i body : forall c c1 r d f,
  no_star_slash c1 body = true -> no_byte NUL body = true ->
  negb (beq c STAR) || negb (beq c1 SLASH) = true -> length body + 3 <= f ->
  loop f oof2 bc_step (c, c1, cst (body ++ STAR :: SLASH :: r) d p i)
  = (STAR, SLASH, cst r (SLASH :: STAR :: rev body ++ d) p i).
Proof.
  induction body as [|b body IH]; intros c c1 r d f Hss Hnul Hc Hf.
  - destruct f as [|[|[|f]]]; try (cbn in Hf; lia). cbn [loop app].
    unfold bc_step at 1. rewrite Hc. cbn [andb no_err eof err cst].
    rewrite read_byte_cons by discriminate.
    unfold bc_step at 1. replace (negb (beq c1 STAR) || negb (beq STAR SLASH)) with true
      by (cbn; now rewrite orb_true_r).
    cbn [andb no_err eof err cst]. rewrite read_byte_cons by discriminate.
    unfold bc_step. rewrite !beq_refl. reflexivity.
  - destruct (no_byte_cons _ _ _ Hnul) as [Hb2 Hnul'].
    cbn [no_star_slash] in Hss. apply andb_true_iff in Hss. destruct Hss as [Hs1 Hs2].
    destruct f as [|f]; [cbn in Hf; lia|]. cbn [loop app].
    unfold bc_step at 1. rewrite Hc. cbn [andb no_err eof err cst].
    rewrite read_byte_cons by exact Hb2.
    rewrite IH; auto.
    + cbn [rev]. now rewrite <- app_assoc.
    + rewrite negb_andb in Hs1. exact Hs1.
    + cbn [length] in Hf. lia.
Qed.

(* what may come after trivia: the end of the input, or a byte that does not start trivia *)
Definition after_triv (Y : bytes) : bool :=
  match Y with
  | [] => true
  | y :: _ => negb (is_spacec y) && negb (beq y SLASH) && negb (beq y NUL)
  end.

(* the byte in hand and the state once [Y] is what remains *)
Definition arrive (Y dd : bytes) (p : byte) (i : list bytes) : byte * st :=
  match Y with
  | y :: Y' => (y, cst Y' (y :: dd) p i)
  | [] => (NUL, est dd p i)
  end.

Lemma is_spacec_nonzero b : is_spacec b = true -> b <> NUL.
Proof. intros H ->. discriminate. Qed.

Lemma render_trivia_cons t ts : render_trivia (t :: ts) = render_triv t ++ render_trivia ts.
Proof. reflexivity. Qed.

Lemma peek_loop_ok F p i Y : after_triv Y = true -> forall ts dd f, wf_trivia ts = true ->
  length (render_trivia ts ++ Y) + 2 <= f -> length (render_trivia ts ++ Y) + 4 <= F ->
  loop f oof1 (pk_step F true) (read_byte (cst (render_trivia ts ++ Y) dd p i))
  = arrive Y (rev (render_trivia ts) ++ dd) p i.
Proof.
  intros HY. induction ts as [|t ts IH]; intros dd f Hwf Hf HF.
  - cbn [render_trivia map concat app rev] in *. destruct Y as [|y Y'].
    + rewrite read_byte_nil. destruct f as [|f]; [cbn in Hf; lia|]. reflexivity.
    + cbn [after_triv] in HY. apply andb_true_iff in HY. destruct HY as [HY Hy3].
      apply andb_true_iff in HY. destruct HY as [Hy1 Hy2].
      apply negb_true_iff in Hy1, Hy2, Hy3.
      rewrite read_byte_cons by (now apply beq_neq).
      destruct f as [|f]; [cbn in Hf; lia|]. cbn [loop]. unfold pk_step.
      cbn [no_err eof err cst negb andb]. rewrite Hy1, Hy2. reflexivity.
  - cbn [wf_trivia forallb] in Hwf. apply andb_true_iff in Hwf. destruct Hwf as [Hwt Hwf].
    rewrite render_trivia_cons in *. rewrite <- app_assoc in *.
    destruct f as [|f]; [cbn in Hf; lia|].
    destruct t as [b|body|body]; cbn [render_triv wf_triv] in *.
    + (* a blank *)
      cbn [app] in *. rewrite read_byte_cons by (now apply is_spacec_nonzero).
      cbn [loop]. unfold pk_step at 1. cbn [no_err eof err cst negb andb]. rewrite Hwt.
      rewrite IH; auto; [|cbn [length] in *; lia|cbn [length] in *; lia].
      cbn [rev]. now rewrite <- !app_assoc.
    + (* a line comment *)
      apply andb_true_iff in Hwt. destruct Hwt as [Hnl Hnul].
      cbn [app] in *. rewrite <- app_assoc in *. cbn [app] in *.
      rewrite read_byte_cons by discriminate.
      cbn [loop]. unfold pk_step at 1. cbn [no_err eof err cst negb andb].
      change (is_spacec SLASH) with false. rewrite beq_refl. cbv iota.
      rewrite read_byte_cons by discriminate. rewrite beq_refl.
      rewrite line_comment_eq, line_loop_ok; auto; try discriminate.
      2:{ lens. }
      cbn [snd]. rewrite IH; auto.
      * f_equal. listnorm. reflexivity.
      * lens.
      * lens.
    + (* a block comment *)
      apply andb_true_iff in Hwt. destruct Hwt as [Hss Hnul].
      cbn [app] in *. rewrite <- app_assoc in *. cbn [app] in *.
      rewrite read_byte_cons by discriminate.
      cbn [loop]. unfold pk_step at 1. cbn [no_err eof err cst negb andb].
      change (is_spacec SLASH) with false. rewrite beq_refl. cbv iota.
      rewrite read_byte_cons by discriminate.
      change (beq STAR SLASH) with false. rewrite beq_refl. cbv iota.
      rewrite block_comment_eq, block_loop_ok; auto.
      2:{ lens. }
      cbn [snd]. rewrite IH; auto.
      * f_equal. listnorm. reflexivity.
      * lens.
      * lens.
Qed.

(* [at_ i dn lg s]: s is error-free, has collected the imports i, has logically consumed
   [rev dn] and has [lg] still to come (its first byte possibly already in r.peek) *)
Inductive at_ (i : list bytes) (dn lg : bytes) : st -> Prop :=
| at_fresh : at_ i dn lg (cst lg dn NUL i)
| at_peek p r : p <> NUL -> lg = p :: r -> at_ i dn lg (cst r (p :: dn) p i)
| at_eof : lg = [] -> at_ i dn lg (est dn NUL i).

(* the state after peekByte *)
Definition landed (i : list bytes) (dn lg : bytes) : st :=
  match lg with
  | y :: Y' => cst Y' (y :: dn) y i
  | [] => est dn NUL i
  end.

Definition hd_ok (lg : bytes) : Prop := match lg with [] => True | y :: _ => y <> NUL end.

Lemma landed_at i dn lg : hd_ok lg -> at_ i dn lg (landed i dn lg).
Proof. destruct lg as [|y Y']; intros H; [now apply at_eof|now apply (at_peek i dn (y :: Y') y Y')]. Qed.

Lemma after_triv_hd_ok Y : after_triv Y = true -> hd_ok Y.
Proof.
  destruct Y as [|y Y']; [intros _; exact I|]. cbn [after_triv hd_ok]. intros H.
  apply andb_true_iff in H. destruct H as [_ H]. apply negb_true_iff in H. now apply beq_neq.
Qed.

Lemma peek_true_at F i dn ts Y s :
  at_ i dn (render_trivia ts ++ Y) s -> wf_trivia ts = true -> after_triv Y = true ->
  length (render_trivia ts ++ Y) + 4 <= F ->
  peek_byte F true s = (hd NUL Y, landed i (rev (render_trivia ts) ++ dn) Y).
Proof.
  intros Hat Hwf HY HF. rewrite peek_byte_eq. destruct Hat as [|p r Hp Hlg|Hlg].
  - cbn [no_err err cst negb peek]. rewrite beq_refl.
    destruct (read_byte (cst (render_trivia ts ++ Y) dn NUL i)) as [c0 s0] eqn:Er.
    rewrite <- Er, (peek_loop_ok F NUL i Y HY ts dn F Hwf); [|lia|exact HF].
    destruct Y; reflexivity.
  - cbn [no_err err cst negb peek]. apply beq_false in Hp. rewrite Hp.
    rewrite <- (read_byte_cons p r dn p i) by (now apply beq_neq). rewrite <- Hlg.
    rewrite (peek_loop_ok F p i Y HY ts dn F Hwf); [|lia|exact HF].
    destruct Y; reflexivity.
  - destruct (app_eq_nil _ _ Hlg) as [Ht ->]. rewrite Ht. cbn [rev app hd landed].
    cbn [no_err err est negb peek]. rewrite beq_refl, read_byte_est.
    destruct F as [|f]; [lia|]. reflexivity.
Qed.

Lemma peek_false_at F i dn lg s :
  at_ i dn lg s -> hd_ok lg -> 1 <= F ->
  peek_byte F false s = (hd NUL lg, landed i dn lg).
Proof.
  intros Hat Hok HF. rewrite peek_byte_eq. destruct F as [|f]; [lia|].
  destruct Hat as [|p r Hp Hlg|Hlg].
  - cbn [no_err err cst negb peek]. rewrite beq_refl. destruct lg as [|c r].
    + rewrite read_byte_nil. reflexivity.
    + cbn in Hok. rewrite read_byte_cons by exact Hok. cbn [loop]. unfold pk_step.
      cbn [no_err eof err cst negb andb]. reflexivity.
  - subst lg. cbn [no_err err cst negb peek]. apply beq_false in Hp. rewrite Hp.
    cbn [loop]. unfold pk_step. cbn [no_err eof err cst negb andb]. reflexivity.
  - subst lg. reflexivity.
Qed.

(* nextByte(false) takes exactly the next byte *)
Lemma next_false_at F i dn c r s :
  at_ i dn (c :: r) s -> c <> NUL -> 1 <= F ->
  next_byte F false s = (c, cst r (c :: dn) NUL i).
Proof.
  intros Hat Hc HF. unfold next_byte. rewrite (peek_false_at F i dn (c :: r) s Hat Hc HF). reflexivity.
Qed.

(* nextByte(true) skips trivia and takes the byte after it *)
Lemma next_true_at F i dn ts c r s :
  at_ i dn (render_trivia ts ++ c :: r) s -> wf_trivia ts = true -> after_triv (c :: r) = true ->
  length (render_trivia ts ++ c :: r) + 4 <= F ->
  next_byte F true s = (c, cst r (c :: rev (render_trivia ts) ++ dn) NUL i).
Proof.
  intros Hat Hwf HY HF. unfold next_byte. rewrite (peek_true_at F i dn ts (c :: r) s Hat Hwf HY HF). reflexivity.
Qed.

Section Tokens.
Variable F : nat.
Variable i : list bytes.

Lemma after_word_hd_ok Y : after_word Y = true -> hd_ok Y.
Proof.
  destruct Y as [|y Y']; [intros _; exact I|]. cbn [after_word hd_ok]. intros H.
  apply andb_true_iff in H. destruct H as [_ H]. apply negb_true_iff in H. now apply beq_neq.
Qed.

Lemma after_word_not_ident Y : after_word Y = true -> is_ident (hd NUL Y) = false.
Proof.
  destruct Y as [|y Y']; [reflexivity|]. cbn [after_word hd]. intros H.
  apply andb_true_iff in H. destruct H as [H _]. now apply negb_true_iff in H.
Qed.

Lemma keyword_chars_at kw : forall dn Y s,
  at_ i dn (kw ++ Y) s -> no_byte NUL kw = true -> 1 <= F ->
  exists s', keyword_chars F kw s = (s', true) /\ at_ i (rev kw ++ dn) Y s'.
Proof.
  induction kw as [|k kw IH]; intros dn Y s Hat Hnz HF.
  - exists s. split; [reflexivity|exact Hat].
  - destruct (no_byte_cons _ _ _ Hnz) as [Hk Hnz']. cbn [keyword_chars app] in *.
    rewrite (next_false_at F i dn k (kw ++ Y) s Hat Hk HF). rewrite beq_refl. cbn [negb].
    destruct (IH (k :: dn) Y _ (at_fresh i (k :: dn) (kw ++ Y)) Hnz' HF) as [s' [E A]].
    exists s'. split; [exact E|]. cbn [rev]. now rewrite <- app_assoc.
Qed.

Lemma read_keyword_at k kw ts dn Y s :
  at_ i dn (render_trivia ts ++ (k :: kw) ++ Y) s -> wf_trivia ts = true ->
  after_triv [k] = true -> no_byte NUL (k :: kw) = true -> after_word Y = true ->
  length (render_trivia ts ++ (k :: kw) ++ Y) + 4 <= F ->
  at_ i (rev (k :: kw) ++ rev (render_trivia ts) ++ dn) Y (read_keyword F (k :: kw) s).
Proof.
  intros Hat Hwf Hk Hnz HY HF. unfold read_keyword.
  rewrite (peek_true_at F i dn ts ((k :: kw) ++ Y) s Hat Hwf Hk HF).
  assert (Hk' : k <> NUL) by (destruct (no_byte_cons _ _ _ Hnz); assumption).
  assert (A1 : at_ i (rev (render_trivia ts) ++ dn) ((k :: kw) ++ Y)
                 (landed i (rev (render_trivia ts) ++ dn) ((k :: kw) ++ Y))) by (apply landed_at; exact Hk').
  destruct (keyword_chars_at (k :: kw) _ Y _ A1 Hnz) as [s2 [E2 A2]]; [lia|].
  rewrite E2. rewrite (peek_false_at F i _ Y s2 A2 (after_word_hd_ok Y HY)) by lia.
  rewrite (after_word_not_ident Y HY). apply landed_at. now apply after_word_hd_ok.
Qed.

Lemma ident_loop_at Y id : after_word Y = true -> forall dn s f,
  at_ i dn (id ++ Y) s -> forallb is_ident id = true -> length id + 1 <= f -> 1 <= F ->
  loop f oofs (ri_step F) s = landed i (rev id ++ dn) Y.
Proof.
  intros HY. induction id as [|b id IH]; intros dn s f Hat Hid Hf HF.
  - destruct f as [|f]; [cbn in Hf; lia|]. cbn [loop app rev] in *. unfold ri_step.
    rewrite (peek_false_at F i dn Y s Hat (after_word_hd_ok Y HY) HF).
    now rewrite (after_word_not_ident Y HY).
  - cbn [forallb] in Hid. apply andb_true_iff in Hid. destruct Hid as [Hb Hid].
    destruct f as [|f]; [cbn in Hf; lia|]. cbn [loop app] in *. unfold ri_step at 1.
    rewrite (peek_false_at F i dn (b :: id ++ Y) s Hat (is_ident_nonzero b Hb) HF).
    cbn [hd landed]. rewrite Hb.
    change (set_peek (cst (id ++ Y) (b :: dn) b i) NUL) with (cst (id ++ Y) (b :: dn) NUL i).
    rewrite (IH (b :: dn) _ f (at_fresh i (b :: dn) (id ++ Y)) Hid); [|cbn [length] in Hf; lia|exact HF].
    cbn [rev]. now rewrite <- app_assoc.
Qed.

Lemma ident_after_triv a r : is_ident a = true -> after_triv (a :: r) = true.
Proof.
  intros H. cbn [after_triv].
  now rewrite (ident_not_space a H), !(fun x => class_neq is_ident a x H) by reflexivity.
Qed.

Lemma read_ident_at a id ts dn Y s :
  at_ i dn (render_trivia ts ++ (a :: id) ++ Y) s -> wf_trivia ts = true ->
  forallb is_ident (a :: id) = true -> after_word Y = true ->
  length (render_trivia ts ++ (a :: id) ++ Y) + 4 <= F ->
  read_ident F s = landed i (rev (a :: id) ++ rev (render_trivia ts) ++ dn) Y.
Proof.
  intros Hat Hwf Hid HY HF. rewrite read_ident_eq.
  assert (Ha : is_ident a = true) by (cbn [forallb] in Hid; apply andb_true_iff in Hid; apply Hid).
  rewrite (peek_true_at F i dn ts ((a :: id) ++ Y) s Hat Hwf (ident_after_triv a _ Ha) HF).
  cbn [hd app]. rewrite Ha. cbn [negb].
  apply (ident_loop_at Y (a :: id) HY); [|exact Hid| |].
  - apply landed_at. now apply is_ident_nonzero.
  - revert HF. rewrite !app_length. cbn [length]. lia.
  - lia.
Qed.

End Tokens.

Section Strings.
Variable F : nat.
Hypothesis HF1 : 1 <= F.

Lemma raw_loop_at start Y i body : forall dn f,
  no_byte BQUOTE body = true -> no_byte NUL body = true -> length body + 1 <= f ->
  loop f oofs (rs_step F BQUOTE false true start) (cst (body ++ BQUOTE :: Y) dn NUL i)
  = cst Y (BQUOTE :: rev body ++ dn) NUL (i ++ [skipn start (rev (BQUOTE :: rev body ++ dn))]).
Proof.
  induction body as [|b body IH]; intros dn f Hq Hz Hf.
  - destruct f as [|f]; [cbn in Hf; lia|]. cbn [loop app rev]. unfold rs_step.
    cbn [no_err err cst].
    rewrite (next_false_at F i dn BQUOTE Y _ (at_fresh i dn (BQUOTE :: Y))) by (discriminate || exact HF1).
    rewrite beq_refl. reflexivity.
  - destruct (no_byte_cons _ _ _ Hq) as [Hb1 Hq']. destruct (no_byte_cons _ _ _ Hz) as [Hb2 Hz'].
    destruct f as [|f]; [cbn in Hf; lia|]. cbn [loop app]. unfold rs_step at 1.
    cbn [no_err err cst].
    rewrite (next_false_at F i dn b (body ++ BQUOTE :: Y) _ (at_fresh i dn _) Hb2 HF1).
    apply beq_false in Hb1. rewrite Hb1. cbn [eof cst andb orb].
    rewrite IH; auto; [|cbn [length] in Hf; lia]. cbn [rev]. now rewrite <- !app_assoc.
Qed.

Definition render_items (items : list sitem) : bytes := concat (map render_item items).

Lemma interp_loop_at start Y i items : forall dn f,
  forallb wf_item items = true -> length items + 1 <= f ->
  loop f oofs (rs_step F DQUOTE true true start) (cst (render_items items ++ DQUOTE :: Y) dn NUL i)
  = cst Y (DQUOTE :: rev (render_items items) ++ dn) NUL
        (i ++ [skipn start (rev (DQUOTE :: rev (render_items items) ++ dn))]).
Proof.
  induction items as [|it items IH]; intros dn f Hwf Hf.
  - destruct f as [|f]; [cbn in Hf; lia|]. cbn [loop render_items map concat app rev]. unfold rs_step.
    cbn [no_err err cst].
    rewrite (next_false_at F i dn DQUOTE Y _ (at_fresh i dn (DQUOTE :: Y))) by (discriminate || exact HF1).
    rewrite beq_refl. reflexivity.
  - cbn [forallb] in Hwf. apply andb_true_iff in Hwf. destruct Hwf as [Hit Hwf].
    destruct f as [|f]; [cbn in Hf; lia|].
    change (render_items (it :: items)) with (render_item it ++ render_items items).
    rewrite <- app_assoc. cbn [loop]. unfold rs_step at 1. cbn [no_err err cst andb].
    destruct it as [b|e]; cbn [render_item wf_item app] in *.
    + apply andb_true_iff in Hit. destruct Hit as [Hit H4]. apply andb_true_iff in Hit. destruct Hit as [Hit H3].
      apply andb_true_iff in Hit. destruct Hit as [H1 H2].
      apply negb_true_iff in H1, H2, H3, H4.
      rewrite (next_false_at F i dn b _ _ (at_fresh i dn _) (beq_neq _ _ H4) HF1).
      rewrite H1, H2, H3. cbn [eof cst orb].
      rewrite IH; auto; [|cbn [length] in Hf; lia]. cbn [rev]. now rewrite <- !app_assoc.
    + apply negb_true_iff in Hit.
      rewrite (next_false_at F i dn BSLASH _ _ (at_fresh i dn _)) by (discriminate || exact HF1).
      change (beq BSLASH DQUOTE) with false. change (beq BSLASH NL) with false. rewrite beq_refl.
      cbn [eof cst orb].
      rewrite (next_false_at F i (BSLASH :: dn) e _ _ (at_fresh i _ _) (beq_neq _ _ Hit) HF1). cbn [snd].
      rewrite IH; auto; [|cbn [length] in Hf; lia]. cbn [rev]. now rewrite <- !app_assoc.
Qed.

Lemma quote_after_triv q r : q = BQUOTE \/ q = DQUOTE -> after_triv (q :: r) = true.
Proof. intros [-> | ->]; reflexivity. Qed.

Lemma skipn_rev_lit (q : byte) (body dn1 : bytes) :
  skipn (length (q :: dn1) - 1) (rev (q :: rev body ++ q :: dn1)) = q :: body ++ [q].
Proof.
  cbn [length]. rewrite Nat.sub_1_r. cbn [Nat.pred].
  cbn [rev]. rewrite rev_app_distr, rev_involutive. cbn [rev]. rewrite <- !app_assoc. cbn [app].
  rewrite <- (rev_length dn1). apply skipn_length_app.
Qed.

Lemma read_string_at i ts l dn Y s :
  at_ i dn (render_trivia ts ++ render_lit l ++ Y) s -> wf_trivia ts = true -> wf_lit l = true ->
  length (render_trivia ts ++ render_lit l ++ Y) + 4 <= F ->
  read_string F true s
  = cst Y (rev (render_lit l) ++ rev (render_trivia ts) ++ dn) NUL (i ++ [render_lit l]).
Proof.
  intros Hat Hwf Hl HF. rewrite read_string_eq.
  destruct l as [body|items]; cbn [render_lit wf_lit app] in *.
  - rewrite (next_true_at F i dn ts BQUOTE _ s Hat Hwf eq_refl HF).
    rewrite beq_refl.
    apply andb_true_iff in Hl. destruct Hl as [Hq Hz].
    set (dn1 := rev (render_trivia ts) ++ dn).
    cbn [rbuf cst].
    rewrite <- app_assoc. cbn [app]. rewrite raw_loop_at; auto.
    2:{ revert HF. rewrite !app_length. cbn [length]. rewrite !app_length. cbn [length]. lia. }
    rewrite skipn_rev_lit. f_equal. cbn [rev]. rewrite rev_app_distr. cbn [rev app]. now rewrite <- !app_assoc.
  - rewrite (next_true_at F i dn ts DQUOTE _ s Hat Hwf eq_refl HF).
    change (beq DQUOTE BQUOTE) with false. rewrite beq_refl. cbv iota.
    set (dn1 := rev (render_trivia ts) ++ dn).
    cbn [rbuf cst].
    rewrite <- app_assoc. cbn [app]. fold (render_items items).
    rewrite interp_loop_at; auto.
    2:{ revert HF. rewrite !app_length. cbn [length]. rewrite !app_length. cbn [length].
        assert (length items <= length (render_items items)).
        { clear. induction items as [|it items IH]; [cbn; lia|].
          change (render_items (it :: items)) with (render_item it ++ render_items items).
          rewrite app_length. destruct it; cbn [render_item length]; lia. }
        fold (render_items items). lia. }
    rewrite skipn_rev_lit. f_equal. cbn [rev]. rewrite rev_app_distr. cbn [rev app]. now rewrite <- !app_assoc.
Qed.

End Strings.

Section Productions.
Variable F : nat.

Lemma triv_head_after_word t ts Z : wf_triv t = true ->
  after_word (render_trivia (t :: ts) ++ Z) = true.
Proof.
  intros H. rewrite render_trivia_cons, <- app_assoc. destruct t as [b|body|body]; cbn [render_triv app after_word].
  - cbn [wf_triv] in H. rewrite (class_neq is_spacec b NUL H eq_refl).
    destruct (is_ident b) eqn:E; [|reflexivity]. now rewrite (ident_not_space b E) in H.
  - reflexivity.
  - reflexivity.
Qed.

(* the rendering of trivia is empty, or starts with a byte that is no part of a word *)
Lemma trivia_after_word ts Z : wf_trivia ts = true -> after_word Z = true ->
  after_word (render_trivia ts ++ Z) = true.
Proof.
  destruct ts as [|t ts]; [intros _ H; exact H|]. intros H _. cbn [wf_trivia forallb] in H.
  apply andb_true_iff in H. destruct H as [H _]. now apply triv_head_after_word.
Qed.

Lemma lit_after_word l Z : after_word (render_lit l ++ Z) = true.
Proof. destruct l; reflexivity. Qed.

Lemma lit_after_triv l Z : after_triv (render_lit l ++ Z) = true.
Proof. destruct l; reflexivity. Qed.

Lemma is_nil_b_true d : is_nil_b d = true -> d = [].
Proof. destruct d; [reflexivity|discriminate]. Qed.

Lemma spec_head sp Z : wf_spec sp = true ->
  after_triv (render_spec sp ++ Z) = true
  /\ beq (hd NUL (render_spec sp ++ Z)) RPAREN = false
  /\ beq (hd NUL (render_spec sp ++ Z)) LPAREN = false.
Proof.
  unfold wf_spec, render_spec. destruct sp as [n mid l]. cbn [sp_name sp_mid sp_path].
  intros H. apply andb_true_iff in H. destruct H as [H Hl]. apply andb_true_iff in H. destruct H as [Hn Hm].
  destruct n as [| |id]; cbn [render_name app].
  - apply is_nil_b_true in Hn. rewrite Hn. cbn [app]. destruct l; repeat split; reflexivity.
  - repeat split; reflexivity.
  - unfold wf_ident in Hn. apply andb_true_iff in Hn. destruct Hn as [Hne Hid].
    destruct id as [|a id]; [discriminate|]. cbn [forallb] in Hid. apply andb_true_iff in Hid. destruct Hid as [Ha _].
    rewrite <- !app_assoc. cbn [app hd]. split; [now apply ident_after_triv|].
    split; now apply (class_neq is_ident).
Qed.

Lemma read_import_at i sp dn Y s :
  at_ i dn (render_spec sp ++ Y) s -> wf_spec sp = true ->
  length (render_spec sp ++ Y) + 4 <= F ->
  read_import F s = cst Y (rev (render_spec sp) ++ dn) NUL (i ++ spec_paths sp).
Proof.
  intros Hat Hwf HF. assert (HF1 : 1 <= F) by lia.
  destruct (spec_head sp Y Hwf) as [Hh _].
  unfold read_import.
  pose proof (peek_true_at F i dn [] (render_spec sp ++ Y) s Hat eq_refl Hh HF) as Hp.
  cbn [render_trivia map concat rev app] in Hp. rewrite Hp. clear Hp.
  assert (Hok : hd_ok (render_spec sp ++ Y)) by (now apply after_triv_hd_ok).
  pose proof (landed_at i dn _ Hok) as A1.
  unfold wf_spec, render_spec, spec_paths in *. destruct sp as [n mid l]. cbn [sp_name sp_mid sp_path] in *.
  apply andb_true_iff in Hwf. destruct Hwf as [Hwf Hl]. apply andb_true_iff in Hwf. destruct Hwf as [Hn Hm].
  destruct n as [| |id]; cbn [render_name app] in *.
  - (* a bare path *)
    apply is_nil_b_true in Hn. rewrite Hn in *. cbn [app] in *.
    assert (E : beq (hd NUL (render_lit l ++ Y)) DOTB = false /\ is_ident (hd NUL (render_lit l ++ Y)) = false)
      by (destruct l; split; reflexivity).
    destruct E as [E1 E2]. rewrite E1, E2.
    pose proof (read_string_at F HF1 i [] l dn Y _ A1 eq_refl Hl HF) as Hs.
    cbn [render_trivia map concat rev app] in Hs. rewrite Hs. f_equal.
  - (* . "path" *)
    rewrite <- !app_assoc in *. cbn [app] in *. cbn [hd landed]. rewrite beq_refl.
    change (set_peek (cst (render_trivia mid ++ render_lit l ++ Y) (DOTB :: dn) DOTB i) NUL)
      with (cst (render_trivia mid ++ render_lit l ++ Y) (DOTB :: dn) NUL i).
    rewrite (read_string_at F HF1 i mid l (DOTB :: dn) Y _ (at_fresh i _ _) Hm Hl).
    2:{ revert HF. cbn [length]. lia. }
    f_equal. listnorm. reflexivity.
  - (* name "path" *)
    unfold wf_ident in Hn. apply andb_true_iff in Hn. destruct Hn as [Hne Hid].
    destruct id as [|a id]; [discriminate|].
    assert (Ha : is_ident a = true) by (cbn [forallb] in Hid; apply andb_true_iff in Hid; apply Hid).
    rewrite <- !app_assoc in *. cbn [app hd] in *.
    assert (E1 : beq a DOTB = false) by now apply (class_neq is_ident).
    rewrite E1, Ha.
    assert (HW : after_word (render_trivia mid ++ render_lit l ++ Y) = true)
      by (apply trivia_after_word; [exact Hm|apply lit_after_word]).
    pose proof (read_ident_at F i a id [] dn (render_trivia mid ++ render_lit l ++ Y) _ A1 eq_refl Hid HW) as Hi.
    cbn [render_trivia map concat rev app] in Hi. rewrite Hi by exact HF. clear Hi.
    assert (A2 : at_ i (rev (a :: id) ++ dn) (render_trivia mid ++ render_lit l ++ Y)
                   (landed i (rev (a :: id) ++ dn) (render_trivia mid ++ render_lit l ++ Y)))
      by (apply landed_at; now apply after_word_hd_ok).
    change (rev id ++ [a]) with (rev (a :: id)).
    rewrite (read_string_at F HF1 i mid l _ Y _ A2 Hm Hl).
    2:{ revert HF. cbn [length]. rewrite !app_length. lia. }
    f_equal. listnorm. reflexivity.
Qed.

Definition specs_paths (specs : list (list triv * ispec)) : list bytes :=
  concat (map (fun x => spec_paths (snd x)) specs).

Lemma group_loop_at tend Y specs : wf_trivia tend = true -> forall i dn s f,
  at_ i dn (render_specs specs ++ render_trivia tend ++ RPAREN :: Y) s ->
  forallb (fun x => wf_trivia (fst x) && wf_spec (snd x)) specs = true ->
  length specs + 1 <= f ->
  length (render_specs specs ++ render_trivia tend ++ RPAREN :: Y) + 4 <= F ->
  loop f oofs (ig_step F) s
  = landed (i ++ specs_paths specs) (rev (render_trivia tend) ++ rev (render_specs specs) ++ dn) (RPAREN :: Y).
Proof.
  intros Hte. induction specs as [|[t sp] specs IH]; intros i dn s f Hat Hwf Hf HF.
  - destruct f as [|f]; [cbn in Hf; lia|]. cbn [loop render_specs map concat app rev specs_paths] in *.
    unfold ig_step. rewrite (peek_true_at F i dn tend (RPAREN :: Y) s Hat Hte eq_refl HF).
    cbn [hd]. rewrite beq_refl. cbn [negb andb]. now rewrite app_nil_r.
  - cbn [forallb fst snd] in Hwf. apply andb_true_iff in Hwf. destruct Hwf as [Hw1 Hwf].
    apply andb_true_iff in Hw1. destruct Hw1 as [Hwt Hws].
    destruct f as [|f]; [cbn in Hf; lia|].
    change (render_specs ((t, sp) :: specs)) with ((render_trivia t ++ render_spec sp) ++ render_specs specs) in *.
    rewrite <- !app_assoc in *. cbn [loop]. unfold ig_step at 1.
    set (Z := render_specs specs ++ render_trivia tend ++ RPAREN :: Y) in *.
    destruct (spec_head sp Z Hws) as [Hh [Hr _]].
    rewrite (peek_true_at F i dn t (render_spec sp ++ Z) s Hat Hwt Hh HF).
    rewrite Hr. cbn [negb andb].
    assert (Hok : hd_ok (render_spec sp ++ Z)) by (now apply after_triv_hd_ok).
    replace (no_err (landed i (rev (render_trivia t) ++ dn) (render_spec sp ++ Z))) with true
      by (destruct (render_spec sp ++ Z); reflexivity).
    rewrite (read_import_at i sp _ Z _ (landed_at i _ _ Hok) Hws).
    2:{ revert HF. rewrite !app_length. lia. }
    rewrite (IH _ _ _ f (at_fresh _ _ _) Hwf); [|cbn [length] in Hf; lia|revert HF; rewrite !app_length; lia].
    unfold specs_paths. cbn [map concat snd]. rewrite <- !app_assoc. f_equal. listnorm. reflexivity.
Qed.

Lemma import_group_at i dn specs tend Y :
  wf_trivia tend = true -> forallb (fun x => wf_trivia (fst x) && wf_spec (snd x)) specs = true ->
  length (LPAREN :: render_specs specs ++ render_trivia tend ++ RPAREN :: Y) + 4 <= F ->
  import_group F (landed i dn (LPAREN :: render_specs specs ++ render_trivia tend ++ RPAREN :: Y))
  = cst Y (RPAREN :: rev (render_trivia tend) ++ rev (render_specs specs) ++ LPAREN :: dn) NUL (i ++ specs_paths specs).
Proof.
  intros Hte Hwf HF. assert (HF1 : 1 <= F) by lia. rewrite import_group_eq.
  assert (A0 : at_ i dn (LPAREN :: render_specs specs ++ render_trivia tend ++ RPAREN :: Y)
                 (landed i dn (LPAREN :: render_specs specs ++ render_trivia tend ++ RPAREN :: Y)))
    by (apply landed_at; discriminate).
  rewrite (next_false_at F i dn LPAREN _ _ A0) by (discriminate || exact HF1).
  rewrite (group_loop_at tend Y specs Hte i (LPAREN :: dn) _ F (at_fresh _ _ _) Hwf).
  2:{ assert (length specs <= length (render_specs specs)).
      { clear. induction specs as [|[t sp] specs IH]; [cbn; lia|].
        change (render_specs ((t, sp) :: specs)) with ((render_trivia t ++ render_spec sp) ++ render_specs specs).
        rewrite !app_length. unfold render_spec. rewrite !app_length.
        assert (1 <= length (render_lit (sp_path sp))) by (destruct (sp_path sp); cbn; lia).
        cbn [length]. lia. }
      revert HF. cbn [length]. rewrite !app_length. lia. }
  2:{ revert HF. cbn [length]. lia. }
  assert (A1 : at_ (i ++ specs_paths specs) (rev (render_trivia tend) ++ rev (render_specs specs) ++ LPAREN :: dn) (RPAREN :: Y)
                 (landed (i ++ specs_paths specs) (rev (render_trivia tend) ++ rev (render_specs specs) ++ LPAREN :: dn) (RPAREN :: Y)))
    by (apply landed_at; discriminate).
  rewrite (next_false_at F _ _ RPAREN Y _ A1) by (discriminate || exact HF1). reflexivity.
Qed.

Lemma kw_import_eq : kw_import = LOWER_I :: [x6d; x70; x6f; x72; x74].
Proof. reflexivity. Qed.

Lemma decl_after_import d Y : wf_decl d = true ->
  exists Y1, render_decl d ++ Y = kw_import ++ Y1 /\ after_word Y1 = true.
Proof.
  intros Hwf. destruct d as [t1 sp|t1 specs tend]; cbn [render_decl wf_decl] in *.
  - exists (render_trivia t1 ++ render_spec sp ++ Y). split; [now rewrite <- !app_assoc|].
    apply andb_true_iff in Hwf. destruct Hwf as [Hwf Hn]. apply andb_true_iff in Hwf. destruct Hwf as [Ht Hs].
    destruct t1 as [|t t1].
    + cbn [render_trivia map concat app]. unfold wf_spec, render_spec in *. destruct sp as [n mid l].
      cbn [sp_name sp_mid sp_path] in *. destruct n as [| |id]; cbn [render_name app].
      * apply andb_true_iff in Hs. destruct Hs as [Hs _]. apply andb_true_iff in Hs. destruct Hs as [Hs _].
        apply is_nil_b_true in Hs. rewrite Hs. cbn [app]. apply lit_after_word.
      * reflexivity.
      * discriminate.
    + cbn [wf_trivia forallb] in Ht. apply andb_true_iff in Ht. destruct Ht as [Ht _].
      now apply triv_head_after_word.
  - exists (render_trivia t1 ++ LPAREN :: render_specs specs ++ render_trivia tend ++ RPAREN :: Y).
    split; [appnorm; reflexivity|].
    apply andb_true_iff in Hwf. destruct Hwf as [Hwf _]. apply andb_true_iff in Hwf. destruct Hwf as [Ht _].
    apply trivia_after_word; [exact Ht|reflexivity].
Qed.

Lemma import_decl_at i dn d Y : wf_decl d = true -> length (render_decl d ++ Y) + 4 <= F ->
  import_decl F (landed i dn (render_decl d ++ Y))
  = cst Y (rev (render_decl d) ++ dn) NUL (i ++ decl_paths d).
Proof.
  intros Hwf HF. assert (HF1 : 1 <= F) by lia. unfold import_decl.
  destruct (decl_after_import d Y Hwf) as [Y1 [E1 HW1]].
  assert (A0 : at_ i dn (render_trivia [] ++ (LOWER_I :: [x6d; x70; x6f; x72; x74]) ++ Y1)
                 (landed i dn (render_decl d ++ Y))).
  { cbn [render_trivia map concat app]. rewrite E1, kw_import_eq. apply landed_at. discriminate. }
  pose proof (read_keyword_at F i LOWER_I [x6d; x70; x6f; x72; x74] [] dn Y1 _ A0 eq_refl eq_refl eq_refl HW1) as A1.
  rewrite <- kw_import_eq in A1. cbn [render_trivia map concat rev app] in A1.
  assert (HF' : length (kw_import ++ Y1) + 4 <= F) by (rewrite <- E1; exact HF).
  specialize (A1 HF'). set (s1 := read_keyword F kw_import (landed i dn (render_decl d ++ Y))) in *.
  destruct d as [t1 sp|t1 specs tend]; cbn [render_decl wf_decl decl_paths] in *.
  - apply andb_true_iff in Hwf. destruct Hwf as [Hwf Hn]. apply andb_true_iff in Hwf. destruct Hwf as [Ht Hs].
    rewrite <- !app_assoc in E1. apply app_inv_head in E1. subst Y1.
    destruct (spec_head sp Y Hs) as [Hh [_ Hl]].
    rewrite (peek_true_at F i _ t1 (render_spec sp ++ Y) s1 A1 Ht Hh).
    2:{ revert HF'. rewrite !app_length. lia. }
    rewrite Hl.
    rewrite (read_import_at i sp _ Y _ (landed_at i _ _ (after_triv_hd_ok _ Hh)) Hs).
    2:{ revert HF'. rewrite !app_length. lia. }
    f_equal. listnorm. reflexivity.
  - apply andb_true_iff in Hwf. destruct Hwf as [Hwf Hte]. apply andb_true_iff in Hwf. destruct Hwf as [Ht Hsp].
    rewrite <- !app_assoc in E1. apply app_inv_head in E1. cbn [app] in E1. try rewrite <- !app_assoc in E1. subst Y1.
    rewrite (peek_true_at F i _ t1 (LPAREN :: render_specs specs ++ render_trivia tend ++ RPAREN :: Y) s1 A1 Ht eq_refl).
    2:{ revert HF'. rewrite !app_length. lia. }
    cbn [hd]. rewrite beq_refl.
    rewrite (import_group_at i _ specs tend Y Hte Hsp).
    2:{ revert HF'. rewrite !app_length. lia. }
    f_equal. listnorm. reflexivity.
Qed.

Definition decls_paths (decls : list (list triv * idecl)) : list bytes :=
  concat (map (fun x => decl_paths (snd x)) decls).

Lemma stop_rest_after_triv rest : stop_rest rest = true ->
  after_triv rest = true /\ beq (hd NUL rest) LOWER_I = false.
Proof.
  destruct rest as [|c r]; [split; reflexivity|]. cbn [stop_rest stop_byte after_triv hd].
  intros H. apply andb_true_iff in H. destruct H as [H H4]. apply andb_true_iff in H. destruct H as [H H3].
  apply andb_true_iff in H. destruct H as [H1 H2]. rewrite H1, H2, H3. split; [reflexivity|].
  now apply negb_true_iff in H4.
Qed.

Lemma top_loop_at tend rest decls : wf_trivia tend = true -> stop_rest rest = true -> forall i dn s f,
  at_ i dn (render_decls decls ++ render_trivia tend ++ rest) s ->
  forallb (fun x => wf_trivia (fst x) && wf_decl (snd x)) decls = true ->
  length decls + 1 <= f ->
  length (render_decls decls ++ render_trivia tend ++ rest) + 4 <= F ->
  loop f oofs (scan_step F) s
  = landed (i ++ decls_paths decls) (rev (render_trivia tend) ++ rev (render_decls decls) ++ dn) rest.
Proof.
  intros Hte Hst. destruct (stop_rest_after_triv rest Hst) as [Hra Hri].
  induction decls as [|[t d] decls IH]; intros i dn s f Hat Hwf Hf HF.
  - destruct f as [|f]; [cbn in Hf; lia|]. cbn [loop render_decls map concat app rev decls_paths] in *.
    unfold scan_step. rewrite (peek_true_at F i dn tend rest s Hat Hte Hra HF).
    rewrite Hri. now rewrite app_nil_r.
  - cbn [forallb fst snd] in Hwf. apply andb_true_iff in Hwf. destruct Hwf as [Hw1 Hwf].
    apply andb_true_iff in Hw1. destruct Hw1 as [Hwt Hwd].
    destruct f as [|f]; [cbn in Hf; lia|].
    change (render_decls ((t, d) :: decls)) with ((render_trivia t ++ render_decl d) ++ render_decls decls) in *.
    rewrite <- !app_assoc in *. cbn [loop]. unfold scan_step at 1.
    set (Z := render_decls decls ++ render_trivia tend ++ rest) in *.
    assert (Hd : exists R, render_decl d ++ Z = LOWER_I :: R).
    { destruct d; cbn [render_decl]; rewrite kw_import_eq; cbn [app]; eauto. }
    destruct Hd as [R Hd].
    assert (Hh : after_triv (render_decl d ++ Z) = true) by (rewrite Hd; reflexivity).
    rewrite (peek_true_at F i dn t (render_decl d ++ Z) s Hat Hwt Hh HF).
    rewrite Hd at 1. cbn [hd]. rewrite beq_refl.
    rewrite (import_decl_at i _ d Z Hwd).
    2:{ revert HF. rewrite !app_length. lia. }
    rewrite (IH _ _ _ f (at_fresh _ _ _) Hwf); [|cbn [length] in Hf; lia|revert HF; rewrite !app_length; lia].
    unfold decls_paths. cbn [map concat snd]. rewrite <- !app_assoc. f_equal. listnorm. reflexivity.
Qed.

Lemma kw_package_eq : kw_package = x70 :: [x61; x63; x6b; x61; x67; x65].
Proof. reflexivity. Qed.

Lemma decls_length decls : length decls <= length (render_decls decls).
Proof.
  induction decls as [|[t d] decls IH]; [cbn; lia|].
  change (render_decls ((t, d) :: decls)) with ((render_trivia t ++ render_decl d) ++ render_decls decls).
  rewrite !app_length. assert (1 <= length (render_decl d)) by (destruct d; cbn [render_decl]; rewrite kw_import_eq; cbn [app length]; lia).
  cbn [length]. lia.
Qed.

Lemma scan_at g rest : wf_section g rest = true -> length (render_body g ++ rest) + 4 <= F ->
  scan_imports F (cst (render_body g ++ rest) [] NUL [])
  = landed (paths g) (rev (render_body g)) rest.
Proof.
  unfold wf_section, render_body, paths. destruct g as [bm t0 t1 pkg decls tend].
  cbn [f_bom f_t0 f_t1 f_pkg f_decls f_tend]. intros Hwf HF.
  repeat (let H := fresh "W" in apply andb_true_iff in Hwf; destruct Hwf as [Hwf H]).
  rename Hwf into Wt0, W5 into Wt1, W4 into Wne, W3 into Wpkg, W2 into Wdecls, W1 into Wtend, W0 into Wstop, W into HWZ.
  rewrite scan_imports_eq. rewrite <- !app_assoc in *.
  set (Z := render_decls decls ++ render_trivia tend ++ rest) in *.
  (* package *)
  assert (HW1 : after_word (render_trivia t1 ++ pkg ++ Z) = true).
  { destruct t1 as [|t t1]; [discriminate Wne|]. cbn [wf_trivia forallb] in Wt1.
    apply andb_true_iff in Wt1. destruct Wt1 as [Ht _]. now apply triv_head_after_word. }
  rewrite kw_package_eq in *.
  pose proof (read_keyword_at F [] x70 [x61; x63; x6b; x61; x67; x65] t0 [] (render_trivia t1 ++ pkg ++ Z) _
                (at_fresh _ _ _) Wt0 eq_refl eq_refl HW1 HF) as A1.
  rewrite <- kw_package_eq in *.
  set (s1 := read_keyword F kw_package _) in *.
  (* the package name *)
  unfold wf_ident in Wpkg. apply andb_true_iff in Wpkg. destruct Wpkg as [Hne Hid].
  destruct pkg as [|a pkg]; [discriminate Hne|].
  rewrite (read_ident_at F [] a pkg t1 _ Z s1 A1); auto.
  2:{ revert HF. rewrite !app_length. lia. }
  rewrite (top_loop_at tend rest decls Wtend Wstop [] _ _ F (landed_at _ _ _ (after_word_hd_ok _ HWZ)) Wdecls).
  - unfold decls_paths. cbn [app]. f_equal. listnorm. now rewrite app_nil_r.
  - pose proof (decls_length decls). revert HF. unfold Z. rewrite !app_length. lia.
  - revert HF. unfold Z. rewrite !app_length. lia.
Qed.

End Productions.

Lemma body_no_bom g rest : wf_section g rest = true -> has_prefix bom (render_body g ++ rest) = false.
Proof.
  unfold wf_section, render_body. destruct g as [bm t0 t1 pkg decls tend].
  cbn [f_bom f_t0 f_t1 f_pkg f_decls f_tend]. intros Hwf.
  repeat (let H := fresh "W" in apply andb_true_iff in Hwf; destruct Hwf as [Hwf H]).
  destruct t0 as [|t t0].
  - reflexivity.
  - cbn [wf_trivia forallb] in Hwf. apply andb_true_iff in Hwf. destruct Hwf as [Ht _].
    rewrite render_trivia_cons, <- !app_assoc. destruct t as [b|body|body]; cbn [render_triv app].
    + cbn [wf_triv has_prefix bom] in *. now rewrite beq_sym, (class_neq is_spacec b xef Ht eq_refl).
    + reflexivity.
    + reflexivity.
Qed.

Lemma strip_bom_render g rest : wf_section g rest = true ->
  strip_bom (render g ++ rest) = render_body g ++ rest.
Proof.
  intros Hwf. unfold render, strip_bom. destruct (f_bom g).
  - rewrite <- app_assoc. rewrite has_prefix_app. apply skipn_length_app.
  - cbn [app]. now rewrite (body_no_bom g rest Hwf).
Qed.

Theorem read_imports_complete report g rest : wf_section g rest = true ->
  read_imports report (render g ++ rest) = ROk (paths g) (render_body g) ENone.
Proof.
  intros Hwf. unfold read_imports. rewrite (strip_bom_render g rest Hwf). cbv zeta.
  change (init_st (render_body g ++ rest)) with (cst (render_body g ++ rest) [] NUL []).
  rewrite (scan_at _ g rest Hwf) by (unfold fuel_for; lia).
  destruct rest as [|y R]; unfold landed, finish_imports, est, cst; cbn; now rewrite rev_involutive.
Qed.

(* the returned prefix is itself an import section of G with the same paths: reading it
   again gives the same imports and returns it unchanged *)
Definition without_bom (g : isection) : isection :=
  mksection false (f_t0 g) (f_t1 g) (f_pkg g) (f_decls g) (f_tend g).

Lemma after_word_prefix X rest : after_word (X ++ rest) = true -> after_word (X ++ []) = true.
Proof. destruct X; [reflexivity|intros H; exact H]. Qed.

Lemma wf_section_prefix g rest : wf_section g rest = true -> wf_section (without_bom g) [] = true.
Proof.
  unfold wf_section, without_bom. cbn [f_bom f_t0 f_t1 f_pkg f_decls f_tend]. intros Hwf.
  repeat (let H := fresh "W" in apply andb_true_iff in Hwf; destruct Hwf as [Hwf H]).
  rename Hwf into Wt0, W5 into Wt1, W4 into Wne, W3 into Wpkg, W2 into Wdecls, W1 into Wtend, W into HWZ.
  rewrite Wt0, Wt1, Wne, Wpkg, Wdecls, Wtend. cbn [andb stop_rest].
  rewrite app_assoc in HWZ |- *. now apply (after_word_prefix _ rest).
Qed.

Theorem prefix_reparses report g rest : wf_section g rest = true ->
  render (without_bom g) ++ [] = render_body g
  /\ read_imports report (render_body g) = ROk (paths g) (render_body g) ENone.
Proof.
  intros Hwf. pose proof (read_imports_complete report (without_bom g) [] (wf_section_prefix g rest Hwf)) as H.
  unfold render in *. cbn [without_bom f_bom app] in *. rewrite app_nil_r in *.
  split; [reflexivity|exact H].
Qed.

(* BOM, a line comment, newline, package, blank, block comment, p, then
   ;import <interpreted f,escaped quote,m>  newline  import ( x <raw a/b> ; . <interpreted c> )
   newline, an empty line comment; followed by func *)
Definition ex_section : isection :=
  mksection true
    [TLine [x20; x63]; TSp x0a]
    [TSp x20; TBlock [x2a]]
    [x70]
    [ ([TSp x3b], DSingle [] (mkspec NNone [] (SInterp [IPlain x66; IEsc x22; IPlain x6d])));
      ([TSp x0a], DGroup [TSp x20]
          [ ([TSp x0a; TSp x09], mkspec (NId [x78]) [TSp x20] (SRaw [x61; x2f; x62]));
            ([TSp x3b], mkspec NDot [] (SInterp [IPlain x63])) ]
          [TSp x0a]) ]
    [TSp x0a; TLine []].

Example ex_section_wf : wf_section ex_section [x66; x75; x6e; x63] = true.
Proof. vm_compute. reflexivity. Qed.

Example ex_section_read :
  read_imports true (render ex_section ++ [x66; x75; x6e; x63])
  = ROk [[x22; x66; x5c; x22; x6d; x22]; [x60; x61; x2f; x62; x60]; [x22; x63; x22]]
        (render_body ex_section) ENone.
Proof. vm_compute. reflexivity. Qed.

(* the hypothesis of no_report_whole is satisfiable: "x\ny" is not a Go file *)
Example ex_no_report :
  read_imports true [x78; x0a; x79] = ROk [] [x78] ESyntax
  /\ read_imports false [x78; x0a; x79] = ROk [] [x78; x0a; x79] ENone
  /\ read_imports false [x78; x00; x79] = ROk [] [x78; x00] ENUL.
Proof. vm_compute. repeat split. Qed.
