(* Proofs about the model of imports/read.go (Read.v) on arbitrary input: for every byte string the
   reader terminates within its fuel, never reaches the "looping" panic, only returns
   bytes read from the input, and returns the whole input after an unreported syntax
   error. *)
From Coq Require Import List Bool Arith NArith Lia.
From Coq.Strings Require Import Byte.
From GI Require Import Lib.Bytes Lib.BytesFacts Imports.Read.
Import ListNotations.

Lemma loop_inv {A} (J Post : A -> Prop) (m : A -> nat) fuel oof step (a : A) :
  (forall a, J a -> (snd (step a) = true -> J (fst (step a)) /\ m (fst (step a)) < m a)
                    /\ (snd (step a) = false -> Post (fst (step a)))) ->
  J a -> m a < fuel -> Post (loop fuel oof step a).
Proof.
  intros Hstep. revert a. induction fuel as [|f IH]; intros a HJ Hm; [lia|].
  cbn [loop]. destruct (Hstep a HJ) as [Hc He]. destruct (step a) as [a' again]. cbn [fst snd] in *.
  destruct again.
  - destruct (Hc eq_refl) as [HJ' Hlt]. apply IH; [exact HJ'|lia].
  - now apply He.
Qed.

Lemma loop_preserves {A} (J : A -> Prop) n oof step :
  (forall a, J a -> J (oof a)) -> (forall a, J a -> J (fst (step a))) ->
  forall a, J a -> J (loop n oof step a).
Proof.
  intros Ho Hs. induction n as [|n IH]; intros a Ha; cbn [loop]; [now apply Ho|].
  specialize (Hs a Ha). destruct (step a) as [a' again]. cbn [fst] in Hs. destruct again; auto.
Qed.

Lemma loop_ext {A} n oof (f g : A -> A * bool) : (forall a, f a = g a) ->
  forall a, loop n oof f a = loop n oof g a.
Proof.
  intros H. induction n as [|n IH]; intros a; cbn [loop]; [reflexivity|].
  rewrite H. destruct (g a) as [a' [|]]; auto.
Qed.

(* bytes told apart by a class one is in and the other is not *)
Lemma class_neq (P : byte -> bool) b x : P b = true -> P x = false -> beq b x = false.
Proof. intros Hb Hx. destruct (beq b x) eqn:E; [|reflexivity]. apply beq_eq in E. congruence. Qed.

Lemma is_spacec_eq c :
  (((((beq c x20 || beq c x0c) || beq c x09) || beq c x0d) || beq c x0a) || beq c x3b) = is_spacec c.
Proof. destruct c; reflexivity. Qed.

Lemma ident_not_space c : is_ident c = true -> is_spacec c = false.
Proof. intros H. rewrite <- is_spacec_eq. now rewrite !(fun x => class_neq is_ident c x H) by reflexivity. Qed.

(* the loops of Read.v with their bodies by name; the two string loops are one, [esc] telling
   whether newline and backslash are special *)
Definition oofs (s : st) : st := set_fail s FFuel.

Definition lc_step (cs : byte * st) : (byte * st) * bool :=
  let '(c, s) := cs in
  if negb (beq c NL) && no_err s && negb (eof s) then (read_byte s, true) else (cs, false).
Definition bc_step (x : byte * byte * st) : (byte * byte * st) * bool :=
  let '(c, c1, s) := x in
  if (negb (beq c STAR) || negb (beq c1 SLASH)) && no_err s then
    let s := if eof s then syntax_error s else s in
    let (b, s) := read_byte s in ((c1, b, s), true)
  else (x, false).
Definition pk_step (F : nat) (skip : bool) (cs : byte * st) : (byte * st) * bool :=
  let '(c, s) := cs in
  if no_err s && negb (eof s) && skip then
    if is_spacec c then (read_byte s, true)
    else if beq c SLASH then
      let (c, s) := read_byte s in
      let s :=
        if beq c SLASH then snd (line_comment F c s)
        else if beq c STAR then snd (block_comment F c NUL s)
        else syntax_error s in
      (read_byte s, true)
    else (cs, false)
  else (cs, false).
Definition ri_step (F : nat) (s : st) : st * bool :=
  let (c, s) := peek_byte F false s in if is_ident c then (set_peek s NUL, true) else (s, false).
Definition rs_step (F : nat) (q : byte) (esc save : bool) (start : nat) (s : st) : st * bool :=
  if no_err s then
    let (c, s) := next_byte F false s in
    if beq c q then ((if save then add_imp s (buf_from s start) else s), false)
    else
      let s := if eof s || (esc && beq c NL) then syntax_error s else s in
      let s := if esc && beq c BSLASH then snd (next_byte F false s) else s in
      (s, true)
  else (s, false).
Definition ig_step (F : nat) (s : st) : st * bool :=
  let (c, s) := peek_byte F true s in
  if negb (beq c RPAREN) && no_err s then (read_import F s, true) else (s, false).
Definition scan_step (F : nat) (s : st) : st * bool :=
  let (c, s) := peek_byte F true s in
  if beq c LOWER_I then (import_decl F s, true) else (s, false).
Definition drain_step (s : st) : st * bool :=
  if no_err s && negb (eof s) then (snd (read_byte s), true) else (s, false).
Definition import_head (F : nat) (s : st) : st :=
  let (c, s) := peek_byte F true s in
  if beq c DOTB then set_peek s NUL else if is_ident c then read_ident F s else s.

Lemma line_comment_eq F c s : line_comment F c s = loop F oof1 lc_step (c, s).
Proof. reflexivity. Qed.
Lemma block_comment_eq F c c1 s : block_comment F c c1 s = loop F oof2 bc_step (c, c1, s).
Proof. reflexivity. Qed.
Lemma peek_byte_eq F skip s :
  peek_byte F skip s =
  if negb (no_err s) then
    let n := N.succ (nerr s) in
    let s := set_nerr s n in
    (NUL, if N.ltb looping_limit n then set_fail s FPanic else s)
  else
    let (c, s) := if beq (peek s) NUL then read_byte s else (peek s, s) in
    let (c, s) := loop F oof1 (pk_step F skip) (c, s) in
    (c, set_peek s c).
Proof. reflexivity. Qed.
Lemma read_ident_eq F s :
  read_ident F s =
  let (c, s) := peek_byte F true s in
  if negb (is_ident c) then syntax_error s else loop F oofs (ri_step F) s.
Proof. reflexivity. Qed.
Lemma read_string_eq F save s :
  read_string F save s =
  let (q, s) := next_byte F true s in
  if beq q BQUOTE then loop F oofs (rs_step F BQUOTE false save (length (rbuf s) - 1)) s
  else if beq q DQUOTE then loop F oofs (rs_step F DQUOTE true save (length (rbuf s) - 1)) s
  else syntax_error s.
Proof.
  unfold read_string. destruct (next_byte F true s) as [q s1]. destruct (beq q BQUOTE); [|reflexivity].
  apply loop_ext. intros a. unfold rs_step. destruct (no_err a); [|reflexivity].
  destruct (next_byte F false a) as [c a1]. cbn [andb]. now rewrite orb_false_r.
Qed.
Lemma read_import_eq F s : read_import F s = read_string F true (import_head F s).
Proof. unfold read_import, import_head. now destruct (peek_byte F true s). Qed.
Lemma import_group_eq F s :
  import_group F s = let (_, s) := next_byte F false s in snd (next_byte F false (loop F oofs (ig_step F) s)).
Proof. reflexivity. Qed.
Lemma scan_imports_eq F s :
  scan_imports F s = loop F oofs (scan_step F) (read_ident F (read_keyword F kw_package s)).
Proof. reflexivity. Qed.

(* With or without fuel.  [reach q s s']: what any run of the reader from s to s' keeps: the bytes
   read went from the input to r.buf, a failure stays, the eof flag is set on an empty rest only,
   a byte held in r.peek is backed by r.buf; for q = true the list of imports is untouched.
   Every lemma is of the form  reach q a s -> reach q a (f s) , so that a run is followed
   operation by operation from its last state back to its first by [auto with reach]. *)
(* the byte [fst cs], if there is one, has been read into r.buf: of the byte in hand during peekByte,
   and of r.peek itself ([backed (peek s, s)]) *)
Definition backed (cs : byte * st) : Prop := fst cs <> NUL -> rbuf (snd cs) <> [].

Record reach (q : bool) (s s' : st) : Prop := mk_reach {
  r_read : exists x, rest s = x ++ rest s' /\ rbuf s' = rev x ++ rbuf s;
  r_fail : fail s' = FNone -> fail s = FNone;
  r_eof : (eof s = true -> rest s = []) -> eof s' = true -> rest s' = [];
  r_peek : backed (peek s, s) -> backed (peek s', s');
  r_imps : q = true -> imps s' = imps s
}.

Arguments r_read {q s s'}. Arguments r_fail {q s s'}. Arguments r_eof {q s s'}.
Arguments r_peek {q s s'}. Arguments r_imps {q s s'}.

Lemma reach_refl q s : reach q s s.
Proof. constructor; auto. now exists []. Qed.

Lemma reach_trans q s1 s2 s3 : reach q s1 s2 -> reach q s2 s3 -> reach q s1 s3.
Proof.
  intros R1 R2. destruct (r_read R1) as [x [Hx Bx]], (r_read R2) as [y [Hy By]]. constructor.
  - exists (x ++ y). now rewrite Hx, Hy, By, Bx, rev_app_distr, !app_assoc.
  - intros Hf. exact (r_fail R1 (r_fail R2 Hf)).
  - intros W. exact (r_eof R2 (r_eof R1 W)).
  - intros W. exact (r_peek R2 (r_peek R1 W)).
  - intros Hq. now rewrite (r_imps R2 Hq), (r_imps R1 Hq).
Qed.

(* a step that leaves the input, the buffer, the eof flag and the imports alone *)
Lemma reach_fields q s s' :
  rest s' = rest s -> rbuf s' = rbuf s -> eof s' = eof s -> imps s' = imps s ->
  (fail s' = FNone -> fail s = FNone) -> (backed (peek s, s) -> backed (peek s', s)) ->
  reach q s s'.
Proof.
  intros Hr Hb He Hi Hf Hp. constructor; auto.
  - exists []. now rewrite Hr, Hb.
  - now rewrite He, Hr.
  - unfold backed in *. cbn [fst snd] in *. now rewrite Hb.
Qed.

Section Reach.
Variables (q : bool) (a : st).

Lemma reach_set_fail s f : reach q a s -> reach q a (set_fail s f).
Proof.
  intros H. apply (reach_trans _ _ _ _ H). apply reach_fields; auto. cbn. destruct (fail s); congruence.
Qed.

Lemma reach_set_err s e : reach q a s -> reach q a (set_err s e).
Proof. intros H. apply (reach_trans _ _ _ _ H). apply reach_fields; auto. Qed.

Lemma reach_syntax_error s : reach q a s -> reach q a (syntax_error s).
Proof. intros H. unfold syntax_error. destruct (no_err s); [now apply reach_set_err|exact H]. Qed.

Lemma reach_set_peek s c : (backed (peek a, a) -> backed (c, s)) ->
  reach q a s -> reach q a (set_peek s c).
Proof.
  intros Hc R. constructor; [exact (r_read R)|exact (r_fail R)|exact (r_eof R)|intros W; exact (Hc W)|exact (r_imps R)].
Qed.

Lemma reach_clear_peek s : reach q a s -> reach q a (set_peek s NUL).
Proof. apply reach_set_peek. intros _ H. now elim H. Qed.

Lemma reach_read_byte s : reach q a s -> reach q a (snd (read_byte s)).
Proof.
  intros H. apply (reach_trans _ _ _ _ H). unfold read_byte. destruct (rest s) as [|c r] eqn:Er.
  - constructor; cbn; auto. exists []. now rewrite Er.
  - assert (R : reach q s (set_rest_buf s r (c :: rbuf s))).
    { constructor; cbn; auto; try discriminate. 
      - exists [c]. now rewrite Er.
      - intros W E. rewrite (W E) in Er. discriminate. }
    destruct (beq c NUL); cbn [snd]; [|exact R]. destruct (no_err _); [|exact R].
    apply (reach_trans _ _ _ _ R). apply reach_fields; auto.
Qed.

Lemma reach_if (b : bool) s1 s2 : reach q a s1 -> reach q a s2 -> reach q a (if b then s1 else s2).
Proof. now destruct b. Qed.
End Reach.

Lemma reach_of_snd {A} q a (p : A * st) x s : p = (x, s) -> reach q a (snd p) -> reach q a s.
Proof. now intros ->. Qed.
Lemma reach_of_fst {B} q a (p : st * B) s x : p = (s, x) -> reach q a (fst p) -> reach q a s.
Proof. now intros ->. Qed.

Create HintDb reach.
#[export] Hint Resolve reach_refl reach_set_fail reach_set_err reach_syntax_error reach_clear_peek reach_read_byte reach_if : reach.
#[export] Hint Extern 1 (reach _ _ ?s) =>
  match goal with
  | E : ?p = (_, s) |- _ => apply (reach_of_snd _ _ p _ s E)
  | E : ?p = (s, _) |- _ => apply (reach_of_fst _ _ p s _ E)
  end : reach.

Lemma reach_loop {A} (p : A -> st) q a n oof step :
  (forall x, reach q a (p x) -> reach q a (p (oof x))) ->
  (forall x, reach q a (p x) -> reach q a (p (fst (step x)))) ->
  forall x, reach q a (p x) -> reach q a (p (loop n oof step x)).
Proof. apply (loop_preserves (fun x => reach q a (p x))). Qed.

Lemma reach_loops q a n step :
  (forall x, reach q a x -> reach q a (fst (step x))) -> forall x, reach q a x -> reach q a (loop n oofs step x).
Proof. apply (reach_loop (fun s => s)). intros x. apply reach_set_fail. Qed.

Lemma reach_lc_loop q a n cs : reach q a (snd cs) -> reach q a (snd (loop n oof1 lc_step cs)).
Proof.
  apply (reach_loop snd).
  - intros [c s]. apply reach_set_fail.
  - intros [c s] H. unfold lc_step. destruct (_ && _); cbn [fst snd]; auto with reach.
Qed.

Lemma reach_bc_loop q a n x : reach q a (snd x) -> reach q a (snd (loop n oof2 bc_step x)).
Proof.
  apply (reach_loop snd).
  - intros [[c c1] s]. apply reach_set_fail.
  - intros [[c c1] s] H. unfold bc_step. destruct (_ && _); [|exact H].
    destruct (read_byte _) as [b s2] eqn:E. cbn [fst snd] in *. auto with reach.
Qed.

Lemma reach_line_comment q a F c s : reach q a s -> reach q a (snd (line_comment F c s)).
Proof. apply (reach_lc_loop q a F (c, s)). Qed.

Lemma reach_block_comment q a F c c1 s : reach q a s -> reach q a (snd (block_comment F c c1 s)).
Proof. apply (reach_bc_loop q a F (c, c1, s)). Qed.
#[export] Hint Resolve reach_lc_loop reach_bc_loop reach_line_comment reach_block_comment : reach.

(* the byte peekByte has in hand is its starting value or comes from readByte: it has been read, and
   it is not 0 while the reader has neither an error nor seen the end *)
Definition live (cs : byte * st) : Prop := no_err (snd cs) = true -> eof (snd cs) = false -> fst cs <> NUL.

Lemma read_byte_backed s : backed (read_byte s).
Proof.
  unfold backed, read_byte. destruct (rest s) as [|c r]; [intros H; now elim H|].
  destruct (beq c NUL); cbn [fst snd]; [intros H; now elim H|discriminate].
Qed.

Lemma read_byte_live s : live (read_byte s).
Proof.
  unfold live, read_byte. destruct (rest s) as [|c r]; [cbn; discriminate|].
  destruct (beq c NUL) eqn:Ec; cbn [fst snd]; [|intros _ _; now apply beq_neq].
  destruct (no_err (set_rest_buf s r (c :: rbuf s))) eqn:E; cbv iota; [|rewrite E]; discriminate.
Qed.

Lemma pk_loop_reach q a F skip n cs : reach q a (snd cs) -> reach q a (snd (loop n oof1 (pk_step F skip) cs)).
Proof.
  apply (reach_loop snd).
  - intros [c s]. apply reach_set_fail.
  - intros [c s] H. unfold pk_step. destruct (_ && _ && _); [|exact H].
    destruct (is_spacec c); [cbn [fst snd]; auto with reach|]. destruct (beq c SLASH); [|exact H].
    destruct (read_byte s) as [c' s'] eqn:E. cbn [fst snd] in *. auto 12 with reach.
Qed.

#[export] Hint Resolve pk_loop_reach : reach.
#[export] Hint Extern 0 (reach _ _ (snd (_, _))) => cbn [snd] : reach.
#[export] Hint Extern 0 (reach _ _ (fst (_, _))) => cbn [fst] : reach.

Lemma peek_byte_hand (J : byte * st -> Prop) F skip s :
  (forall s, J (read_byte s)) -> (forall c s f, J (c, s) -> J (c, set_fail s f)) ->
  no_err s = true -> (peek s <> NUL -> J (peek s, s)) ->
  let (c, s') := peek_byte F skip s in exists s2, s' = set_peek s2 c /\ J (c, s2).
Proof.
  intros Hr Hf Hn H0. rewrite peek_byte_eq, Hn. cbn [negb].
  assert (H1 : J (if beq (peek s) NUL then read_byte s else (peek s, s))).
  { destruct (beq (peek s) NUL) eqn:E; [apply Hr|apply H0; now apply beq_neq]. }
  destruct (if beq (peek s) NUL then _ else _) as [c s1].
  assert (H2 : J (loop F oof1 (pk_step F skip) (c, s1))).
  { revert H1. apply loop_preserves.
    - intros [c' s']. apply Hf.
    - intros [c' s'] H. unfold pk_step. destruct (_ && _ && _); [|exact H].
      destruct (is_spacec c'); [apply Hr|]. destruct (beq c' SLASH); [|exact H].
      destruct (read_byte s') as [c2 s2]. apply Hr. }
  destruct (loop F oof1 (pk_step F skip) (c, s1)) as [c2 s2]. exists s2. split; [reflexivity|exact H2].
Qed.

Lemma peek_byte_backed F skip s : backed (peek s, s) -> backed (peek_byte F skip s).
Proof.
  intros W. destruct (no_err s) eqn:Hn.
  - pose proof (peek_byte_hand backed F skip s read_byte_backed (fun c s f H => H) Hn (fun _ => W)) as H.
    destruct (peek_byte F skip s) as [c s']. destruct H as [s2 [-> H]]. exact H.
  - rewrite peek_byte_eq, Hn. intros H. now elim H.
Qed.

Lemma peek_byte_live F skip s :
  let p := peek_byte F skip s in
  no_err (snd p) = true -> peek (snd p) = fst p /\ (eof (snd p) = false -> fst p <> NUL).
Proof.
  cbv zeta. destruct (no_err s) eqn:Hn.
  - pose proof (peek_byte_hand live F skip s read_byte_live (fun c s f H => H) Hn (fun H _ _ => H)) as H.
    destruct (peek_byte F skip s) as [c s']. destruct H as [s2 [-> H]]. split; [reflexivity|now apply H].
  - rewrite peek_byte_eq, Hn. cbn [negb fst snd]. destruct (N.ltb _ _); intros H; change (no_err s = true) in H; congruence.
Qed.

Lemma reach_peek_byte q a F skip s : reach q a s -> reach q a (snd (peek_byte F skip s)).
Proof.
  intros H. pose proof (peek_byte_backed F skip s) as B. revert B. rewrite peek_byte_eq. destruct (negb (no_err s)).
  - intros _. cbv zeta. cbn [snd]. apply reach_if; [apply reach_set_fail|]; (apply (reach_trans _ _ _ _ H), reach_fields; auto).
  - assert (H0 : reach q a (snd (if beq (peek s) NUL then read_byte s else (peek s, s))))
      by (destruct (beq (peek s) NUL); auto with reach).
    apply (pk_loop_reach q a F skip F) in H0.
    destruct (if beq (peek s) NUL then _ else _) as [c s1].
    destruct (loop F oof1 (pk_step F skip) (c, s1)) as [c2 s2]. cbn [snd] in *.
    intros B. apply reach_set_peek; [|exact H0]. intros W. apply B, (r_peek H W).
Qed.

Lemma reach_next_byte q a F skip s : reach q a s -> reach q a (snd (next_byte F skip s)).
Proof.
  intros H. apply (reach_peek_byte q a F skip) in H. unfold next_byte.
  destruct (peek_byte F skip s) as [c s1]. now apply reach_clear_peek.
Qed.
#[export] Hint Resolve reach_peek_byte reach_next_byte : reach.

Lemma next_byte_backed F skip s : backed (peek s, s) -> backed (next_byte F skip s).
Proof.
  intros W. pose proof (peek_byte_backed F skip s W) as B. unfold next_byte.
  destruct (peek_byte F skip s) as [c s1]. exact B.
Qed.

Lemma reach_keyword_chars q a F kw : forall s, reach q a s -> reach q a (fst (keyword_chars F kw s)).
Proof.
  induction kw as [|k kw IH]; intros s H; cbn [keyword_chars]; [exact H|].
  destruct (next_byte F false s) as [c s1] eqn:E. destruct (negb (beq c k)); cbn [fst]; auto with reach.
Qed.
#[export] Hint Resolve reach_keyword_chars : reach.

Lemma reach_read_keyword q a F kw s : reach q a s -> reach q a (read_keyword F kw s).
Proof.
  intros H. unfold read_keyword. destruct (peek_byte F true s) as [c0 s0] eqn:E0.
  destruct (keyword_chars F kw s0) as [s1 [|]] eqn:E1; [|auto with reach].
  destruct (peek_byte F false s1) as [c2 s2] eqn:E2. destruct (is_ident c2); auto 12 with reach.
Qed.

Lemma reach_ri_step q a F s : reach q a s -> reach q a (fst (ri_step F s)).
Proof.
  intros H. unfold ri_step. destruct (peek_byte F false s) as [c s1] eqn:E.
  destruct (is_ident c); cbn [fst]; auto with reach.
Qed.
#[export] Hint Resolve reach_loops reach_ri_step : reach.

Lemma reach_read_ident q a F s : reach q a s -> reach q a (read_ident F s).
Proof.
  intros H. rewrite read_ident_eq. destruct (peek_byte F true s) as [c s1] eqn:E.
  destruct (negb (is_ident c)); auto with reach.
Qed.
#[export] Hint Resolve reach_read_keyword reach_read_ident : reach.

Lemma reach_import_head q a F s : reach q a s -> reach q a (import_head F s).
Proof.
  intros H. unfold import_head. destruct (peek_byte F true s) as [c s1] eqn:E.
  destruct (beq c DOTB); [|destruct (is_ident c)]; auto with reach.
Qed.
#[export] Hint Resolve reach_import_head : reach.

(* from readString on the list of imports grows *)
Lemma reach_add_imp a s p : reach false a s -> reach false a (add_imp s p).
Proof.
  intros R. constructor; [exact (r_read R)|exact (r_fail R)|exact (r_eof R)|exact (r_peek R)|discriminate].
Qed.
#[export] Hint Resolve reach_add_imp : reach.

Lemma reach_rs_step a F qt esc save start s :
  reach false a s -> reach false a (fst (rs_step F qt esc save start s)).
Proof.
  intros H. unfold rs_step. destruct (no_err s); [|exact H].
  destruct (next_byte F false s) as [c s1] eqn:E. destruct (beq c qt); cbn [fst]; auto 12 with reach.
Qed.

#[export] Hint Resolve reach_rs_step : reach.

Lemma reach_read_string a F save s : reach false a s -> reach false a (read_string F save s).
Proof.
  intros H. rewrite read_string_eq. destruct (next_byte F true s) as [qt s1] eqn:E.
  auto 6 with reach.
Qed.
#[export] Hint Resolve reach_read_string : reach.

Lemma reach_read_import a F s : reach false a s -> reach false a (read_import F s).
Proof. intros H. rewrite read_import_eq. auto with reach. Qed.
#[export] Hint Resolve reach_read_import : reach.

Lemma reach_ig_step a F s : reach false a s -> reach false a (fst (ig_step F s)).
Proof.
  intros H. unfold ig_step. destruct (peek_byte F true s) as [c s1] eqn:E.
  destruct (_ && _); cbn [fst]; auto with reach.
Qed.

#[export] Hint Resolve reach_ig_step : reach.

Lemma reach_import_group a F s : reach false a s -> reach false a (import_group F s).
Proof.
  intros H. rewrite import_group_eq. destruct (next_byte F false s) as [c s1] eqn:E.
  auto with reach.
Qed.
#[export] Hint Resolve reach_import_group : reach.

Lemma reach_import_decl a F s : reach false a s -> reach false a (import_decl F s).
Proof.
  intros H. unfold import_decl. destruct (peek_byte F true _) as [c s1] eqn:E.
  destruct (beq c LPAREN); auto 8 with reach.
Qed.
#[export] Hint Resolve reach_import_decl : reach.

Lemma reach_scan_step a F s : reach false a s -> reach false a (fst (scan_step F s)).
Proof.
  intros H. unfold scan_step. destruct (peek_byte F true s) as [c s1] eqn:E.
  destruct (beq c LOWER_I); cbn [fst]; auto with reach.
Qed.

#[export] Hint Resolve reach_scan_step : reach.

Lemma reach_scan_imports a F s : reach false a s -> reach false a (scan_imports F s).
Proof.
  intros H. rewrite scan_imports_eq. auto with reach.
Qed.
(* Within the fuel.  [mu] bounds the iterations still to come: every loop of the reader consumes
   a byte, sets the eof flag, sets an error or clears r.peek on each round.  [trans k s s']: a run
   from s to s' that has not failed, has not raised the measure, and has made at most k calls of
   peekByte with an error pending (r.nerr counts them, and 10000 of them are the "looping" panic). *)

Definition mu0 (s : st) : nat :=
  2 * length (rest s) + (if beq (peek s) NUL then 0 else 1) + (if eof s then 0 else 2).
Definition mu (s : st) : nat := mu0 s + (if no_err s then 2 else 0).
Definition wf (s : st) : Prop := no_err s = true -> nerr s = 0%N.

Record trans (k : N) (s s' : st) : Prop := mk_trans {
  t_fail : fail s' = FNone;
  t_mu : mu0 s' <= mu0 s;
  t_err : no_err s' = true -> no_err s = true;
  t_nerr : (nerr s' <= nerr s + k)%N;
  t_wf : wf s'
}.

Arguments t_fail {k s s'}. Arguments t_mu {k s s'}. Arguments t_err {k s s'}.
Arguments t_nerr {k s s'}. Arguments t_wf {k s s'}.

Lemma mu_le s s' : mu0 s' <= mu0 s -> (no_err s' = true -> no_err s = true) -> mu s' <= mu s.
Proof. unfold mu. intros H1 H2. destruct (no_err s'), (no_err s); try lia; specialize (H2 eq_refl); discriminate. Qed.

Lemma mu_lt_strict s s' : mu0 s' < mu0 s -> (no_err s' = true -> no_err s = true) -> mu s' < mu s.
Proof. unfold mu. intros H1 H2. destruct (no_err s'), (no_err s); try lia; specialize (H2 eq_refl); discriminate. Qed.

Lemma mu_lt_err s s' : mu0 s' <= mu0 s -> no_err s = true -> no_err s' = false -> mu s' < mu s.
Proof. unfold mu. intros H1 H2 H3. rewrite H2, H3. lia. Qed.

Lemma trans_mu k s s' : trans k s s' -> mu s' <= mu s.
Proof. intros T. apply mu_le; [apply (t_mu T)|apply (t_err T)]. Qed.

Lemma trans_refl s : wf s -> fail s = FNone -> trans 0 s s.
Proof. intros W Fl. constructor; auto. lia. Qed.

Lemma trans_trans k1 k2 s s1 s2 : trans k1 s s1 -> trans k2 s1 s2 -> trans (k1 + k2) s s2.
Proof.
  intros T1 T2. pose proof (t_mu T1). pose proof (t_mu T2). pose proof (t_nerr T1). pose proof (t_nerr T2).
  constructor; [exact (t_fail T2)|lia|intros Hn; exact (t_err T1 (t_err T2 Hn))|lia|exact (t_wf T2)].
Qed.

Lemma trans_weaken k k' s s' : trans k s s' -> (k <= k')%N -> trans k' s s'.
Proof.
  intros T H. pose proof (t_nerr T). constructor; [exact (t_fail T)|exact (t_mu T)|exact (t_err T)|lia|exact (t_wf T)].
Qed.

Arguments trans_mu {k s s'}. Arguments trans_trans {k1 k2 s s1 s2}. Arguments trans_weaken {k} k' {s s'}.

(* an error newly set, or strict progress afterwards: the measure goes down *)
Lemma mu_lt_after k k' s s1 s2 : trans k s s1 -> trans k' s1 s2 -> no_err s = true ->
  (no_err s1 = true -> mu s2 < mu s1) -> mu s2 < mu s.
Proof.
  intros T1 T2 Hn Hs. pose proof (trans_mu T1). pose proof (trans_mu T2).
  destruct (no_err s1) eqn:E; [specialize (Hs eq_refl); lia|].
  assert (mu s1 < mu s) by (apply mu_lt_err; [apply (t_mu T1)|exact Hn|exact E]). lia.
Qed.

Lemma trans_set_err k s s1 e : trans k s s1 -> e <> ENone -> trans k s (set_err s1 e).
Proof.
  intros [Hfail Hmu Herr Hnerr Hwf] He.
  assert (E : no_err (set_err s1 e) = false) by (destruct e; [contradiction|reflexivity|reflexivity]).
  constructor; auto; [|intros H]; rewrite E in *; discriminate.
Qed.

Lemma syntax_error_no_err s : no_err (syntax_error s) = false.
Proof. unfold syntax_error. destruct (no_err s) eqn:E; [reflexivity|exact E]. Qed.

Lemma syntax_error_mu s : mu (syntax_error s) <= mu s.
Proof.
  unfold syntax_error. destruct (no_err s) eqn:E; [|lia]. unfold mu. rewrite E. change (mu0 (set_err s ESyntax)) with (mu0 s). cbn. lia.
Qed.

Lemma trans_syntax_error k s s1 : trans k s s1 -> trans k s (syntax_error s1).
Proof.
  intros T. unfold syntax_error. destruct (no_err s1); [|exact T]. apply trans_set_err; [exact T|discriminate].
Qed.

Lemma trans_set_peek_nul k s s1 : trans k s s1 -> trans k s (set_peek s1 NUL).
Proof.
  intros [Hfail Hmu Herr Hnerr Hwf]. constructor; auto. unfold mu0 in *. cbn. destruct (beq (peek s1) NUL); lia.
Qed.

Lemma set_peek_nul_strict s : peek s <> NUL -> mu0 (set_peek s NUL) < mu0 s.
Proof. intros H. unfold mu0. cbn. apply beq_false in H. rewrite H. lia. Qed.

Lemma trans_add_imp k s s' p : trans k s s' -> trans k s (add_imp s' p).
Proof. intros [Hfail Hmu Herr Hnerr Hwf]. constructor; auto. Qed.

Lemma trans_read_byte k s s1 : trans k s s1 -> trans k s (snd (read_byte s1)).
Proof.
  intros T. unfold read_byte. destruct (rest s1) as [|c r] eqn:Er; cbn [snd].
  - destruct T as [Hfail Hmu Herr Hnerr Hwf]. constructor; auto. unfold mu0 in *. cbn. rewrite Er in *. destruct (eof s1); cbn in *; lia.
  - assert (T1 : trans k s (set_rest_buf s1 r (c :: rbuf s1))).
    { destruct T as [Hfail Hmu Herr Hnerr Hwf]. constructor; auto. unfold mu0 in *. cbn. rewrite Er in Hmu. cbn [length] in Hmu. lia. }
    destruct (beq c NUL); cbn [snd]; [|exact T1]. destruct (no_err _); [|exact T1].
    apply trans_set_err; [exact T1|discriminate].
Qed.

(* readByte never adds to the measure, and takes 2 off unless the eof flag was set already *)
Lemma read_byte_mu0 s :
  mu0 (snd (read_byte s)) <= mu0 s
  /\ (eof s = false \/ fst (read_byte s) <> NUL -> mu0 (snd (read_byte s)) + 2 <= mu0 s).
Proof.
  unfold read_byte. destruct (rest s) as [|c r] eqn:Er.
  - cbn [fst snd]. unfold mu0. cbn. rewrite Er. split; [destruct (eof s); cbn; lia|].
    intros [->|H]; [cbn; lia|now elim H].
  - assert (H1 : mu0 (set_rest_buf s r (c :: rbuf s)) + 2 <= mu0 s).
    { unfold mu0. cbn. rewrite Er. cbn [length]. lia. }
    destruct (beq c NUL); cbn [snd]; [destruct (no_err _)|]; (split; [|intros _]; (exact H1 || (unfold mu0 in *; cbn in *; lia))).
Qed.

Lemma read_byte_peek s : peek (snd (read_byte s)) = peek s.
Proof.
  unfold read_byte. destruct (rest s) as [|c r]; [reflexivity|].
  destruct (beq c NUL); cbn [snd]; [|reflexivity]. destruct (no_err _); reflexivity.
Qed.

Lemma read_byte_err s : no_err (snd (read_byte s)) = true -> no_err s = true.
Proof.
  unfold read_byte. destruct (rest s) as [|c r]; [auto|].
  destruct (beq c NUL); cbn [snd]; [|auto]. destruct (no_err (set_rest_buf s r (c :: rbuf s))); [discriminate|auto].
Qed.

Lemma read_byte_mu_lt s : eof s = false -> mu (snd (read_byte s)) < mu s.
Proof.
  intros He. apply mu_lt_strict; [|apply read_byte_err]. pose proof (proj2 (read_byte_mu0 s) (or_introl He)). lia.
Qed.

Section WithFuel.
Variable F : nat.

Arguments mu_lt_after {k k' s s1 s2}.

(* [k]: the calls of peekByte with an error pending that the state can still afford *)
Definition pre (k : N) (s : st) : Prop :=
  wf s /\ fail s = FNone /\ mu s < F /\ (nerr s + k <= looping_limit)%N.

Lemma pre_after k1 k2 s s1 : pre (k1 + k2) s -> trans k1 s s1 -> pre k2 s1.
Proof.
  intros [W [Fl [M N]]] T. pose proof (trans_mu T). pose proof (t_nerr T).
  repeat split; [apply (t_wf T)|apply (t_fail T)|lia|lia].
Qed.

Lemma pre_weaken k k' s : pre k s -> (k' <= k)%N -> pre k' s.
Proof. intros [W [Fl [M N]]] H. repeat split; auto. lia. Qed.

Lemma pre_refl k s : pre k s -> trans 0 s s.
Proof. intros [W [Fl _]]. now apply trans_refl. Qed.

Lemma pre_at K k kf s0 s : pre K s0 -> trans k s0 s -> (k + kf <= K)%N -> pre kf s.
Proof. intros P T H. apply (pre_after k kf s0 s); [exact (pre_weaken _ _ _ P H)|exact T]. Qed.
Arguments pre_refl {k s}. Arguments pre_at {K k} kf {s0 s}.

(* [f], which makes at most kf such calls, at the end of a run from s0 that has made k of the K that s0 affords *)
Lemma after K K' k kf s0 s (f : st -> st) :
  (forall a, pre kf a -> trans kf a (f a)) ->
  pre K s0 -> trans k s0 s -> (k + kf <= K')%N -> (K' <= K)%N -> trans K' s0 (f s).
Proof.
  intros Hf P T H1 H2. eapply trans_weaken; [eapply trans_trans; [exact T|]|exact H1].
  apply Hf. apply (pre_at kf P T). lia.
Qed.
Arguments after {K K' k kf s0 s} f.

(* transitions made of readByte / syntaxError only: peek is untouched *)
Definition rtrans (s s' : st) : Prop := trans 0 s s' /\ peek s' = peek s.

Lemma rtrans_read_byte s0 s : rtrans s0 s -> rtrans s0 (snd (read_byte s)).
Proof. intros [T Hp]. split; [now apply trans_read_byte|now rewrite read_byte_peek]. Qed.

Lemma rtrans_syntax_error s0 s : rtrans s0 s -> rtrans s0 (syntax_error s).
Proof.
  intros [T Hp]. split; [now apply trans_syntax_error|]. unfold syntax_error. now destruct (no_err s).
Qed.

Lemma rtrans_refl k s : pre k s -> rtrans s s.
Proof. intros P. split; [exact (pre_refl P)|reflexivity]. Qed.

Lemma rtrans_trans s s1 s2 : rtrans s s1 -> rtrans s1 s2 -> rtrans s s2.
Proof. intros [T1 P1] [T2 P2]. split; [exact (trans_trans T1 T2)|congruence]. Qed.

Lemma line_comment_rtrans c s0 : pre 0 s0 -> rtrans s0 (snd (line_comment F c s0)).
Proof.
  intros P. rewrite line_comment_eq.
  apply (loop_inv (fun cs => rtrans s0 (snd cs)) (fun cs => rtrans s0 (snd cs)) (fun cs => mu (snd cs)));
    [|exact (rtrans_refl _ _ P)|apply P].
  intros [c' s'] T. unfold lc_step. destruct (negb (beq c' NL) && no_err s' && negb (eof s')) eqn:Ec; cbn [fst snd] in *.
  - apply andb_true_iff in Ec. destruct Ec as [_ He]. apply negb_true_iff in He.
    split; [intros _|discriminate]. split; [now apply rtrans_read_byte|now apply read_byte_mu_lt].
  - split; [discriminate|auto].
Qed.

Lemma block_comment_rtrans c c1 s0 : pre 0 s0 -> rtrans s0 (snd (block_comment F c c1 s0)).
Proof.
  intros P. rewrite block_comment_eq.
  apply (loop_inv (fun x => rtrans s0 (snd x)) (fun x => rtrans s0 (snd x)) (fun x => mu (snd x)));
    [|exact (rtrans_refl _ _ P)|apply P].
  intros [[c' c1'] s'] T. unfold bc_step. destruct ((negb (beq c' STAR) || negb (beq c1' SLASH)) && no_err s') eqn:Ec.
  2:{ split; [discriminate|auto]. }
  apply andb_true_iff in Ec. destruct Ec as [_ Hn]. cbn [snd] in T.
  assert (T2 : rtrans s0 (snd (read_byte (if eof s' then syntax_error s' else s')))).
  { apply rtrans_read_byte. destruct (eof s'); [now apply rtrans_syntax_error|exact T]. }
  assert (L : mu (snd (read_byte (if eof s' then syntax_error s' else s'))) < mu s').
  { destruct (eof s') eqn:He; [|now apply read_byte_mu_lt].
    (* the syntax error pays *)
    apply mu_lt_err; [|exact Hn|].
    - pose proof (proj1 (read_byte_mu0 (syntax_error s'))) as H. unfold syntax_error in *. now destruct (no_err s').
    - destruct (no_err (snd (read_byte (syntax_error s')))) eqn:E; [|reflexivity].
      apply read_byte_err in E. now rewrite syntax_error_no_err in E. }
  destruct (read_byte _) as [b s3]. cbn [fst snd] in *. split; [auto|discriminate].
Qed.

(* what the peek loop maintains about the byte in hand *)
Definition peek_ok (s0 : st) (cs : byte * st) : Prop :=
  rtrans s0 (snd cs) /\ (peek s0 = NUL -> fst cs <> NUL -> mu0 (snd cs) + 2 <= mu0 s0).

Lemma read_byte_peek_ok s0 s : rtrans s0 s -> peek_ok s0 (read_byte s).
Proof.
  intros T. split; [now apply rtrans_read_byte|].
  intros _ Hc. pose proof (t_mu (proj1 T)). pose proof (proj2 (read_byte_mu0 s) (or_intror Hc)). lia.
Qed.

Lemma peek_byte_spec K k s0 s skip : pre K s0 -> trans k s0 s -> (k + 1 <= K)%N ->
  let p := peek_byte F skip s in
  trans (k + 1) s0 (snd p) /\ trans 1 s (snd p)
  /\ (no_err s = true -> peek (snd p) = fst p)
  /\ (no_err s = false -> fst p = NUL).
Proof.
  intros P0 T0 HK. cbv zeta.
  enough (H : trans 1 s (snd (peek_byte F skip s)) /\ (no_err s = true -> peek (snd (peek_byte F skip s)) = fst (peek_byte F skip s))
              /\ (no_err s = false -> fst (peek_byte F skip s) = NUL))
    by (split; [exact (trans_trans T0 (proj1 H))|exact H]).
  rewrite peek_byte_eq.
  destruct (pre_after k 1 s0 s (pre_weaken _ _ _ P0 HK) T0) as [W [Fl [M N]]].
  destruct (no_err s) eqn:Hn; cbn [negb].
  2:{ (* an error is pending: count and return 0 *)
    assert (Hlt : N.ltb looping_limit (N.succ (nerr s)) = false) by (apply N.ltb_ge; lia).
    rewrite Hlt. cbn [fst snd].
    assert (E : no_err (set_nerr s (N.succ (nerr s))) = false) by exact Hn.
    split; [|split; [discriminate|reflexivity]].
    constructor; auto; [cbn; lia|intros H; rewrite E in H; discriminate]. }
  (* the first byte in hand *)
  assert (R0 : rtrans s s) by (split; [now apply trans_refl|reflexivity]).
  assert (H0 : peek_ok s (if beq (peek s) NUL then read_byte s else (peek s, s))).
  { destruct (beq (peek s) NUL) eqn:Ep; [now apply read_byte_peek_ok|]. apply beq_neq in Ep.
    split; [exact R0|intros H; contradiction]. }
  destruct (if beq (peek s) NUL then read_byte s else (peek s, s)) as [c0 s00].
  assert (HL : peek_ok s (loop F oof1 (pk_step F skip) (c0, s00))).
  { apply (loop_inv (peek_ok s) (peek_ok s) (fun cs => mu (snd cs))); [|exact H0|].
    2:{ pose proof (trans_mu (proj1 (proj1 H0))). lia. }
    intros [c s1] Hok. unfold pk_step.
    destruct (no_err s1 && negb (eof s1) && skip) eqn:Ec; [|split; [discriminate|auto]].
    apply andb_true_iff in Ec. destruct Ec as [Ec _]. apply andb_true_iff in Ec. destruct Ec as [_ He1].
    apply negb_true_iff in He1. destruct Hok as [T1 Hm1]. cbn [snd] in T1.
    destruct (is_spacec c).
    { split; [intros _|discriminate]. split; [now apply read_byte_peek_ok|now apply read_byte_mu_lt]. }
    destruct (beq c SLASH); [|split; [discriminate|intros _; now split]].
    pose proof (rtrans_read_byte _ _ T1) as T2. pose proof (read_byte_mu_lt s1 He1) as L2.
    destruct (read_byte s1) as [c2 s2]. cbn [fst snd] in T2, L2.
    assert (P2 : pre 0 s2).
    { pose proof (trans_mu (proj1 T1)). apply (pre_after 0 0 s); [repeat split; auto; lia|apply T2]. }
    assert (T3 : rtrans s2 (if beq c2 SLASH then snd (line_comment F c2 s2)
                            else if beq c2 STAR then snd (block_comment F c2 NUL s2) else syntax_error s2)).
    { destruct (beq c2 SLASH); [now apply line_comment_rtrans|].
      destruct (beq c2 STAR); [now apply block_comment_rtrans|]. apply rtrans_syntax_error, (rtrans_refl _ _ P2). }
    pose proof (trans_mu (proj1 T3)). pose proof (rtrans_trans _ _ _ T2 T3) as T4.
    destruct T3 as [_ _]. set (s3 := if beq c2 SLASH then _ else _) in *.
    split; [intros _|discriminate]. split; [now apply read_byte_peek_ok|]. cbn [fst snd].
    pose proof (mu_le _ _ (proj1 (read_byte_mu0 s3)) (read_byte_err s3)). lia. }
  destruct (loop F oof1 (pk_step F skip) (c0, s00)) as [c s']. cbn [fst snd].
  destruct HL as [[T Hp] Hm]. cbn [fst snd] in *.
  split; [|split; [reflexivity|discriminate]].
  destruct T as [Hfail Hmu Herr Hnerr Hwf]. constructor; auto; [|cbn; lia].
  unfold mu0 in *. cbn. rewrite Hp in Hmu.
  destruct (beq c NUL) eqn:Ec; [destruct (beq (peek s) NUL); lia|].
  apply beq_neq in Ec. destruct (beq (peek s) NUL) eqn:Ep; [|lia].
  apply beq_eq in Ep. specialize (Hm Ep Ec). rewrite Hp, Ep in Hm. cbn in Hm. lia.
Qed.

Arguments peek_byte_spec {K k s0 s} skip.

Lemma next_byte_spec K k s0 s skip : pre K s0 -> trans k s0 s -> (k + 1 <= K)%N ->
  let p := next_byte F skip s in
  trans (k + 1) s0 (snd p) /\ trans 1 s (snd p)
  /\ (fst p <> NUL -> mu (snd p) < mu s)
  /\ (fst p = NUL -> no_err (snd p) = false \/ eof (snd p) = true).
Proof.
  intros P0 T0 HK. destruct (peek_byte_spec skip P0 T0 HK) as [T [L [H1 H2]]].
  pose proof (peek_byte_live F skip s) as H3.
  unfold next_byte. destruct (peek_byte F skip s) as [c s1]. cbn [fst snd] in *.
  split; [now apply trans_set_peek_nul|]. split; [now apply trans_set_peek_nul|]. split.
  - intros Hc. destruct (no_err s) eqn:Hn; [|now elim Hc; apply H2].
    apply mu_lt_strict; [|apply (t_err L)]. pose proof (t_mu L).
    pose proof (set_peek_nul_strict s1) as Hs. rewrite (H1 eq_refl) in Hs. specialize (Hs Hc). lia.
  - intros Hc. change (no_err s1 = false \/ eof s1 = true). destruct (no_err s1) eqn:E1; [right|now left].
    destruct (eof s1) eqn:E2; [reflexivity|]. now elim (proj2 (H3 eq_refl) eq_refl).
Qed.

Arguments next_byte_spec {K k s0 s} skip.

(* a loop whose step costs at most k pending-error calls of peekByte, goes round again only
   from an error-free state and then strictly decreases the measure *)
Lemma st_loop_trans (k : N) step :
  (forall a, pre k a ->
       trans k a (fst (step a)) /\ (snd (step a) = true -> mu (fst (step a)) < mu a /\ no_err a = true)) ->
  forall s, pre (k + k) s -> trans (k + k) s (loop F oofs step s).
Proof.
  intros Hstep s P.
  apply (loop_inv (fun a => trans k s a) (fun a => trans (k + k) s a) mu); [| |apply P].
  - intros a T. destruct (Hstep a (pre_after k k s a P T)) as [T' Hc]. split; intros Hs.
    + destruct (Hc Hs) as [Hlt Hn]. split; [|exact Hlt].
      (* the pending-error calls before [a] do not count: [a] is error-free *)
      pose proof (t_nerr T') as Hk. rewrite (t_wf T Hn) in Hk. pose proof (t_mu T). pose proof (t_mu T').
      constructor; [exact (t_fail T')|lia|intros Hn'; exact (t_err T (t_err T' Hn'))|lia|exact (t_wf T')].
    + exact (trans_trans T T').
  - apply (trans_weaken _ (pre_refl P)); lia.
Qed.

Lemma is_ident_nonzero c : is_ident c = true -> c <> NUL.
Proof. now intros H ->. Qed.

(* a keyword that does not start with NUL takes a byte or ends in a syntax error *)
Lemma keyword_chars_spec kw : forall s, pre (N.of_nat (length kw)) s ->
  trans (N.of_nat (length kw)) s (fst (keyword_chars F kw s))
  /\ (hd NUL kw <> NUL -> no_err s = true -> mu (fst (keyword_chars F kw s)) < mu s).
Proof.
  induction kw as [|k kw IH]; intros s P; [split; [exact (pre_refl P)|intros H; now elim H]|].
  cbn [keyword_chars hd length] in *. destruct (next_byte_spec false P (pre_refl P)) as [T1 [_ [Hst _]]]; [lia|].
  destruct (next_byte F false s) as [c s1]. cbn [fst snd] in *.
  destruct (negb (beq c k)) eqn:Ec; cbn [fst].
  - apply trans_syntax_error in T1. split; [apply (trans_weaken _ T1); lia|]. intros _ Hn.
    apply mu_lt_err; [apply (t_mu T1)|exact Hn|apply syntax_error_no_err].
  - apply negb_false_iff, beq_eq in Ec. subst c.
    destruct (IH s1) as [L2 _]; [apply (pre_at _ P T1); lia|].
    split; [apply (trans_weaken _ (trans_trans T1 L2)); lia|].
    intros Hk _. pose proof (trans_mu L2). specialize (Hst Hk). lia.
Qed.

Definition k_kw (kw : bytes) : N := N.of_nat (length kw) + 2.

Lemma read_keyword_spec kw s : pre (k_kw kw) s ->
  trans (k_kw kw) s (read_keyword F kw s)
  /\ (hd NUL kw <> NUL -> no_err s = true -> mu (read_keyword F kw s) < mu s).
Proof.
  unfold k_kw, read_keyword. intros P.
  destruct (peek_byte_spec true P (pre_refl P)) as [T1 _]; [lia|].
  destruct (peek_byte F true s) as [c0 s1]. cbn [fst snd] in T1.
  destruct (keyword_chars_spec kw s1) as [L2 S2]; [apply (pre_at _ P T1); lia|].
  pose proof (trans_trans T1 L2) as T2.
  destruct (keyword_chars F kw s1) as [s2 ok]. cbn [fst] in *.
  assert (H : exists k', (k' <= 1)%N /\ trans k' s2 (if ok then let (c, s3) := peek_byte F false s2 in
                                       if is_ident c then syntax_error s3 else s3 else s2)).
  { destruct ok; [|exists 0%N; split; [lia|apply (@pre_refl 0), (pre_at _ P T2); lia]].
    destruct (peek_byte_spec false P T2) as [_ [L3 _]]; [lia|].
    destruct (peek_byte F false s2) as [c3 s3]. exists 1%N. split; [lia|].
    destruct (is_ident c3); [now apply trans_syntax_error|exact L3]. }
  destruct H as [k' [Hk' L3]]. split.
  - apply (trans_weaken _ (trans_trans T2 L3)). lia.
  - intros Hk Hn. pose proof (trans_mu L3). enough (mu s2 < mu s) by lia.
    exact (mu_lt_after T1 L2 Hn (S2 Hk)).
Qed.

Lemma ri_step_spec a : pre 1 a ->
  trans 1 a (fst (ri_step F a)) /\ (snd (ri_step F a) = true -> mu (fst (ri_step F a)) < mu a /\ no_err a = true).
Proof.
  intros P. unfold ri_step. destruct (peek_byte_spec false P (pre_refl P)) as [_ [L [H1 H2]]]; [lia|].
  destruct (peek_byte F false a) as [c a1]. cbn [fst snd] in *.
  destruct (is_ident c) eqn:Ei; cbn [fst snd]; [|split; [exact L|discriminate]].
  pose proof (is_ident_nonzero _ Ei) as Hc.
  assert (Hn : no_err a = true) by (destruct (no_err a); [reflexivity|now elim Hc; apply H2]).
  split; [now apply trans_set_peek_nul|]. intros _. split; [|exact Hn].
  apply mu_lt_strict; [|apply (t_err L)]. pose proof (t_mu L).
  pose proof (set_peek_nul_strict a1) as Hs. rewrite (H1 Hn) in Hs. specialize (Hs Hc). lia.
Qed.

Lemma read_ident_trans s : pre 3 s -> trans 3 s (read_ident F s).
Proof.
  intros P. rewrite read_ident_eq.
  destruct (peek_byte_spec true P (pre_refl P)) as [T1 _]; [lia|].
  destruct (peek_byte F true s) as [c s1]. cbn [fst snd] in T1.
  destruct (negb (is_ident c)); [apply trans_syntax_error, (trans_weaken _ T1); lia|].
  apply (after _ (st_loop_trans 1 _ ri_step_spec) P T1); lia.
Qed.

Lemma rs_step_spec q esc save start a : q <> NUL -> pre 2 a ->
  let r := rs_step F q esc save start a in
  trans 2 a (fst r) /\ (snd r = true -> mu (fst r) < mu a /\ no_err a = true).
Proof.
  intros Hq P. cbv zeta. unfold rs_step. destruct (no_err a) eqn:Hn; [|split; [apply (trans_weaken _ (pre_refl P)); lia|discriminate]].
  destruct (next_byte_spec false P (pre_refl P)) as [T1 [_ [Hlt Hz]]]; [lia|].
  destruct (next_byte F false a) as [c s1]. cbn [fst snd] in *.
  destruct (beq c q) eqn:Ec; cbn [fst snd].
  { split; [|discriminate]. destruct save; [apply trans_add_imp|]; apply (trans_weaken _ T1); lia. }
  set (s2 := if eof s1 || (esc && beq c NL) then syntax_error s1 else s1).
  assert (T2 : trans (0 + 1) a s2) by (unfold s2; destruct (_ || _); [apply trans_syntax_error|]; exact T1).
  assert (L2 : mu s2 < mu a).
  { destruct (beq c NUL) eqn:E0; [apply beq_eq in E0|apply beq_neq in E0; pose proof (trans_mu T2); specialize (Hlt E0)].
    - apply mu_lt_err; [apply (t_mu T2)|exact Hn|]. unfold s2.
      destruct (Hz E0) as [He|He]; [|rewrite He; apply syntax_error_no_err].
      destruct (_ || _); [apply syntax_error_no_err|exact He].
    - enough (mu s2 <= mu s1) by lia. unfold s2. destruct (_ || _); [apply syntax_error_mu|lia]. }
  assert (T3 : exists k', (k' <= 1)%N /\ trans k' s2 (if esc && beq c BSLASH then snd (next_byte F false s2) else s2)).
  { destruct (esc && beq c BSLASH).
    - exists 1%N. split; [lia|]. now destruct (next_byte_spec false P T2) as [_ [L3 _]]; [lia|].
    - exists 0%N. split; [lia|]. apply (@pre_refl 0), (pre_at _ P T2). lia. }
  destruct T3 as [k' [Hk' T3]]. split; [apply (trans_weaken _ (trans_trans T2 T3)); lia|].
  intros _. split; [|reflexivity]. pose proof (trans_mu T3). lia.
Qed.

Lemma read_string_spec save s : pre 5 s ->
  trans 5 s (read_string F save s) /\ (no_err s = true -> mu (read_string F save s) < mu s).
Proof.
  intros P. rewrite read_string_eq.
  destruct (next_byte_spec true P (pre_refl P)) as [T1 [_ [Hst _]]]; [lia|].
  destruct (next_byte F true s) as [q s1]. cbn [fst snd] in *.
  assert (HL : forall esc, q <> NUL ->
            let s2 := loop F oofs (rs_step F q esc save (length (rbuf s1) - 1)) s1 in
            trans 5 s s2 /\ (no_err s = true -> mu s2 < mu s)).
  { intros esc Hq. cbv zeta.
    assert (L2 := st_loop_trans 2 _ (fun a => rs_step_spec q esc save (length (rbuf s1) - 1) a Hq) s1 (pre_at (2 + 2) P T1 ltac:(lia))).
    split; [apply (trans_weaken _ (trans_trans T1 L2)); lia|].
    intros _. pose proof (trans_mu L2). specialize (Hst Hq). lia. }
  destruct (beq q BQUOTE) eqn:E1; [apply beq_eq in E1; subst q; now apply HL|].
  destruct (beq q DQUOTE) eqn:E2; [apply beq_eq in E2; subst q; now apply HL|].
  apply trans_syntax_error in T1. split; [apply (trans_weaken _ T1); lia|].
  intros Hn. apply mu_lt_err; [apply (t_mu T1)|exact Hn|apply syntax_error_no_err].
Qed.

Lemma import_head_trans s : pre 4 s -> trans 4 s (import_head F s).
Proof.
  intros P. unfold import_head.
  destruct (peek_byte_spec true P (pre_refl P)) as [T1 _]; [lia|].
  destruct (peek_byte F true s) as [c s1]. cbn [fst snd] in T1.
  destruct (beq c DOTB); [apply trans_set_peek_nul, (trans_weaken _ T1); lia|].
  destruct (is_ident c); [apply (after _ read_ident_trans P T1); lia|apply (trans_weaken _ T1); lia].
Qed.

Lemma read_import_spec s : pre 9 s ->
  trans 9 s (read_import F s) /\ (no_err s = true -> mu (read_import F s) < mu s).
Proof.
  intros P. rewrite read_import_eq.
  assert (T1 := import_head_trans s (pre_weaken _ 4 _ P ltac:(lia))).
  destruct (read_string_spec true (import_head F s) (pre_at 5 P T1 ltac:(lia))) as [L2 S2].
  split; [exact (trans_trans T1 L2)|]. intros Hn. exact (mu_lt_after T1 L2 Hn S2).
Qed.

Lemma ig_step_spec a : pre 10 a ->
  trans 10 a (fst (ig_step F a)) /\ (snd (ig_step F a) = true -> mu (fst (ig_step F a)) < mu a /\ no_err a = true).
Proof.
  intros P. unfold ig_step. destruct (peek_byte_spec true P (pre_refl P)) as [T1 _]; [lia|].
  destruct (peek_byte F true a) as [c a1]. cbn [fst snd] in T1.
  destruct (negb (beq c RPAREN) && no_err a1) eqn:Ec; cbn [fst snd]; [|split; [apply (trans_weaken _ T1); lia|discriminate]].
  apply andb_true_iff in Ec. destruct Ec as [_ Hn1].
  destruct (read_import_spec a1 (pre_at 9 P T1 ltac:(lia))) as [L2 S2].
  split; [exact (trans_trans T1 L2)|]. intros _. split; [|apply (t_err T1 Hn1)].
  pose proof (trans_mu T1). specialize (S2 Hn1). lia.
Qed.

Lemma import_group_trans s : pre 22 s -> trans 22 s (import_group F s).
Proof.
  intros P. rewrite import_group_eq.
  destruct (next_byte_spec false P (pre_refl P)) as [T1 _]; [lia|].
  destruct (next_byte F false s) as [c0 s1]. cbn [fst snd] in T1.
  assert (T2 := after _ (st_loop_trans 10 _ ig_step_spec) P T1 (K' := 21) ltac:(lia) ltac:(lia)).
  destruct (next_byte_spec false P T2) as [T3 _]; [lia|exact T3].
Qed.

Lemma import_decl_spec s : pre 31 s ->
  trans 31 s (import_decl F s) /\ (no_err s = true -> mu (import_decl F s) < mu s).
Proof.
  intros P. unfold import_decl.
  pose proof (read_keyword_spec kw_import s) as HK. change (k_kw kw_import) with 8%N in HK.
  destruct (HK (pre_weaken _ 8 _ P ltac:(lia))) as [T1 S1].
  destruct (peek_byte_spec true P T1) as [T2 [L2 _]]; [lia|].
  destruct (peek_byte F true _) as [c s2]. cbn [fst snd] in *.
  assert (H : exists k', (k' <= 22)%N /\ trans k' s2 (if beq c LPAREN then import_group F s2 else read_import F s2)).
  { destruct (beq c LPAREN); [exists 22%N|exists 9%N]; (split; [lia|]);
      [apply import_group_trans|apply read_import_spec]; apply (pre_at _ P T2); lia. }
  destruct H as [k' [Hk' L3]]. split; [apply (trans_weaken _ (trans_trans T2 L3)); lia|].
  intros Hn. pose proof (trans_mu L2). pose proof (trans_mu L3).
  assert (mu (read_keyword F kw_import s) < mu s) by (apply S1; [discriminate|exact Hn]). lia.
Qed.

Lemma scan_step_spec a : pre 32 a ->
  trans 32 a (fst (scan_step F a)) /\ (snd (scan_step F a) = true -> mu (fst (scan_step F a)) < mu a /\ no_err a = true).
Proof.
  intros P. unfold scan_step. destruct (peek_byte_spec true P (pre_refl P)) as [T1 [_ [_ H2]]]; [lia|].
  destruct (peek_byte F true a) as [c a1]. cbn [fst snd] in *.
  destruct (beq c LOWER_I) eqn:Ec; cbn [fst snd]; [|split; [apply (trans_weaken _ T1); lia|discriminate]].
  apply beq_eq in Ec. subst c.
  assert (Hn : no_err a = true) by (destruct (no_err a); [reflexivity|now discriminate H2]).
  destruct (import_decl_spec a1 (pre_at 31 P T1 ltac:(lia))) as [L2 S2].
  split; [exact (trans_trans T1 L2)|]. intros _. split; [|exact Hn]. exact (mu_lt_after T1 L2 Hn S2).
Qed.

Lemma scan_imports_trans s : pre 76 s -> trans 76 s (scan_imports F s).
Proof.
  intros P. rewrite scan_imports_eq.
  pose proof (read_keyword_spec kw_package s) as HK. change (k_kw kw_package) with 9%N in HK.
  destruct (HK (pre_weaken _ 9 _ P ltac:(lia))) as [T1 _].
  assert (T2 := after _ read_ident_trans P T1 (K' := 12) ltac:(lia) ltac:(lia)).
  apply (after _ (st_loop_trans 32 _ scan_step_spec) P T2); lia.
Qed.

End WithFuel.

Lemma loop_exit {A} n oof step (a : A) :
  exists b, loop n oof step a = oof b \/ (loop n oof step a = fst (step b) /\ snd (step b) = false).
Proof.
  revert a. induction n as [|n IH]; intros a; cbn [loop]; [eauto|].
  destruct (step a) as [a' [|]] eqn:E; [apply IH|]. exists a. right. now rewrite E.
Qed.

Lemma set_fail_fuel s : fail (set_fail s FFuel) <> FNone.
Proof. cbn. destruct (fail s); discriminate. Qed.

Lemma reach_inp q s s' : reach q s s' -> rev (rbuf s') ++ rest s' = rev (rbuf s) ++ rest s.
Proof. intros R. destruct (r_read R) as [x [Hx Hb]]. now rewrite Hb, Hx, rev_app_distr, rev_involutive, <- app_assoc. Qed.

Lemma init_pre input : pre (fuel_for input) 76 (init_st input).
Proof. unfold pre, init_st, wf, fuel_for, mu, mu0, looping_limit. cbn. repeat split; lia. Qed.

Definition scan (input : bytes) : st := scan_imports (fuel_for input) (init_st input).

Lemma scan_trans input : trans 76 (init_st input) (scan input).
Proof. apply scan_imports_trans, init_pre. Qed.

Lemma scan_reach input : reach false (init_st input) (scan input).
Proof. apply reach_scan_imports, reach_refl. Qed.

Lemma scan_inp input : rev (rbuf (scan input)) ++ rest (scan input) = input.
Proof. apply (reach_inp _ _ _ (scan_reach input)). Qed.

(* after the scan: an error-free state that is not at EOF holds the byte that stopped it *)
Lemma scan_stop input : no_err (scan input) = true -> eof (scan input) = false -> rbuf (scan input) <> [].
Proof.
  intros Hn He. apply (r_peek (scan_reach input)); [intros H; now elim H|].
  revert Hn He. pose proof (t_fail (scan_trans input)) as Fl. revert Fl. unfold scan. rewrite scan_imports_eq.
  destruct (loop_exit (fuel_for input) oofs (scan_step (fuel_for input)) (read_ident (fuel_for input) (read_keyword (fuel_for input) kw_package (init_st input)))) as [b [->|[-> Hb]]].
  - intros Fl. now elim (set_fail_fuel b).
  - intros _. unfold scan_step in *. pose proof (peek_byte_live (fuel_for input) true b) as H.
    destruct (peek_byte (fuel_for input) true b) as [c b1]. destruct (beq c LOWER_I); [discriminate|]. cbn [fst snd] in *.
    intros Hn He. destruct (H Hn) as [-> Hc]. auto.
Qed.

Lemma read_byte_err_kind s :
  fail (snd (read_byte s)) = fail s
  /\ (err (snd (read_byte s)) = err s \/ (err s = ENone /\ err (snd (read_byte s)) = ENUL)).
Proof.
  unfold read_byte. destruct (rest s) as [|c r]; [auto|]. destruct (beq c NUL); cbn [snd]; [|auto].
  unfold no_err. cbn. destruct (err s) eqn:E; cbn; auto.
Qed.

Lemma reach_drain_step q a s : reach q a s -> reach q a (fst (drain_step s)).
Proof. intros H. unfold drain_step. destruct (_ && _); cbn [fst]; auto with reach. Qed.
#[export] Hint Resolve reach_drain_step : reach.

Lemma drain_spec F s0 :
  fail s0 = FNone -> (eof s0 = true -> rest s0 = []) -> err s0 = ENone -> mu0 s0 < F ->
  let s' := loop F oofs drain_step s0 in
  fail s' = FNone /\ reach true s0 s' /\ ((err s' = ENone /\ rest s' = []) \/ err s' = ENUL).
Proof.
  intros Fl W2 He M. cbv zeta.
  apply (loop_inv (fun a => fail a = FNone /\ reach true s0 a /\ (err a = ENone \/ err a = ENUL))
                  (fun a => fail a = FNone /\ reach true s0 a /\ ((err a = ENone /\ rest a = []) \/ err a = ENUL)) mu0);
    [|split; [exact Fl|split; [apply reach_refl|now left]]|exact M].
  intros a [Ja [Jb Jc]]. unfold drain_step. destruct (no_err a && negb (eof a)) eqn:Ec; cbn [fst snd].
  - apply andb_true_iff in Ec. destruct Ec as [_ Hf]. apply negb_true_iff in Hf.
    destruct (read_byte_err_kind a) as [B1 B2]. split; [intros _|discriminate]. split.
    + split; [congruence|]. split; [now apply reach_read_byte|]. destruct B2 as [B2|[_ B2]]; [rewrite B2; exact Jc|now right].
    + pose proof (proj2 (read_byte_mu0 a) (or_introl Hf)). lia.
  - split; [discriminate|]. intros _. split; [exact Ja|]. split; [exact Jb|].
    apply andb_false_iff in Ec. destruct Jc as [Jc|Jc]; [|now right]. left. split; [exact Jc|].
    destruct Ec as [Hn|Hf]; [unfold no_err in Hn; rewrite Jc in Hn; discriminate|].
    apply negb_false_iff in Hf. now apply (r_eof Jb).
Qed.

(* the last part of ReadImports from the state [s] after the scan: the imports are those of s; stopped
   at a byte: what was read without that byte, and no error; otherwise, unless a syntax error is to
   be hidden: what was read and the error of s; a hidden syntax error: the whole input and no error,
   or the NUL error when the rest holds a NUL *)
Lemma finish_spec report input :
  let s := scan input in
  let '(s', out, e) := finish_imports (fuel_for input) report s in
  fail s' = FNone /\ imps s' = imps s /\ (exists tl, input = out ++ tl)
  /\ (no_err s && negb (eof s) = true -> out = rev (tl (rbuf s)) /\ e = ENone)
  /\ (no_err s && negb (eof s) = false -> report = true \/ err s <> ESyntax -> out = rev (rbuf s) /\ e = err s)
  /\ (err s = ESyntax -> report = false -> (e = ENone /\ out = input) \/ e = ENUL).
Proof.
  cbv zeta. pose proof (scan_trans input) as T. pose proof (scan_stop input) as Q. pose proof (scan_inp input) as Hi.
  pose proof (r_eof (scan_reach input)) as W2.
  set (s := scan input) in *. unfold finish_imports.
  destruct (no_err s && negb (eof s)) eqn:Ec.
  - apply andb_true_iff in Ec. destruct Ec as [Hn Hf]. apply negb_true_iff in Hf.
    destruct (rbuf s) as [|x b] eqn:Eb; [now elim (Q Hn Hf)|].
    split; [apply (t_fail T)|]. split; [reflexivity|]. split.
    + exists (x :: rest s). rewrite <- Hi. cbn [rev]. now rewrite <- app_assoc.
    + split; [now split|]. split; [discriminate|]. intros He. unfold no_err in Hn. rewrite He in Hn. discriminate.
  - assert (Hplain : fail s = FNone /\ imps s = imps s /\ (exists tl, input = rev (rbuf s) ++ tl)).
    { split; [apply (t_fail T)|]. split; [reflexivity|]. exists (rest s). now rewrite <- Hi. }
    destruct (err s) eqn:Ee; [destruct Hplain as [a [b c]]; repeat split; auto; discriminate| |
                              destruct Hplain as [a [b c]]; repeat split; auto; discriminate].
    destruct report; cbn [negb]; [destruct Hplain as [a [b c]]; repeat split; auto; discriminate|].
    change (fun s0 : st => set_fail s0 FFuel) with oofs.
    change (fun s0 : st => if no_err s0 && negb (eof s0) then (snd (read_byte s0), true) else (s0, false)) with drain_step.
    assert (M : mu0 (set_err s ENone) < fuel_for input).
    { pose proof (trans_mu T) as Hm. destruct (init_pre input) as [_ [_ [Hlt _]]].
      unfold mu in Hm at 1. change (mu0 (set_err s ENone)) with (mu0 s). lia. }
    destruct (drain_spec (fuel_for input) (set_err s ENone) (t_fail T)) as [D1 [D2 D4]];
      [apply W2; discriminate|reflexivity|exact M|].
    set (s' := loop (fuel_for input) oofs drain_step (set_err s ENone)) in *.
    pose proof (reach_inp _ _ _ D2) as D3. change (rev (rbuf s') ++ rest s' = rev (rbuf s) ++ rest s) in D3.
    split; [exact D1|]. split; [exact (r_imps D2 eq_refl)|]. split; [exists (rest s'); now rewrite <- Hi, <- D3|].
    split; [discriminate|]. split; [intros _ [H|H]; [discriminate|now elim H]|].
    intros _ _. destruct D4 as [[D4 D5]|D4]; [left|now right]. split; [exact D4|].
    rewrite <- Hi, <- D3, D5. symmetry. apply app_nil_r.
Qed.

Lemma read_imports_spec report input :
  let s := scan (strip_bom input) in
  exists out e, read_imports report input = ROk (imps s) out e
  /\ (exists tl, strip_bom input = out ++ tl)
  /\ (no_err s && negb (eof s) = true -> out = rev (tl (rbuf s)) /\ e = ENone)
  /\ (no_err s && negb (eof s) = false -> report = true \/ err s <> ESyntax -> out = rev (rbuf s) /\ e = err s)
  /\ (err s = ESyntax -> report = false -> (e = ENone /\ out = strip_bom input) \/ e = ENUL).
Proof.
  cbv zeta. unfold read_imports. pose proof (finish_spec report (strip_bom input)) as H. cbv zeta in H. unfold scan in *.
  destruct (finish_imports _ report _) as [[s' out] e]. destruct H as [-> [-> H]]. now exists out, e.
Qed.

Theorem read_total report input :
  exists imports out e, read_imports report input = ROk imports out e.
Proof. destruct (read_imports_spec report input) as [out [e [H _]]]. eauto. Qed.

Corollary read_no_panic report input :
  read_imports report input <> RPanic /\ read_imports report input <> RFuel.
Proof. destruct (read_total report input) as [i [o [e H]]]. rewrite H. split; discriminate. Qed.

Lemma strip_bom_cases input : input = strip_bom input \/ input = bom ++ strip_bom input.
Proof.
  unfold strip_bom. destruct (has_prefix bom input) eqn:E; [right|now left].
  apply has_prefix_iff in E. destruct E as [x ->]. now rewrite skipn_length_app.
Qed.

Theorem output_is_prefix report input imports out e :
  read_imports report input = ROk imports out e ->
  (exists tl, strip_bom input = out ++ tl)
  /\ (input = strip_bom input \/ input = bom ++ strip_bom input).
Proof.
  destruct (read_imports_spec report input) as [o [e' [-> [Hp _]]]].
  intros [= _ <- _]. split; [exact Hp|apply strip_bom_cases].
Qed.

(* a syntax error that would be reported with reportSyntaxError=true gives, with false, the
   whole input (byte-order mark aside) and a nil error -- or the NUL error, when the bytes
   that follow contain a NUL byte (readByte records it while the rest is being consumed) *)
Theorem no_report_whole input imports out :
  read_imports true input = ROk imports out ESyntax ->
  read_imports false input = ROk imports (strip_bom input) ENone
  \/ exists out', read_imports false input = ROk imports out' ENUL.
Proof.
  destruct (read_imports_spec true input) as [o1 [e1 [-> [_ [A1 [B1 _]]]]]].
  destruct (read_imports_spec false input) as [o0 [e0 [-> [_ [_ [_ C0]]]]]].
  set (s := scan (strip_bom input)) in *. clearbody s. intros [= <- _ He].
  assert (Hs : err s = ESyntax).
  { destruct (no_err s && negb (eof s)); [destruct (A1 eq_refl); congruence|].
    destruct (B1 eq_refl (or_introl eq_refl)). congruence. }
  destruct (C0 Hs eq_refl) as [[-> ->]| ->]; eauto.
Qed.

(* without a syntax error the two modes return the same imports, bytes and error *)
Theorem report_flag_only_on_syntax_error input imports out e :
  read_imports true input = ROk imports out e -> e <> ESyntax ->
  read_imports false input = ROk imports out e.
Proof.
  destruct (read_imports_spec true input) as [o1 [e1 [-> [_ [A1 [B1 _]]]]]].
  destruct (read_imports_spec false input) as [o0 [e0 [-> [_ [A0 [B0 _]]]]]].
  set (s := scan (strip_bom input)) in *. clearbody s. intros [= <- <- <-] Hne.
  destruct (no_err s && negb (eof s)).
  - destruct (A1 eq_refl) as [-> ->], (A0 eq_refl) as [-> ->]. reflexivity.
  - destruct (B1 eq_refl (or_introl eq_refl)) as [-> ->]. now destruct (B0 eq_refl (or_intror Hne)) as [-> ->].
Qed.

(* with reportSyntaxError=false a syntax error is never returned: the error is nil or the NUL error *)
Theorem no_report_no_syntax_error input imports out e :
  read_imports false input = ROk imports out e -> e <> ESyntax.
Proof.
  destruct (read_imports_spec false input) as [o0 [e0 [-> [_ [A0 [B0 C0]]]]]].
  set (s := scan (strip_bom input)) in *. clearbody s. intros [= _ _ <-] He. subst e0.
  assert (Hs : err s = ESyntax).
  { destruct (no_err s && negb (eof s)); [now destruct (A0 eq_refl)|].
    destruct (err s) eqn:Es; [|reflexivity|]; (destruct (B0 eq_refl) as [_ E]; [right; discriminate|discriminate E]). }
  destruct (C0 Hs eq_refl) as [[E _]|E]; discriminate.
Qed.

(* both modes return the same imports: the flag never changes what was found *)
Theorem report_flag_same_imports input i1 o1 e1 i0 o0 e0 :
  read_imports true input = ROk i1 o1 e1 -> read_imports false input = ROk i0 o0 e0 -> i1 = i0.
Proof.
  destruct (read_imports_spec true input) as [a1 [b1 [-> _]]]. destruct (read_imports_spec false input) as [a0 [b0 [-> _]]].
  now intros [= <- _ _] [= <- _ _].
Qed.

(* non-vacuity: a file read without error; an import path broken by a newline (a syntax error
   when requested, the whole input and no error otherwise); a NUL inside a path literal (the
   NUL error in both modes) *)
Example ex_flag_valid :
  read_imports true [x70; x61; x63; x6b; x61; x67; x65; x20; x70; x0a; x69; x6d; x70; x6f; x72; x74; x20; x22; x61; x22; x0a; x78] = ROk [[x22; x61; x22]] [x70; x61; x63; x6b; x61; x67; x65; x20; x70; x0a; x69; x6d; x70; x6f; x72; x74; x20; x22; x61; x22; x0a] ENone
  /\ read_imports false [x70; x61; x63; x6b; x61; x67; x65; x20; x70; x0a; x69; x6d; x70; x6f; x72; x74; x20; x22; x61; x22; x0a; x78] = ROk [[x22; x61; x22]] [x70; x61; x63; x6b; x61; x67; x65; x20; x70; x0a; x69; x6d; x70; x6f; x72; x74; x20; x22; x61; x22; x0a] ENone.
Proof. vm_compute. split; reflexivity. Qed.

Example ex_flag_newline_in_path :
  read_imports true [x70; x61; x63; x6b; x61; x67; x65; x20; x70; x0a; x69; x6d; x70; x6f; x72; x74; x20; x22; x61; x0a; x62; x22; x0a; x76; x61; x72; x20; x78; x20; x3d; x20; x31; x0a] = ROk [] [x70; x61; x63; x6b; x61; x67; x65; x20; x70; x0a; x69; x6d; x70; x6f; x72; x74; x20; x22; x61; x0a] ESyntax
  /\ read_imports false [x70; x61; x63; x6b; x61; x67; x65; x20; x70; x0a; x69; x6d; x70; x6f; x72; x74; x20; x22; x61; x0a; x62; x22; x0a; x76; x61; x72; x20; x78; x20; x3d; x20; x31; x0a] = ROk [] [x70; x61; x63; x6b; x61; x67; x65; x20; x70; x0a; x69; x6d; x70; x6f; x72; x74; x20; x22; x61; x0a; x62; x22; x0a; x76; x61; x72; x20; x78; x20; x3d; x20; x31; x0a] ENone.
Proof. vm_compute. split; reflexivity. Qed.

Example ex_flag_nul_in_path :
  read_imports true [x70; x61; x63; x6b; x61; x67; x65; x20; x70; x0a; x69; x6d; x70; x6f; x72; x74; x20; x22; x61; x00; x22] = ROk [] [x70; x61; x63; x6b; x61; x67; x65; x20; x70; x0a; x69; x6d; x70; x6f; x72; x74; x20; x22; x61; x00] ENUL
  /\ read_imports false [x70; x61; x63; x6b; x61; x67; x65; x20; x70; x0a; x69; x6d; x70; x6f; x72; x74; x20; x22; x61; x00; x22] = ROk [] [x70; x61; x63; x6b; x61; x67; x65; x20; x70; x0a; x69; x6d; x70; x6f; x72; x74; x20; x22; x61; x00] ENUL.
Proof. vm_compute. split; reflexivity. Qed.
