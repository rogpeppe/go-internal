(* Gen/ImportsReadSrc.v is imports/read.go (the import reader behind ReadImports) translated to
   Gallina by harness/go2coq on every run.  This file proves that each generated function
   returns Ok of exactly what the hand-written model Imports/Read.v computes:

   - the reader of the source is a function [abs] of the model's state (r.buf is the model's
     reversed buffer, the bufio.Reader its unread input, r.err the image [err_of] of the
     model's error kind, r.nerr the counter as an int); the model's sticky failure flag and
     its list of imports have no counterpart in the struct: *imports is [absI];
   - isIdent, syntaxError, readByte: for every state, unconditionally;
   - peekByte, nextByte, readKeyword, readIdent, readString, readImport: for every state s,
     every F within which the MODEL's run from s ends with its failure flag clear (neither the
     "import reader looping" panic nor the model's own fuel F exhausted) and every bound
     fuel >= F on the iterations of each loop of the translation; readString / readImport in
     addition for states in which a byte held in r.peek is in r.buf ([pkwf], an invariant of
     every state the reader reaches from newImportReader): the slice r.buf[start:] needs it;
   - ReadImports: for every input, both values of reportSyntaxError, every *imports, and
     every fuel >= 2 * len(data) + 8 (Imports/ReadFacts.v shows that the model's run from
     the initial state ends with the flag clear within fuel_for = 2 * len + 8).

   So the translated functions never panic (no slice expression out of range, no nil
   dereference of *imports, no "looping" panic) and never exhaust the bound, and a change of
   read.go that changes the generated text stops these proofs from compiling.

   Functions are unfolded, conditions are rewritten to the model's, loops go by induction on
   the model's iteration count with the translation's count generalised.  What the model's run keeps
   between two of its states is ReadFacts.reach: that the failure flag is sticky turns "clear
   at the end" into "clear at every intermediate state" ([sticky]); r.buf only grows, a byte
   in r.peek stays backed and the reader proper leaves the imports alone ([reach_kept]). *)
From Coq Require Import List Bool Arith ZArith NArith Lia ZifyBool.
From Coq.Strings Require Import Byte.
From GI Require Import Lib.Bytes Lib.BytesFacts Lib.GoSem Lib.GoSemExt Lib.GoSemExtFacts Lib.GoSemIO
  Imports.Read Imports.ReadFacts Imports.ReadSrcLib Gen.ImportsReadSrc.
Import ListNotations.
Local Open Scope nat_scope.

Definition err_of (e : errk) : goerr :=
  match e with ENone => ErrNil | ESyntax => src_errSyntax | ENUL => src_errNUL end.

Definition abs (s : st) : ireader :=
  mk_ireader (rest s) (rev (rbuf s)) (peek s) (err_of (err s)) (eof s) (Z.of_N (nerr s)).

Lemma err_of_nil e : goerr_eqb (err_of e) ErrNil = match e with ENone => true | _ => false end.
Proof. destruct e; reflexivity. Qed.
Lemma err_of_syntax e : goerr_eqb (err_of e) src_errSyntax = match e with ESyntax => true | _ => false end.
Proof. destruct e; reflexivity. Qed.
Lemma goerr_consts :
  goerr_eqb ErrNil ErrNil = true /\ goerr_eqb src_errNUL ErrNil = false /\ goerr_eqb src_errNUL go_io_EOF = false
  /\ goerr_eqb go_io_EOF ErrNil = false /\ goerr_eqb go_io_EOF go_io_EOF = true.
Proof. repeat split. Qed.
(* rewrites the comparisons between the error constants ([goerr_consts]) to their values *)
Ltac err_red :=
  let H := fresh in
  pose proof goerr_consts as H; destruct H as (?E1 & ?E2 & ?E3 & ?E4 & ?E5);
  rewrite ?E1, ?E2, ?E3, ?E4, ?E5; clear E1 E2 E3 E4 E5.
Lemma abs_no_err s : goerr_eqb (ir_err (abs s)) ErrNil = no_err s.
Proof. cbn [abs ir_err]. apply err_of_nil. Qed.

Lemma err_of_no_err s : goerr_eqb (err_of (err s)) ErrNil = no_err s.
Proof. apply err_of_nil. Qed.

Lemma src_consts :
  x00 = NUL /\ x2f = SLASH /\ x2a = STAR /\ x60 = BQUOTE /\ x22 = DQUOTE /\ x5c = BSLASH /\ x28 = LPAREN
  /\ x29 = RPAREN /\ x2e = DOTB /\ x69 = LOWER_I /\ x0a = NL /\ 10000%Z = Z.of_N looping_limit /\ src_bom = bom
  /\ [x70; x61; x63; x6b; x61; x67; x65] = kw_package /\ [x69; x6d; x70; x6f; x72; x74] = kw_import.
Proof. repeat split. Qed.

(* [go_red] of Lib/GoSemExtFacts.v with [abs] and the fields of the reader added to what is unfolded *)
Ltac rd_red :=
  cbv beta iota zeta;
  cbn [bind bindT bindO bindL negb orb andb fst snd opt_res returned app
       abs ir_b ir_buf ir_peek ir_err ir_eof ir_nerr].

(* the record the translated code builds is [abs] of the model state [s'] *)
Ltac fold_abs s' :=
  match goal with
  | |- context [mk_ireader ?a ?b ?c ?d ?e ?f] => change (mk_ireader a b c d e f) with (abs s')
  end.

Definition pkwf (s : st) : Prop := peek s <> NUL -> rbuf s <> [].

(* *imports as the caller sees it: nil stays nil, otherwise what was there (l0) followed by
   the model's list *)
Definition absI (keep : bool) (l0 : list bytes) (s : st) : option (list bytes) :=
  if keep then Some (l0 ++ imps s) else None.

(* the model's run from s has reached s'; the failure flag is clear at s', hence at s *)
Ltac sticky :=
  match goal with
  | H : fail _ = FNone |- fail ?x = FNone =>
      cbv beta iota in H; match type of H with fail ?y = _ => apply (@r_fail false x y); [solve [auto 12 with reach]|exact H] end
  end.

Lemma reach_pkwf q s s' : reach q s s' -> pkwf s -> pkwf s'.
Proof. intros R. exact (r_peek R). Qed.

Lemma reach_absI keep l0 s s' : reach true s s' -> absI keep l0 s = absI keep l0 s'.
Proof. intros R. unfold absI. now rewrite (r_imps R eq_refl). Qed.

Lemma reach_length q s s' : reach q s s' -> length (rbuf s) <= length (rbuf s').
Proof. intros R. destruct (r_read R) as [x [_ ->]]. rewrite app_length. lia. Qed.

Lemma set_fail_mono s f : fail (set_fail s f) = FNone -> fail s = FNone.
Proof. apply (@r_fail false), reach_set_fail, reach_refl. Qed.
Lemma set_fail_rbuf s f : rbuf (set_fail s f) = rbuf s.
Proof. reflexivity. Qed.
Lemma read_byte_peek' s : peek (snd (read_byte s)) = peek s.
Proof. apply read_byte_peek. Qed.
Lemma set_fail_panic s : fail (set_fail s FPanic) <> FNone.
Proof. cbn. destruct (fail s); discriminate. Qed.

Theorem src_isIdent_eq c : src_isIdent c = Ok (is_ident c).
Proof. unfold src_isIdent, is_ident, byte_leb. now rewrite beq_bN. Qed.

Theorem src_syntaxError_eq s : src_importReader_syntaxError (abs s) = Ok (abs (syntax_error s)).
Proof.
  unfold src_importReader_syntaxError, syntax_error. rewrite abs_no_err.
  destruct (no_err s); reflexivity.
Qed.

Theorem src_readByte_eq s :
  src_importReader_readByte (abs s) = Ok (abs (snd (read_byte s)), fst (read_byte s)).
Proof.
  destruct s as [rs rb pk ef er ne fl im].
  unfold src_importReader_readByte, read_byte, go_bufio_ReadByte, go_append, abs, no_err.
  cbn [rest rbuf peek eof err nerr fail imps set_rest_buf set_eof set_err]. rd_red.
  destruct rs as [|c r]; rd_red; err_red; rd_red; [reflexivity|].
  change x00 with NUL. destruct (beq c NUL) eqn:Ec; rd_red; err_red; rd_red; [|reflexivity].
  rewrite err_of_nil. destruct er; reflexivity.
Qed.

Lemma src_syntaxError_if (b : bool) s :
  (if b then bind (src_importReader_syntaxError (abs s)) (fun v_r => Ok v_r) else Ok (abs s))
  = Ok (abs (if b then syntax_error s else s)).
Proof. destruct b; [now rewrite src_syntaxError_eq|reflexivity]. Qed.

Lemma src_peekByte_loop2_eq (L : Type) fuel : forall n m c s, n <= m ->
  fail (snd (loop n oof1 lc_step (c, s))) = FNone ->
  @src_importReader_peekByte_loop2 L fuel m (abs s) c =
  Ok (Normal (abs (snd (loop n oof1 lc_step (c, s))), fst (loop n oof1 lc_step (c, s)))).
Proof.
  induction n as [|n IH]; intros m c s Hm Hf.
  - cbn [loop oof1 fst snd] in Hf. now elim (set_fail_fuel s).
  - destruct m as [|m]; [lia|]. cbn [loop src_importReader_peekByte_loop2] in *.
    rewrite abs_no_err. change x0a with NL. cbn [abs ir_eof]. unfold lc_step at 1 in Hf. unfold lc_step at 1. unfold lc_step at 2.
    destruct (negb (beq c NL) && no_err s && negb (eof s)) eqn:Ec; rd_red; [|reflexivity].
    rewrite src_readByte_eq. rd_red. destruct (read_byte s) as [c' s'] eqn:Er. cbn [fst snd].
    apply IH; [exact (le_S_n _ _ Hm)|exact Hf].
Qed.

Lemma src_peekByte_loop3_eq (L : Type) fuel : forall n m c c1 s, n <= m ->
  fail (snd (loop n oof2 bc_step (c, c1, s))) = FNone ->
  @src_importReader_peekByte_loop3 L fuel m (abs s) c c1 =
  Ok (Normal (abs (snd (loop n oof2 bc_step (c, c1, s))),
              fst (fst (loop n oof2 bc_step (c, c1, s))), snd (fst (loop n oof2 bc_step (c, c1, s))))).
Proof.
  induction n as [|n IH]; intros m c c1 s Hm Hf.
  - cbn [loop oof2 fst snd] in Hf. now elim (set_fail_fuel s).
  - destruct m as [|m]; [lia|]. cbn [loop src_importReader_peekByte_loop3] in *.
    rewrite abs_no_err. change x2a with STAR. change x2f with SLASH. cbn [abs ir_eof].
    unfold bc_step at 1 in Hf. unfold bc_step at 1. unfold bc_step at 2. unfold bc_step at 3.
    destruct ((negb (beq c STAR) || negb (beq c1 SLASH)) && no_err s) eqn:Ec; rd_red; [|reflexivity].
    fold (abs s). rewrite src_syntaxError_if. rd_red. rewrite src_readByte_eq. rd_red.
    destruct (read_byte (if eof s then syntax_error s else s)) as [b s'] eqn:Er. cbn [fst snd].
    apply IH; [exact (le_S_n _ _ Hm)|exact Hf].
Qed.

Lemma src_peekByte_loop1_eq (L : Type) F fuel skip : F <= fuel -> forall n m c s, n <= m ->
  fail (snd (loop n oof1 (pk_step F skip) (c, s))) = FNone ->
  @src_importReader_peekByte_loop1 L fuel m skip (abs s) c =
  Ok (Normal (abs (snd (loop n oof1 (pk_step F skip) (c, s))), fst (loop n oof1 (pk_step F skip) (c, s)))).
Proof.
  intros HF. induction n as [|n IH]; intros m c s Hm Hf.
  - cbn [loop oof1 fst snd] in Hf. now elim (set_fail_fuel s).
  - destruct m as [|m]; [lia|]. cbn [loop src_importReader_peekByte_loop1] in *.
    rewrite abs_no_err. cbn [abs ir_eof]. fold (abs s).
    destruct (pk_step F skip (c, s)) as [[c2 s2] again] eqn:Es. unfold pk_step in Es.
    destruct (no_err s && negb (eof s)) eqn:Ec; cbn [andb] in Es; rd_red.
    2:{ injection Es as <- <- <-. reflexivity. }
    destruct skip; rd_red.
    2:{ injection Es as <- <- <-. reflexivity. }
    rewrite is_spacec_eq. destruct (is_spacec c) eqn:Esp; rd_red.
    { rewrite src_readByte_eq. rd_red. injection Es as E1 <-. rewrite E1. cbn [fst snd].
      apply IH; [exact (le_S_n _ _ Hm)|exact Hf]. }
    change x2f with SLASH. change x2a with STAR. destruct (beq c SLASH) eqn:Esl; rd_red.
    2:{ injection Es as <- <- <-. reflexivity. }
    rewrite src_readByte_eq. rd_red. destruct (read_byte s) as [c' s'] eqn:Er. cbn [fst snd] in *.
    injection Es as Es <-.
    assert (Hf3 : fail (if beq c' SLASH then snd (line_comment F c' s')
                        else if beq c' STAR then snd (block_comment F c' NUL s') else syntax_error s') = FNone) by sticky.
    destruct (beq c' SLASH) eqn:E1; rd_red.
    + rewrite (src_peekByte_loop2_eq _ fuel F fuel c' s' HF Hf3). rd_red. fold (abs (snd (line_comment F c' s'))).
      rewrite <- line_comment_eq. rewrite src_readByte_eq. rd_red. rewrite Es. cbn [fst snd].
      apply IH; [exact (le_S_n _ _ Hm)|exact Hf].
    + destruct (beq c' STAR) eqn:E2; rd_red.
      * rewrite (src_peekByte_loop3_eq _ fuel F fuel c' NUL s' HF Hf3). rd_red.
        rewrite <- block_comment_eq. fold (abs (snd (block_comment F c' NUL s'))).
        rewrite src_readByte_eq. rd_red. rewrite Es. cbn [fst snd]. apply IH; [exact (le_S_n _ _ Hm)|exact Hf].
      * rewrite src_syntaxError_eq. rd_red. fold (abs (syntax_error s')). rewrite src_readByte_eq. rd_red.
        rewrite Es. cbn [fst snd]. apply IH; [exact (le_S_n _ _ Hm)|exact Hf].
Qed.

Theorem src_peekByte_eq F fuel skip s : F <= fuel -> fail (snd (peek_byte F skip s)) = FNone ->
  src_importReader_peekByte fuel (abs s) skip = Ok (abs (snd (peek_byte F skip s)), fst (peek_byte F skip s)).
Proof.
  intros HF Hf. rewrite peek_byte_eq in *. unfold src_importReader_peekByte.
  rewrite abs_no_err. destruct (no_err s) eqn:En; cbn [negb] in *.
  - rd_red. change x00 with NUL.
    assert (E1 : (if beq (peek s) NUL
                  then bind (src_importReader_readByte (abs s)) (fun x => let (v_r, t1) := x in Ok (v_r, t1))
                  else Ok (abs s, peek s))
                 = Ok (abs (snd (if beq (peek s) NUL then read_byte s else (peek s, s))),
                       fst (if beq (peek s) NUL then read_byte s else (peek s, s)))).
    { destruct (beq (peek s) NUL); [rewrite src_readByte_eq; rd_red|]; reflexivity. }
    fold (abs s). rewrite E1. rd_red.
    destruct (if beq (peek s) NUL then read_byte s else (peek s, s)) as [c s1]. cbn [fst snd].
    destruct (loop F oof1 (pk_step F skip) (c, s1)) as [c2 s2] eqn:El. cbn [fst snd] in *.
    rewrite (src_peekByte_loop1_eq _ F fuel skip HF F fuel c s1 HF) by (rewrite El; exact Hf).
    rewrite El. rd_red. reflexivity.
  - cbv zeta in *. cbn [fst snd] in *. rd_red.
    destruct (N.ltb looping_limit (N.succ (nerr s))) eqn:El; [now elim (set_fail_panic _ Hf)|].
    apply N.ltb_ge in El. unfold looping_limit in El.
    assert (Ez : (Z.of_N (nerr s) + 1 >? 10000)%Z = false) by lia. rewrite Ez.
    unfold abs. cbn [rest rbuf peek err eof nerr set_nerr]. rewrite N2Z.inj_succ. reflexivity.
Qed.

Theorem src_nextByte_eq F fuel skip s : F <= fuel -> fail (snd (next_byte F skip s)) = FNone ->
  src_importReader_nextByte fuel (abs s) skip = Ok (abs (snd (next_byte F skip s)), fst (next_byte F skip s)).
Proof.
  intros HF Hf. unfold next_byte, src_importReader_nextByte in *.
  rewrite (src_peekByte_eq F fuel skip s HF) by (destruct (peek_byte F skip s); exact Hf).
  destruct (peek_byte F skip s) as [c s1]. rd_red. reflexivity.
Qed.

Lemma src_readKeyword_loop_eq (L : Type) F fuel kw : F <= fuel -> forall suf pre s, kw = pre ++ suf ->
  fail (fst (keyword_chars F suf s)) = FNone ->
  @src_importReader_readKeyword_loop1 L fuel kw (map Z.of_nat (seq (length pre) (length suf))) (abs s) =
  if snd (keyword_chars F suf s) then Ok (Normal (abs (fst (keyword_chars F suf s))))
  else Ok (Return (abs (fst (keyword_chars F suf s)))).
Proof.
  intros HF. induction suf as [|k suf IH]; intros pre s Hkw Hf; [reflexivity|].
  cbn [length seq map src_importReader_readKeyword_loop1 keyword_chars] in *.
  destruct (next_byte F false s) as [c s1] eqn:En.
  rewrite (src_nextByte_eq F fuel false s HF) by (rewrite En; cbn [snd]; destruct (negb (beq c k)); sticky).
  rewrite En. rd_red.
  unfold go_index. rewrite index_z_nat by (rewrite Hkw, app_length; cbn [length]; lia).
  rewrite Hkw at 1. rewrite nth_error_app2 by lia. rewrite Nat.sub_diag. cbn [nth_error]. rd_red.
  destruct (negb (beq c k)) eqn:Ek; rd_red.
  - rewrite src_syntaxError_eq. rd_red. reflexivity.
  - specialize (IH (pre ++ [k]) s1). rewrite app_length in IH. cbn [length] in IH.
    replace (length pre + 1) with (S (length pre)) in IH by lia.
    rewrite IH; [|rewrite <- app_assoc; exact Hkw|exact Hf].
    destruct (snd (keyword_chars F suf s1)); reflexivity.
Qed.

Theorem src_readKeyword_eq F fuel kw s : F <= fuel -> fail (read_keyword F kw s) = FNone ->
  src_importReader_readKeyword fuel (abs s) kw = Ok (abs (read_keyword F kw s)).
Proof.
  intros HF Hf. unfold read_keyword, src_importReader_readKeyword in *.
  destruct (peek_byte F true s) as [c0 s0] eqn:E0.
  destruct (keyword_chars F kw s0) as [s1 ok] eqn:E1.
  destruct (peek_byte F false s1) as [c2 s2] eqn:E2.
  rewrite (src_peekByte_eq F fuel true s HF) by (rewrite E0; cbn [snd]; destruct ok, (is_ident c2); sticky).
  rewrite E0. rd_red. unfold go_int_range, len. rewrite Nat2Z.id.
  rewrite (src_readKeyword_loop_eq _ F fuel kw HF kw [] s0 eq_refl) by (rewrite E1; cbn [fst]; destruct ok, (is_ident c2); sticky).
  rewrite E1. cbn [fst snd]. destruct ok; rd_red; [|reflexivity].
  rewrite (src_peekByte_eq F fuel false s1 HF) by (rewrite E2; cbn [snd]; destruct (is_ident c2); sticky).
  rewrite E2. rd_red. rewrite src_isIdent_eq. rd_red. now rewrite src_syntaxError_if.
Qed.

Lemma src_readIdent_loop_eq (L : Type) F fuel : F <= fuel -> forall n m s, n <= m ->
  fail (loop n oofs (ri_step F) s) = FNone ->
  @src_importReader_readIdent_loop1 L fuel m (abs s) = Ok (Normal (abs (loop n oofs (ri_step F) s))).
Proof.
  intros HF. induction n as [|n IH]; intros m s Hm Hf.
  - now elim (set_fail_fuel s).
  - destruct m as [|m]; [lia|]. cbn [loop src_importReader_readIdent_loop1] in *. unfold ri_step at 1 in Hf. unfold ri_step at 1.
    destruct (peek_byte F false s) as [c s1] eqn:Ep.
    rewrite (src_peekByte_eq F fuel false s HF) by (rewrite Ep; cbn [snd]; destruct (is_ident c); sticky).
    rewrite Ep. rd_red. rewrite src_isIdent_eq. rd_red. destruct (is_ident c); rd_red; [|reflexivity].
    change x00 with NUL. fold_abs (set_peek s1 NUL). apply IH; [exact (le_S_n _ _ Hm)|exact Hf].
Qed.

Theorem src_readIdent_eq F fuel s : F <= fuel -> fail (read_ident F s) = FNone ->
  src_importReader_readIdent fuel (abs s) = Ok (abs (read_ident F s)).
Proof.
  intros HF Hf. rewrite read_ident_eq in *. unfold src_importReader_readIdent.
  destruct (peek_byte F true s) as [c s1] eqn:E.
  rewrite (src_peekByte_eq F fuel true s HF) by (rewrite E; cbn [snd]; destruct (negb (is_ident c)); sticky).
  rewrite E. rd_red. rewrite src_isIdent_eq. rd_red. destruct (negb (is_ident c)); rd_red.
  - now rewrite src_syntaxError_eq.
  - now rewrite (src_readIdent_loop_eq _ F fuel HF F fuel s1 HF Hf).
Qed.

(* the slice r.buf[start:] *)
Lemma src_buf_from s start : start <= length (rbuf s) ->
  go_slice (rev (rbuf s)) (Z.of_nat start) (len (rev (rbuf s))) = Ok (buf_from s start).
Proof.
  intros H. apply go_slice_from. now rewrite rev_length.
Qed.

Lemma save_step keep l0 s p :
  (if negb (go_ptr_is_nil (absI keep l0 s))
   then bind (go_ptr_load (absI keep l0 s)) (fun t =>
        bind (Ok p) (fun t' => bind (go_ptr_store (absI keep l0 s) (go_append t [t'])) (fun v => Ok v)))
   else Ok (absI keep l0 s))
  = Ok (absI keep l0 (add_imp s p)).
Proof.
  unfold absI, go_append. destruct keep; cbn; [|reflexivity]. now rewrite app_assoc.
Qed.

(* what the string loops need of a later state of the reader proper *)
Lemma reach_kept s s' : reach true s s' -> pkwf s ->
  pkwf s' /\ length (rbuf s) <= length (rbuf s') /\ forall keep l0, absI keep l0 s = absI keep l0 s'.
Proof.
  intros R W. split; [exact (reach_pkwf _ _ _ R W)|]. split; [exact (reach_length _ _ _ R)|]. intros keep l0. now apply reach_absI.
Qed.

Lemma src_readString_loop1_eq (L : Type) F fuel keep l0 start : F <= fuel -> forall n m s, n <= m ->
  pkwf s -> start <= length (rbuf s) ->
  fail (loop n oofs (rs_step F BQUOTE false true start) s) = FNone ->
  @src_importReader_readString_loop1 L fuel m (Z.of_nat start) (abs s) (absI keep l0 s) =
  Ok (Normal (abs (loop n oofs (rs_step F BQUOTE false true start) s),
              absI keep l0 (loop n oofs (rs_step F BQUOTE false true start) s))).
Proof.
  intros HF. induction n as [|n IH]; intros m s Hm W Hs Hf.
  - now elim (set_fail_fuel s).
  - destruct m as [|m]; [lia|]. cbn [loop src_importReader_readString_loop1] in *.
    rewrite abs_no_err. destruct (rs_step F BQUOTE false true start s) as [s3 again] eqn:Es. unfold rs_step in Es.
    destruct (no_err s); [|injection Es as <- <-; reflexivity].
    destruct (reach_kept s (snd (next_byte F false s))) as [W1 [Hl Hi]]; [auto with reach|exact W|].
    destruct (next_byte F false s) as [c s1] eqn:Eb. cbn [fst snd andb] in *. rewrite orb_false_r in Es.
    rd_red. rewrite (src_nextByte_eq F fuel false s HF) by (rewrite Eb; cbn [snd]; destruct (beq c BQUOTE); injection Es as <- <-; sticky).
    rewrite Eb. rd_red. change x60 with BQUOTE. rewrite Hi.
    destruct (beq c BQUOTE); injection Es as <- <-; rd_red.
    + rewrite src_buf_from by lia. rewrite save_step. reflexivity.
    + fold (abs s1). rewrite src_syntaxError_if. rd_red.
      destruct (reach_kept s1 (if eof s1 then syntax_error s1 else s1)) as [W2 [Hl2 Hi2]]; [auto with reach|exact W1|].
      rewrite Hi2. apply IH; [exact (le_S_n _ _ Hm)|exact W2|lia|exact Hf].
Qed.

Lemma src_readString_loop2_eq (L : Type) F fuel keep l0 start : F <= fuel -> forall n m s, n <= m ->
  pkwf s -> start <= length (rbuf s) ->
  fail (loop n oofs (rs_step F DQUOTE true true start) s) = FNone ->
  @src_importReader_readString_loop2 L fuel m (Z.of_nat start) (abs s) (absI keep l0 s) =
  Ok (Normal (abs (loop n oofs (rs_step F DQUOTE true true start) s),
              absI keep l0 (loop n oofs (rs_step F DQUOTE true true start) s))).
Proof.
  intros HF. induction n as [|n IH]; intros m s Hm W Hs Hf.
  - now elim (set_fail_fuel s).
  - destruct m as [|m]; [lia|]. cbn [loop src_importReader_readString_loop2] in *.
    rewrite abs_no_err. destruct (rs_step F DQUOTE true true start s) as [s4 again] eqn:Es. unfold rs_step in Es.
    destruct (no_err s); [|injection Es as <- <-; reflexivity].
    destruct (reach_kept s (snd (next_byte F false s))) as [W1 [Hl Hi]]; [auto with reach|exact W|].
    destruct (next_byte F false s) as [c s1] eqn:Eb. cbn [fst snd andb] in *.
    rd_red. rewrite (src_nextByte_eq F fuel false s HF) by (rewrite Eb; cbn [snd]; destruct (beq c DQUOTE); injection Es as <- <-; sticky).
    rewrite Eb. rd_red. change x22 with DQUOTE. change x0a with NL. change x5c with BSLASH. rewrite Hi.
    destruct (beq c DQUOTE); injection Es as <- <-; rd_red.
    + rewrite src_buf_from by lia. rewrite save_step. reflexivity.
    + fold (abs s1). rewrite src_syntaxError_if. rd_red.
      set (s2 := if eof s1 || beq c NL then syntax_error s1 else s1) in *.
      destruct (reach_kept s1 s2) as [W2 [Hl2 Hi2]]; [unfold s2; auto with reach|exact W1|].
      assert (E2 : (if beq c BSLASH
                    then bind (src_importReader_nextByte fuel (abs s2) false) (fun x => let (v_r, t8) := x in Ok v_r)
                    else Ok (abs s2)) = Ok (abs (if beq c BSLASH then snd (next_byte F false s2) else s2))).
      { destruct (beq c BSLASH); [|reflexivity]. rewrite (src_nextByte_eq F fuel false s2 HF) by sticky. rd_red. reflexivity. }
      fold (abs s2). rewrite E2. rd_red.
      destruct (reach_kept s2 (if beq c BSLASH then snd (next_byte F false s2) else s2)) as [W3 [Hl3 Hi3]]; [auto with reach|exact W2|].
      rewrite Hi2, Hi3. apply IH; [exact (le_S_n _ _ Hm)|exact W3|lia|exact Hf].
Qed.

Theorem src_readString_eq F fuel keep l0 s : F <= fuel -> pkwf s -> fail (read_string F true s) = FNone ->
  src_importReader_readString fuel (abs s) (absI keep l0 s) =
  Ok (abs (read_string F true s), absI keep l0 (read_string F true s)).
Proof.
  intros HF W Hf. rewrite read_string_eq in *. unfold src_importReader_readString.
  destruct (reach_kept s (snd (next_byte F true s))) as [W1 [_ Hi]]; [auto with reach|exact W|].
  pose proof (next_byte_backed F true s W) as Hnz. unfold backed in Hnz.
  destruct (next_byte F true s) as [q s1] eqn:Eq. cbn [fst snd] in *.
  rewrite (src_nextByte_eq F fuel true s HF) by (rewrite Eq; cbn [snd]; destruct (beq q BQUOTE), (beq q DQUOTE); sticky).
  rewrite Eq. rd_red. change x60 with BQUOTE. change x22 with DQUOTE. rewrite Hi.
  assert (Hst : q <> NUL -> (len (rev (rbuf s1)) - 1)%Z = Z.of_nat (length (rbuf s1) - 1)
                            /\ length (rbuf s1) - 1 <= length (rbuf s1)).
  { intros Hq. specialize (Hnz Hq). unfold len. rewrite rev_length. destruct (rbuf s1); [now elim Hnz|cbn [length]; lia]. }
  destruct (beq q BQUOTE) eqn:E1; rd_red.
  - apply beq_eq in E1. destruct Hst as [Hz Hle]; [subst q; discriminate|]. rewrite Hz.
    rewrite (src_readString_loop1_eq _ F fuel keep l0 _ HF F fuel s1 HF W1 Hle Hf). reflexivity.
  - destruct (beq q DQUOTE) eqn:E2; rd_red.
    + apply beq_eq in E2. destruct Hst as [Hz Hle]; [subst q; discriminate|]. rewrite Hz.
      rewrite (src_readString_loop2_eq _ F fuel keep l0 _ HF F fuel s1 HF W1 Hle Hf). reflexivity.
    + rewrite src_syntaxError_eq. rd_red. now rewrite (reach_absI keep l0 s1 (syntax_error s1)) by auto with reach.
Qed.

Theorem src_readImport_eq F fuel keep l0 s : F <= fuel -> pkwf s -> fail (read_import F s) = FNone ->
  src_importReader_readImport fuel (abs s) (absI keep l0 s) =
  Ok (abs (read_import F s), absI keep l0 (read_import F s)).
Proof.
  intros HF W Hf. rewrite read_import_eq in *. unfold src_importReader_readImport.
  destruct (reach_kept s (import_head F s)) as [Wh [_ Hih]]; [auto with reach|exact W|].
  assert (Hfh : fail (import_head F s) = FNone) by sticky. unfold import_head in *.
  destruct (peek_byte F true s) as [c s1] eqn:Ep.
  rewrite (src_peekByte_eq F fuel true s HF) by (rewrite Ep; cbn [snd]; destruct (beq c DOTB), (is_ident c); sticky).
  rewrite Ep. rd_red. change x2e with DOTB. change x00 with NUL.
  set (sh := if beq c DOTB then set_peek s1 NUL else if is_ident c then read_ident F s1 else s1) in *.
  assert (E1 : (if beq c DOTB then Ok (abs (set_peek s1 NUL))
                else bind (src_isIdent c) (fun t2 =>
                     bind (if t2 then bind (src_importReader_readIdent fuel (abs s1)) (fun v_r => Ok v_r) else Ok (abs s1))
                          (fun v_r => Ok v_r))) = Ok (abs sh)).
  { unfold sh in *. destruct (beq c DOTB); [reflexivity|]. rewrite src_isIdent_eq. rd_red.
    destruct (is_ident c); rd_red; [|reflexivity]. now rewrite (src_readIdent_eq F fuel s1 HF Hfh). }
  fold_abs (set_peek s1 NUL). fold (abs s1). rewrite E1. rd_red.
  rewrite Hih. rewrite (src_readString_eq F fuel keep l0 sh HF Wh Hf). reflexivity.
Qed.

Definition sc_step (F : nat) : st -> st * bool :=
  fun s => let (c, s) := peek_byte F true s in
           if beq c LOWER_I then (import_decl F s, true) else (s, false).

Lemma reach_sc_step a F s : reach false a s -> reach false a (fst (sc_step F s)).
Proof. apply reach_scan_step. Qed.
#[export] Hint Resolve reach_sc_step : reach.

Lemma sc_loop_pkwf F n s : pkwf s -> pkwf (loop n oofs (sc_step F) s).
Proof. apply (reach_pkwf false). auto with reach. Qed.

Lemma src_ReadImports_loop2_eq (L : Type) F fuel keep l0 : F <= fuel -> forall n m s, n <= m ->
  pkwf s -> fail (loop n oofs (ig_step F) s) = FNone ->
  @src_ReadImports_loop2 L fuel m (absI keep l0 s) (abs s) =
  Ok (Normal (absI keep l0 (loop n oofs (ig_step F) s), abs (loop n oofs (ig_step F) s))).
Proof.
  intros HF. induction n as [|n IH]; intros m s Hm W Hf.
  - now elim (set_fail_fuel s).
  - destruct m as [|m]; [lia|]. cbn [loop src_ReadImports_loop2] in *.
    destruct (ig_step F s) as [s2 again] eqn:Es. unfold ig_step in Es.
    destruct (reach_kept s (snd (peek_byte F true s))) as [W1 [_ Hi]]; [auto with reach|exact W|].
    destruct (peek_byte F true s) as [c s1] eqn:Ep. cbn [fst snd] in *.
    assert (Hf2 : fail s2 = FNone) by (destruct again; sticky).
    rewrite (src_peekByte_eq F fuel true s HF) by (rewrite Ep; cbn [snd]; destruct (_ && _); injection Es as <- _; sticky).
    rewrite Ep. rd_red. rewrite err_of_no_err. change x29 with RPAREN. rewrite Hi. fold (abs s1).
    destruct (negb (beq c RPAREN) && no_err s1); injection Es as <- <-; rd_red; [|reflexivity].
    rewrite (src_readImport_eq F fuel keep l0 s1 HF W1 Hf2). rd_red.
    apply IH; [exact (le_S_n _ _ Hm)|apply (reach_pkwf false s1); auto with reach|exact Hf].
Qed.

Lemma src_import_group_eq (L : Type) F fuel keep l0 s : F <= fuel -> pkwf s -> fail (import_group F s) = FNone ->
  bind (src_importReader_nextByte fuel (abs s) false) (fun x => let (v_r, _) := x in
    bindO (@src_ReadImports_loop2 L fuel fuel (absI keep l0 s) v_r) (fun y => let (v_imports, v_r) := y in
      bind (src_importReader_nextByte fuel v_r false) (fun z => let (v_r, _) := z in
        Ok (@Normal _ L (option (list bytes) * bytes * goerr) (v_imports, v_r)))))
  = Ok (Normal (absI keep l0 (import_group F s), abs (import_group F s))).
Proof.
  intros HF W Hf. rewrite import_group_eq in *.
  destruct (reach_kept s (snd (next_byte F false s))) as [W1 [_ Hi]]; [auto with reach|exact W|].
  destruct (next_byte F false s) as [c s1] eqn:En. cbn [fst snd] in *.
  set (s2 := loop F oofs (ig_step F) s1) in *.
  assert (Hf2 : fail s2 = FNone) by sticky.
  rewrite (src_nextByte_eq F fuel false s HF) by (rewrite En; cbn [snd]; unfold s2 in Hf2; sticky). rewrite En. rd_red.
  rewrite Hi. rewrite (src_ReadImports_loop2_eq _ F fuel keep l0 HF F fuel s1 HF W1 Hf2). rd_red. fold s2.
  rewrite (src_nextByte_eq F fuel false s2 HF Hf). rd_red.
  rewrite (reach_absI keep l0 s2 (snd (next_byte F false s2))) by auto with reach.
  destruct (next_byte F false s2); reflexivity.
Qed.

Lemma src_ReadImports_loop1_eq (L : Type) F fuel keep l0 : F <= fuel -> forall n m s, n <= m ->
  pkwf s -> fail (loop n oofs (sc_step F) s) = FNone ->
  @src_ReadImports_loop1 L fuel m (absI keep l0 s) (abs s) =
  Ok (Normal (absI keep l0 (loop n oofs (sc_step F) s), abs (loop n oofs (sc_step F) s))).
Proof.
  intros HF. induction n as [|n IH]; intros m s Hm W Hf.
  - now elim (set_fail_fuel s).
  - destruct m as [|m]; [lia|]. cbn [loop src_ReadImports_loop1] in *.
    destruct (sc_step F s) as [s9 again] eqn:Es. unfold sc_step in Es.
    assert (Hf9 : fail s9 = FNone) by (destruct again; sticky).
    destruct (reach_kept s (snd (peek_byte F true s))) as [W1 [_ Hi]]; [auto with reach|exact W|].
    destruct (peek_byte F true s) as [c s1] eqn:Ep. cbn [fst snd] in *.
    rewrite (src_peekByte_eq F fuel true s HF) by (rewrite Ep; cbn [snd]; destruct (beq c LOWER_I); injection Es as <- _; sticky).
    rewrite Ep. rd_red. change [x69; x6d; x70; x6f; x72; x74] with kw_import.
    change x69 with LOWER_I. rewrite Hi. fold (abs s1).
    destruct (beq c LOWER_I); injection Es as <- <-; rd_red; [|reflexivity].
    (* the body: import_decl *)
    assert (W9 : pkwf (import_decl F s1)) by (apply (reach_pkwf false s1); auto with reach).
    unfold import_decl in *. set (s2 := read_keyword F kw_import s1) in *.
    destruct (reach_kept s1 s2) as [W2 [_ Hi2]]; [unfold s2; auto with reach|exact W1|].
    destruct (reach_kept s2 (snd (peek_byte F true s2))) as [W3 [_ Hi3]]; [auto with reach|exact W2|].
    destruct (peek_byte F true s2) as [c3 s3] eqn:Ep3. cbn [fst snd] in *.
    assert (Hf3 : fail s3 = FNone) by (destruct (beq c3 LPAREN); sticky).
    assert (Hf2 : fail s2 = FNone) by sticky.
    rewrite (src_readKeyword_eq F fuel kw_import s1 HF Hf2). rd_red. fold s2.
    rewrite (src_peekByte_eq F fuel true s2 HF) by (now rewrite Ep3). rewrite Ep3. rd_red.
    change x28 with LPAREN. rewrite Hi2, Hi3. fold (abs s3).
    destruct (beq c3 LPAREN); rd_red.
    + rewrite (src_import_group_eq _ F fuel keep l0 s3 HF W3 Hf9). rd_red. apply IH; [exact (le_S_n _ _ Hm)|exact W9|exact Hf].
    + rewrite (src_readImport_eq F fuel keep l0 s3 HF W3 Hf9). rd_red. apply IH; [exact (le_S_n _ _ Hm)|exact W9|exact Hf].
Qed.

(* the loop that consumes the rest of the file after a syntax error *)
Lemma src_ReadImports_loop3_eq (L : Type) fuel : forall n m s, n <= m ->
  fail (loop n oofs drain_step s) = FNone ->
  @src_ReadImports_loop3 L fuel m (abs s) = Ok (Normal (abs (loop n oofs drain_step s))).
Proof.
  induction n as [|n IH]; intros m s Hm Hf.
  - now elim (set_fail_fuel s).
  - destruct m as [|m]; [lia|]. cbn [loop src_ReadImports_loop3] in *.
    rewrite abs_no_err. cbn [abs ir_eof]. fold (abs s).
    destruct (drain_step s) as [s2 again] eqn:Es. unfold drain_step in Es.
    destruct (no_err s && negb (eof s)); injection Es as <- <-; rd_red; [|reflexivity].
    rewrite src_readByte_eq. rd_red. apply IH; [exact (le_S_n _ _ Hm)|exact Hf].
Qed.

Lemma bom_test b :
  (goerr_eqb (if (len b <? 3)%Z then go_io_EOF else ErrNil) ErrNil && bytes_eqb (firstn 3 b) src_bom)
  = has_prefix bom b.
Proof.
  assert (E0 : goerr_eqb go_io_EOF ErrNil = false) by reflexivity.
  destruct b as [|b0 [|b1 [|b2 r]]]; try reflexivity.
  - change (len [b0] <? 3)%Z with true. cbv iota. rewrite E0. cbn [andb has_prefix bom].
    destruct (beq xef b0); reflexivity.
  - change (len [b0; b1] <? 3)%Z with true. cbv iota. rewrite E0. cbn [andb has_prefix bom].
    destruct (beq xef b0), (beq xbb b1); reflexivity.
  - assert (E : (len (b0 :: b1 :: b2 :: r) <? 3)%Z = false) by (unfold len; cbn [length]; lia).
    rewrite E. cbn [firstn]. unfold src_bom, bom. cbn [bytes_eqb has_prefix goerr_eqb andb].
    rewrite (beq_sym b0), (beq_sym b1), (beq_sym b2).
    destruct (beq xef b0), (beq xbb b1), (beq xbf b2); reflexivity.
Qed.

Theorem src_newImportReader_eq data : src_newImportReader data = Ok (abs (init_st (strip_bom data))).
Proof.
  unfold src_newImportReader, go_bufio_Peek, go_bufio_Discard, strip_bom.
  change (0 <=? 3)%Z with true. change (3 <=? bufio_min_buffer)%Z with true. change (Z.to_nat 3) with 3.
  cbn [andb]. rd_red. rewrite bom_test. destruct (has_prefix bom data); reflexivity.
Qed.

Lemma init_pkwf x : pkwf (init_st x).
Proof. intros H. now elim H. Qed.

Lemma slice_init (x : byte) (b : bytes) :
  go_slice (rev (x :: b)) 0 (len (rev (x :: b)) - 1) = Ok (rev b).
Proof.
  unfold go_slice. cbn [rev]. replace (len (rev b ++ [x]) - 1)%Z with (Z.of_nat (length (rev b))).
  - rewrite slice_z_to by (rewrite app_length; lia). rewrite firstn_app, Nat.sub_diag, firstn_all. cbn [firstn].
    now rewrite app_nil_r.
  - unfold len. rewrite app_length. cbn [length]. lia.
Qed.

Theorem src_ReadImports_eq fuel data report (keep : bool) (l0 ims : list bytes) out e :
  fuel_for (strip_bom data) <= fuel ->
  read_imports report data = ROk ims out e ->
  src_ReadImports fuel data report (if keep then Some l0 else None) =
  Ok (if keep then Some (l0 ++ ims) else None, out, err_of e).
Proof.
  intros HF. unfold read_imports. set (input := strip_bom data) in *. set (F := fuel_for input) in *.
  destruct (finish_imports F report (scan_imports F (init_st input))) as [[s' o] e'] eqn:Efin.
  destruct (fail s') eqn:Efl; try discriminate. intros [= <- <- <-].
  unfold src_ReadImports, go_bufio_NewReader. rewrite src_newImportReader_eq. rd_red. fold input.
  (* what the model's run says about the intermediate states *)
  unfold finish_imports in Efin. set (s3 := scan_imports F (init_st input)) in *.
  change (fun s0 : st => set_fail s0 FFuel) with oofs in *.
  change (fun s0 : st => if no_err s0 && negb (eof s0) then (snd (read_byte s0), true) else (s0, false)) with drain_step in *.
  assert (Hf3 : fail s3 = FNone).
  { destruct (no_err s3 && negb (eof s3)).
    - destruct (rbuf s3); injection Efin as <- _ _; [now elim (set_fail_panic s3)|exact Efl].
    - injection Efin as <- _ _. destruct (err s3); try exact Efl. destruct (negb report); [|exact Efl].
      change (fail (set_err s3 ENone) = FNone). sticky. }
  unfold s3 in Hf3. rewrite scan_imports_eq in Hf3.
  change [x70; x61; x63; x6b; x61; x67; x65] with kw_package.
  rewrite (src_readKeyword_eq F fuel kw_package (init_st input) HF) by sticky. rd_red.
  rewrite (src_readIdent_eq F fuel _ HF) by sticky. rd_red.
  destruct (reach_kept (init_st input) (read_ident F (read_keyword F kw_package (init_st input)))) as [W2 [_ Hi2]];
    [auto with reach|apply init_pkwf|].
  set (s2 := read_ident F _) in *.
  assert (Ei : (if keep then Some l0 else None) = absI keep l0 s2).
  { rewrite <- Hi2. unfold absI. cbn [imps init_st]. now rewrite app_nil_r. }
  rewrite Ei. rewrite (src_ReadImports_loop1_eq _ F fuel keep l0 HF F fuel s2 HF W2 Hf3). rd_red.
  change (loop F oofs (sc_step F) s2) with s3. rewrite err_of_no_err.
  destruct (no_err s3 && negb (eof s3)) eqn:Ec; rd_red.
  - destruct (rbuf s3) as [|x b] eqn:Eb; injection Efin as <- <- <-; [now elim (set_fail_panic s3)|].
    rewrite slice_init. rd_red. reflexivity.
  - injection Efin as <- <- <-. rewrite err_of_syntax.
    destruct (err s3) eqn:Ee; rd_red; try reflexivity.
    destruct (negb report); rd_red; [|rewrite Ee; reflexivity].
    fold_abs (set_err s3 ENone).
    rewrite (src_ReadImports_loop3_eq _ fuel F fuel (set_err s3 ENone) HF Efl). rd_red.
    now rewrite (reach_absI keep l0 s3 (loop F oofs drain_step (set_err s3 ENone))) by auto with reach.
Qed.

Lemma strip_bom_length data : length (strip_bom data) <= length data.
Proof. unfold strip_bom. destruct (has_prefix bom data); [rewrite skipn_length|]; lia. Qed.

Lemma fuel_enough data fuel : 2 * length data + 8 <= fuel -> fuel_for (strip_bom data) <= fuel.
Proof. intros H. unfold fuel_for. pose proof (strip_bom_length data). lia. Qed.

(* *imports, as a function of what it was: nil stays nil *)
Definition imports_after (o : option (list bytes)) (found : list bytes) : option (list bytes) :=
  match o with Some l0 => Some (l0 ++ found) | None => None end.

Theorem src_ReadImports_model fuel data report o : 2 * length data + 8 <= fuel ->
  exists found out e,
    read_imports report data = ROk found out e /\
    src_ReadImports fuel data report o = Ok (imports_after o found, out, err_of e).
Proof.
  intros HF. destruct (read_total report data) as [found [out [e H]]]. exists found, out, e. split; [exact H|].
  destruct o as [l0|].
  - exact (src_ReadImports_eq fuel data report true l0 found out e (fuel_enough _ _ HF) H).
  - exact (src_ReadImports_eq fuel data report false [] found out e (fuel_enough _ _ HF) H).
Qed.

(* totality: on arbitrary bytes the translated function returns: it neither panics (the
   "looping" panic, a slice out of range, a nil *imports) nor exhausts the bound *)
Theorem src_ReadImports_total fuel data report o : 2 * length data + 8 <= fuel ->
  exists o' out e, src_ReadImports fuel data report o = Ok (o', out, e).
Proof. intros HF. destruct (src_ReadImports_model fuel data report o HF) as [f [out [e [_ H]]]]. eauto. Qed.

(* the returned bytes are a prefix of the input, an optional leading byte-order mark aside *)
Theorem src_ReadImports_prefix fuel data report o o' out e : 2 * length data + 8 <= fuel ->
  src_ReadImports fuel data report o = Ok (o', out, e) ->
  (exists tl, strip_bom data = out ++ tl) /\ (data = strip_bom data \/ data = bom ++ strip_bom data).
Proof.
  intros HF H. destruct (src_ReadImports_model fuel data report o HF) as [f [out' [e' [Hm Hs]]]].
  rewrite Hs in H. injection H as _ <- _. exact (output_is_prefix report data f out' e' Hm).
Qed.

(* the error returned is nil, errSyntax or errNUL *)
Theorem src_ReadImports_errors fuel data report o o' out e : 2 * length data + 8 <= fuel ->
  src_ReadImports fuel data report o = Ok (o', out, e) ->
  e = ErrNil \/ e = src_errSyntax \/ e = src_errNUL.
Proof.
  intros HF H. destruct (src_ReadImports_model fuel data report o HF) as [f [out' [e' [Hm Hs]]]].
  rewrite Hs in H. injection H as _ _ <-. destruct e'; cbn [err_of]; auto.
Qed.

(* every method of the reader, in one statement (Properties/C18.v) *)
Theorem src_methods_eq :
  (forall c, src_isIdent c = Ok (is_ident c))
  /\ (forall s, src_importReader_syntaxError (abs s) = Ok (abs (syntax_error s)))
  /\ (forall s, src_importReader_readByte (abs s) = Ok (abs (snd (read_byte s)), fst (read_byte s)))
  /\ (forall F fuel skip s, F <= fuel -> fail (snd (peek_byte F skip s)) = FNone ->
        src_importReader_peekByte fuel (abs s) skip = Ok (abs (snd (peek_byte F skip s)), fst (peek_byte F skip s)))
  /\ (forall F fuel skip s, F <= fuel -> fail (snd (next_byte F skip s)) = FNone ->
        src_importReader_nextByte fuel (abs s) skip = Ok (abs (snd (next_byte F skip s)), fst (next_byte F skip s)))
  /\ (forall F fuel kw s, F <= fuel -> fail (read_keyword F kw s) = FNone ->
        src_importReader_readKeyword fuel (abs s) kw = Ok (abs (read_keyword F kw s)))
  /\ (forall F fuel s, F <= fuel -> fail (read_ident F s) = FNone ->
        src_importReader_readIdent fuel (abs s) = Ok (abs (read_ident F s)))
  /\ (forall F fuel keep l0 s, F <= fuel -> pkwf s -> fail (read_string F true s) = FNone ->
        src_importReader_readString fuel (abs s) (absI keep l0 s) =
        Ok (abs (read_string F true s), absI keep l0 (read_string F true s)))
  /\ (forall F fuel keep l0 s, F <= fuel -> pkwf s -> fail (read_import F s) = FNone ->
        src_importReader_readImport fuel (abs s) (absI keep l0 s) =
        Ok (abs (read_import F s), absI keep l0 (read_import F s)))
  /\ (forall data, src_newImportReader data = Ok (abs (init_st (strip_bom data)))).
Proof.
  repeat split.
  - exact src_isIdent_eq.
  - exact src_syntaxError_eq.
  - exact src_readByte_eq.
  - intros. now apply src_peekByte_eq.
  - intros. now apply src_nextByte_eq.
  - intros. now apply src_readKeyword_eq.
  - intros. now apply src_readIdent_eq.
  - intros. now apply src_readString_eq.
  - intros. now apply src_readImport_eq.
  - exact src_newImportReader_eq.
Qed.

(* package x\nimport "a"\nfunc *)
Definition ex_file : bytes :=
  [x70; x61; x63; x6b; x61; x67; x65; x20; x78; x0a; x69; x6d; x70; x6f; x72; x74; x20; x22; x61; x22; x0a; x66; x75; x6e; x63].

Example ex_src_ReadImports :
  2 * length ex_file + 8 <= 58
  /\ src_ReadImports 58 ex_file true (Some [[x7a]])
     = Ok (Some [[x7a]; [x22; x61; x22]], firstn 21 ex_file, ErrNil)
  /\ src_ReadImports 58 ex_file true None = Ok (None, firstn 21 ex_file, ErrNil)
  /\ src_ReadImports 58 (firstn 19 ex_file) true (Some []) = Ok (Some [], firstn 19 ex_file, src_errSyntax)
  /\ src_ReadImports 58 (firstn 19 ex_file) false (Some []) = Ok (Some [], firstn 19 ex_file, ErrNil)
  /\ src_ReadImports 1 ex_file true None = OutOfFuel.
Proof. vm_compute. repeat split. apply le_n. Qed.

(* a state that satisfies the hypotheses of the method theorems: the reader in front of the
   import declaration of ex_file *)
Example ex_method_state :
  let s := read_ident 58 (read_keyword 58 kw_package (init_st ex_file)) in
  pkwf s /\ fail (read_import 58 (snd (next_byte 58 true s))) = FNone
  /\ fail (snd (peek_byte 58 true s)) = FNone.
Proof.
  cbv zeta. split; [|vm_compute; split; reflexivity].
  apply (reach_pkwf false (init_st ex_file)); [auto with reach|apply init_pkwf].
Qed.
