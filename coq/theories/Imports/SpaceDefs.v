(* A rune-level reading of the byte-pattern tables behind bytes.TrimSpace / strings.Fields in
   the models (Lib/Bytes.v [space_prefix], [space_suffix_rev']): the white-space runes are the
   25 code points of Unicode's White_Space property (what unicode.IsSpace accepts), a string is
   trimmed of / split at their UTF-8 encodings.  SpaceTables.v shows that the tables recognise
   exactly these encodings, from the front and from the back. *)
From Coq Require Import List Bool NArith.
From Coq.Strings Require Import Byte.
From GI Require Import Lib.Bytes.
Import ListNotations.

(* unicode.IsSpace: U+0009..U+000D, U+0020, U+0085, U+00A0, U+1680, U+2000..U+200A, U+2028,
   U+2029, U+202F, U+205F, U+3000 *)
Definition space_runes : list N :=
  [9; 10; 11; 12; 13; 32; 133; 160; 5760; 8192; 8193; 8194; 8195; 8196; 8197; 8198; 8199; 8200;
   8201; 8202; 8232; 8233; 8239; 8287; 12288]%N.
Definition is_space_rune (r : N) : bool := existsb (N.eqb r) space_runes.

(* utf8.AppendRune (for runes below U+10000, which is all that is needed here) *)
Definition byte_of_code (n : N) : byte := match Byte.of_N n with Some b => b | None => x00 end.
Definition utf8_enc (v : N) : bytes :=
  (if N.ltb v 128 then [byte_of_code v]
   else if N.ltb v 2048 then [byte_of_code (192 + v / 64); byte_of_code (128 + v mod 64)]
   else [byte_of_code (224 + v / 4096); byte_of_code (128 + (v / 64) mod 64); byte_of_code (128 + v mod 64)])%N.

(* [d] starts with the encoding of a white-space rune, [n] bytes long *)
Definition space_at_front (d : bytes) (n : nat) : Prop :=
  exists r, is_space_rune r = true /\ has_prefix (utf8_enc r) d = true /\ length (utf8_enc r) = n.
(* [q] (a reversed string) starts with the reversed encoding: the string ends with the encoding *)
Definition space_at_back (q : bytes) (n : nat) : Prop :=
  exists r, is_space_rune r = true /\ has_prefix (rev (utf8_enc r)) q = true /\ length (utf8_enc r) = n.
