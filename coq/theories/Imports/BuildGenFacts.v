(* Facts about Imports/BuildGen.v: the pieces the specification looks at are substrings of
   the input; the specification depends on the tag-character test only through its values
   on such substrings; Go's rune-level test and Build.v's [tag_chars] agree on every
   string whose bytes are all below 0xC9. *)
From Coq Require Import List Bool Arith NArith ZArith Lia.
From Coq.Strings Require Import Byte.
From GI Require Import Lib.Bytes Lib.BytesFacts Lib.GoSem Lib.GoSemExt Lib.GoSemExtFacts Lib.GoSemUnicode
  Lib.Utf8 Lib.Utf8Facts Gen.ImportsConsts Imports.Build Imports.BuildFacts Imports.SpaceTables Imports.SpaceFacts
  Imports.BuildGen.
Import ListNotations.
Local Open Scope nat_scope.

(* with P := tag_chars the parametrised specification is Build.v's *)
Lemma match_tag_g_model name tags want : match_tag_g tag_chars name tags want = match_tag name tags want.
Proof. reflexivity. Qed.
Lemma term_ok_g_model tags t : term_ok_g tag_chars tags t = term_ok tags t.
Proof. reflexivity. Qed.
Lemma option_ok_g_model tags o : option_ok_g tag_chars tags o = option_ok tags o.
Proof. reflexivity. Qed.
Lemma spec_should_build_g_model content tags :
  spec_should_build_g tag_chars content tags = spec_should_build content tags.
Proof. reflexivity. Qed.

(* a string is the join of its pieces, and every line is one of the pieces cut at the newlines *)
Lemma join_sub c ls t : In t ls -> sub t (join c ls).
Proof.
  induction ls as [|x r IH]; [intros []|]. destruct r as [|y r']; intros [<-|H].
  - apply sub_refl.
  - destruct H.
  - exists [], (c :: join c (y :: r')). reflexivity.
  - apply (sub_app_l _ x), sub_cons, IH, H.
Qed.

Lemma split_on_sub c d t : In t (split_on c d) -> sub t d.
Proof. intros H. rewrite <- (join_split c d). now apply join_sub. Qed.

Lemma go_lines_split d :
  match go_lines d with [] => d = [] | l :: ls => exists ls', split_on NL d = l :: ls' /\ incl ls ls' end.
Proof.
  induction d as [|b r IH]; [reflexivity|]. cbn [go_lines split_on]. destruct (beq b NL).
  - exists (split_on NL r). split; [reflexivity|]. destruct (go_lines r) as [|l ls]; [intros x []|].
    destruct IH as [ls' [-> Hi]]. now apply incl_cons; [left|apply incl_tl].
  - destruct (go_lines r) as [|l ls]; [subst r; now exists []|]. destruct IH as [ls' [-> Hi]]. now exists ls'.
Qed.

Lemma go_lines_sub d l : In l (go_lines d) -> sub l d.
Proof.
  intros H. apply (split_on_sub NL). pose proof (go_lines_split d) as S. destruct (go_lines d) as [|l0 ls]; [destruct H|].
  destruct S as [ls' [-> Hi]]. destruct H as [<-|H]; [now left|right; now apply Hi].
Qed.

Lemma fsplit_sub d fs : fsplit d fs -> forall f, In f fs -> sub f d.
Proof.
  induction 1 as [|r d fs Hr Hs IH|f0 d fs Hne Hfree Hend Hs IH]; intros f Hin.
  - contradiction.
  - apply sub_app_l. now apply IH.
  - destruct Hin as [<-|Hin]; [exists [], d; reflexivity|]. apply sub_app_l. now apply IH.
Qed.

Lemma fields_sub d f : In f (fields d) -> sub f d.
Proof. apply (fsplit_sub d (fields d) (fields_spec d)). Qed.

Lemma leading_run_In ls l : In l (leading_run ls) -> In l ls.
Proof.
  induction ls as [|x r IH]; cbn [leading_run]; [tauto|]. destruct (blank x || comment x); [|contradiction].
  intros [<-|H]; [now left|right; now apply IH].
Qed.

Lemma followed_by_blank_In run l : In l (followed_by_blank run) -> In l run.
Proof.
  induction run as [|x r IH]; cbn [followed_by_blank]; [tauto|]. destruct (existsb blank (x :: r)); [|contradiction].
  intros [<-|H]; [now left|right; now apply IH].
Qed.

Lemma header_sub content l : In l (header content) -> sub l content.
Proof.
  intros H. apply go_lines_sub. apply leading_run_In. now apply followed_by_blank_In.
Qed.

Lemma comment_text_sub l : sub (comment_text l) l.
Proof.
  unfold comment_text. eapply sub_trans; [apply sub_trim_space|]. eapply sub_trans; [apply sub_skipn|apply sub_trim_space].
Qed.

Lemma build_options_sub l opts o : build_options l = Some opts -> In o opts -> sub o l.
Proof.
  unfold build_options. destruct (comment l && has_prefix [PLUS] (comment_text l)); [|discriminate].
  destruct (fields (comment_text l)) as [|w os] eqn:E; [discriminate|].
  destruct (bytes_eqb w plus_build); [|discriminate]. intros [= <-] Hin.
  eapply sub_trans; [|apply comment_text_sub]. apply fields_sub. rewrite E. now right.
Qed.

Section Ext.
Variables P Q : bytes -> bool.

Lemma term_ok_g_ext tags t : (forall x, sub x t -> P x = Q x) -> term_ok_g P tags t = term_ok_g Q tags t.
Proof.
  intros H. destruct t as [|b r]; [reflexivity|]. unfold term_ok_g, wf_tag_g.
  rewrite (H r (sub_tail b r)), (H (b :: r) (sub_refl _)). reflexivity.
Qed.

Lemma option_ok_g_ext tags o : (forall x, sub x o -> P x = Q x) -> option_ok_g P tags o = option_ok_g Q tags o.
Proof.
  intros H. unfold option_ok_g. apply forallb_ext_in. intros t Ht. apply term_ok_g_ext.
  intros x Hx. apply H. eapply sub_trans; [exact Hx|]. now apply (split_on_sub COMMA o).
Qed.

Lemma line_spec_g_ext tags l : (forall x, sub x l -> P x = Q x) -> line_spec_g P tags l = line_spec_g Q tags l.
Proof.
  intros H. unfold line_spec_g. destruct (build_options l) as [opts|] eqn:E; [|reflexivity].
  apply existsb_ext_in. intros o Ho. apply option_ok_g_ext. intros x Hx. apply H.
  eapply sub_trans; [exact Hx|]. now apply (build_options_sub l opts o).
Qed.

Lemma spec_should_build_g_ext content tags : (forall x, sub x content -> P x = Q x) ->
  spec_should_build_g P content tags = spec_should_build_g Q content tags.
Proof.
  intros H. unfold spec_should_build_g. apply forallb_ext_in. intros l Hl. apply line_spec_g_ext.
  intros x Hx. apply H. eapply sub_trans; [exact Hx|]. now apply header_sub.
Qed.
End Ext.
