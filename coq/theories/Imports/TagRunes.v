(* Go's rune-level tag test (range over the string, unicode.IsLetter / IsDigit from the
   regenerated range tables) against Build.v's byte-level [tag_chars] (ASCII by range, the
   generated table [extra_tag_runes] for U+0080..U+024F): they agree on every string whose
   bytes are all below 0xC9.  The generated table is checked against the regenerated range
   tables by computation on every run: it lists the encodings of exactly the letters and
   digits of U+0080..U+024F; the rest follows from what the decoder accepts
   (Lib/Utf8EncodeFacts.v). *)
From Coq Require Import List Bool Arith NArith ZArith Lia.
From Coq.Strings Require Import Byte.
From GI Require Import Lib.Bytes Lib.BytesFacts Lib.GoSem Lib.GoSemExt Lib.GoSemExtFacts Lib.GoSemUnicode
  Lib.Utf8 Lib.Utf8Tables Lib.Utf8EncodeFacts Gen.ImportsConsts Gen.UnicodeConsts Imports.Build Imports.BuildGen.
Import ListNotations.
Local Open Scope nat_scope.

(* the code points lo, lo+1, ..., lo+n-1 *)
Fixpoint nrange (n : nat) (lo : N) : list N :=
  match n with
  | 0 => []
  | S n' => lo :: nrange n' (N.succ lo)
  end.

Lemma nrange_In n : forall lo r, In r (nrange n lo) <-> (lo <= r < lo + N.of_nat n)%N.
Proof.
  induction n as [|n IH]; intros lo r; cbn [nrange In]; [lia|]. rewrite IH. lia.
Qed.

Definition tag_code (r : N) : bool := tag_rune (Z.of_N r).

(* ASCII: the rune is the byte *)
Lemma ascii_ok_all :
  forallb (fun n => Bool.eqb (tag_code n) (tag_char (byte_of_N n))) (nrange 128 0) = true.
Proof. vm_compute. reflexivity. Qed.

Lemma tag_rune_ascii b : (bN b <? 128)%N = true -> tag_rune (Z.of_N (bN b)) = tag_char b.
Proof.
  intros H. pose proof ascii_ok_all as Hall. rewrite forallb_forall in Hall.
  specialize (Hall (bN b)). rewrite byte_of_bN in Hall. apply eqb_prop, Hall, nrange_In. lia.
Qed.

Lemma tag_rune_error : tag_rune (Z.of_N rune_error) = false.
Proof. vm_compute. reflexivity. Qed.

(* the model's table: the two-byte encodings of the tag runes from U+0080 to U+024F
   (464 code points; a regenerated table that lists anything else breaks this lemma) *)
Lemma extra_tag_runes_eq :
  extra_tag_runes = map encode_rune (filter tag_code (nrange 464 128)).
Proof. vm_compute. reflexivity. Qed.

Lemma tag_table_In n lo e :
  In e (map encode_rune (filter tag_code (nrange n lo))) <->
  exists v, (lo <= v < lo + N.of_nat n)%N /\ tag_code v = true /\ e = encode_rune v.
Proof.
  rewrite in_map_iff. split; intros (v & H1 & H2); exists v.
  - apply filter_In in H2. rewrite nrange_In in H2. easy.
  - rewrite filter_In, nrange_In. easy.
Qed.

Lemma extra_tag_runes_In e :
  In e extra_tag_runes <-> exists v, (128 <= v < 592)%N /\ tag_code v = true /\ e = encode_rune v.
Proof. rewrite extra_tag_runes_eq. exact (tag_table_In 464 128 e). Qed.

Lemma two_bytes v :
  (128 <= v < 2048)%N -> is_scalar v = true /\ rune_len v = 2 /\ length (encode_rune v) = 2.
Proof.
  intros H. destruct (encode_rune_2 v H) as [-> ->]. rewrite is_scalar_iff. repeat split. lia.
Qed.

Lemma extra_rune_len_width d : extra_rune_len d = match_width extra_tag_runes d.
Proof.
  unfold extra_rune_len. induction extra_tag_runes as [|e t IH]; [reflexivity|].
  cbn [find match_width]. now destruct (has_prefix e d).
Qed.

(* the table answers 2 where the decoder finds a tag rune of the table's range, 0 elsewhere *)
Lemma extra_rune_len_cases d :
  (extra_rune_len d = 2 /\
   exists v, (128 <= v < 592)%N /\ tag_code v = true /\ decode_rune d = Some (v, 2))
  \/ (extra_rune_len d = 0 /\
      forall v, (128 <= v < 592)%N -> tag_code v = true -> decode_rune d <> Some (v, 2)).
Proof.
  rewrite extra_rune_len_width.
  destruct (match_width_cases extra_tag_runes d) as [(e & He & Hp & ->)|[-> Hno]]; [left|right].
  - apply extra_tag_runes_In in He. destruct He as (v & Hv & Ht & ->).
    apply has_prefix_iff in Hp. destruct Hp as [x ->].
    destruct (two_bytes v) as (Hs & Hl & ->); [lia|]. split; [reflexivity|]. exists v.
    now rewrite (decode_encode v x Hs), Hl.
  - split; [reflexivity|]. intros v Hv Ht Hd.
    destruct (two_bytes v) as (Hs & Hl & _); [lia|].
    destruct (decode_rune_sound d v 2 Hd) as (_ & _ & He); [apply andb_false_r|].
    rewrite <- (firstn_skipn 2 d), He in Hd.
    enough (has_prefix (encode_rune v) d = false) as Hf.
    { rewrite <- (firstn_skipn 2 d), He, has_prefix_app in Hf. discriminate. }
    apply Hno, extra_tag_runes_In. now exists v.
Qed.

(* a lead byte 0x80..0xC8 starts a two-byte rune below U+0250 or nothing *)
Lemma decode_below_c9 b r :
  (128 <= bN b < 201)%N ->
  decode_rune (b :: r) = err1 \/
  exists c r' v, r = c :: r' /\ (128 <= v < 592)%N /\ decode_rune (b :: r) = Some (v, 2).
Proof.
  intros Hb. destruct (decode_rune_cases (b :: r)) as [H|[H|(v & w & -> & H)]];
    [discriminate|now left|right].
  inversion H; subst; hyps; try lia. eexists; eexists; eexists. split; [reflexivity|]. split; [|reflexivity]. lia.
Qed.

Lemma decode_rune_ascii b r : (bN b <? 128)%N = true -> decode_rune (b :: r) = Some (bN b, 1).
Proof. intros H. unfold decode_rune, rune_self. now rewrite H. Qed.

Lemma tag_chars_agree_go n : forall d pos, length d <= n -> below_c9 d ->
  forallb (fun ic => tag_rune (snd ic)) (go_runes_from n pos d) = tag_chars_go d 0.
Proof.
  induction n as [|n IH]; intros d pos Hn Hd.
  - destruct d; [reflexivity|cbn in Hn; lia].
  - destruct d as [|b r]; [reflexivity|]. inversion Hd as [|? ? Hb Hr]; subst.
    cbn [length] in Hn. cbn [go_runes_from tag_chars_go].
    destruct (bN b <? 128)%N eqn:Ea.
    + rewrite decode_rune_ascii by exact Ea. cbn [forallb snd skipn].
      rewrite tag_rune_ascii by exact Ea. f_equal. apply IH; [lia|exact Hr].
    + destruct (extra_rune_len_cases (b :: r)) as [[-> (v & Hv & Ht & ->)]|[-> Hno]].
      * (* a two-byte tag rune *)
        cbn [forallb snd]. fold (tag_code v). rewrite Ht.
        destruct r as [|c r']; [now destruct n|]. inversion Hr; subst. cbn [length] in Hn.
        cbn [andb skipn tag_chars_go]. apply IH; [lia|assumption].
      * destruct (decode_below_c9 b r) as [->|(c & r' & v & -> & Hv & Hd2)]; [lia| |].
        -- unfold err1. cbn [forallb snd]. now rewrite tag_rune_error.
        -- rewrite Hd2. cbn [forallb snd]. fold (tag_code v).
           destruct (tag_code v) eqn:Ht; [now elim (Hno v Hv Ht)|reflexivity].
Qed.

Theorem unicode_tag_chars_below_c9 d : below_c9 d -> unicode_tag_chars d = tag_chars d.
Proof. intros H. unfold unicode_tag_chars, go_runes, tag_chars. now apply tag_chars_agree_go. Qed.

(* the byte offsets do not matter to the test *)
Lemma tag_runes_pos n : forall p q s,
  forallb (fun ic : Z * Z => tag_rune (snd ic)) (go_runes_from n p s)
  = forallb (fun ic : Z * Z => tag_rune (snd ic)) (go_runes_from n q s).
Proof.
  induction n as [|n IH]; intros p q s; [reflexivity|]. cbn [go_runes_from].
  destruct (decode_rune s) as [[v w]|]; [|reflexivity]. cbn [forallb snd]. f_equal. apply IH.
Qed.

(* a byte below 0x80 that is no tag character spoils the name for Go's test too *)
Lemma unicode_tag_chars_cons_ascii b r : (bN b <? 128)%N = true ->
  unicode_tag_chars (b :: r) = tag_char b && unicode_tag_chars r.
Proof.
  intros Ea. unfold unicode_tag_chars, go_runes. cbn [length go_runes_from].
  rewrite decode_rune_ascii by exact Ea. cbn [forallb snd skipn].
  rewrite tag_rune_ascii by exact Ea. f_equal. apply tag_runes_pos.
Qed.

Lemma unicode_tag_chars_nil : unicode_tag_chars [] = true.
Proof. reflexivity. Qed.

(* the entries of the regenerated OS / architecture lists are tags for Go's test as well *)
Lemma known_os_unicode : forallb unicode_tag_chars known_os = true.
Proof. vm_compute. reflexivity. Qed.
Lemma known_arch_unicode : forallb unicode_tag_chars known_arch = true.
Proof. vm_compute. reflexivity. Qed.
