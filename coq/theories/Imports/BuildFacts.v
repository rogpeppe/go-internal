(* Proofs about the model of imports/build.go (Build.v): the model equals the
   specification written from the property text. *)
From Coq Require Import List Bool Arith NArith Lia.
From Coq.Strings Require Import Byte.
From GI Require Import Lib.Bytes Lib.BytesFacts Gen.ImportsConsts Imports.Build.
Import ListNotations.

(* facts about the regenerated constants (Gen/ImportsConsts.v) *)
Lemma known_os_nonempty : known known_os [] = false.
Proof. reflexivity. Qed.
Lemma known_arch_nonempty : known known_arch [] = false.
Proof. reflexivity. Qed.
Lemma known_os_tagchars : forallb tag_chars known_os = true.
Proof. vm_compute. reflexivity. Qed.
Lemma known_arch_tagchars : forallb tag_chars known_arch = true.
Proof. vm_compute. reflexivity. Qed.
Lemma test_word_no_us : ~ In US test_word.
Proof. apply mem_byte_false. reflexivity. Qed.
Lemma ignore_not_linux : bytes_eqb ignore linux = false.
Proof. reflexivity. Qed.
Lemma bang_not_tag_chars r : tag_chars (BANG :: r) = false.
Proof. reflexivity. Qed.

Lemma forallb_ext_in {A} (f g : A -> bool) l : (forall x, In x l -> f x = g x) -> forallb f l = forallb g l.
Proof.
  induction l as [|x l IH]; intros H; [reflexivity|]. cbn [forallb].
  rewrite (H x (or_introl eq_refl)), IH; [reflexivity|]. intros y Hy. apply H. now right.
Qed.
Lemma existsb_ext_in {A} (f g : A -> bool) l : (forall x, In x l -> f x = g x) -> existsb f l = existsb g l.
Proof.
  induction l as [|x l IH]; intros H; [reflexivity|]. cbn [existsb].
  rewrite (H x (or_introl eq_refl)), IH; [reflexivity|]. intros y Hy. apply H. now right.
Qed.

Lemma known_tagchars tab x :
  forallb tag_chars tab = true -> known tab x = true -> tag_chars x = true.
Proof.
  intros Hall Hk. unfold known in Hk. apply existsb_exists in Hk. destruct Hk as [y [Hin Heq]].
  apply bytes_eqb_eq in Heq. subst y. rewrite forallb_forall in Hall. now apply Hall.
Qed.

Lemma match_tag_true name tags : name <> [] ->
  match_tag name tags true = tag_chars name && (wild tags name || selects tags name).
Proof.
  intros Hne. unfold match_tag, wild, selects. destruct name as [|b r]; [contradiction|].
  cbn [is_nil negb].
  destruct (tag_chars (b :: r)), (tags star), (bytes_eqb (b :: r) ignore),
    (bytes_eqb (b :: r) linux), (tags (b :: r)), (tags android); reflexivity.
Qed.

Lemma match_tag_false name tags : name <> [] ->
  match_tag name tags false = tag_chars name && (wild tags name || negb (selects tags name)).
Proof.
  intros Hne. unfold match_tag, wild, selects. destruct name as [|b r]; [contradiction|].
  cbn [is_nil negb].
  destruct (tag_chars (b :: r)), (tags star), (bytes_eqb (b :: r) ignore),
    (bytes_eqb (b :: r) linux), (tags (b :: r)), (tags android); reflexivity.
Qed.

Lemma match_tag_nostar name tags : tags star = false ->
  match_tag name tags true = tag_chars name && selects tags name.
Proof.
  intros Hs. unfold match_tag, selects. rewrite Hs. cbn [andb].
  destruct (tag_chars name), (bytes_eqb name linux), (tags name), (tags android); reflexivity.
Qed.

Lemma match_term_spec t tags : match_term t tags = term_ok tags t.
Proof.
  destruct t as [|b r]; [reflexivity|].
  unfold match_term, term_ok. cbn [is_nil]. cbn [has_prefix]. rewrite (beq_sym BANG b).
  destruct (beq b BANG) eqn:Eb.
  - apply beq_eq in Eb. subst b. cbn [andb].
    destruct r as [|c r'].
    + reflexivity.
    + destruct (beq BANG c) eqn:Ec.
      * apply beq_eq in Ec. subst c. cbn [andb]. unfold wf_tag. cbn [is_nil negb].
        rewrite bang_not_tag_chars. reflexivity.
      * cbn [andb]. cbn [length skipn]. change (1 <? S (S (length r'))) with true. cbn [andb].
        rewrite match_tag_false by discriminate. unfold wf_tag. reflexivity.
  - cbn [andb]. rewrite match_tag_true by discriminate. unfold wf_tag. reflexivity.
Qed.

Lemma split_on_nonnil c d : split_on c d <> [].
Proof.
  destruct d as [|b r]; cbn [split_on]; [discriminate|].
  destruct (beq b c); [discriminate|]. destruct (split_on c r); discriminate.
Qed.

Lemma match_tags_go_spec tags d : forall cur,
  match_tags_go tags cur d =
  match split_on COMMA d with
  | l :: ls => match_term (rev cur ++ l) tags && forallb (fun t => match_term t tags) ls
  | [] => true
  end.
Proof.
  induction d as [|b r IH]; intros cur; cbn [match_tags_go split_on].
  - now rewrite app_nil_r, andb_true_r.
  - destruct (beq b COMMA) eqn:Eb.
    + rewrite IH. rewrite app_nil_r. cbn [rev app].
      destruct (split_on COMMA r) as [|l ls] eqn:Es; [now apply split_on_nonnil in Es|].
      reflexivity.
    + rewrite IH. destruct (split_on COMMA r) as [|l ls] eqn:Es; [now apply split_on_nonnil in Es|].
      cbn [rev]. now rewrite <- app_assoc.
Qed.

Lemma match_tags_spec name tags : match_tags name tags = option_ok tags name.
Proof.
  unfold match_tags, option_ok. destruct name as [|b r]; [reflexivity|]. cbn [is_nil].
  rewrite match_tags_go_spec. cbn [rev app].
  destruct (split_on COMMA (b :: r)) as [|l ls] eqn:Es; [now apply split_on_nonnil in Es|].
  cbn [forallb]. rewrite match_term_spec. f_equal. apply forallb_ext_in. intros x _. apply match_term_spec.
Qed.

Lemma followed_by_blank_none run : existsb blank run = false -> followed_by_blank run = [].
Proof. intros H. destruct run as [|l r]; [reflexivity|]. cbn [followed_by_blank]. now rewrite H. Qed.

Lemma pass1_spec ls : forall acc pend,
  pass1 acc pend ls =
  acc ++ (if existsb blank (leading_run ls) then pend ++ followed_by_blank (leading_run ls) else []).
Proof.
  induction ls as [|l r IH]; intros acc pend; cbn [pass1 leading_run].
  - cbn. now rewrite app_nil_r.
  - assert (Hb : is_nil (trim_space l) = blank l) by reflexivity.
    assert (Hc : has_prefix slashslash (trim_space l) = comment l) by reflexivity.
    rewrite Hb, Hc. destruct (blank l) eqn:Eb.
    + cbn [orb]. rewrite IH. cbn [existsb followed_by_blank]. rewrite Eb. cbn [orb].
      rewrite <- !app_assoc. f_equal. f_equal. cbn [app]. f_equal.
      destruct (existsb blank (leading_run r)) eqn:Ee; [reflexivity|].
      now rewrite followed_by_blank_none.
    + cbn [orb]. destruct (comment l) eqn:Ec; cbn [negb].
      * rewrite IH. cbn [existsb followed_by_blank]. rewrite Eb. cbn [orb].
        destruct (existsb blank (leading_run r)); [|reflexivity].
        now rewrite <- app_assoc.
      * cbn. now rewrite app_nil_r.
Qed.

Definition line_spec (tags : tagset) (l : bytes) : bool :=
  match build_options l with
  | Some opts => existsb (option_ok tags) opts
  | None => true
  end.

Lemma fields_go_nonnil d : forall cur k, cur <> [] -> fields_go d cur k <> [].
Proof.
  induction d as [|b r IH]; intros cur k Hc; cbn [fields_go].
  - destruct cur; [contradiction|discriminate].
  - destruct k as [|k]; [|now apply IH].
    destruct (space_prefix (b :: r)).
    + apply IH. discriminate.
    + destruct cur; [contradiction|]. discriminate.
Qed.

Lemma space_prefix_plus r : space_prefix (PLUS :: r) = 0.
Proof. reflexivity. Qed.

Lemma fields_plus r : fields (PLUS :: r) <> [].
Proof.
  unfold fields. cbn [fields_go]. rewrite space_prefix_plus. apply fields_go_nonnil. discriminate.
Qed.

Lemma line_ok_spec tags l : line_ok tags l = Some (line_spec tags l).
Proof.
  unfold line_ok, line_spec, build_options, comment, comment_text.
  destruct (has_prefix slashslash (trim_space l)); cbn [negb andb]; [|reflexivity].
  destruct (trim_space (skipn (length slashslash) (trim_space l))) as [|b r] eqn:Et; [reflexivity|].
  cbn [has_prefix]. rewrite (beq_sym PLUS b). destruct (beq b PLUS) eqn:Eb; cbn [andb]; [|reflexivity].
  apply beq_eq in Eb. subst b.
  destruct (fields (PLUS :: r)) as [|f0 args] eqn:Ef; [now apply fields_plus in Ef|].
  destruct (bytes_eqb f0 plus_build); [|reflexivity].
  f_equal. apply existsb_ext_in. intros x _. apply match_tags_spec.
Qed.

Lemma pass2_spec tags ls : forall allok,
  pass2 tags allok ls = Some (allok && forallb (line_spec tags) ls).
Proof.
  induction ls as [|l r IH]; intros allok; cbn [pass2 forallb].
  - now rewrite andb_true_r.
  - rewrite line_ok_spec, IH. f_equal. destruct (line_spec tags l), allok; reflexivity.
Qed.

Lemma should_build_spec content tags :
  should_build content tags = Some (spec_should_build content tags).
Proof.
  unfold should_build, spec_should_build, header. rewrite pass1_spec, pass2_spec. cbn [app andb].
  f_equal.
  destruct (existsb blank (leading_run (go_lines content))) eqn:Ee; [reflexivity|].
  now rewrite followed_by_blank_none.
Qed.

Lemma term_ok_star tags t : tags star = true -> term_ok tags t = star_term_ok tags t.
Proof.
  intros Hs. unfold term_ok, star_term_ok, wild, selects. rewrite Hs. cbn [andb].
  assert (H : forall r, (negb (bytes_eqb r ignore) || negb (tags r || bytes_eqb r linux && tags android))
                        = (negb (bytes_eqb r ignore) || negb (tags ignore))
                     /\ (negb (bytes_eqb r ignore) || (tags r || bytes_eqb r linux && tags android))
                        = (negb (bytes_eqb r ignore) || tags ignore)).
  { intros r. destruct (bytes_eqb r ignore) eqn:Ei; cbn [negb orb]; [|now split].
    apply bytes_eqb_eq in Ei. subst r. rewrite ignore_not_linux. cbn [andb]. now rewrite orb_false_r. }
  destruct t as [|b r]; [reflexivity|].
  destruct (beq b BANG); [now rewrite (proj1 (H r))|now rewrite (proj2 (H (b :: r)))].
Qed.

Lemma star_accepts_all_but_ignore tags :
  tags star = true ->
  (forall name, match_file name tags = true) /\
  (forall content,
     should_build content tags =
     Some (forallb (fun l => match build_options l with
                             | Some opts => existsb (fun o => forallb (star_term_ok tags) (split_on COMMA o)) opts
                             | None => true
                             end) (header content))).
Proof.
  intros Hs. split.
  - intros name. unfold match_file. now rewrite Hs.
  - intros content. rewrite should_build_spec. f_equal. unfold spec_should_build.
    apply forallb_ext_in. intros l _. destruct (build_options l) as [opts|]; [|reflexivity].
    apply existsb_ext_in. intros o _. unfold option_ok. apply forallb_ext_in. intros t _. now apply term_ok_star.
Qed.

Fixpoint join (c : byte) (ls : list bytes) : bytes :=
  match ls with
  | [] => []
  | x :: r => match r with [] => x | _ => x ++ c :: join c r end
  end.

Lemma join_split c d : join c (split_on c d) = d.
Proof.
  induction d as [|b r IH]; [reflexivity|]. cbn [split_on].
  destruct (beq b c) eqn:Eb.
  - apply beq_eq in Eb. subst b.
    destruct (split_on c r) as [|l ls] eqn:Es; [now apply split_on_nonnil in Es|].
    cbn [join app] in *. now rewrite IH.
  - destruct (split_on c r) as [|l ls] eqn:Es; [now apply split_on_nonnil in Es|].
    destruct ls as [|y ys]; cbn [join] in *; [now rewrite IH|].
    cbn [app]. now rewrite IH.
Qed.

Lemma split_on_segments c d : Forall (fun t => ~ In c t) (split_on c d).
Proof.
  induction d as [|b r IH]; cbn [split_on].
  - constructor; [intros []|constructor].
  - destruct (beq b c) eqn:Eb.
    + constructor; [intros []|exact IH].
    + destruct (split_on c r) as [|l ls]; [constructor; [|constructor]|].
      * intros [H|[]]. subst. now rewrite beq_refl in Eb.
      * inversion IH as [|? ? Hl Hls]; subst. constructor; [|exact Hls].
        intros [H|H]; [subst; now rewrite beq_refl in Eb|now apply Hl].
Qed.

Lemma split_on_none c t : ~ In c t -> split_on c t = [t].
Proof.
  induction t as [|b r IH]; intros H; [reflexivity|]. cbn [split_on].
  destruct (beq b c) eqn:Eb; [apply beq_eq in Eb; subst; exfalso; apply H; now left|].
  rewrite IH; [reflexivity|]. intros Hin. apply H. now right.
Qed.

Lemma split_on_snoc c front t : ~ In c t ->
  split_on c (front ++ c :: t) = split_on c front ++ [t].
Proof.
  intros Ht. induction front as [|b f IH]; cbn [app split_on].
  - rewrite beq_refl. now rewrite split_on_none.
  - destruct (beq b c); [now rewrite IH|]. rewrite IH.
    destruct (split_on c f) as [|l ls] eqn:Es; [now apply split_on_nonnil in Es|]. reflexivity.
Qed.

Lemma join_snoc c ls t : ls <> [] -> join c (ls ++ [t]) = join c ls ++ c :: t.
Proof.
  induction ls as [|x r IH]; intros Hne; [contradiction|].
  destruct r as [|y r'].
  - reflexivity.
  - change (join c ((x :: y :: r') ++ [t])) with (x ++ c :: join c ((y :: r') ++ [t])).
    rewrite IH by discriminate. change (join c (x :: y :: r')) with (x ++ c :: join c (y :: r')).
    now rewrite <- app_assoc.
Qed.

Lemma from_first_some c d s : from_first c d = Some s ->
  exists pre rest, d = pre ++ c :: rest /\ ~ In c pre /\ s = c :: rest.
Proof.
  induction d as [|b r IH]; cbn [from_first]; [discriminate|].
  destruct (beq b c) eqn:Eb.
  - intros [= <-]. apply beq_eq in Eb. subst b. exists [], r. repeat split. intros [].
  - intros H. destruct (IH H) as [pre [rest [-> [Hp ->]]]]. exists (b :: pre), rest. repeat split.
    intros [Hin|Hin]; [subst; now rewrite beq_refl in Eb|now apply Hp].
Qed.

Lemma from_first_intro c pre rest : ~ In c pre -> from_first c (pre ++ c :: rest) = Some (c :: rest).
Proof.
  induction pre as [|b p IH]; intros H; cbn [app from_first].
  - now rewrite beq_refl.
  - rewrite beq_false; [apply IH; intros Hin; apply H; now right|].
    intros ->. apply H. now left.
Qed.

Lemma from_first_none c d : from_first c d = None -> ~ In c d.
Proof.
  induction d as [|b r IH]; cbn [from_first]; [intros _ []|].
  destruct (beq b c) eqn:Eb; [discriminate|].
  intros H [Hin|Hin]; [subst; now rewrite beq_refl in Eb|now apply IH].
Qed.

(* the segments of the tail after one trailing "_test" was dropped *)
Lemma strip_test_cases rest s : s = US :: rest ->
  (exists x, s = x ++ US :: test_word /\ strip_test s = x /\
             split_on US s = split_on US x ++ [test_word])
  \/ (strip_test s = s /\
      forall y r, rev (split_on US s) = y :: r -> bytes_eqb y test_word = false).
Proof.
  intros Hdef. unfold strip_test. destruct (has_suffix (US :: test_word) s) eqn:Hs.
  - left. apply has_suffix_iff in Hs. destruct Hs as [x Hx]. exists x. split; [exact Hx|]. split.
    + rewrite Hx. rewrite app_length.
      replace (length x + length (US :: test_word) - length (US :: test_word)) with (length x) by lia.
      apply firstn_length_app.
    + rewrite Hx. apply split_on_snoc. apply test_word_no_us.
  - right. split; [reflexivity|]. intros y r Hr.
    destruct (bytes_eqb y test_word) eqn:Ey; [|reflexivity]. exfalso.
    apply bytes_eqb_eq in Ey. subst y.
    assert (Hl : split_on US s = rev r ++ [test_word]).
    { rewrite <- (rev_involutive (split_on US s)), Hr. reflexivity. }
    assert (Hne : rev r <> []).
    { intros He. rewrite He in Hl. rewrite Hdef in Hl. cbn [split_on app] in Hl. rewrite beq_refl in Hl.
      destruct (split_on US rest) eqn:Es; [now apply split_on_nonnil in Es|discriminate]. }
    pose proof (join_split US s) as Hj. rewrite Hl, join_snoc in Hj by exact Hne.
    assert (Hs' : has_suffix (US :: test_word) s = true).
    { apply has_suffix_iff. eexists. symmetry. exact Hj. }
    congruence.
Qed.

Lemma model_segments rest :
  match rev (split_on US (US :: rest)) with
  | x :: r => if bytes_eqb x test_word then r else x :: r
  | [] => []
  end = rev (split_on US (strip_test (US :: rest))).
Proof.
  destruct (strip_test_cases rest (US :: rest) eq_refl) as [[x [Hx [Hst Hsp]]]|[Hst Hno]].
  - rewrite Hst, Hsp, rev_app_distr. cbn [rev app]. now rewrite bytes_eqb_refl.
  - rewrite Hst. destruct (rev (split_on US (US :: rest))) as [|y r] eqn:Er; [reflexivity|].
    now rewrite (Hno y r eq_refl).
Qed.

(* what is looked at is empty or starts with '_' *)
Lemma strip_test_shape rest :
  strip_test (US :: rest) = [] \/ exists r', strip_test (US :: rest) = US :: r'.
Proof.
  destruct (strip_test_cases rest (US :: rest) eq_refl) as [[x [Hx [Hst _]]]|[Hst _]].
  - rewrite Hst. destruct x as [|b x']; [now left|]. right. cbn [app] in Hx.
    injection Hx as <- _. now exists x'.
  - right. rewrite Hst. now exists rest.
Qed.

(* so its first segment is empty *)
Lemma strip_test_head rest x l : split_on US (strip_test (US :: rest)) = x :: l -> x = [].
Proof.
  destruct (strip_test_shape rest) as [->|[r' ->]]; cbn [split_on]; [|rewrite beq_refl]; now intros [= <- _].
Qed.

Lemma ends1_iff s t :
  ends_with_tokens s [t] <-> exists ls, ls <> [] /\ split_on US s = ls ++ [t].
Proof.
  unfold ends_with_tokens, join_us. cbn [map concat]. rewrite app_nil_r. split.
  - intros [[front ->] Hf]. inversion Hf as [|? ? Ht _]; subst.
    exists (split_on US front). split; [apply split_on_nonnil|]. now apply split_on_snoc.
  - intros [ls [Hne Hs]]. pose proof (join_split US s) as Hj. rewrite Hs, join_snoc in Hj by exact Hne.
    split; [eexists; symmetry; exact Hj|].
    pose proof (split_on_segments US s) as Hseg. rewrite Hs in Hseg.
    apply Forall_app in Hseg. exact (proj2 Hseg).
Qed.

Lemma ends2_iff s o a :
  ends_with_tokens s [o; a] <-> exists ls, ls <> [] /\ split_on US s = ls ++ [o; a].
Proof.
  unfold ends_with_tokens, join_us. cbn [map concat]. rewrite app_nil_r. split.
  - intros [[front ->] Hf]. inversion Hf as [|? ? Ho Hf']; subst.
    inversion Hf' as [|? ? Ha _]; subst.
    exists (split_on US front). split; [apply split_on_nonnil|].
    rewrite app_assoc, split_on_snoc by exact Ha. rewrite split_on_snoc by exact Ho.
    now rewrite <- app_assoc.
  - intros [ls [Hne Hs]]. pose proof (join_split US s) as Hj.
    change (ls ++ [o; a]) with (ls ++ [o] ++ [a]) in Hs. rewrite app_assoc in Hs.
    rewrite Hs, join_snoc in Hj by (destruct ls; discriminate).
    rewrite join_snoc in Hj by exact Hne.
    split.
    + exists (join US ls). rewrite <- Hj. now rewrite <- app_assoc.
    + pose proof (split_on_segments US s) as Hseg. rewrite Hs in Hseg.
      apply Forall_app in Hseg. destruct Hseg as [Hseg Ha]. apply Forall_app in Hseg.
      destruct Hseg as [_ Ho]. inversion Ho; inversion Ha; subst. now repeat constructor.
Qed.

Lemma known_match_tag tab t tags :
  forallb tag_chars tab = true -> known tab t = true -> tags star = false ->
  match_tag t tags true = selects tags t.
Proof.
  intros Hall Hk Hs. rewrite match_tag_nostar by exact Hs.
  now rewrite (known_tagchars tab t Hall Hk).
Qed.

Lemma match_file_spec name tags : match_file name tags = false <-> rejected name tags.
Proof.
  unfold match_file, rejected. split.
  - (* the model says no: exhibit the suffix *)
    destruct (tags star) eqn:Hs; [discriminate|]. intros H. split; [reflexivity|].
    destruct (from_first US (take_until DOT name)) as [s|] eqn:Ef; [|discriminate].
    destruct (from_first_some _ _ _ Ef) as [pre [rest [Hbase [Hpre ->]]]].
    rewrite (model_segments rest) in H.
    exists (strip_test (US :: rest)). split; [now exists pre, rest|].
    set (s' := strip_test (US :: rest)) in *.
    destruct (rev (split_on US s')) as [|a [|o tl]] eqn:Er; [discriminate| |].
    + (* one segment: it is empty, hence unknown *)
      assert (Hl : split_on US s' = [a]) by (rewrite <- (rev_involutive (split_on US s')), Er; reflexivity).
      rewrite (strip_test_head rest a [] Hl), known_os_nonempty, known_arch_nonempty in H. discriminate.
    + assert (Hl : split_on US s' = rev tl ++ [o; a]).
      { rewrite <- (rev_involutive (split_on US s')), Er. cbn [rev]. now rewrite <- app_assoc. }
      assert (E1 : ends_with_tokens s' [a]).
      { apply ends1_iff. exists (rev tl ++ [o]). split; [destruct (rev tl); discriminate|].
        rewrite Hl. now rewrite <- app_assoc. }
      destruct (known known_os o && known known_arch a) eqn:Eoa.
      * apply andb_true_iff in Eoa. destruct Eoa as [Ho Ha].
        rewrite (known_match_tag _ _ _ known_os_tagchars Ho Hs),
                (known_match_tag _ _ _ known_arch_tagchars Ha Hs) in H.
        destruct (selects tags a) eqn:Sa.
        -- rewrite andb_true_r in H. right. exists o, a. split; [|now repeat split].
           apply ends2_iff. exists (rev tl). split; [|exact Hl].
           intros He. rewrite He in Hl. cbn [app] in Hl. rewrite (strip_test_head rest o [a] Hl) in Ho.
           rewrite known_os_nonempty in Ho. discriminate.
        -- left. exists a. split; [exact E1|]. split; [now right|exact Sa].
      * destruct (known known_os a) eqn:Ka.
        -- rewrite (known_match_tag _ _ _ known_os_tagchars Ka Hs) in H.
           left. exists a. split; [exact E1|]. split; [now left|exact H].
        -- destruct (known known_arch a) eqn:Kb; [|discriminate].
           rewrite (known_match_tag _ _ _ known_arch_tagchars Kb Hs) in H.
           left. exists a. split; [exact E1|]. split; [now right|exact H].
  - (* a rejected suffix makes the model say no *)
    intros [Hs [s' [[pre [rest [Hbase [Hpre ->]]]] Hrule]]]. rewrite Hs.
    rewrite Hbase, (from_first_intro US pre rest Hpre), (model_segments rest).
    destruct Hrule as [[t [E1 [Hk St]]]|[o [a [E2 [Ko [Ka So]]]]]].
    + apply ends1_iff in E1. destruct E1 as [ls [Hne Hl]]. rewrite Hl, rev_app_distr. cbn [rev app].
      destruct (rev ls) as [|o tl] eqn:Erl.
      { exfalso. apply Hne. rewrite <- (rev_involutive ls), Erl. reflexivity. }
      assert (Mt : forall tab, forallb tag_chars tab = true -> known tab t = true ->
                               match_tag t tags true = false).
      { intros tab Hall Hkt. now rewrite (known_match_tag _ _ _ Hall Hkt Hs). }
      destruct (known known_os o && known known_arch t) eqn:Eoa.
      * apply andb_true_iff in Eoa. rewrite (Mt _ known_arch_tagchars (proj2 Eoa)). apply andb_false_r.
      * destruct (known known_os t) eqn:K1; [now apply (Mt _ known_os_tagchars)|].
        destruct (known known_arch t) eqn:K2; [now apply (Mt _ known_arch_tagchars)|].
        destruct Hk; discriminate.
    + apply ends2_iff in E2. destruct E2 as [ls [Hne Hl]]. rewrite Hl, rev_app_distr. cbn [rev app].
      rewrite Ko, Ka. cbn [andb].
      now rewrite (known_match_tag _ _ _ known_os_tagchars Ko Hs), So.
Qed.


Definition ex_tags (on : list bytes) : tagset := fun t => existsb (bytes_eqb t) on.

(* "// +build linux,!foo bar\n\npackage x" under {linux}: accepted through the first option *)
Example ex_should_build :
  let src := [x2f;x2f;x20;x2b;x62;x75;x69;x6c;x64;x20;x6c;x69;x6e;x75;x78;x2c;x21;x66;x6f;x6f;x20;x62;x61;x72;
              x0a;x0a;x70;x61;x63;x6b;x61;x67;x65;x20;x78] in
  should_build src (ex_tags [linux]) = Some true
  /\ should_build src (ex_tags [android]) = Some true
  /\ should_build src (ex_tags []) = Some false
  /\ length (header src) = 2.
Proof. vm_compute. repeat split. Qed.

(* x_linux.go under {android} is accepted (android selects linux, as in upstream Go); x_linux_arm_test.go under
   {linux} is rejected, and the witness of [rejected] exists *)
Example ex_match_file :
  match_file [x78;x5f;x6c;x69;x6e;x75;x78;x2e;x67;x6f] (ex_tags [android]) = true
  /\ match_file [x78;x5f;x6c;x69;x6e;x75;x78;x5f;x61;x72;x6d;x5f;x74;x65;x73;x74;x2e;x67;x6f] (ex_tags [linux]) = false.
Proof. vm_compute. split; reflexivity. Qed.

Example ex_rejected :
  rejected [x78;x5f;x6c;x69;x6e;x75;x78;x5f;x61;x72;x6d;x5f;x74;x65;x73;x74;x2e;x67;x6f] (ex_tags [linux]).
Proof. apply match_file_spec. vm_compute. reflexivity. Qed.

Example ex_star : ex_tags [star] star = true.
Proof. reflexivity. Qed.
