(* The byte-pattern tables behind bytes.TrimSpace / strings.Fields in the models: exactly the
   encodings of the 25 white-space runes, from the front and from the back. *)
From Coq Require Import List Bool Arith NArith Lia.
From Coq.Strings Require Import Byte.
From GI Require Import Lib.Bytes Lib.BytesFacts Imports.SpaceDefs.
Import ListNotations.
Export SpaceDefs.

Lemma is_space_rune_In r : is_space_rune r = true <-> In r space_runes.
Proof. apply existsb_eqb_In. Qed.

(* [enc] is utf8_enc for the front table and its reverse for the back table; both lists of
   encodings are those of Lib/BytesFacts.v, by computation *)
Lemma space_table_spec (F : bytes -> nat) (enc : N -> bytes) :
  (forall d n, (F d = n /\ n <> 0) <->
               exists e, In e (map enc space_runes) /\ has_prefix e d = true /\ length e = n) ->
  forall d n,
    (exists r, is_space_rune r = true /\ has_prefix (enc r) d = true /\ length (enc r) = n) <->
    (F d = n /\ n <> 0).
Proof.
  intros HF d n. rewrite HF. split.
  - intros (r & Hr & H). exists (enc r). split; [|exact H]. apply in_map. now apply is_space_rune_In.
  - intros (e & He & H). apply in_map_iff in He. destruct He as (r & <- & Hr).
    exists r. split; [now apply is_space_rune_In|exact H].
Qed.

(* the front table: exactly the encodings of the white-space runes *)
Theorem space_prefix_spec d n : space_at_front d n <-> (space_prefix d = n /\ n <> 0).
Proof. exact (space_table_spec space_prefix utf8_enc space_prefix_iff d n). Qed.

(* the table read from the end: exactly the same encodings, reversed *)
Theorem space_suffix_spec q n : space_at_back q n <-> (space_suffix_rev' q = n /\ n <> 0).
Proof.
  unfold space_at_back. setoid_rewrite <- (rev_length (utf8_enc _)).
  exact (space_table_spec space_suffix_rev' (fun r => rev (utf8_enc r)) space_suffix_iff q n).
Qed.
