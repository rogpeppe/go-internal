(* Gen/ImportsSrc.v is imports/build.go translated to Gallina by harness/go2coq on every
   run.  This file proves, for every input (and every sufficiently large bound on loop
   iterations and recursion depth), that each generated function returns Ok of exactly what
   the specification of Build.v says -- read with Go's own rune-level tag test
   (BuildGen.unicode_tag_chars) for every input, and hence with Build.v's model and
   specification themselves wherever the two tests agree (all bytes below 0xC9).  So the
   translated functions never panic and never exhaust the bound, and a change of build.go
   that changes the generated text stops these proofs from compiling.

   As in Txtar/SrcFacts.v functions are unfolded, the primitive operations are case-split in
   evaluation order, loops go by induction on the bound (for), on the list (range) or on the depth
   (recursion). *)
From Coq Require Import List Bool Arith ZArith NArith Lia ZifyBool.
From Coq.Strings Require Import Byte.
From GI Require Import Lib.Bytes Lib.BytesFacts Lib.GoSem Lib.GoSemExt Lib.GoSemExtFacts Lib.GoSemUnicode
  Gen.ImportsConsts Imports.Build Imports.BuildFacts Imports.SpaceTables Imports.SpaceFacts
  Imports.BuildGen Imports.BuildGenFacts Imports.TagRunes Imports.SrcLib Gen.ImportsSrc.
Import ListNotations.
Local Open Scope nat_scope.

(* the package-level variable and the literals as translated are the regenerated constants *)
Lemma src_consts :
  src_slashslash = slashslash /\ [x2a] = star /\ [x69; x67; x6e; x6f; x72; x65] = ignore
  /\ [x6c; x69; x6e; x75; x78] = linux /\ [x61; x6e; x64; x72; x6f; x69; x64] = android
  /\ [x2b; x62; x75; x69; x6c; x64] = plus_build /\ [x74; x65; x73; x74] = test_word
  /\ x2c = COMMA /\ x21 = BANG /\ x2b = PLUS /\ x5f = US /\ x2e = DOT.
Proof. repeat split. Qed.

(* the library calls of the translation, down to the list functions of the model *)
Ltac go_unfold :=
  unfold go_bytes_HasPrefix, go_bytes_HasSuffix, go_bytes_IndexByte, go_bytes_Index,
    go_strings_TrimSpace, go_slice, go_index, go_append, go_index_of, go_slice_of,
    go_strings_Fields, go_strings_Split, opt_pos, unreachable in *.

Lemma src_matchTag_loop_eq (L : Type) : forall l,
  @src_matchTag_loop1 L l =
  if forallb (fun ic => tag_rune (snd ic)) l then Ok (Normal tt) else Ok (Return false).
Proof.
  induction l as [|[i c] l IH]; [reflexivity|]. cbn [src_matchTag_loop1 forallb snd]. unfold tag_rune at 1.
  destruct (go_unicode_IsLetter c), (go_unicode_IsDigit c), (c =? 95)%Z, (c =? 46)%Z; go_red; try reflexivity; apply IH.
Qed.

Theorem src_matchTag_eq name tags want :
  src_matchTag name tags want = Ok (match_tag_g unicode_tag_chars name tags want).
Proof.
  unfold src_matchTag, match_tag_g. rewrite src_matchTag_loop_eq. fold (unicode_tag_chars name).
  destruct (unicode_tag_chars name); go_red; [|reflexivity].
  rewrite bytes_eqb_nil. change (match name with [] => true | _ :: _ => false end) with (is_nil name).
  destruct (tags [x2a] && negb (is_nil name) && negb (bytes_eqb name [x69; x67; x6e; x6f; x72; x65])) eqn:E;
    change [x2a] with star in E; change [x69; x67; x6e; x6f; x72; x65] with ignore in E; rewrite E; [reflexivity|].
  change [x6c; x69; x6e; x75; x78] with linux. change [x61; x6e; x64; x72; x6f; x69; x64] with android.
  destruct (bytes_eqb name linux); reflexivity.
Qed.

(* matchTag on a non-empty name, want = true / false (BuildFacts.match_tag_true / _false with
   the tag test as a parameter) *)
Lemma match_tag_g_true P name tags : name <> [] ->
  match_tag_g P name tags true = P name && (wild tags name || selects tags name).
Proof.
  intros Hne. unfold match_tag_g, wild, selects. destruct name as [|b r]; [contradiction|].
  cbn [is_nil negb].
  destruct (P (b :: r)), (tags star), (bytes_eqb (b :: r) ignore),
    (bytes_eqb (b :: r) linux), (tags (b :: r)), (tags android); reflexivity.
Qed.
Lemma match_tag_g_false P name tags : name <> [] ->
  match_tag_g P name tags false = P name && (wild tags name || negb (selects tags name)).
Proof.
  intros Hne. unfold match_tag_g, wild, selects. destruct name as [|b r]; [contradiction|].
  cbn [is_nil negb].
  destruct (P (b :: r)), (tags star), (bytes_eqb (b :: r) ignore),
    (bytes_eqb (b :: r) linux), (tags (b :: r)), (tags android); reflexivity.
Qed.

Lemma split_on_cut c d :
  split_on c d = match index_byte c d with
                 | Some k => firstn k d :: split_on c (skipn (S k) d)
                 | None => [d]
                 end.
Proof.
  induction d as [|b r IH]; [reflexivity|]. cbn [split_on index_byte]. destruct (beq b c); [reflexivity|].
  rewrite IH. destruct (index_byte c r) as [k|]; reflexivity.
Qed.

Lemma bang_not_unicode_tag r : unicode_tag_chars (BANG :: r) = false.
Proof. now rewrite unicode_tag_chars_cons_ascii by reflexivity. Qed.

(* one term: a name without a comma *)
Lemma src_matchTags_term f t tags : index_byte COMMA t = None ->
  src_matchTags (S f) t tags = Ok (term_ok_g unicode_tag_chars tags t).
Proof.
  intros Hc. cbn [src_matchTags]. go_unfold. rewrite index_sub_byte. change x2c with COMMA. rewrite Hc.
  rewrite bytes_eqb_nil. destruct t as [|b r]; [reflexivity|]. go_red.
  change (-1 >=? 0)%Z with false. go_red. cbn [has_prefix]. change x21 with BANG. rewrite (beq_sym BANG b).
  unfold term_ok_g. destruct (beq b BANG) eqn:Eb; go_red.
  - apply beq_eq in Eb. subst b. destruct r as [|c r'].
    + cbn [has_prefix andb]. go_red. reflexivity.
    + cbn [has_prefix]. rewrite andb_true_r. destruct (beq BANG c) eqn:Ec; go_red.
      * apply beq_eq in Ec. subst c. unfold wf_tag_g. now rewrite bang_not_unicode_tag.
      * assert (El : (len (BANG :: c :: r') >? 1)%Z = true) by (unfold len; cbn [length]; lia). rewrite El.
        change 1%Z with (Z.of_nat 1). rewrite slice_z_from by (cbn [length]; lia). cbn [skipn]. go_red.
        rewrite src_matchTag_eq. go_red. rewrite match_tag_g_false by discriminate. reflexivity.
  - rewrite src_matchTag_eq. go_red. rewrite match_tag_g_true by discriminate. reflexivity.
Qed.

Theorem src_matchTags_eq fuel : forall name tags, length name + 1 <= fuel ->
  src_matchTags fuel name tags = Ok (option_ok_g unicode_tag_chars tags name).
Proof.
  induction fuel as [|f IH]; intros name tags Hf; [lia|].
  unfold option_ok_g. rewrite (split_on_cut COMMA name).
  destruct (index_byte COMMA name) as [k|] eqn:Ek.
  - destruct (index_byte_Some _ _ _ Ek) as [Hk [Hpre Hsplit]].
    cbn [src_matchTags]. go_unfold. rewrite index_sub_byte. change x2c with COMMA. rewrite Ek.
    rewrite bytes_eqb_nil. destruct name as [|b r] eqn:En; [cbn in Hk; lia|]. rewrite <- En in *. go_red.
    assert (Ei : (Z.of_nat k >=? 0)%Z = true) by lia. rewrite Ei.
    rewrite slice_z_to by lia. go_red.
    destruct f as [|f']; [subst name; cbn [length] in Hf; lia|].
    rewrite src_matchTags_term by (apply index_byte_notin; exact Hpre). go_red.
    replace (Z.of_nat k + 1)%Z with (Z.of_nat (S k)) by lia. rewrite slice_z_from by lia. go_red.
    rewrite IH by (rewrite skipn_length; lia). go_red. cbn [forallb]. reflexivity.
  - rewrite src_matchTags_term by exact Ek. cbn [forallb]. now rewrite andb_true_r.
Qed.

(* lines: `line := p; if i := IndexByte(line, '\n'); i >= 0 { line, p = line[:i], p[i+1:] }
   else { p = p[len(p):] }` against the model's go_lines                *)

Lemma go_lines_line l x : ~ In NL l -> go_lines (l ++ NL :: x) = l :: go_lines x.
Proof.
  induction l as [|b l IH]; intros H; cbn [app go_lines].
  - now rewrite beq_refl.
  - rewrite beq_false by (intros ->; apply H; now left). rewrite IH; [reflexivity|]. intros Hin. apply H. now right.
Qed.

Lemma go_lines_last l : l <> [] -> ~ In NL l -> go_lines l = [l].
Proof.
  induction l as [|b l IH]; intros Hne H; [contradiction|]. cbn [go_lines].
  rewrite beq_false by (intros ->; apply H; now left). destruct l as [|c l']; [reflexivity|].
  rewrite IH; [reflexivity|discriminate|]. intros Hin. apply H. now right.
Qed.

Lemma go_lines_cut p : p <> [] ->
  go_lines p = fst (cut_at NL p) :: go_lines (snd (cut_at NL p)).
Proof.
  intros Hp. unfold cut_at. destruct (index_byte NL p) as [k|] eqn:E; cbn [fst snd].
  - destruct (index_byte_Some _ _ _ E) as [_ [Hpre Hsplit]]. rewrite Hsplit at 1. now apply go_lines_line.
  - apply index_byte_None in E. now apply go_lines_last.
Qed.

(* [pre] ends at a line boundary *)
Definition aligned (pre : bytes) : Prop := forall x, go_lines (pre ++ x) = go_lines pre ++ go_lines x.

Lemma aligned_nil : aligned [].
Proof. intros x. reflexivity. Qed.

Lemma aligned_line pre l : aligned pre -> ~ In NL l -> aligned (pre ++ l ++ [NL]).
Proof.
  intros Hp Hl x. rewrite <- !app_assoc. cbn [app]. rewrite !Hp, !go_lines_line by exact Hl.
  now rewrite <- app_assoc.
Qed.

Lemma go_lines_aligned_line pre l : aligned pre -> ~ In NL l -> go_lines (pre ++ l ++ [NL]) = go_lines pre ++ [l].
Proof. intros Hp Hl. now rewrite Hp, go_lines_line. Qed.

Lemma src_ShouldBuild_loop3_eq (L : Type) fuel tags : forall l ok,
  (forall tok, In tok l -> length tok + 1 <= fuel) ->
  @src_ShouldBuild_loop3 L fuel tags l ok =
  Ok (Normal (ok || existsb (option_ok_g unicode_tag_chars tags) l)).
Proof.
  induction l as [|tok l IH]; intros ok Hf; [cbn; now rewrite orb_false_r|].
  cbn [src_ShouldBuild_loop3 existsb]. rewrite src_matchTags_eq by (apply Hf; now left). go_red.
  destruct (option_ok_g unicode_tag_chars tags tok); go_red.
  - rewrite IH by (intros t Ht; apply Hf; now right). now rewrite orb_true_r.
  - rewrite IH by (intros t Ht; apply Hf; now right). reflexivity.
Qed.

(* a comment line: what is behind the // *)
Lemma slice_after_slashslash t : has_prefix slashslash t = true ->
  slice_z t (len slashslash) (len t) = Some (skipn (length slashslash) t).
Proof.
  intros H. apply has_prefix_iff in H. destruct H as [x ->]. unfold len at 1.
  apply slice_z_from. rewrite app_length. lia.
Qed.

(* the first computation of both loop bodies cuts one line off [p]:
     line := p; if i := bytes.IndexByte(line, '\n'); i >= 0 { line, p = line[:i], p[i+1:] } else { p = p[len(p):] } *)
Lemma src_cut_line p :
  (if (go_bytes_IndexByte p x0a >=? 0)%Z
   then bind (go_slice p 0 (go_bytes_IndexByte p x0a)) (fun l =>
        bind (go_slice p (go_bytes_IndexByte p x0a + 1) (len p)) (fun q => Ok (q, l)))
   else bind (go_slice p (len p) (len p)) (fun q => Ok (q, p)))
  = Ok (snd (cut_at NL p), fst (cut_at NL p)).
Proof.
  unfold cut_at, go_bytes_IndexByte, opt_pos, go_slice, NL.
  destruct (index_byte x0a p) as [k|] eqn:Ek; cbn [fst snd].
  - destruct (index_byte_Some _ _ _ Ek) as [Hk _].
    assert (Ei : (Z.of_nat k >=? 0)%Z = true) by lia. rewrite Ei, slice_z_to by lia. go_red.
    replace (Z.of_nat k + 1)%Z with (Z.of_nat (S k)) by lia. now rewrite slice_z_from by lia.
  - change (-1 >=? 0)%Z with false. cbv iota. now rewrite slice_z_end.
Qed.

(* pass 2, the loop over the lines of the header *)
Lemma src_ShouldBuild_loop2_eq (L : Type) fuel tags : forall n p allok,
  length p + 1 <= n -> length p + 1 <= fuel ->
  @src_ShouldBuild_loop2 L fuel n tags p allok =
  Ok (Normal ([], allok && forallb (line_spec_g unicode_tag_chars tags) (go_lines p))).
Proof.
  induction n as [|n IH]; intros p allok Hn Hf; [lia|].
  cbn [src_ShouldBuild_loop2]. rewrite len_pos_iff. destruct p as [|b0 r0] eqn:Ep.
  { cbn [go_lines forallb]. now rewrite andb_true_r. }
  rewrite <- Ep in *. assert (Hp : p <> []) by (rewrite Ep; discriminate). clear Ep b0 r0.
  rewrite (go_lines_cut p Hp). cbn [forallb]. go_red. rewrite src_cut_line.
  pose proof (cut_at_length NL p Hp) as Hrl. pose proof (cut_at_sub NL p) as [Hsl _].
  set (line := fst (cut_at NL p)) in *. set (rest := snd (cut_at NL p)) in *. clearbody line rest.
  assert (IHr : forall a, @src_ShouldBuild_loop2 L fuel n tags rest a =
                          Ok (Normal ([], a && forallb (line_spec_g unicode_tag_chars tags) (go_lines rest))))
    by (intros a; apply IH; lia).
  go_red. go_unfold.
  unfold line_spec_g at 1, build_options, comment, comment_text. change src_slashslash with slashslash.
  destruct (has_prefix slashslash (trim_space line)) eqn:Ec; go_red.
  2:{ rewrite IHr. reflexivity. }
  rewrite slice_after_slashslash by exact Ec. go_red.
  set (t2 := trim_space (skipn (length slashslash) (trim_space line))).
  assert (Ht2 : sub t2 line).
  { unfold t2. eapply sub_trans; [apply sub_trim_space|]. eapply sub_trans; [apply sub_skipn|apply sub_trim_space]. }
  rewrite len_pos_iff. destruct t2 as [|c t2'] eqn:Et2; go_red.
  { rewrite IHr. reflexivity. }
  rewrite index_z_head. go_red. cbn [has_prefix]. rewrite andb_true_r. change x2b with PLUS. rewrite (beq_sym PLUS c).
  destruct (beq c PLUS) eqn:Epl; go_red.
  2:{ rewrite IHr. reflexivity. }
  apply beq_eq in Epl. subst c.
  destruct (fields (PLUS :: t2')) as [|w opts] eqn:Ef; [now apply fields_plus in Ef|].
  rewrite index_of_head. go_red. change [PLUS; x62; x75; x69; x6c; x64] with plus_build.
  destruct (bytes_eqb w plus_build); go_red.
  2:{ rewrite IHr. reflexivity. }
  rewrite slice_of_tail. go_red.
  rewrite src_ShouldBuild_loop3_eq.
  2:{ intros tok Htok. assert (Hs : sub tok p).
      { eapply sub_trans; [|exact Hsl]. eapply sub_trans; [|exact Ht2]. apply fields_sub. rewrite Ef. now right. }
      apply sub_length in Hs. lia. }
  go_red. cbn [orb].
  destruct (existsb (option_ok_g unicode_tag_chars tags) opts); go_red; rewrite IHr; [reflexivity|].
  now rewrite andb_false_r.
Qed.

(* ShouldBuild, pass 1: the byte offset [end] against the model's list of lines.
   [pre] = what has been read, [e] = end, [acc] = the lines before end, [pend] = the lines
   read since. *)
Lemma src_ShouldBuild_loop1_eq (L : Type) fuel content : forall n pre p e acc pend,
  content = pre ++ p -> (p = [] \/ aligned pre) -> e <= length pre ->
  go_lines (firstn e content) = acc -> go_lines pre = acc ++ pend ->
  length p + 1 <= n ->
  exists e' p', @src_ShouldBuild_loop1 L fuel n content (Z.of_nat e) p = Ok (Normal (Z.of_nat e', p'))
                /\ e' <= length content
                /\ go_lines (firstn e' content) = pass1 acc pend (go_lines p).
Proof.
  induction n as [|n IH]; intros pre p e acc pend Hc Hal He Hacc Hpre Hn; [lia|].
  cbn [src_ShouldBuild_loop1]. rewrite len_pos_iff. destruct p as [|b0 r0] eqn:Ep.
  { exists e, []. split; [reflexivity|]. split; [|exact Hacc]. rewrite Hc, app_length. lia. }
  rewrite <- Ep in *. assert (Hp : p <> []) by (rewrite Ep; discriminate). clear Ep b0 r0.
  destruct Hal as [Hal|Hal]; [contradiction|].
  rewrite (go_lines_cut p Hp). cbn [pass1]. go_red. rewrite src_cut_line.
  (* the line cut off, the rest, and what was consumed *)
  assert (Hcons : exists cons, p = cons ++ snd (cut_at NL p)
                    /\ go_lines (pre ++ cons) = go_lines pre ++ [fst (cut_at NL p)]
                    /\ (snd (cut_at NL p) = [] \/ aligned (pre ++ cons))).
  { unfold cut_at. destruct (index_byte NL p) as [k|] eqn:Ek; cbn [fst snd].
    - destruct (index_byte_Some _ _ _ Ek) as [_ [Hno Hsplit]]. exists (firstn k p ++ [NL]). split; [|split].
      + rewrite <- app_assoc. exact Hsplit.
      + now apply go_lines_aligned_line.
      + right. now apply aligned_line.
    - apply index_byte_None in Ek. exists p. split; [now rewrite app_nil_r|]. split; [|now left].
      rewrite Hal. now rewrite (go_lines_last p) by assumption. }
  destruct Hcons as [cons [Hp1 [Hgl Hal']]].
  pose proof (cut_at_length NL p Hp) as Hrl.
  set (line := fst (cut_at NL p)) in *. set (rest := snd (cut_at NL p)) in *. clearbody line rest.
  go_red. go_unfold. rewrite len_zero_iff. change src_slashslash with slashslash.
  assert (Hc' : content = (pre ++ cons) ++ rest) by (rewrite <- app_assoc, <- Hp1; exact Hc).
  destruct (trim_space line) as [|t0 t'] eqn:Et; go_red.
  - (* blank line: end moves behind it *)
    cbn [is_nil].
    assert (Hend : (len content - len rest)%Z = Z.of_nat (length (pre ++ cons))).
    { unfold len. rewrite Hc', !app_length. lia. }
    rewrite Hend.
    apply (IH (pre ++ cons) rest (length (pre ++ cons)) (acc ++ pend ++ [line]) []); try assumption; try lia.
    + rewrite Hc', firstn_length_app. rewrite Hgl, Hpre. now rewrite <- app_assoc.
    + rewrite Hgl, Hpre. now rewrite app_nil_r, <- app_assoc.
  - cbn [is_nil]. destruct (has_prefix slashslash (t0 :: t')) eqn:Ec; go_red.
    + (* comment line *)
      apply (IH (pre ++ cons) rest e acc (pend ++ [line])); try assumption; try lia.
      * rewrite app_length. lia.
      * rewrite Hgl, Hpre. now rewrite <- app_assoc.
    + (* anything else: break *)
      exists e, rest. split; [reflexivity|]. split; [|exact Hacc]. rewrite Hc, app_length. lia.
Qed.

Lemma pass1_header content : pass1 [] [] (go_lines content) = header content.
Proof.
  rewrite pass1_spec. unfold header. cbn [app].
  destruct (existsb blank (leading_run (go_lines content))) eqn:Ee; [reflexivity|].
  now rewrite followed_by_blank_none.
Qed.

(* for every content and tag set: the translated ShouldBuild returns what the specification
   says, read with Go's rune-level tag test *)
Theorem src_ShouldBuild_unicode fuel content tags : length content + 2 <= fuel ->
  src_ShouldBuild fuel content tags = Ok (spec_should_build_g unicode_tag_chars content tags).
Proof.
  intros Hf. unfold src_ShouldBuild. go_red.
  destruct (src_ShouldBuild_loop1_eq unit fuel content fuel [] content 0 [] [])
    as [e' [p' [Hl [He' Hg]]]]; try reflexivity; try lia; [right; apply aligned_nil|].
  change 0%Z with (Z.of_nat 0). rewrite Hl. go_red. go_unfold.
  change 0%Z with (Z.of_nat 0). rewrite slice_z_to by exact He'. go_red.
  rewrite src_ShouldBuild_loop2_eq; try (rewrite firstn_length; lia). go_red. cbn [andb].
  rewrite Hg, pass1_header. reflexivity.
Qed.

Theorem src_ShouldBuild_total fuel content tags : length content + 2 <= fuel ->
  src_ShouldBuild fuel content tags <> Panic /\ src_ShouldBuild fuel content tags <> OutOfFuel.
Proof. intros H. rewrite src_ShouldBuild_unicode by exact H. split; discriminate. Qed.

(* with every byte below 0xC9: Build.v's specification and model themselves *)
Lemma below_c9_sub x d : sub x d -> below_c9 d -> below_c9 x.
Proof. apply sub_Forall. Qed.

Theorem src_ShouldBuild_spec fuel content tags : below_c9 content -> length content + 2 <= fuel ->
  src_ShouldBuild fuel content tags = Ok (spec_should_build content tags).
Proof.
  intros Hlow Hf. rewrite src_ShouldBuild_unicode by exact Hf. f_equal.
  rewrite <- spec_should_build_g_model. apply spec_should_build_g_ext.
  intros x Hx. apply unicode_tag_chars_below_c9. now apply (below_c9_sub x content).
Qed.

Theorem src_ShouldBuild_eq fuel content tags : below_c9 content -> length content + 2 <= fuel ->
  src_ShouldBuild fuel content tags = opt_res (should_build content tags).
Proof. intros Hlow Hf. rewrite should_build_spec. now apply src_ShouldBuild_spec. Qed.

Theorem src_matchTag_model name tags want : below_c9 name ->
  src_matchTag name tags want = Ok (match_tag name tags want).
Proof.
  intros H. rewrite src_matchTag_eq. unfold match_tag_g, match_tag.
  now rewrite unicode_tag_chars_below_c9 by exact H.
Qed.

Theorem src_matchTags_model fuel name tags : below_c9 name -> length name + 1 <= fuel ->
  src_matchTags fuel name tags = Ok (match_tags name tags).
Proof.
  intros H Hf. rewrite src_matchTags_eq by exact Hf. f_equal.
  rewrite match_tags_spec, <- option_ok_g_model. apply option_ok_g_ext.
  intros x Hx. apply unicode_tag_chars_below_c9. now apply (below_c9_sub x name).
Qed.

Lemma take_until_cut c d :
  take_until c d = match index_byte c d with Some k => firstn k d | None => d end.
Proof.
  induction d as [|b r IH]; [reflexivity|]. cbn [take_until index_byte]. destruct (beq b c); [reflexivity|].
  rewrite IH. destruct (index_byte c r); reflexivity.
Qed.

Lemma from_first_cut c d :
  from_first c d = match index_byte c d with Some k => Some (skipn k d) | None => None end.
Proof.
  induction d as [|b r IH]; [reflexivity|]. cbn [from_first index_byte]. destruct (beq b c); [reflexivity|].
  rewrite IH. destruct (index_byte c r); reflexivity.
Qed.

(* on the names of the regenerated OS / architecture lists Go's tag test and the model's agree *)
Lemma src_matchTag_known tab x tags want :
  forallb unicode_tag_chars tab = true -> forallb tag_chars tab = true -> known tab x = true ->
  src_matchTag x tags want = Ok (match_tag x tags want).
Proof.
  intros Hu Hm Hk. rewrite src_matchTag_eq. unfold match_tag_g, match_tag.
  rewrite (known_tagchars tab x Hm Hk).
  unfold known in Hk. apply existsb_exists in Hk. destruct Hk as [y [Hin Heq]]. apply bytes_eqb_eq in Heq. subst y.
  rewrite forallb_forall in Hu. now rewrite (Hu x Hin).
Qed.

(* the decision on the last one or two segments, once every index and length is expressed
   through the reversed list of segments *)
Ltac finish_segments :=
  repeat (go_red; match goal with
    | |- Ok _ = Ok _ => reflexivity
    | K : known known_os ?x = true |- context [src_matchTag ?x ?t true] =>
        rewrite (src_matchTag_known known_os x t true known_os_unicode known_os_tagchars K)
    | K : known known_arch ?x = true |- context [src_matchTag ?x ?t true] =>
        rewrite (src_matchTag_known known_arch x t true known_arch_unicode known_arch_tagchars K)
    | |- context [known ?tab ?x] => destruct (known tab x) eqn:?
    | |- context [if match_tag ?x ?t true then _ else _] => destruct (match_tag x t true)
    end).

Theorem src_MatchFile_eq name tags : src_MatchFile name tags = Ok (match_file name tags).
Proof.
  unfold src_MatchFile, match_file. change [x2a] with star. destruct (tags star); [reflexivity|].
  (* name = name[:dot] *)
  match goal with |- bind ?m _ = _ => assert (Hm : m = Ok (take_until DOT name)) end.
  { unfold go_bytes_Index, go_slice, opt_pos. rewrite index_sub_byte, take_until_cut. change x2e with DOT.
    destruct (index_byte DOT name) as [k|] eqn:Ek; [|reflexivity].
    destruct (index_byte_Some _ _ _ Ek) as [Hk _].
    assert (E : negb (Z.of_nat k =? -1)%Z = true) by lia. rewrite E. go_red. now rewrite slice_z_to by lia. }
  rewrite Hm. clear Hm. go_red. generalize (take_until DOT name). clear name. intros nm.
  (* name = name[i:] *)
  unfold go_bytes_Index, go_slice, go_strings_Split, opt_pos. rewrite index_sub_byte, from_first_cut. change x5f with US.
  destruct (index_byte US nm) as [i|] eqn:Ei; [|reflexivity].
  destruct (index_byte_Some _ _ _ Ei) as [Hi _].
  assert (E : (Z.of_nat i <? 0)%Z = false) by lia. rewrite E. rewrite slice_z_from by lia. go_red.
  generalize (split_on US (skipn i nm)). clear. intros l. change [x74; x65; x73; x74] with test_word.
  (* the trailing "test": everything through the reversed list *)
  rewrite len_of_pos_rev, go_index_of_last_rev, go_slice_of_init_rev.
  destruct (rev l) as [|x r] eqn:Er; go_red.
  - rewrite len_of_ge2_rev, len_of_ge1_rev, go_index_of_last_rev, go_index_of_last2_rev, Er. go_red. reflexivity.
  - destruct (bytes_eqb x test_word); go_red;
      rewrite len_of_ge2_rev, len_of_ge1_rev, go_index_of_last_rev, go_index_of_last2_rev, ?rev_involutive, ?Er.
    + destruct r as [|a [|o tl]]; finish_segments.
    + destruct r as [|o tl]; finish_segments.
Qed.

Theorem src_matchTag_both name tags want :
  src_matchTag name tags want = Ok (match_tag_g unicode_tag_chars name tags want)
  /\ (below_c9 name -> src_matchTag name tags want = Ok (match_tag name tags want)).
Proof. split; [apply src_matchTag_eq|apply src_matchTag_model]. Qed.

Theorem src_matchTags_both fuel name tags : length name + 1 <= fuel ->
  src_matchTags fuel name tags = Ok (option_ok_g unicode_tag_chars tags name)
  /\ (below_c9 name -> src_matchTags fuel name tags = Ok (match_tags name tags)).
Proof. intros H. split; [now apply src_matchTags_eq|intros Hl; now apply src_matchTags_model]. Qed.

Theorem src_MatchFile_spec name tags : src_MatchFile name tags = Ok false <-> rejected name tags.
Proof.
  rewrite src_MatchFile_eq, <- match_file_spec. split; [intros [= H]; exact H|intros ->; reflexivity].
Qed.

Theorem src_MatchFile_total name tags : exists b, src_MatchFile name tags = Ok b.
Proof. rewrite src_MatchFile_eq. now eexists. Qed.

(* tags["*"]: MatchFile accepts every name; ShouldBuild rejects only through the tag "ignore" *)
Theorem src_star tags : tags star = true ->
  (forall name, src_MatchFile name tags = Ok true) /\
  (forall fuel content, below_c9 content -> length content + 2 <= fuel ->
     src_ShouldBuild fuel content tags =
     Ok (forallb (fun l => match build_options l with
                           | Some opts => existsb (fun o => forallb (star_term_ok tags) (split_on COMMA o)) opts
                           | None => true
                           end) (header content))).
Proof.
  intros Hs. destruct (star_accepts_all_but_ignore tags Hs) as [H1 H2]. split.
  - intros name. now rewrite src_MatchFile_eq, H1.
  - intros fuel content Hlow Hf. rewrite src_ShouldBuild_eq by assumption. now rewrite H2.
Qed.

(* the hypotheses are satisfiable, the bounds are needed, the failure values of
   the translation are real, and the two tag tests do differ above U+0250 *)

Definition ex_src : bytes :=
  [x2f;x2f;x20;x2b;x62;x75;x69;x6c;x64;x20;x6c;x69;x6e;x75;x78;x2c;x21;x66;x6f;x6f;x20;x62;x61;x72;
   x0a;x0a;x70;x61;x63;x6b;x61;x67;x65;x20;x78].

Example ex_src_should_build :
  below_c9 ex_src /\ length ex_src + 2 <= 40
  /\ src_ShouldBuild 40 ex_src (ex_tags [linux]) = Ok true
  /\ src_ShouldBuild 40 ex_src (ex_tags [android]) = Ok true
  /\ src_ShouldBuild 40 ex_src (ex_tags []) = Ok false
  /\ src_ShouldBuild 40 ex_src (ex_tags [star]) = Ok true.
Proof.
  split; [unfold ex_src; repeat (apply Forall_cons; [reflexivity|]); apply Forall_nil|].
  vm_compute. repeat split; try reflexivity; lia.
Qed.

Example ex_src_fuel_needed :
  src_ShouldBuild 2 ex_src (ex_tags []) = OutOfFuel /\ src_matchTags 0 [x61] (ex_tags []) = OutOfFuel
  /\ src_matchTags 2 [x61; x2c; x62; x2c; x63] (ex_tags []) = OutOfFuel
  /\ src_matchTags 3 [x61; x2c; x62; x2c; x63] (ex_tags [[x61]; [x62]; [x63]]) = Ok true.
Proof. vm_compute. repeat split; reflexivity. Qed.

Example ex_src_match_file :
  src_MatchFile [x78;x5f;x6c;x69;x6e;x75;x78;x2e;x67;x6f] (ex_tags [android]) = Ok true
  /\ src_MatchFile [x78;x5f;x6c;x69;x6e;x75;x78;x5f;x61;x72;x6d;x5f;x74;x65;x73;x74;x2e;x67;x6f] (ex_tags [linux]) = Ok false.
Proof. vm_compute. split; reflexivity. Qed.

(* U+03B1 (Greek alpha) is a letter for Go and unknown to Build.v's table: the hypothesis
   [below_c9] of the _model theorems is needed, and it fails here *)
Example ex_src_unicode :
  src_matchTag [xce; xb1] (ex_tags [[xce; xb1]]) true = Ok true
  /\ match_tag [xce; xb1] (ex_tags [[xce; xb1]]) true = false
  /\ ~ below_c9 [xce; xb1].
Proof.
  split; [vm_compute; reflexivity|]. split; [vm_compute; reflexivity|].
  intros H. inversion H as [|? ? Hb _]. vm_compute in Hb. discriminate.
Qed.

(* the checked expressions of the translation do fail when misused *)
Example ex_src_checked :
  @go_index_of bytes [] 0 = Panic /\ go_slice_of [[x61]] 1 3 = Panic /\ go_slice_of [[x61]] 2 1 = Panic
  /\ go_strings_Split [x61] [] = Panic /\ go_strings_Split [x61] [x61; x62] = Panic
  /\ go_strings_Split [x61; x5f; x62] [x5f] = Ok [[x61]; [x62]].
Proof. vm_compute. repeat split; reflexivity. Qed.
