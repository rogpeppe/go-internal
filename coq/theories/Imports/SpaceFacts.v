(* bytes.TrimSpace / strings.Fields of the models at rune level, on top of the table facts of
   SpaceTables.v. *)
From Coq Require Import List Bool Arith NArith Lia.
From Coq.Strings Require Import Byte.
From GI Require Import Lib.Bytes Lib.BytesFacts Imports.Build Imports.SpaceTables.
Import ListNotations.

(* a concatenation of encodings of white-space runes *)
Definition spaces_only (x : bytes) : Prop :=
  exists rs, Forall (fun r => is_space_rune r = true) rs /\ x = concat (map utf8_enc rs).

Lemma spaces_only_nil : spaces_only [].
Proof. exists []. split; [constructor|reflexivity]. Qed.

Lemma spaces_only_cons r x : is_space_rune r = true -> spaces_only x -> spaces_only (utf8_enc r ++ x).
Proof. intros Hr [rs [H ->]]. exists (r :: rs). split; [now constructor|reflexivity]. Qed.

Lemma spaces_only_snoc r x : is_space_rune r = true -> spaces_only x -> spaces_only (x ++ utf8_enc r).
Proof.
  intros Hr [rs [H ->]]. exists (rs ++ [r]). split.
  - apply Forall_app. split; [exact H|now repeat constructor].
  - rewrite map_app, concat_app. cbn. now rewrite app_nil_r.
Qed.

Lemma trim_left_fuel_spaces f d : exists l, spaces_only l /\ d = l ++ trim_left_fuel f d.
Proof.
  rewrite trim_left_fuel_loop. apply trim_fuel_strips; [apply spaces_only_nil|]. clear. intros d n E.
  destruct (proj2 (space_prefix_spec d (S n)) (conj E (Nat.neq_succ_0 n))) as (r & Hr & Hp & Hn).
  apply has_prefix_iff in Hp. destruct Hp as [x ->].
  exists (utf8_enc r), x. repeat split; [exact Hn|]. intros l. now apply spaces_only_cons.
Qed.

Lemma trim_right_rev_fuel_spaces f q :
  exists t, spaces_only t /\ q = rev t ++ trim_right_rev_fuel f q.
Proof.
  rewrite trim_right_rev_fuel_loop.
  destruct (trim_fuel_strips space_suffix_rev' (fun l => spaces_only (rev l))) with (f := f) (d := q)
    as (l & Hl & Hq); [apply spaces_only_nil| |exists (rev l); now rewrite rev_involutive].
  clear. intros d n E.
  destruct (proj2 (space_suffix_spec d (S n)) (conj E (Nat.neq_succ_0 n))) as (r & Hr & Hp & Hn).
  apply has_prefix_iff in Hp. destruct Hp as [x ->].
  exists (rev (utf8_enc r)), x. rewrite rev_length. repeat split; [exact Hn|].
  intros l Hl. rewrite rev_app_distr, rev_involutive. now apply spaces_only_snoc.
Qed.

(* TrimSpace removes a run of white-space runes at each end, and what is left neither starts
   nor ends with (the encoding of) a white-space rune *)
Theorem trim_space_spec d :
  exists l t, d = l ++ trim_space d ++ t /\ spaces_only l /\ spaces_only t
              /\ (forall n, ~ space_at_front (trim_space d) n)
              /\ (forall n, ~ space_at_back (rev (trim_space d)) n).
Proof.
  unfold trim_space.
  destruct (trim_left_fuel_spaces (length d) d) as [l [Hl Hd]]. fold (trim_left d) in Hd.
  set (x := trim_left d) in *.
  destruct (trim_right_rev_fuel_spaces (length x) (rev x)) as [t [Ht Hx]].
  assert (Hx' : x = trim_right x ++ t).
  { unfold trim_right. rewrite <- (rev_involutive x) at 1. rewrite Hx at 1.
    now rewrite rev_app_distr, rev_involutive. }
  exists l, t. split; [now rewrite <- Hx'|]. split; [exact Hl|]. split; [exact Ht|]. split.
  - intros n Hn. apply space_prefix_spec in Hn. destruct Hn as [Hn Hz].
    pose proof (trim_left_zero d) as Hz0. fold x in Hz0. rewrite Hx' in Hz0.
    apply space_prefix_prefix_zero in Hz0. congruence.
  - intros n Hn. apply space_suffix_spec in Hn. destruct Hn as [Hn Hz].
    pose proof (trim_right_zero x). congruence.
Qed.

(* no white-space rune starts at any position of [f] (read in front of [rest]) *)
Definition space_free_in (f rest : bytes) : Prop :=
  forall a b, f = a ++ b -> b <> [] -> forall n, ~ space_at_front (b ++ rest) n.

(* [fsplit d fs]: d is white-space runes and the maximal white-space-free runs fs, in order *)
Inductive fsplit : bytes -> list bytes -> Prop :=
| fsp_nil : fsplit [] []
| fsp_space r d fs : is_space_rune r = true -> fsplit d fs -> fsplit (utf8_enc r ++ d) fs
| fsp_field f d fs : f <> [] -> space_free_in f d -> (d = [] \/ exists n, space_at_front d n) ->
                     fsplit d fs -> fsplit (f ++ d) (f :: fs).

Lemma fields_go_skip k : forall d, fields_go d [] k = fields_go (skipn k d) [] 0.
Proof.
  induction k as [|k IH]; intros d; [reflexivity|]. destruct d as [|b r]; [reflexivity|].
  cbn [fields_go skipn]. apply IH.
Qed.

Lemma no_space_front d : space_prefix d = 0 -> forall n, ~ space_at_front d n.
Proof. intros H n Hn. apply space_prefix_spec in Hn. destruct Hn. congruence. Qed.

(* inside a field: it runs up to the next white-space rune or the end *)
Lemma space_free_in_nil rest : space_free_in [] rest.
Proof. intros a b E Hb. destruct a; destruct b; try discriminate. now elim Hb. Qed.

Lemma space_free_in_cons b f rest :
  space_prefix (b :: f ++ rest) = 0 -> space_free_in f rest -> space_free_in (b :: f) rest.
Proof.
  intros H0 Hfree a b0 Eab Hb. destruct a as [|x a]; cbn [app] in Eab.
  - subst b0. now apply no_space_front.
  - injection Eab as _ Eab. now apply (Hfree a b0).
Qed.

Lemma fields_go_in_field d : forall cur, cur <> [] ->
  exists f' d', d = f' ++ d' /\ space_free_in f' d' /\ (d' = [] \/ exists n, space_at_front d' n)
               /\ fields_go d cur 0 = (rev cur ++ f') :: fields_go d' [] 0.
Proof.
  induction d as [|b r IH]; intros cur Hc.
  - exists [], []. split; [reflexivity|]. split; [|split; [now left|]].
    + apply space_free_in_nil.
    + cbn [fields_go]. destruct cur; [contradiction|]. cbn [flush_field]. now rewrite app_nil_r.
  - cbn [fields_go]. destruct (space_prefix (b :: r)) as [|n] eqn:E.
    + destruct (IH (b :: cur)) as [f' [d' [Hr [Hfree [Hend Hres]]]]]; [discriminate|].
      exists (b :: f'), d'. split; [cbn; now rewrite Hr|]. split; [|split; [exact Hend|]].
      * apply space_free_in_cons; [now rewrite <- Hr|exact Hfree].
      * rewrite Hres. cbn [rev]. now rewrite <- app_assoc.
    + exists [], (b :: r). split; [reflexivity|]. split; [|split].
      * apply space_free_in_nil.
      * right. exists (S n). apply space_prefix_spec. split; [exact E|discriminate].
      * destruct cur; [contradiction|]. cbn [flush_field app]. rewrite app_nil_r. f_equal.
        cbn [fields_go]. rewrite E. reflexivity.
Qed.

Lemma fields_go_fsplit n : forall d, length d <= n -> fsplit d (fields_go d [] 0).
Proof.
  induction n as [|n IH]; intros d Hlen.
  - destruct d; [constructor|cbn in Hlen; lia].
  - destruct d as [|b r]; [constructor|]. cbn [fields_go]. destruct (space_prefix (b :: r)) as [|k] eqn:E.
    + destruct (fields_go_in_field r [b]) as [f' [d' [Hr [Hfree [Hend Hres]]]]]; [discriminate|].
      rewrite Hres. cbn [rev app]. rewrite Hr. change (b :: f' ++ d') with ((b :: f') ++ d').
      apply fsp_field; [discriminate| |exact Hend|].
      * apply space_free_in_cons; [now rewrite <- Hr|exact Hfree].
      * apply IH. subst r. cbn [length] in Hlen. rewrite app_length in Hlen. lia.
    + assert (Hf : space_at_front (b :: r) (S k)) by (apply space_prefix_spec; split; [exact E|discriminate]).
      destruct Hf as [r0 [Hr0 [Hp Hn]]]. apply has_prefix_iff in Hp. destruct Hp as [x Hx].
      cbn [flush_field app]. rewrite fields_go_skip.
      change (skipn k r) with (skipn (S k) (b :: r)). rewrite Hx, <- Hn, skipn_length_app.
      apply fsp_space; [exact Hr0|]. apply IH.
      assert (length (b :: r) = length (utf8_enc r0) + length x) by (rewrite Hx; apply app_length).
      rewrite Hn in H. lia.
Qed.

(* strings.Fields: the maximal runs free of white-space runes, in order *)
Theorem fields_spec d : fsplit d (fields d).
Proof. unfold fields. now apply (fields_go_fsplit (length d)). Qed.
