(* C13 / C11 boundary — facts about the interleaved model of Trim and a lookup on one file. *)
From Coq Require Import List Bool ZArith Lia.
From Coq.Strings Require Import Byte.
From GI Require Import Lib.Bytes Gen.CacheTrimConsts CacheTrim.CacheTrim CacheTrim.CacheTrimTimeFacts
  CacheTrim.CacheTrimFacts CacheTrim.CacheTrimConc.
Import ListNotations.
Local Open Scope Z_scope.

Section Conc.
  Variable data : bool.
  Variable cutoff : gotime.
  Variable u : Z.
  Variable lb : Z.          (* a lower bound of the file's mtime *)
  Variable o0 : obj.        (* the file's identity: name, content, kind *)
  Hypothesis lb_le : lb <= u.

  Definition same_file (o : obj) : Prop :=
    oname o = oname o0 /\ odata o = odata o0 /\ okind_of o = okind_of o0.

  (* the file is there, and neither it nor its refreshed version is something this Trim removes *)
  Definition fresh_file (f : option obj) : Prop :=
    exists o, f = Some o /\ trim_removes cutoff o = false /\ trim_removes cutoff (set_mtime u o) = false /\
              lb <= omtime o /\ same_file o.

  Definition harmless (p : tpc) : Prop :=
    match p with
    | TStatted (Some o) => trim_removes cutoff o = false
    | _ => True
    end.

  Definition safe (s : cst) : Prop := fresh_file (cfile s) /\ harmless (ctp s).

  Lemma fresh_chtimes : forall f, fresh_file f -> fresh_file (chtimes u f).
  Proof.
    intros f (o & -> & H1 & H2 & H3 & H4). unfold chtimes. destruct (stat_ok (okind_of o)).
    - exists (set_mtime u o). split; [reflexivity|]. split; [exact H2|].
      (* refreshing twice is refreshing once: set_mtime u (set_mtime u o) computes to set_mtime u o *)
      split; [exact H2|].
      split; [simpl; exact lb_le|exact H4].
    - exists o. auto.
  Qed.

  Lemma safe_step : forall s who, safe s -> safe (c_step data cutoff u s who).
  Proof.
    intros s who [Hf Hh]. destruct who; simpl.
    - (* trim moves *)
      unfold t_step. destruct (ctp s) as [|[o|]|] eqn:Ep; simpl in *.
      + split; [exact Hf|]. simpl. destruct Hf as (o & E & H1 & H2 & _). rewrite E. simpl.
        destruct (stat_ok (okind_of o)); simpl; auto.
      + rewrite Hh. split; [exact Hf|exact I].
      + split; [exact Hf|exact I].
      + split; [exact Hf|]. rewrite Ep. exact I.
    - (* the lookup moves *)
      unfold l_step. destruct (clp s) as [| |r| |h]; simpl.
      + destruct data; [split; assumption|]. destruct (readable (cfile s)); split; assumption.
      + split; assumption.
      + destruct (wants_chtimes u r); split; simpl; try assumption. apply fresh_chtimes. exact Hf.
      + destruct data; split; assumption.
      + split; assumption.
  Qed.

  Lemma safe_run : forall sched s, safe s -> safe (c_run data cutoff u sched s).
  Proof.
    induction sched as [|w sched IH]; intros s H; [exact H|]. simpl. apply IH. apply safe_step. exact H.
  Qed.
End Conc.

(* what the thresholds give: a file whose mtime is at least u - mtimeInterval, and its
   refreshed version, are not removed by a trim at now <= u + trimLimit *)
Lemma fresh_of_bound : forall now u o, clock_ok now -> clock_ok u -> ns_ok (omtime o) ->
  now <= u + trim_limit -> u - mtime_interval <= omtime o ->
  fresh_file (trim_cutoff now) u (u - mtime_interval) o (Some o).
Proof.
  intros now u o Hn Hu Hm Hle Hb. pose proof mtime_interval_pos. exists o.
  split; [reflexivity|]. split; [|split; [|split; [exact Hb|repeat split]]];
    apply recent_kept; try assumption; simpl; try lia. apply clock_ns_ok, Hu.
Qed.

(* A file that was refreshed (or is young) before the trimming process looks at it survives
   EVERY interleaving of the rest of the trim with a lookup at clock u, when the trim's clock
   is at most u + trimLimit. *)
Theorem conc_fresh_survives : forall data now u sched s o, clock_ok now -> clock_ok u ->
  now <= u + trim_limit ->
  cfile s = Some o -> ns_ok (omtime o) -> u - mtime_interval <= omtime o ->
  ctp s = TIdle ->
  exists o', cfile (c_run data (trim_cutoff now) u sched s) = Some o' /\
             oname o' = oname o /\ odata o' = odata o /\ okind_of o' = okind_of o /\
             u - mtime_interval <= omtime o'.
Proof.
  intros data now u sched s o Hn Hu Hle Hf Hm Hb Hp.
  pose proof mtime_interval_pos as Hmi.
  assert (Hs : safe (trim_cutoff now) u (u - mtime_interval) o s).
  { split; [rewrite Hf; apply fresh_of_bound; assumption|rewrite Hp; exact I]. }
  assert (Hle' : u - mtime_interval <= u) by lia.
  destruct (safe_run data (trim_cutoff now) u (u - mtime_interval) o Hle' sched s Hs)
    as [(o' & E & _ & _ & Hb' & A & B & C) _].
  exists o'. auto.
Qed.

Lemma wants_chtimes_spec : forall u o, clock_ok u -> ns_ok (omtime o) ->
  wants_chtimes u (Some o) = negb (u - omtime o <? mtime_interval).
Proof. intros u o Hc Hm. unfold wants_chtimes. rewrite sub_clock_ns by assumption. reflexivity. Qed.

Lemma lookup_alone_state : forall data cutoff u nm m d,
  c_run data cutoff u lookup_alone (c_init (mkObj nm m d KFile)) =
  mkC (Some (if wants_chtimes u (Some (mkObj nm m d KFile)) then mkObj nm u d KFile else mkObj nm m d KFile))
      TIdle (LDone true).
Proof.
  intros data cutoff u nm m d. unfold lookup_alone, c_init, c_run.
  destruct data; cbn [fold_left c_step l_step clp cfile ctp stat_of readable stat_ok okind_of file_like];
    destruct (wants_chtimes u (Some (mkObj nm m d KFile)));
    cbn [fold_left c_step l_step clp cfile ctp stat_of readable stat_ok okind_of file_like chtimes set_mtime
         oname omtime odata]; reflexivity.
Qed.

(* A lookup that completed before the trimming process reached the file: the lookup hit, and
   the file survives whatever the trimming process does afterwards (now <= u + trimLimit). *)
Theorem conc_lookup_before_trim : forall data now u o sched, clock_ok now -> clock_ok u ->
  now <= u + trim_limit -> ns_ok (omtime o) -> okind_of o = KFile ->
  let s1 := c_run data (trim_cutoff now) u lookup_alone (c_init o) in
  clp s1 = LDone true /\
  exists o', cfile (c_run data (trim_cutoff now) u sched s1) = Some o' /\
             oname o' = oname o /\ odata o' = odata o /\ okind_of o' = KFile /\
             u - mtime_interval <= omtime o'.
Proof.
  intros data now u [nm m d k] sched Hn Hu Hle Hm Hk s1. simpl in Hm, Hk. subst k s1.
  rewrite lookup_alone_state, wants_chtimes_spec by assumption. split; [reflexivity|].
  set (o1 := if negb (u - m <? mtime_interval) then mkObj nm u d KFile else mkObj nm m d KFile).
  assert (H1 : ns_ok (omtime o1) /\ u - mtime_interval <= omtime o1 /\
               oname o1 = nm /\ odata o1 = d /\ okind_of o1 = KFile).
  { pose proof mtime_interval_pos. unfold o1.
    destruct (Z.ltb_spec (u - m) mtime_interval); simpl;
      (split; [exact Hm || apply clock_ns_ok, Hu|split; [lia|auto]]). }
  destruct H1 as (Hok & Hb & A & B & C).
  destruct (conc_fresh_survives data now u sched (mkC (Some o1) TIdle (LDone true)) o1 Hn Hu Hle eq_refl Hok Hb eq_refl)
    as (o' & E' & A' & B' & C' & Hb').
  exists o'. rewrite A', B', C'. auto.
Qed.

Definition ex_c_day : Z := 24 * 3600 * nano.
Definition ex_c_now : Z := 10 * ex_c_day.
(* an index file last used on day 1; the lookup and the trim both run on day 10 *)
Definition ex_c_old : obj := mkObj [x78; x2d; x61] ex_c_day [x49] KFile.
Definition ex_c_oldd : obj := mkObj [x78; x2d; x64] ex_c_day [x44] KFile.

(* Stat by the trim, then the whole lookup (it hits and refreshes the mtime), then the Remove:
   the entry that was just looked up, successfully, is gone. *)
Example conc_overlap_removed :
  let s := c_run false (trim_cutoff ex_c_now) ex_c_now [true; false; false; false; false; true] (c_init ex_c_old) in
  clp s = LDone true /\ cfile s = None.
Proof. vm_compute. split; reflexivity. Qed.

(* the lookup first (or its Chtimes before the trim's Stat): the entry stays *)
Example conc_overlap_survives :
  let s := c_run false (trim_cutoff ex_c_now) ex_c_now [false; false; false; true; false; true] (c_init ex_c_old) in
  clp s = LDone true /\ cfile s = Some (set_mtime ex_c_now ex_c_old).
Proof. vm_compute. split; reflexivity. Qed.

(* data file (GetBytes: used, then read): the lookup can refresh the file and still miss *)
Example conc_overlap_data_miss :
  let s := c_run true (trim_cutoff ex_c_now) ex_c_now [true; false; false; true; false] (c_init ex_c_oldd) in
  clp s = LDone false /\ cfile s = None.
Proof. vm_compute. split; reflexivity. Qed.

(* whatever the interleaving, the trimming process removes the file only if the object its
   Stat returned was one Trim removes: no schedule removes a file that was young when looked at *)
Theorem conc_removed_only_if_seen_stale : forall data cutoff u sched s o,
  cfile s = Some o -> ctp s = TIdle -> trim_removes cutoff o = false ->
  trim_removes cutoff (set_mtime u o) = false ->
  cfile (c_run data cutoff u sched s) <> None.
Proof.
  intros data cutoff u sched s o Hf Hp H1 H2.
  assert (Hs : safe cutoff u (Z.min u (omtime o)) o s).
  { split; [exists o; repeat split; auto; lia|rewrite Hp; exact I]. }
  assert (Hle : Z.min u (omtime o) <= u) by lia.
  destruct (safe_run data cutoff u _ o Hle sched s Hs) as [(o' & E & _) _]. rewrite E. discriminate.
Qed.
