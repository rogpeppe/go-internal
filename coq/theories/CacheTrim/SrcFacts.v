(* The segments of used, Trim and trimSubdir in Gen/CacheSrc.v (cache/cache.go translated by
   harness/go2coq on every run; table: harness/cmd/genconsts/gen_cache_src.go) are proved
   equal to the corresponding tests of the hand-written model CacheTrim.v, for every input
   (they contain no loop, so there is no bound; none can panic):

   - src_Cache_used_fresh, the if statement of used between os.Stat and os.Chtimes, with the
     result of Stat (error, ModTime) and the clock read c.now() as parameters: it returns
     (leaves the mtime alone) iff Stat succeeded and now.Sub(mtime) < mtimeInterval -- the
     test inside used_obj (src_used_fresh_eq, used_obj_src);
   - src_Cache_Trim_due, the body of  if data, err := lockedfile.Read(...); err == nil { ... }
     of Trim, as a function of now and the bytes read: it returns nil iff the model's
     trim_due now (Some data) is false (src_Trim_due_eq) -- strconv.ParseInt(strings.TrimSpace(
     string(data)), 10, 64), time.Unix(t, 0), now.Sub, the two comparisons;
   - src_Cache_Trim_cutoff:  cutoff := now.Add(-trimLimit - mtimeInterval)  is trim_cutoff;
   - src_Cache_trimSubdir_candidate, the loop body of trimSubdir in front of os.Stat: continue
     unless the name ends in -a or -d (is_entry_name), else the path filepath.Join(subdir, name);
   - src_Cache_trimSubdir_stale, the condition that guards os.Remove:
     err == nil && info.ModTime().Before(cutoff), the test inside trim_removes (trim_removes_src).

   With the time facts of CacheTrimTimeFacts.v the same tests are then stated on integers
   (src_Trim_window_exact, src_Trim_cutoff_exact, src_trimSubdir_stale_exact,
   src_used_fresh_exact): the window, cutoff and freshness arithmetic of the SOURCE is exact to
   the nanosecond for a clock between 1970 and 2262.

   Hand-read: that err of lockedfile.Read / os.Stat is what the model's record /
   stat_ok say, the loops over the 256 subdirectories and over the names, the record written at
   the end (fmt.Fprintf into a bytes.Buffer), and the file-system calls themselves. *)
From Coq Require Import List Bool Arith ZArith Lia ZifyBool.
From Coq.Strings Require Import Byte.
From GI Require Import Lib.Bytes Lib.GoSem Lib.GoSemSeg Gen.CacheTrimConsts CacheTrim.CacheTrim CacheTrim.CacheTrimFacts
  CacheTrim.CacheTrimTimeFacts.
From GI Require Cache.CacheEntry Cache.SrcLib Gen.CacheSrc TxtarWrite.Path.
Import ListNotations.
Local Open Scope Z_scope.

Import SrcLib CacheSrc.

(* the two models carry the same reading of strconv.ParseInt(s, 10, 64) *)
Lemma digit_val_same b : CacheEntry.digit_val b = digit_val b.
Proof. reflexivity. Qed.

Lemma parse_digits_same : forall s acc, CacheEntry.parse_digits acc s = parse_digits acc s.
Proof.
  induction s as [|c r IH]; intros acc; [reflexivity|].
  cbn [CacheEntry.parse_digits parse_digits]. rewrite digit_val_same. destruct (digit_val c); [apply IH|reflexivity].
Qed.

Lemma parse_int_same s : CacheEntry.parse_int s = parse_int s.
Proof.
  destruct s as [|c r]; [reflexivity|]. unfold CacheEntry.parse_int, parse_int.
  destruct (if beq c x2b || beq c x2d then r else c :: r); [reflexivity|].
  rewrite parse_digits_same. reflexivity.
Qed.

(* time.Unix(t, 0) needs no carrying *)
Lemma go_time_Unix_sec t : go_time_Unix t 0 = time_unix t 0.
Proof. reflexivity. Qed.

Theorem src_Trim_due_eq now data :
  src_Cache_Trim_due (time_of_ns now) data = Ok (if trim_due now (Some data) then Normal tt else Return false).
Proof.
  unfold src_Cache_Trim_due, go_strconv_ParseInt, go_strings_TrimSpace, trim_due.
  cbn [Z.eqb Pos.eqb andb]. rewrite parse_int_same.
  destruct (parse_int (trim_space data)) as [t|]; cbn [bind negb bindO]; [|reflexivity].
  unfold go_time_Sub. rewrite go_time_Unix_sec.
  change 86400000000000 with window_upper. change (-3600000000000) with window_lower.
  destruct ((time_sub (time_of_ns now) (time_unix t 0) <? window_upper) &&
            (time_sub (time_of_ns now) (time_unix t 0) >? window_lower)); reflexivity.
Qed.

(* cutoff := now.Add(-trimLimit - mtimeInterval) *)
Theorem src_Trim_cutoff_eq now :
  src_Cache_Trim_cutoff (time_of_ns now) = Ok (Normal (trim_cutoff now)).
Proof. reflexivity. Qed.

(* used: the test that decides whether the mtime is left alone *)
Theorem src_used_fresh_eq mtime err now :
  src_Cache_used_fresh (time_of_ns mtime) err (time_of_ns now) =
    Ok (if negb err && (time_sub (time_of_ns now) (time_of_ns mtime) <? used_threshold) then Return tt else Normal tt).
Proof.
  unfold src_Cache_used_fresh, go_time_Sub, go_fileinfo_ModTime. change 3600000000000 with used_threshold.
  destruct (negb err && (time_sub (time_of_ns now) (time_of_ns mtime) <? used_threshold)); reflexivity.
Qed.

(* the model's used_obj is: Stat, the translated test, Chtimes (which fails where Stat fails) *)
Theorem used_obj_src now o :
  used_obj now o =
    match src_Cache_used_fresh (time_of_ns (omtime o)) (negb (stat_ok (okind_of o))) (time_of_ns now) with
    | Ok (Return _) => o
    | _ => if stat_ok (okind_of o) then set_mtime now o else o
    end.
Proof.
  rewrite src_used_fresh_eq. unfold used_obj. destruct (stat_ok (okind_of o)); cbn [negb andb]; [|reflexivity].
  destruct (time_sub (time_of_ns now) (time_of_ns (omtime o)) <? used_threshold); reflexivity.
Qed.

(* trimSubdir: which names are looked at, and the path that is examined *)
Theorem src_trimSubdir_candidate_eq subdir name :
  src_Cache_trimSubdir_candidate subdir name =
    Ok (if is_entry_name name then Normal (Path.join subdir name) else Continue tt).
Proof.
  unfold src_Cache_trimSubdir_candidate, is_entry_name, go_bytes_HasSuffix.
  change trim_suffixes with [[x2d; x61]; [x2d; x64]]. cbn [existsb].
  destruct (has_suffix [x2d; x61] name), (has_suffix [x2d; x64] name); reflexivity.
Qed.

(* trimSubdir: the condition under which os.Remove is called *)
Theorem src_trimSubdir_stale_eq cutoff mtime err :
  src_Cache_trimSubdir_stale cutoff (time_of_ns mtime) err = Ok (negb err && time_before (time_of_ns mtime) cutoff).
Proof. reflexivity. Qed.

(* the model's removal test is: candidate name, Stat, the translated condition, Remove succeeds *)
Theorem trim_removes_src cutoff o :
  trim_removes cutoff o =
    match src_Cache_trimSubdir_candidate [] (oname o),
          src_Cache_trimSubdir_stale cutoff (time_of_ns (omtime o)) (negb (stat_ok (okind_of o))) with
    | Ok (Normal _), Ok true => remove_ok (okind_of o)
    | _, _ => false
    end.
Proof.
  rewrite src_trimSubdir_candidate_eq, src_trimSubdir_stale_eq. unfold trim_removes.
  destruct (is_entry_name (oname o)); [|reflexivity]. cbn [andb].
  destruct (stat_ok (okind_of o)); cbn [negb andb]; [|reflexivity].
  destruct (time_before (time_of_ns (omtime o)) cutoff); reflexivity.
Qed.

(* the window of Trim, to the nanosecond, on the translated test: a parsable record t is inside
   iff -mtimeInterval < now - t*10^9 < trimInterval, for every int64 t (wrapped or saturated) *)
Theorem src_Trim_window_exact now data t : clock_ok now -> parse_int (trim_space data) = Some t ->
  src_Cache_Trim_due (time_of_ns now) data =
    Ok (if (now - t * nano <? trim_interval) && (now - t * nano >? - mtime_interval) then Return false else Normal tt).
Proof.
  intros Hc Hp. rewrite src_Trim_due_eq, (trim_due_char now data t Hc Hp).
  destruct ((now - t * nano <? trim_interval) && (now - t * nano >? - mtime_interval)); reflexivity.
Qed.

Theorem src_Trim_corrupt now data : parse_int (trim_space data) = None ->
  src_Cache_Trim_due (time_of_ns now) data = Ok (Normal tt).
Proof. intros Hp. rewrite src_Trim_due_eq. unfold trim_due. now rewrite Hp. Qed.

Theorem src_Trim_due_window now data : clock_ok now ->
  (src_Cache_Trim_due (time_of_ns now) data = Ok (Return false) <-> record_in_window now (Some data)) /\
  (src_Cache_Trim_due (time_of_ns now) data = Ok (Normal tt) <-> record_stale now (Some data)).
Proof.
  intros Hc. rewrite src_Trim_due_eq, <- not_due_iff, <- due_iff by exact Hc.
  destruct (trim_due now (Some data)); split; split; intros H; (discriminate H || reflexivity).
Qed.

(* the cutoff is the instant now - trimLimit - mtimeInterval *)
Theorem src_Trim_cutoff_exact now : clock_ok now ->
  src_Cache_Trim_cutoff (time_of_ns now) = Ok (Normal (time_of_ns (now - trim_limit - mtime_interval))).
Proof. intros Hc. rewrite src_Trim_cutoff_eq. destruct (trim_cutoff_spec now Hc) as [-> _]. reflexivity. Qed.

(* os.Remove is called on a candidate that Stat finds iff its mtime is before that instant *)
Theorem src_trimSubdir_stale_exact now mtime : clock_ok now -> ns_ok mtime ->
  src_Cache_trimSubdir_stale (trim_cutoff now) (time_of_ns mtime) false =
    Ok (mtime <? now - trim_limit - mtime_interval).
Proof.
  intros Hc Hm. rewrite src_trimSubdir_stale_eq. destruct (trim_cutoff_spec now Hc) as [-> Hok].
  rewrite time_before_spec, !ns_of_time_of_ns by (try apply time_of_ns_valid; assumption). reflexivity.
Qed.

(* used leaves the mtime alone iff it is less than mtimeInterval old *)
Theorem src_used_fresh_exact u m : clock_ok u -> ns_ok m ->
  src_Cache_used_fresh (time_of_ns m) false (time_of_ns u) =
    Ok (if u - m <? mtime_interval then Return tt else Normal tt).
Proof. intros Hc Hm. rewrite src_used_fresh_eq, sub_clock_ns by assumption. reflexivity. Qed.

Example ex_src_due :
  let now := 1700000000123456789 in
  clock_ok now
  /\ src_Cache_Trim_due (time_of_ns now) (decimal 1699990000 ++ [x0a]) = Ok (Return false)
  /\ src_Cache_Trim_due (time_of_ns now) (decimal 1699900000) = Ok (Normal tt)
  /\ src_Cache_Trim_due (time_of_ns now) [x61] = Ok (Normal tt)
  /\ src_Cache_Trim_due (time_of_ns now) (decimal 9223372036854775807) = Ok (Normal tt)
  /\ src_Cache_used_fresh (time_of_ns (now - 3599999999999)) false (time_of_ns now) = Ok (Return tt)
  /\ src_Cache_used_fresh (time_of_ns (now - 3600000000000)) false (time_of_ns now) = Ok (Normal tt)
  /\ src_Cache_trimSubdir_candidate [x64] [x61; x2d; x61] = Ok (Normal [x64; x2f; x61; x2d; x61])
  /\ src_Cache_trimSubdir_candidate [x64] [x61; x2d; x62] = Ok (Continue tt).
Proof. vm_compute. repeat split; try reflexivity; discriminate. Qed.
