(* C13 — facts about the int64 / package-time part of the model: for valid wall-clock values the
   operations of time.go agree with integer arithmetic on Unix nanoseconds; Time.Sub is the
   clamp of the mathematical difference; ParseInt/decimal round trip. *)
From Coq Require Import List Bool ZArith Lia.
From Coq.Strings Require Import Byte.
From GI Require Import Lib.Bytes Lib.BytesFacts Gen.CacheTrimConsts CacheTrim.CacheTrim.
Import ListNotations.
Local Open Scope Z_scope.

(* lia after replacing / mod quot rem by their defining equations *)
Ltac zlia := Z.to_euclidean_division_equations; lia.

Definition i64 (z : Z) : Prop := - two63 <= z < two63.

Lemma unix_to_internal_val : unix_to_internal = 62135596800.
Proof. reflexivity. Qed.

(* wrap64 z is the representative of z modulo 2^64 that an int64 holds; every fact about it
   below follows from these two *)
Lemma wrap64_range : forall z, i64 (wrap64 z).
Proof.
  intros z. unfold wrap64, i64.
  pose proof (Z.mod_pos_bound (z + two63) two64 eq_refl). unfold two63, two64 in *. lia.
Qed.

Lemma wrap64_eq : forall z, exists k, wrap64 z = z + k * two64.
Proof.
  intros z. exists (- ((z + two63) / two64)). unfold wrap64.
  pose proof (Z.div_mod (z + two63) two64). unfold two64 in *. lia.
Qed.

Lemma wrap64_id : forall z, i64 z -> wrap64 z = z.
Proof.
  intros z H. destruct (wrap64_eq z) as [k Hk]. pose proof (wrap64_range z).
  unfold i64, two63, two64 in *. lia.
Qed.

Lemma wrap64_high : forall z, two63 <= z < two63 + two64 -> wrap64 z = z - two64.
Proof.
  intros z H. destruct (wrap64_eq z) as [k Hk]. pose proof (wrap64_range z).
  unfold i64, two63, two64 in *. lia.
Qed.

Definition valid (t : gotime) : Prop := i64 (tsec t) /\ 0 <= tnsec t < nano.

Definition ns_of (t : gotime) : Z := (tsec t - unix_to_internal) * nano + tnsec t.

Lemma ns_of_inj : forall a b, valid a -> valid b -> ns_of a = ns_of b -> a = b.
Proof.
  intros [sa na] [sb nb] [_ Ha] [_ Hb] E. unfold ns_of, nano in *. simpl in *.
  assert (sa = sb) by lia. subst. f_equal; lia.
Qed.

Lemma time_of_ns_sec : forall z, ns_ok z -> tsec (time_of_ns z) = z / nano + unix_to_internal.
Proof. intros z H. apply wrap64_id, H. Qed.

(* time.Unix yields a valid time whatever the seconds: they wrap *)
Lemma time_unix_valid : forall s ns, 0 <= ns < nano -> valid (time_unix s ns).
Proof. intros s ns H. split; [apply wrap64_range|exact H]. Qed.

Lemma time_of_ns_valid : forall z, valid (time_of_ns z).
Proof. intros z. apply time_unix_valid, Z.mod_pos_bound. reflexivity. Qed.

Lemma ns_of_time_of_ns : forall z, ns_ok z -> ns_of (time_of_ns z) = z.
Proof.
  intros z H. unfold ns_of. rewrite time_of_ns_sec by exact H. simpl. unfold nano. zlia.
Qed.

Lemma ns_of_ok : forall t, valid t -> ns_ok (ns_of t).
Proof.
  intros t [Hs Hn]. unfold ns_ok, ns_of, i64 in *.
  replace (((tsec t - unix_to_internal) * nano + tnsec t) / nano) with (tsec t - unix_to_internal);
    [lia|unfold nano in *; zlia].
Qed.

Lemma time_of_ns_ns_of : forall t, valid t -> time_of_ns (ns_of t) = t.
Proof.
  intros t H. pose proof (ns_of_ok t H) as Hok.
  apply ns_of_inj; [apply time_of_ns_valid|exact H|apply ns_of_time_of_ns, Hok].
Qed.

Lemma clock_ns_ok : forall z, clock_ok z -> ns_ok z.
Proof.
  intros z H. unfold clock_ok, ns_ok in *. rewrite unix_to_internal_val. unfold two63, nano in *. zlia.
Qed.

(* the seconds of a clock value stay clear of the values at which addSec saturates *)
Lemma clock_sec_bounds : forall z, clock_ok z -> - (two63 - 1) < tsec (time_of_ns z) < two63 - 1.
Proof.
  intros z H. rewrite time_of_ns_sec by (apply clock_ns_ok, H).
  rewrite unix_to_internal_val. unfold clock_ok, two63, nano in *. zlia.
Qed.

Lemma time_before_spec : forall a b, valid a -> valid b ->
  time_before a b = (ns_of a <? ns_of b).
Proof.
  intros [sa na] [sb nb] [_ Ha] [_ Hb]. unfold time_before, ns_of, nano in *. simpl in *.
  destruct (Z.ltb_spec sa sb), (Z.eqb_spec sa sb), (Z.ltb_spec na nb),
    (Z.ltb_spec ((sa - unix_to_internal) * 1000000000 + na) ((sb - unix_to_internal) * 1000000000 + nb));
    simpl; try reflexivity; lia.
Qed.

Lemma time_equal_true : forall a b, time_equal a b = true -> a = b.
Proof.
  intros [sa na] [sb nb] H. apply andb_true_iff in H. simpl in H.
  rewrite !Z.eqb_eq in H. destruct H. congruence.
Qed.

Lemma time_equal_refl : forall a, time_equal a a = true.
Proof. intros a. unfold time_equal. rewrite !Z.eqb_refl. reflexivity. Qed.

Lemma add_sec_cases : forall ext d, i64 ext -> i64 d ->
  (i64 (ext + d) /\ add_sec ext d = ext + d)
  \/ (two63 <= ext + d /\ add_sec ext d = two63 - 1)
  \/ (ext + d < - two63 /\ add_sec ext d = - (two63 - 1)).
Proof.
  intros ext d He Hd. unfold add_sec.
  destruct (wrap64_eq (ext + d)) as [k Hk]. pose proof (wrap64_range (ext + d)) as Hr.
  destruct (Z.gtb_spec (wrap64 (ext + d)) ext), (Z.gtb_spec d 0); simpl;
    [left|right; right|right; left|left]; (split; [|try reflexivity]);
    unfold i64, two63, two64 in *; lia.
Qed.

(* the decomposition Add performs on a duration: a seconds part and a normalised nsec part *)
Lemma time_add_decomp : forall t d, valid t -> i64 d ->
  exists ds ns, time_add t d = mkT (add_sec (tsec t) ds) ns /\ 0 <= ns < nano /\
                ds * nano + ns = tnsec t + d /\ i64 ds.
Proof.
  intros [s n] d [Hs Hn] Hd. unfold time_add. simpl in *.
  assert (Hqr : d = nano * Z.quot d nano + Z.rem d nano /\ - nano < Z.rem d nano < nano /\
                - two63 < Z.quot d nano < two63 - 1) by (unfold i64, two63, nano in *; zlia).
  destruct (Z.geb_spec (n + Z.rem d nano) nano); [|destruct (Z.ltb_spec (n + Z.rem d nano) 0)];
    do 2 eexists; (split; [reflexivity|]); unfold i64, nano in *; lia.
Qed.

Lemma time_add_spec : forall t d, valid t -> i64 d -> ns_ok (ns_of t + d) ->
  time_add t d = time_of_ns (ns_of t + d).
Proof.
  intros t d Hv Hd Hok.
  destruct (time_add_decomp t d Hv Hd) as (ds & ns & -> & Hns & Hsum & Hds).
  assert (Hdiv : (ns_of t + d) / nano = tsec t - unix_to_internal + ds /\ (ns_of t + d) mod nano = ns)
    by (unfold ns_of, nano in *; zlia).
  destruct Hdiv as [Hq Hr]. unfold ns_ok in Hok. unfold time_of_ns, time_unix. rewrite Hq, Hr in *.
  replace (tsec t - unix_to_internal + ds + unix_to_internal) with (tsec t + ds) in * by ring.
  rewrite wrap64_id by exact Hok.
  destruct (add_sec_cases (tsec t) ds (proj1 Hv) Hds) as [[_ ->]|[[]|[]]];
    [reflexivity|unfold i64 in Hok; lia..].
Qed.

Definition clamp64 (z : Z) : Z :=
  if z <? min_duration then min_duration else if z >? max_duration then max_duration else z.

Lemma clamp64_cases : forall z,
  (i64 z /\ clamp64 z = z) \/ (z < - two63 /\ clamp64 z = min_duration)
  \/ (two63 <= z /\ clamp64 z = max_duration).
Proof.
  intros z. unfold clamp64, min_duration, max_duration, i64.
  destruct (Z.ltb_spec z (- two63)), (Z.gtb_spec z (two63 - 1)); auto; lia.
Qed.

(* u.Add(d) is t (a time clear of the seconds at which Add saturates) only for the true
   difference d *)
Lemma time_add_hits : forall t u d, valid t -> valid u -> i64 d ->
  - (two63 - 1) < tsec t < two63 - 1 -> time_add u d = t -> d = ns_of t - ns_of u.
Proof.
  intros t u d Hvt Hvu Hd Hts E.
  destruct (time_add_decomp u d Hvu Hd) as (ds & ns & Ea & Hns & Hsum & Hds).
  rewrite Ea in E. subst t. unfold ns_of. cbn [tsec tnsec] in *.
  destruct (add_sec_cases (tsec u) ds (proj1 Hvu) Hds) as [[_ Es]|[[_ Es]|[_ Es]]];
    rewrite Es in *; unfold nano in *; lia.
Qed.

(* and for that difference whenever an int64 holds it *)
Lemma time_add_back : forall t u, valid t -> valid u -> i64 (ns_of t - ns_of u) ->
  time_add u (ns_of t - ns_of u) = t.
Proof.
  intros t u Hvt Hvu Hd.
  rewrite time_add_spec; replace (ns_of u + (ns_of t - ns_of u)) with (ns_of t) by ring;
    [apply time_of_ns_ns_of| |  |apply ns_of_ok]; assumption.
Qed.

(* Sub computes d = wrap64 D for the true difference D and returns it iff u.Add(d) is t again:
   iff D is an int64 *)
Lemma time_sub_spec : forall t u, valid t -> valid u ->
  - (two63 - 1) < tsec t < two63 - 1 ->
  time_sub t u = clamp64 (ns_of t - ns_of u).
Proof.
  intros t u Hvt Hvu Hts. unfold time_sub.
  replace ((tsec t - tsec u) * nano + (tnsec t - tnsec u)) with (ns_of t - ns_of u) by (unfold ns_of; ring).
  rewrite (time_before_spec t u Hvt Hvu).
  set (D := ns_of t - ns_of u). pose proof (wrap64_range D) as Hr.
  assert (Hfar : ~ i64 D -> time_equal (time_add u (wrap64 D)) t = false).
  { intros HD. destruct (time_equal _ t) eqn:Eq; [|reflexivity]. apply time_equal_true in Eq.
    rewrite (time_add_hits t u _ Hvt Hvu Hr Hts Eq) in Hr. contradiction. }
  assert (Hpos : 0 < two63) by reflexivity.
  destruct (clamp64_cases D) as [[HD ->]|[[HD ->]|[HD ->]]].
  - rewrite (wrap64_id D HD). unfold D. rewrite time_add_back, time_equal_refl by assumption. reflexivity.
  - rewrite Hfar by (unfold i64; lia). destruct (Z.ltb_spec (ns_of t) (ns_of u)); [reflexivity|lia].
  - rewrite Hfar by (unfold i64; lia). destruct (Z.ltb_spec (ns_of t) (ns_of u)); [lia|reflexivity].
Qed.

Lemma digit_val_range : forall b d, digit_val b = Some d -> 0 <= d <= 9.
Proof.
  intros b d. unfold digit_val.
  destruct ((48 <=? Z.of_N (to_N b)) && (Z.of_N (to_N b) <=? 57)) eqn:E; [|discriminate].
  intro H. inversion H. apply andb_true_iff in E. lia.
Qed.

Lemma parse_digits_nonneg : forall s acc v, 0 <= acc -> parse_digits acc s = Some v -> 0 <= v.
Proof.
  induction s as [|b r IH]; simpl; intros acc v Ha H.
  - inversion H. lia.
  - destruct (digit_val b) as [d|] eqn:E; [|discriminate].
    apply digit_val_range in E. eapply IH; [|exact H]. lia.
Qed.

Lemma parse_int_range : forall s v, parse_int s = Some v -> i64 v.
Proof.
  intros s v. unfold parse_int. destruct s as [|b r]; [discriminate|].
  destruct (if beq b "+" || beq b "-" then r else b :: r) as [|x xs] eqn:Eds; [discriminate|].
  destruct (parse_digits 0 (x :: xs)) as [n|] eqn:Ep; [|discriminate].
  apply parse_digits_nonneg in Ep; [|lia]. unfold i64.
  destruct (beq b "-"); [destruct (Z.leb_spec n two63)|destruct (Z.ltb_spec n two63)];
    intros [= <-] || discriminate; unfold two63 in *; lia.
Qed.

Lemma parse_digits_app : forall s1 s2 acc,
  parse_digits acc (s1 ++ s2) =
  match parse_digits acc s1 with Some a => parse_digits a s2 | None => None end.
Proof.
  induction s1 as [|b r IH]; simpl; intros s2 acc; [reflexivity|].
  destruct (digit_val b); [apply IH|reflexivity].
Qed.

Definition digits : bytes := [x30; x31; x32; x33; x34; x35; x36; x37; x38; x39].

Lemma digit_byte_spec : forall n, 0 <= n <= 9 ->
  digit_val (digit_byte n) = Some n /\ In (digit_byte n) digits.
Proof.
  intros n H.
  assert (C : n = 0 \/ n = 1 \/ n = 2 \/ n = 3 \/ n = 4 \/ n = 5 \/ n = 6 \/ n = 7 \/ n = 8 \/ n = 9) by lia.
  repeat (destruct C as [->|C]; [split; [reflexivity|cbn; tauto]|]). subst; split; [reflexivity|cbn; tauto].
Qed.

Lemma dec_rev_spec : forall fuel n, 0 <= n < 2 ^ Z.of_nat fuel -> (0 < fuel)%nat ->
  parse_digits 0 (rev (dec_rev fuel n)) = Some n /\ incl (dec_rev fuel n) digits /\ dec_rev fuel n <> [].
Proof.
  induction fuel as [|f IH]; intros n Hn Hf; [lia|].
  cbn [dec_rev].
  destruct (Z.ltb_spec n 10).
  - destruct (digit_byte_spec n) as [Hv Hd]; [lia|].
    split; [|split; [intros b [<-|[]]; exact Hd|discriminate]].
    simpl. rewrite Hv. reflexivity.
  - assert (Hq : 0 <= n / 10 < 2 ^ Z.of_nat f)
      by (rewrite Nat2Z.inj_succ, Z.pow_succ_r in Hn by lia; zlia).
    assert (Hf' : (0 < f)%nat) by (destruct f; [simpl in Hn|]; lia).
    destruct (IH (n / 10) Hq Hf') as (Hp & Hall & Hne).
    destruct (digit_byte_spec (n mod 10)) as [Hv Hd]; [zlia|].
    split; [|split; [apply incl_cons; assumption|discriminate]].
    cbn [rev]. rewrite parse_digits_app, Hp. cbn [parse_digits]. rewrite Hv. f_equal; zlia.
Qed.

Lemma decimal_nat_spec : forall n, 0 <= n ->
  parse_digits 0 (decimal_nat n) = Some n /\ incl (decimal_nat n) digits /\ decimal_nat n <> [].
Proof.
  intros n Hn. unfold decimal_nat.
  assert (Hb : 0 <= n < 2 ^ Z.of_nat (S (Z.to_nat (Z.log2 n)))).
  { rewrite Nat2Z.inj_succ, Z2Nat.id by apply Z.log2_nonneg.
    destruct (Z.eq_dec n 0) as [->|Hnz]; [simpl; lia|].
    pose proof (Z.log2_spec n). lia. }
  destruct (dec_rev_spec _ n Hb) as (Hp & Hall & Hne); [lia|].
  split; [exact Hp|split].
  - intros b Hb'. apply Hall, in_rev, Hb'.
  - intro E. apply Hne. apply (f_equal (@rev byte)) in E. rewrite rev_involutive in E. exact E.
Qed.

(* what Trim writes, ParseInt reads back *)
Lemma decimal_parse : forall z, i64 z -> parse_int (decimal z) = Some z.
Proof.
  intros z Hz. unfold decimal, i64 in *.
  destruct (Z.ltb_spec z 0).
  - destruct (decimal_nat_spec (- z)) as (Hp & _ & Hne); [lia|].
    unfold parse_int. change (beq "-" "+") with false. change (beq "-" "-") with true. cbn [orb].
    destruct (decimal_nat (- z)) as [|x xs]; [congruence|]. rewrite Hp.
    destruct (Z.leb_spec (- z) two63); [f_equal|]; lia.
  - destruct (decimal_nat_spec z) as (Hp & Hall & Hne); [lia|].
    unfold parse_int.
    destruct (decimal_nat z) as [|x xs]; [congruence|].
    assert (Hs : beq x "+" = false /\ beq x "-" = false).
    { pose proof (Hall x (or_introl eq_refl)) as Hx.
      repeat (destruct Hx as [<-|Hx]; [split; reflexivity|]). destruct Hx. }
    destruct Hs as [-> ->]. cbn [orb]. rewrite Hp.
    destruct (Z.ltb_spec z two63); [reflexivity|lia].
Qed.

(* the bytes of a decimal *)
Definition plain : bytes := x2d :: digits.

(* the white-space runes that end in a byte below x80 are single bytes, none of them plain; the
   table for the end of a string looks at the byte before only to tell runes ending in x80 apart *)
Lemma plain_no_space : forall b r, In b plain -> incl r plain ->
  space_prefix (b :: r) = 0%nat /\ space_suffix_rev' (b :: r) = 0%nat.
Proof.
  intros b r Hb Hr. split; [repeat (destruct Hb as [<-|Hb]; [reflexivity|]); destruct Hb|].
  destruct r as [|a r]; [repeat (destruct Hb as [<-|Hb]; [reflexivity|]); destruct Hb|].
  pose proof (Hr a (or_introl eq_refl)) as Ha.
  repeat (destruct Hb as [<-|Hb]; [repeat (destruct Ha as [<-|Ha]; [reflexivity|]); destruct Ha|]).
  destruct Hb.
Qed.

(* no plain byte is (part of) a white-space rune, so TrimSpace leaves a decimal alone *)
Lemma trim_space_plain : forall d, incl d plain -> trim_space d = d.
Proof.
  intros d H. unfold trim_space. rewrite trim_left_fixed.
  - apply trim_right_fixed.
    assert (H' : incl (rev d) plain) by (intros b Hb; apply H, in_rev, Hb).
    destruct (rev d) as [|b q]; [reflexivity|].
    apply plain_no_space; [apply H'; left; reflexivity|apply (incl_cons_inv H')].
  - destruct d as [|b r]; [reflexivity|].
    apply plain_no_space; [apply H; left; reflexivity|apply (incl_cons_inv H)].
Qed.

Lemma decimal_plain : forall z, incl (decimal z) plain.
Proof.
  intros z. unfold decimal.
  assert (W : forall n, 0 <= n -> incl (decimal_nat n) plain)
    by (intros n Hn; apply incl_tl, (decimal_nat_spec n Hn)).
  destruct (Z.ltb_spec z 0); [apply incl_cons; [left; reflexivity|]|]; apply W; lia.
Qed.

Lemma trim_space_decimal : forall z, trim_space (decimal z) = decimal z.
Proof. intros z. apply trim_space_plain, decimal_plain. Qed.
