(* C13 — proofs about the model of used / Trim (CacheTrim.v).  The numeric content of the
   regenerated constants enters the general lemmas only through [consts_rel], [consts_range],
   [suffix_rel] and [intervals_as_stated] and their named parts at the head of the file: they are
   re-checked by computation against whatever cache.go says now.  The refutations and examples at
   the end are evaluated with the values the constants have. *)
From Coq Require Import List Bool ZArith Lia Sorted.
From Coq.Strings Require Import Byte.
From GI Require Import Lib.Bytes Lib.BytesFacts Gen.CacheTrimConsts CacheTrim.CacheTrim CacheTrim.CacheTrimTimeFacts.
Import ListNotations.
Local Open Scope Z_scope.

(* a closed statement about the constants or about example values: evaluate it; what is left of each
   conjunct is an equation between values, a comparison of two numerals, or True *)
Ltac by_eval := vm_compute; repeat split; first [reflexivity | discriminate | (intro; discriminate) | exact I].

(* how the expressions in used/Trim relate to the three named intervals *)
Lemma consts_rel :
  used_threshold = mtime_interval /\ window_upper = trim_interval /\
  window_lower = - mtime_interval /\ cutoff_offset = - trim_limit - mtime_interval /\
  0 < mtime_interval /\ 0 < trim_interval /\ 0 < trim_limit /\
  trim_subdir_count = open_subdir_count /\ 0 <= trim_subdir_count /\
  parse_base = 10 /\ parse_bits = 64.
Proof. by_eval. Qed.

Lemma mtime_interval_pos : 0 < mtime_interval.
Proof. apply consts_rel. Qed.

Lemma used_threshold_eq : used_threshold = mtime_interval.
Proof. apply consts_rel. Qed.

Lemma window_eq : window_upper = trim_interval /\ window_lower = - mtime_interval.
Proof. split; apply consts_rel. Qed.

Lemma cutoff_offset_eq : cutoff_offset = - trim_limit - mtime_interval.
Proof. apply consts_rel. Qed.

Lemma consts_range :
  min_duration < used_threshold <= max_duration /\
  min_duration < window_upper <= max_duration /\
  min_duration <= window_lower < max_duration /\
  i64 cutoff_offset /\ i64 trim_limit.
Proof. unfold i64. by_eval. Qed.

Lemma used_threshold_range : min_duration < used_threshold <= max_duration.
Proof. apply consts_range. Qed.

Lemma window_range :
  min_duration < window_upper <= max_duration /\ min_duration <= window_lower < max_duration.
Proof. split; apply consts_range. Qed.

Lemma cutoff_offset_i64 : i64 cutoff_offset.
Proof. apply consts_range. Qed.

(* the names get/OutputFile/putIndexEntry/copyFile build are candidates of trimSubdir *)
Lemma suffix_rel :
  In index_suffix trim_suffixes /\ In data_suffix trim_suffixes /\
  put_index_suffix = index_suffix /\ put_data_suffix = data_suffix /\
  index_suffix <> data_suffix.
Proof.
  repeat split; try reflexivity.
  - left. reflexivity.
  - right. left. reflexivity.
  - discriminate.
Qed.

(* the numbers the property text names: five days, one hour, one day (in nanoseconds) *)
Lemma intervals_as_stated :
  trim_limit = 5 * 24 * 3600 * nano /\ mtime_interval = 3600 * nano /\ trim_interval = 24 * 3600 * nano.
Proof. repeat split; reflexivity. Qed.

Lemma is_entry_name_suffix : forall h s, In s trim_suffixes -> is_entry_name (h ++ s) = true.
Proof.
  intros h s H. unfold is_entry_name. apply existsb_exists. exists s. split; [exact H|].
  apply has_suffix_app.
Qed.

Lemma clamp_lt : forall D U, min_duration < U <= max_duration -> (clamp64 D <? U) = (D <? U).
Proof.
  intros D U H. unfold min_duration, max_duration in *.
  destruct (clamp64_cases D) as [[_ ->]|[[? ->]|[? ->]]]; [reflexivity|..];
    unfold min_duration, max_duration; destruct (Z.ltb_spec D U); lia.
Qed.

Lemma clamp_gt : forall D L, min_duration <= L < max_duration -> (clamp64 D >? L) = (D >? L).
Proof.
  intros D L H. unfold min_duration, max_duration in *.
  destruct (clamp64_cases D) as [[_ ->]|[[? ->]|[? ->]]]; [reflexivity|..];
    unfold min_duration, max_duration; destruct (Z.gtb_spec D L); lia.
Qed.

Lemma clock_time_valid : forall now, clock_ok now ->
  valid (time_of_ns now) /\ ns_of (time_of_ns now) = now.
Proof.
  intros now H. apply clock_ns_ok in H. split; [apply time_of_ns_valid|apply ns_of_time_of_ns, H].
Qed.

Lemma sub_clock : forall now x, clock_ok now -> valid x ->
  time_sub (time_of_ns now) x = clamp64 (now - ns_of x).
Proof.
  intros now x H Hx. destruct (clock_time_valid now H) as (Hv & Hns).
  rewrite time_sub_spec, Hns by (try apply clock_sec_bounds; assumption). reflexivity.
Qed.

(* the test of used *)
Lemma sub_clock_ns : forall now m, clock_ok now -> ns_ok m ->
  (time_sub (time_of_ns now) (time_of_ns m) <? used_threshold) = (now - m <? mtime_interval).
Proof.
  intros now m Hc Hm. rewrite sub_clock, ns_of_time_of_ns by (try apply time_of_ns_valid; assumption).
  rewrite clamp_lt by apply used_threshold_range. rewrite used_threshold_eq. reflexivity.
Qed.

(* The window test of Trim, for EVERY int64 in trim.txt (time.Unix may wrap, Sub may
   saturate): it is the test on the mathematical difference now - t*10^9. *)
Lemma window_char : forall now t, clock_ok now -> i64 t ->
  let d := time_sub (time_of_ns now) (time_unix t 0) in
  (d <? window_upper) && (d >? window_lower) =
  (now - t * nano <? window_upper) && (now - t * nano >? window_lower).
Proof.
  intros now t Hc Ht. cbv zeta.
  rewrite (sub_clock now _ Hc (time_unix_valid t 0 (conj (Z.le_refl 0) eq_refl))).
  destruct window_range as [HU HL].
  rewrite clamp_lt by exact HU. rewrite clamp_gt by exact HL.
  unfold ns_of, time_unix. simpl. rewrite Z.add_0_r.
  destruct (Z_lt_dec (t + unix_to_internal) two63) as [Hs|Hs].
  - rewrite wrap64_id by (unfold i64 in *; rewrite unix_to_internal_val in *; unfold two63 in *; lia).
    replace (t + unix_to_internal - unix_to_internal) with t by lia. reflexivity.
  - (* time.Unix wrapped: lastTrim is ~292 billion years in the past, Sub saturates to
       maxDuration; mathematically now - t*10^9 is hugely negative: both sides say "run" *)
    rewrite wrap64_high by (unfold i64 in *; rewrite unix_to_internal_val in *; unfold two63, two64 in *; lia).
    unfold min_duration, max_duration, clock_ok, i64 in *. rewrite unix_to_internal_val in *.
    destruct (Z.ltb_spec (now - (t + 62135596800 - two64 - 62135596800) * nano) window_upper),
      (Z.gtb_spec (now - t * nano) window_lower); rewrite ?andb_false_r; try reflexivity;
      unfold two63, two64, nano in *; lia.
Qed.

Lemma trim_due_char : forall now data t, clock_ok now ->
  parse_int (trim_space data) = Some t ->
  trim_due now (Some data) =
  negb ((now - t * nano <? trim_interval) && (now - t * nano >? - mtime_interval)).
Proof.
  intros now data t Hc Hp. unfold trim_due. rewrite Hp.
  rewrite (window_char now t Hc (parse_int_range _ _ Hp)).
  destruct window_eq as [-> ->]. reflexivity.
Qed.

Lemma trim_cutoff_spec : forall now, clock_ok now ->
  trim_cutoff now = time_of_ns (now - trim_limit - mtime_interval) /\
  ns_ok (now - trim_limit - mtime_interval).
Proof.
  intros now Hc. destruct (clock_time_valid now Hc) as (Hv & Hns).
  pose proof cutoff_offset_i64 as Hoff. pose proof cutoff_offset_eq as Eoff.
  replace (now - trim_limit - mtime_interval) with (now + cutoff_offset) by lia.
  assert (Hok : ns_ok (now + cutoff_offset)).
  { unfold ns_ok, clock_ok, i64 in *. rewrite unix_to_internal_val. unfold two63, nano in *. zlia. }
  split; [|exact Hok]. unfold trim_cutoff.
  rewrite time_add_spec; rewrite ?Hns; try assumption. reflexivity.
Qed.

Lemma trim_removes_iff : forall now o, clock_ok now -> ns_ok (omtime o) ->
  trim_removes (trim_cutoff now) o = true <->
  is_entry_name (oname o) = true /\ stat_ok (okind_of o) = true /\ remove_ok (okind_of o) = true /\
  omtime o < now - trim_limit - mtime_interval.
Proof.
  intros now o Hc Hm. destruct (trim_cutoff_spec now Hc) as [-> Hok]. unfold trim_removes.
  rewrite time_before_spec, !ns_of_time_of_ns by (try apply time_of_ns_valid; assumption).
  rewrite !andb_true_iff, Z.ltb_lt. tauto.
Qed.

(* trimSubdir removes nothing whose mtime is within mtimeInterval of a use within trimLimit *)
Lemma recent_kept : forall now o, clock_ok now -> ns_ok (omtime o) ->
  now - trim_limit - mtime_interval <= omtime o -> trim_removes (trim_cutoff now) o = false.
Proof.
  intros now o Hc Hm Hr. apply not_true_is_false. rewrite trim_removes_iff by assumption. lia.
Qed.

Lemma used_obj_spec : forall u o, clock_ok u -> ns_ok (omtime o) ->
  used_obj u o =
  if stat_ok (okind_of o) then (if u - omtime o <? mtime_interval then o else set_mtime u o) else o.
Proof. intros u o Hc Hm. unfold used_obj. rewrite sub_clock_ns by assumption. reflexivity. Qed.

Lemma length_upd_nth : forall A (f : A -> A) l i, length (upd_nth i f l) = length l.
Proof. induction l as [|x r IH]; destruct i; simpl; auto. Qed.

Lemma nth_upd_nth : forall A (f : A -> A) (d : A) l i j,
  nth i (upd_nth j f l) d =
  if Nat.eqb i j && Nat.ltb i (length l) then f (nth i l d) else nth i l d.
Proof.
  induction l as [|x r IH]; intros i j.
  - destruct j; simpl; destruct i; rewrite andb_false_r; reflexivity.
  - destruct j as [|j]; destruct i as [|i]; simpl; try reflexivity.
    rewrite IH. reflexivity.
Qed.

Lemma subdir_upd : forall i j f c,
  subdir i (upd_subdir j f c) =
  if Nat.eqb i j && present i c then f (subdir i c) else subdir i c.
Proof.
  intros. unfold subdir, present, upd_subdir. simpl. rewrite nth_upd_nth.
  destruct (Nat.eqb i j); simpl.
  - destruct (Nat.ltb i (length (subdirs c))) eqn:E.
    + destruct (nth i (subdirs c) None); reflexivity.
    + apply Nat.ltb_ge in E. rewrite nth_overflow by exact E. reflexivity.
  - reflexivity.
Qed.

Lemma present_upd : forall i j f c, present i (upd_subdir j f c) = present i c.
Proof.
  intros. unfold present, upd_subdir. simpl. rewrite nth_upd_nth.
  destruct (Nat.eqb i j && Nat.ltb i (length (subdirs c))); [|reflexivity].
  destruct (nth i (subdirs c) None); reflexivity.
Qed.

Lemma absent_empty : forall i c, present i c = false -> subdir i c = [].
Proof. intros i c. unfold present, subdir. destruct (nth i (subdirs c) None); [discriminate|reflexivity]. Qed.

Lemma subdir_upd_pres : forall (P : list obj -> Prop) i j f c,
  P (subdir i c) -> (forall l, P l -> P (f l)) -> P (subdir i (upd_subdir j f c)).
Proof.
  intros P i j f c H Hf. rewrite subdir_upd.
  destruct (Nat.eqb i j && present i c); auto.
Qed.

(* establishing Q on the updated subdirectory from a fact R about its previous contents *)
Lemma subdir_upd_est : forall (Q R : list obj -> Prop) i f c,
  Q [] -> R (subdir i c) -> (forall l, R l -> Q (f l)) -> Q (subdir i (upd_subdir i f c)).
Proof.
  intros Q R i f c Q0 HR Hf. rewrite subdir_upd. rewrite Nat.eqb_refl. simpl.
  destruct (present i c) eqn:E; [auto|].
  rewrite absent_empty by exact E. exact Q0.
Qed.

Definition objs_ok (l : list obj) : Prop := forall o, In o l -> ns_ok (omtime o).

Lemma dir_ok_iff : forall c, dir_ok c <-> forall i, objs_ok (subdir i c).
Proof.
  intros c. unfold subdir. split.
  - intros H i o Ho. destruct (nth_in_or_default i (subdirs c) None) as [Hi|E]; [|rewrite E in Ho; destruct Ho].
    destruct (nth i (subdirs c) None) as [l|]; [|destruct Ho]. exact (H l o Hi Ho).
  - intros H l o Hl Ho. destruct (In_nth _ _ None Hl) as (i & _ & E).
    apply (H i). rewrite E. exact Ho.
Qed.

Lemma dir_ok_subdir : forall c i, dir_ok c -> objs_ok (subdir i c).
Proof. intros c i H. apply dir_ok_iff, H. Qed.

Lemma dir_ok_upd : forall c j f, dir_ok c -> (forall l, objs_ok l -> objs_ok (f l)) ->
  dir_ok (upd_subdir j f c).
Proof.
  intros c j f H Hf. apply dir_ok_iff. intros i. apply subdir_upd_pres; [apply dir_ok_subdir, H|exact Hf].
Qed.

Lemma trim_subdirs_length : forall cutoff sds, length (trim_subdirs cutoff sds) = length sds.
Proof.
  intros. unfold trim_subdirs. rewrite app_length, map_length, <- app_length, firstn_skipn. reflexivity.
Qed.

Lemma trim_subdirs_nth : forall cutoff sds i,
  nth i (trim_subdirs cutoff sds) None =
  if Nat.ltb i (Z.to_nat trim_subdir_count) then option_map (trim_subdir cutoff) (nth i sds None)
  else nth i sds None.
Proof.
  intros cutoff sds. unfold trim_subdirs. generalize (Z.to_nat trim_subdir_count) as k.
  induction k as [|k IH] in sds |- *; intros i; [reflexivity|].
  destruct sds as [|x r]; [destruct i; destruct (Nat.ltb _ _); reflexivity|].
  destruct i as [|i]; [reflexivity|]. exact (IH r i).
Qed.

Lemma nth_subdirs_trim : forall now c i,
  nth i (subdirs (trim now c)) None =
  if trim_due now (read_record c) && Nat.ltb i (Z.to_nat trim_subdir_count)
  then option_map (trim_subdir (trim_cutoff now)) (nth i (subdirs c) None) else nth i (subdirs c) None.
Proof.
  intros now c i. unfold trim. destruct (trim_due now (read_record c)); [|reflexivity].
  apply trim_subdirs_nth.
Qed.

Lemma subdir_trim : forall now c i,
  subdir i (trim now c) =
  if trim_due now (read_record c) && Nat.ltb i (Z.to_nat trim_subdir_count)
  then trim_subdir (trim_cutoff now) (subdir i c) else subdir i c.
Proof.
  intros now c i. unfold subdir. rewrite nth_subdirs_trim.
  destruct (_ && _); [destruct (nth i (subdirs c) None)|]; reflexivity.
Qed.

Lemma present_trim : forall now c i, present i (trim now c) = present i c.
Proof.
  intros now c i. unfold present. rewrite nth_subdirs_trim.
  destruct (_ && _); [destruct (nth i (subdirs c) None)|]; reflexivity.
Qed.

Lemma In_trim_subdir : forall cutoff l o,
  In o (trim_subdir cutoff l) <-> In o l /\ trim_removes cutoff o = false.
Proof.
  intros. unfold trim_subdir. rewrite filter_In. rewrite negb_true_iff. reflexivity.
Qed.

Lemma In_subdir_trim : forall now c i o,
  In o (subdir i (trim now c)) <->
  In o (subdir i c) /\
  trim_due now (read_record c) && Nat.ltb i (Z.to_nat trim_subdir_count) && trim_removes (trim_cutoff now) o = false.
Proof.
  intros now c i o. rewrite subdir_trim.
  destruct (trim_due now (read_record c) && Nat.ltb i (Z.to_nat trim_subdir_count)); cbn [andb];
    [apply In_trim_subdir|tauto].
Qed.

Lemma subdir_trim_sub : forall now c i o, In o (subdir i (trim now c)) -> In o (subdir i c).
Proof. intros now c i o H. apply In_subdir_trim in H. apply H. Qed.

Lemma subdir_trim_keep : forall now c i o, In o (subdir i c) ->
  trim_removes (trim_cutoff now) o = false -> In o (subdir i (trim now c)).
Proof. intros now c i o Ho Hk. apply In_subdir_trim. rewrite Hk, andb_false_r. auto. Qed.

Lemma used_obj_cases : forall u o, used_obj u o = o \/ used_obj u o = set_mtime u o.
Proof.
  intros u o. unfold used_obj. destruct (stat_ok (okind_of o)); [|auto].
  destruct (_ <? _); auto.
Qed.

Lemma on_name_cases : forall nm f o,
  on_name nm f o = o \/ (oname o = nm /\ on_name nm f o = f o).
Proof.
  intros nm f o. unfold on_name. destruct (bytes_eqb (oname o) nm) eqn:E; [|auto].
  right. split; [apply bytes_eqb_eq; exact E|reflexivity].
Qed.

Lemma has_name_false : forall nm l, has_name nm l = false -> forall o, In o l -> oname o <> nm.
Proof.
  intros nm l H o Ho E. unfold has_name in H.
  assert (existsb (fun o => bytes_eqb (oname o) nm) l = true).
  { apply existsb_exists. exists o. split; [exact Ho|]. apply bytes_eqb_eq. exact E. }
  congruence.
Qed.

(* the shape used_obj and put_over share under on_name *)
Definition stamps (s : Z) (g : obj -> obj) : Prop :=
  forall o, oname (g o) = oname o /\ okind_of (g o) = okind_of o /\ (g o = o \/ omtime (g o) = s).

Lemma stamps_used : forall u nm, stamps u (on_name nm (used_obj u)).
Proof.
  intros u nm o. destruct (on_name_cases nm (used_obj u) o) as [->|[_ ->]]; [auto|].
  destruct (used_obj_cases u o) as [->| ->]; simpl; auto.
Qed.

Lemma stamps_put : forall u nm d, stamps u (on_name nm (put_over u nm d)).
Proof.
  intros u nm d o. destruct (on_name_cases nm (put_over u nm d) o) as [->|[E ->]]; [auto|].
  unfold put_over. destruct (file_like (okind_of o)); simpl; auto.
Qed.

(* what used, a Put of one file and copyFile do to a subdirectory; [S]: the times the operation writes *)
Record evolves (S : Z -> Prop) (l l' : list obj) : Prop := {
  ev_new : forall o', In o' l' -> In o' l \/ S (omtime o');
  ev_kept : forall o, In o l -> exists o', In o' l' /\ oname o' = oname o /\ okind_of o' = okind_of o /\
                                           (omtime o' = omtime o \/ S (omtime o')) }.

Lemma evolves_refl : forall S l, evolves S l l.
Proof. intros S l. split; [auto|]. intros o Ho. exists o. auto. Qed.

Lemma evolves_map : forall (S : Z -> Prop) s g l, stamps s g -> S s -> evolves S l (map g l).
Proof.
  intros S s g l Hg Hs. split.
  - intros o' Ho'. apply in_map_iff in Ho'. destruct Ho' as (o & <- & Ho).
    destruct (Hg o) as (_ & _ & [-> | ->]); auto.
  - intros o Ho. exists (g o). destruct (Hg o) as (A & B & C). repeat split; auto using in_map.
    destruct C as [-> | ->]; auto.
Qed.

Lemma evolves_put : forall (S : Z -> Prop) u nm d l, S u -> evolves S l (put_file u nm d l).
Proof.
  intros S u nm d l Hs. unfold put_file. destruct (has_name nm l).
  - apply (evolves_map S u); [apply stamps_put|exact Hs].
  - split.
    + intros o' Ho'. apply in_app_or in Ho'. destruct Ho' as [Ho'|[<-|[]]]; auto.
    + intros o Ho. exists o. auto using in_or_app.
Qed.

(* every event but Trim is a sequence of operations on single subdirectories *)
Inductive prim :=
| PUsed (u : Z) (nm : bytes)
| PPut (u : Z) (nm d : bytes)
| PData (r : bool) (u ud : Z) (nm d : bytes).

Definition prim_fn (p : prim) : list obj -> list obj :=
  match p with
  | PUsed u nm => map (on_name nm (used_obj u))
  | PPut u nm d => put_file u nm d
  | PData r u ud nm d => store_data r u ud nm d
  end.

Definition prim_time (p : prim) : Z :=
  match p with PUsed u _ | PPut u _ _ | PData _ u _ _ _ => u end.

(* the times an operation can give to a file *)
Definition prim_stamp (p : prim) (s : Z) : Prop :=
  s = prim_time p \/ match p with PData _ _ ud _ _ => s = ud | _ => False end.

(* the times of an operation are sound *)
Definition prim_wf (p : prim) : Prop :=
  clock_ok (prim_time p) /\
  match p with PData _ u ud _ _ => clock_ok ud /\ u - mtime_interval <= ud | _ => True end.

Lemma prim_evolves : forall p l, evolves (prim_stamp p) l (prim_fn p l).
Proof.
  intros [u nm|u nm d|r u ud nm d] l; simpl.
  - apply (evolves_map _ u); [apply stamps_used|left; reflexivity].
  - apply evolves_put. left. reflexivity.
  - unfold store_data. destruct (has_content nm d l); [destruct r|].
    + apply (evolves_map _ u); [apply stamps_used|left; reflexivity].
    + apply evolves_refl.
    + apply evolves_put. right. reflexivity.
Qed.

Lemma prim_stamp_ok : forall p s, prim_wf p -> prim_stamp p s ->
  clock_ok s /\ prim_time p - mtime_interval <= s.
Proof.
  intros p s [Hc Hd] [->|Hs]; [pose proof mtime_interval_pos; split; [exact Hc|lia]|].
  destruct p; try contradiction. subst s. exact Hd.
Qed.

Lemma prim_ok : forall p l, prim_wf p -> objs_ok l -> objs_ok (prim_fn p l).
Proof.
  intros p l Hp H o Ho. destruct (ev_new _ _ _ (prim_evolves p l) o Ho) as [Hin|Hs]; [apply H, Hin|].
  apply clock_ns_ok, (prim_stamp_ok p _ Hp Hs).
Qed.

Definition prim_name (p : prim) : bytes :=
  match p with PUsed _ nm | PPut _ nm _ | PData _ _ _ nm _ => nm end.

(* the kinds of object of that name whose mtime the operation brings up to its time: used
   whatever os.Stat finds, a Put whatever can be opened for writing, copyFile of the repaired code
   one or the other; that of the code as it stood, which returns when the output is there, none *)
Definition prim_refreshes (p : prim) (k : okind) : bool :=
  match p with
  | PUsed _ _ => stat_ok k
  | PPut _ _ _ | PData true _ _ _ _ => file_like k
  | PData false _ _ _ _ => false
  end.

Lemma ok_trim : forall cutoff l, objs_ok l -> objs_ok (trim_subdir cutoff l).
Proof. intros cutoff l H o Ho. apply In_trim_subdir in Ho. apply H. tauto. Qed.

Definition is_file (k : okind) : bool := okind_eqb k KFile.

Lemma is_file_file : forall k, is_file k = true -> k = KFile.
Proof. destruct k; simpl; intro H; try discriminate; reflexivity. Qed.

Definition apply_ops (ops : list (nat * prim)) (c : cdir) : cdir :=
  fold_left (fun c jp => upd_subdir (fst jp) (prim_fn (snd jp)) c) ops c.

Definition step_ops (r : bool) (e : event) : list (nat * prim) :=
  match e with
  | EGet u ia na => [(ia, PUsed u na)]
  | ELookup u ia na id nd => [(ia, PUsed u na); (id, PUsed u nd)]
  | EOutput u id nd => [(id, PUsed u nd)]
  | EStore u ud ia na da id nd dd => [(id, PData r u ud nd dd); (ia, PPut u na da)]
  | EStoreData u ud id nd dd => [(id, PData r u ud nd dd)]
  | ETrim _ => []
  end.

Lemma step_as_ops : forall r c e, (forall u, e <> ETrim u) -> step r c e = apply_ops (step_ops r e) c.
Proof. intros r c e H. destruct e; try reflexivity. exfalso. eapply H. reflexivity. Qed.

Lemma step_ops_spec : forall r e jp, ev_ok e -> In jp (step_ops r e) ->
  prim_time (snd jp) = etime e /\ prim_wf (snd jp).
Proof.
  intros r e jp [Hc Hd] H. destruct e; simpl in *;
    repeat (destruct H as [<-|H]; [split; [reflexivity|split; simpl; auto]|]); contradiction.
Qed.

Lemma apply_ops_pres : forall (P : list obj -> Prop) i ops c,
  (forall jp l, In jp ops -> P l -> P (prim_fn (snd jp) l)) ->
  P (subdir i c) -> P (subdir i (apply_ops ops c)).
Proof.
  intros P i. induction ops as [|op ops IH]; intros c Hf H; [exact H|].
  simpl. apply IH.
  - intros jp l Hj. apply Hf. right. exact Hj.
  - apply subdir_upd_pres; [exact H|]. intros l. apply Hf. left. reflexivity.
Qed.

(* what every operation at the event's time and trimSubdir at that time keep, the event keeps *)
Lemma step_pres : forall (P : list obj -> Prop) r c e i, ev_ok e ->
  (forall p l, prim_time p = etime e -> prim_wf p -> P l -> P (prim_fn p l)) ->
  (forall l, P l -> P (trim_subdir (trim_cutoff (etime e)) l)) ->
  P (subdir i c) -> P (subdir i (step r c e)).
Proof.
  intros P r c e i Hev Hp Ht H. destruct e as [| | | | |t].
  1-5: rewrite step_as_ops by discriminate; apply apply_ops_pres; [|exact H];
    intros jp l Hj; destruct (step_ops_spec _ _ _ Hev Hj); auto.
  simpl. rewrite subdir_trim. destruct (_ && _); auto.
Qed.

Lemma dir_ok_step : forall r c e, dir_ok c -> ev_ok e -> dir_ok (step r c e).
Proof.
  intros r c e H Hev. apply dir_ok_iff. intros i.
  apply step_pres; [exact Hev| |apply ok_trim|apply dir_ok_subdir, H]. intros p l _. apply prim_ok.
Qed.

Lemma ev_ok_clock : forall e, ev_ok e -> clock_ok (etime e).
Proof. intros e H. apply H. Qed.

(* the one induction over histories: what every event of the history keeps, the run keeps *)
Lemma run_inv : forall (I : cdir -> Prop) (Q : event -> Prop) r,
  (forall c e, Q e -> I c -> I (step r c e)) ->
  forall h c, Forall Q h -> I c -> I (run r c h).
Proof.
  intros I Q r Hstep. induction h as [|e h IH]; intros c Hh H; [exact H|].
  inversion Hh; subst. apply IH; auto.
Qed.

Lemma dir_ok_run : forall r h c, dir_ok c -> Forall ev_ok h -> dir_ok (run r c h).
Proof. intros r h c H Hh. apply (run_inv dir_ok ev_ok); auto using dir_ok_step. Qed.

Section Track.
  (* the file [n] of subdirectory [i], a use of it at time [u], and the kinds [kp] of object the
     statement is about (regular files; or everything os.Stat accepts).  [refreshed]: every such
     object has an mtime no older than u - mtimeInterval; [retained]: and there is one. *)
  Variable i : nat.
  Variable n : bytes.
  Variable u : Z.
  Variable kp : okind -> bool.

  Definition refreshed (l : list obj) : Prop :=
    forall o, In o l -> oname o = n -> kp (okind_of o) = true -> u - mtime_interval <= omtime o.

  Definition retained (l : list obj) : Prop :=
    exists o, In o l /\ oname o = n /\ kp (okind_of o) = true /\
              u - mtime_interval <= omtime o /\ ns_ok (omtime o).

  Lemma refreshed_nil : refreshed [].
  Proof. intros o []. Qed.

  Lemma retained_of_refreshed : forall l, refreshed l -> objs_ok l ->
    (exists o, In o l /\ oname o = n /\ kp (okind_of o) = true) -> retained l.
  Proof. intros l HK Hok (o & Ho & Hn & Hk). exists o. auto 6. Qed.

  Lemma prim_refreshed : forall p l, u <= prim_time p -> prim_wf p -> refreshed l -> refreshed (prim_fn p l).
  Proof.
    intros p l Hu Hp H o Ho. destruct (ev_new _ _ _ (prim_evolves p l) o Ho) as [Hin|Hs]; [apply H, Hin|].
    intros _ _. destruct (prim_stamp_ok p _ Hp Hs). lia.
  Qed.

  Lemma prim_retained : forall p l, u <= prim_time p -> prim_wf p -> retained l -> retained (prim_fn p l).
  Proof.
    intros p l Hu Hp (o & Ho & Hn & Hk & Hm & Hok).
    destruct (ev_kept _ _ _ (prim_evolves p l) o Ho) as (o' & Ho' & En & Ek & Hm').
    exists o'. rewrite En, Ek. repeat (split; [assumption|]).
    destruct Hm' as [-> |Hs]; [auto|]. destruct (prim_stamp_ok p _ Hp Hs). split; [lia|apply clock_ns_ok; assumption].
  Qed.

  Lemma trim_refreshed : forall cutoff l, refreshed l -> refreshed (trim_subdir cutoff l).
  Proof. intros cutoff l H o Ho. apply In_trim_subdir in Ho. apply H. tauto. Qed.

  Lemma trim_retained : forall u' l, clock_ok u' -> u' <= u + trim_limit ->
    retained l -> retained (trim_subdir (trim_cutoff u') l).
  Proof.
    intros u' l Hc Hu (o & Ho & Hn & Hk & Hm & Hok).
    exists o. split; [|auto]. apply In_trim_subdir. split; [exact Ho|]. apply recent_kept; [assumption..|lia].
  Qed.

  Lemma used_refreshes : forall l, clock_ok u -> objs_ok l ->
    (forall k, kp k = true -> stat_ok k = true) -> refreshed (map (on_name n (used_obj u)) l).
  Proof.
    intros l Hc Hok Hkp o Ho. apply in_map_iff in Ho. destruct Ho as (x & <- & Hx).
    unfold on_name. destruct (bytes_eqb (oname x) n) eqn:En.
    - rewrite used_obj_spec by (try apply Hok; assumption). pose proof mtime_interval_pos.
      destruct (stat_ok (okind_of x)) eqn:Hs; [|intros _ Hk; apply Hkp in Hk; congruence].
      destruct (Z.ltb_spec (u - omtime x) mtime_interval); intros _ _; simpl; lia.
    - intros Hn. rewrite Hn, bytes_eqb_refl in En. discriminate.
  Qed.

  Lemma put_refreshes : forall ud d l, u - mtime_interval <= ud ->
    (forall k, kp k = true -> file_like k = true) -> refreshed (put_file ud n d l).
  Proof.
    intros ud d l Hd Hkp o Ho. unfold put_file in Ho. destruct (has_name n l) eqn:Eh.
    - apply in_map_iff in Ho. destruct Ho as (x & <- & Hx).
      unfold on_name. destruct (bytes_eqb (oname x) n) eqn:En.
      + unfold put_over. destruct (file_like (okind_of x)) eqn:Ek; intros _ Hk; [exact Hd|].
        apply Hkp in Hk. congruence.
      + intros Hn. rewrite Hn, bytes_eqb_refl in En. discriminate.
    - apply in_app_or in Ho. destruct Ho as [Ho|[<-|[]]]; [|intros _ _; exact Hd].
      intros Hn. exfalso. eapply has_name_false; eassumption.
  Qed.

  Lemma prim_est : forall p l, prim_wf p -> objs_ok l -> prim_name p = n -> prim_time p = u ->
    (forall k, kp k = true -> prim_refreshes p k = true) -> refreshed (prim_fn p l).
  Proof.
    intros [u' nm|u' nm d|[|] u' ud nm d] l [Hc Hd] Hok Hn Hu Hk; simpl in *; subst.
    - apply used_refreshes; assumption.
    - apply put_refreshes; [pose proof mtime_interval_pos; lia|exact Hk].
    - unfold store_data. destruct (has_content n d l); [|apply put_refreshes; [apply Hd|exact Hk]].
      apply used_refreshes; try assumption. intros k Hkk. apply Hk in Hkk. destruct k; try discriminate; reflexivity.
    - intros o _ _ Hkk. apply Hk in Hkk. discriminate.
  Qed.

  Lemma refreshed_step : forall r c e, u <= etime e -> ev_ok e ->
    refreshed (subdir i c) -> refreshed (subdir i (step r c e)).
  Proof.
    intros r c e Hu Hev. apply step_pres; [exact Hev| |apply trim_refreshed].
    intros p l Hp. apply prim_refreshed. rewrite Hp. exact Hu.
  Qed.

  Lemma retained_step : forall r c e, ev_ok e -> u <= etime e <= u + trim_limit ->
    retained (subdir i c) -> retained (subdir i (step r c e)).
  Proof.
    intros r c e Hev [Hu Hl]. apply step_pres; [exact Hev| |intros l; apply trim_retained; [apply Hev|exact Hl]].
    intros p l Hp. apply prim_retained. rewrite Hp. exact Hu.
  Qed.

  Lemma refreshed_run : forall r h c, Forall (fun e => u <= etime e) h -> Forall ev_ok h ->
    refreshed (subdir i c) -> refreshed (subdir i (run r c h)).
  Proof.
    intros r h c Hh Hev. apply (run_inv (fun c => refreshed (subdir i c))) with (2 := Forall_and Hh Hev).
    intros c' e [A B]. apply refreshed_step; assumption.
  Qed.

  Lemma retained_run : forall r h c, Forall ev_ok h -> Forall (fun e => u <= etime e <= u + trim_limit) h ->
    retained (subdir i c) -> retained (subdir i (run r c h)).
  Proof.
    intros r h c Hev Hh. apply (run_inv (fun c => retained (subdir i c))) with (2 := Forall_and Hev Hh).
    intros c' e [A B]. apply retained_step; assumption.
  Qed.

  (* among operations at time u, one that establishes the bound suffices: the later ones keep it *)
  Lemma ops_est : forall ops c p, dir_ok c ->
    (forall jp, In jp ops -> prim_time (snd jp) = u /\ prim_wf (snd jp)) ->
    In (i, p) ops -> prim_name p = n -> (forall k, kp k = true -> prim_refreshes p k = true) ->
    refreshed (subdir i (apply_ops ops c)).
  Proof.
    induction ops as [|op ops IH]; intros c p Hok Ht Hin Hn Hk; [contradiction|].
    simpl. destruct Hin as [->|Hin].
    - simpl. apply apply_ops_pres.
      + intros jp l Hj. destruct (Ht jp (or_intror Hj)) as [T W]. apply prim_refreshed; [rewrite T; lia|exact W].
      + apply (subdir_upd_est (refreshed) objs_ok); [apply refreshed_nil|apply dir_ok_subdir; exact Hok|].
        destruct (Ht (i, p) (or_introl eq_refl)) as [T W]. intros l Hl. apply prim_est; assumption.
    - apply (IH _ p); try assumption.
      + apply dir_ok_upd; [exact Hok|]. intros l. apply prim_ok. apply (Ht op). left. reflexivity.
      + intros jp Hj. apply Ht. right. exact Hj.
  Qed.
End Track.

Lemma op_refreshes : forall r kp c e i p, dir_ok c -> ev_ok e -> In (i, p) (step_ops r e) ->
  (forall k, kp k = true -> prim_refreshes p k = true) ->
  refreshed (prim_name p) (etime e) kp (subdir i (step r c e)).
Proof.
  intros r kp c e i p Hok Hev Hin Hk.
  rewrite step_as_ops by (intros t ->; destruct Hin).
  apply (ops_est i _ (etime e) kp (step_ops r e) c p); auto. intros jp. apply step_ops_spec, Hev.
Qed.

(* A use brings the mtime of a regular file of that name up to date — in the code as it stood
   unless it is a store that finds its output already there. *)
Lemma use_refreshes : forall r c e i n, dir_ok c -> ev_ok e -> uses e i n ->
  r = true \/ store_refreshes c e i n -> refreshed n (etime e) is_file (subdir i (step r c e)).
Proof.
  intros r c e i n Hok Hev Hu Hr.
  assert (Hop : forall p, In (i, p) (step_ops r e) -> prim_name p = n ->
                (forall r' u ud nm d, p = PData r' u ud nm d -> r' = true) ->
                refreshed n (etime e) is_file (subdir i (step r c e))).
  { intros p Hin <- Hp. apply op_refreshes; try assumption.
    intros k Hk. apply is_file_file in Hk. subst k.
    destruct p as [| |[|]]; try reflexivity. discriminate (Hp _ _ _ _ _ eq_refl). }
  destruct e as [u ia na|u ia na id nd|u id nd|u ud ia na da id nd dd|u ud id nd dd|u]; simpl in Hu; try contradiction.
  1-3: repeat (destruct Hu as [Hu|Hu]); destruct Hu as [-> ->]; apply (Hop (PUsed u n)); simpl; auto; discriminate.
  - assert (Hindex : ia = i /\ na = n -> refreshed n u is_file (subdir i (step r c (EStore u ud ia na da id nd dd))))
      by (intros [-> ->]; apply (Hop (PPut u n da)); simpl; auto; discriminate).
    destruct Hu as [Hu|[-> ->]]; [exact (Hindex Hu)|].
    (* the data file: the repaired copyFile; or it is also the index file; or the output is not there yet *)
    destruct Hr as [->|[Hr|Hnc]]; [|exact (Hindex Hr)|].
    + apply (Hop (PData true u ud n dd)); simpl; auto. congruence.
    + (* copyFile creates it, and putIndexEntry keeps the bound *)
      destruct Hev as [Hc [Hcd Hd]]. simpl in *. unfold store.
      apply subdir_upd_pres; [|intros l; apply (prim_refreshed n u is_file (PPut u na da)); [simpl; lia|split; [exact Hc|exact I]]].
      apply (subdir_upd_est (refreshed n u is_file) (fun l => has_content n dd l = false));
        [apply refreshed_nil|exact Hnc|].
      intros l Hn. unfold store_data. rewrite Hn. apply put_refreshes; [exact Hd|].
      intros k Hk. apply is_file_file in Hk. subst k. reflexivity.
Qed.

Lemma refreshed_kept : forall n u kp c i now o, dir_ok c -> clock_ok now -> now <= u + trim_limit ->
  refreshed n u kp (subdir i c) -> In o (subdir i c) -> oname o = n -> kp (okind_of o) = true ->
  u - mtime_interval <= omtime o /\ In o (subdir i (trim now c)).
Proof.
  intros n u kp c i now o Hok Hc Hle HK Ho Hn Hk. pose proof (HK o Ho Hn Hk) as Hb.
  split; [exact Hb|]. apply subdir_trim_keep; [exact Ho|].
  apply recent_kept; [exact Hc|apply (dir_ok_subdir c i Hok), Ho|lia].
Qed.

Lemma record_dichotomy : forall now record, record_in_window now record \/ record_stale now record.
Proof.
  intros now [data|]; [|right; left; reflexivity].
  destruct (parse_int (trim_space data)) as [t|] eqn:Ep; [|right; right; exists data; auto].
  destruct (Z_lt_dec (- mtime_interval) (now - t * nano)), (Z_lt_dec (now - t * nano) trim_interval);
    [left; exists data, t; auto|right; right; exists data; split; [reflexivity|]; right; exists t; split; [exact Ep|lia]..].
Qed.

Lemma in_window_not_due : forall now record, clock_ok now ->
  record_in_window now record -> trim_due now record = false.
Proof.
  intros now record Hc (data & t & -> & Hp & Hlo & Hhi).
  rewrite (trim_due_char now data t Hc Hp).
  destruct (Z.ltb_spec (now - t * nano) trim_interval), (Z.gtb_spec (now - t * nano) (- mtime_interval));
    try reflexivity; lia.
Qed.

Lemma stale_due : forall now record, clock_ok now -> record_stale now record -> trim_due now record = true.
Proof.
  intros now record Hc [->|(data & -> & [Hp|(t & Hp & Hw)])]; [reflexivity| |].
  - unfold trim_due. rewrite Hp. reflexivity.
  - rewrite (trim_due_char now data t Hc Hp).
    destruct (Z.ltb_spec (now - t * nano) trim_interval), (Z.gtb_spec (now - t * nano) (- mtime_interval));
      try reflexivity; lia.
Qed.

Lemma not_due_iff : forall now record, clock_ok now ->
  (trim_due now record = false <-> record_in_window now record).
Proof.
  intros now record Hc. split; [|apply in_window_not_due, Hc].
  intros Hd. destruct (record_dichotomy now record) as [W|S]; [exact W|].
  rewrite (stale_due now record Hc S) in Hd. discriminate Hd.
Qed.

Lemma due_iff : forall now record, clock_ok now ->
  (trim_due now record = true <-> record_stale now record).
Proof.
  intros now record Hc. split; [|apply stale_due, Hc].
  intros Hd. destruct (record_dichotomy now record) as [W|S]; [|exact S].
  rewrite (in_window_not_due now record Hc W) in Hd. discriminate Hd.
Qed.

Theorem trim_skips : forall now c, clock_ok now ->
  record_in_window now (read_record c) -> trim now c = c /\ trim_err now c = false.
Proof.
  intros now c Hc Hw. unfold trim, trim_err. rewrite in_window_not_due by assumption. split; reflexivity.
Qed.

Lemma clock_unix_seconds : forall now, clock_ok now ->
  time_unix_seconds (time_of_ns now) = now / nano /\ i64 (now / nano).
Proof.
  intros now Hc. unfold time_unix_seconds.
  rewrite time_of_ns_sec by (apply clock_ns_ok; exact Hc).
  assert (Hi : i64 (now / nano)) by (unfold clock_ok, i64, two63, nano in *; zlia).
  split; [|exact Hi].
  replace (now / nano + unix_to_internal - unix_to_internal) with (now / nano) by lia.
  apply wrap64_id. exact Hi.
Qed.

Theorem trim_runs_otherwise : forall now c, clock_ok now -> record_stale now (read_record c) ->
  trim now c = trimmed now c /\ trim_err now c = trimblocked c /\
  parse_int (trim_space (decimal (now / nano))) = Some (now / nano).
Proof.
  intros now c Hc Hs. destruct (clock_unix_seconds now Hc) as [Hu Hi]. split; [|split].
  - unfold trim, trimmed. rewrite stale_due by assumption. rewrite Hu. reflexivity.
  - unfold trim_err. rewrite stale_due by assumption. reflexivity.
  - rewrite trim_space_decimal. apply decimal_parse. exact Hi.
Qed.

(* a trim that ran is followed by skips for (a day minus the second the record loses) *)
Theorem trim_then_skips : forall now now' c, clock_ok now -> clock_ok now' ->
  record_stale now (read_record c) -> trimblocked c = false ->
  now <= now' -> now' - now < trim_interval - nano ->
  trim now' (trim now c) = trim now c.
Proof.
  intros now now' c Hc Hc' Hs Hb Hle Hlt.
  destruct (trim_runs_otherwise now c Hc Hs) as (-> & _ & Hp).
  apply trim_skips; [exact Hc'|]. unfold trimmed, read_record. simpl. rewrite Hb.
  exists (decimal (now / nano)), (now / nano). split; [reflexivity|]. split; [exact Hp|].
  pose proof mtime_interval_pos. unfold nano in *. zlia.
Qed.

Theorem used_keeps : forall u o, clock_ok u -> ns_ok (omtime o) -> stat_ok (okind_of o) = true ->
  let o' := used_obj u o in
  omtime o' = (if u - omtime o <? mtime_interval then omtime o else u) /\
  u - mtime_interval <= omtime o' /\ omtime o <= omtime o' /\
  oname o' = oname o /\ odata o' = odata o /\ okind_of o' = okind_of o.
Proof.
  intros u o Hc Hm Hs. cbv zeta. rewrite used_obj_spec by assumption. rewrite Hs.
  pose proof mtime_interval_pos.
  destruct (Z.ltb_spec (u - omtime o) mtime_interval); simpl; repeat split; try reflexivity; lia.
Qed.

Theorem trim_keeps_recent : forall now c i o lastuse, clock_ok now -> ns_ok (omtime o) ->
  In o (subdir i c) ->
  lastuse - mtime_interval <= omtime o ->     (* the invariant used maintains *)
  now - trim_limit <= lastuse ->              (* used within trimLimit *)
  In o (subdir i (trim now c)).
Proof.
  intros now c i o lu Hc Hm Ho Hinv Hlu. apply subdir_trim_keep; [exact Ho|].
  apply recent_kept; [assumption..|lia].
Qed.

Theorem trim_removes_stale : forall now c i o, clock_ok now -> record_stale now (read_record c) ->
  (i < Z.to_nat trim_subdir_count)%nat -> ns_ok (omtime o) ->
  is_entry_name (oname o) = true -> okind_of o = KFile ->
  omtime o < now - trim_limit - mtime_interval ->
  ~ In o (subdir i (trim now c)).
Proof.
  intros now c i o Hc Hs Hi Hm Hn Hk Hold Hin. apply In_subdir_trim in Hin.
  apply Nat.ltb_lt in Hi. rewrite stale_due, Hi in Hin by assumption.
  assert (Hr : trim_removes (trim_cutoff now) o = true)
    by (apply trim_removes_iff; [assumption..|rewrite Hk; auto]).
  rewrite Hr in Hin. destruct Hin as [_ Hin]. discriminate Hin.
Qed.

Lemma filter_absorb : forall A (p k : A -> bool) l,
  (forall o, k o = false -> p o = false) -> filter p (filter k l) = filter p l.
Proof.
  intros A p k l H. induction l as [|o l IH]; [reflexivity|]. simpl.
  destruct (k o) eqn:Ek; simpl.
  - destruct (p o); [f_equal|]; exact IH.
  - rewrite (H o Ek). exact IH.
Qed.

Lemma removed_is_entry : forall cutoff o, trim_removes cutoff o = true -> non_entry o = false.
Proof.
  intros cutoff o H. unfold trim_removes in H. unfold non_entry.
  destruct (is_entry_name (oname o)); [reflexivity|discriminate].
Qed.

Theorem trim_only_entries : forall now c,
  rootobjs (trim now c) = rootobjs c /\
  length (subdirs (trim now c)) = length (subdirs c) /\
  forall i,
    (forall o, In o (subdir i (trim now c)) -> In o (subdir i c)) /\
    filter non_entry (subdir i (trim now c)) = filter non_entry (subdir i c) /\
    (forall o, In o (subdir i c) ->
       is_entry_name (oname o) = false \/ stat_ok (okind_of o) = false \/ remove_ok (okind_of o) = false ->
       In o (subdir i (trim now c))) /\
    ((Z.to_nat trim_subdir_count <= i)%nat -> subdir i (trim now c) = subdir i c).
Proof.
  intros now c. split; [|split].
  - unfold trim. destruct (trim_due now (read_record c)); reflexivity.
  - unfold trim. destruct (trim_due now (read_record c)); [apply trim_subdirs_length|reflexivity].
  - intros i. split; [|split; [|split]].
    + intros o. apply subdir_trim_sub.
    + rewrite subdir_trim. destruct (_ && _); [|reflexivity]. apply filter_absorb.
      intros o Hk. apply negb_false_iff in Hk. apply (removed_is_entry _ _ Hk).
    + intros o Ho Hwhy. apply subdir_trim_keep; [exact Ho|]. unfold trim_removes.
      destruct Hwhy as [-> |[-> | ->]]; simpl; rewrite ?andb_false_r; reflexivity.
    + intros Hi. rewrite subdir_trim. apply Nat.ltb_ge in Hi. rewrite Hi. rewrite andb_false_r. reflexivity.
Qed.

Definition partial_keep (done : nat -> obj -> bool) (now : Z) (i : nat) (o : obj) : bool :=
  negb (trim_removes (trim_cutoff now) o && done i o && Nat.ltb i (Z.to_nat trim_subdir_count)).

Lemma partial_keep_false : forall done now i o, partial_keep done now i o = false ->
  trim_removes (trim_cutoff now) o = true.
Proof.
  intros done now i o H. apply negb_false_iff in H.
  destruct (trim_removes (trim_cutoff now) o); [reflexivity|discriminate].
Qed.

Lemma nth_map_combine_seq : forall A B (F : nat -> A -> B) (dA : A) (dB : B) (l : list A) s i,
  (forall j, F j dA = dB) ->
  nth i (map (fun p => F (fst p) (snd p)) (combine (seq s (length l)) l)) dB = F (s + i)%nat (nth i l dA).
Proof.
  intros A B F dA dB. induction l as [|x r IH]; intros s i HF.
  - simpl. destruct i; rewrite HF; reflexivity.
  - simpl. destruct i as [|i].
    + rewrite Nat.add_0_r. reflexivity.
    + rewrite IH by exact HF. f_equal. lia.
Qed.

Lemma trim_partial_subdirs : forall done now c, trim_due now (read_record c) = true ->
  length (subdirs (trim_partial done now c)) = length (subdirs c) /\
  forall i, nth i (subdirs (trim_partial done now c)) None =
            option_map (filter (partial_keep done now i)) (nth i (subdirs c) None).
Proof.
  intros done now c Hd. unfold trim_partial. rewrite Hd. cbn [subdirs]. split.
  - rewrite map_length, combine_length, seq_length. lia.
  - intros i. apply (nth_map_combine_seq _ _ (fun j => option_map (filter (partial_keep done now j))) None None).
    reflexivity.
Qed.

Lemma subdir_trim_partial : forall done now c i,
  subdir i (trim_partial done now c) =
  if trim_due now (read_record c) then filter (partial_keep done now i) (subdir i c) else subdir i c.
Proof.
  intros done now c i. destruct (trim_due now (read_record c)) eqn:Hd.
  - unfold subdir. rewrite (proj2 (trim_partial_subdirs done now c Hd)).
    destruct (nth i (subdirs c) None); reflexivity.
  - unfold trim_partial. rewrite Hd. reflexivity.
Qed.

(* an interrupted Trim changes nothing outside the subdirectories, so the next Trim is due when this one was *)
Lemma trim_partial_frame : forall done now c,
  rootobjs (trim_partial done now c) = rootobjs c /\
  trimtxt (trim_partial done now c) = trimtxt c /\
  trimblocked (trim_partial done now c) = trimblocked c.
Proof. intros. unfold trim_partial. destruct (trim_due now (read_record c)); auto. Qed.

Lemma trim_partial_record : forall done now c, read_record (trim_partial done now c) = read_record c.
Proof.
  intros. destruct (trim_partial_frame done now c) as (_ & Htxt & Hblk). unfold read_record. rewrite Htxt, Hblk. reflexivity.
Qed.

(* Safety on every prefix of the scan, in any order: whatever subset of the removals has been
   carried out, nothing outside the subdirectories and no record changed (so the next Trim
   runs again), nothing was added or modified, files without an entry name are all there,
   whatever was used within trimLimit is there, and only stale entries are gone. *)
Theorem trim_partial_safe : forall done now c, clock_ok now ->
  rootobjs (trim_partial done now c) = rootobjs c /\
  trimtxt (trim_partial done now c) = trimtxt c /\
  trimblocked (trim_partial done now c) = trimblocked c /\
  (forall now', trim_due now' (read_record (trim_partial done now c)) = trim_due now' (read_record c)) /\
  forall i,
    (forall o, In o (subdir i (trim_partial done now c)) -> In o (subdir i c)) /\
    filter non_entry (subdir i (trim_partial done now c)) = filter non_entry (subdir i c) /\
    (forall o lastuse, In o (subdir i c) -> ns_ok (omtime o) ->
       lastuse - mtime_interval <= omtime o -> now - trim_limit <= lastuse ->
       In o (subdir i (trim_partial done now c))) /\
    (forall o, In o (subdir i c) -> ns_ok (omtime o) -> ~ In o (subdir i (trim_partial done now c)) ->
       is_entry_name (oname o) = true /\ omtime o < now - trim_limit - mtime_interval).
Proof.
  intros done now c Hc.
  destruct (trim_partial_frame done now c) as (Hroot & Htxt & Hblk).
  split; [exact Hroot|]. split; [exact Htxt|]. split; [exact Hblk|].
  split; [intros now'; rewrite trim_partial_record; reflexivity|].
  intros i. rewrite subdir_trim_partial. destruct (trim_due now (read_record c)).
  - split; [|split; [|split]].
    + intros o Ho. apply filter_In in Ho. tauto.
    + apply filter_absorb. intros o Hk. apply (removed_is_entry _ _ (partial_keep_false _ _ _ _ Hk)).
    + intros o lu Ho Hm Hinv Hlu. apply filter_In. split; [exact Ho|].
      unfold partial_keep. rewrite recent_kept by (try assumption; lia). reflexivity.
    + intros o Ho Hm Hgone.
      destruct (partial_keep done now i o) eqn:Ek; [exfalso; apply Hgone, filter_In; auto|].
      apply partial_keep_false, trim_removes_iff in Ek; tauto.
  - split; [|split; [|split]]; auto. intros o Ho Hm Hgone. contradiction.
Qed.

(* the prefixes are what they say: subdirectories below k are trimmed, the others untouched *)
Lemma subdir_trim_prefix : forall k now c i,
  subdir i (trim_prefix k now c) =
  if trim_due now (read_record c) && Nat.ltb i (Nat.min k (Z.to_nat trim_subdir_count))
  then trim_subdir (trim_cutoff now) (subdir i c) else subdir i c.
Proof.
  intros k now c i. unfold trim_prefix. rewrite subdir_trim_partial.
  destruct (trim_due now (read_record c)); [|reflexivity]. cbn [andb].
  unfold partial_keep, trim_subdir.
  destruct (Nat.ltb i (Nat.min k (Z.to_nat trim_subdir_count))) eqn:E.
  - assert (E2 : Nat.ltb i (Z.to_nat trim_subdir_count) = true).
    { apply Nat.ltb_lt in E. apply Nat.ltb_lt. lia. }
    rewrite E2. apply filter_ext. intros o. rewrite !andb_true_r. reflexivity.
  - apply filter_all. intros o _. rewrite andb_false_r. reflexivity.
Qed.

Lemma trim_removes_mono : forall now now' o, clock_ok now -> clock_ok now' -> now <= now' ->
  trim_removes (trim_cutoff now) o = true -> trim_removes (trim_cutoff now') o = true.
Proof.
  intros now now' o Hc Hc' Hle. unfold trim_removes.
  destruct (trim_cutoff_spec now Hc) as [-> Hok]. destruct (trim_cutoff_spec now' Hc') as [-> Hok'].
  rewrite !time_before_spec, !(ns_of_time_of_ns (_ - _)) by (try apply time_of_ns_valid; assumption).
  rewrite !andb_true_iff, !Z.ltb_lt. intuition lia.
Qed.

(* The next Trim finishes the job: run after an interrupted one (at the same or a later time,
   when it is due) it leaves exactly what it would have left without the interruption. *)
Theorem trim_resume : forall done now now' c, clock_ok now -> clock_ok now' -> now <= now' ->
  trim_due now' (read_record c) = true ->
  trim now' (trim_partial done now c) = trim now' c.
Proof.
  intros done now now' c Hc Hc' Hle Hdue.
  destruct (trim_partial_frame done now c) as (Hroot & Htxt & Hblk).
  unfold trim. rewrite trim_partial_record, Hdue, Hroot, Htxt, Hblk. f_equal.
  destruct (trim_due now (read_record c)) eqn:Hd; [|unfold trim_partial; rewrite Hd; reflexivity].
  destruct (trim_partial_subdirs done now c Hd) as [Hlen Hnth].
  apply (nth_ext _ _ None None); [rewrite !trim_subdirs_length; exact Hlen|].
  intros i _. rewrite !trim_subdirs_nth, Hnth.
  destruct (nth i (subdirs c) None) as [l|]; [|destruct (Nat.ltb _ _); reflexivity].
  cbn [option_map]. unfold partial_keep.
  destruct (Nat.ltb i (Z.to_nat trim_subdir_count)); f_equal.
  - (* what the first scan removed, the second would have removed *)
    apply filter_absorb. intros o Hk. apply negb_false_iff in Hk. rewrite !andb_true_r in Hk.
    apply andb_true_iff in Hk. rewrite (trim_removes_mono now now' o Hc Hc' Hle (proj1 Hk)). reflexivity.
  - apply filter_all. intros o _. rewrite andb_false_r. reflexivity.
Qed.

(* the exact effect of used on the directory *)
Definition touch (u : Z) (j : nat) (nm : bytes) (i : nat) (o : obj) : obj :=
  if Nat.eqb i j && bytes_eqb (oname o) nm then used_obj u o else o.

Lemma subdir_used : forall u j nm c i,
  subdir i (used u j nm c) = map (touch u j nm i) (subdir i c).
Proof.
  intros u j nm c i. unfold used. rewrite subdir_upd. unfold touch.
  destruct (Nat.eqb i j) eqn:E; simpl.
  - destruct (present i c) eqn:Ep; [reflexivity|].
    rewrite absent_empty by exact Ep. reflexivity.
  - rewrite <- (map_id (subdir i c)) at 1. reflexivity.
Qed.

Lemma used_frame : forall u j nm c,
  rootobjs (used u j nm c) = rootobjs c /\ trimtxt (used u j nm c) = trimtxt c /\
  trimblocked (used u j nm c) = trimblocked c /\ forall i, present i (used u j nm c) = present i c.
Proof. intros. repeat split. intros i. apply present_upd. Qed.

Lemma used_keeps_objects : forall u j nm c i o, In o (subdir i c) ->
  exists o', In o' (subdir i (used u j nm c)) /\ oname o' = oname o /\ odata o' = odata o /\
             okind_of o' = okind_of o.
Proof.
  intros u j nm c i o Ho. rewrite subdir_used. exists (touch u j nm i o).
  split; [apply in_map; exact Ho|]. unfold touch.
  destruct (Nat.eqb i j && bytes_eqb (oname o) nm); [|auto].
  destruct (used_obj_cases u o) as [->| ->]; simpl; auto.
Qed.

(* After an event that calls used on a file at its time u, whatever os.Stat finds under that name
   has an mtime no older than u - mtimeInterval and is still there after a Trim at
   now <= u + trimLimit. *)
Lemma used_kept : forall r c e i n now, dir_ok c -> ev_ok e -> In (i, PUsed (etime e) n) (step_ops r e) ->
  clock_ok now -> now <= etime e + trim_limit ->
  forall o, In o (subdir i (step r c e)) -> oname o = n -> stat_ok (okind_of o) = true ->
  etime e - mtime_interval <= omtime o /\ In o (subdir i (trim now (step r c e))).
Proof.
  intros r c e i n now Hok Hev Hin Hn Hle o.
  apply (refreshed_kept n (etime e) stat_ok); try assumption; [apply dir_ok_step; assumption|].
  apply (op_refreshes r stat_ok c e i (PUsed (etime e) n)); auto.
Qed.

Theorem lookup_refreshes : forall c u now ia na id nd, dir_ok c -> clock_ok u -> clock_ok now ->
  now <= u + trim_limit ->
  let c' := lookup u ia na id nd c in
  forall i n, (i = ia /\ n = na) \/ (i = id /\ n = nd) ->
  (forall o, In o (subdir i c) -> oname o = n ->
     exists o', In o' (subdir i c') /\ oname o' = n /\ odata o' = odata o /\ okind_of o' = okind_of o) /\
  (forall o', In o' (subdir i c') -> oname o' = n -> stat_ok (okind_of o') = true ->
     u - mtime_interval <= omtime o' /\ In o' (subdir i (trim now c'))).
Proof.
  intros c u now ia na id nd Hok Hc Hn Hle c' i n Hwhich. split.
  - intros o Ho Hname. unfold c', lookup, api_output_file, api_get.
    destruct (used_keeps_objects u ia na c i o Ho) as (o1 & H1 & A1 & B1 & C1).
    destruct (used_keeps_objects u id nd _ i o1 H1) as (o2 & H2 & A2 & B2 & C2).
    exists o2. split; [exact H2|]. rewrite A2, A1, B2, B1, C2, C1. auto.
  - apply (used_kept true c (ELookup u ia na id nd)); try assumption; [split; [exact Hc|exact I]|].
    destruct Hwhich as [[-> ->]|[-> ->]]; simpl; auto.
Qed.

Lemma run_app : forall r c a b, run r c (a ++ b) = run r (run r c a) b.
Proof. intros. unfold run. apply fold_left_app. Qed.

Lemma sorted_split : forall (R : event -> event -> Prop) pre e post,
  StronglySorted R (pre ++ e :: post) -> Forall (R e) post.
Proof.
  intros R pre. induction pre as [|x pre IH]; intros e post H; simpl in H.
  - apply StronglySorted_inv in H. tauto.
  - apply StronglySorted_inv in H. apply IH. tauto.
Qed.

(* The invariant behind trim_keeps_recent, for every history with a monotone clock: the mtime
   of a regular file is never older than (any of its uses) - mtimeInterval. *)
Theorem lastuse_invariant : forall c h, dir_ok c ->
  Forall ev_ok h ->
  StronglySorted (fun a b => etime a <= etime b) h ->
  forall e i n o, In e h -> uses e i n ->
  In o (subdir i (run true c h)) -> oname o = n -> okind_of o = KFile ->
  etime e - mtime_interval <= omtime o.
Proof.
  intros c h Hok Hc Hs e i n o He Hu Ho Hn Hk.
  destruct (in_split e h He) as (pre & post & ->).
  rewrite run_app in Ho. simpl in Ho.
  apply Forall_app in Hc. destruct Hc as [Hpre Hc]. inversion Hc as [|? ? Hce Hpost]; subst.
  assert (HK : refreshed (oname o) (etime e) is_file (subdir i (run true (step true (run true c pre) e) post))).
  { apply refreshed_run; [apply (sorted_split _ _ _ _ Hs)|assumption|].
    apply use_refreshes; auto. apply dir_ok_run; assumption. }
  apply (HK o Ho); [reflexivity|]. rewrite Hk. reflexivity.
Qed.

Lemma has_file_spec : forall nm l,
  has_file nm l = true <-> exists o, In o l /\ oname o = nm /\ okind_of o = KFile.
Proof.
  intros nm l. unfold has_file. rewrite existsb_exists. split.
  - intros (o & Ho & H). apply andb_true_iff in H. destruct H as [H1 H2].
    exists o. split; [exact Ho|]. split; [apply bytes_eqb_eq; exact H1|apply is_file_file; exact H2].
  - intros (o & Ho & Hn & Hk). exists o. split; [exact Ho|].
    rewrite Hn, Hk, bytes_eqb_refl. reflexivity.
Qed.

Lemma retained_file : forall n u l, retained n u is_file l -> has_file n l = true.
Proof.
  intros n u l (o & Ho & Hn & Hk & _). apply has_file_spec. exists o. auto using is_file_file.
Qed.

Lemma use_retains : forall r c e i n, dir_ok c -> ev_ok e -> uses e i n ->
  r = true \/ store_refreshes c e i n -> has_file n (subdir i (step r c e)) = true ->
  retained n (etime e) is_file (subdir i (step r c e)).
Proof.
  intros r c e i n Hok Hev Hu Hr Hf. apply retained_of_refreshed.
  - apply use_refreshes; assumption.
  - apply dir_ok_subdir, dir_ok_step; assumption.
  - apply has_file_spec in Hf. destruct Hf as (o & Ho & Hn & Hk). exists o. rewrite Hk. auto.
Qed.

(* Histories: whatever happened before, once a file has been used (stored or looked up) at
   time u and is there, it is still there after ANY sequence of further stores, lookups and
   trims whose times lie within trimLimit after u — in the repaired code; in the code as it stood
   before the repair of copyFile provided the use is not a store that finds its output already
   there (then nothing refreshed the data file). *)
Theorem survives : forall r c pre e post i n, dir_ok c ->
  Forall ev_ok (pre ++ e :: post) -> uses e i n ->
  r = true \/ store_refreshes (run r c pre) e i n ->
  has_file n (subdir i (run r c (pre ++ [e]))) = true ->
  Forall (fun e' => etime e <= etime e' <= etime e + trim_limit) post ->
  has_file n (subdir i (run r c (pre ++ e :: post))) = true.
Proof.
  intros r c pre e post i n Hok Hc Hu Hr Hex Hpost.
  rewrite run_app in *. simpl in *.
  apply Forall_app in Hc. destruct Hc as [Hpre Hc]. inversion Hc as [|? ? Hce Hcpost]; subst.
  apply (retained_file n (etime e)), retained_run; try assumption.
  apply use_retains; try assumption. apply dir_ok_run; assumption.
Qed.

Lemma used_files_uses : forall e i n, In (i, n) (used_files e) -> uses e i n.
Proof.
  intros e i n H. destruct e; simpl in *;
    repeat (destruct H as [H|H]; [inversion H; subst; auto|]); contradiction.
Qed.

Definition tracked_ok (c : cdir) (x : nat * bytes * Z) : Prop :=
  retained (snd (fst x)) (snd x) is_file (subdir (fst (fst x)) c).

Lemma holds_from_true : forall h tracked c, dir_ok c ->
  Forall ev_ok h -> Forall (tracked_ok c) tracked ->
  holds_from true trim_limit tracked c h = true.
Proof.
  induction h as [|e h IH]; intros tracked c Hok Hc Htr; [reflexivity|].
  inversion Hc as [|? ? Hce Hch]; subst. cbn [holds_from].
  set (c' := step true c e). set (t := etime e).
  set (still := filter (fun x => (snd x <=? t) && (t <=? snd x + trim_limit)) tracked).
  assert (Hstill : Forall (tracked_ok c') still).
  { apply Forall_forall. intros x Hx. apply filter_In in Hx. destruct Hx as [Hx Hw].
    apply andb_true_iff in Hw. rewrite !Z.leb_le in Hw.
    rewrite Forall_forall in Htr. apply retained_step; [exact Hce|exact Hw|exact (Htr x Hx)]. }
  apply andb_true_iff. split.
  - apply forallb_forall. intros x Hx. rewrite Forall_forall in Hstill.
    apply (retained_file _ _ _ (Hstill x Hx)).
  - apply IH; [apply dir_ok_step; assumption|assumption|]. apply Forall_app. split; [|exact Hstill].
    apply Forall_forall. intros x Hx. apply in_map_iff in Hx. destruct Hx as ([i n] & <- & Hp).
    apply filter_In in Hp. destruct Hp as [Hp Hf].
    apply use_retains; auto. apply used_files_uses. exact Hp.
Qed.

Definition ex_day : Z := 24 * 3600 * nano.
Definition ex_xa : bytes := [x78; x2d; x61].   (* "x-a" *)
Definition ex_xd : bytes := [x78; x2d; x64].   (* "x-d" *)
Definition ex_I : bytes := [x49].
Definition ex_D : bytes := [x44].

(* an output stored on day 1 and not looked up since; on day 10 it is stored again *)
Definition ex_stale : cdir := mkDir [Some [mkObj ex_xd ex_day ex_D KFile]] [] None false.
Definition ex_restore : event := EStore (10 * ex_day) (10 * ex_day) 0 ex_xa ex_I 0 ex_xd ex_D.


(* With the store as the code had it, [survives] without its side condition is false: the data
   file stored at day 10 is removed by a Trim at the same instant (the index file survives). *)
Theorem store_asis_refuted : exists c pre e post i n,
  dir_ok c /\ Forall ev_ok (pre ++ e :: post) /\ uses e i n /\
  (exists o, In o (subdir i (run false c (pre ++ [e]))) /\ oname o = n /\ okind_of o = KFile) /\
  Forall (fun e' => etime e <= etime e' <= etime e + trim_limit) post /\
  ~ (exists o, In o (subdir i (run false c (pre ++ e :: post))) /\ oname o = n /\ okind_of o = KFile).
Proof.
  exists ex_stale, [], ex_restore, [ETrim (10 * ex_day)], 0%nat, ex_xd.
  split; [|split; [|split; [|split; [|split]]]].
  - intros l o Hl Ho. destruct Hl as [Hl|[]]. inversion Hl; subst. destruct Ho as [<-|[]]. unfold ns_ok. by_eval.
  - repeat (apply Forall_cons; [by_eval|]); apply Forall_nil.
  - right. split; reflexivity.
  - exists (mkObj ex_xd ex_day ex_D KFile). split; [vm_compute; left; reflexivity|split; reflexivity].
  - repeat (apply Forall_cons; [simpl; by_eval|]); apply Forall_nil.
  - intros (o & Ho & Hn & _). vm_compute in Ho. destruct Ho as [<-|[]]. discriminate Hn.
Qed.

(* the executable statement finds it, and is true for the repaired store *)
Example ex_holds_on :
  holds_from false stated_limit [] ex_stale [ex_restore; ETrim (10 * ex_day)] = false /\
  c13_holds_on ex_stale [ex_restore; ETrim (10 * ex_day)] = true.
Proof. vm_compute. split; reflexivity. Qed.

Example ex_restore_fixed :
  subdir 0 (run true ex_stale [ex_restore; ETrim (10 * ex_day)]) =
  [mkObj ex_xd (10 * ex_day) ex_D KFile; mkObj ex_xa (10 * ex_day) ex_I KFile].
Proof. vm_compute. reflexivity. Qed.

(* Get alone does not protect the data file: an entry stored on day 1, found by Get on day 5
   and not otherwise used, loses its output to a trim on day 7 while the index entry
   survives.  (Get's contract says so: "finding an output ID does not guarantee that the saved
   file for that output ID is still available"; GetFile/GetBytes/OutputFile refresh it.) *)
Definition ex_entry : cdir :=
  mkDir [Some [mkObj ex_xa ex_day ex_I KFile; mkObj ex_xd ex_day ex_D KFile]] [] None false.

Theorem get_only_data_not_protected : exists c u now ia na id nd,
  dir_ok c /\ clock_ok u /\ clock_ok now /\ u <= now <= u + trim_limit /\
  has_file na (subdir ia c) = true /\ has_file nd (subdir id c) = true /\
  let c' := trim now (api_get u ia na c) in
  has_file na (subdir ia c') = true /\ has_file nd (subdir id c') = false.
Proof.
  exists ex_entry, (5 * ex_day), (7 * ex_day), 0%nat, ex_xa, 0%nat, ex_xd.
  split; [|split; [|split; [|split; [|split; [|split]]]]].
  - intros l o Hl Ho. destruct Hl as [Hl|[]]. inversion Hl; subst.
    destruct Ho as [<-|[<-|[]]]; unfold ns_ok; by_eval.
  - by_eval.
  - by_eval.
  - by_eval.
  - vm_compute. reflexivity.
  - vm_compute. reflexivity.
  - vm_compute. split; reflexivity.
Qed.

Definition ex_now : Z := 1800000000123456789.
Definition ex_sec : Z := 1800000000.

(* trim.txt contents: in the window / a day old to the second / just under an hour ahead /
   an hour ahead / the largest int64 (time.Unix wraps) / a value whose difference wraps into
   the window in int64 arithmetic (Sub's overflow check catches it) / white space / junk *)
Example ex_records :
  map (fun t => trim_due ex_now (Some (decimal t)))
      [ex_sec; ex_sec - 86399; ex_sec - 86400; ex_sec + 3600; ex_sec + 3601;
       9223372036854775807; -9223372036854775808; ex_sec - 36028797018963968]
  = [false; false; true; false; true; true; true; true]
  /\ trim_due ex_now (Some ([x20; x09] ++ decimal ex_sec ++ [x0a])) = false
  /\ trim_due ex_now (Some (decimal ex_sec ++ [x78])) = true
  /\ trim_due ex_now (Some []) = true
  /\ trim_due ex_now (Some (decimal 9223372036854775808)) = true
  /\ trim_due ex_now None = true.
Proof.
  assert (Hc : clock_ok ex_now) by by_eval.
  assert (D : forall t b, i64 t ->
            negb ((ex_now - t * nano <? trim_interval) && (ex_now - t * nano >? - mtime_interval)) = b ->
            trim_due ex_now (Some (decimal t)) = b).
  { intros t b Ht <-. apply trim_due_char; [exact Hc|]. rewrite trim_space_decimal. apply decimal_parse, Ht. }
  split; [cbn [map]; repeat (apply f_equal2; [apply D; [by_eval|vm_compute; reflexivity]|]); reflexivity|].
  vm_compute. repeat split; reflexivity.
Qed.

Example ex_in_window : record_in_window ex_now (Some ([x20] ++ decimal (ex_sec + 3600) ++ [x0a])).
Proof.
  exists ([x20] ++ decimal (ex_sec + 3600) ++ [x0a]), (ex_sec + 3600).
  split; [reflexivity|]. split; [vm_compute; reflexivity|]. by_eval.
Qed.

Example ex_stale_record : record_stale ex_now (Some (decimal 9223372036854775807)).
Proof.
  right. exists (decimal 9223372036854775807). split; [reflexivity|]. right.
  exists 9223372036854775807. split; [vm_compute; reflexivity|]. right. vm_compute. discriminate.
Qed.

(* a population around the cutoff: entries exactly at, 1 ns before and after now - trimLimit -
   mtimeInterval; foreign names; a non-empty directory, a dangling link and an old link to a
   file with entry names; a missing subdirectory *)
Definition ex_cut : Z := ex_now - trim_limit - mtime_interval.
Definition ex_pop : cdir :=
  mkDir [Some [mkObj ex_xa (ex_cut - 1) ex_I KFile; mkObj ex_xd ex_cut ex_D KFile;
               mkObj [x52] 0 [] KFile (* "R", foreign *); mkObj [x2d; x61] 0 [] KFullDir;
               mkObj [x2d; x64] 0 [] KDangling; mkObj [x71; x2d; x64] 5 [] KEmptyDir;
               mkObj [x6c; x2d; x64] 7 ex_D KLink];
         None;
         Some [mkObj ex_xa 0 ex_I KFile]]
        [mkObj ex_xa 0 [] KFile (* an old "x-a" in the cache root is not an entry *)]
        (Some (decimal (ex_sec - 86400))) false.

Example ex_pop_ok : dir_ok ex_pop /\ clock_ok ex_now /\ record_stale ex_now (read_record ex_pop).
Proof.
  split; [|split].
  - intros l o Hl Ho. unfold ns_ok.
    repeat (destruct Hl as [Hl|Hl]; [try discriminate Hl; inversion Hl; subst;
                                     repeat (destruct Ho as [<-|Ho]; [by_eval|]); destruct Ho|]).
    destruct Hl.
  - by_eval.
  - right. eexists. split; [reflexivity|]. right. exists (ex_sec - 86400).
    split; [vm_compute; reflexivity|]. left. vm_compute. discriminate.
Qed.

Example ex_pop_trim :
  trim ex_now ex_pop =
  mkDir [Some [mkObj ex_xd ex_cut ex_D KFile; mkObj [x52] 0 [] KFile; mkObj [x2d; x61] 0 [] KFullDir;
               mkObj [x2d; x64] 0 [] KDangling];
         None;
         Some []]
        [mkObj ex_xa 0 [] KFile]
        (Some (decimal ex_sec)) false
  /\ trim_err ex_now ex_pop = false.
Proof.
  destruct ex_pop_ok as (_ & Hc & Hs). destruct (trim_runs_otherwise ex_now ex_pop Hc Hs) as (-> & -> & _).
  vm_compute. split; reflexivity.
Qed.

Definition ex_pop_blocked : cdir := mkDir (subdirs ex_pop) (rootobjs ex_pop) None true.

(* trim.txt is a directory: the scan runs, Trim returns the write error, and a second Trim
   runs again *)
Example ex_blocked :
  subdirs (trim ex_now ex_pop_blocked) = subdirs (trim ex_now ex_pop) /\
  trim_err ex_now ex_pop_blocked = true /\
  trimtxt (trim ex_now ex_pop_blocked) = None /\
  trim_due (ex_now + 1) (read_record (trim ex_now ex_pop_blocked)) = true.
Proof.
  destruct ex_pop_ok as (_ & Hc & Hs).
  destruct (trim_runs_otherwise ex_now ex_pop Hc Hs) as (-> & _).
  destruct (trim_runs_otherwise ex_now ex_pop_blocked Hc (or_introl eq_refl)) as (-> & -> & _).
  split; [|split; [|split]]; reflexivity.
Qed.

(* interrupted after the first subdirectory / after all of them: the record is unchanged and
   the next Trim yields the full result *)
Example ex_prefix :
  subdir 0 (trim_prefix 1 ex_now ex_pop) = subdir 0 (trim ex_now ex_pop) /\
  subdir 2 (trim_prefix 1 ex_now ex_pop) = subdir 2 ex_pop /\
  trimtxt (trim_prefix 256 ex_now ex_pop) = trimtxt ex_pop /\
  trim ex_now (trim_prefix 1 ex_now ex_pop) = trim ex_now ex_pop.
Proof.
  destruct ex_pop_ok as (_ & Hc & Hs). pose proof (stale_due _ _ Hc Hs) as Hd.
  rewrite !subdir_trim_prefix, subdir_trim, Hd. split; [|split; [|split]].
  - reflexivity.
  - reflexivity.
  - apply trim_partial_frame.
  - apply trim_resume; [exact Hc|exact Hc|lia|exact Hd].
Qed.

(* a Put whose index subdirectory is missing writes the data file only *)
Example ex_store_data_only :
  run true (mkDir [None; Some []] [] None false)
      [EStoreData 5 5 1 ex_xd ex_D; EStore 6 6 0 ex_xa ex_I 1 ex_xd ex_D] =
  mkDir [None; Some [mkObj ex_xd 5 ex_D KFile]] [] None false.
Proof. vm_compute. reflexivity. Qed.

(* a history: store at day 0, lookup at day 4, trims at day 5 and day 8 keep the entry; so does
   a trim at day 9 + 1 h (mtime = cutoff); one nanosecond later it is removed *)
Definition ex_t0 : Z := 1800000000000000000.
Definition ex_hist : list event :=
  [EStore ex_t0 ex_t0 0 ex_xa ex_I 0 ex_xd ex_D;
   ELookup (ex_t0 + 4 * ex_day) 0 ex_xa 0 ex_xd;
   ETrim (ex_t0 + 5 * ex_day);
   ETrim (ex_t0 + 8 * ex_day)].

Example ex_history :
  subdir 0 (run true (mkDir [Some []] [] None false) (ex_hist ++ [ETrim (ex_t0 + 9 * ex_day + mtime_interval)])) =
    [mkObj ex_xd (ex_t0 + 4 * ex_day) ex_D KFile; mkObj ex_xa (ex_t0 + 4 * ex_day) ex_I KFile]
  /\ subdir 0 (run true (mkDir [Some []] [] None false) (ex_hist ++ [ETrim (ex_t0 + 9 * ex_day + mtime_interval + 1)])) = [].
Proof.
  rewrite !run_app.
  replace (run true (mkDir [Some []] [] None false) ex_hist)
    with (mkDir [Some [mkObj ex_xd (ex_t0 + 4 * ex_day) ex_D KFile; mkObj ex_xa (ex_t0 + 4 * ex_day) ex_I KFile]] []
                (Some (decimal ((ex_t0 + 8 * ex_day) / nano))) false) by (vm_compute; reflexivity).
  vm_compute. split; reflexivity.
Qed.

Example ex_used :
  map (fun age => omtime (used_obj ex_now (mkObj ex_xa (ex_now - age) ex_I KFile)) - ex_now)
      [0; mtime_interval - 1; mtime_interval; mtime_interval + 1; -5]
  = [0; 1 - mtime_interval; 0; 0; 5].
Proof. vm_compute. reflexivity. Qed.
